(* The geometry value as the Go library stores it, parametric in the ordinate carrier F.
   Anchors: geom/type_point.go (Point{coords,full}), geom/type_sequence.go (Sequence{ctype,floats}),
   geom/type_line_string.go, type_polygon.go (Polygon{rings,ctype}), type_multi_*.go,
   type_geometry_collection.go (GeometryCollection{geoms,ctype}), coordinate_type.go.
   The coordinates type is stored at every node, as in Go, so that "all nodes agree" is a
   provable invariant (Consistent) and not true by construction. *)
From Coq Require Import NArith List Bool Lia.
Import ListNotations.

Inductive ctype := XY | XYZ | XYM | XYZM.

Definition has_z (c : ctype) : bool := match c with XYZ | XYZM => true | _ => false end.
Definition has_m (c : ctype) : bool := match c with XYM | XYZM => true | _ => false end.
Definition mk_ct (z m : bool) : ctype :=
  match z, m with
  | false, false => XY | true, false => XYZ | false, true => XYM | true, true => XYZM
  end.
(* geom/coordinate_type.go: Dimension = [4]int{2,3,3,4}[t] *)
Definition dim (c : ctype) : nat := match c with XY => 2 | XYZ => 3 | XYM => 3 | XYZM => 4 end.
(* bitwise AND of the two-bit codes: DimXY=0b00 DimXYZ=0b01 DimXYM=0b10 DimXYZM=0b11 *)
Definition ct_and (a b : ctype) : ctype := mk_ct (has_z a && has_z b) (has_m a && has_m b).
Definition ct_code (c : ctype) : N := match c with XY => 0 | XYZ => 1 | XYM => 2 | XYZM => 3 end%N.
Definition ct_of_code (n : N) : option ctype :=
  match n with
  | 0 => Some XY | 1 => Some XYZ | 2 => Some XYM | 3 => Some XYZM | _ => None
  end%N.
Definition ct_eqb (a b : ctype) : bool :=
  match a, b with
  | XY, XY | XYZ, XYZ | XYM, XYM | XYZM, XYZM => true
  | _, _ => false
  end.

Lemma ct_eqb_eq a b : ct_eqb a b = true <-> a = b.
Proof. destruct a, b; simpl; split; intros; try reflexivity; discriminate. Qed.
Lemma ct_eqb_refl a : ct_eqb a a = true.
Proof. destruct a; reflexivity. Qed.
Lemma ct_of_code_code c : ct_of_code (ct_code c) = Some c.
Proof. destruct c; reflexivity. Qed.
Lemma mk_ct_eta c : mk_ct (has_z c) (has_m c) = c.
Proof. destruct c; reflexivity. Qed.
Lemma ct_and_idem c : ct_and c c = c.
Proof. destruct c; reflexivity. Qed.
Lemma ct_and_comm a b : ct_and a b = ct_and b a.
Proof. destruct a, b; reflexivity. Qed.
Lemma ct_and_assoc a b c : ct_and a (ct_and b c) = ct_and (ct_and a b) c.
Proof. destruct a, b, c; reflexivity. Qed.
Lemma ct_and_xyzm_l c : ct_and XYZM c = c.
Proof. destruct c; reflexivity. Qed.

Inductive gtype := TColl | TPoint | TLine | TPoly | TMPoint | TMLine | TMPoly.
Definition gtype_eqb (a b : gtype) : bool :=
  match a, b with
  | TColl, TColl | TPoint, TPoint | TLine, TLine | TPoly, TPoly
  | TMPoint, TMPoint | TMLine, TMLine | TMPoly, TMPoly => true
  | _, _ => false
  end.

Section AST.
  Variable F : Type.
  Variable zero : F.

  (* geom.Coordinates: all four fields always exist; unused ones are zero *)
  Record vtx := { vx : F; vy : F; vz : F; vm : F }.

  Inductive pointT := MkPoint (ct : ctype) (c : option vtx).
  Inductive lineT := MkLine (ct : ctype) (vs : list vtx).
  Inductive polyT := MkPoly (ct : ctype) (rings : list lineT).

  Inductive geomT :=
  | GPoint (p : pointT)
  | GLine (l : lineT)
  | GPoly (p : polyT)
  | GMPoint (ct : ctype) (ps : list pointT)
  | GMLine (ct : ctype) (ls : list lineT)
  | GMPoly (ct : ctype) (ps : list polyT)
  | GColl (ct : ctype) (gs : list geomT).

  (* nested induction principle *)
  Section Ind.
    Variable P : geomT -> Prop.
    Hypothesis Hpt : forall p, P (GPoint p).
    Hypothesis Hln : forall l, P (GLine l).
    Hypothesis Hpl : forall p, P (GPoly p).
    Hypothesis Hmp : forall ct ps, P (GMPoint ct ps).
    Hypothesis Hml : forall ct ls, P (GMLine ct ls).
    Hypothesis Hmy : forall ct ps, P (GMPoly ct ps).
    Hypothesis Hgc : forall ct gs, Forall P gs -> P (GColl ct gs).
    Fixpoint geomT_ind' (g : geomT) : P g :=
      match g with
      | GPoint p => Hpt p
      | GLine l => Hln l
      | GPoly p => Hpl p
      | GMPoint ct ps => Hmp ct ps
      | GMLine ct ls => Hml ct ls
      | GMPoly ct ps => Hmy ct ps
      | GColl ct gs =>
          Hgc ct gs ((fix go (l : list geomT) : Forall P l :=
                        match l with
                        | [] => Forall_nil P
                        | x :: r => Forall_cons x (geomT_ind' x) (go r)
                        end) gs)
      end.
  End Ind.

  Definition point_ct (p : pointT) := let 'MkPoint ct _ := p in ct.
  Definition line_ct (l : lineT) := let 'MkLine ct _ := l in ct.
  Definition poly_ct (p : polyT) := let 'MkPoly ct _ := p in ct.
  Definition line_vs (l : lineT) := let 'MkLine _ vs := l in vs.
  Definition poly_rings (p : polyT) := let 'MkPoly _ rs := p in rs.
  Definition point_c (p : pointT) := let 'MkPoint _ c := p in c.

  Definition geom_ct (g : geomT) : ctype :=
    match g with
    | GPoint p => point_ct p
    | GLine l => line_ct l
    | GPoly p => poly_ct p
    | GMPoint ct _ | GMLine ct _ | GMPoly ct _ | GColl ct _ => ct
    end.

  Definition geom_type (g : geomT) : gtype :=
    match g with
    | GPoint _ => TPoint | GLine _ => TLine | GPoly _ => TPoly
    | GMPoint _ _ => TMPoint | GMLine _ _ => TMLine | GMPoly _ _ => TMPoly
    | GColl _ _ => TColl
    end.

  (* ---- ForceCoordinatesType (type_point.go, type_sequence.go, ...) ---- *)
  Definition force_vtx (old new : ctype) (v : vtx) : vtx :=
    {| vx := vx v; vy := vy v;
       vz := if has_z new then (if has_z old then vz v else zero) else zero;
       vm := if has_m new then (if has_m old then vm v else zero) else zero |}.

  Definition force_point (new : ctype) (p : pointT) : pointT :=
    match p with
    | MkPoint _ None => MkPoint new None
    | MkPoint old (Some v) => MkPoint new (Some (force_vtx old new v))
    end.
  Definition force_line (new : ctype) (l : lineT) : lineT :=
    let 'MkLine old vs := l in MkLine new (map (force_vtx old new) vs).
  Definition force_poly (new : ctype) (p : polyT) : polyT :=
    let 'MkPoly _ rs := p in MkPoly new (map (force_line new) rs).
  Fixpoint force_geom (new : ctype) (g : geomT) : geomT :=
    match g with
    | GPoint p => GPoint (force_point new p)
    | GLine l => GLine (force_line new l)
    | GPoly p => GPoly (force_poly new p)
    | GMPoint _ ps => GMPoint new (map (force_point new) ps)
    | GMLine _ ls => GMLine new (map (force_line new) ls)
    | GMPoly _ ps => GMPoly new (map (force_poly new) ps)
    | GColl _ gs => GColl new (map (force_geom new) gs)
    end.

  (* ---- constructors (NewPolygon, NewMultiPoint, ...): AND of member types, members forced ---- *)
  Definition and_all {A} (f : A -> ctype) (l : list A) : ctype :=
    fold_left (fun acc a => ct_and acc (f a)) l XYZM.

  (* type_polygon.go:NewPolygon *)
  Definition new_polygon (rings : list lineT) : polyT :=
    let ct := match rings with [] => XY | _ => and_all line_ct rings end in
    MkPoly ct (map (force_line ct) rings).
  (* type_multi_point.go:NewMultiPoint: empty list -> MultiPoint{} (XY) *)
  Definition new_multipoint (ps : list pointT) : geomT :=
    match ps with
    | [] => GMPoint XY []
    | _ => let ct := and_all point_ct ps in GMPoint ct (map (force_point ct) ps)
    end.
  Definition new_multiline (ls : list lineT) : geomT :=
    match ls with
    | [] => GMLine XY []
    | _ => let ct := and_all line_ct ls in GMLine ct (map (force_line ct) ls)
    end.
  Definition new_multipoly (ps : list polyT) : geomT :=
    match ps with
    | [] => GMPoly XY []
    | _ => let ct := and_all poly_ct ps in GMPoly ct (map (force_poly ct) ps)
    end.
  Definition new_collection (gs : list geomT) : geomT :=
    match gs with
    | [] => GColl XY []
    | _ => let ct := and_all geom_ct gs in GColl ct (map (force_geom ct) gs)
    end.

  (* ---- consistency: every node carries the same coordinates type; unused fields are zero ---- *)
  Variable is_zero : F -> bool.

  Definition vtx_ok (ct : ctype) (v : vtx) : bool :=
    (has_z ct || is_zero (vz v)) && (has_m ct || is_zero (vm v)).
  Definition point_ok (ct : ctype) (p : pointT) : bool :=
    let 'MkPoint c o := p in
    ct_eqb c ct && match o with None => true | Some v => vtx_ok ct v end.
  Definition line_ok (ct : ctype) (l : lineT) : bool :=
    let 'MkLine c vs := l in ct_eqb c ct && forallb (vtx_ok ct) vs.
  Definition poly_ok (ct : ctype) (p : polyT) : bool :=
    let 'MkPoly c rs := p in ct_eqb c ct && forallb (line_ok ct) rs.
  Fixpoint geom_ok (ct : ctype) (g : geomT) : bool :=
    match g with
    | GPoint p => point_ok ct p
    | GLine l => line_ok ct l
    | GPoly p => poly_ok ct p
    | GMPoint c ps => ct_eqb c ct && forallb (point_ok ct) ps
    | GMLine c ls => ct_eqb c ct && forallb (line_ok ct) ls
    | GMPoly c ps => ct_eqb c ct && forallb (poly_ok ct) ps
    | GColl c gs => ct_eqb c ct && forallb (geom_ok ct) gs
    end.
  Definition consistent (g : geomT) : bool := geom_ok (geom_ct g) g.

  (* ---- emptiness and dimension (type_geometry.go: IsEmpty, Dimension) ---- *)
  Definition point_empty (p : pointT) := match point_c p with None => true | Some _ => false end.
  Definition line_empty (l : lineT) := match line_vs l with [] => true | _ => false end.
  Definition poly_empty (p : polyT) := match poly_rings p with [] => true | _ => false end.
  Fixpoint is_empty (g : geomT) : bool :=
    match g with
    | GPoint p => point_empty p
    | GLine l => line_empty l
    | GPoly p => poly_empty p
    | GMPoint _ ps => forallb point_empty ps
    | GMLine _ ls => forallb line_empty ls
    | GMPoly _ ps => forallb poly_empty ps
    | GColl _ gs => forallb is_empty gs
    end.

  (* all control points in storage order *)
  Definition point_vs (p : pointT) : list vtx := match point_c p with None => [] | Some v => [v] end.
  Definition poly_vs (p : polyT) : list vtx := flat_map line_vs (poly_rings p).
  Fixpoint geom_vs (g : geomT) : list vtx :=
    match g with
    | GPoint p => point_vs p
    | GLine l => line_vs l
    | GPoly p => poly_vs p
    | GMPoint _ ps => flat_map point_vs ps
    | GMLine _ ls => flat_map line_vs ls
    | GMPoly _ ps => flat_map poly_vs ps
    | GColl _ gs => flat_map geom_vs gs
    end.

  (* nesting depth: 1 for non-collections *)
  Fixpoint depth (g : geomT) : nat :=
    match g with
    | GColl _ gs => S (fold_right (fun x acc => Nat.max (depth x) acc) 0 gs)
    | GMPoint _ _ | GMLine _ _ | GMPoly _ _ => 2
    | _ => 1
    end.
End AST.

Arguments vx {F} _. Arguments vy {F} _. Arguments vz {F} _. Arguments vm {F} _.
Arguments Build_vtx {F} _ _ _ _.
Arguments MkPoint {F} _ _. Arguments MkLine {F} _ _. Arguments MkPoly {F} _ _.
Arguments GPoint {F} _. Arguments GLine {F} _. Arguments GPoly {F} _.
Arguments GMPoint {F} _ _. Arguments GMLine {F} _ _. Arguments GMPoly {F} _ _.
Arguments GColl {F} _ _.
Arguments point_ct {F} _. Arguments line_ct {F} _. Arguments poly_ct {F} _.
Arguments line_vs {F} _. Arguments poly_rings {F} _. Arguments point_c {F} _.
Arguments geom_ct {F} _. Arguments geom_type {F} _.
Arguments force_vtx {F} _ _ _ _. Arguments force_point {F} _ _ _.
Arguments force_line {F} _ _ _. Arguments force_poly {F} _ _ _. Arguments force_geom {F} _ _ _.
Arguments and_all {A} _ _.
Arguments new_polygon {F} _ _. Arguments new_multipoint {F} _ _. Arguments new_multiline {F} _ _.
Arguments new_multipoly {F} _ _. Arguments new_collection {F} _ _.
Arguments vtx_ok {F} _ _ _. Arguments point_ok {F} _ _ _. Arguments line_ok {F} _ _ _.
Arguments poly_ok {F} _ _ _. Arguments geom_ok {F} _ _ _. Arguments consistent {F} _ _.
Arguments point_empty {F} _. Arguments line_empty {F} _. Arguments poly_empty {F} _.
Arguments is_empty {F} _. Arguments point_vs {F} _. Arguments poly_vs {F} _. Arguments geom_vs {F} _.
Arguments depth {F} _.
Arguments geomT_ind' {F} _ _ _ _ _ _ _ _ _.

(* ---------------- facts about lists of members that the standard library lacks *)
Lemma existsb_map {A B} (f : B -> bool) (g : A -> B) l : existsb f (map g l) = existsb (fun x => f (g x)) l.
Proof. induction l; simpl; congruence. Qed.
Lemma forallb_map {A B} (f : B -> bool) (g : A -> B) l : forallb f (map g l) = forallb (fun x => f (g x)) l.
Proof. induction l; simpl; congruence. Qed.
Lemma flat_map_map {A B C} (f : B -> list C) (g : A -> B) l : flat_map f (map g l) = flat_map (fun x => f (g x)) l.
Proof. induction l; simpl; congruence. Qed.
Lemma existsb_flat_map {A B} (f : B -> bool) (g : A -> list B) l :
  existsb f (flat_map g l) = existsb (fun x => existsb f (g x)) l.
Proof. induction l; simpl; auto. rewrite existsb_app, IHl. reflexivity. Qed.
Lemma forallb_flat_map {A B} (f : B -> bool) (g : A -> list B) l :
  forallb f (flat_map g l) = forallb (fun x => forallb f (g x)) l.
Proof. induction l; simpl; auto. rewrite forallb_app, IHl. reflexivity. Qed.
Lemma map_flat_map {A B C} (f : B -> C) (g : A -> list B) l : map f (flat_map g l) = flat_map (fun x => map f (g x)) l.
Proof. induction l; simpl; auto. rewrite map_app, IHl. reflexivity. Qed.
Lemma flat_map_flat_map {A B C} (f : B -> list C) (g : A -> list B) l :
  flat_map f (flat_map g l) = flat_map (fun x => flat_map f (g x)) l.
Proof. induction l; simpl; auto. rewrite flat_map_app, IHl. reflexivity. Qed.

Lemma existsb_ext_in {A} (f g : A -> bool) l : (forall x, In x l -> f x = g x) -> existsb f l = existsb g l.
Proof. induction l; simpl; auto. intros H. rewrite (H a), IHl; auto. Qed.
Lemma forallb_ext_in {A} (f g : A -> bool) l : (forall x, In x l -> f x = g x) -> forallb f l = forallb g l.
Proof. induction l; simpl; auto. intros H. rewrite (H a), IHl; auto. Qed.
Lemma flat_map_ext_in {A B} (f g : A -> list B) l : (forall x, In x l -> f x = g x) -> flat_map f l = flat_map g l.
Proof. induction l; simpl; auto. intros H. rewrite (H a), IHl; auto. Qed.
Lemma existsb_all_false {A} (f : A -> bool) l : (forall x, In x l -> f x = false) -> existsb f l = false.
Proof. intros H. rewrite (existsb_ext_in f (fun _ => false) l H). clear. induction l; auto. Qed.
Lemma flat_map_nil {A B} (f : A -> list B) l : (forall x, In x l -> f x = []) -> flat_map f l = [].
Proof. intros H. rewrite (flat_map_ext_in f (fun _ => []) l H). clear. induction l; auto. Qed.
Lemma map_id_on {A} (f : A -> A) l : (forall x, In x l -> f x = x) -> map f l = l.
Proof. intros H. rewrite (map_ext_in f id l H). apply map_id. Qed.

Lemma last_cons_default {A} (b : A) l a : last (b :: l) a = last l b.
Proof.
  revert b a. induction l as [|c l IH]; intros b a; [reflexivity|].
  change (last (c :: l) a = last (c :: l) b). rewrite !IH. reflexivity.
Qed.
Lemma last_map {A B} (f : A -> B) l d : last (map f l) (f d) = f (last l d).
Proof. induction l as [|a [|b l] IH]; simpl in *; auto. Qed.
Lemma last_in {A} (l : list A) a : In (last l a) (a :: l).
Proof. revert a. induction l as [|b l IH]; intros a; [left; reflexivity|]. rewrite last_cons_default. right. apply IH. Qed.
