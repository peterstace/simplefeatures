(* Unsigned LEB128 varints and zig-zag signed varints, as Go's encoding/binary reads and writes
   them (binary.PutUvarint / Uvarint / PutVarint / Varint, Go 1.23), over byte lists (N < 256).
   Round trips are proved for every uint64 / int64 value, with arbitrary trailing bytes. *)
From Coq Require Import NArith ZArith List Bool Lia.
From Coq Require Import ZifyN ZifyNat ZifyBool.
Import ListNotations.

Ltac Zify.zify_post_hook ::= Z.div_mod_to_equations.

Definition two63 : Z := 9223372036854775808%Z.
Definition two64 : Z := 18446744073709551616%Z.
Definition two64N : N := 18446744073709551616%N.

Definition in_i64 (z : Z) : Prop := (- two63 <= z < two63)%Z.
Definition in_i64b (z : Z) : bool := ((- two63 <=? z) && (z <? two63))%Z.
Lemma in_i64b_iff z : in_i64b z = true <-> in_i64 z.
Proof. unfold in_i64b, in_i64. lia. Qed.

(* two's-complement reinterpretation of an integer as int64 (Go's wrapping arithmetic and
   the uint64 -> int conversion) *)
Definition wrap64 (z : Z) : Z := ((z + two63) mod two64 - two63)%Z.

Lemma wrap64_id z : in_i64 z -> wrap64 z = z.
Proof. unfold wrap64, in_i64, two63, two64. lia. Qed.
Lemma wrap64_range z : in_i64 (wrap64 z).
Proof. unfold wrap64, in_i64, two63, two64. lia. Qed.
(* delta coding survives the wrap: ref + (v - ref) = v in int64 arithmetic *)
Lemma wrap64_delta v r : in_i64 v -> wrap64 (r + wrap64 (v - r)) = v.
Proof. unfold wrap64, in_i64, two63, two64. lia. Qed.

(* ------------------------------------------------------------------ unsigned *)
Local Open Scope N_scope.

(* binary.PutUvarint: for x >= 0x80 { emit byte(x)|0x80; x >>= 7 }; emit byte(x).
   Nine continuation bytes exhaust every x < 2^64, so the fuel 9 is never the reason to stop. *)
Fixpoint uv_enc_f (fuel : nat) (x : N) : list N :=
  match fuel with
  | O => [x]
  | S f => if x <? 128 then [x] else (x mod 128 + 128) :: uv_enc_f f (x / 128)
  end.
Definition uv_enc (x : N) : list N := uv_enc_f 9 x.

Inductive vres :=
| VOk (v : N) (rest : list N)
| VShort          (* Uvarint returned n = 0: buffer too small *)
| VOverflow.      (* Uvarint returned n < 0: more than 10 bytes, or 10th byte > 1 *)

(* binary.Uvarint: byte i contributes (b & 0x7f) << 7i; index 10 is an overflow, and so is a
   final byte > 1 at index 9. The accumulation x |= b<<s is written as the equivalent
   b + 128 * (value of the following bytes); the bits never overlap. *)
Definition uv_acc (b v : N) : N := b mod 128 + 128 * v.
Arguments uv_acc : simpl never.
Fixpoint uv_dec_at (i : nat) (bs : list N) : vres :=
  match bs with
  | [] => VShort
  | b :: r =>
      if Nat.eqb i 10 then VOverflow
      else if b <? 128 then
        (if Nat.eqb i 9 && (1 <? b) then VOverflow else VOk b r)
      else match uv_dec_at (S i) r with
           | VOk v rest => VOk (uv_acc b v) rest
           | e => e
           end
  end.
Definition uv_dec (bs : list N) : vres := uv_dec_at 0 bs.

(* the value bound shrinks by seven bits per byte read *)
Lemma pow_step i : (i <= 8)%nat -> 2 ^ (64 - 7 * N.of_nat i) = 128 * 2 ^ (64 - 7 * N.of_nat (S i)).
Proof.
  intros H. replace (64 - 7 * N.of_nat i) with (7 + (64 - 7 * N.of_nat (S i))) by lia.
  rewrite N.pow_add_r. reflexivity.
Qed.

Lemma uv_enc_f_roundtrip fuel : forall i x rest,
  (i + fuel = 9)%nat -> x < 2 ^ (64 - 7 * N.of_nat i) ->
  uv_dec_at i (uv_enc_f fuel x ++ rest) = VOk x rest.
Proof.
  induction fuel as [|f IH]; intros i x rest Hi Hx.
  - assert (i = 9%nat) by lia. subst i. cbn [uv_enc_f app uv_dec_at Nat.eqb andb].
    change (2 ^ (64 - 7 * N.of_nat 9)) with 2 in Hx.
    destruct (N.ltb_spec x 128); [|lia]. destruct (N.ltb_spec 1 x); [lia|]. reflexivity.
  - cbn [uv_enc_f]. destruct (N.ltb_spec x 128) as [Hlt|Hge].
    + cbn [app uv_dec_at]. destruct (Nat.eqb_spec i 10); [lia|].
      destruct (N.ltb_spec x 128); [|lia]. destruct (Nat.eqb_spec i 9); [lia|]. reflexivity.
    + cbn [app uv_dec_at]. destruct (Nat.eqb_spec i 10); [lia|].
      destruct (N.ltb_spec (x mod 128 + 128) 128); [lia|].
      rewrite IH.
      * f_equal. unfold uv_acc. lia.
      * lia.
      * rewrite pow_step in Hx by lia. remember (2 ^ (64 - 7 * N.of_nat (S i))) as P. clear HeqP. lia.
Qed.

Theorem uvarint_roundtrip_lemma x rest : x < two64N -> uv_dec (uv_enc x ++ rest) = VOk x rest.
Proof. intros H. apply uv_enc_f_roundtrip; [reflexivity|exact H]. Qed.

(* a successful read consumes at least one byte and returns a suffix of its input *)
Lemma uv_dec_at_suffix : forall bs i v rest,
  uv_dec_at i bs = VOk v rest -> exists pre, bs = pre ++ rest /\ (1 <= length pre)%nat.
Proof.
  induction bs as [|b r IH]; intros i v rest H; cbn [uv_dec_at] in H; [discriminate|].
  destruct (Nat.eqb i 10); [discriminate|].
  destruct (b <? 128).
  - destruct (Nat.eqb i 9 && (1 <? b)); [discriminate|]. inversion H; subst.
    exists [v]. split; [reflexivity|cbn; lia].
  - destruct (uv_dec_at (S i) r) as [v' rest'| |] eqn:E; try discriminate.
    injection H as Hv Hr. subst v rest. apply IH in E. destruct E as [pre [-> Hl]].
    exists (b :: pre). split; [reflexivity|cbn; lia].
Qed.

Lemma uv_dec_length bs v rest : uv_dec bs = VOk v rest -> (length rest < length bs)%nat.
Proof.
  intros H. apply uv_dec_at_suffix in H. destruct H as [pre [-> Hl]]. rewrite app_length. lia.
Qed.

(* the decoded value fits a uint64 *)
Lemma uv_dec_at_bound : forall bs i v rest,
  (i <= 9)%nat -> uv_dec_at i bs = VOk v rest -> v < 2 ^ (64 - 7 * N.of_nat i).
Proof.
  induction bs as [|b r IH]; intros i v rest Hi H; cbn [uv_dec_at] in H; [discriminate|].
  destruct (Nat.eqb_spec i 10); [discriminate|].
  destruct (N.ltb_spec b 128).
  - destruct (Nat.eqb_spec i 9) as [->|Hn].
    + cbn [andb] in H. destruct (N.ltb_spec 1 b); [discriminate|]. inversion H; subst.
      change (2 ^ (64 - 7 * N.of_nat 9)) with 2. lia.
    + cbn [andb] in H. inversion H; subst.
      assert (2 ^ 7 <= 2 ^ (64 - 7 * N.of_nat i)) by (apply N.pow_le_mono_r; lia).
      change (2 ^ 7) with 128 in *. lia.
  - destruct (uv_dec_at (S i) r) as [v' rest'| |] eqn:E; try discriminate.
    injection H as Hv Hr. subst v rest.
    destruct (Nat.eqb_spec i 9) as [->|Hn].
    + (* the 10th byte is a continuation byte: index 10 follows and is an overflow (or the
         buffer ends) *)
      destruct r as [|b' r']; cbn [uv_dec_at Nat.eqb] in E; discriminate.
    + apply IH in E; [|lia].
      rewrite pow_step by lia. remember (2 ^ (64 - 7 * N.of_nat (S i))) as P. clear HeqP. unfold uv_acc. lia.
Qed.

Lemma uv_dec_bound bs v rest : uv_dec bs = VOk v rest -> v < two64N.
Proof. intros H. apply uv_dec_at_bound in H; [exact H|lia]. Qed.

Lemma uv_enc_nonempty x : (1 <= length (uv_enc x))%nat.
Proof. unfold uv_enc. cbn [uv_enc_f]. destruct (x <? 128); cbn [length]; lia. Qed.

(* ------------------------------------------------------------------ zig-zag *)
(* binary.PutVarint: ux := uint64(x) << 1; if x < 0 { ux = ^ux }
   binary.Varint:    x := int64(ux >> 1); if ux&1 != 0 { x = ^x }
   (geom/twkb.go:encodeZigZagInt64/decodeZigZagInt64 are the same maps) *)
Definition zz_enc (x : Z) : N := Z.to_N (if (x <? 0)%Z then (- 2 * x - 1)%Z else (2 * x)%Z).
Definition zz_dec (u : N) : Z :=
  if u mod 2 =? 0 then Z.of_N (u / 2) else (- Z.of_N (u / 2) - 1)%Z.

Lemma zz_enc_bound x : in_i64 x -> zz_enc x < two64N.
Proof. unfold zz_enc, in_i64, two63, two64N. destruct (Z.ltb_spec x 0); lia. Qed.

Lemma zigzag_roundtrip_lemma x : in_i64 x -> zz_dec (zz_enc x) = x /\ zz_enc x < two64N.
Proof.
  intros H. split; [|apply zz_enc_bound; exact H].
  unfold zz_dec, zz_enc, in_i64, two63 in *.
  destruct (Z.ltb_spec x 0) as [Hx|Hx].
  - remember (Z.to_N (-2 * x - 1)) as u eqn:Eu.
    destruct (N.eqb_spec (u mod 2) 0) as [E|E]; lia.
  - remember (Z.to_N (2 * x)) as u eqn:Eu.
    destruct (N.eqb_spec (u mod 2) 0) as [E|E]; lia.
Qed.

Lemma zz_dec_range u : u < two64N -> in_i64 (zz_dec u).
Proof. unfold zz_dec, in_i64, two63, two64N. destruct (u mod 2 =? 0); lia. Qed.

Definition sv_enc (x : Z) : list N := uv_enc (zz_enc x).

Inductive sres :=
| SOk (v : Z) (rest : list N)
| SShort
| SOverflow.
Definition sv_dec (bs : list N) : sres :=
  match uv_dec bs with
  | VOk u rest => SOk (zz_dec u) rest
  | VShort => SShort
  | VOverflow => SOverflow
  end.

Theorem svarint_roundtrip_lemma x rest : in_i64 x -> sv_dec (sv_enc x ++ rest) = SOk x rest.
Proof.
  intros H. unfold sv_dec, sv_enc. destruct (zigzag_roundtrip_lemma x H) as [E B].
  rewrite uvarint_roundtrip_lemma by exact B. rewrite E. reflexivity.
Qed.

Lemma sv_dec_length bs v rest : sv_dec bs = SOk v rest -> (length rest < length bs)%nat.
Proof.
  unfold sv_dec. destruct (uv_dec bs) eqn:E; try discriminate. intros H. inversion H; subst.
  eapply uv_dec_length; eauto.
Qed.
Lemma sv_dec_range bs v rest : sv_dec bs = SOk v rest -> in_i64 v.
Proof.
  unfold sv_dec. destruct (uv_dec bs) eqn:E; try discriminate. intros H. inversion H; subst.
  apply zz_dec_range. eapply uv_dec_bound; eauto.
Qed.
Lemma sv_enc_nonempty x : (1 <= length (sv_enc x))%nat.
Proof. apply uv_enc_nonempty. Qed.
