(* Little/big-endian fixed-width integers over byte lists. A byte is an N below 256. *)
From Coq Require Import NArith List Lia ZArith.
From Coq Require Import ZifyN ZifyNat ZifyBool.
Import ListNotations.
Local Open Scope N_scope.

Ltac Zify.zify_post_hook ::= Z.div_mod_to_equations.

Definition byte_ok (b : N) : Prop := b < 256.
Definition bytes_ok (bs : list N) : Prop := Forall byte_ok bs.

(* k little-endian bytes of n (low byte first) *)
Fixpoint le_bytes (k : nat) (n : N) : list N :=
  match k with
  | O => []
  | S k' => n mod 256 :: le_bytes k' (n / 256)
  end.

(* value of a little-endian byte list *)
Fixpoint rd_le (bs : list N) : N :=
  match bs with
  | [] => 0
  | b :: r => b + 256 * rd_le r
  end.

Definition be_bytes (k : nat) (n : N) : list N := rev (le_bytes k n).
Definition rd_be (bs : list N) : N := rd_le (rev bs).

Inductive endian := BE | LE.

Definition put (e : endian) (k : nat) (n : N) : list N :=
  match e with LE => le_bytes k n | BE => be_bytes k n end.
Definition get (e : endian) (bs : list N) : N :=
  match e with LE => rd_le bs | BE => rd_be bs end.

(* split off exactly k bytes *)
Fixpoint take (k : nat) (bs : list N) : option (list N * list N) :=
  match k with
  | O => Some ([], bs)
  | S k' => match bs with
            | [] => None
            | b :: r => match take k' r with
                        | Some (h, t) => Some (b :: h, t)
                        | None => None
                        end
            end
  end.

Lemma le_bytes_length k n : length (le_bytes k n) = k.
Proof. revert n; induction k; simpl; intros; auto. Qed.

Lemma put_length e k n : length (put e k n) = k.
Proof. destruct e; unfold put, be_bytes; rewrite ?rev_length; apply le_bytes_length. Qed.

Lemma le_bytes_ok k n : bytes_ok (le_bytes k n).
Proof.
  revert n; induction k; simpl; intros; constructor.
  - unfold byte_ok. lia.
  - apply IHk.
Qed.

Lemma put_ok e k n : bytes_ok (put e k n).
Proof.
  destruct e; unfold put, be_bytes.
  - apply Forall_rev. apply le_bytes_ok.
  - apply le_bytes_ok.
Qed.

Lemma rd_le_bytes k n : n < 256 ^ (N.of_nat k) -> rd_le (le_bytes k n) = n.
Proof.
  revert n; induction k; intros n H.
  - simpl in *. lia.
  - cbn [le_bytes rd_le]. rewrite IHk.
    + lia.
    + rewrite Nat2N.inj_succ, N.pow_succ_r' in H. lia.
Qed.

Lemma get_put e k n : n < 256 ^ (N.of_nat k) -> get e (put e k n) = n.
Proof.
  intros H. destruct e; unfold get, put, rd_be, be_bytes; rewrite ?rev_involutive;
    apply rd_le_bytes; exact H.
Qed.

Lemma take_app k (a b : list N) : length a = k -> take k (a ++ b) = Some (a, b).
Proof.
  revert a; induction k; intros a H.
  - destruct a; simpl in *; [reflexivity|discriminate].
  - destruct a as [|x a]; simpl in *; [discriminate|].
    rewrite IHk by lia. reflexivity.
Qed.

Lemma take_spec k bs h t : take k bs = Some (h, t) -> bs = h ++ t /\ length h = k.
Proof.
  revert bs h t; induction k; intros bs h t H; simpl in H.
  - inversion H; subst. auto.
  - destruct bs as [|b r]; [discriminate|].
    destruct (take k r) as [[h' t']|] eqn:E; [|discriminate].
    inversion H; subst. apply IHk in E. destruct E as [-> <-]. auto.
Qed.

Lemma take_none k bs : take k bs = None <-> (length bs < k)%nat.
Proof.
  destruct (take k bs) as [[h t]|] eqn:E.
  - apply take_spec in E. destruct E as [-> <-]. rewrite app_length. split; [discriminate | lia].
  - split; [intros _ | reflexivity]. destruct (Nat.lt_ge_cases (length bs) k) as [H|H]; [exact H|].
    rewrite <- (firstn_skipn k bs), take_app in E by (apply firstn_length_le; exact H). discriminate.
Qed.

(* value bound of rd_le *)
Lemma rd_le_bound bs : bytes_ok bs -> rd_le bs < 256 ^ (N.of_nat (length bs)).
Proof.
  induction 1 as [|b r Hb Hr IH].
  - simpl. lia.
  - cbn [rd_le length]. rewrite Nat2N.inj_succ, N.pow_succ_r'. unfold byte_ok in Hb. lia.
Qed.

Lemma le_bytes_rd bs : bytes_ok bs -> le_bytes (length bs) (rd_le bs) = bs.
Proof.
  induction 1 as [|b r Hb Hr IH].
  - reflexivity.
  - cbn [rd_le length le_bytes]. unfold byte_ok in Hb.
    replace ((b + 256 * rd_le r) mod 256) with b by lia.
    replace ((b + 256 * rd_le r) / 256) with (rd_le r) by lia.
    rewrite IH. reflexivity.
Qed.

Lemma put_get e bs : bytes_ok bs -> put e (length bs) (get e bs) = bs.
Proof.
  intros H. destruct e; unfold put, get, be_bytes, rd_be.
  - rewrite <- (rev_length bs). rewrite le_bytes_rd.
    + apply rev_involutive.
    + apply Forall_rev. exact H.
  - apply le_bytes_rd. exact H.
Qed.
