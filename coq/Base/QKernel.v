(* Exact planar kernel over Q (DESIGN.md 2.2).  Executable definitions first, lemmas below.
   Conventions:
   - a point is a pair of rationals; equality of points is [pt_eq] (Qeq on both ordinates), never
     Leibniz equality; every boolean test below is invariant under Qeq on its arguments;
   - predicates are computed with the raw field operations (no normalisation: on lattice inputs the
     denominators stay 1); every point that is *constructed* (intersection point, midpoint) is
     normalised with [Qred], so stored values stay small;
   - segments are closed and may be degenerate (both ends equal).
   Anchors (the Go code computes the same notions in float64; this file is the exact reference):
   geom/xy.go:Cross, geom/util.go:orientation, geom/line.go:intersectLine / hasCrossing /
   relativePointRingLocation (crossing parity). *)
From Coq Require Import QArith Qreduction List Bool ZArith Lia Lqa Setoid Morphisms.
Import ListNotations.
Open Scope Q_scope.

Definition pt := (Q * Q)%type.
Definition seg := (pt * pt)%type.

Definition pt_eq (p q : pt) : Prop := fst p == fst q /\ snd p == snd q.
Definition pt_eqb (p q : pt) : bool := Qeq_bool (fst p) (fst q) && Qeq_bool (snd p) (snd q).
Definition pt_red (p : pt) : pt := (Qred (fst p), Qred (snd p)).
Definition pt_add (p v : pt) : pt := (fst p + fst v, snd p + snd v).
Definition qmid (a b : Q) : Q := Qred ((a + b) / 2).

(* twice the signed area of the triangle o a b; > 0 iff o,a,b make a left turn (counter-clockwise) *)
Definition cross (o a b : pt) : Q :=
  (fst a - fst o) * (snd b - snd o) - (snd a - snd o) * (fst b - fst o).

Definition qsgn (q : Q) : comparison := q ?= 0.
(* Gt: counter-clockwise (left turn); Eq: collinear; Lt: clockwise *)
Definition orient (o a b : pt) : comparison := qsgn (cross o a b).

Definition qltb (a b : Q) : bool := negb (Qle_bool b a).

Definition qbetween (a b x : Q) : bool :=
  (Qle_bool a x && Qle_bool x b) || (Qle_bool b x && Qle_bool x a).

(* closed segment, degenerate segment allowed *)
Definition on_seg (s : seg) (p : pt) : bool :=
  let '(a, b) := s in
  qbetween (fst a) (fst b) (fst p) && qbetween (snd a) (snd b) (snd p) && Qeq_bool (cross a b p) 0.

(* lexicographic order on points (x first); on a common line it is the order along the line *)
Definition pt_leb (p q : pt) : bool :=
  match fst p ?= fst q with
  | Lt => true
  | Gt => false
  | Eq => Qle_bool (snd p) (snd q)
  end.
Definition pt_min (p q : pt) : pt := if pt_leb p q then p else q.
Definition pt_max (p q : pt) : pt := if pt_leb p q then q else p.

Inductive ssr :=
| SSEmpty
| SSPoint (p : pt)
| SSOverlap (p q : pt).    (* collinear overlap of positive length, p lexicographically before q *)

(* the point a + t (b - a), normalised *)
Definition lerp (a b : pt) (t : Q) : pt :=
  (Qred (fst a + t * (fst b - fst a)), Qred (snd a + t * (snd b - snd a))).

(* classification of the intersection of two closed segments *)
Definition seg_seg (s t : seg) : ssr :=
  let '(a, b) := s in
  let '(c, d) := t in
  if pt_eqb a b then (if on_seg t a then SSPoint a else SSEmpty)
  else if pt_eqb c d then (if on_seg s c then SSPoint c else SSEmpty)
  else
    let d1 := cross a b c in
    let d3 := cross c d a in
    let d4 := cross c d b in
    let den := d3 - d4 in                   (* = (b - a) x (d - c) *)
    if Qeq_bool den 0 then
      (* parallel *)
      if Qeq_bool d3 0 then
        (* collinear: intersect the two lexicographic intervals *)
        let lo := pt_max (pt_min a b) (pt_min c d) in
        let hi := pt_min (pt_max a b) (pt_max c d) in
        if pt_eqb lo hi then SSPoint lo
        else if pt_leb lo hi then SSOverlap lo hi
        else SSEmpty
      else SSEmpty
    else
      let tt := d3 / den in                 (* parameter on s *)
      let uu := - d1 / den in               (* parameter on t *)
      if Qle_bool 0 tt && Qle_bool tt 1 && Qle_bool 0 uu && Qle_bool uu 1
      then SSPoint (lerp a b tt)
      else SSEmpty.

(* the points reported by a classification *)
Definition ssr_points (r : ssr) : list pt :=
  match r with SSEmpty => [] | SSPoint p => [p] | SSOverlap p q => [p; q] end.

(* ---- crossing parity (half-open rule) ----
   The horizontal ray from p towards +x crosses the edge (a,b) iff exactly one end is strictly
   above p (so an end at the height of p counts as below: each vertex on the ray is counted for
   the edges going up from it only) and p is strictly to the left of the edge. *)
Definition edge_cross (a b p : pt) : bool :=
  let ya := Qle_bool (snd a) (snd p) in      (* a not above p *)
  let yb := Qle_bool (snd b) (snd p) in
  if Bool.eqb ya yb then false
  else
    (* lo is the lower end *)
    if ya then qltb 0 (cross a b p) else qltb 0 (cross b a p).

Fixpoint ring_edges (vs : list pt) : list seg :=
  match vs with
  | a :: ((b :: _) as r) => (a, b) :: ring_edges r
  | _ => []
  end.

(* parity of the number of crossings over a list of edges *)
Definition edges_parity (es : list seg) (p : pt) : bool :=
  fold_left (fun acc e => xorb acc (edge_cross (fst e) (snd e) p)) es false.
Definition on_edges (es : list seg) (p : pt) : bool := existsb (fun e => on_seg e p) es.

(* the vertex list is closed (first = last); meaningful (inside/outside) when p is not on the ring *)
Definition pt_in_ring (vs : list pt) (p : pt) : bool := edges_parity (ring_edges vs) p.
Definition on_ring (vs : list pt) (p : pt) : bool := on_edges (ring_edges vs) p.


Lemma cross_antisym o a b : cross o a b == - cross o b a.
Proof. unfold cross. ring. Qed.
Lemma cross_cyclic o a b : cross o a b == cross a b o.
Proof. unfold cross. ring. Qed.
Lemma cross_translate o a b v : cross (pt_add o v) (pt_add a v) (pt_add b v) == cross o a b.
Proof. unfold cross, pt_add; simpl. ring. Qed.
Lemma cross_self_l a b : cross a b a == 0.
Proof. unfold cross. ring. Qed.
Lemma cross_self_r a b : cross a b b == 0.
Proof. unfold cross. ring. Qed.
(* both sides are (b - a) x (d - c) *)
Lemma den_identity a b c d : cross c d a - cross c d b == cross a b d - cross a b c.
Proof. unfold cross. ring. Qed.

Lemma qsgn_opp q : qsgn (- q) = CompOpp (qsgn q).
Proof.
  unfold qsgn. rewrite <- Qcompare_antisym.
  destruct q as [n d]. unfold Qcompare, Qopp; simpl. destruct n; reflexivity.
Qed.
Global Instance qsgn_proper : Proper (Qeq ==> eq) qsgn.
Proof. intros x y H. unfold qsgn. rewrite H. reflexivity. Qed.

Lemma orient_antisym o a b : orient o b a = CompOpp (orient o a b).
Proof. unfold orient. rewrite (cross_antisym o b a). apply qsgn_opp. Qed.
Lemma orient_cyclic o a b : orient o a b = orient a b o.
Proof. unfold orient. rewrite (cross_cyclic o a b). reflexivity. Qed.
Lemma orient_translate o a b v : orient (pt_add o v) (pt_add a v) (pt_add b v) = orient o a b.
Proof. unfold orient. rewrite cross_translate. reflexivity. Qed.
Lemma orient_sign o a b :
  (orient o a b = Gt <-> 0 < cross o a b) /\ (orient o a b = Eq <-> cross o a b == 0) /\
  (orient o a b = Lt <-> cross o a b < 0).
Proof. unfold orient, qsgn. rewrite <- Qgt_alt, <- Qeq_alt, <- Qlt_alt. tauto. Qed.


Global Instance pt_eq_equiv : Equivalence pt_eq.
Proof.
  split.
  - intros p; split; reflexivity.
  - intros p q [H1 H2]; split; symmetry; assumption.
  - intros p q r [H1 H2] [H3 H4]; split; etransitivity; eassumption.
Qed.
Lemma pt_eqb_iff p q : pt_eqb p q = true <-> pt_eq p q.
Proof. unfold pt_eqb, pt_eq. rewrite andb_true_iff, !Qeq_bool_iff. tauto. Qed.
Lemma pt_eqb_false_iff p q : pt_eqb p q = false <-> ~ pt_eq p q.
Proof. rewrite <- pt_eqb_iff. destruct (pt_eqb p q); split; congruence. Qed.
Lemma pt_eqb_refl p : pt_eqb p p = true.
Proof. apply pt_eqb_iff. reflexivity. Qed.
Lemma pt_eqb_proper p p' q q' : pt_eq p p' -> pt_eq q q' -> pt_eqb p q = pt_eqb p' q'.
Proof. intros Hp Hq. apply eq_true_iff_eq. rewrite !pt_eqb_iff, Hp, Hq. tauto. Qed.
Lemma pt_eqb_sym p q : pt_eqb p q = pt_eqb q p.
Proof. apply eq_true_iff_eq. rewrite !pt_eqb_iff. split; intros H; symmetry; exact H. Qed.
Lemma pt_red_eq p : pt_eq (pt_red p) p.
Proof. split; simpl; apply Qred_correct. Qed.

Global Instance cross_proper : Proper (pt_eq ==> pt_eq ==> pt_eq ==> Qeq) cross.
Proof.
  intros o o' [Ho1 Ho2] a a' [Ha1 Ha2] b b' [Hb1 Hb2]. unfold cross.
  rewrite Ho1, Ho2, Ha1, Ha2, Hb1, Hb2. reflexivity.
Qed.

(* the standard library declares Qle_bool and Qeq_bool morphisms as Qleb_comp and Qeqb_comp *)
Lemma Qle_bool_proper_l a a' b : a == a' -> Qle_bool a b = Qle_bool a' b.
Proof. intros H. rewrite H. reflexivity. Qed.
Global Instance Qle_bool_proper : Proper (Qeq ==> Qeq ==> eq) Qle_bool.
Proof. exact Qleb_comp. Qed.
Global Instance Qeq_bool_proper : Proper (Qeq ==> Qeq ==> eq) Qeq_bool.
Proof. exact Qeqb_comp. Qed.
Global Instance qbetween_proper : Proper (Qeq ==> Qeq ==> Qeq ==> eq) qbetween.
Proof. intros a a' Ha b b' Hb x x' Hx. unfold qbetween. rewrite Ha, Hb, Hx. reflexivity. Qed.

Lemma Qeq_bool_false_iff a b : Qeq_bool a b = false <-> ~ a == b.
Proof. rewrite <- Qeq_bool_iff. destruct (Qeq_bool a b); split; congruence. Qed.
Lemma Qle_bool_false_iff a b : Qle_bool a b = false <-> b < a.
Proof. rewrite <- not_true_iff_false, Qle_bool_iff. split; intros H; lra. Qed.
Lemma qltb_iff a b : qltb a b = true <-> a < b.
Proof. unfold qltb. rewrite negb_true_iff. apply Qle_bool_false_iff. Qed.
Lemma qltb_false_iff a b : qltb a b = false <-> b <= a.
Proof. unfold qltb. rewrite negb_false_iff. apply Qle_bool_iff. Qed.
Lemma qbetween_iff a b x : qbetween a b x = true <-> (a <= x <= b) \/ (b <= x <= a).
Proof. unfold qbetween. rewrite orb_true_iff, !andb_true_iff, !Qle_bool_iff. tauto. Qed.

Lemma on_seg_proper a b p a' b' p' :
  pt_eq a a' -> pt_eq b b' -> pt_eq p p' -> on_seg (a, b) p = on_seg (a', b') p'.
Proof.
  intros Ha Hb Hp. unfold on_seg.
  rewrite (qbetween_proper _ _ (proj1 Ha) _ _ (proj1 Hb) _ _ (proj1 Hp)),
    (qbetween_proper _ _ (proj2 Ha) _ _ (proj2 Hb) _ _ (proj2 Hp)),
    (Qeq_bool_proper _ _ (cross_proper _ _ Ha _ _ Hb _ _ Hp) 0 0 (Qeq_refl 0)).
  reflexivity.
Qed.
Lemma on_seg_cross a b p : on_seg (a, b) p = true -> cross a b p == 0.
Proof. unfold on_seg. rewrite !andb_true_iff, Qeq_bool_iff. tauto. Qed.

(* the closed segment as a parametrised set *)
Definition seg_param (a b p : pt) (t : Q) : Prop :=
  0 <= t <= 1 /\ fst p == fst a + t * (fst b - fst a) /\ snd p == snd a + t * (snd b - snd a).

Lemma seg_param_rev a b p t : seg_param a b p t -> seg_param b a p (1 - t).
Proof. unfold seg_param. intros [Ht [Hx Hy]]. split; [lra|]. split; lra. Qed.

(* t = (x - a) / (b - a) *)
Lemma between_param a b x : ~ a == b -> a <= x <= b \/ b <= x <= a ->
  exists t, 0 <= t <= 1 /\ x == a + t * (b - a).
Proof.
  intros N H. exists ((x - a) / (b - a)).
  assert (Ht : (x - a) / (b - a) * (b - a) == x - a) by (field; lra).
  set (t := (x - a) / (b - a)) in *. split; [|lra].
  destruct (Qlt_le_dec a b); split; nra.
Qed.

(* the parameter is read off an ordinate in which the ends differ; the other ordinate follows from
   collinearity *)
Lemma on_seg_iff a b p : on_seg (a, b) p = true <-> exists t, seg_param a b p t.
Proof.
  unfold on_seg, seg_param, cross. destruct a as [ax ay], b as [bx by_], p as [px py]; simpl.
  rewrite !andb_true_iff, !qbetween_iff, Qeq_bool_iff.
  split.
  - intros [[Hx Hy] Hc].
    destruct (Qeq_dec ax bx) as [Ex | Nx]; [destruct (Qeq_dec ay by_) as [Ey | Ny]|].
    + exists 0. split; [lra|]. split; nra.
    + destruct (between_param ay by_ py Ny Hy) as [t [Ht Ey]]. exists t. split; [exact Ht|]. split; [nra | exact Ey].
    + destruct (between_param ax bx px Nx Hx) as [t [Ht Ex]]. exists t. split; [exact Ht|]. split; [exact Ex|].
      rewrite Ex in Hc.
      assert (H3 : (py - ay - t * (by_ - ay)) * (bx - ax) == 0) by lra.
      apply Qmult_integral in H3. destruct H3; [lra | exfalso; apply Nx; lra].
  - intros [t [[Ht0 Ht1] [Hx Hy]]].
    split; [split|].
    + destruct (Qlt_le_dec ax bx); [left | right]; split; nra.
    + destruct (Qlt_le_dec ay by_); [left | right]; split; nra.
    + rewrite Hx, Hy. ring.
Qed.

Lemma on_seg_left a b : on_seg (a, b) a = true.
Proof. apply on_seg_iff. exists 0. unfold seg_param. split; [lra|]. split; ring. Qed.
Lemma on_seg_right a b : on_seg (a, b) b = true.
Proof. apply on_seg_iff. exists 1. unfold seg_param. split; [lra|]. split; ring. Qed.
Lemma on_seg_sym a b p : on_seg (b, a) p = on_seg (a, b) p.
Proof. apply eq_true_iff_eq. rewrite !on_seg_iff. split; intros [t H]; exists (1 - t); apply seg_param_rev, H. Qed.
Lemma on_seg_translate a b p v :
  on_seg (pt_add a v, pt_add b v) (pt_add p v) = on_seg (a, b) p.
Proof.
  apply eq_true_iff_eq. rewrite !on_seg_iff. unfold seg_param, pt_add; cbn [fst snd].
  split; intros [t [Ht [Hx Hy]]]; exists t; (split; [exact Ht|]); split; lra.
Qed.
Lemma on_seg_degenerate a b p : pt_eq a b -> on_seg (a, b) p = true -> pt_eq p a.
Proof.
  intros [E1 E2] H. apply on_seg_iff in H. destruct H as [t [_ [Hx Hy]]].
  split; [rewrite Hx | rewrite Hy]; [rewrite E1 | rewrite E2]; ring.
Qed.


Definition pt_le (p q : pt) : Prop := fst p < fst q \/ (fst p == fst q /\ snd p <= snd q).
Lemma pt_leb_iff p q : pt_leb p q = true <-> pt_le p q.
Proof.
  unfold pt_leb, pt_le. destruct (fst p ?= fst q) eqn:E.
  - apply Qeq_alt in E. rewrite Qle_bool_iff. split; [tauto|]. intros [H|[_ H]]; [lra|exact H].
  - apply Qlt_alt in E. split; [tauto | reflexivity].
  - apply Qgt_alt in E. split; [discriminate|]. intros [H|[H _]]; lra.
Qed.
Lemma pt_le_total p q : pt_le p q \/ pt_le q p.
Proof.
  unfold pt_le. destruct (Q_dec (fst p) (fst q)) as [[H|H]|H]; [tauto | tauto |].
  destruct (Qlt_le_dec (snd p) (snd q)).
  - left. right. split; [assumption | lra].
  - right. right. split; [symmetry; assumption | assumption].
Qed.
Lemma pt_le_trans p q r : pt_le p q -> pt_le q r -> pt_le p r.
Proof. unfold pt_le. intros [H1|[H1 H1']] [H2|[H2 H2']]; [left; lra | left; lra | left; lra | right; split; lra]. Qed.
Lemma pt_le_refl p q : pt_eq p q -> pt_le p q.
Proof. intros [H1 H2]. right. split; lra. Qed.
Lemma pt_le_antisym p q : pt_le p q -> pt_le q p -> pt_eq p q.
Proof. unfold pt_le, pt_eq. intros [H1|[H1 H1']] [H2|[H2 H2']]; first [lra | split; lra]. Qed.
Lemma pt_leb_false p q : pt_leb p q = false -> pt_le q p.
Proof.
  intros H. destruct (pt_le_total p q) as [H1|H1]; [|exact H1].
  apply pt_leb_iff in H1. congruence.
Qed.

Lemma pt_min_cases p q : (pt_min p q = p /\ pt_le p q) \/ (pt_min p q = q /\ pt_le q p).
Proof. unfold pt_min. destruct (pt_leb p q) eqn:E; [left | right]; split; auto. apply pt_leb_iff; auto. apply pt_leb_false; auto. Qed.
Lemma pt_max_cases p q : (pt_max p q = q /\ pt_le p q) \/ (pt_max p q = p /\ pt_le q p).
Proof. unfold pt_max. destruct (pt_leb p q) eqn:E; [left | right]; split; auto. apply pt_leb_iff; auto. apply pt_leb_false; auto. Qed.
Lemma pt_min_ind (Q : pt -> Prop) p q : Q p -> Q q -> Q (pt_min p q).
Proof. unfold pt_min. destruct (pt_leb p q); auto. Qed.
Lemma pt_max_ind (Q : pt -> Prop) p q : Q p -> Q q -> Q (pt_max p q).
Proof. unfold pt_max. destruct (pt_leb p q); auto. Qed.
Lemma pt_min_le_l p q : pt_le (pt_min p q) p.
Proof. destruct (pt_min_cases p q) as [[-> H]|[-> H]]; [apply pt_le_refl; reflexivity | exact H]. Qed.
Lemma pt_min_le_r p q : pt_le (pt_min p q) q.
Proof. destruct (pt_min_cases p q) as [[-> H]|[-> H]]; [exact H | apply pt_le_refl; reflexivity]. Qed.
Lemma pt_max_ge_l p q : pt_le p (pt_max p q).
Proof. destruct (pt_max_cases p q) as [[-> H]|[-> H]]; [exact H | apply pt_le_refl; reflexivity]. Qed.
Lemma pt_max_ge_r p q : pt_le q (pt_max p q).
Proof. destruct (pt_max_cases p q) as [[-> H]|[-> H]]; [apply pt_le_refl; reflexivity | exact H]. Qed.
Lemma pt_min_glb p q r : pt_le r p -> pt_le r q -> pt_le r (pt_min p q).
Proof. apply pt_min_ind. Qed.
Lemma pt_max_lub p q r : pt_le p r -> pt_le q r -> pt_le (pt_max p q) r.
Proof. apply (pt_max_ind (fun m => pt_le m r)). Qed.

Lemma seg_param_lex a b p t : seg_param a b p t -> pt_le a b -> pt_le a p /\ pt_le p b.
Proof.
  unfold seg_param, pt_le. intros [[Ht0 Ht1] [Hx Hy]] [Hlt | [He Hle]].
  - destruct (Qeq_dec t 0) as [E0|N0]; [split; [right; split; nra | left; nra]|].
    destruct (Qeq_dec t 1) as [E1|N1]; [split; [left; nra | right; split; nra] | split; left; nra].
  - split; right; split; nra.
Qed.
(* a point of the closed segment lies between its ends in the lexicographic order *)
Lemma on_seg_lex a b p : on_seg (a, b) p = true -> pt_le (pt_min a b) p /\ pt_le p (pt_max a b).
Proof.
  intros H. apply on_seg_iff in H. destruct H as [t H].
  destruct (pt_le_total a b) as [L|L].
  - destruct (seg_param_lex a b p t H L) as [H1 H2].
    split; [exact (pt_le_trans _ _ _ (pt_min_le_l a b) H1) | exact (pt_le_trans _ _ _ H2 (pt_max_ge_r a b))].
  - destruct (seg_param_lex b a p _ (seg_param_rev _ _ _ _ H) L) as [H1 H2].
    split; [exact (pt_le_trans _ _ _ (pt_min_le_r a b) H1) | exact (pt_le_trans _ _ _ H2 (pt_max_ge_l a b))].
Qed.

Lemma collinear_ordered_on_seg a b p : cross a b p == 0 -> pt_le a p -> pt_le p b -> on_seg (a, b) p = true.
Proof.
  destruct a as [ax ay], b as [bx by_], p as [px py]. unfold cross, pt_le, on_seg; simpl. intros Hc H1 H2.
  rewrite !andb_true_iff, !qbetween_iff, Qeq_bool_iff. split; [split|exact Hc].
  - left. destruct H1 as [H1|[H1 _]], H2 as [H2|[H2 _]]; lra.
  - destruct H1 as [H1|[H1 H1']], H2 as [H2|[H2 H2']].
    + destruct (Qlt_le_dec ay by_); [left | right]; split; nra.
    + assert (by_ == py) by nra. destruct (Qlt_le_dec ay by_); [left | right]; lra.
    + assert (ay == py) by nra. destruct (Qlt_le_dec ay by_); [left | right]; lra.
    + left. lra.
Qed.
(* collinear with a,b and lexicographically between them -> on the closed segment *)
Lemma collinear_between_on_seg a b p :
  cross a b p == 0 -> pt_le (pt_min a b) p -> pt_le p (pt_max a b) -> on_seg (a, b) p = true.
Proof.
  intros Hc H1 H2. destruct (pt_le_total a b) as [L|L].
  - apply collinear_ordered_on_seg; [exact Hc | |].
    + apply pt_le_trans with (pt_min a b); [apply pt_min_glb; [apply pt_le_refl; reflexivity | exact L] | exact H1].
    + apply pt_le_trans with (pt_max a b); [exact H2 | apply pt_max_lub; [exact L | apply pt_le_refl; reflexivity]].
  - rewrite <- on_seg_sym. apply collinear_ordered_on_seg.
    + unfold cross in *. lra.
    + apply pt_le_trans with (pt_min a b); [apply pt_min_glb; [exact L | apply pt_le_refl; reflexivity] | exact H1].
    + apply pt_le_trans with (pt_max a b); [exact H2 | apply pt_max_lub; [apply pt_le_refl; reflexivity | exact L]].
Qed.

Lemma parallel_zero ux uy sx sy tx ty :
  ~ (ux == 0 /\ uy == 0) -> ux * sy - uy * sx == 0 -> ux * ty - uy * tx == 0 -> sx * ty - sy * tx == 0.
Proof.
  intros N H1 H2.
  assert (Kx : ux * (sx * ty - sy * tx) == 0).
  { transitivity (sx * (ux * ty - uy * tx) - tx * (ux * sy - uy * sx)); [ring|]. rewrite H1, H2. ring. }
  assert (Ky : uy * (sx * ty - sy * tx) == 0).
  { transitivity (sy * (ux * ty - uy * tx) - ty * (ux * sy - uy * sx)); [ring|]. rewrite H1, H2. ring. }
  apply Qmult_integral in Kx. apply Qmult_integral in Ky. tauto.
Qed.
(* a - c and b - c are both parallel to d - c *)
Lemma collinear_swap a b c d :
  ~ pt_eq c d -> cross c d a == 0 -> cross c d b == 0 -> cross a b c == 0 /\ cross a b d == 0.
Proof.
  destruct a as [ax ay], b as [bx by_], c as [cx cy], d as [dx dy].
  unfold pt_eq, cross; simpl. intros Hne H1 H2.
  assert (K : (ax - cx) * (by_ - cy) - (ay - cy) * (bx - cx) == 0).
  { apply (parallel_zero (dx - cx) (dy - cy)); [|exact H1 | exact H2]. intros [E1 E2]. apply Hne. split; lra. }
  split; lra.
Qed.


Lemma lerp_param a b t : 0 <= t <= 1 -> seg_param a b (lerp a b t) t.
Proof. intros H. unfold seg_param, lerp; cbn [fst snd]. split; [exact H|]. split; apply Qred_correct. Qed.

Lemma seg_seg_sound s t p :
  In p (ssr_points (seg_seg s t)) -> on_seg s p = true /\ on_seg t p = true.
Proof.
  destruct s as [a b], t as [c d]. unfold seg_seg.
  destruct (pt_eqb a b) eqn:Eab.
  { destruct (on_seg (c, d) a) eqn:E; simpl; [|tauto]. intros [<-|[]]. split; [apply on_seg_left | exact E]. }
  destruct (pt_eqb c d) eqn:Ecd.
  { destruct (on_seg (a, b) c) eqn:E; simpl; [|tauto]. intros [<-|[]]. split; [exact E | apply on_seg_left]. }
  cbv zeta.
  apply pt_eqb_false_iff in Eab. apply pt_eqb_false_iff in Ecd.
  destruct (Qeq_bool (cross c d a - cross c d b) 0) eqn:Eden.
  - (* parallel *)
    apply Qeq_bool_iff in Eden.
    destruct (Qeq_bool (cross c d a) 0) eqn:E3; [|simpl; tauto].
    apply Qeq_bool_iff in E3.
    assert (E4 : cross c d b == 0) by lra.
    destruct (collinear_swap a b c d Ecd E3 E4) as [C1 C2].
    (* all four ends are on both lines, hence so are lo and hi; each lies between the ends of both segments *)
    set (both q := cross a b q == 0 /\ cross c d q == 0).
    assert (Ba : both a) by (split; [apply cross_self_l | exact E3]).
    assert (Bb : both b) by (split; [apply cross_self_r | exact E4]).
    assert (Bc : both c) by (split; [exact C1 | apply cross_self_l]).
    assert (Bd : both d) by (split; [exact C2 | apply cross_self_r]).
    set (lo := pt_max (pt_min a b) (pt_min c d)).
    set (hi := pt_min (pt_max a b) (pt_max c d)).
    assert (Hlo : both lo) by (apply pt_max_ind; apply pt_min_ind; assumption).
    assert (Hhi : both hi) by (apply pt_min_ind; apply pt_max_ind; assumption).
    assert (L1 : pt_le (pt_min a b) lo) by apply pt_max_ge_l.
    assert (L2 : pt_le (pt_min c d) lo) by apply pt_max_ge_r.
    assert (L3 : pt_le hi (pt_max a b)) by apply pt_min_le_l.
    assert (L4 : pt_le hi (pt_max c d)) by apply pt_min_le_r.
    assert (Main : pt_le lo hi -> forall q, q = lo \/ q = hi -> on_seg (a, b) q = true /\ on_seg (c, d) q = true).
    { destruct Hlo, Hhi. intros L q [-> | ->]; split; apply collinear_between_on_seg; try assumption;
        eapply pt_le_trans; eauto. }
    destruct (pt_eqb lo hi) eqn:Elh.
    + apply pt_eqb_iff in Elh. simpl. intros [<-|[]]. apply Main; [apply pt_le_refl; exact Elh | auto].
    + destruct (pt_leb lo hi) eqn:Ele; [|simpl; tauto].
      apply pt_leb_iff in Ele. simpl. intros [<-|[<-|[]]]; apply Main; auto.
  - (* not parallel *)
    apply Qeq_bool_false_iff in Eden.
    set (tt := cross c d a / (cross c d a - cross c d b)).
    set (uu := - cross a b c / (cross c d a - cross c d b)).
    destruct (Qle_bool 0 tt && Qle_bool tt 1 && Qle_bool 0 uu && Qle_bool uu 1) eqn:Econd; [|simpl; tauto].
    rewrite !andb_true_iff, !Qle_bool_iff in Econd. destruct Econd as [[[T0 T1] U0] U1].
    simpl. intros [<-|[]]. split.
    + apply on_seg_iff. exists tt. apply lerp_param. split; assumption.
    + apply on_seg_iff. exists uu. unfold seg_param. split; [split; assumption|].
      unfold lerp; cbn [fst snd]. rewrite !Qred_correct. unfold tt, uu.
      destruct a as [ax ay], b as [bx by_], c as [cx cy], d as [dx dy]. unfold cross in *; simpl in *.
      split; field; intros H; apply Eden; rewrite <- H; ring.
Qed.


(* the value of cross c d along the segment a b is the affine interpolation of the end values *)
Lemma cross_along c d a b p t :
  fst p == fst a + t * (fst b - fst a) -> snd p == snd a + t * (snd b - snd a) ->
  cross c d p == (1 - t) * cross c d a + t * cross c d b.
Proof. intros Hx Hy. unfold cross. rewrite Hx, Hy. ring. Qed.

Lemma Qdiv_mult_eq n d t : ~ d == 0 -> t * d == n -> n / d == t.
Proof. intros Hd H. rewrite <- H. field. exact Hd. Qed.

Lemma seg_seg_complete s t p :
  on_seg s p = true -> on_seg t p = true -> seg_seg s t <> SSEmpty.
Proof.
  destruct s as [a b], t as [c d]. intros Hs Ht. unfold seg_seg.
  destruct (pt_eqb a b) eqn:Eab.
  { apply pt_eqb_iff in Eab. pose proof (on_seg_degenerate a b p Eab Hs) as Ep.
    rewrite <- (on_seg_proper c d p c d a) by (try reflexivity; exact Ep). rewrite Ht. discriminate. }
  destruct (pt_eqb c d) eqn:Ecd.
  { apply pt_eqb_iff in Ecd. pose proof (on_seg_degenerate c d p Ecd Ht) as Ep.
    rewrite <- (on_seg_proper a b p a b c) by (try reflexivity; exact Ep). rewrite Hs. discriminate. }
  cbv zeta.
  pose proof (on_seg_cross _ _ _ Ht) as Cp. pose proof (on_seg_cross _ _ _ Hs) as Cp'.
  destruct (proj1 (on_seg_iff a b p) Hs) as [t' [[T0 T1] [Hx Hy]]].
  destruct (proj1 (on_seg_iff c d p) Ht) as [u' [[U0 U1] [Hx' Hy']]].
  pose proof (cross_along c d a b p t' Hx Hy) as A1.
  pose proof (cross_along a b c d p u' Hx' Hy') as A2.
  destruct (Qeq_bool (cross c d a - cross c d b) 0) eqn:Eden.
  - apply Qeq_bool_iff in Eden.
    assert (E3 : cross c d a == 0) by nra.
    apply Qeq_bool_iff in E3. rewrite E3.
    set (lo := pt_max (pt_min a b) (pt_min c d)).
    set (hi := pt_min (pt_max a b) (pt_max c d)).
    destruct (on_seg_lex a b p Hs) as [L1 L2]. destruct (on_seg_lex c d p Ht) as [L3 L4].
    assert (L : pt_le lo hi).
    { apply pt_le_trans with p; [apply pt_max_lub | apply pt_min_glb]; assumption. }
    destruct (pt_eqb lo hi); [discriminate|].
    apply pt_leb_iff in L. rewrite L. discriminate.
  - apply Qeq_bool_false_iff in Eden.
    (* the two quotients are the parameters of p on the two segments *)
    assert (Et : cross c d a / (cross c d a - cross c d b) == t').
    { apply Qdiv_mult_eq; [exact Eden | nra]. }
    assert (Eu : - cross a b c / (cross c d a - cross c d b) == u').
    { apply Qdiv_mult_eq; [exact Eden | rewrite den_identity; nra]. }
    rewrite Et, Eu.
    apply Qle_bool_iff in T0, T1, U0, U1. rewrite T0, T1, U0, U1. discriminate.
Qed.

Lemma seg_seg_nonempty_iff s t :
  seg_seg s t <> SSEmpty <-> exists p, on_seg s p = true /\ on_seg t p = true.
Proof.
  split.
  - intros H. destruct (seg_seg s t) eqn:E; [congruence| |]; exists p; apply seg_seg_sound; rewrite E; left; reflexivity.
  - intros [p [H1 H2]]. eapply seg_seg_complete; eauto.
Qed.
