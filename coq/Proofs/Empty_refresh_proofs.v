(* Lemmas for property C20, second layer: transparency of empty members restated against the
   point-set level facts of the sibling properties (C09: intersects_exact,
   distance_is_min; C02: slab sufficiency, relate_entries_characterised, disjoint_iff_no_common_point;
   C01: judge_everywhere).  Everything here is a combination of Empty_*_proofs with those theorems. *)
From Coq Require Import List Bool Arith Lia QArith.
From SF Require Import Base.GeomAST Base.QKernel Base.Planar Model.Empty Proofs.Empty_proofs
  Proofs.Empty_obs_proofs Proofs.Empty_ix_proofs.
From SF Require Import Model.Intersects Model.Distance Proofs.Intersects_proofs Proofs.Distance_proofs
  Proofs.Intersects_areal Proofs.Intersects_polypoly Proofs.Distance_full.
From SF Require Model.Relate Model.SetOpSpec Proofs.Planar_slab_base Proofs.Planar_slab Proofs.Relate_slab_proofs
  Proofs.SetOpSpec_suff_proofs.
Import ListNotations.

Notation geom := (geomT Q).

Lemma ins_locate (g : geom) p x : locate (insert_empties g p) x = locate g x.
Proof.
  apply (obs_factors_through_parts_lemma Q eq (fun g => locate g x)); try congruence.
  intros g0. apply strip_locate.
Qed.

(* ---------------------------------------------------------------- C09 *)
Lemma ins_common_point (a b : geom) p q :
  (exists x, inG (insert_empties a p) x = true /\ inG (insert_empties b q) x = true) <->
  (exists x, inG a x = true /\ inG b x = true).
Proof. split; intros [x H]; exists x; rewrite !ins_inG in *; exact H. Qed.

(* Intersects of operands with inserted empty members is "the point sets share a point", whether
   the point sets are taken with or without the empty members *)
Lemma ins_intersects_pointset (a b : geom) p q : operand_ok a -> operand_ok b ->
  (intersects (insert_empties a p) (insert_empties b q) = true <->
   exists x, inG (insert_empties a p) x = true /\ inG (insert_empties b q) x = true) /\
  (intersects (insert_empties a p) (insert_empties b q) = true <-> exists x, inG a x = true /\ inG b x = true).
Proof.
  intros Ha Hb. rewrite ins_intersects, ins_common_point. destruct (intersects_exact a b Ha Hb) as [E _]. split; exact E.
Qed.

(* Distance (squared) of operands with inserted empty members is the minimum over the two point sets *)
Lemma ins_distance_pointset (a b : geom) p q d : operand_ok a -> operand_ok b ->
  dist2 (insert_empties a p) (insert_empties b q) = Some d ->
  (exists x y, inG (insert_empties a p) x = true /\ inG (insert_empties b q) y = true /\ d == d2_xy x y) /\
  (forall x y, inG (insert_empties a p) x = true -> inG (insert_empties b q) y = true -> d <= d2_xy x y).
Proof.
  intros Ha Hb. rewrite ins_dist2. intros D. destruct (distance_is_min a b d Ha Hb D) as [[x [y [X [Y E]]]] L]. split.
  - exists x, y. rewrite !ins_inG. auto.
  - intros x' y'. rewrite !ins_inG. apply L.
Qed.
Lemma ins_distance_zero (a b : geom) p q : operand_ok a -> operand_ok b ->
  ((exists d, dist2 (insert_empties a p) (insert_empties b q) = Some d /\ d == 0) <->
   exists x, inG (insert_empties a p) x = true /\ inG (insert_empties b q) x = true).
Proof.
  intros Ha Hb. rewrite ins_dist2, ins_common_point, (distance_zero_iff_intersects_all a b Ha Hb).
  apply (intersects_exact a b Ha Hb).
Qed.

(* ---------------------------------------------------------------- C02 *)
Section Rel.
  Import Model.Relate Proofs.Planar_slab_base Proofs.Planar_slab Proofs.Relate_slab_proofs.

  (* an entry of Relate's matrix for operands with inserted empties is set iff SOME POINT OF THE PLANE
     has that pair of locations - in the operands as given, equivalently without their empty members *)
  Lemma ins_relate_all_points (a b : geom) p q la lb :
    is_empty a = false -> is_empty b = false -> rings_closed a -> rings_closed b ->
    (mget (relate (insert_empties a p) (insert_empties b q)) la lb <> DF <->
     exists x, locate (insert_empties a p) x = la /\ locate (insert_empties b q) x = lb) /\
    relate (insert_empties a p) (insert_empties b q) = de9im_ref a b.
  Proof.
    intros Ea Eb Ra Rb. destruct (ins_relate a b p q) as [R _]. rewrite R, (relate_nonempty a b Ea Eb). split; [|reflexivity].
    rewrite (de9im_ref_sufficient a b la lb Ra Rb).
    split; intros [x H]; exists x; rewrite !ins_locate in *; exact H.
  Qed.

  (* Disjoint, all operands (empties included): true iff the point sets share no point *)
  Lemma ins_disjoint_all_points (a b : geom) p q : rings_closed a -> rings_closed b ->
    (go_disjoint (enc_matrix (relate (insert_empties a p) (insert_empties b q))) = RM true <->
     forall x, ~ (inG (insert_empties a p) x = true /\ inG (insert_empties b q) x = true)).
  Proof.
    intros Ra Rb. destruct (ins_relate a b p q) as [R _]. rewrite R, (disjoint_iff_no_common_point_lemma a b Ra Rb).
    split; intros H x; specialize (H x); rewrite !ins_inG in *; exact H.
  Qed.
End Rel.

(* ---------------------------------------------------------------- C01 *)
Section SetOp.
  Import Model.SetOpSpec Proofs.SetOpSpec_suff_proofs.

  Lemma forallb_as_existsb {A} (f : A -> bool) l : forallb f l = negb (existsb (fun x => negb (f x)) l).
  Proof. induction l as [|a r IH]; simpl; [reflexivity|]. rewrite IH. destruct (f a); reflexivity. Qed.
  Lemma strip_rings_closed_b (g : geom) : rings_closed_b (strip_empties g) = rings_closed_b g.
  Proof.
    unfold rings_closed_b. rewrite !forallb_as_existsb. f_equal. apply strip_polys_existsb.
    intros y Hy. rewrite Hy. reflexivity.
  Qed.
  Lemma ins_rings_closed_b (g : geom) p : rings_closed_b (insert_empties g p) = rings_closed_b g.
  Proof.
    apply (obs_factors_through_parts_lemma Q eq rings_closed_b); try congruence. apply strip_rings_closed_b.
  Qed.

  (* Union / Intersection: a result that passes the judgement against operands WITH inserted empty
     members is the Boolean combination of the point sets of the operands WITHOUT them, at every point
     of the plane (and vice versa, since the point sets are the same) *)
  Lemma ins_judge_everywhere o (a b r : geom) p q :
    (o = OpUnion \/ o = OpInter) -> forallb rings_closed_b [a; b; r] = true ->
    v_agree (judge o (insert_empties a p) (insert_empties b q) r) = true ->
    forall x, inG r x = op_bool o (inG a x) (inG b x).
  Proof.
    intros Ho Hc V x. rewrite <- (ins_inG a p x), <- (ins_inG b q x).
    apply (judge_everywhere_lemma o (insert_empties a p) (insert_empties b q) r Ho); [|exact V].
    apply closed_all_b. cbn [forallb] in Hc |- *. rewrite !ins_rings_closed_b. exact Hc.
  Qed.
  Lemma ins_judge_everywhere' o (a b r : geom) p q :
    (o = OpUnion \/ o = OpInter) -> forallb rings_closed_b [a; b; r] = true ->
    v_agree (judge o a b r) = true ->
    forall x, inG r x = op_bool o (inG (insert_empties a p) x) (inG (insert_empties b q) x).
  Proof.
    intros Ho Hc V x. rewrite !ins_inG. apply (judge_everywhere_lemma o a b r Ho); [|exact V].
    apply closed_all_b. exact Hc.
  Qed.
End SetOp.
