(* Lemmas about Model/OverlayRings.v: the ring walk and the grouping of extractPolygons on every
   labelled complex satisfying dcel_ok, and the boundary cycle of a face ([orbit] of Model/OverlayComplex.v),
   a walk of the same kind.  Termination of the walks (fuel) is not proved: the theorems are about the
   extraction having returned a value, which the driver observes on every real structure. *)
From Coq Require Import List Bool Arith Lia Permutation.
From SF Require Import Model.SetOpSpec Model.OverlayComplex Proofs.OverlayComplex_proofs Model.OverlayRings.
Import ListNotations.

Lemma memb_In x l : memb x l = true <-> In x l.
Proof.
  unfold memb. rewrite existsb_exists. split.
  - intros (y & Hy & E). apply Nat.eqb_eq in E. subst. exact Hy.
  - intros H. exists x. split; [exact H|apply Nat.eqb_refl].
Qed.
Lemma memb_false x l : memb x l = false <-> ~ In x l.
Proof. rewrite <- memb_In. destruct (memb x l); split; congruence. Qed.

Lemma nodup_app' {A} (l1 l2 : list A) :
  NoDup l1 -> NoDup l2 -> (forall x, In x l1 -> In x l2 -> False) -> NoDup (l1 ++ l2).
Proof.
  induction 1 as [|a l1 Ha Hn IH]; intros H2 Hd; simpl; [exact H2|].
  constructor.
  - intros Hin. apply in_app_or in Hin as [Hin|Hin]; [contradiction|]. apply (Hd a); [left; reflexivity|exact Hin].
  - apply IH; [exact H2|]. intros x H1 Hx. apply (Hd x); [right; exact H1|exact Hx].
Qed.

(* ================================================================ walks of a partial successor === *)
Section Walk.
  Variable f : nat -> option nat.

  (* x, f x, f (f x), ... up to the element whose successor is s *)
  Inductive chain (s : nat) : nat -> list nat -> Prop :=
  | chain_last x : f x = Some s -> chain s x [x]
  | chain_cons x y l : f x = Some y -> y <> s -> chain s y l -> chain s x (x :: l).

  Lemma walk_chain s : forall fuel cur l, walk f s cur fuel = Some l -> chain s cur l.
  Proof.
    induction fuel as [|k IH]; intros cur l H; [discriminate|]. simpl in H.
    destruct (f cur) as [nx|] eqn:E; [|discriminate].
    destruct (Nat.eqb nx s) eqn:En.
    - inversion H; subst. apply Nat.eqb_eq in En. subst. apply chain_last. exact E.
    - destruct (walk f s nx k) as [l'|] eqn:Hw; [|discriminate]. inversion H; subst.
      apply Nat.eqb_neq in En. eapply chain_cons; eauto.
  Qed.
  Lemma chain_det s x l1 : chain s x l1 -> forall l2, chain s x l2 -> l1 = l2.
  Proof.
    induction 1 as [x Hx|x y l Hx Hy Hc IH]; intros l2 H2; inversion H2; subst.
    - reflexivity.
    - rewrite Hx in H. inversion H; subst. contradiction.
    - rewrite Hx in H. inversion H; subst. contradiction.
    - rewrite Hx in H. inversion H; subst. f_equal. apply IH. assumption.
  Qed.
  Lemma chain_suffix s x l : chain s x l -> forall k y, nth_error l k = Some y -> chain s y (skipn k l).
  Proof.
    induction 1 as [x Hx|x y l Hx Hy Hc IH]; intros k z Hk.
    - destruct k as [|k]; simpl in Hk; [inversion Hk; subst; simpl; apply chain_last; exact Hx|].
      destruct k; discriminate.
    - destruct k as [|k]; simpl in Hk.
      + inversion Hk; subst. simpl. eapply chain_cons; eauto.
      + simpl. apply IH. exact Hk.
  Qed.
  Lemma chain_nodup s x l : chain s x l -> NoDup l.
  Proof.
    induction 1 as [x Hx|x y l Hx Hy Hc IH].
    - constructor; [intros []|constructor].
    - constructor; [|exact IH]. intros Hin.
      apply In_nth_error in Hin as (k & Hk).
      pose proof (chain_suffix s _ _ Hc k x Hk) as Hs.
      pose proof (chain_det s x _ (chain_cons s x y l Hx Hy Hc) _ Hs) as E.
      assert (length (skipn k l) <= length l) by (rewrite skipn_length; lia).
      rewrite <- E in H. simpl in H. lia.
  Qed.
  Lemma chain_head s x l : chain s x l -> exists r, l = x :: r.
  Proof. destruct 1; eauto. Qed.
  Lemma chain_inv (P : nat -> Prop) s x l :
    (forall a b, P a -> f a = Some b -> P b) -> chain s x l -> P x -> P s /\ forall z, In z l -> P z.
  Proof.
    intros HP. induction 1 as [x Hx|x y l Hx Hy Hc IH]; intros Hp.
    - split; [eapply HP; eauto|]. intros z [<-|[]]. exact Hp.
    - destruct IH as [Hs Hl]; [eapply HP; eauto|]. split; [exact Hs|]. intros z [<-|Hz]; auto.
  Qed.
  (* a closed walk (started at s) is closed under the successor: the successor of z heads the rest of
     the walk after z, or is s, which heads the walk *)
  Lemma cycle_closed s l : chain s s l -> forall z, In z l -> exists y, f z = Some y /\ In y l.
  Proof.
    intros Hc z Hz. apply In_nth_error in Hz as (k & Hk).
    assert (Hsub : forall y, In y (skipn k l) -> In y l).
    { intros y Hy. rewrite <- (firstn_skipn k l). apply in_or_app. right. exact Hy. }
    pose proof (chain_suffix s s l Hc k z Hk) as Hs. remember (skipn k l) as l'.
    destruct Hs as [z Hfz|z y r Hfz _ Hr].
    - exists s. split; [exact Hfz|]. destruct (chain_head _ _ _ Hc) as (t & ->). left. reflexivity.
    - exists y. split; [exact Hfz|]. apply Hsub. right.
      destruct (chain_head _ _ _ Hr) as (t & ->). left. reflexivity.
  Qed.
  Definition closed_set (S : list nat) : Prop := forall x y, In x S -> f x = Some y -> In y S.
  (* from any element of a walk the end s is reached inside any successor-closed set *)
  Lemma cycle_disjoint_closed s l S : chain s s l -> closed_set S -> ~ In s S -> forall z, In z l -> ~ In z S.
  Proof.
    intros Hc HS Hs z Hz Hin. apply Hs. apply In_nth_error in Hz as (k & Hk).
    exact (proj1 (chain_inv (fun x => In x S) s z _ HS (chain_suffix s s l Hc k z Hk) Hin)).
  Qed.
  Lemma closed_app l S : (forall z, In z l -> exists y, f z = Some y /\ In y l) -> closed_set S -> closed_set (l ++ S).
  Proof.
    intros Hl HS x y Hx Hf. apply in_app_or in Hx as [Hx|Hx]; apply in_or_app.
    - left. destruct (Hl x Hx) as (y' & Hy' & Hin). rewrite Hf in Hy'. injection Hy' as <-. exact Hin.
    - right. eapply HS; eauto.
  Qed.

  (* what [collect] returns *)
  Lemma collect_spec fuel : forall cands seen rings,
    collect f cands seen fuel = Some rings -> closed_set seen ->
    (forall ring, In ring rings -> exists s, chain s s ring /\ In s cands) /\
    (forall x, In x cands -> In x seen \/ exists ring, In ring rings /\ In x ring) /\
    NoDup (concat rings) /\
    (forall z, In z (concat rings) -> ~ In z seen).
  Proof.
    induction cands as [|x r IH]; intros seen rings H HS; simpl in H.
    - injection H as <-. repeat split; try (intros ? []); constructor.
    - destruct (memb x seen) eqn:Em.
      + destruct (IH seen rings H HS) as (A & B & C & D). repeat split; auto.
        * intros ring Hr. destruct (A ring Hr) as (s & Hc & Hin). eauto using in_cons.
        * intros z [<-|Hz]; [left; apply memb_In; exact Em|auto].
      + destruct (walk f x x fuel) as [ring|] eqn:Ew; [|discriminate].
        destruct (collect f r (ring ++ seen) fuel) as [rs|] eqn:Ec; [|discriminate]. injection H as <-.
        apply walk_chain in Ew. apply memb_false in Em.
        destruct (IH (ring ++ seen) rs Ec) as (A & B & C & D).
        { apply closed_app; [apply (cycle_closed x), Ew|exact HS]. }
        repeat split.
        * intros rg [<-|Hr]; [eauto using in_eq|]. destruct (A rg Hr) as (s & Hcs & Hin). eauto using in_cons.
        * intros z [<-|Hz].
          -- right. exists ring. destruct (chain_head _ _ _ Ew) as (t & ->). auto using in_eq.
          -- destruct (B z Hz) as [Hin|(rg & Hrg & Hzr)]; [|eauto using in_cons].
             apply in_app_or in Hin as [Hin|Hin]; eauto using in_eq.
        * simpl. apply nodup_app'; [eapply chain_nodup; eauto|exact C|].
          intros z Hz1 Hz2. apply (D z Hz2). apply in_or_app. left. exact Hz1.
        * simpl. intros z Hz Hin. apply in_app_or in Hz as [Hz|Hz].
          -- exact (cycle_disjoint_closed x ring seen Ew HS Em z Hz Hin).
          -- apply (D z Hz). apply in_or_app. right. exact Hin.
  Qed.
End Walk.

(* ================================================================ face cycles ================ *)
Definition nxt (c : complex) (i : nat) : option nat := option_map e_next (get_e c i).
Lemma orbit_walk c s : forall fuel cur, orbit c s cur fuel = walk (nxt c) s cur fuel.
Proof.
  induction fuel as [|k IH]; intros cur; [reflexivity|]. simpl. unfold nxt at 1.
  destruct (get_e c cur) as [e|]; [|reflexivity]. simpl. rewrite IH. reflexivity.
Qed.
Lemma nxt_same_face c j x y : dcel_ok c = true -> In x (face_edges c j) -> nxt c x = Some y -> In y (face_edges c j).
Proof.
  intros Hok Hx Hy. apply face_edges_spec in Hx as (e & He & Hf). apply face_edges_spec.
  unfold nxt in Hy. rewrite He in Hy. injection Hy as <-.
  destruct (dcel_ok_edge c x e Hok He) as [(t & _ & _ & _ & _ & n & Hn & _ & _ & Hnf) _].
  exists n. split; [exact Hn|]. rewrite Hnf. exact Hf.
Qed.

(* on every complex satisfying the invariants, the boundary cycle recorded for a face visits every
   half edge incident to that face exactly once *)
Theorem face_cycle_complete_lemma c j f s :
  dcel_ok c = true -> get_f c j = Some f -> f_cycle f = Some s ->
  exists l, orbit c s s (nE c) = Some l /\ NoDup l /\
            forall i, In i l <-> exists e, get_e c i = Some e /\ e_face e = j.
Proof.
  intros Hok Hf Hs.
  assert (Hfo : faces_ok c = true).
  { unfold dcel_ok in Hok. rewrite !andb_true_iff in Hok. tauto. }
  unfold faces_ok in Hfo. apply andb_true_iff in Hfo as [Hfo _].
  apply forallb_indexed with (i := j) (x := f) in Hfo; [|exact Hf]. cbn [fst snd] in Hfo. rewrite Hs in Hfo.
  apply andb_true_iff in Hfo as [Hsf Ho].
  destruct (orbit c s s (nE c)) as [l|] eqn:El; [|discriminate]. apply Nat.eqb_eq in Ho.
  exists l. split; [reflexivity|].
  rewrite orbit_walk in El. apply walk_chain in El.
  pose proof (chain_nodup _ s s l El) as Hnd. split; [exact Hnd|].
  assert (Hsub : forall i, In i l -> In i (face_edges c j)).
  { apply (chain_inv (nxt c) (fun i => In i (face_edges c j)) s s l (fun a b => nxt_same_face c j a b Hok) El).
    apply face_edges_spec. apply field_is_spec. exact Hsf. }
  intros i. rewrite <- face_edges_spec. split; [apply Hsub|].
  apply (NoDup_length_incl Hnd); [|exact Hsub]. rewrite face_edges_length. lia.
Qed.

(* ================================================================ the ring walk on a complex ===== *)
(* i is a boundary half edge of the face group: its face belongs to the group, its twin's face does not *)
Definition gb (c : complex) (grp : list nat) (i : nat) : Prop :=
  exists e t, get_e c i = Some e /\ In (e_face e) grp /\ get_e c (e_twin e) = Some t /\ ~ In (e_face t) grp.
Definition tf_out (c : complex) (grp : list nat) (i : nat) : Prop :=
  exists e t, get_e c i = Some e /\ get_e c (e_twin e) = Some t /\ ~ In (e_face t) grp.

(* the half edge after i in the rotation around the origin of i: its twin is prev(i), on the face of i *)
Lemma rot_tf_out c grp i e j :
  dcel_ok c = true -> get_e c i = Some e -> ~ In (e_face e) grp -> rot c i = Some j -> tf_out c grp j.
Proof.
  intros Hok He Hout Hr. unfold rot in Hr. rewrite He in Hr.
  destruct (dcel_ok_edge c i e Hok He) as [_ (p & Hp & Hpn)]. rewrite Hp in Hr. injection Hr as <-.
  destruct (dcel_ok_edge c (e_prev e) p Hok Hp) as [(t' & Ht' & Htw & _ & _ & n & Hn & _ & _ & Hnf) _].
  rewrite Hpn, He in Hn. injection Hn as <-.
  exists t', p. rewrite Htw, <- Hnf. auto.
Qed.

Lemma sweep_gb c grp : dcel_ok c = true -> forall fuel i j,
  sweep c grp i fuel = Some j -> tf_out c grp i -> gb c grp j.
Proof.
  intros Hok. induction fuel as [|k IH]; intros i j H Ht; [discriminate|]. simpl in H.
  destruct Ht as (e & t & He & Hte & Hout). rewrite He in H.
  destruct (memb (e_face e) grp) eqn:Em.
  - injection H as <-. apply memb_In in Em. exists e, t. auto.
  - destruct (rot c i) as [i'|] eqn:Er; [|discriminate]. apply memb_false in Em.
    apply (IH i' j H). apply (rot_tf_out c grp i e); assumption.
Qed.

(* one step of extractPolygonRing leads from a boundary half edge of the group to a boundary half edge
   of the group *)
Lemma ring_succ_gb c grp i j :
  dcel_ok c = true -> gb c grp i -> ring_succ c grp i = Some j -> gb c grp j.
Proof.
  intros Hok (e & t & He & _ & Ht & Hout) H. unfold ring_succ in H. rewrite He in H.
  destruct (rot c (e_twin e)) as [j0|] eqn:Er; [|discriminate].
  apply (sweep_gb c grp Hok _ j0 j H). apply (rot_tf_out c grp (e_twin e) t); assumption.
Qed.

Lemma in_adj_faces c x y :
  In y (adj_faces c x) <->
  exists e t, In e (c_edges c) /\ e_face e = x /\ get_e c (e_twin e) = Some t /\ e_face t = y.
Proof.
  unfold adj_faces, twin_face. rewrite in_flat_map. split.
  - intros (e & Hin & H). destruct (Nat.eqb_spec (e_face e) x) as [Ef|]; [|destruct H].
    destruct (get_e c (e_twin e)) as [t|] eqn:Ht; [|destruct H]. destruct H as [<-|[]]. eauto 6.
  - intros (e & t & Hin & <- & Ht & <-). exists e. split; [exact Hin|]. rewrite Nat.eqb_refl, Ht. left. reflexivity.
Qed.

Definition adj_closed (o : setop) (c : complex) (D : list nat) : Prop :=
  forall x y, In x D -> In y (adj_faces c x) -> sel_face o c y = true -> In y D.

Lemma group_ok_closed o c g : group_ok o c g = true -> adj_closed o c g /\ (forall x, In x g -> sel_face o c x = true).
Proof.
  unfold group_ok. intros H. apply andb_true_iff in H as [Hs Hc]. rewrite forallb_forall in Hs, Hc. split; [|exact Hs].
  intros x y Hx Hy Hsel. assert (Hin : In y (flat_map (adj_faces c) g)) by (apply in_flat_map; eauto).
  specialize (Hc y Hin). rewrite Hsel in Hc. simpl in Hc. apply memb_In. exact Hc.
Qed.

(* the candidates of a well-formed group are its boundary half edges, and conversely *)
Lemma group_boundary_spec o c grp i :
  dcel_ok c = true -> group_ok o c grp = true ->
  (In i (group_boundary o c grp) <-> gb c grp i).
Proof.
  intros Hok Hg. destruct (group_ok_closed o c grp Hg) as [Hcl Hsel].
  unfold group_boundary. rewrite in_map_iff. split.
  - intros ([i' e] & <- & H). apply filter_In in H as [Hin H]. apply in_edges_ix in Hin.
    cbn [fst snd] in *. apply andb_true_iff in H as [Hm Hns]. apply memb_In in Hm. apply negb_true_iff in Hns.
    destruct (dcel_ok_edge c i' e Hok Hin) as [(t & Ht & _) _].
    exists e, t. repeat split; auto.
    intros Hf. rewrite (sel_twin_face_eq o c e t Ht), (Hsel _ Hf) in Hns. discriminate.
  - intros (e & t & He & Hf & Ht & Hout). exists (i, e). split; [reflexivity|].
    apply filter_In. split; [apply in_edges_ix; exact He|]. cbn [snd].
    apply andb_true_iff. split; [apply memb_In; exact Hf|]. apply negb_true_iff.
    rewrite (sel_twin_face_eq o c e t Ht). apply not_true_is_false. intros Hs. apply Hout.
    apply (Hcl (e_face e)); [exact Hf| |exact Hs]. apply in_adj_faces. exists e, t. eauto using get_e_in.
Qed.

Lemma group_boundary_nodup o c grp : NoDup (group_boundary o c grp).
Proof.
  unfold group_boundary, edges_ix. apply nodup_map_fst_filter. rewrite map_fst_indexed_from. apply seq_NoDup.
Qed.

(* THE RING THEOREM.  On every complex satisfying the invariants, for every well-formed face group,
   if the ring extraction returns rings then
   - each ring is a closed cycle of the successor of extractPolygonRing (consecutive elements are
     successors, the successor of the last is the first);
   - all half edges of all rings are distinct (rings are simple and pairwise edge-disjoint);
   - the half edges on the rings are exactly the boundary half edges of the group: every one of them
     lies on exactly one ring. *)
Theorem group_rings_spec_lemma o c grp rings :
  dcel_ok c = true -> group_ok o c grp = true -> group_rings o c grp = Some rings ->
  (forall ring, In ring rings -> exists s, chain (ring_succ c grp) s s ring) /\
  NoDup (concat rings) /\
  Permutation (concat rings) (group_boundary o c grp) /\
  (forall z, In z (concat rings) -> gb c grp z).
Proof.
  intros Hok Hg Hr. unfold group_rings in Hr.
  destruct (collect_spec (ring_succ c grp) (nE c) _ [] rings Hr) as (A & B & C & _).
  { intros x y []. }
  assert (G : forall z, In z (concat rings) -> gb c grp z).
  { intros z Hz. apply in_concat in Hz as (ring & Hring & Hz).
    destruct (A ring Hring) as (s & Hc & Hs). apply (group_boundary_spec o c grp s Hok Hg) in Hs.
    apply (chain_inv (ring_succ c grp) (gb c grp) s s ring); auto.
    intros a b Ha Hb. apply (ring_succ_gb c grp a b Hok Ha Hb). }
  repeat split.
  - intros ring Hring. destruct (A ring Hring) as (s & Hc & _). eauto.
  - exact C.
  - apply NoDup_Permutation; [exact C|apply group_boundary_nodup|]. intros z. split.
    + intros Hz. apply (group_boundary_spec o c grp z Hok Hg). apply G. exact Hz.
    + intros Hz. destruct (B z Hz) as [[]|(ring & Hring & Hin)]. apply in_concat. eauto.
  - exact G.
Qed.

(* ================================================================ face groups ================== *)
(* x is connected to f through selected faces, across edges *)
Inductive conn (o : setop) (c : complex) (f : nat) : nat -> Prop :=
| conn_refl : conn o c f f
| conn_step x y : conn o c f x -> In y (adj_faces c x) -> sel_face o c y = true -> conn o c f y.

Lemma conn_sel o c f x : sel_face o c f = true -> conn o c f x -> sel_face o c x = true.
Proof. intros Hf H. induction H; auto. Qed.

(* adjacency of faces is symmetric (twin is an involution) *)
Lemma adj_faces_sym c x y : dcel_ok c = true -> In y (adj_faces c x) -> In x (adj_faces c y).
Proof.
  intros Hok H. apply in_adj_faces in H as (e & t & Hin & <- & Ht & <-).
  destruct (in_get_e c e Hin) as (i & He).
  destruct (dcel_ok_edge c i e Hok He) as [(t' & Ht' & Htw & _) _]. rewrite Ht in Ht'. injection Ht' as <-.
  apply in_adj_faces. exists t, e. rewrite Htw. eauto using get_e_in.
Qed.

(* a closed set that meets a connected group contains its start *)
Lemma conn_back o c D f x :
  dcel_ok c = true -> adj_closed o c D -> sel_face o c f = true -> conn o c f x -> In x D -> In f D.
Proof.
  intros Hok HD Hf H. induction H as [|x y Hc IH Hy Hs]; intros Hin; [exact Hin|].
  apply IH. apply (HD y x Hin); [apply adj_faces_sym; assumption|apply (conn_sel o c f x Hf Hc)].
Qed.

(* one round of findFacesMakingPolygon adds exactly the selected faces adjacent to the group *)
Lemma in_expand o c grp z :
  In z (expand o c grp) <-> In z grp \/ sel_face o c z = true /\ In z (flat_map (adj_faces c) grp).
Proof.
  unfold expand. generalize (flat_map (adj_faces c) grp) as l. intros l. revert grp.
  induction l as [|y l IH]; intros acc; simpl; [tauto|]. rewrite IH. clear IH.
  destruct (sel_face o c y) eqn:Ey; [destruct (memb y acc) eqn:Em|]; simpl.
  - apply memb_In in Em. intuition (subst; auto).
  - rewrite in_app_iff. simpl. intuition (subst; auto).
  - intuition (subst; auto; congruence).
Qed.
Lemma iter_inv {A} (P : A -> Prop) (f : A -> A) : (forall x, P x -> P (f x)) -> forall n x, P x -> P (iter n f x).
Proof. intros Hf. induction n; intros x Hx; simpl; auto. Qed.

(* findFacesMakingPolygon: the group of a start face is closed, selected, contains the start, and
   every member is connected to the start *)
Lemma face_group_spec o c f g :
  face_group o c f = Some g ->
  group_ok o c g = true /\ In f g /\ forall x, In x g -> conn o c f x.
Proof.
  unfold face_group. destruct (group_ok o c (iter (nF c) (expand o c) [f])) eqn:E; [|discriminate].
  intros [= <-]. split; [exact E|]. split.
  - apply (iter_inv (fun g => In f g)); [|left; reflexivity]. intros g Hg. apply in_expand. left. exact Hg.
  - apply (iter_inv (fun g => forall x, In x g -> conn o c f x)); [|intros x [<-|[]]; constructor].
    intros g Hg y Hy. apply in_expand in Hy as [Hy|[Hs Hy]]; [exact (Hg y Hy)|].
    apply in_flat_map in Hy as (x & Hx & Hy). econstructor; eauto.
Qed.

Lemma groups_from_spec o c : dcel_ok c = true -> forall fs done gs,
  groups_from o c fs done = Some gs -> adj_closed o c done ->
  (forall g, In g gs -> group_ok o c g = true /\ exists f, In f g /\ forall x, In x g -> conn o c f x) /\
  (forall f, In f fs -> sel_face o c f = true -> In f (done ++ concat gs)) /\
  (forall x, In x (concat gs) -> ~ In x done) /\
  ForallOrdPairs (fun g1 g2 => forall x, In x g1 -> ~ In x g2) gs.
Proof.
  intros Hok. induction fs as [|f r IH]; intros done gs H HD; simpl in H.
  - injection H as <-. split; [intros g []|]. split; [intros f []|]. split; [intros x []|constructor].
  - destruct (sel_face o c f && negb (memb f done)) eqn:E.
    + destruct (face_group o c f) as [g|] eqn:Eg; [|discriminate].
      destruct (groups_from o c r (g ++ done)) as [gs'|] eqn:Er; [|discriminate]. injection H as <-.
      apply andb_true_iff in E as [Esel Enot]. apply negb_true_iff, memb_false in Enot.
      destruct (face_group_spec o c f g Eg) as (Hgok & Hfg & Hconn).
      destruct (group_ok_closed o c g Hgok) as [Hgc Hgs].
      destruct (IH (g ++ done) gs' Er) as (A & B & C & D).
      { intros x y Hx Hy Hs. apply in_or_app. apply in_app_or in Hx as [Hx|Hx]; [left; eapply Hgc|right; eapply HD]; eauto. }
      simpl. split; [|split; [|split]].
      * intros gq [<-|Hgq]; [eauto|apply A, Hgq].
      * intros f0 [<-|Hf0] Hs0; [|specialize (B f0 Hf0 Hs0)]; rewrite !in_app_iff in *; tauto.
      * intros x Hx Hin. apply in_app_or in Hx as [Hx|Hx]; [|apply (C x Hx), in_or_app; auto].
        apply Enot. eapply conn_back; eauto.
      * constructor; [|exact D]. apply Forall_forall. intros gq Hgq x Hx Hx0.
        apply (C x); [apply in_concat; eauto|apply in_or_app; auto].
    + destruct (IH done gs H HD) as (A & B & C & D). split; [|split; [|split]]; auto.
      intros f0 [<-|Hf0] Hs0; [|auto]. apply in_or_app. left.
      rewrite Hs0 in E. simpl in E. apply negb_false_iff in E. apply memb_In. exact E.
Qed.

(* THE GROUPING THEOREM: the groups are pairwise disjoint, cover the selected faces, and each is a
   set of selected faces that is closed under adjacency and connected: the connected components of
   the selected faces across edges *)
Theorem polygon_groups_spec_lemma o c gs :
  dcel_ok c = true -> polygon_groups o c = Some gs ->
  (forall g, In g gs -> group_ok o c g = true /\ exists f, In f g /\ forall x, In x g -> conn o c f x) /\
  (forall f, f < nF c -> sel_face o c f = true -> exists g, In g gs /\ In f g) /\
  ForallOrdPairs (fun g1 g2 => forall x, In x g1 -> ~ In x g2) gs.
Proof.
  intros Hok H. unfold polygon_groups in H.
  destruct (groups_from_spec o c Hok _ [] gs H) as (A & B & _ & D); [intros x y []|].
  split; [exact A|]. split; [|exact D].
  intros f Hf Hs. apply in_concat. apply (B f); [apply in_seq; lia|exact Hs].
Qed.

Lemma all_some_map {A B} (h : A -> option B) (proj : B -> A) (l : list A) (r : list B) :
  (forall a b, h a = Some b -> proj b = a) -> all_some (map h l) = Some r -> map proj r = l.
Proof.
  intros Hp. revert r. induction l as [|a l IH]; intros r H; simpl in H.
  - injection H as <-. reflexivity.
  - destruct (h a) as [b|] eqn:E; [|discriminate]. destruct (all_some (map h l)) as [r'|]; [|discriminate].
    injection H as <-. simpl. rewrite (Hp a b E), (IH r' eq_refl). reflexivity.
Qed.
Lemma all_some_in {A B} (h : A -> option B) (l : list A) : forall r b,
  all_some (map h l) = Some r -> In b r -> exists a, In a l /\ h a = Some b.
Proof.
  induction l as [|a l IH]; intros r b H Hb; simpl in H; [injection H as <-; destruct Hb|].
  destruct (h a) as [b0|] eqn:E; [|discriminate]. destruct (all_some (map h l)) as [r'|]; [|discriminate].
  injection H as <-. destruct Hb as [<-|Hb]; [eauto using in_eq|].
  destruct (IH r' b eq_refl Hb) as (a' & Ha' & Hb'). eauto using in_cons.
Qed.
(* orderPolygonRings only reorders the rings *)
Lemma take_first_ccw_perm w : forall rings x rest,
  take_first_ccw w rings = Some (x, rest) -> Permutation (x :: rest) rings.
Proof.
  induction rings as [|r0 rings IH]; intros x rest Et; simpl in Et; [discriminate|].
  destruct (is_ccw w r0); [injection Et as <- <-; apply Permutation_refl|].
  destruct (take_first_ccw w rings) as [[x' others]|]; [|discriminate]. injection Et as <- <-.
  eapply Permutation_trans; [apply perm_swap|]. constructor. apply IH. reflexivity.
Qed.
Lemma polygon_of_spec o c w g p :
  polygon_of o c w g = Some p ->
  p_group p = g /\ exists rings, group_rings o c g = Some rings /\ Permutation (p_exterior p :: p_holes p) rings.
Proof.
  unfold polygon_of. destruct (group_rings o c g) as [rings|]; [|discriminate].
  destruct (take_first_ccw w rings) as [[x rest]|] eqn:Et; [|discriminate]. intros [= <-].
  split; [reflexivity|]. exists rings. split; [reflexivity|]. apply (take_first_ccw_perm w), Et.
Qed.
(* one polygon per group: the number of extracted polygons is the number of connected groups *)
Theorem extract_polygons_groups_lemma o c w ps :
  extract_polygons o c w = Some ps ->
  exists gs, polygon_groups o c = Some gs /\ map p_group ps = gs /\ length ps = length gs /\
    forall p, In p ps -> exists rings, group_rings o c (p_group p) = Some rings /\
                                       Permutation (p_exterior p :: p_holes p) rings.
Proof.
  unfold extract_polygons. destruct (polygon_groups o c) as [gs|]; [|discriminate]. intros H.
  exists gs. split; [reflexivity|].
  pose proof (all_some_map _ p_group gs ps (fun g p Hp => proj1 (polygon_of_spec o c w g p Hp)) H) as E.
  split; [exact E|]. split; [rewrite <- E, map_length; reflexivity|].
  intros p Hin. destruct (all_some_in _ gs ps p H Hin) as (g & _ & Hg).
  destruct (polygon_of_spec o c w g p Hg) as (<- & R). exact R.
Qed.
