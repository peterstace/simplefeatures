(* Property C13 - the hull depends only on the SET of points (order, multiplicity), and taking
   the hull of the hull's vertices gives the hull again (uniqueness of strict hull chains). *)
From Coq Require Import ZArith List Bool Lia Permutation Sorting.Sorted Arith.
From SF Require Import Base.GeomAST Model.Hull Proofs.Hull_proofs Proofs.Hull_chain Proofs.Hull_ring.
Import ListNotations.
Open Scope Z_scope.

Definition same_set (l l' : list pt) : Prop := forall x, In x l <-> In x l'.

Lemma has_2_distinct_intro ps a b : In a ps -> In b ps -> a <> b -> has_2_distinct ps = true.
Proof.
  intros Ha Hb Hab. destruct (has_2_distinct ps) eqn:E; [reflexivity|exfalso].
  destruct ps as [|p0 r]; [destruct Ha|].
  apply Hab. rewrite (has_2_distinct_false p0 r E a Ha), (has_2_distinct_false p0 r E b Hb). reflexivity.
Qed.

Lemma has_2_distinct_ext ps ps' : same_set ps ps' -> has_2_distinct ps = has_2_distinct ps'.
Proof.
  intros H. destruct (has_2_distinct ps) eqn:E.
  - apply has_2_distinct_true in E. destruct E as [a [b [Ha [Hb Hab]]]].
    symmetry. apply (has_2_distinct_intro ps' a b); auto; apply H; auto.
  - destruct (has_2_distinct ps') eqn:E'; [|reflexivity].
    apply has_2_distinct_true in E'. destruct E' as [a [b [Ha [Hb Hab]]]].
    rewrite (has_2_distinct_intro ps a b) in E; auto; apply H; auto.
Qed.

Lemma two_distinct_dedup_len sg l ps : sgn sg -> StronglySorted (dle sg) l -> same_set l ps ->
  has_2_distinct ps = true -> (2 <= length (dedup l))%nat.
Proof.
  intros Hs Hl Hel H2. apply has_2_distinct_true in H2. destruct H2 as [a [b [Ha [Hb Hab]]]].
  apply (two_distinct_len _ a b); auto; apply dedup_In, Hel; auto.
Qed.

Lemma monotone_chain_dedup ps : has_2_distinct ps = true ->
  monotone_chain ps = rev (chain_rev (dedup (sort ps))) ++ tl (rev (chain_rev (dedup (rev (sort ps))))).
Proof.
  intros H2. unfold monotone_chain, chain.
  rewrite (chain_rev_dedup (sort ps)), (chain_rev_dedup (rev (sort ps))); [reflexivity| |].
  - apply (two_distinct_dedup_len (-1) _ ps sgnm1); auto.
    + apply sorted_rev_flip, sort_sorted.
    + intros x. apply rev_sort_In.
  - apply (two_distinct_dedup_len 1 _ ps sgn1); auto.
    + apply sort_sorted.
    + intros x. apply sort_In.
Qed.


Lemma dedup_set_ext sg l l' : sgn sg ->
  StronglySorted (dle sg) l -> StronglySorted (dle sg) l' -> same_set l l' -> dedup l = dedup l'.
Proof.
  intros Hs Hl Hl' S. apply (strict_sorted_unique sg Hs); [apply dedup_sorted; assumption..|].
  intros x. rewrite !dedup_In. apply S.
Qed.

Lemma monotone_chain_ext ps ps' : same_set ps ps' -> has_2_distinct ps = true ->
  monotone_chain ps = monotone_chain ps'.
Proof.
  intros H H2. assert (H2' : has_2_distinct ps' = true) by (rewrite <- (has_2_distinct_ext ps ps' H); exact H2).
  rewrite (monotone_chain_dedup ps H2), (monotone_chain_dedup ps' H2').
  rewrite (dedup_set_ext 1 (sort ps) (sort ps') sgn1 (sort_sorted ps) (sort_sorted ps')),
    (dedup_set_ext (-1) (rev (sort ps)) (rev (sort ps')) sgnm1
       (sorted_rev_flip _ (sort_sorted ps)) (sorted_rev_flip _ (sort_sorted ps'))); [reflexivity| |].
  - intros x. rewrite !rev_sort_In. apply H.
  - intros x. rewrite !sort_In. apply H.
Qed.

(* the result depends only on the set of input points *)
Theorem hull_set_ext_lemma : forall ps ps', same_set ps ps' -> hull_pts ps = hull_pts ps'.
Proof.
  intros ps ps' H.
  destruct ps as [|p0 r]; destruct ps' as [|p0' r'].
  - reflexivity.
  - exfalso. apply (H p0'). left; reflexivity.
  - exfalso. apply (H p0). left; reflexivity.
  - unfold hull_pts. rewrite <- (has_2_distinct_ext _ _ H).
    destruct (has_2_distinct (p0 :: r)) eqn:H2; cbn [negb].
    + rewrite (monotone_chain_ext _ _ H H2). reflexivity.
    + f_equal. symmetry. apply (has_2_distinct_false p0 r H2). apply H. left; reflexivity.
Qed.

Theorem hull_perm_lemma : forall ps ps', Permutation ps ps' -> hull_pts ps = hull_pts ps'.
Proof.
  intros ps ps' Hp. apply hull_set_ext_lemma. intros x. split; intros Hx.
  - eapply Permutation_in; eauto.
  - eapply Permutation_in; [apply Permutation_sym|]; eauto.
Qed.

(* Uniqueness of a strictly convex chain between two given end points that leaves a point set
   on its left and uses only points of the set *)

Lemma geo_U sg c2 c1 M d1 : sgn sg ->
  dlt sg c1 M -> dlt sg d1 c1 ->
  cross c1 M d1 = 0 -> 0 < cross c2 c1 M -> 0 <= cross c2 c1 d1 -> False.
Proof.
  intros Hs H2 H3 E Ht Hc.
  destruct c2 as [ax ay], c1 as [bx b_y], M as [Mx My], d1 as [dx dy].
  dsgn Hs.
  - pose proof (T_par (Mx - bx) (My - b_y) (bx - dx) (b_y - dy) (bx - ax) (b_y - ay)) as T.
    unfold dlt, dv, lexpos, cross in *; cbn [fst snd] in *. lia.
  - pose proof (T_par (bx - Mx) (b_y - My) (dx - bx) (dy - b_y) (ax - bx) (ay - b_y)) as T.
    unfold dlt, dv, lexpos, cross in *; cbn [fst snd] in *. lia.
Qed.

Lemma desc_last_le sg top C d : sgn sg -> desc sg (top :: C) -> forall x, In x (top :: C) -> dle sg (last (top :: C) d) x.
Proof.
  intros Hs. revert top. induction C as [|c C IH]; intros top Hd x Hx.
  - destruct Hx as [<-|[]]. right; reflexivity.
  - inversion Hd as [|? ? Hd' Hall]; subst. rewrite Forall_forall in Hall.
    change (last (top :: c :: C) d) with (last (c :: C) d).
    destruct Hx as [<-|Hx]; [|apply IH; auto].
    eapply dle_trans; [exact Hs|apply (IH c Hd' c); left; reflexivity|].
    left. apply Hall. left; reflexivity.
Qed.

(* two such chains from the same top to the same bottom cannot start with different vertices c1 (on
   the first) and d1 (on the second), d1 nearer to the top: c1 would be strictly right of the second
   chain's edge below d1, or before its bottom *)
Lemma chain_heads_absurd sg top c1 C d1 D : sgn sg ->
  desc sg (top :: c1 :: C) -> desc sg (top :: d1 :: D) -> stk_turns (top :: d1 :: D) ->
  (forall d, last (top :: c1 :: C) d = last (top :: d1 :: D) d) ->
  cov c1 (top :: d1 :: D) -> cross c1 top d1 = 0 -> dlt sg c1 d1 -> False.
Proof.
  intros Hs HdC HdD HtD Hlast Hcov E0 Hlt.
  inversion HdD as [|? ? HdD' HallD]; subst. inversion HallD as [|? ? Hd1 _]; subst.
  destruct D as [|d2 D'].
  - pose proof (desc_last_le sg top (c1 :: C) top Hs HdC c1 (or_intror (or_introl eq_refl))) as Hle.
    rewrite Hlast in Hle. simpl in Hle.
    eapply dlt_irrefl; [exact Hs|eapply dlt_dle_trans; [exact Hs|exact Hlt|exact Hle]].
  - inversion HdD' as [|? ? _ Ha]; subst. inversion Ha; subst.
    rewrite stk_turns_cons3 in HtD.
    change (cov c1 (top :: d1 :: d2 :: D')) with (0 <= cross d1 top c1 /\ (0 <= cross d2 d1 c1 /\ cov c1 (d2 :: D'))) in Hcov.
    apply (geo_U sg d2 d1 top c1 Hs); auto; try tauto. unfold cross in *. lia.
Qed.

Lemma desc_last_ne sg top c C : sgn sg -> desc sg (top :: c :: C) -> last (top :: c :: C) top <> top.
Proof.
  intros Hs Hd E. inversion Hd as [|? ? _ Hall]; subst. rewrite Forall_forall in Hall.
  apply (dlt_irrefl sg top Hs), Hall. rewrite <- E at 1.
  change (last (top :: c :: C) top) with (last (c :: C) top). apply last_In. discriminate.
Qed.

Lemma chain_unique sg (S : list pt) : sgn sg -> forall C D top,
  desc sg (top :: C) -> desc sg (top :: D) ->
  stk_turns (top :: C) -> stk_turns (top :: D) ->
  (forall d, last (top :: C) d = last (top :: D) d) ->
  (forall q, In q S -> cov q (top :: C)) -> (forall q, In q S -> cov q (top :: D)) ->
  incl C S -> incl D S -> C = D.
Proof.
  intros Hs. induction C as [|c1 C IH]; intros D top HdC HdD HtC HtD Hlast HcC HcD HiC HiD;
    destruct D as [|d1 D]; [reflexivity| | |].
  - destruct (desc_last_ne sg top d1 D Hs HdD). symmetry. apply Hlast.
  - destruct (desc_last_ne sg top c1 C Hs HdC). apply Hlast.
  - assert (Ic1 : In c1 S) by (apply HiC; left; reflexivity).
    assert (Id1 : In d1 S) by (apply HiD; left; reflexivity).
    pose proof (HcC d1 Id1) as A. pose proof (HcD c1 Ic1) as B.
    assert (E0 : cross c1 top d1 = 0).
    { change (cov d1 (top :: c1 :: C)) with (0 <= cross c1 top d1 /\ cov d1 (c1 :: C)) in A.
      change (cov c1 (top :: d1 :: D)) with (0 <= cross d1 top c1 /\ cov c1 (d1 :: D)) in B.
      unfold cross in *. lia. }
    assert (E : c1 = d1).
    { destruct (dlt_total sg c1 d1 Hs) as [Hlt|[Heq|Hlt]]; [exfalso|exact Heq|exfalso].
      - apply (chain_heads_absurd sg top c1 C d1 D); auto.
      - apply (chain_heads_absurd sg top d1 D c1 C); auto. unfold cross in *. lia. }
    subst d1. f_equal.
    inversion HdC as [|? ? HdC' _]; subst. inversion HdD as [|? ? HdD' _]; subst.
    apply (IH D c1); auto.
    + apply (stk_turns_tl top), HtC.
    + apply (stk_turns_tl top), HtD.
    + intros q Hq. apply (HcC q Hq).
    + intros q Hq. apply (HcD q Hq).
    + intros x Hx. apply HiC. right; exact Hx.
    + intros x Hx. apply HiD. right; exact Hx.
Qed.

(* Idempotence *)

Lemma last_cons_snoc {A} (top : A) X b d : last (top :: X ++ [b]) d = b.
Proof. change (top :: X ++ [b]) with ((top :: X) ++ [b]). apply last_last. Qed.


Lemma chain_facts_unique sg V ps top bot mid mid' : sgn sg ->
  chain_facts sg V top bot mid' -> chain_facts sg ps top bot mid ->
  incl V ps -> incl (mid ++ [bot]) V -> mid' = mid.
Proof.
  intros Hs C' C HV Hin.
  assert (E : mid' ++ [bot] = mid ++ [bot]); [|apply app_inj_tail in E; tauto].
  apply (chain_unique sg V Hs _ _ top).
  - apply (cf_desc C').
  - apply (cf_desc C).
  - apply all_triples_turns, (cf_tri C').
  - apply all_triples_turns, (cf_tri C).
  - intros d. rewrite !last_cons_snoc. reflexivity.
  - apply (cf_cov C').
  - intros q Hq. apply (cf_cov C), HV, Hq.
  - intros x Hx. apply (cf_incl C'). right; exact Hx.
  - exact Hin.
Qed.

Lemma idem_core ps : has_2_distinct ps = true -> monotone_chain (monotone_chain ps) = monotone_chain ps.
Proof.
  intros H2.
  destruct (ring_shape ps H2) as (m & M & Umid & Lmid & EV & CL & CU).
  set (V := monotone_chain ps) in *.
  pose proof (cf_lt CL) as HmM.
  assert (HV : forall x, In x V <-> In x (m :: Umid ++ M :: Lmid ++ [m])) by (intros x; rewrite EV, <- in_rev; tauto).
  assert (ImV : In m V) by (apply HV; left; reflexivity).
  assert (IMV : In M V) by (apply HV; right; apply in_or_app; right; left; reflexivity).
  assert (HVps : incl V ps) by (rewrite EV; apply (ring_incl ps m M Umid Lmid (conj CL CU))).
  assert (H2V : has_2_distinct V = true).
  { apply (has_2_distinct_intro V m M); auto. intros ->. eapply dlt_irrefl; [exact sgn1|exact HmM]. }
  destruct (ring_shape V H2V) as (m' & M' & Umid' & Lmid' & EV' & CL' & CU').
  assert (m' = m).
  { apply (dle_antisym 1 _ _ sgn1); [apply (cf_min CL'); exact ImV|].
    apply (cf_min CL), HVps, (cf_incl CU'). left; reflexivity. }
  assert (M' = M).
  { apply (dle_antisym 1 _ _ sgn1); [|apply (cf_max CL'); exact IMV].
    apply (cf_max CL), HVps, (cf_incl CL'). left; reflexivity. }
  subst m' M'.
  rewrite EV', EV.
  rewrite (chain_facts_unique 1 V ps M m Lmid Lmid' sgn1 CL' CL HVps),
          (chain_facts_unique (-1) V ps m M Umid Umid' sgnm1 CU' CU HVps); [reflexivity| |].
  - intros x Hx. apply HV. right. apply in_app_or in Hx. apply in_or_app.
    destruct Hx as [Hx|[<-|[]]]; [left; exact Hx|right; left; reflexivity].
  - intros x Hx. apply HV. right. apply in_or_app. right. right. exact Hx.
Qed.

Lemma hull_pts_unfold ps : has_2_distinct ps = true ->
  hull_pts ps = match is_linear_hull (monotone_chain ps) with
                | LinPanic => HPanic
                | LinNo => HPoly (monotone_chain ps)
                | LinYes half => match half with h0 :: _ => HLine h0 (last half h0) | [] => HPanic end
                end.
Proof.
  intros H2. destruct ps as [|p0 r]; [discriminate|]. unfold hull_pts. rewrite H2. reflexivity.
Qed.

Theorem hull_idem_lemma : forall ps, hull_pts (result_pts (hull_pts ps)) = hull_pts ps.
Proof.
  intros ps. destruct ps as [|p0 r]; [reflexivity|].
  destruct (has_2_distinct (p0 :: r)) eqn:H2.
  2:{ assert (E : hull_pts (p0 :: r) = HPoint p0) by (unfold hull_pts; rewrite H2; reflexivity).
      rewrite E. reflexivity. }
  set (ps := p0 :: r) in *.
  destruct (ring_shape ps H2) as (m & M & Umid & Lmid & EV & RF).
  pose proof (cf_lt (proj1 RF)) as HmM.
  (* the hull of the ring's vertex list is the hull of ps *)
  assert (Hcore : hull_pts (monotone_chain ps) = hull_pts ps).
  { pose proof (idem_core ps H2) as E.
    assert (H2V : has_2_distinct (monotone_chain ps) = true).
    { apply (has_2_distinct_intro _ m M).
      - rewrite EV, <- in_rev. left; reflexivity.
      - rewrite EV, <- in_rev. right. apply in_or_app. right; left; reflexivity.
      - intros ->. eapply dlt_irrefl; [exact sgn1|exact HmM]. }
    rewrite (hull_pts_unfold _ H2V), (hull_pts_unfold _ H2), E. reflexivity. }
  destruct (both_nil_or_not Umid Lmid) as [[-> ->]|Hnd].
  - cbn [app rev] in EV.
    assert (E : hull_pts ps = HLine m M).
    { rewrite (hull_pts_unfold _ H2), EV.
      unfold is_linear_hull. cbn [length Nat.even Nat.div Nat.divmod fst nth_error firstn].
      rewrite pt_eqb_refl. reflexivity. }
    rewrite E. cbn [result_pts]. rewrite <- E, <- Hcore, EV.
    apply hull_set_ext_lemma. intros x. simpl. tauto.
  - destruct (hull_poly_ok ps m M Umid Lmid RF Hnd) as [E1 _].
    assert (E : hull_pts ps = HPoly (monotone_chain ps)).
    { rewrite (hull_pts_unfold _ H2), EV, E1. reflexivity. }
    rewrite E. cbn [result_pts]. rewrite <- E. exact Hcore.
Qed.
