(* Property C03 - the reference statement ogc_valid is a VERIFIED reference: each clause that is
   evaluated at the witnesses of the exact arrangement decides the statement for ALL points of Q^2
   (slab sufficiency, Proofs/Planar_slab.v: pointwise_everywhere), and the clauses computed with
   QKernel.seg_seg mean what they say about the common points of segments.
   Main results: everywhere_spec, hole_inside_spec, not_nested_spec, interiors_disjoint_spec,
   seg_seg_overlap_iff, rings_touch_ok_spec, boundaries_finite_spec, poly_def_meaning,
   mpoly_pair_def_meaning.  The connectivity clause (interior_connected) stays as defined. *)
From Coq Require Import QArith Qreduction List Bool ZArith Lia Lqa Arith Setoid Morphisms.
From SF Require Import Base.GeomAST Base.QKernel Base.Planar Base.Planar_C03 Model.Validate Model.ValidateSpec
  Proofs.Planar_proofs Proofs.Planar_slab_base Proofs.Planar_slab Proofs.Validate_kernel.
Import ListNotations.
Open Scope Q_scope.


Lemma vpt_mkv p : vpt (mkv p) = p.
Proof. destruct p; reflexivity. Qed.
Lemma line_pts_ring_line ps : line_pts (ring_line ps) = ps.
Proof. unfold line_pts, ring_line. simpl. rewrite map_map. rewrite (map_ext _ (fun p => p)); [apply map_id | apply vpt_mkv]. Qed.

Lemma rings_closed_poly rings : Forall (fun r => pts_closed r = true) rings -> rings_closed (g_poly rings).
Proof.
  intros H y Hy r Hr. simpl in Hy. destruct Hy as [<-|[]]. simpl in Hr. apply in_map_iff in Hr.
  destruct Hr as [ps [<- Hps]]. rewrite line_pts_ring_line. exact (proj1 (Forall_forall _ _) H ps Hps).
Qed.
Lemma rings_closed_line ps : rings_closed (g_line ps).
Proof. intros y []. Qed.
Lemma rings_closed_bdry rings : rings_closed (g_bdry rings).
Proof. intros y []. Qed.

(* membership in the curve / in the union of the rings, as edge lists *)
Lemma inG_line ps p : inG (g_line ps) p = on_edges (segs ps) p.
Proof. reflexivity. Qed.
Lemma inG_bdry rings p : inG (g_bdry rings) p = existsb (fun r => on_edges (segs r) p) rings.
Proof. unfold g_bdry. simpl. rewrite existsb_map. reflexivity. Qed.

Theorem everywhere_spec gs F : (forall g, In g gs -> rings_closed g) ->
  (everywhere gs F = true <-> forall p, F (map (fun g => inG g p) gs) = true).
Proof.
  intros Hc. unfold everywhere. rewrite forallb_forall. split.
  - intros H. apply (pointwise_everywhere (flat_map arr_segments gs) (flat_map arr_points gs)).
    + intros g Hg. split; [|exact (Hc g Hg)]. split; intros x Hx; apply in_flat_map; exists g; auto.
    + intros w d Hin. exact (H (w, d) Hin).
  - intros H w _. apply H.
Qed.

(* location with respect to one polygon *)
Lemma interior_not_boundary rs p : rings_interior rs p = true -> rings_boundary rs p = false.
Proof.
  destruct rs as [|shell holes]; [discriminate|]. simpl. unfold ring_strict_in. rewrite !andb_true_iff.
  intros [[Hs _] Hh]. apply negb_true_iff in Hs. rewrite Hs. simpl.
  apply not_true_iff_false. intros K. apply existsb_exists in K. destruct K as [h [Hin Hon]].
  rewrite forallb_forall in Hh. specialize (Hh h Hin). unfold ring_strict_out in Hh. rewrite Hon in Hh. discriminate.
Qed.
Lemma poly_ring_segs_g rings : poly_ring_segs (MkPoly XY (map ring_line rings)) = map segs rings.
Proof. unfold poly_ring_segs. simpl. rewrite map_map. reflexivity. Qed.
Lemma locate_poly rings p :
  locate (g_poly rings) p =
  if rings_interior (map segs rings) p then Interior
  else if rings_boundary (map segs rings) p then Boundary else Exterior.
Proof.
  unfold locate, prep, g_poly, locate_p. simpl. rewrite poly_ring_segs_g. rewrite !orb_false_r. reflexivity.
Qed.
Lemma inG_poly rings p : inG (g_poly rings) p = rings_boundary (map segs rings) p || rings_interior (map segs rings) p.
Proof. unfold g_poly. simpl. unfold in_poly, poly_boundary, poly_interior. rewrite poly_ring_segs_g. reflexivity. Qed.
Lemma rings_boundary_bdry rings p : rings_boundary (map segs rings) p = inG (g_bdry rings) p.
Proof. rewrite inG_bdry. unfold rings_boundary. rewrite existsb_map. reflexivity. Qed.

Lemma locate_poly_interior rings p :
  locate (g_poly rings) p = Interior <-> (inG (g_poly rings) p = true /\ inG (g_bdry rings) p = false).
Proof.
  rewrite locate_poly, inG_poly, <- rings_boundary_bdry.
  destruct (rings_interior (map segs rings) p) eqn:I.
  - rewrite (interior_not_boundary _ _ I). simpl. split; auto.
  - destruct (rings_boundary (map segs rings) p); simpl; split; try discriminate; intros [? ?]; discriminate.
Qed.
Lemma locate_poly_exterior rings p : locate (g_poly rings) p = Exterior <-> inG (g_poly rings) p = false.
Proof.
  rewrite locate_poly, inG_poly.
  destruct (rings_interior (map segs rings) p), (rings_boundary (map segs rings) p); simpl; split; congruence.
Qed.

Lemma forall_iff {A} (P Q : A -> Prop) : (forall x, P x <-> Q x) -> ((forall x, P x) <-> (forall x, Q x)).
Proof. intros H. split; intros K x; apply H, K. Qed.

(* hole_inside: EVERY point of the curve h is inside or on the ring shell *)
Theorem hole_inside_spec shell h : pts_closed shell = true ->
  (hole_inside shell h = true <->
   forall p, on_edges (segs h) p = true -> locate (g_poly [shell]) p <> Exterior).
Proof.
  intros Hc. unfold hole_inside. rewrite everywhere_spec.
  - cbn [map]. apply forall_iff. intros p. rewrite inG_line, locate_poly_exterior.
    destruct (on_edges (segs h) p), (inG (g_poly [shell]) p); cbn [negb orb]; intuition congruence.
  - intros g [<-|[<-|[]]]; [apply rings_closed_poly; repeat constructor; exact Hc | apply rings_closed_line].
Qed.

(* not_nested: NO point of the ring h is interior to k and no point of k is interior to h *)
Theorem not_nested_spec h k : pts_closed h = true -> pts_closed k = true ->
  (not_nested h k = true <->
   forall p, (on_edges (segs h) p = true -> locate (g_poly [k]) p <> Interior)
          /\ (on_edges (segs k) p = true -> locate (g_poly [h]) p <> Interior)).
Proof.
  intros Hh Hk. unfold not_nested. rewrite everywhere_spec.
  - cbn [map]. assert (B1 : forall r p, inG (g_bdry [r]) p = on_edges (segs r) p) by (intros; rewrite inG_bdry; simpl; apply orb_false_r).
    apply forall_iff. intros p. rewrite !inG_line, !locate_poly_interior, !B1.
    destruct (on_edges (segs h) p), (on_edges (segs k) p), (inG (g_poly [k]) p), (inG (g_poly [h]) p); cbn [negb andb];
      intuition congruence.
  - intros g [<-|[<-|[<-|[<-|[]]]]]; try apply rings_closed_line; apply rings_closed_poly; repeat constructor; assumption.
Qed.

(* interiors_disjoint: NO point of Q^2 is interior to both polygons *)
Theorem interiors_disjoint_spec A B :
  Forall (fun r => pts_closed r = true) A -> Forall (fun r => pts_closed r = true) B ->
  (interiors_disjoint A B = true <->
   forall p, ~ (locate (g_poly A) p = Interior /\ locate (g_poly B) p = Interior)).
Proof.
  intros HA HB. unfold interiors_disjoint. rewrite everywhere_spec.
  - cbn [map]. apply forall_iff. intros p. rewrite !locate_poly_interior.
    destruct (inG (g_poly A) p), (inG (g_bdry A) p), (inG (g_poly B) p), (inG (g_bdry B) p); cbn [negb andb];
      intuition congruence.
  - intros g [<-|[<-|[<-|[<-|[]]]]]; try apply rings_closed_bdry; apply rings_closed_poly; assumption.
Qed.


Lemma seg_seg_overlap_distinct s t p q : seg_seg s t = SSOverlap p q -> ~ pt_eq p q.
Proof.
  destruct s as [a b], t as [c d]. unfold seg_seg.
  destruct (pt_eqb a b); [destruct (on_seg (c, d) a); discriminate|].
  destruct (pt_eqb c d); [destruct (on_seg (a, b) c); discriminate|]. cbv zeta.
  destruct (Qeq_bool (cross c d a - cross c d b) 0).
  - destruct (Qeq_bool (cross c d a) 0); [|discriminate].
    destruct (pt_eqb (pt_max (pt_min a b) (pt_min c d)) (pt_min (pt_max a b) (pt_max c d))) eqn:E; [discriminate|].
    destruct (pt_leb _ _); [|discriminate]. intros H. inversion H; subst. apply pt_eqb_false_iff. exact E.
  - destruct (_ && _ && _ && _); discriminate.
Qed.

(* a single reported point is the only common point *)
Lemma seg_seg_point_unique s t x : seg_seg s t = SSPoint x -> forall p, common s t p -> pt_eq p x.
Proof.
  destruct s as [a b], t as [c d]. unfold seg_seg. intros H p [P1 P2].
  destruct (pt_eqb a b) eqn:Eab.
  { destruct (on_seg (c, d) a); [|discriminate]. injection H as <-. apply pt_eqb_iff in Eab.
    exact (on_seg_degenerate a b p Eab P1). }
  destruct (pt_eqb c d) eqn:Ecd.
  { destruct (on_seg (a, b) c); [|discriminate]. injection H as <-. apply pt_eqb_iff in Ecd.
    exact (on_seg_degenerate c d p Ecd P2). }
  cbv zeta in H. apply pt_eqb_false_iff in Eab, Ecd.
  destruct (Qeq_bool (cross c d a - cross c d b) 0) eqn:Eden.
  - destruct (Qeq_bool (cross c d a) 0); [|discriminate].
    set (lo := pt_max (pt_min a b) (pt_min c d)) in *. set (hi := pt_min (pt_max a b) (pt_max c d)) in *.
    destruct (pt_eqb lo hi) eqn:E; [|destruct (pt_leb lo hi); discriminate].
    injection H as <-. apply pt_eqb_iff in E.
    destruct (on_seg_lex a b p P1) as [L1 L2]. destruct (on_seg_lex c d p P2) as [L3 L4].
    assert (Llo : pt_le lo p) by (apply pt_max_lub; assumption).
    assert (Lhi : pt_le p hi) by (apply pt_min_glb; assumption).
    apply pt_le_antisym; [|exact Llo]. eapply pt_le_trans; [exact Lhi|]. apply pt_le_refl. symmetry. exact E.
  - apply Qeq_bool_false_iff in Eden.
    destruct (_ && _ && _ && _) eqn:Ec; [|discriminate]. injection H as <-.
    assert (Hc : common (a, b) (c, d) (lerp a b (cross c d a / (cross c d a - cross c d b)))).
    { apply seg_seg_sound. unfold seg_seg. apply pt_eqb_false_iff in Eab, Ecd. rewrite Eab, Ecd. cbv zeta.
      apply Qeq_bool_false_iff in Eden. rewrite Eden, Ec. simpl. auto. }
    destruct Hc as [C1 C2].
    apply (lines_meet_once a b c d).
    + rewrite <- den_identity. exact Eden.
    + apply on_seg_cross; exact P1.
    + apply on_seg_cross; exact C1.
    + apply on_seg_cross; exact P2.
    + apply on_seg_cross; exact C2.
Qed.

(* seg_seg reports an overlap iff the two segments share two distinct points *)
Theorem seg_seg_overlap_iff s t :
  (exists p q, seg_seg s t = SSOverlap p q) <-> (exists p q, common s t p /\ common s t q /\ ~ pt_eq p q).
Proof.
  split.
  - intros [p [q H]]. exists p, q.
    assert (S : forall x, In x [p; q] -> common s t x) by (intros x Hx; apply seg_seg_sound; rewrite H; exact Hx).
    split; [apply S; left; reflexivity|]. split; [apply S; right; left; reflexivity|].
    exact (seg_seg_overlap_distinct s t p q H).
  - intros [p [q [[P1 P2] [Hq N]]]]. destruct (seg_seg s t) as [|x|x y] eqn:E.
    + exfalso. exact (seg_seg_complete s t p P1 P2 E).
    + exfalso. apply N. rewrite (seg_seg_point_unique s t x E p (conj P1 P2)), (seg_seg_point_unique s t x E q Hq). reflexivity.
    + eauto.
Qed.

Theorem boundaries_finite_spec A B :
  boundaries_finite A B = true <->
  forall s t, In s (flat_map segs A) -> In t (flat_map segs B) ->
  forall p q, common s t p -> common s t q -> pt_eq p q.
Proof.
  unfold boundaries_finite. rewrite forallb_forall. split.
  - intros H s t Hs Ht p q Hp Hq. specialize (H s Hs). rewrite forallb_forall in H. specialize (H t Ht).
    destruct (pt_eqb p q) eqn:E; [apply pt_eqb_iff; exact E|]. apply pt_eqb_false_iff in E.
    destruct (proj2 (seg_seg_overlap_iff s t)) as [x [y K]]; [exists p, q; auto|]. rewrite K in H. discriminate.
  - intros H s Hs. apply forallb_forall. intros t Ht. destruct (seg_seg s t) as [|x|x y] eqn:E; try reflexivity.
    exfalso. destruct (proj1 (seg_seg_overlap_iff s t)) as [p [q [Hp [Hq N]]]]; [eauto|]. apply N. exact (H s t Hs Ht p q Hp Hq).
Qed.

(* common_points as an equation: None when some pair of segments overlaps, otherwise the single
   common points of all pairs *)
Definition ss_ov (r : ssr) : bool := match r with SSOverlap _ _ => true | _ => false end.
Definition ss_pt (r : ssr) : list pt := match r with SSPoint p => [p] | _ => [] end.
Fixpoint cp_list (A B : list seg) : list pt :=
  match A with [] => [] | s :: r => rev (flat_map (fun t => ss_pt (seg_seg s t)) B) ++ cp_list r B end.

Lemma common_points_row s B : forall o,
  fold_left (fun o t => match o with
                        | None => None
                        | Some l => match seg_seg s t with SSEmpty => Some l | SSPoint p => Some (p :: l) | SSOverlap _ _ => None end
                        end) B o
  = match o with
    | None => None
    | Some l0 => if existsb (fun t => ss_ov (seg_seg s t)) B then None
                 else Some (rev (flat_map (fun t => ss_pt (seg_seg s t)) B) ++ l0)
    end.
Proof.
  induction B as [|t r IH]; intros [l0|]; cbn [fold_left existsb flat_map]; try reflexivity; [|apply (IH None)].
  destruct (seg_seg s t) as [|x|x y]; rewrite IH; cbn [ss_ov ss_pt orb app rev]; try reflexivity.
  destruct (existsb _ r); [reflexivity|]. rewrite <- app_assoc. reflexivity.
Qed.

Lemma common_points_eq A B :
  common_points A B = if existsb (fun s => existsb (fun t => ss_ov (seg_seg s t)) B) A then None else Some (cp_list A B).
Proof.
  induction A as [|s r IH]; [reflexivity|]. cbn [common_points existsb cp_list]. rewrite IH.
  destruct (existsb _ r); [rewrite orb_true_r; reflexivity|]. rewrite common_points_row, orb_false_r. reflexivity.
Qed.

Lemma in_cp_list A B x : In x (cp_list A B) <-> exists s t, In s A /\ In t B /\ seg_seg s t = SSPoint x.
Proof.
  induction A as [|s r IH]; cbn [cp_list]; [split; [intros [] | intros [s [t [[] _]]]]|].
  rewrite in_app_iff, <- in_rev, in_flat_map, IH. split.
  - intros [[t [Ht Hx]]|[s' [t [H1 [H2 H3]]]]].
    + exists s, t. split; [left; reflexivity|]. split; [exact Ht|].
      destruct (seg_seg s t); simpl in Hx; try contradiction. destruct Hx as [->|[]]. reflexivity.
    + exists s', t. split; [right; exact H1 | auto].
  - intros [s' [t [[<-|H1] [H2 H3]]]]; [left; exists t; split; [exact H2|]; rewrite H3; left; reflexivity | right; eauto].
Qed.

Lemma cp_list_on A B x : In x (cp_list A B) -> on_edges A x = true /\ on_edges B x = true.
Proof.
  intros Hx. apply in_cp_list in Hx. destruct Hx as [s [t [Hs [Ht E]]]].
  destruct (seg_seg_sound s t x) as [C1 C2]; [rewrite E; left; reflexivity|].
  split; apply existsb_exists; eauto.
Qed.

Lemma at_most_one_point_iff l : at_most_one_point l = true <-> forall x y, In x l -> In y l -> pt_eq x y.
Proof.
  destruct l as [|z r]; cbn [at_most_one_point]; [split; [intros _ x y [] | reflexivity]|].
  rewrite forallb_forall. split.
  - intros H. assert (Hz : forall w, In w (z :: r) -> pt_eq z w) by (intros w [<-|Hw]; [reflexivity | apply pt_eqb_iff, H, Hw]).
    intros x y Hx Hy. rewrite <- (Hz x Hx), <- (Hz y Hy). reflexivity.
  - intros H w Hw. apply pt_eqb_iff. apply H; simpl; auto.
Qed.

Theorem rings_touch_ok_spec A B :
  rings_touch_ok A B = true <->
  forall p q, on_edges A p = true -> on_edges B p = true -> on_edges A q = true -> on_edges B q = true -> pt_eq p q.
Proof.
  unfold rings_touch_ok. rewrite common_points_eq.
  destruct (existsb (fun s => existsb (fun t => ss_ov (seg_seg s t)) B) A) eqn:Ov.
  - split; [discriminate|]. intros H. exfalso.
    apply existsb_exists in Ov. destruct Ov as [s [Hs Ov]]. apply existsb_exists in Ov. destruct Ov as [t [Ht Ov]].
    destruct (seg_seg s t) as [| |p q] eqn:E; try discriminate.
    destruct (proj1 (seg_seg_overlap_iff s t)) as [x [y [[X1 X2] [[Y1 Y2] N]]]]; [eauto|].
    apply N. apply H; unfold on_edges; apply existsb_exists; eauto.
  - rewrite at_most_one_point_iff. split.
    + intros Hl p q Pa Pb Qa Qb.
      assert (K : forall z, on_edges A z = true -> on_edges B z = true -> exists x, In x (cp_list A B) /\ pt_eq z x).
      { intros z Za Zb. apply existsb_exists in Za, Zb. destruct Za as [s [Hs Zs]], Zb as [t [Ht Zt]].
        destruct (seg_seg s t) as [|x|x y] eqn:E.
        - destruct (seg_seg_complete s t z Zs Zt E).
        - exists x. split; [apply in_cp_list; eauto | exact (seg_seg_point_unique s t x E z (conj Zs Zt))].
        - apply not_true_iff_false in Ov. destruct Ov. apply existsb_exists. exists s. split; [exact Hs|].
          apply existsb_exists. exists t. split; [exact Ht|]. rewrite E. reflexivity. }
      destruct (K p Pa Pb) as [x [Hx Ex]]. destruct (K q Qa Qb) as [y [Hy Ey]]. rewrite Ex, Ey. apply Hl; assumption.
    + intros H x y Hx Hy. destruct (cp_list_on A B x Hx), (cp_list_on A B y Hy). apply H; assumption.
Qed.


Lemma all_pairs_iff {A} (f : A -> A -> bool) l :
  all_pairs f l = true <-> ForallOrdPairs (fun a b => f a b = true) l.
Proof.
  induction l as [|x r IH]; simpl.
  - split; [constructor | reflexivity].
  - rewrite andb_true_iff, forallb_forall, IH. split.
    + intros [H1 H2]. constructor; [apply Forall_forall; exact H1 | exact H2].
    + intros H. inversion H; subst. split; [apply Forall_forall; assumption | assumption].
Qed.
Lemma Forall_impl_in {A} (P Q : A -> Prop) l : (forall a, In a l -> P a -> Q a) -> Forall P l -> Forall Q l.
Proof. intros H K. apply Forall_forall. intros a Ha. apply (H a Ha). exact (proj1 (Forall_forall _ _) K a Ha). Qed.
Lemma Forall_iff_in {A} (P Q : A -> Prop) l : (forall a, In a l -> (P a <-> Q a)) -> (Forall P l <-> Forall Q l).
Proof. intros H. split; apply Forall_impl_in; intros a Ha; apply H; exact Ha. Qed.
Lemma ForallOrdPairs_iff {A} (P Q : A -> A -> Prop) l :
  (forall a b, In a l -> In b l -> (P a b <-> Q a b)) -> (ForallOrdPairs P l <-> ForallOrdPairs Q l).
Proof.
  induction l as [|x r IH]; intros H; [split; constructor|].
  split; intros K; inversion K; subst; constructor.
  - eapply Forall_impl_in; [|eassumption]. intros b Hb Hp. apply (H x b); simpl; auto.
  - apply IH; [|assumption]. intros a b Ha Hb. apply H; simpl; auto.
  - eapply Forall_impl_in; [|eassumption]. intros b Hb Hp. apply (H x b); simpl; auto.
  - apply IH; [|assumption]. intros a b Ha Hb. apply H; simpl; auto.
Qed.

Lemma closed_def_pts_closed ps : closed_def ps = true -> pts_closed ps = true.
Proof.
  destruct ps as [|a r]; [discriminate|]. unfold closed_def, pts_closed.
  destruct r as [|b r']; [auto|]. change (last (a :: b :: r') a) with (last (b :: r') a). auto.
Qed.
Lemma ring_def_closed ps : ring_def ps = true -> pts_closed ps = true.
Proof. unfold ring_def. rewrite !andb_true_iff. intros [[_ H] _]. apply closed_def_pts_closed. exact H. Qed.

(* the clauses of poly_def other than connectivity, over ALL points of Q^2 *)
Lemma poly_local_meaning shell holes :
  forallb ring_def (shell :: holes) && all_pairs (fun a b => rings_touch_ok (segs a) (segs b)) (shell :: holes)
  && forallb (hole_inside shell) holes && all_pairs not_nested holes = true <->
  ( Forall (fun r => ring_def r = true) (shell :: holes)
    /\ ForallOrdPairs (fun a b => forall p q, on_edges (segs a) p = true -> on_edges (segs b) p = true ->
                                   on_edges (segs a) q = true -> on_edges (segs b) q = true -> pt_eq p q) (shell :: holes)
    /\ Forall (fun h => forall p, on_edges (segs h) p = true -> locate (g_poly [shell]) p <> Exterior) holes
    /\ ForallOrdPairs (fun h k => forall p, (on_edges (segs h) p = true -> locate (g_poly [k]) p <> Interior)
                                         /\ (on_edges (segs k) p = true -> locate (g_poly [h]) p <> Interior)) holes ).
Proof.
  rewrite !andb_true_iff, !forallb_forall, <- !Forall_forall, !all_pairs_iff.
  pose proof (ForallOrdPairs_iff _ _ (shell :: holes) (fun a b _ _ => rings_touch_ok_spec (segs a) (segs b))) as K2.
  assert (K : Forall (fun r => ring_def r = true) (shell :: holes) -> forall r, In r (shell :: holes) -> pts_closed r = true).
  { intros H1 r Hr. apply ring_def_closed. exact (proj1 (Forall_forall _ _) H1 r Hr). }
  (* in both directions the rings are closed, so each clause is equivalent to its meaning *)
  split; intros H; assert (C := K ltac:(tauto));
    pose proof (Forall_iff_in _ _ holes (fun h _ => hole_inside_spec shell h (C shell (or_introl eq_refl)))) as K3;
    pose proof (ForallOrdPairs_iff _ _ holes (fun h k Hh Hk => not_nested_spec h k (C h (or_intror Hh)) (C k (or_intror Hk)))) as K4;
    tauto.
Qed.

(* The meaning of poly_def, clause by clause, over ALL points of Q^2.  The last clause
   (interior_connected: connectivity of the face-adjacency graph of the slab decomposition,
   Base/Planar_C03.v) is kept as defined. *)
Theorem poly_def_meaning shell holes :
  poly_def (shell :: holes) = true <->
  ( Forall (fun r => ring_def r = true) (shell :: holes)
    /\ ForallOrdPairs (fun a b => forall p q, on_edges (segs a) p = true -> on_edges (segs b) p = true ->
                                   on_edges (segs a) q = true -> on_edges (segs b) q = true -> pt_eq p q) (shell :: holes)
    /\ Forall (fun h => forall p, on_edges (segs h) p = true -> locate (g_poly [shell]) p <> Exterior) holes
    /\ ForallOrdPairs (fun h k => forall p, (on_edges (segs h) p = true -> locate (g_poly [k]) p <> Interior)
                                         /\ (on_edges (segs k) p = true -> locate (g_poly [h]) p <> Interior)) holes
    /\ interior_connected (map segs (shell :: holes)) = true ).
Proof. unfold poly_def. rewrite andb_true_iff, poly_local_meaning. tauto. Qed.

(* the MultiPolygon pair clause over all points: no point interior to both members, no boundary
   segments sharing two distinct points *)
Theorem mpoly_pair_def_meaning A B :
  A <> [] -> B <> [] ->
  Forall (fun r => pts_closed r = true) A -> Forall (fun r => pts_closed r = true) B ->
  (mpoly_pair_def A B = true <->
   (forall s t, In s (flat_map segs A) -> In t (flat_map segs B) -> forall p q, common s t p -> common s t q -> pt_eq p q)
   /\ (forall p, ~ (locate (g_poly A) p = Interior /\ locate (g_poly B) p = Interior))).
Proof.
  intros NA NB HA HB. unfold mpoly_pair_def. destruct A as [|a A']; [congruence|]. destruct B as [|b B']; [congruence|].
  rewrite andb_true_iff, boundaries_finite_spec, (interiors_disjoint_spec _ _ HA HB). tauto.
Qed.
