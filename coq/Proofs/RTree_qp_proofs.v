(* Property C11 - quickPartition (rtree/bulk.go): it never indexes out of range, terminates (the
   fuel suffices), only permutes the slice, and afterwards the k-th element separates it (everything
   before it is <=, everything after it is >= under the centre key).  Array-style reasoning over
   nth_error. *)
From Coq Require Import ZArith List Bool Arith Lia Permutation FinFun.
From SF Require Import Base.Outcome Model.RTree Model.RTreeHeap Proofs.RTree_proofs.
Import ListNotations.
Open Scope nat_scope.

Lemma nth_error_lt {A} (l : list A) i : i < length l -> exists a, nth_error l i = Some a.
Proof.
  intros H. destruct (nth_error l i) eqn:E; eauto. apply nth_error_None in E. lia.
Qed.
Lemma nth_error_firstn {A} (l : list A) : forall k n, n < k -> nth_error (firstn k l) n = nth_error l n.
Proof.
  induction l as [|x r IH]; intros [|k] [|n] H; simpl; auto; try lia. apply IH. lia.
Qed.
Lemma nth_error_skipn' {A} (l : list A) : forall m n, nth_error (skipn m l) n = nth_error l (m + n).
Proof.
  induction l as [|x r IH]; intros [|m] n; simpl; auto. destruct n; reflexivity.
Qed.

(* s[i] = x on a Go slice: [upd] (items) and [eupd] (entries, Model/RTreeHeap.v) are this function *)
Definition lupd {A} : list A -> nat -> A -> list A :=
  fix go l i x :=
    match l, i with
    | [], _ => []
    | _ :: r, O => x :: r
    | y :: r, S i' => y :: go r i' x
    end.
Lemma upd_lupd : upd = @lupd item.
Proof. reflexivity. Qed.
Lemma eupd_lupd : eupd = @lupd entry.
Proof. reflexivity. Qed.

Lemma lupd_length {A} (l : list A) : forall i x, length (lupd l i x) = length l.
Proof. induction l as [|y r IH]; intros [|i] x; simpl; auto. Qed.
Lemma lupd_nth_same {A} (l : list A) : forall i x, i < length l -> nth_error (lupd l i x) i = Some x.
Proof.
  induction l as [|y r IH]; intros [|i] x H; simpl in *; try lia; auto. apply IH. lia.
Qed.
Lemma lupd_nth_other {A} (l : list A) : forall i x n, n <> i -> nth_error (lupd l i x) n = nth_error l n.
Proof.
  induction l as [|y r IH]; intros [|i] x [|n] H; simpl; auto; try congruence.
Qed.

Lemma lupd_map {A B} (g : A -> B) l : forall i x, lupd (map g l) i (g x) = map g (lupd l i x).
Proof.
  induction l as [|y r IH]; intros [|i] x; cbn; [reflexivity..|]. rewrite IH. reflexivity.
Qed.

(* s[i], s[j] = s[j], s[i] *)
Lemma lupd_swap {A} (l : list A) i j a b :
  nth_error l i = Some a -> nth_error l j = Some b ->
  let l' := lupd (lupd l i b) j a in
  length l' = length l /\ Permutation l' l /\ nth_error l' i = Some b /\ nth_error l' j = Some a /\
  forall n, n <> i -> n <> j -> nth_error l' n = nth_error l n.
Proof.
  intros Ea Eb l'.
  assert (Hi : i < length l) by (apply nth_error_Some; congruence).
  assert (Hj : j < length l) by (apply nth_error_Some; congruence).
  assert (L : length l' = length l) by (unfold l'; rewrite !lupd_length; reflexivity).
  pose (tr := fun n => if n =? i then j else if n =? j then i else n).
  assert (N : forall n, nth_error l' n = nth_error l (tr n)).
  { intros n. unfold l', tr. destruct (Nat.eqb_spec n j) as [->|Hnj].
    - rewrite lupd_nth_same by (rewrite lupd_length; exact Hj).
      destruct (Nat.eqb_spec j i) as [->|]; congruence.
    - rewrite lupd_nth_other by exact Hnj. destruct (Nat.eqb_spec n i) as [->|Hni].
      + rewrite lupd_nth_same by exact Hi. congruence.
      + rewrite lupd_nth_other by exact Hni. reflexivity. }
  split; [exact L|]. split; [|split; [|split]].
  - symmetry. apply Permutation_nth_error. split; [auto|]. exists tr. split; [|exact N].
    intros x y. unfold tr.
    destruct (Nat.eqb_spec x i), (Nat.eqb_spec y i), (Nat.eqb_spec x j), (Nat.eqb_spec y j); lia.
  - rewrite N. unfold tr. rewrite Nat.eqb_refl. exact Eb.
  - rewrite N. unfold tr. rewrite Nat.eqb_refl. destruct (Nat.eqb_spec j i) as [->|]; assumption.
  - intros n H1 H2. rewrite N. unfold tr.
    destruct (Nat.eqb_spec n i); [congruence|]. destruct (Nat.eqb_spec n j); congruence.
Qed.

Lemma lcg_pick_lt st n : 0 < n -> lcg_pick (lcg_next st) n < n.
Proof.
  intros Hn. unfold lcg_pick, lcg_next.
  assert (H := Z.mod_pos_bound (1664525 * st + 1013904223) 4294967296 eq_refl).
  set (s := ((1664525 * st + 1013904223) mod 4294967296)%Z) in *.
  assert (0 <= s * Z.of_nat n / 4294967296 < Z.of_nat n)%Z.
  { split; [apply Z.div_pos; nia|]. apply Z.div_lt_upper_bound; nia. }
  lia.
Qed.

Section QP.
  Variable h : bool.

  (* key of the element at index n (0 outside the slice; only used inside) *)
  Definition kat (l : list item) (n : nat) : Z :=
    match nth_error l n with Some a => key h a | None => 0%Z end.
  Lemma kat_nth l l' n m : nth_error l' n = nth_error l m -> kat l' n = kat l m.
  Proof. unfold kat. intros ->. reflexivity. Qed.

  Definition win (l l' : list item) (lo hi : nat) : Prop :=
    Permutation l' l /\
    (forall n, n < lo \/ hi < n -> nth_error l' n = nth_error l n) /\
    (forall n, lo <= n <= hi -> exists m, lo <= m <= hi /\ nth_error l' n = nth_error l m).

  Lemma win_length l l' lo hi : win l l' lo hi -> length l' = length l.
  Proof. intros (P & _). apply Permutation_length, P. Qed.
  Lemma win_refl l lo hi : win l l lo hi.
  Proof. split; [reflexivity|]. split; [auto|]. intros n Hn. exists n. auto. Qed.
  Lemma win_trans l1 l2 l3 lo hi : win l1 l2 lo hi -> win l2 l3 lo hi -> win l1 l3 lo hi.
  Proof.
    intros (P1 & O1 & I1) (P2 & O2 & I2). split; [transitivity l2; assumption|]. split.
    - intros n Hn. rewrite O2, O1; auto.
    - intros n Hn. destruct (I2 n Hn) as (m & Hm & E). destruct (I1 m Hm) as (m' & Hm' & E').
      exists m'. split; [exact Hm'|congruence].
  Qed.
  Lemma win_widen l l' lo hi lo' hi' : lo' <= lo -> hi <= hi' -> win l l' lo hi -> win l l' lo' hi'.
  Proof.
    intros H1 H2 (P & O & I). split; [exact P|]. split.
    - intros n Hn. apply O. lia.
    - intros n Hn. destruct (le_lt_dec lo n) as [Hlo|Hlo]; [destruct (le_lt_dec n hi) as [Hhi|Hhi]|].
      + destruct (I n (conj Hlo Hhi)) as (m & Hm & E). exists m. split; [lia|exact E].
      + exists n. split; [lia|]. apply O. lia.
      + exists n. split; [lia|]. apply O. lia.
  Qed.

  Lemma less_spec l i j : i < length l -> j < length l -> less l i j h = Ok (kat l i <? kat l j)%Z.
  Proof.
    intros Hi Hj. unfold less, kat.
    destruct (nth_error_lt l i Hi) as [a ->]. destruct (nth_error_lt l j Hj) as [b ->]. reflexivity.
  Qed.

  Lemma swap_spec l i j lo hi :
    lo <= i <= hi -> lo <= j <= hi -> hi < length l ->
    exists l', swap l i j = Ok l' /\ win l l' lo hi /\ kat l' i = kat l j /\ kat l' j = kat l i /\
               (forall n, n <> i -> n <> j -> nth_error l' n = nth_error l n).
  Proof.
    intros Hi Hj Hh. destruct (nth_error_lt l i) as [a Ea]; [lia|]. destruct (nth_error_lt l j) as [b Eb]; [lia|].
    unfold swap. rewrite Ea, Eb, upd_lupd. eexists. split; [reflexivity|].
    destruct (lupd_swap l i j a b Ea Eb) as (_ & P & Ni & Nj & No). rewrite <- Eb in Ni. rewrite <- Ea in Nj.
    split; [|split; [apply kat_nth, Ni|split; [apply kat_nth, Nj|exact No]]].
    split; [exact P|]. split; [intros n Hn; apply No; lia|]. intros n Hn.
    destruct (Nat.eq_dec n i) as [->|Hni]; [exists j; auto|].
    destruct (Nat.eq_dec n j) as [->|Hnj]; [exists i; auto|]. exists n. auto.
  Qed.

  (* if less(i, j) { swap(i, j) } *)
  Lemma cswap_spec l i j lo hi :
    lo <= i <= hi -> lo <= j <= hi -> hi < length l ->
    exists l', cswap l i j h = Ok l' /\ win l l' lo hi /\ (kat l' j <= kat l' i)%Z /\
    (forall n, n <> i -> n <> j -> kat l' n = kat l n) /\
    ((kat l' i = kat l i /\ kat l' j = kat l j) \/ (kat l' i = kat l j /\ kat l' j = kat l i)).
  Proof.
    intros Hi Hj Hh. unfold cswap. rewrite less_spec by lia. cbn [bind].
    destruct (Z.ltb_spec (kat l i) (kat l j)) as [E|E].
    - destruct (swap_spec l i j lo hi Hi Hj Hh) as (l' & -> & W & K1 & K2 & O). exists l'.
      split; [reflexivity|]. split; [exact W|]. split; [lia|].
      split; [intros n H1 H2; apply kat_nth; auto|]. right. auto.
    - exists l. split; [reflexivity|]. split; [apply win_refl|]. split; [lia|]. auto.
  Qed.

  (* the partition loop: elements < pivot are moved to [left0, j'), the others to [j', right) *)
  Lemma part_loop_spec left0 : forall n l i j right,
    i + n = right -> left0 <= j -> j <= i -> right < length l ->
    (forall m, left0 <= m < j -> (kat l m < kat l right)%Z) ->
    (forall m, j <= m < i -> (kat l right <= kat l m)%Z) ->
    exists l' j', part_loop n l i j right h = Ok (l', j') /\
    win l l' left0 right /\ nth_error l' right = nth_error l right /\ j <= j' /\ j' <= j + n /\
    (forall m, left0 <= m < j' -> (kat l' m < kat l' right)%Z) /\
    (forall m, j' <= m < right -> (kat l' right <= kat l' m)%Z).
  Proof.
    induction n as [|n IH]; intros l i j right Hi Hl Hj Hr Hlt Hge; cbn [part_loop].
    - exists l, j. split; [reflexivity|]. split; [apply win_refl|]. split; [reflexivity|].
      split; [lia|]. split; [lia|]. split; [exact Hlt|]. intros m Hm. apply Hge. lia.
    - rewrite less_spec by lia. cbn [bind]. destruct (Z.ltb_spec (kat l i) (kat l right)) as [E|E].
      + destruct (swap_spec l i j left0 right) as (l1 & -> & W & K1 & K2 & O); [lia|lia|lia|]. cbn [bind].
        assert (Kr : kat l1 right = kat l right) by (apply kat_nth; apply O; lia).
        destruct (IH l1 (S i) (S j) right) as (l' & j' & -> & W' & R' & B1 & B2 & Hlt' & Hge');
          [lia|lia|lia|rewrite (win_length _ _ _ _ W); lia| | |].
        * intros m Hm. rewrite Kr. destruct (Nat.eq_dec m j) as [->|Hmj]; [lia|].
          rewrite (kat_nth l l1 m m) by (apply O; lia). apply Hlt. lia.
        * intros m Hm. rewrite Kr. destruct (Nat.eq_dec m i) as [->|Hmi].
          -- rewrite K1. apply Hge. lia.
          -- rewrite (kat_nth l l1 m m) by (apply O; lia). apply Hge. lia.
        * exists l', j'. split; [reflexivity|]. split; [eapply win_trans; eassumption|].
          split; [rewrite R'; apply O; lia|]. split; [lia|]. split; [lia|]. auto.
      + destruct (IH l (S i) j right) as (l' & j' & -> & W' & R' & B1 & B2 & Hlt' & Hge');
          [lia|lia|lia|lia|exact Hlt| |].
        * intros m Hm. destruct (Nat.eq_dec m i) as [->|Hmi]; [lia|]. apply Hge. lia.
        * exists l', j'. split; [reflexivity|]. split; [exact W'|]. split; [exact R'|].
          split; [lia|]. split; [lia|]. auto.
  Qed.

  (* the k-th element (absolute index t) separates the window *)
  Definition sep (l : list item) (lo hi t : nat) : Prop :=
    forall n, lo <= n <= hi ->
              (n < t -> (kat l n <= kat l t)%Z) /\ (t < n -> (kat l t <= kat l n)%Z).

  Lemma sep_widen l l' lo hi lo' hi' t :
    win l l' lo hi -> sep l' lo hi t -> lo <= t <= hi ->
    (forall n m, lo' <= n < lo -> lo <= m <= hi -> (kat l n <= kat l m)%Z) ->
    (forall n m, hi < n <= hi' -> lo <= m <= hi -> (kat l m <= kat l n)%Z) ->
    sep l' lo' hi' t.
  Proof.
    intros (_ & O & I) S Ht Hlo Hhi n Hn. destruct (I t Ht) as (m & Hm & Em).
    destruct (le_lt_dec lo n) as [H1|H1]; [destruct (le_lt_dec n hi) as [H2|H2]; [apply S; lia|]|];
      rewrite (kat_nth l l' n n) by (apply O; lia); rewrite (kat_nth _ _ _ _ Em).
    - split; [lia|intros _]. apply Hhi; lia.
    - split; [intros _|lia]. apply Hlo; lia.
  Qed.

  Lemma qp_body_spec rec l left right k st :
    left <= right -> right < length l -> k <= right - left ->
    (forall l0 lf rg k' s', lf <= rg -> rg < length l0 -> k' <= rg - lf -> rg - lf < right - left ->
       exists l'', rec l0 lf rg k' s' = Ok l'' /\ win l0 l'' lf rg /\ sep l'' lf rg (lf + k')) ->
    exists l', qp_body rec l left right k h st = Ok l' /\
               win l l' left right /\ sep l' left right (left + k).
  Proof.
    intros Hlr Hr Hk Hrec. unfold qp_body.
    pose proof (lcg_pick_lt st (right - left + 1) ltac:(lia)) as Hp.
    set (pivot := left + lcg_pick (lcg_next st) (right - left + 1)) in *.
    assert (exists l1, (if pivot =? right then Ok l else swap l pivot right) = Ok l1 /\ win l l1 left right)
      as (l1 & -> & W1).
    { destruct (pivot =? right); [exists l; split; [reflexivity|apply win_refl]|].
      destruct (swap_spec l pivot right left right) as (l1 & E & W & _); [subst pivot; lia|lia|lia|]. eauto. }
    cbn [bind]. pose proof (win_length _ _ _ _ W1) as L1.
    destruct (part_loop_spec left (right - left) l1 left left right)
      as (l2 & j & -> & W2 & R2 & B1 & B2 & Hlt & Hge); [lia|lia|lia|lia|intros; lia|intros; lia|].
    cbn [bind]. pose proof (win_length _ _ _ _ W2) as L2.
    destruct (swap_spec l2 right j left right) as (l3 & -> & W3 & K1 & K2 & O3); [lia|lia|lia|]. cbn [bind].
    pose proof (win_length _ _ _ _ W3) as L3.
    assert (W : win l l3 left right) by (eapply win_trans; [exact W1|eapply win_trans; eauto]).
    (* the pivot sits at j: smaller keys before it, larger or equal keys after it *)
    assert (Hbefore : forall m, left <= m < j -> (kat l3 m < kat l3 j)%Z).
    { intros m Hm. rewrite K2. rewrite (kat_nth l2 l3 m m) by (apply O3; lia). apply Hlt. lia. }
    assert (Hafter : forall m, j < m <= right -> (kat l3 j <= kat l3 m)%Z).
    { intros m Hm. rewrite K2. destruct (Nat.eq_dec m right) as [->|Hmr].
      - rewrite K1. apply Hge. lia.
      - rewrite (kat_nth l2 l3 m m) by (apply O3; lia). apply Hge. lia. }
    destruct (Nat.ltb_spec (j - left) k) as [Hjk|Hjk].
    - destruct (Hrec l3 (j + 1) right (k - (j - left + 1)) (lcg_next st)) as (l' & -> & W' & S');
        [lia|lia|lia|lia|]. exists l'. split; [reflexivity|].
      replace (j + 1 + (k - (j - left + 1))) with (left + k) in S' by lia.
      split; [eapply win_trans; [exact W|eapply win_widen; [| |exact W']; lia]|].
      apply (sep_widen l3 l' (j + 1) right); [exact W'|exact S'|lia| |intros; lia].
      intros n m Hn Hm. pose proof (Hafter m ltac:(lia)). destruct (Nat.eq_dec n j) as [->|Hne]; [lia|].
      pose proof (Hbefore n ltac:(lia)). lia.
    - destruct (Nat.ltb_spec k (j - left)) as [Hkj|Hkj].
      + destruct (Hrec l3 left (j - 1) k (lcg_next st)) as (l' & -> & W' & S'); [lia|lia|lia|lia|].
        exists l'. split; [reflexivity|].
        split; [eapply win_trans; [exact W|eapply win_widen; [| |exact W']; lia]|].
        apply (sep_widen l3 l' left (j - 1)); [exact W'|exact S'|lia|intros; lia|].
        intros n m Hn Hm. pose proof (Hbefore m ltac:(lia)). destruct (Nat.eq_dec n j) as [->|Hne]; [lia|].
        pose proof (Hafter n ltac:(lia)). lia.
      + exists l3. split; [reflexivity|]. split; [exact W|]. replace (left + k) with j by lia.
        intros n Hn. split; intros Hc.
        * pose proof (Hbefore n ltac:(lia)). lia.
        * apply Hafter. lia.
  Qed.

  Lemma sep_sorted3 l left k :
    k <= 2 -> (kat l left <= kat l (left + 1) <= kat l (left + 2))%Z -> sep l left (left + 2) (left + k).
  Proof.
    intros Hk Hs n Hn.
    assert (n = left \/ n = left + 1 \/ n = left + 2) as [->|[->| ->]] by lia; split; intros Hc;
      assert (left + k = left \/ left + k = left + 1 \/ left + k = left + 2) as [Et|[Et|Et]] by lia;
      rewrite Et in *; lia.
  Qed.

  Lemma qp_loop_spec : forall fuel l left right k st,
    left <= right -> right < length l -> k <= right - left -> right - left < fuel ->
    exists l', qp_loop fuel l left right k h st = Ok l' /\
               win l l' left right /\ sep l' left right (left + k).
  Proof.
    induction fuel as [|f IH]; intros l left right k st Hlr Hr Hk Hf; [lia|].
    assert (Hgen : exists l', qp_body (fun l0 lf rg k' s' => qp_loop f l0 lf rg k' h s') l left right k h st = Ok l'
                              /\ win l l' left right /\ sep l' left right (left + k)).
    { apply qp_body_spec; auto. intros l0 lf rg k' s' H1 H2 H3 H4. apply IH; auto. lia. }
    cbn [qp_loop]. destruct (right - left) as [|[|[|d]]] eqn:E; auto.
    - (* two elements *)
      destruct (cswap_spec l right left left right) as (l' & -> & W & K & _); [lia|lia|lia|].
      exists l'. split; [reflexivity|]. split; [exact W|]. intros n Hn.
      assert (n = left \/ n = right) as [->| ->] by lia; split; intros Hc;
        assert (left + k = left \/ left + k = right) as [Et|Et] by lia; rewrite Et in *; lia.
    - (* three elements: a three-way sorting network *)
      assert (right = left + 2) by lia. subst right.
      destruct (cswap_spec l (left + 1) left left (left + 2)) as (l1 & -> & W1 & K1 & O1 & _); [lia|lia|lia|].
      cbn [bind]. pose proof (win_length _ _ _ _ W1) as L1. rewrite less_spec by lia. cbn [bind].
      destruct (Z.ltb_spec (kat l1 (left + 2)) (kat l1 (left + 1))) as [Ec|Ec].
      + destruct (swap_spec l1 (left + 2) (left + 1) left (left + 2)) as (l2 & -> & W2 & K2a & K2b & O2);
          [lia|lia|lia|]. cbn [bind]. pose proof (win_length _ _ _ _ W2) as L2.
        destruct (cswap_spec l2 (left + 1) left left (left + 2)) as (l' & -> & W3 & K3 & O3 & P3); [lia|lia|lia|].
        assert (K2c : kat l2 left = kat l1 left) by (apply kat_nth; apply O2; lia).
        assert (K3c : kat l' (left + 2) = kat l2 (left + 2)) by (apply O3; lia).
        exists l'. split; [reflexivity|]. split; [eapply win_trans; [exact W1|eapply win_trans; eauto]|].
        apply sep_sorted3; [lia|]. destruct P3 as [[A B]|[A B]]; lia.
      + exists l1. split; [reflexivity|]. split; [exact W1|]. apply sep_sorted3; lia.
  Qed.

  (* quickPartition: total, a permutation, and the k-th element separates *)
  Lemma quick_partition_split_lemma l k :
    k < length l ->
    exists l', quick_partition l k h = Ok l' /\ Permutation l' l /\ qp_split_ok h l' k = true.
  Proof.
    intros Hk. unfold quick_partition.
    destruct (qp_loop_spec (Datatypes.S (length l)) l 0 (length l - 1) k 0) as (l' & -> & W & S); [lia|lia|lia|lia|].
    pose proof (win_length _ _ _ _ W) as L. destruct W as (P & _).
    exists l'. split; [reflexivity|]. split; [exact P|].
    simpl in S. unfold qp_split_ok.
    destruct (nth_error l' k) as [p|] eqn:Ek; [|apply nth_error_None in Ek; lia].
    assert (Kk : kat l' k = key h p) by (unfold kat; rewrite Ek; reflexivity).
    apply andb_true_iff. split; apply forallb_forall; intros x Hx; apply Z.leb_le;
      apply In_nth_error in Hx; destruct Hx as [n Hn].
    - assert (Hnk : n < k).
      { assert (n < length (firstn k l')) by (apply nth_error_Some; congruence).
        rewrite firstn_length in H. lia. }
      rewrite nth_error_firstn in Hn by exact Hnk.
      assert (Kn : kat l' n = key h x) by (unfold kat; rewrite Hn; reflexivity).
      destruct (S n ltac:(lia)) as [S1 _]. specialize (S1 Hnk). lia.
    - rewrite nth_error_skipn' in Hn.
      assert (Hlen : Datatypes.S k + n < length l') by (apply nth_error_Some; congruence).
      assert (Kn : kat l' (Datatypes.S k + n) = key h x) by (unfold kat; rewrite Hn; reflexivity).
      destruct (S (Datatypes.S k + n) ltac:(lia)) as [_ S2]. specialize (S2 ltac:(lia)). lia.
  Qed.
End QP.

(* quickPartition never indexes out of range, terminates (the fuel suffices) and only permutes *)
Lemma quick_partition_total_lemma l k h :
  k < length l -> exists l', quick_partition l k h = Ok l' /\ Permutation l' l.
Proof. intros Hk. destruct (quick_partition_split_lemma h l k Hk) as (l' & E & P & _). eauto. Qed.
