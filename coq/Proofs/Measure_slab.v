(* Property C14 - the shoelace sum IS the area of the point set, as the exact slab functional of
   Model/SetOpSpec.v ([area_of]: sum over the trapezoids of the slab decomposition where
   membership holds) measures it.

   Part A (all closed rings, no simplicity needed):  [shoelace_is_winding_area_lemma]
     - (signed shoelace area of r) = sum over the trapezoids c of the arrangement of
       (winding number of r at the witness of c) * area c,
     where the winding number is the signed count of edges of r passing above the witness
     ([zwind]: +1 for an edge running left-to-right, -1 right-to-left).  Route: (1) the trapezoid
     form of the shoelace sum splits at the event abscissae because an edge is affine
     ([edge_slabs_gen]); (2) inside a slab the height of a spanning edge above the lowest height is the
     sum of the gaps below it ([fun_gaps]); (3) a closed ring crosses every vertical line equally
     often in both directions ([ring_balance]); (4) exchange the sums ([edge_sum_winding], for any
     edge quantity with an antiderivative).
   Part B: parity of the winding number = the crossing parity that [inG] uses ([zwind_odd],
     closed_ring_parity), cell witnesses lie on no segment ([cell_off_segments]); hence, whenever
     the winding number of the ring takes the values 0 and sigma only (sigma = +-1) at the
     witnesses - a decidable condition, [winding_simple], true of simple rings - the absolute
     shoelace area equals [area_of] of the polygon's point set ([shoelace_is_slab_area_lemma]); with
     holes under pointwise nesting ([shoelace_is_slab_area_holes_lemma]).
   NOT proved: that every simple ring satisfies [winding_simple] (the alternation of edge
   directions in height order - the Jordan-curve content).  It is a boolean that the kernel / the
   extracted code evaluates per ring. *)
From Coq Require Import QArith Qabs Qreduction List Bool ZArith Lia Lqa Setoid Morphisms.
From SF Require Import Base.GeomAST Base.QKernel Base.Planar Proofs.Planar_slab_base.
From SF Require Import Model.SetOpSpec.
From SF Require Import Model.Measure Proofs.Measure_proofs.
Import ListNotations.
Open Scope Q_scope.

(* ------------------------------------------------------------------------------------------ *)
(* generic sums                                                                                *)
(* ------------------------------------------------------------------------------------------ *)
Definition ind (b : bool) : Q := if b then 1 else 0.

Lemma qsum_swap : forall (A B : Type) (f : A -> B -> Q) la lb,
  qsum (map (fun a => qsum (map (f a) lb)) la) == qsum (map (fun b => qsum (map (fun a => f a b) la)) lb).
Proof.
  intros A B f la lb. induction la as [|a la IH]; cbn [map].
  - cbn. symmetry. apply qsum_zero. intros; reflexivity.
  - rewrite qsum_cons, IH. rewrite <- qsum_map_plus. apply qsum_map_ext_all. intros b.
    cbn [map]. rewrite qsum_cons. reflexivity.
Qed.

Lemma qsum_flat_map : forall (A B : Type) (g : A -> list B) (F : B -> Q) l,
  qsum (map F (flat_map g l)) == qsum (map (fun a => qsum (map F (g a))) l).
Proof.
  intros A B g F l. induction l as [|a l IH]; cbn [flat_map map]; [reflexivity|].
  rewrite map_app, qsum_app, qsum_cons, IH. reflexivity.
Qed.

Lemma qsum_map_scale_l : forall (A : Type) (f : A -> Q) (c : Q) l,
  qsum (map (fun x => c * f x) l) == c * qsum (map f l).
Proof.
  intros. rewrite (qsum_map_ext_all _ _ (fun x => f x * c)) by (intros; ring).
  rewrite qsum_map_scale. ring.
Qed.

(* telescoping over consecutive pairs *)
Lemma consec_telescope : forall (g : Q -> Q) x l,
  qsum (map (fun xx => g (snd xx) - g (fst xx)) (consec (x :: l))) == g (last l x) - g x.
Proof.
  intros g x l. revert x. induction l as [|y l IH]; intros x.
  - cbn. ring.
  - change (consec (x :: y :: l)) with ((x, y) :: consec (y :: l)). cbn [map]. rewrite qsum_cons, IH.
    cbn [fst snd]. rewrite (last_cons_default y l x). ring.
Qed.

(* ------------------------------------------------------------------------------------------ *)
(* the trapezoids of the slab functional as a double sum                                       *)
(* ------------------------------------------------------------------------------------------ *)
Definition gap_cell (x w : Q) (yy : Q * Q) : pt * Q := ((x, qmid (fst yy) (snd yy)), w * (snd yy - fst yy)).

Lemma consec_blocks : forall (B : Type) (F : list Q -> list B) (f : Q * Q -> list B),
  F [] = [] -> (forall y, F [y] = []) -> (forall y1 y2 r, F (y1 :: y2 :: r) = f (y1, y2) ++ F (y2 :: r)) ->
  forall ys, F ys = flat_map f (consec ys).
Proof.
  intros B F f H0 H1 H2 ys. induction ys as [|y1 r IH]; [exact H0|]. destruct r as [|y2 r']; [apply H1|].
  rewrite H2, IH. reflexivity.
Qed.

Lemma flat_map_single : forall (A B : Type) (g : A -> B) l, flat_map (fun a => [g a]) l = map g l.
Proof. intros A B g l. induction l as [|a l IH]; cbn [flat_map map app]; [|rewrite IH]; reflexivity. Qed.

Lemma gap_cells_consec : forall x w ys, gap_cells x w ys = map (gap_cell x w) (consec ys).
Proof. intros x w ys. rewrite <- flat_map_single. apply (consec_blocks _ (gap_cells x w)); reflexivity. Qed.

Definition slab_cells_of (L : list seg) (xx : Q * Q) : list (pt * Q) :=
  gap_cells (qmid (fst xx) (snd xx)) (snd xx - fst xx) (slab_heights L (qmid (fst xx) (snd xx))).

Lemma slab_cells_consec : forall L xs, slab_cells L xs = flat_map (slab_cells_of L) (consec xs).
Proof. intros L xs. apply (consec_blocks _ (slab_cells L)); reflexivity. Qed.

(* weighted sum over cells; the area functional is the sum with 0/1 weights *)
Definition cells_wsum (cells : list (pt * Q)) (w : pt -> Q) : Q :=
  qsum (map (fun c => w (fst c) * snd c) cells).

Lemma cells_area_wsum : forall cells f, cells_area cells f == cells_wsum cells (fun p => ind (f p)).
Proof.
  intros cells f. unfold cells_area, cells_wsum. induction cells as [|c r IH]; cbn [fold_right map]; [reflexivity|].
  rewrite qsum_cons, IH. unfold ind. destruct (f (fst c)); ring.
Qed.

Lemma cells_wsum_slabs : forall L xs w,
  cells_wsum (slab_cells L xs) w ==
  qsum (map (fun xx =>
         qsum (map (fun yy => w (qmid (fst xx) (snd xx), qmid (fst yy) (snd yy)) *
                              ((snd xx - fst xx) * (snd yy - fst yy)))
                   (consec (slab_heights L (qmid (fst xx) (snd xx)))))) (consec xs)).
Proof.
  intros L xs w. unfold cells_wsum. rewrite slab_cells_consec, qsum_flat_map.
  apply qsum_map_ext_all. intros xx. unfold slab_cells_of. rewrite gap_cells_consec, map_map. reflexivity.
Qed.

(* ------------------------------------------------------------------------------------------ *)
(* edges: direction, trapezoid term, spanning test, winding number                             *)
(* ------------------------------------------------------------------------------------------ *)
Definition zdir (e : seg) : Z :=
  match (fst (fst e) ?= fst (snd e))%Q with Lt => 1%Z | Gt => (-1)%Z | Eq => 0%Z end.
Definition edir (e : seg) : Q := inject_Z (zdir e).
(* (x1 - x0)(y0 + y1)/2: the signed area between the edge and the x axis *)
Definition trap (e : seg) : Q := (fst (snd e) - fst (fst e)) * (snd (fst e) + snd (snd e)) / 2.
(* the open x-range of e contains xm (the test of slab_heights) *)
Definition spanb (e : seg) (xm : Q) : bool :=
  (qltb (fst (fst e)) xm && qltb xm (fst (snd e))) || (qltb (fst (snd e)) xm && qltb xm (fst (fst e))).
(* signed number of edges passing strictly above p *)
Definition zwind (es : list seg) (p : pt) : Z :=
  fold_right (fun e acc => ((if vcross (fst e) (snd e) p then zdir e else 0) + acc)%Z) 0%Z es.

Lemma zwind_sum : forall es p,
  inject_Z (zwind es p) == qsum (map (fun e => ind (vcross (fst e) (snd e) p) * edir e) es).
Proof.
  intros es p. induction es as [|e r IH]; cbn [zwind fold_right map]; [reflexivity|].
  fold (zwind r p). rewrite inject_Z_plus, IH, qsum_cons. unfold ind, edir.
  destruct (vcross (fst e) (snd e) p); ring.
Qed.

Lemma edir_cases : forall e : seg,
  (fst (fst e) < fst (snd e) /\ edir e == 1) \/ (fst (snd e) < fst (fst e) /\ edir e == -1) \/
  (fst (fst e) == fst (snd e) /\ edir e == 0).
Proof.
  intros e. unfold edir, zdir. destruct (Qcompare _ _) eqn:E.
  - right; right. apply Qeq_alt in E. split; [exact E|reflexivity].
  - left. apply Qlt_alt in E. split; [exact E|reflexivity].
  - right; left. apply Qgt_alt in E. split; [exact E|reflexivity].
Qed.

Lemma spanb_iff : forall (e : seg) xm, spanb e xm = true <->
  (fst (fst e) < xm /\ xm < fst (snd e)) \/ (fst (snd e) < xm /\ xm < fst (fst e)).
Proof. intros e xm. unfold spanb. rewrite orb_true_iff, !andb_true_iff, !qltb_iff. reflexivity. Qed.
Lemma spanb_vertical : forall (e : seg) xm, fst (fst e) == fst (snd e) -> spanb e xm = false.
Proof. intros e xm E. apply not_true_is_false. intros K. apply spanb_iff in K. lra. Qed.
Lemma spanb_nonvertical : forall e xm, spanb e xm = true -> nonvertical e.
Proof. intros e xm S. apply spanb_iff in S. unfold nonvertical. intros K. lra. Qed.

Lemma qltb_cases : forall x y, (x < y /\ qltb x y = true) \/ (y <= x /\ qltb x y = false).
Proof. intros x y. destruct (qltb x y) eqn:E; [left; apply qltb_iff in E|right; apply qltb_false_iff in E]; auto. Qed.
Lemma Qle_bool_cases : forall x y, (x <= y /\ Qle_bool x y = true) \/ (y < x /\ Qle_bool x y = false).
Proof. intros x y. destruct (Qle_bool x y) eqn:E; [left; apply Qle_bool_iff in E|right; apply Qle_bool_false_iff in E]; auto. Qed.
Lemma spanb_cases : forall (e : seg) xm,
  let S := (fst (fst e) < xm /\ xm < fst (snd e)) \/ (fst (snd e) < xm /\ xm < fst (fst e)) in
  (S /\ spanb e xm = true) \/ (~ S /\ spanb e xm = false).
Proof.
  intros e xm S. destruct (spanb e xm) eqn:E; [left|right]; split; try reflexivity.
  - apply spanb_iff, E.
  - intros K. apply (proj2 (spanb_iff e xm)) in K. congruence.
Qed.

(* ------------------------------------------------------------------------------------------ *)
(* (1), (2) telescoping in a sorted list: the gaps below a member, the slabs an edge spans     *)
(* ------------------------------------------------------------------------------------------ *)
Definition in_upto (x : Q) (l : list Q) : Prop := exists y, In y l /\ y == x.

Lemma sorted_bounds : forall x l t, qsorted (x :: l) -> in_upto t (x :: l) -> x <= t /\ t <= last l x.
Proof.
  intros x l t Hs [y [Hy E]]. split.
  - destruct Hy as [<-|Hy]; [lra|]. pose proof (qsorted_head_lt x l y Hs Hy). lra.
  - pose proof (qsorted_last_ge x l y Hs Hy). lra.
Qed.

Lemma consec_gap_upto : forall l y1 y2 t, qsorted l -> In (y1, y2) (consec l) -> in_upto t l -> t <= y1 \/ y2 <= t.
Proof.
  intros l y1 y2 t Hs Hc [y [Hy E]]. destruct (consec_gap l y1 y2 y Hs Hc Hy); [left|right]; lra.
Qed.

Lemma qmid_between : forall a b, a < b -> a < qmid a b /\ qmid a b < b.
Proof. intros a b H. rewrite qmid_eq. split; [apply Qlt_shift_div_l; lra | apply Qlt_shift_div_r; lra]. Qed.

Lemma fun_gaps : forall (g : Q -> Q) h l y ystar, qsorted (h :: l) -> In ystar (h :: l) -> ystar == y ->
  g ystar - g h ==
  qsum (map (fun yy => (g (snd yy) - g (fst yy)) * ind (qltb (qmid (fst yy) (snd yy)) y)) (consec (h :: l))).
Proof.
  intros g h l y ystar Hs Hy E.
  assert (Hup : in_upto y (h :: l)) by (exists ystar; auto).
  set (phi := fun t : Q => if Qle_bool y t then g ystar else g t).
  assert (T : forall yy, In yy (consec (h :: l)) ->
            (g (snd yy) - g (fst yy)) * ind (qltb (qmid (fst yy) (snd yy)) y) == phi (snd yy) - phi (fst yy)).
  { intros [y1 y2] Hin. cbn [fst snd].
    pose proof (qmid_between y1 y2 (consec_lt _ _ _ Hs Hin)) as Hm.
    destruct (consec_in _ _ _ Hin) as [In1 In2].
    unfold phi. destruct (consec_gap_upto _ _ _ _ Hs Hin Hup) as [K|K],
      (qltb_cases (qmid y1 y2) y) as [[M ->]|[M ->]], (Qle_bool_cases y y1) as [[A ->]|[A ->]],
      (Qle_bool_cases y y2) as [[B ->]|[B ->]]; cbn [ind]; try lra.
    rewrite (qsorted_eq_unique (h :: l) ystar y2) by (auto; lra). ring. }
  rewrite (qsum_map_ext _ _ (fun yy => phi (snd yy) - phi (fst yy))) by (apply Forall_forall; exact T).
  rewrite consec_telescope. destruct (sorted_bounds h l y Hs Hup) as [B1 B2]. unfold phi.
  rewrite (proj2 (Qle_bool_iff y (last l h)) B2).
  destruct (Qle_bool y h) eqn:E1; [|reflexivity].
  apply Qle_bool_iff in E1.
  rewrite (qsorted_eq_unique (h :: l) ystar h) by (auto using in_eq; lra). reflexivity.
Qed.

Lemma edir_span_diff : forall (e : seg) xm, ~ fst (fst e) == xm -> ~ fst (snd e) == xm ->
  edir e * ind (spanb e xm) == ind (qltb xm (fst (snd e))) - ind (qltb xm (fst (fst e))).
Proof.
  intros e xm Ha Hb.
  destruct (spanb_cases e xm) as [[S ->]|[S ->]], (qltb_cases xm (fst (snd e))) as [[B ->]|[B ->]],
    (qltb_cases xm (fst (fst e))) as [[A ->]|[A ->]]; cbn [ind]; try lra;
    destruct (edir_cases e) as [[D Ed]|[[D Ed]|[D Ed]]]; lra.
Qed.

(* the increments of H up to either end are sums over the gaps below it ([fun_gaps]); their difference
   keeps the spanned slabs *)
Lemma edge_slabs_gen : forall (H : Q -> Q) (e : seg) xs, Proper (Qeq ==> Qeq) H -> qsorted xs ->
  in_upto (fst (fst e)) xs -> in_upto (fst (snd e)) xs ->
  H (fst (snd e)) - H (fst (fst e)) ==
  qsum (map (fun xx => edir e * ind (spanb e (qmid (fst xx) (snd xx))) * (H (snd xx) - H (fst xx))) (consec xs)).
Proof.
  intros H e [|x l] HP Hsorted [ya [Ia Ea]] [yb [Ib Eb]]; [destruct Ia|].
  transitivity ((H yb - H x) - (H ya - H x)); [rewrite Ea, Eb; ring|].
  rewrite (fun_gaps H x l _ yb Hsorted Ib Eb), (fun_gaps H x l _ ya Hsorted Ia Ea).
  unfold Qminus. rewrite <- qsum_map_opp, <- qsum_map_plus. apply qsum_map_ext_in.
  intros [x0 x1] Hin. cbn [fst snd].
  pose proof (qmid_between x0 x1 (consec_lt _ _ _ Hsorted Hin)) as Hm.
  pose proof (consec_gap _ _ _ ya Hsorted Hin Ia) as Ga. pose proof (consec_gap _ _ _ yb Hsorted Hin Ib) as Gb.
  rewrite edir_span_diff by (intros K; lra). ring.
Qed.

Section EdgeSlabs.
  Variable e : seg.
  Hypothesis NV : nonvertical e.
  (* area under the edge's line between its first abscissa and x *)
  Definition Hfun (x : Q) : Q := (x - fst (fst e)) * (snd (fst e) + y_at e x) / 2.

  Lemma Hfun_diff : forall x0 x1, Hfun x1 - Hfun x0 == (x1 - x0) * y_at e ((x0 + x1) / 2).
  Proof.
    intros x0 x1. unfold Hfun, y_at. unfold nonvertical in NV. field. intros K. apply NV. lra.
  Qed.
  Lemma Hfun_first : Hfun (fst (fst e)) == 0.
  Proof. unfold Hfun. unfold Qdiv. ring. Qed.
  Lemma Hfun_second : Hfun (fst (snd e)) == trap e.
  Proof.
    unfold Hfun, trap. destruct e as [a b]. cbn [fst snd] in *.
    destruct (y_at_ends a b NV) as [_ Hb]. rewrite Hb. reflexivity.
  Qed.
  Global Instance Hfun_proper : Proper (Qeq ==> Qeq) Hfun.
  Proof. intros x x' E. unfold Hfun. rewrite E. reflexivity. Qed.
End EdgeSlabs.

(* ------------------------------------------------------------------------------------------ *)
(* (3) a closed ring crosses every vertical line (off its vertices) equally often both ways     *)
(* ------------------------------------------------------------------------------------------ *)
Lemma ring_edges_telescope : forall (g : pt -> Q) a r,
  qsum (map (fun e : seg => g (snd e) - g (fst e)) (ring_edges (a :: r))) == g (last r a) - g a.
Proof.
  intros g a r. revert a. induction r as [|b r IH]; intros a.
  - cbn. ring.
  - change (ring_edges (a :: b :: r)) with ((a, b) :: ring_edges (b :: r)). cbn [map]. rewrite qsum_cons, IH.
    cbn [fst snd]. rewrite (last_cons_default b r a). ring.
Qed.

Lemma ring_balance : forall ps xm, pts_closed ps = true ->
  (forall e, In e (ring_edges ps) -> ~ fst (fst e) == xm /\ ~ fst (snd e) == xm) ->
  qsum (map (fun e => edir e * ind (spanb e xm)) (ring_edges ps)) == 0.
Proof.
  intros ps xm Hc Hv. destruct ps as [|a r]; [reflexivity|].
  transitivity (qsum (map (fun e : seg => ind (qltb xm (fst (snd e))) - ind (qltb xm (fst (fst e)))) (ring_edges (a :: r)))).
  - apply qsum_map_ext_in. intros e He. destruct (Hv e He). apply edir_span_diff; assumption.
  - assert (E := ring_edges_telescope (fun p : pt => ind (qltb xm (fst p))) a r). cbv beta in E. rewrite E.
    unfold pts_closed in Hc. apply pt_eqb_iff in Hc. destruct Hc as [Hx _].
    destruct (qltb_cases xm (fst (last r a))) as [[A ->]|[A ->]], (qltb_cases xm (fst a)) as [[B ->]|[B ->]];
      cbn [ind]; lra.
Qed.

(* ------------------------------------------------------------------------------------------ *)
(* (4) the main identity                                                                       *)
(* ------------------------------------------------------------------------------------------ *)
Lemma vcross_spanb : forall (e : seg) xm m, ~ fst (fst e) == xm -> ~ fst (snd e) == xm ->
  vcross (fst e) (snd e) (xm, m) = spanb e xm && qltb m (y_at e xm).
Proof.
  intros [a b] xm m Ha Hb. cbn [fst snd] in *.
  destruct (Qeq_dec (fst a) (fst b)) as [E|NV].
  - rewrite (vcross_vertical a b (xm, m) E), (spanb_vertical (a, b) xm E). reflexivity.
  - rewrite (vcross_y_at a b (xm, m) NV). cbn [fst snd]. f_equal.
    destruct (spanb_cases (a, b) xm) as [[S ->]|[S ->]], (Qle_bool_cases (fst a) xm) as [[A ->]|[A ->]],
      (Qle_bool_cases (fst b) xm) as [[B ->]|[B ->]]; cbn [fst snd] in S; try reflexivity; exfalso; lra.
Qed.

Lemma trap_vertical : forall e : seg, fst (fst e) == fst (snd e) -> trap e == 0.
Proof. intros e E. unfold trap. rewrite E. unfold Qdiv. ring. Qed.

Section Main.
  Variables (L : list seg) (P : list pt) (ps : list pt).
  Hypothesis Hincl : incl (ring_edges ps) L.
  Hypothesis Hclosed : pts_closed ps = true.
  Let V := vertex_set L P.
  Let xs := events V.
  Let es := ring_edges ps.

  Lemma xs_sorted : qsorted xs.
  Proof. apply qsort_sorted. Qed.

  Lemma end_events : forall e, In e L -> in_upto (fst (fst e)) xs /\ in_upto (fst (snd e)) xs.
  Proof.
    intros e He.
    assert (Hv : In (fst e) V /\ In (snd e) V).
    { unfold V, vertex_set. split; apply in_or_app; left; apply in_flat_map; exists e;
        (split; [exact He | unfold seg_ends; simpl; auto]). }
    destruct Hv as [H1 H2]. split.
    - exact (qsort_has (map fst V) _ (in_map fst V _ H1)).
    - exact (qsort_has (map fst V) _ (in_map fst V _ H2)).
  Qed.

  Section OneSlab.
    Variable xx : Q * Q.
    Hypothesis Hxx : In xx (consec xs).
    Let xm := qmid (fst xx) (snd xx).
    Let hs := slab_heights L xm.

    Lemma xm_inside : fst xx < xm /\ xm < snd xx.
    Proof.
      destruct xx as [x0 x1]. apply qmid_between, (consec_lt _ _ _ xs_sorted Hxx).
    Qed.

    Lemma xm_off_ends : forall e, In e L -> ~ fst (fst e) == xm /\ ~ fst (snd e) == xm.
    Proof.
      intros e He. destruct (end_events e He) as [H1 H2]. destruct xm_inside as [M1 M2].
      destruct xx as [x0 x1]. cbn [fst snd] in *.
      destruct (consec_gap_upto _ _ _ _ xs_sorted Hxx H1); destruct (consec_gap_upto _ _ _ _ xs_sorted Hxx H2);
        split; intros K; lra.
    Qed.

    Lemma hs_sorted : qsorted hs.
    Proof. apply qsort_sorted. Qed.

    Lemma span_height_in : forall e, In e L -> spanb e xm = true -> in_upto (y_at e xm) hs.
    Proof.
      intros e He S.
      assert (NV : seg_vertical e = false).
      { apply seg_vertical_false, (spanb_nonvertical e xm S). }
      unfold hs, slab_heights.
      match goal with |- in_upto _ (qsort ?l) => destruct (qsort_has l (seg_y_at e xm)) as [y [Hy E]] end.
      - apply in_flat_map. exists e. split; [exact He|]. rewrite NV. unfold spanb in S. rewrite S. left. reflexivity.
      - exists y. split; [exact Hy|]. rewrite E. apply seg_y_at_eq.
    Qed.

    Variables (g : Q -> Q) (ve : seg -> Q).
    Hypothesis g_at : forall e y, In e L -> spanb e xm = true -> y == y_at e xm -> g y == ve e.

    (* per edge: value at its height = sum of the increments over the gaps below + value at the
       lowest height *)
    Lemma edge_heights : forall e, In e L ->
      edir e * ind (spanb e xm) * ve e ==
      qsum (map (fun yy => (g (snd yy) - g (fst yy)) *
                           (ind (vcross (fst e) (snd e) (xm, qmid (fst yy) (snd yy))) * edir e)) (consec hs))
      + g (hd 0 hs) * (edir e * ind (spanb e xm)).
    Proof.
      intros e He. destruct (xm_off_ends e He) as [Oa Ob].
      rewrite (qsum_map_ext_all _ _ (fun yy => (edir e * ind (spanb e xm)) *
                 ((g (snd yy) - g (fst yy)) * ind (qltb (qmid (fst yy) (snd yy)) (y_at e xm))))).
      2:{ intros yy. rewrite (vcross_spanb e xm _ Oa Ob). unfold ind.
          destruct (spanb e xm), (qltb (qmid (fst yy) (snd yy)) (y_at e xm)); cbn [andb]; ring. }
      rewrite qsum_map_scale_l.
      destruct (spanb e xm) eqn:S; [|unfold ind; ring].
      destruct (span_height_in e He S) as [ystar [Hy E]]. pose proof hs_sorted as Hs.
      rewrite <- (g_at e ystar He S E).
      destruct hs as [|h l]; [destruct Hy|].
      rewrite <- (fun_gaps g h l (y_at e xm) ystar Hs Hy E). cbn [hd]. unfold ind. ring.
    Qed.

    Lemma slab_sum :
      qsum (map (fun e => edir e * ind (spanb e xm) * ve e) es) ==
      qsum (map (fun yy => (g (snd yy) - g (fst yy)) * inject_Z (zwind es (xm, qmid (fst yy) (snd yy)))) (consec hs)).
    Proof.
      unfold es.
      rewrite (qsum_map_ext_in _ _ _ _ (fun e He => edge_heights e (Hincl e He))).
      rewrite qsum_map_plus, qsum_map_scale_l.
      rewrite (ring_balance ps xm Hclosed) by (intros e He; apply xm_off_ends, Hincl, He).
      rewrite qsum_swap. rewrite Qmult_0_r, Qplus_0_r.
      apply qsum_map_ext_all. intros yy. rewrite qsum_map_scale_l, zwind_sum. reflexivity.
    Qed.
  End OneSlab.

  (* T e is the increment of an antiderivative Hf e between the abscissae of e; g xx reads its
     increment over the slab xx off a height in that slab *)
  Section EdgeSum.
    Variables (T : seg -> Q) (Hf : seg -> Q -> Q) (g : Q * Q -> Q -> Q).
    Hypothesis Hf_proper : forall e, Proper (Qeq ==> Qeq) (Hf e).
    Hypothesis T_vertical : forall e : seg, fst (fst e) == fst (snd e) -> T e == 0.
    Hypothesis T_ends : forall e, nonvertical e -> T e == Hf e (fst (snd e)) - Hf e (fst (fst e)).
    Hypothesis g_at : forall xx e y, In xx (consec xs) -> In e L -> spanb e (qmid (fst xx) (snd xx)) = true ->
      y == y_at e (qmid (fst xx) (snd xx)) -> g xx y == Hf e (snd xx) - Hf e (fst xx).

    Theorem edge_sum_winding :
      qsum (map T es) ==
      qsum (map (fun xx =>
             qsum (map (fun yy => (g xx (snd yy) - g xx (fst yy)) *
                                  inject_Z (zwind es (qmid (fst xx) (snd xx), qmid (fst yy) (snd yy))))
                       (consec (slab_heights L (qmid (fst xx) (snd xx)))))) (consec xs)).
    Proof.
      rewrite (qsum_map_ext_in _ T (fun e => qsum (map (fun xx =>
                 edir e * ind (spanb e (qmid (fst xx) (snd xx))) * (Hf e (snd xx) - Hf e (fst xx))) (consec xs))) es).
      2:{ intros e He. destruct (end_events e (Hincl e He)) as [H1 H2].
          rewrite <- (edge_slabs_gen (Hf e) e xs _ xs_sorted H1 H2).
          destruct (Qeq_dec (fst (fst e)) (fst (snd e))) as [E|NV]; [rewrite (T_vertical e E), E; ring|apply T_ends, NV]. }
      rewrite qsum_swap. apply qsum_map_ext_in. intros xx Hxx.
      apply (slab_sum xx Hxx (g xx) (fun e => Hf e (snd xx) - Hf e (fst xx))).
      intros e y He S E. apply g_at; assumption.
    Qed.
  End EdgeSum.

  (* the shoelace sum in trapezoid form = sum over the trapezoids of the arrangement of
     (winding number at the witness) * area *)
  Theorem trap_sum_winding :
    qsum (map trap es) == cells_wsum (slab_cells L xs) (fun p => inject_Z (zwind es p)).
  Proof.
    rewrite cells_wsum_slabs,
      (edge_sum_winding trap Hfun (fun xx y => (snd xx - fst xx) * y) Hfun_proper trap_vertical).
    - apply qsum_map_ext_all. intros xx. apply qsum_map_ext_all. intros yy. ring.
    - intros e NV. rewrite Hfun_first, (Hfun_second e NV). ring.
    - intros xx e y _ _ S E. rewrite (Hfun_diff e (spanb_nonvertical e _ S)), <- qmid_eq, E. reflexivity.
  Qed.
End Main.

(* ------------------------------------------------------------------------------------------ *)
(* Part A: the statement against Measure.ring_area_xy                                          *)
(* ------------------------------------------------------------------------------------------ *)
Lemma edge_sum_pairsum : forall (T : seg -> Q) a r,
  qsum (map T (ring_edges (a :: r))) == pairsum (fun p q => T (p, q)) a r.
Proof.
  intros T a r. revert a. induction r as [|b r IH]; intros a; [reflexivity|].
  change (ring_edges (a :: b :: r)) with ((a, b) :: ring_edges (b :: r)). cbn [map pairsum].
  rewrite qsum_cons, IH. reflexivity.
Qed.

Lemma pts_closed_ring_closedb : forall ps : list pt, pts_closed ps = ring_closedb ps.
Proof.
  intros [|a r]; [reflexivity|]. unfold pts_closed, ring_closedb. rewrite last_cons_default. reflexivity.
Qed.

Lemma trap_sum_shoelace : forall ps : list pt, pts_closed ps = true ->
  qsum (map trap (ring_edges ps)) == - ring_area_xy ps.
Proof.
  intros [|a r] Hc; [reflexivity|].
  rewrite edge_sum_pairsum, ring_area_psum. cbn [psum].
  rewrite (pairsum_telescope (fun p q => trap (p, q)) (fun p q => - (1 # 2) * e_shoe p q) (fun p => fst p * snd p)).
  2:{ intros [px py] [qx qy]. unfold trap, e_shoe. cbn [fst snd]. field. }
  rewrite pairsum_scale. unfold pts_closed in Hc. apply pt_eqb_iff in Hc. destruct Hc as [Hx Hy].
  rewrite <- Hx, <- Hy. field.
Qed.

(* Part A, for every closed ring (simple or not): minus the signed shoelace area is the sum
   over the trapezoids of the slab decomposition of winding number * trapezoid area *)
Theorem shoelace_is_winding_area_lemma : forall (L : list seg) (P : list pt) (ps : list pt),
  incl (ring_edges ps) L -> pts_closed ps = true ->
  - ring_area_xy ps ==
  cells_wsum (slab_cells L (events (vertex_set L P))) (fun p => inject_Z (zwind (ring_edges ps) p)).
Proof.
  intros L P ps Hi Hc. rewrite <- (trap_sum_shoelace ps Hc). apply trap_sum_winding; assumption.
Qed.

(* ------------------------------------------------------------------------------------------ *)
(* Part B: winding number vs the parity used by inG                                            *)
(* ------------------------------------------------------------------------------------------ *)
Lemma zdir_odd : forall (e : seg) p, vcross (fst e) (snd e) p = true -> Z.odd (zdir e) = true.
Proof.
  intros [a b] p H. cbn [fst snd] in H. unfold zdir. cbn [fst snd].
  destruct (Qcompare (fst a) (fst b)) eqn:E; try reflexivity.
  apply Qeq_alt in E. rewrite (vcross_vertical a b p E) in H. discriminate.
Qed.

Lemma vparity_cons : forall e es p, vparity (e :: es) p = xorb (vcross (fst e) (snd e) p) (vparity es p).
Proof.
  intros e es p. unfold vparity. cbn [fold_left]. rewrite fold_xor_acc. destruct (vcross (fst e) (snd e) p); reflexivity.
Qed.

Lemma zwind_odd : forall es p, Z.odd (zwind es p) = vparity es p.
Proof.
  intros es p. induction es as [|e r IH]; [reflexivity|].
  rewrite vparity_cons. cbn [zwind fold_right]. fold (zwind r p). rewrite Z.odd_add, IH.
  destruct (vcross (fst e) (snd e) p) eqn:E; [rewrite (zdir_odd e p E)|]; reflexivity.
Qed.

(* the ring's winding number takes only the values 0 and sigma at the trapezoid witnesses
   (true of simple rings: sigma = -1 counter-clockwise, +1 clockwise); decidable *)
Definition winding_simple (sigma : Z) (es : list seg) (cells : list (pt * Q)) : bool :=
  forallb (fun c => (zwind es (fst c) =? 0)%Z || (zwind es (fst c) =? sigma)%Z) cells.

Lemma winding_simple_parity : forall sigma es cells, (sigma = 1 \/ sigma = -1)%Z ->
  winding_simple sigma es cells = true ->
  forall c, In c cells -> inject_Z (zwind es (fst c)) == inject_Z sigma * ind (vparity es (fst c)).
Proof.
  intros sigma es cells Hs H c Hc. unfold winding_simple in H. rewrite forallb_forall in H.
  specialize (H c Hc). rewrite <- zwind_odd. apply orb_true_iff in H. destruct H as [H|H]; apply Z.eqb_eq in H; rewrite H.
  - cbn. ring.
  - destruct Hs as [-> | ->]; cbn; ring.
Qed.

(* trapezoids have non-negative area and their witnesses lie on no segment of the arrangement *)
Lemma in_slab_cells : forall L xs c, In c (slab_cells L xs) ->
  exists xx yy, In xx (consec xs) /\ In yy (consec (slab_heights L (qmid (fst xx) (snd xx)))) /\
                c = gap_cell (qmid (fst xx) (snd xx)) (snd xx - fst xx) yy.
Proof.
  intros L xs c H. rewrite slab_cells_consec in H. apply in_flat_map in H. destruct H as [xx [Hxx H]].
  unfold slab_cells_of in H. rewrite gap_cells_consec in H. apply in_map_iff in H. destruct H as [yy [E Hyy]].
  exists xx, yy. auto.
Qed.

Lemma cell_nonneg : forall L xs c, qsorted xs -> In c (slab_cells L xs) -> 0 <= snd c.
Proof.
  intros L xs c Hs H. destruct (in_slab_cells L xs c H) as [[x0 x1] [[y1 y2] [Hxx [Hyy ->]]]].
  unfold gap_cell. cbn [fst snd] in *.
  pose proof (consec_lt _ _ _ Hs Hxx). pose proof (consec_lt _ _ _ (qsort_sorted _) Hyy). nra.
Qed.

Lemma cells_area_nonneg : forall cells f, (forall c, In c cells -> 0 <= snd c) -> 0 <= cells_area cells f.
Proof.
  intros cells f H. unfold cells_area. induction cells as [|c r IH]; cbn [fold_right]; [lra|].
  assert (0 <= snd c) by (apply H; left; reflexivity).
  assert (0 <= fold_right (fun c0 acc => (if f (fst c0) then snd c0 else 0) + acc) 0 r) by (apply IH; intros; apply H; right; assumption).
  destruct (f (fst c)); lra.
Qed.

Lemma cell_off_segments : forall L P c e, In c (slab_cells L (events (vertex_set L P))) -> In e L ->
  on_seg e (fst c) = false.
Proof.
  intros L P c e Hc He.
  destruct (in_slab_cells _ _ c Hc) as [xx [[y1 y2] [Hxx [Hyy ->]]]].
  unfold gap_cell. cbn [fst snd].
  set (xm := qmid (fst xx) (snd xx)) in *.
  destruct (xm_off_ends L P xx Hxx e He) as [Oa Ob]. fold xm in Oa, Ob.
  pose proof (qmid_between y1 y2 (consec_lt _ _ _ (qsort_sorted _) Hyy)) as Hm.
  destruct e as [a b]. cbn [fst snd] in *.
  destruct (Qeq_dec (fst a) (fst b)) as [E|NV].
  - rewrite (on_seg_vertical a b _ E). apply andb_false_iff. left. apply not_true_is_false. intros K.
    apply Qeq_bool_iff in K. cbn [fst] in K. lra.
  - rewrite (on_seg_y_at a b _ NV). cbn [fst snd]. apply andb_false_iff.
    destruct (spanb_cases (a, b) xm) as [[_ S]|[S _]]; [right|left]; apply not_true_is_false; intros K.
    + apply Qeq_bool_iff in K. pose proof (span_height_in L xx (a, b) He S) as Hin. fold xm in Hin.
      destruct (consec_gap_upto _ _ _ _ (qsort_sorted _) Hyy Hin); lra.
    + apply qbetween_iff in K. cbn [fst snd] in S. lra.
Qed.

Lemma cells_area_false : forall cells f, (forall c, In c cells -> f (fst c) = false) -> cells_area cells f == 0.
Proof.
  intros cells f H. unfold cells_area. induction cells as [|c r IH]; cbn [fold_right]; [reflexivity|].
  rewrite (H c (or_introl eq_refl)), IH; [ring|]. intros c' Hc'. apply H. right. exact Hc'.
Qed.

Lemma cells_wsum_ext_in : forall cells w w',
  (forall c, In c cells -> w (fst c) == w' (fst c)) -> cells_wsum cells w == cells_wsum cells w'.
Proof.
  intros cells w w' H. unfold cells_wsum. apply qsum_map_ext_in. intros c Hc.
  rewrite (H c Hc). reflexivity.
Qed.

Lemma cells_area_ext_in' : forall cells f g,
  (forall c, In c cells -> f (fst c) = g (fst c)) -> cells_area cells f == cells_area cells g.
Proof.
  intros cells f g H. rewrite !cells_area_wsum. apply cells_wsum_ext_in. intros c Hc. rewrite (H c Hc). reflexivity.
Qed.

Lemma cells_wsum_scale : forall cells w k, cells_wsum cells (fun p => k * w p) == k * cells_wsum cells w.
Proof.
  intros. unfold cells_wsum. rewrite <- qsum_map_scale_l. apply qsum_map_ext_all. intros; ring.
Qed.

Lemma vparity_segs : forall ps p, vparity (segs_of_pts ps) p = vparity (ring_edges ps) p.
Proof.
  intros [|a [|b r]] p; try reflexivity.
  cbn [segs_of_pts ring_edges]. unfold vparity. cbn [fold_left fst snd]. rewrite vcross_vertical; reflexivity.
Qed.

Lemma ring_edges_incl_segs : forall ps, incl (ring_edges ps) (segs_of_pts ps).
Proof.
  intros [|a [|b r]].
  - intros x [].
  - intros x [].
  - apply incl_refl.
Qed.

(* per ring: under the winding condition the absolute shoelace area is the slab area of the set
   of points with odd crossing parity *)
Lemma ring_area_is_parity_area : forall (L : list seg) (P : list pt) (ps : list pt) (sigma : Z),
  incl (segs_of_pts ps) L -> pts_closed ps = true -> (sigma = 1 \/ sigma = -1)%Z ->
  winding_simple sigma (ring_edges ps) (slab_cells L (events (vertex_set L P))) = true ->
  Qabs (ring_area_xy ps) == area_of L P (fun p => vparity (ring_edges ps) p).
Proof.
  intros L P ps sigma Hi Hc Hs Hw.
  assert (Hi' : incl (ring_edges ps) L) by (intros e He; apply Hi, ring_edges_incl_segs, He).
  assert (E : - ring_area_xy ps == inject_Z sigma * area_of L P (fun p => vparity (ring_edges ps) p)).
  { rewrite (shoelace_is_winding_area_lemma L P ps Hi' Hc). unfold area_of.
    rewrite cells_area_wsum, <- cells_wsum_scale. apply cells_wsum_ext_in.
    intros c Hin. apply (winding_simple_parity sigma _ _ Hs Hw c Hin). }
  assert (N : 0 <= area_of L P (fun p => vparity (ring_edges ps) p)).
  { unfold area_of. apply cells_area_nonneg. intros c Hin. apply (cell_nonneg L _ c (qsort_sorted _) Hin). }
  set (A := area_of L P (fun p => vparity (ring_edges ps) p)) in *.
  assert (EA : ring_area_xy ps == - (inject_Z sigma * A)) by lra.
  rewrite EA. destruct Hs as [-> | ->].
  - change (inject_Z 1) with 1. rewrite Qabs_opp. rewrite Qabs_pos; lra.
  - change (inject_Z (-1)) with (-1). rewrite Qabs_pos; lra.
Qed.

(* membership of a trapezoid witness in a polygon: parities of its rings *)
Lemma inG_poly_cell : forall (L : list seg) (P : list pt) ct (rings : list (lineT Q)) c,
  (forall r, In r rings -> incl (line_segs r) L /\ pts_closed (line_pts r) = true) ->
  In c (slab_cells L (events (vertex_set L P))) ->
  inG (GPoly (MkPoly ct rings)) (fst c) =
  match rings with
  | [] => false
  | sh :: hs => vparity (ring_edges (line_pts sh)) (fst c) &&
                forallb (fun h => negb (vparity (ring_edges (line_pts h)) (fst c))) hs
  end.
Proof.
  intros L P ct rings c Hr Hc.
  assert (Off : forall r, In r rings -> on_edges (line_segs r) (fst c) = false).
  { intros r Hin. destruct (Hr r Hin) as [Hi _]. unfold on_edges.
    apply not_true_is_false. intros K. apply existsb_exists in K. destruct K as [e [He K]].
    rewrite (cell_off_segments L P c e Hc (Hi e He)) in K. discriminate. }
  assert (Par : forall r, In r rings -> edges_parity (line_segs r) (fst c) = vparity (ring_edges (line_pts r)) (fst c)).
  { intros r Hin. destruct (Hr r Hin) as [_ Hcl]. unfold line_segs.
    rewrite (closed_ring_parity _ _ Hcl (Off r Hin)). apply vparity_segs. }
  cbn [inG]. unfold in_poly, poly_boundary, poly_interior, poly_ring_segs. cbn [poly_rings].
  assert (B : rings_boundary (map line_segs rings) (fst c) = false).
  { unfold rings_boundary. apply not_true_is_false. intros K. apply existsb_exists in K.
    destruct K as [s [Hs K]]. apply in_map_iff in Hs. destruct Hs as [r [<- Hin]]. rewrite (Off r Hin) in K. discriminate. }
  rewrite B. cbn [orb]. destruct rings as [|sh hs]; [reflexivity|]. cbn [map rings_interior].
  unfold ring_strict_in. rewrite (Off sh (or_introl eq_refl)), (Par sh (or_introl eq_refl)). cbn [negb andb].
  f_equal. rewrite forallb_map. apply forallb_ext_in. intros h Hh.
  unfold ring_strict_out. rewrite (Off h (or_intror Hh)), (Par h (or_intror Hh)). reflexivity.
Qed.

(* ------------------------------------------------------------------------------------------ *)
(* polygons with holes                                                                         *)
(* ------------------------------------------------------------------------------------------ *)
Definition rpar (r : lineT Q) (p : pt) : bool := vparity (ring_edges (line_pts r)) p.
(* valid nesting, judged at the trapezoid witnesses: a witness lies in at most one hole, and a
   witness in a hole lies in the shell *)
Definition nesting_ok (sh : lineT Q) (hs : list (lineT Q)) (cells : list (pt * Q)) : bool :=
  forallb (fun c => let k := length (filter (fun h => rpar h (fst c)) hs) in
                    (k =? 0)%nat || ((k =? 1)%nat && rpar sh (fst c))) cells.

Lemma qsum_ind_filter : forall (A : Type) (f : A -> bool) l,
  qsum (map (fun x => ind (f x)) l) == inject_Z (Z.of_nat (length (filter f l))).
Proof.
  intros A f l. induction l as [|x l IH]; cbn [map filter]; [reflexivity|].
  rewrite qsum_cons, IH. destruct (f x); cbn [ind length].
  - rewrite Nat2Z.inj_succ. unfold Z.succ. rewrite inject_Z_plus. change (inject_Z 1) with 1. ring.
  - ring.
Qed.

Lemma forallb_negb_filter : forall (A : Type) (f : A -> bool) l,
  forallb (fun x => negb (f x)) l = (length (filter f l) =? 0)%nat.
Proof.
  intros A f l. induction l as [|x l IH]; cbn [forallb filter]; [reflexivity|].
  destruct (f x); cbn [negb andb length]; [reflexivity|exact IH].
Qed.

Lemma nesting_indicator : forall (sh : lineT Q) (hs : list (lineT Q)) (c : pt * Q),
  (let k := length (filter (fun h => rpar h (fst c)) hs) in
   (k =? 0)%nat || ((k =? 1)%nat && rpar sh (fst c))) = true ->
  ind (rpar sh (fst c) && forallb (fun h => negb (rpar h (fst c))) hs) ==
  ind (rpar sh (fst c)) - qsum (map (fun h => ind (rpar h (fst c))) hs).
Proof.
  intros sh hs c H. cbv zeta in H.
  rewrite (qsum_ind_filter _ (fun h => rpar h (fst c)) hs), (forallb_negb_filter _ (fun h => rpar h (fst c)) hs).
  destruct (length (filter (fun h => rpar h (fst c)) hs)) as [|[|k]]; cbn [Nat.eqb orb andb] in *.
  - rewrite andb_true_r. cbn. ring.
  - rewrite H. cbn. ring.
  - discriminate.
Qed.

Lemma cells_wsum_minus_sum : forall (A : Type) cells (w : pt -> Q) (ws : A -> pt -> Q) (hs : list A),
  cells_wsum cells (fun p => w p - qsum (map (fun h => ws h p) hs)) ==
  cells_wsum cells w - qsum (map (fun h => cells_wsum cells (ws h)) hs).
Proof.
  intros A cells w ws hs. unfold cells_wsum.
  rewrite (qsum_map_ext_all _ _ (fun c => w (fst c) * snd c + - qsum (map (fun h => ws h (fst c) * snd c) hs))).
  2:{ intros c. rewrite (qsum_map_scale _ (fun h => ws h (fst c)) (snd c) hs). ring. }
  rewrite qsum_map_plus, qsum_map_opp, qsum_swap. ring.
Qed.

Lemma poly_cells_indicator : forall (L : list seg) (P : list pt) ct (sh : lineT Q) (hs : list (lineT Q)) (cs : list (pt * Q)),
  let cells := slab_cells L (events (vertex_set L P)) in
  (forall c, In c cs -> exists c', In c' cells /\ fst c' = fst c) ->
  (forall r, In r (sh :: hs) -> incl (line_segs r) L /\ pts_closed (line_pts r) = true) ->
  nesting_ok sh hs cells = true ->
  cells_area cs (inG (GPoly (MkPoly ct (sh :: hs)))) ==
  cells_wsum cs (fun p => ind (rpar sh p)) - qsum (map (fun h => cells_wsum cs (fun p => ind (rpar h p))) hs).
Proof.
  intros L P ct sh hs cs cells Hw Hr Hn.
  rewrite cells_area_wsum, <- (cells_wsum_minus_sum _ cs (fun p => ind (rpar sh p)) (fun h p => ind (rpar h p)) hs).
  apply cells_wsum_ext_in. intros c0 Hin. destruct (Hw c0 Hin) as [c [Hc <-]].
  rewrite (inG_poly_cell L P ct (sh :: hs) c Hr Hc).
  unfold nesting_ok in Hn. rewrite forallb_forall in Hn. apply (nesting_indicator sh hs c (Hn c Hc)).
Qed.

(* Part B, polygon with holes under valid nesting: Area() of the model = slab area of the set *)
Theorem shoelace_is_slab_area_holes_lemma :
  forall (L : list seg) (P : list pt) ct (sh : lineT Q) (hs : list (lineT Q)),
  let cells := slab_cells L (events (vertex_set L P)) in
  (forall r, In r (sh :: hs) ->
     incl (line_segs r) L /\ pts_closed (line_pts r) = true /\
     exists sigma, (sigma = 1 \/ sigma = -1)%Z /\ winding_simple sigma (ring_edges (line_pts r)) cells = true) ->
  nesting_ok sh hs cells = true ->
  Measure.poly_area false None (MkPoly ct (sh :: hs)) == area_of L P (inG (GPoly (MkPoly ct (sh :: hs)))).
Proof.
  intros L P ct sh hs cells Hr Hn.
  assert (RA : forall r, In r (sh :: hs) -> Qabs (ring_area None r) == cells_wsum cells (fun p => ind (rpar r p))).
  { intros r Hin. destruct (Hr r Hin) as [Hi [Hc [sigma [Hs Hw]]]].
    rewrite ring_area_none. change (line_xys r) with (line_pts r).
    rewrite (ring_area_is_parity_area L P (line_pts r) sigma Hi Hc Hs Hw).
    unfold area_of. fold cells. rewrite cells_area_wsum. reflexivity. }
  rewrite poly_area_spec. unfold shell_term, hole_term. cbv beta iota.
  unfold area_of. fold cells.
  rewrite (poly_cells_indicator L P ct sh hs cells (fun c Hc => ex_intro _ c (conj Hc eq_refl))
             (fun r Hin => conj (proj1 (Hr r Hin)) (proj1 (proj2 (Hr r Hin)))) Hn).
  rewrite (RA sh (or_introl eq_refl)).
  rewrite (qsum_map_ext _ (fun h => - Qabs (ring_area None h)) (fun h => - cells_wsum cells (fun p => ind (rpar h p)))).
  2:{ apply Forall_forall. intros h Hh. rewrite (RA h (or_intror Hh)). reflexivity. }
  rewrite qsum_map_opp. ring.
Qed.

(* Part B, single ring: the absolute shoelace area is the slab area of the polygon's point set *)
Theorem shoelace_is_slab_area_lemma : forall (L : list seg) (P : list pt) ct (l : lineT Q) (sigma : Z),
  incl (line_segs l) L -> pts_closed (line_pts l) = true -> (sigma = 1 \/ sigma = -1)%Z ->
  winding_simple sigma (ring_edges (line_pts l)) (slab_cells L (events (vertex_set L P))) = true ->
  Qabs (ring_area_xy (line_pts l)) == area_of L P (inG (GPoly (MkPoly ct [l]))).
Proof.
  intros L P ct l sigma Hi Hc Hs Hw. change (line_pts l) with (line_xys l). rewrite <- ring_area_none.
  apply (shoelace_is_slab_area_holes_lemma L P ct l []).
  - intros r [<-|[]]. eauto 6.
  - apply forallb_forall. reflexivity.
Qed.

(* ------------------------------------------------------------------------------------------ *)
(* executable form of the hypotheses, for one polygon in its own arrangement                   *)
(* ------------------------------------------------------------------------------------------ *)
Definition poly_segs (y : polyT Q) : list seg := flat_map line_segs (poly_rings y).
Definition poly_cells (y : polyT Q) : list (pt * Q) := slab_cells (poly_segs y) (events (vertex_set (poly_segs y) [])).
Definition ring_sigma_ok (cells : list (pt * Q)) (r : lineT Q) : bool :=
  pts_closed (line_pts r) &&
  (winding_simple 1 (ring_edges (line_pts r)) cells || winding_simple (-1) (ring_edges (line_pts r)) cells).
(* all hypotheses of [shoelace_is_slab_area_holes_lemma] for y in the arrangement of its own rings *)
Definition slab_hypotheses (y : polyT Q) : bool :=
  match poly_rings y with
  | [] => true
  | sh :: hs => forallb (ring_sigma_ok (poly_cells y)) (sh :: hs) && nesting_ok sh hs (poly_cells y)
  end.
Definition slab_area (y : polyT Q) : Q := area_of (poly_segs y) [] (inG (GPoly y)).

Lemma rings_sigma_ok_spec : forall cells L (rings : list (lineT Q)),
  forallb (ring_sigma_ok cells) rings = true -> incl (flat_map line_segs rings) L ->
  forall r, In r rings ->
    incl (line_segs r) L /\ pts_closed (line_pts r) = true /\
    exists sigma, (sigma = 1 \/ sigma = -1)%Z /\ winding_simple sigma (ring_edges (line_pts r)) cells = true.
Proof.
  intros cells L rings H Hi r Hin. rewrite forallb_forall in H.
  split; [intros e He; apply Hi, in_flat_map; exists r; split; assumption|].
  specialize (H r Hin). apply andb_true_iff in H. destruct H as [Hc Hw]. split; [exact Hc|].
  apply orb_true_iff in Hw. destruct Hw as [Hw|Hw]; [exists 1%Z|exists (-1)%Z]; split; auto.
Qed.

Theorem slab_hypotheses_sound : forall ct (rings : list (lineT Q)),
  slab_hypotheses (MkPoly ct rings) = true ->
  Measure.poly_area false None (MkPoly ct rings) == slab_area (MkPoly ct rings).
Proof.
  intros ct [|sh hs] H.
  - symmetry. apply cells_area_false. intros c _. reflexivity.
  - unfold slab_hypotheses in H. cbn [poly_rings] in H. apply andb_true_iff in H. destruct H as [H1 H2].
    apply shoelace_is_slab_area_holes_lemma; [|exact H2]. apply (rings_sigma_ok_spec _ _ _ H1), incl_refl.
Qed.
