(* Translator tie for functions WITH LOOPS (DESIGN.md A.8b), property C17: the subdivision loops of
   geom/alg_densify.go:densify (outer loop over the segments, inner loop over the inserted points,
   both appending to the float slice `dense` through Coordinates.appendFloat64s), as re-read from
   the Go source into Gen/FuncsLoop.v on every run, against coq/Model/TrDensify.v:densify_seq.
   Carrier: Q; math.Sqrt / Hypot / Ceil and the conversion int(..) are ANY functions.

   Two steps.  (1) [tie_densify], for ALL sequences whose coordinates types are among the four
   defined ones: the float slice handed to geom.NewSequence is the flattening of [dens_c cs], the
   list obtained by the model's recursion (first point, the kf-1 points at j/kf, rest) with the
   translated interpolateCoords and kf = int(Ceil(dist/maxDist)); maxDist <= 0 panics, the empty
   sequence is returned unchanged.  (2) [dens_c_model]: [dens_c] is, vertex by vertex and up to ==
   on the ordinates (math.Max/Min against the model's Qmaxq/Qminq), the model's [densify_seq] for
   that kf.  An edited loop in the Go source makes this file fail to compile. *)
From Coq Require Import String ZArith QArith List Bool Lia Lqa.
From SF Require Import Base.FOps Base.FLoop Gen.FuncsLoop Proofs.Funcs_tie_lib Proofs.Funcs_tie_Loop_lib
  Base.GeomAST Model.TrCommon Model.TrDensify Model.TrInterp Proofs.Funcs_tie_Loop_Interp.
Import ListNotations.
Open Scope Q_scope.

Definition type_ok (t : Z) : Prop :=
  t = geom_DimXY \/ t = geom_DimXYZ \/ t = geom_DimXYM \/ t = geom_DimXYZM.
Lemma type_ok_land : forall a b, type_ok a -> type_ok b -> type_ok (Z.land a b).
Proof. intros a b [ -> | [ -> | [ -> | -> ] ] ] [ -> | [ -> | [ -> | -> ] ] ]; cbv; tauto. Qed.

(* geom/type_coordinates.go:appendFloat64s: what it appends *)
Definition flatc (c : geom_Coordinates Q) : list Q :=
  let x := geom_XY_X (geom_Coordinates_XY c) in
  let y := geom_XY_Y (geom_Coordinates_XY c) in
  if Z.eqb (geom_Coordinates_Type c) geom_DimXY then [x; y]
  else if Z.eqb (geom_Coordinates_Type c) geom_DimXYZ then [x; y; geom_Coordinates_Z c]
  else if Z.eqb (geom_Coordinates_Type c) geom_DimXYM then [x; y; geom_Coordinates_M c]
  else [x; y; geom_Coordinates_Z c; geom_Coordinates_M c].
Lemma tie_appendFloat64s : forall c dst, type_ok (geom_Coordinates_Type c) ->
  geom_Coordinates_appendFloat64s c dst = Known (dst ++ flatc c).
Proof.
  intros c dst H. unfold geom_Coordinates_appendFloat64s, flatc.
  destruct H as [ -> | [ -> | [ -> | -> ] ] ]; reflexivity.
Qed.

Lemma skipn_In {A} (k : nat) : forall (l : list A) x, In x (skipn k l) -> In x l.
Proof. induction k; intros [|y l] x Hin; cbn in *; auto. Qed.
Lemma suffix_In {A} (l : list A) i x r : suffix l i = x :: r -> In x l.
Proof. unfold suffix. intro H. apply (skipn_In (Z.to_nat i)). rewrite H. left; reflexivity. Qed.

Section Dens.
  Variables (sq : Q -> Q) (hy : Q -> Q -> Q) (ceil : Q -> Q) (to_int : Q -> Z).
  Variables (seq_ctype : list (geom_Coordinates Q) -> Z) (seq_new : list Q -> Z -> list (geom_Coordinates Q)).
  Variable maxDist : Q.
  Local Notation rops := (qops_with sq hy).

  (* subsections := int(math.Ceil(dist / maxDist)) *)
  Definition kc (c0 c1 : geom_Coordinates Q) : Z :=
    to_int (ceil (geom_XY_distanceTo rops (geom_Coordinates_XY c0) (geom_Coordinates_XY c1) / maxDist)).
  Fixpoint inserted_c (c0 c1 : geom_Coordinates Q) (k : Z) (j : nat) (cnt : nat) : list (geom_Coordinates Q) :=
    match cnt with
    | O => []
    | S c => geom_interpolateCoords rops c0 c1 (inject_Z (Z.of_nat j) / inject_Z k) :: inserted_c c0 c1 k (S j) c
    end.
  Fixpoint dens_c (cs : list (geom_Coordinates Q)) : list (geom_Coordinates Q) :=
    match cs with
    | a :: ((b :: _) as r) => a :: inserted_c a b (kc a b) 1 (Z.to_nat (kc a b - 1)) ++ dens_c r
    | _ => cs
    end.

  Lemma inserted_c_step : forall c0 c1 k j, (1 <= j < k)%Z ->
    inserted_c c0 c1 k (Z.to_nat j) (Z.to_nat (k - j))
    = geom_interpolateCoords rops c0 c1 (inject_Z j / inject_Z k)
      :: inserted_c c0 c1 k (Z.to_nat (j + 1)) (Z.to_nat (k - (j + 1))).
  Proof.
    intros c0 c1 k j Hj. replace (Z.to_nat (k - j)) with (S (Z.to_nat (k - (j + 1)))) by lia.
    cbn [inserted_c]. rewrite Z2Nat.id by lia. replace (S (Z.to_nat j)) with (Z.to_nat (j + 1)) by lia.
    reflexivity.
  Qed.

  (* geom/alg_densify.go:densify *)
  Lemma tie_densify : forall cs, Forall (fun c => type_ok (geom_Coordinates_Type c)) cs ->
    geom_densify rops ceil to_int seq_ctype seq_new cs maxDist
    = if Qle_bool maxDist 0 then Unknown "panic: maxDist must be positive"%string
      else match cs with
           | [] => Known cs
           | _ => Known (seq_new (flat_map flatc (dens_c cs)) (seq_ctype cs))
           end.
  Proof.
    intros cs Hok. unfold geom_densify.
    change (f_leb rops maxDist (f_of_Z rops 0)) with (Qle_bool maxDist 0).
    destruct (Qle_bool maxDist 0); [reflexivity|].
    destruct cs as [|c0 cs']; [reflexivity|].
    set (cs := c0 :: cs') in *. cbv zeta.
    set (n := Z.of_nat (Datatypes.length cs)).
    assert (Hn : (1 <= n)%Z) by (unfold n, cs; cbn [Datatypes.length]; lia).
    destruct (Z.eqb_spec n 0); [lia|].
    assert (Hty : forall i a r, suffix cs i = a :: r -> type_ok (geom_Coordinates_Type a)).
    { intros i a r Hs. rewrite Forall_forall in Hok. apply Hok. eapply suffix_In; eassumption. }
    set (TARGET := flat_map flatc (dens_c cs)).
    loop_rule 0%Z (n - 1)%Z
      (fun (i : Z) (dense : list Q) =>
         exists a rest, suffix cs i = a :: rest /\ dense ++ flat_map flatc (dens_c (a :: rest)) = TARGET)
      (fun res : loop_res (list Q) (list (geom_Coordinates Q)) =>
         match res with
         | LDone dense => exists a, suffix cs (n - 1) = [a] /\ dense ++ flatc a = TARGET
         | _ => False
         end).
    - loop_cond.
    - loop_fuel.
    - exists c0, cs'. split; reflexivity.
    - intros i dense Hi (a & rest & Hs & Hd).
      destruct (suffix_two cs i ltac:(lia) ltac:(unfold n in Hi; lia)) as (a' & b & r & Hs2 & Ha & Hb & Hs1).
      rewrite Hs in Hs2. injection Hs2 as <- ->.
      replace (i + 0)%Z with i by lia. rewrite Ha, Hb.
      rewrite tie_appendFloat64s by (eapply Hty; eassumption).
      fold (kc a b). set (k := kc a b).
      cbn [dens_c] in Hd. fold k in Hd.
      set (dense1 := dense ++ flatc a).
      loop_rule 1%Z k
        (fun (j : Z) (d : list Q) =>
           d ++ flat_map flatc (inserted_c a b k (Z.to_nat j) (Z.to_nat (k - j)))
           = dense1 ++ flat_map flatc (inserted_c a b k 1 (Z.to_nat (k - 1))))
        (fun res : loop_res (list Q) (list (geom_Coordinates Q)) =>
           match res with
           | LDone d => d = dense1 ++ flat_map flatc (inserted_c a b k 1 (Z.to_nat (k - 1)))
           | _ => False
           end).
      + loop_cond.
      + loop_fuel.
      + reflexivity.
      + intros j d Hj Hinv.
        rewrite tie_appendFloat64s.
        2:{ apply type_ok_land; [eapply Hty; exact Hs|eapply Hty; exact Hs1]. }
        rewrite <- Hinv. rewrite (inserted_c_step a b k j Hj). cbn [flat_map]. rewrite <- app_assoc. reflexivity.
      + intros d Hinv. rewrite <- Hinv.
        replace (Z.to_nat (k - Z.max 1 k)) with O by lia. cbn [inserted_c flat_map]. now rewrite app_nil_r.
      + subst s. exists b, r. split; [exact Hs1|]. rewrite <- Hd. unfold dense1.
        cbn [flat_map]. rewrite flat_map_app, <- !app_assoc. reflexivity.
      + contradiction.
      + contradiction.
    - intros dense (a & rest & Hs & Hd). rewrite Z.max_r in Hs by lia.
      pose proof (suffix_length cs (n - 1)%Z ltac:(lia)) as HL. fold n in HL. rewrite Hs in HL.
      destruct rest; [|cbn [Datatypes.length] in HL; lia].
      exists a. split; [exact Hs|]. cbn in Hd. rewrite app_nil_r in Hd. exact Hd.
    - destruct HP as (a & Hs & Hd).
      destruct (suffix_cons_lookup cs (n - 1)%Z a [] ltac:(lia) Hs) as [Hl _]. rewrite Hl.
      rewrite tie_appendFloat64s by (eapply Hty; eassumption). rewrite Hd. reflexivity.
    - contradiction.
    - contradiction.
  Qed.

  (* step 2: dens_c against the model's densify_seq, vertex by vertex up to == *)
  Definition veq (a b : qv) : Prop := vx a == vx b /\ vy a == vy b /\ vz a == vz b /\ vm a == vm b.
  Definition kq (a b : qv) : Z := to_int (ceil (dist sq a b / maxDist)).
  Hypothesis hy_sq : forall x y, hy x y = sq (x * x + y * y).
  Lemma kc_kq : forall a b, kc a b = kq (cvt a) (cvt b).
  Proof.
    intros a b. unfold kc, kq. do 3 f_equal.
    unfold geom_XY_distanceTo, geom_XY_Length, geom_XY_Sub, dist, d2, cvt. cbn. now rewrite hy_sq.
  Qed.
  Lemma inserted_c_model : forall a b k cnt j,
    Forall2 veq (map cvt (inserted_c a b k j cnt)) (inserted (cvt a) (cvt b) k j cnt).
  Proof.
    intros a b k. induction cnt as [|c IH]; intro j; cbn [inserted_c inserted map]; constructor; [|apply IH].
    destruct (tie_interpolateCoords sq hy a b (inject_Z (Z.of_nat j) / inject_Z k)) as (H1 & H2 & H3 & H4 & _).
    exact (conj H1 (conj H2 (conj H3 H4))).
  Qed.
  Lemma veq_refl : forall a, veq a a.
  Proof. intro a. repeat split; reflexivity. Qed.
  Lemma dens_c_model : forall cs, Forall2 veq (map cvt (dens_c cs)) (densify_seq kq (map cvt cs)).
  Proof.
    intro cs. remember (Datatypes.length cs) as n eqn:Hn. assert (Hle : (Datatypes.length cs <= n)%nat) by lia.
    clear Hn. revert cs Hle. induction n as [|n IH]; intros [|a [|b r]] Hle; cbn [Datatypes.length] in Hle; try lia.
    - constructor.
    - constructor.
    - constructor; [apply veq_refl|constructor].
    - cbn [dens_c densify_seq map]. constructor; [apply veq_refl|].
      rewrite map_app. apply Forall2_app.
      + rewrite kc_kq. apply inserted_c_model.
      + apply (IH (b :: r)). cbn [Datatypes.length]. lia.
  Qed.
End Dens.
