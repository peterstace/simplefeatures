(* Lemmas for property C06 (GeoJSON).  Statements are collected in Props/C06.v. *)
From Coq Require Import Ascii String.
From Coq Require Import NArith List Bool Lia PeanoNat.
From SF Require Import Base.Outcome Base.GeomAST Model.GeoJSON Proofs.WKB_proofs.
From SF Require Proofs.WKB_image.
Import ListNotations.
Local Open Scope N_scope.

(* ------------------------------------------------------------------ generic list facts *)

Lemma sep_by_ext_in {A} (f g : A -> list tok) l :
  (forall x, In x l -> f x = g x) -> sep_by f l = sep_by g l.
Proof.
  destruct l as [|x l]; intros H; cbn [sep_by]; [reflexivity|].
  rewrite (H x (or_introl eq_refl)). f_equal. apply flat_map_ext_in.
  intros y Hy. rewrite (H y (or_intror Hy)). reflexivity.
Qed.

Lemma existsb_map_eq {A B} (f : B -> bool) (g : A -> bool) (h : A -> B) l :
  (forall x, In x l -> f (h x) = g x) -> existsb f (map h l) = existsb g l.
Proof. rewrite existsb_map. apply existsb_ext_in. Qed.

Lemma forallb_map_in {A B} (p : B -> bool) (h : A -> B) l :
  (forall x, In x l -> p (h x) = true) -> forallb p (map h l) = true.
Proof.
  intros H. apply forallb_forall. intros y Hy. apply in_map_iff in Hy.
  destruct Hy as [x [<- Hx]]. apply H, Hx.
Qed.

Lemma existsb_filter {A} (f : A -> bool) l : existsb f (filter f l) = existsb f l.
Proof.
  induction l as [|x l IH]; [reflexivity|]. cbn [filter existsb].
  destruct (f x) eqn:E; cbn [existsb orb]; [rewrite E; reflexivity|exact IH].
Qed.

Lemma mapM_map_ok {A B C} (f : B -> outcome C) (g : A -> B) (h : A -> C) l :
  (forall x, In x l -> f (g x) = Ok (h x)) -> mapM f (map g l) = Ok (map h l).
Proof.
  induction l as [|x l IH]; intros H; cbn [map mapM]; [reflexivity|].
  rewrite (H x (or_introl eq_refl)). cbn [bind]. rewrite IH; [reflexivity|].
  intros y Hy. apply H. right. exact Hy.
Qed.

Lemma mapM_map_ext {A B} (f : A -> outcome B) (h : A -> A) l :
  (forall x, In x l -> f (h x) = f x) -> mapM f (map h l) = mapM f l.
Proof.
  induction l as [|x l IH]; intros H; [reflexivity|]. cbn [map mapM].
  rewrite (H x (or_introl eq_refl)), IH; [reflexivity|]. intros y Hy. apply H. right. exact Hy.
Qed.

Lemma mapM_Forall {A B} (Q : B -> Prop) (f : A -> outcome B) l :
  (forall x y, In x l -> f x = Ok y -> Q y) -> forall r, mapM f l = Ok r -> Forall Q r.
Proof.
  induction l as [|x l IH]; intros H r; cbn [mapM].
  - intros E. inversion E. constructor.
  - destruct (f x) as [y| |] eqn:Ex; cbn [bind]; try discriminate.
    destruct (mapM f l) as [ys| |] eqn:El; cbn [bind]; try discriminate.
    intros E. inversion E. constructor.
    + apply (H x y); [left; reflexivity|exact Ex].
    + apply IH; [|reflexivity]. intros a b Ha. apply H. right. exact Ha.
Qed.

Lemma mapM_total {A B} (f : A -> outcome B) l :
  Forall (fun x => exists y, f x = Ok y) l -> exists r, mapM f l = Ok r.
Proof.
  induction 1 as [|x l [y Hy] _ [r Hr]]; [exists []; reflexivity|].
  exists (y :: r). cbn [mapM]. rewrite Hy. cbn [bind]. rewrite Hr. reflexivity.
Qed.

(* the list loops the model writes out as local fixpoints *)
Lemma fix_mapM {A B} (f : A -> outcome B) l :
  (fix go (l : list A) : outcome (list B) :=
     match l with
     | [] => Ok []
     | x :: r => do y <- f x; do ys <- go r; Ok (y :: ys)
     end) l = mapM f l.
Proof. induction l as [|x l IH]; cbn [mapM]; [reflexivity|]. rewrite IH. reflexivity. Qed.

Lemma omap_ok {A B} (f : A -> B) m b : omap f m = Ok b -> exists a, m = Ok a /\ b = f a.
Proof. destruct m as [a| |]; cbn [omap bind]; intros H; inversion H. exists a. auto. Qed.

Lemma omap_total {A B} (f : A -> B) m : (exists a, m = Ok a) -> exists b, omap f m = Ok b.
Proof. intros [a ->]. exists (f a). reflexivity. Qed.

Lemma str_eqb_eq a b : str_eqb a b = true <-> a = b.
Proof.
  revert b. induction a as [|x a IH]; destruct b as [|y b]; cbn [str_eqb]; split; intros H;
    try reflexivity; try discriminate.
  - apply andb_prop in H. destruct H as [H1 H2]. apply N.eqb_eq in H1. apply IH in H2. congruence.
  - inversion H; subst. rewrite N.eqb_refl. apply IH. reflexivity.
Qed.

Lemma str_eqb_refl s : str_eqb s s = true.
Proof. apply str_eqb_eq. reflexivity. Qed.

Lemma type_of_name_name t : type_of_name (type_name t) = Some t.
Proof. destruct t; reflexivity. Qed.

Lemma type_of_name_inv s t : type_of_name s = Some t -> s = type_name t.
Proof.
  unfold type_of_name.
  repeat match goal with
         | |- context [str_eqb s ?c] =>
             let E := fresh "E" in destruct (str_eqb s c) eqn:E;
             [apply str_eqb_eq in E; intros H; inversion H; subst; reflexivity|]
         end.
  discriminate.
Qed.

Lemma point_ok_ct f ct (p : pointT N) : point_ok f ct p = true -> point_ct p = ct.
Proof. destruct p as [c o]. unfold point_ok. intros H. apply andb_prop in H. apply ct_eqb_eq, H. Qed.
Lemma line_ok_ct f ct (l : lineT N) : line_ok f ct l = true -> line_ct l = ct.
Proof. destruct l as [c vs]. unfold line_ok. intros H. apply andb_prop in H. apply ct_eqb_eq, H. Qed.
Lemma poly_ok_rings f ct (p : polyT N) :
  poly_ok f ct p = true -> forallb (line_ok f ct) (poly_rings p) = true.
Proof. destruct p as [c rs]. unfold poly_ok. intros H. apply andb_prop in H. apply H. Qed.

Lemma mpoint_coords_full ps : mpoint_coords ps = JArr (map point_coords (filter point_full ps)).
Proof.
  unfold mpoint_coords. f_equal. induction ps as [|[c [v|]] ps IH]; [reflexivity| |exact IH].
  cbn [flat_map filter point_full point_empty point_c negb map app]. rewrite IH. reflexivity.
Qed.

(* ================================================================== the writer is a JSON printer *)
Lemma jp_arr_map {A} (f : A -> json) l :
  json_print (JArr (map f l)) = bracket (sep_by (fun x => json_print (f x)) l).
Proof.
  destruct l as [|x l]; cbn [map json_print sep_by]; [reflexivity|].
  rewrite flat_map_map. reflexivity.
Qed.

Lemma pr_pos_json ct v : pr_pos ct v = json_print (pos_json ct v).
Proof. unfold pr_pos, pos_json. destruct (has_z ct); reflexivity. Qed.

Lemma pr_seq_json l : pr_seq l = json_print (seq_json l).
Proof.
  unfold pr_seq, seq_json. rewrite jp_arr_map. f_equal. apply sep_by_ext_in.
  intros v _. apply pr_pos_json.
Qed.

Lemma pr_seqs_json ls : pr_seqs ls = json_print (seqs_json ls).
Proof.
  unfold pr_seqs, seqs_json. rewrite jp_arr_map. f_equal. apply sep_by_ext_in.
  intros l _. apply pr_seq_json.
Qed.

Lemma pr_matrix_json ps : pr_matrix ps = json_print (JArr (map poly_coords ps)).
Proof.
  unfold pr_matrix. rewrite jp_arr_map. f_equal. apply sep_by_ext_in.
  intros p _. apply pr_seqs_json.
Qed.

Lemma lit_app a b : lit (a ++ b) = lit a ++ lit b.
Proof. apply map_app. Qed.

Lemma jp_gobj t member v :
  json_print (gobj t member v) = pr_head t member ++ json_print v ++ [TC c_rcb].
Proof.
  unfold gobj, pr_head. cbn [json_print flat_map fst snd]. unfold pr_str, k_type, h_open, h_mid, h_end.
  cbn [lit map]. cbn [app].
  repeat (rewrite <- app_assoc; cbn [app]). reflexivity.
Qed.

Lemma pr_mpoints_json ps : forall first,
  pr_mpoints first ps =
  let f p := json_print (point_coords p) in
  if first then sep_by f (filter point_full ps)
  else flat_map (fun p => TC c_comma :: f p) (filter point_full ps).
Proof.
  induction ps as [|[c [v|]] ps IH]; intros first; [destruct first; reflexivity| |apply IH].
  cbn [pr_mpoints point_c point_ct filter point_full point_empty negb].
  rewrite IH, pr_pos_json. destruct first; reflexivity.
Qed.

Lemma gj_print_is_json_lemma (g : geom) : gj_print g = json_print (to_json g).
Proof.
  induction g as [p|l|p|c ps|c ls|c ps|c gs IH] using geomT_ind'; cbn [gj_print to_json];
    rewrite jp_gobj.
  - f_equal. f_equal. unfold point_coords. destruct (point_c p); [apply pr_pos_json|reflexivity].
  - rewrite pr_seq_json. reflexivity.
  - rewrite pr_seqs_json. reflexivity.
  - f_equal. rewrite mpoint_coords_full, jp_arr_map, pr_mpoints_json. unfold bracket.
    cbn [app]. f_equal. rewrite <- app_assoc. reflexivity.
  - rewrite pr_seqs_json. reflexivity.
  - rewrite pr_matrix_json. reflexivity.
  - f_equal. f_equal. cbn [json_print]. f_equal.
    destruct gs as [|x r]; cbn [map]; [reflexivity|].
    inversion IH as [|? ? Hx Hr]; subst. rewrite Hx. f_equal.
    rewrite flat_map_map. apply flat_map_ext_in. rewrite Forall_forall in Hr.
    intros y Hy. rewrite (Hr y Hy). reflexivity.
Qed.

(* every string of a geometry document is plain (so json_print spells it exactly) *)
Lemma to_json_plain (g : geom) : json_strings_plain (to_json g) = true.
Proof.
  assert (Hpt : forall p, json_strings_plain (point_coords p) = true).
  { intros p. unfold point_coords, pos_json. destruct (point_c p); [destruct (has_z _)|]; reflexivity. }
  assert (Hseq : forall l, json_strings_plain (seq_json l) = true).
  { intros l. apply CType_proofs.forallb_map_all. intros v. unfold pos_json. destruct (has_z _); reflexivity. }
  assert (Hseqs : forall ls, json_strings_plain (seqs_json ls) = true).
  { intros ls. apply CType_proofs.forallb_map_all, Hseq. }
  assert (Hobj : forall t m v, plain_str m = true -> json_strings_plain v = true ->
                               json_strings_plain (gobj t m v) = true).
  { intros t m v Hm Hv. unfold gobj. cbn [json_strings_plain forallb fst snd].
    rewrite Hm, Hv. destruct t; reflexivity. }
  induction g as [p|l|p|c ps|c ls|c ps|c gs IH] using geomT_ind'; cbn [to_json];
    apply Hobj; try reflexivity.
  - apply Hpt.
  - apply Hseq.
  - apply Hseqs.
  - rewrite mpoint_coords_full. apply CType_proofs.forallb_map_all, Hpt.
  - apply Hseqs.
  - apply CType_proofs.forallb_map_all. intros q. apply Hseqs.
  - apply forallb_map_in. rewrite Forall_forall in IH. exact IH.
Qed.

(* ================================================================== positions and member structure *)
Definition pdim (z : bool) : nat := if z then 3%nat else 2%nat.
Notation ok1 := (fun _ : N => true).

Lemma pos_lens_pos ct v : pos_lens (pos_json ct v) = [pdim (has_z ct)].
Proof. unfold pos_json. destruct (has_z ct); reflexivity. Qed.

Lemma pos_lens_arr {A} (f : A -> json) l :
  (forall x, is_num (f x) = false) ->
  pos_lens (JArr (map f l)) = flat_map (fun x => pos_lens (f x)) l.
Proof.
  intros H. cbn [pos_lens].
  assert (E : existsb is_num (map f l) = false).
  { induction l as [|x l IH]; cbn [map existsb]; [reflexivity|]. rewrite H, IH. reflexivity. }
  rewrite E. apply flat_map_map.
Qed.

Lemma pos_lens_gobj t m v : pos_lens (gobj t m v) = pos_lens v.
Proof. unfold gobj. cbn [pos_lens flat_map snd app]. apply app_nil_r. Qed.

Section PosLens.
  Variable P : nat -> Prop.

  Lemma pos_P {A} (f : A -> json) l :
    (forall x, is_num (f x) = false) -> (forall x, In x l -> Forall P (pos_lens (f x))) ->
    Forall P (pos_lens (JArr (map f l))).
  Proof. intros Hn Hf. rewrite (pos_lens_arr f l Hn). apply Forall_flat_map, Forall_forall, Hf. Qed.

  Lemma point_P (p : pointT N) : P (pdim (has_z (point_ct p))) -> Forall P (pos_lens (point_coords p)).
  Proof.
    intros H. unfold point_coords. destruct (point_c p); [|constructor].
    rewrite pos_lens_pos. constructor; [exact H|constructor].
  Qed.

  Lemma seq_P (l : lineT N) : P (pdim (has_z (line_ct l))) -> Forall P (pos_lens (seq_json l)).
  Proof.
    intros H. apply pos_P; [reflexivity|]. intros v _.
    rewrite pos_lens_pos. constructor; [exact H|constructor].
  Qed.

  Lemma seqs_P (ls : list (lineT N)) :
    (forall l, In l ls -> P (pdim (has_z (line_ct l)))) -> Forall P (pos_lens (seqs_json ls)).
  Proof. intros H. apply pos_P; [reflexivity|]. intros l Hl. apply seq_P, H, Hl. Qed.

  Lemma mpoint_P (ps : list (pointT N)) :
    (forall p, In p ps -> P (pdim (has_z (point_ct p)))) -> Forall P (pos_lens (mpoint_coords ps)).
  Proof.
    intros H. rewrite mpoint_coords_full. apply pos_P.
    - intros p. unfold point_coords, pos_json. destruct (point_c p); reflexivity.
    - intros p Hp. apply filter_In in Hp. apply point_P, H, Hp.
  Qed.

  Lemma coll_P (gs : list geom) :
    (forall g, In g gs -> Forall P (pos_lens (to_json g))) -> Forall P (pos_lens (JArr (map to_json gs))).
  Proof. apply pos_P. intros g. destruct g; reflexivity. Qed.
End PosLens.

Lemma pdim_2_or_3 z : pdim z = 2%nat \/ pdim z = 3%nat.
Proof. destruct z; auto. Qed.

Lemma gj_positions_2_or_3_lemma (g : geom) :
  Forall (fun n => n = 2%nat \/ n = 3%nat) (pos_lens (to_json g)).
Proof.
  induction g as [p|l|p|c ps|c ls|c ps|c gs IH] using geomT_ind'; cbn [to_json]; rewrite pos_lens_gobj.
  - apply point_P, pdim_2_or_3.
  - apply seq_P, pdim_2_or_3.
  - apply seqs_P. intros; apply pdim_2_or_3.
  - apply mpoint_P. intros; apply pdim_2_or_3.
  - apply seqs_P. intros; apply pdim_2_or_3.
  - apply pos_P; [reflexivity|]. intros q _. apply seqs_P. intros; apply pdim_2_or_3.
  - apply coll_P. rewrite Forall_forall in IH. exact IH.
Qed.

Lemma pos_lens_same ct (g : geom) :
  geom_ok ok1 ct g = true -> Forall (eq (pdim (has_z ct))) (pos_lens (to_json g)).
Proof.
  assert (Hy : forall p, poly_ok ok1 ct p = true -> Forall (eq (pdim (has_z ct))) (pos_lens (poly_coords p))).
  { intros p H. apply seqs_P. intros l Hl. apply poly_ok_rings in H. rewrite forallb_forall in H.
    rewrite (line_ok_ct _ _ l (H l Hl)). reflexivity. }
  induction g as [p|l|p|c ps|c ls|c ps|c gs IH] using geomT_ind'; cbn [to_json geom_ok]; intros H;
    rewrite pos_lens_gobj; try (apply andb_prop in H; destruct H as [_ H]; rewrite forallb_forall in H).
  - apply point_P. rewrite (point_ok_ct _ _ p H). reflexivity.
  - apply seq_P. rewrite (line_ok_ct _ _ l H). reflexivity.
  - apply Hy, H.
  - apply mpoint_P. intros q Hq. rewrite (point_ok_ct _ _ q (H q Hq)). reflexivity.
  - apply seqs_P. intros q Hq. rewrite (line_ok_ct _ _ q (H q Hq)). reflexivity.
  - apply pos_P; [reflexivity|]. intros q Hq. apply Hy, H, Hq.
  - apply coll_P. rewrite Forall_forall in IH. intros q Hq. apply (IH q Hq), H, Hq.
Qed.

Lemma positions_ok_lemma (g : geom) : same_ct g = true -> positions_ok (to_json g) = true.
Proof.
  intros H. unfold positions_ok. apply andb_true_intro. split.
  - apply forallb_forall. intros n Hn.
    pose proof (gj_positions_2_or_3_lemma g) as A. rewrite Forall_forall in A.
    destruct (A n Hn) as [->| ->]; reflexivity.
  - pose proof (pos_lens_same (geom_ct g) g H) as A. unfold all_eq_nat.
    destruct (pos_lens (to_json g)) as [|x r]; [reflexivity|].
    inversion A as [|? ? Hx Hr]; subst. apply forallb_forall. intros n Hn.
    rewrite Forall_forall in Hr. rewrite <- (Hr n Hn). apply Nat.eqb_refl.
Qed.

(* ---- RFC 7946 3.1 member structure *)
Lemma is_pos_pos ct v : is_pos (pos_json ct v) = true.
Proof. unfold pos_json. destruct (has_z ct); reflexivity. Qed.
Lemma arr_of_map {A} (f : json -> bool) (h : A -> json) l :
  (forall x, In x l -> f (h x) = true) -> arr_of f (JArr (map h l)) = true.
Proof. apply forallb_map_in. Qed.
Lemma rfc_seq l : arr_of is_pos (seq_json l) = true.
Proof. apply arr_of_map. intros v _. apply is_pos_pos. Qed.
Lemma rfc_seqs ls : arr_of (arr_of is_pos) (seqs_json ls) = true.
Proof. apply arr_of_map. intros l _. apply rfc_seq. Qed.

Lemma rfc_coords t v :
  rfc_geometry (gobj t k_coordinates v) =
  match t with
  | TPoint => is_pos v || is_empty_arr v
  | TLine | TMPoint => arr_of is_pos v
  | TPoly | TMLine => arr_of (arr_of is_pos) v
  | TMPoly => arr_of (arr_of (arr_of is_pos)) v
  | TColl => false
  end.
Proof. destruct t; reflexivity. Qed.

Lemma rfc_geometry_lemma (g : geom) : rfc_geometry (to_json g) = true.
Proof.
  induction g as [p|l|p|c ps|c ls|c ps|c gs IH] using geomT_ind'; cbn [to_json]; try rewrite rfc_coords.
  - unfold point_coords. destruct (point_c p); [rewrite is_pos_pos|]; reflexivity.
  - apply rfc_seq.
  - apply rfc_seqs.
  - rewrite mpoint_coords_full. apply arr_of_map. intros q Hq. apply filter_In in Hq.
    unfold point_coords. destruct q as [c0 [v|]]; [apply is_pos_pos|destruct Hq; discriminate].
  - apply rfc_seqs.
  - apply arr_of_map. intros q _. apply rfc_seqs.
  - change (rfc_geometry (gobj TColl k_geometries (JArr (map to_json gs))))
      with (arr_of rfc_geometry (JArr (map to_json gs))).
    apply arr_of_map. rewrite Forall_forall in IH. exact IH.
Qed.

(* ================================================================== the reader *)
(* ---- stage 4, geojsonNodeToGeometry *)
Definition gjn_type (t : gjn) : gtype :=
  match t with
  | NPoint _ => TPoint | NLine _ => TLine | NPoly _ => TPoly
  | NMPoint _ => TMPoint | NMLine _ => TMLine | NMPoly _ => TMPoly | NColl _ => TColl
  end.

Section GjnInd.
  Variable P : gjn -> Prop.
  Hypothesis H1 : forall c, P (NPoint c).
  Hypothesis H2 : forall c, P (NLine c).
  Hypothesis H3 : forall c, P (NPoly c).
  Hypothesis H4 : forall c, P (NMPoint c).
  Hypothesis H5 : forall c, P (NMLine c).
  Hypothesis H6 : forall c, P (NMPoly c).
  Hypothesis H7 : forall l, Forall P l -> P (NColl l).
  Fixpoint gjn_ind' (t : gjn) : P t :=
    match t with
    | NPoint c => H1 c | NLine c => H2 c | NPoly c => H3 c
    | NMPoint c => H4 c | NMLine c => H5 c | NMPoly c => H6 c
    | NColl l => H7 l ((fix go (l : list gjn) : Forall P l :=
                          match l with
                          | [] => Forall_nil P
                          | x :: r => Forall_cons x (gjn_ind' x) (go r)
                          end) l)
    end.
End GjnInd.

Definition poly_rd (ct : ctype) (css : list (list (list N))) : outcome (polyT N) :=
  do rs <- mapM (line_of ct) css; Ok (force_poly 0 ct (new_polygon 0 rs)).

Lemma force_new_polygon ct rs :
  forallb (line_ok (N.eqb 0) ct) rs = true -> force_poly 0 ct (new_polygon 0 rs) = MkPoly ct rs.
Proof.
  intros H. destruct rs as [|r rs]; [reflexivity|]. rewrite (new_polygon_id ct) by (discriminate || exact H).
  apply (force_poly_id ct (MkPoly ct (r :: rs))). cbn [poly_ok]. rewrite ct_eqb_refl. exact H.
Qed.

(* to_geom without the constructors' recomputation of the coordinates type and without the
   special case for the empty list *)
Definition read (ct : ctype) (t : gjn) : outcome geom :=
  match t with
  | NPoint c => omap GPoint (point_of c ct)
  | NLine cs => omap GLine (line_of ct cs)
  | NPoly css => omap (fun rs => GPoly (MkPoly ct rs)) (mapM (line_of ct) css)
  | NMPoint cs => omap (GMPoint ct) (mapM (fun c => point_of c ct) cs)
  | NMLine css => omap (GMLine ct) (mapM (line_of ct) css)
  | NMPoly csss => omap (GMPoly ct) (mapM (poly_rd ct) csss)
  | NColl ts => omap (GColl ct) (mapM (to_geom ct) ts)
  end.

Section Reader.
  Variable ct : ctype.
  Hypothesis Hm : has_m ct = false.

  Lemma vtx_of_ok c v : vtx_of c ct = Ok v -> vtx_ok (N.eqb 0) ct v = true.
  Proof.
    unfold vtx_of. destruct (idx c 0); cbn [bind]; try discriminate.
    destruct (idx c 1); cbn [bind]; try discriminate. unfold vtx_ok. rewrite Hm.
    destruct (has_z ct).
    - destruct (idx c 2); cbn [bind]; try discriminate. intros H; inversion H. reflexivity.
    - cbn [bind]. intros H; inversion H. reflexivity.
  Qed.

  Lemma point_of_ok c p : point_of c ct = Ok p -> point_ok (N.eqb 0) ct p = true.
  Proof.
    unfold point_of. destruct c as [|x c'].
    - intros H; inversion H. unfold point_ok. rewrite ct_eqb_refl. reflexivity.
    - destruct (vtx_of (x :: c') ct) as [v| |] eqn:E; cbn [bind]; try discriminate.
      intros H; inversion H. unfold point_ok. rewrite ct_eqb_refl. apply (vtx_of_ok _ _ E).
  Qed.

  Lemma line_of_ok cs l : line_of ct cs = Ok l -> line_ok (N.eqb 0) ct l = true.
  Proof.
    unfold line_of. destruct (mapM _ cs) as [vs| |] eqn:E; cbn [bind]; try discriminate.
    intros H; inversion H. unfold line_ok. rewrite ct_eqb_refl. cbn [andb].
    apply CType_proofs.forallb_Forall'. apply (mapM_Forall _ _ cs (fun x y _ => vtx_of_ok x y) vs E).
  Qed.

  Lemma poly_rd_ok css p : poly_rd ct css = Ok p -> poly_ok (N.eqb 0) ct p = true.
  Proof.
    intros H. apply omap_ok in H. destruct H as [rs [_ ->]]. apply WKB_image.force_poly_ok.
  Qed.

  (* the reader returns members that are already at ct (okx), on which the constructor mk is the plain node K *)
  Lemma members_read {A X} (rd : A -> outcome X) (okx : X -> bool) (mk K : list X -> geom) (ty : gtype) l :
    (forall xs, xs <> [] -> forallb okx xs = true -> mk xs = K xs) ->
    (forall a x, In a l -> rd a = Ok x -> okx x = true) ->
    (forall xs, geom_ok (N.eqb 0) ct (K xs) = ct_eqb ct ct && forallb okx xs) ->
    (forall xs, geom_type (K xs) = ty) ->
    match l with [] => Ok (K []) | _ => do xs <- mapM rd l; Ok (mk xs) end = omap K (mapM rd l) /\
    forall g, omap K (mapM rd l) = Ok g -> geom_ok (N.eqb 0) ct g = true /\ geom_type g = ty.
  Proof.
    intros Hmk Hrd Hok Hty.
    assert (R : forall xs, mapM rd l = Ok xs -> forallb okx xs = true).
    { intros xs E. apply CType_proofs.forallb_Forall', (mapM_Forall _ rd l Hrd xs E). }
    split.
    - destruct l as [|a l]; [reflexivity|]. unfold omap.
      destruct (mapM rd (a :: l)) as [xs| |] eqn:E; cbn [bind]; try reflexivity.
      f_equal. apply Hmk; [|apply R; reflexivity]. intros ->.
      cbn [mapM] in E. destruct (rd a); [destruct (mapM rd l)|..]; discriminate.
    - intros g H. apply omap_ok in H. destruct H as [xs [E ->]].
      rewrite Hok, ct_eqb_refl, (R xs E). auto.
  Qed.

  Lemma to_geom_read (t : gjn) :
    to_geom ct t = read ct t /\
    forall g, read ct t = Ok g -> geom_ok (N.eqb 0) ct g = true /\ geom_type g = gjn_type t.
  Proof.
    induction t as [c|cs|css|cs|css|csss|ts IH] using gjn_ind'; cbn [to_geom read gjn_type].
    - split; [reflexivity|]. intros g H. apply omap_ok in H. destruct H as [p [E ->]].
      split; [apply (point_of_ok c p E)|reflexivity].
    - split; [reflexivity|]. intros g H. apply omap_ok in H. destruct H as [l [E ->]].
      split; [apply (line_of_ok cs l E)|reflexivity].
    - apply (members_read (line_of ct) (line_ok (N.eqb 0) ct) (fun rs => GPoly (new_polygon 0 rs))
                          (fun rs => GPoly (MkPoly ct rs))); try reflexivity.
      + intros rs Hne Hrs. rewrite (new_polygon_id ct rs Hne Hrs). reflexivity.
      + intros a x _. apply line_of_ok.
    - apply (members_read (fun c => point_of c ct) (point_ok (N.eqb 0) ct) (new_multipoint 0) (GMPoint ct));
        try reflexivity; [apply new_multipoint_id|]. intros a x _. apply point_of_ok.
    - apply (members_read (line_of ct) (line_ok (N.eqb 0) ct) (new_multiline 0) (GMLine ct));
        try reflexivity; [apply new_multiline_id|]. intros a x _. apply line_of_ok.
    - apply (members_read (poly_rd ct) (poly_ok (N.eqb 0) ct) (new_multipoly 0) (GMPoly ct));
        try reflexivity; [apply new_multipoly_id|]. intros a x _. apply poly_rd_ok.
    - rewrite (fix_mapM (to_geom ct)).
      apply (members_read (to_geom ct) (geom_ok (N.eqb 0) ct) (new_collection 0) (GColl ct));
        try reflexivity; [apply new_collection_id|]. intros a x Ha Hx.
      rewrite Forall_forall in IH. destruct (IH a Ha) as [E R]. rewrite E in Hx. apply (R x Hx).
  Qed.

  Lemma to_geom_ok t g :
    to_geom ct t = Ok g -> geom_ok (N.eqb 0) ct g = true /\ geom_type g = gjn_type t.
  Proof. destruct (to_geom_read t) as [-> R]. apply R. Qed.
End Reader.

(* ---- the construction has no error branch.
   poss: the positions of a document in the order the length pass visits them; the flag marks
   the coordinates of a Point, which may be empty *)
Fixpoint poss (t : gjn) : list (bool * list N) :=
  match t with
  | NPoint c => [(true, c)]
  | NLine cs | NMPoint cs => map (pair false) cs
  | NPoly css | NMLine css => map (pair false) (concat css)
  | NMPoly csss => map (pair false) (concat (concat csss))
  | NColl ts => flat_map poss ts
  end.
Definition plen (p : bool * list N) : nat := List.length (snd p).
Definition fitp (d : nat) (p : bool * list N) : Prop :=
  if fst p then snd p = [] \/ (d <= plen p)%nat else (d <= plen p)%nat.

Section Total.
  Variable ct : ctype.
  Hypothesis Hm : has_m ct = false.
  Let d := pdim (has_z ct).

  Lemma vtx_of_total c : (d <= List.length c)%nat -> exists v, vtx_of c ct = Ok v.
  Proof.
    unfold d, pdim, vtx_of, idx. destruct c as [|x [|y [|z c']]]; cbn [List.length nth_error bind];
      destruct (has_z ct); intros H; try lia; eexists; reflexivity.
  Qed.

  Lemma point_of_total c : c = [] \/ (d <= List.length c)%nat -> exists p, point_of c ct = Ok p.
  Proof.
    intros H. unfold point_of. destruct c as [|x c']; [eexists; reflexivity|].
    destruct H as [H|H]; [discriminate|]. destruct (vtx_of_total (x :: c') H) as [v ->]. eexists; reflexivity.
  Qed.

  Lemma line_of_total cs : Forall (fun c => (d <= List.length c)%nat) cs -> exists l, line_of ct cs = Ok l.
  Proof.
    intros H. apply omap_total, mapM_total. eapply Forall_impl; [|exact H]. intros c. apply vtx_of_total.
  Qed.

  Lemma lines_of_total css :
    Forall (Forall (fun c => (d <= List.length c)%nat)) css -> exists ls, mapM (line_of ct) css = Ok ls.
  Proof. intros H. apply mapM_total. eapply Forall_impl; [|exact H]. intros cs. apply line_of_total. Qed.

  Lemma to_geom_total (t : gjn) : Forall (fitp d) (poss t) -> exists g, to_geom ct t = Ok g.
  Proof.
    induction t as [c|cs|css|cs|css|csss|ts IH] using gjn_ind'; intros H;
      rewrite (proj1 (to_geom_read ct Hm _)); cbn [poss read] in *; apply omap_total.
    - apply point_of_total, (Forall_inv H).
    - rewrite Forall_map in H. apply line_of_total, H.
    - rewrite Forall_map, Forall_concat in H. apply lines_of_total, H.
    - rewrite Forall_map in H. apply mapM_total. eapply Forall_impl; [|exact H].
      intros c Hc. apply point_of_total. right. exact Hc.
    - rewrite Forall_map, Forall_concat in H. apply lines_of_total, H.
    - rewrite Forall_map, !Forall_concat in H. apply mapM_total. eapply Forall_impl; [|exact H].
      intros css Hc. apply omap_total, lines_of_total, Hc.
    - rewrite Forall_flat_map in H. apply mapM_total. rewrite Forall_forall in *.
      intros x Hx. apply (IH x Hx), H, Hx.
  Qed.
End Total.

(* ---- stage 3: the length pass *)
Definition note (p : bool * list N) : list nat -> outcome (list nat) :=
  note_len (if fst p then len_point else len_pos) (snd p).
Definition okp (p : bool * list N) : bool := (if fst p then len_point else len_pos) (plen p).

Lemma foldM_app {A S} (f : A -> S -> outcome S) a b s :
  foldM f (a ++ b) s = do s' <- foldM f a s; foldM f b s'.
Proof.
  revert s. induction a as [|x a IH]; intros s; cbn [app foldM]; [reflexivity|].
  destruct (f x s); cbn [bind]; auto.
Qed.

Lemma foldM_flat_map {A B S} (f : A -> S -> outcome S) (g : B -> S -> outcome S) (h : A -> list B) l :
  (forall x, In x l -> forall s, f x s = foldM g (h x) s) ->
  forall s, foldM f l s = foldM g (flat_map h l) s.
Proof.
  induction l as [|x l IH]; intros H s; cbn [foldM flat_map]; [reflexivity|].
  rewrite foldM_app, (H x (or_introl eq_refl)). destruct (foldM g (h x) s); cbn [bind]; try reflexivity.
  apply IH. intros y Hy. apply H. right. exact Hy.
Qed.

Lemma foldM_concat {A S} (f : A -> S -> outcome S) ls s : foldM (foldM f) ls s = foldM f (concat ls) s.
Proof.
  rewrite <- (map_id ls) at 2. rewrite <- flat_map_concat_map. apply foldM_flat_map. reflexivity.
Qed.

Lemma foldM_map {A B S} (f : B -> S -> outcome S) (h : A -> B) l s :
  foldM f (map h l) s = foldM (fun x => f (h x)) l s.
Proof.
  revert s. induction l as [|x l IH]; intros s; cbn [map foldM]; [reflexivity|].
  destruct (f (h x) s); cbn [bind]; auto.
Qed.

Lemma go_foldM_detect ts acc :
  (fix go (ts : list gjn) (acc : list nat) : outcome (list nat) :=
     match ts with
     | [] => Ok acc
     | x :: r => do a <- detect x acc; go r a
     end) ts acc = foldM detect ts acc.
Proof. revert acc. induction ts as [|x l IH]; intros acc; cbn [foldM]; [reflexivity|]. destruct (detect x acc); cbn [bind]; auto. Qed.

Lemma detect_poss (t : gjn) : forall acc, detect t acc = foldM note (poss t) acc.
Proof.
  induction t as [c|cs|css|cs|css|csss|ts IH] using gjn_ind'; intros acc; cbn [detect poss].
  - cbn [foldM]. unfold note. cbn [fst snd]. destruct (note_len len_point c acc); reflexivity.
  - symmetry. apply (foldM_map note).
  - rewrite foldM_concat. symmetry. apply (foldM_map note).
  - symmetry. apply (foldM_map note).
  - rewrite foldM_concat. symmetry. apply (foldM_map note).
  - rewrite !foldM_concat. symmetry. apply (foldM_map note).
  - rewrite go_foldM_detect. apply foldM_flat_map. rewrite Forall_forall in IH. exact IH.
Qed.

Lemma detect_closed t acc :
  detect t acc = if forallb okp (poss t) then Ok (rev_append (map plen (poss t)) acc) else Err ESyntax.
Proof.
  rewrite detect_poss. revert acc. induction (poss t) as [|p l IH]; intros acc; [reflexivity|].
  cbn [foldM forallb map rev_append]. unfold note at 1, note_len, okp at 1, plen at 1 2.
  destruct ((if fst p then len_point else len_pos) (List.length (snd p))); cbn [bind andb]; [apply IH|reflexivity].
Qed.

Definition has2 (l : list nat) : bool := existsb (Nat.eqb 2) l.
Definition has3 (l : list nat) : bool := existsb (Nat.leb 3) l.

Lemma existsb_rev_append {A} (f : A -> bool) l : forall acc,
  existsb f (rev_append l acc) = existsb f l || existsb f acc.
Proof.
  induction l as [|x l IH]; intros acc; cbn [rev_append existsb]; [reflexivity|].
  rewrite IH. cbn [existsb]. destruct (f x), (existsb f l); reflexivity.
Qed.

Lemma decide_ct_no_m lens : has_m (decide_ct lens) = false.
Proof. unfold decide_ct. destruct (_ && _); reflexivity. Qed.

Lemma decide_ct_fits L n :
  (2 <= n)%nat -> (n = 2%nat -> has2 L = true) -> (pdim (has_z (decide_ct L)) <= n)%nat.
Proof.
  intros N1 N2. unfold decide_ct. fold (has2 L). destruct (has2 L) eqn:H2; cbn [negb andb].
  - cbn [has_z pdim]. lia.
  - destruct (existsb (Nat.leb 3) L); cbn [has_z pdim]; [|lia].
    assert (n <> 2%nat) by (intros ->; specialize (N2 eq_refl); discriminate). lia.
Qed.

(* the index expressions fs[0], fs[1], fs[2], c[j] of geojsonNodeToGeometry are guarded by the
   length pass: detect rejects short positions, and XYZ is only chosen when no position has
   length 2 *)
Lemma detect_fits t L : detect t [] = Ok L -> Forall (fitp (pdim (has_z (decide_ct L)))) (poss t).
Proof.
  rewrite detect_closed. destruct (forallb okp (poss t)) eqn:E; [|discriminate].
  intros H. injection H as HL. rewrite forallb_forall in E. apply Forall_forall. intros p Hp.
  assert (H2 : plen p = 2%nat -> has2 L = true).
  { intros E2. rewrite <- HL. unfold has2. rewrite existsb_rev_append. apply orb_true_intro. left.
    apply existsb_exists. exists 2%nat. split; [rewrite <- E2; apply in_map, Hp|reflexivity]. }
  specialize (E p Hp). unfold okp in E. unfold fitp. destruct (fst p).
  - destruct p as [b [|x c]]; [left; reflexivity|right]. apply decide_ct_fits; [|exact H2].
    unfold plen in *. cbn [snd List.length] in *. destruct c; [discriminate|cbn [List.length]; lia].
  - apply decide_ct_fits; [apply Nat.leb_le, E|exact H2].
Qed.

(* after a successful length pass the construction always succeeds *)
Lemma unmarshal_gjn_total_lemma (t : gjn) (L : list nat) :
  detect t [] = Ok L -> exists g, unmarshal_gjn t = Ok g.
Proof.
  intros E. unfold unmarshal_gjn. rewrite E. cbn [bind].
  apply to_geom_total; [apply decide_ct_no_m|apply detect_fits, E].
Qed.

(* ================================================================== extra ordinates are ignored *)
Definition cut3 (c : list N) : list N := firstn 3 c.
Definition trunc3 : gjn -> gjn :=
  fix go (t : gjn) : gjn :=
    match t with
    | NPoint c => NPoint (cut3 c)
    | NLine cs => NLine (map cut3 cs)
    | NPoly css => NPoly (map (map cut3) css)
    | NMPoint cs => NMPoint (map cut3 cs)
    | NMLine css => NMLine (map (map cut3) css)
    | NMPoly csss => NMPoly (map (map (map cut3)) csss)
    | NColl ts => NColl (map go ts)
    end.

Definition cutp (p : bool * list N) : bool * list N := (fst p, cut3 (snd p)).

Lemma poss_trunc (t : gjn) : poss (trunc3 t) = map cutp (poss t).
Proof.
  induction t as [c|c|c|c|c|c|l IH] using gjn_ind'; cbn [trunc3 poss]; rewrite <- ?concat_map, ?map_map;
    try reflexivity.
  fold trunc3. rewrite flat_map_map, !flat_map_concat_map, concat_map, map_map. f_equal.
  apply map_ext_in. rewrite Forall_forall in IH. exact IH.
Qed.

Lemma plen_cutp p : plen (cutp p) = Nat.min 3 (plen p).
Proof. apply firstn_length. Qed.

(* the length pass sees min 3 n for n, which changes neither a test nor a flag *)
Lemma detect_trunc t :
  omap decide_ct (detect (trunc3 t) []) = omap decide_ct (detect t []).
Proof.
  assert (Hmin : forall n, len_point (Nat.min 3 n) = len_point n /\ len_pos (Nat.min 3 n) = len_pos n /\
                           Nat.eqb 2 (Nat.min 3 n) = Nat.eqb 2 n /\ Nat.leb 3 (Nat.min 3 n) = Nat.leb 3 n).
  { intros [|[|[|[|n]]]]; repeat split; reflexivity. }
  assert (Hex : forall f, (forall n, f (Nat.min 3 n) = f n) -> forall l,
             existsb f (rev_append (map plen (map cutp l)) []) = existsb f (rev_append (map plen l) [])).
  { intros f Hf l. rewrite !existsb_rev_append, map_map. f_equal.
    induction l as [|p l IH]; cbn [map existsb]; [reflexivity|]. rewrite plen_cutp, Hf, IH. reflexivity. }
  rewrite !detect_closed, poss_trunc.
  replace (forallb okp (map cutp (poss t))) with (forallb okp (poss t)).
  - destruct (forallb okp (poss t)); [|reflexivity]. cbn [omap bind]. unfold decide_ct.
    rewrite !Hex by apply Hmin. reflexivity.
  - induction (poss t) as [|p l IH]; cbn [map forallb]; [reflexivity|]. rewrite <- IH. f_equal.
    unfold okp. rewrite plen_cutp. cbn [cutp fst]. destruct (fst p); symmetry; apply Hmin.
Qed.

Lemma vtx_of_cut3 c ct : vtx_of (cut3 c) ct = vtx_of c ct.
Proof. destruct c as [|x [|y [|z c']]]; reflexivity. Qed.
Lemma point_of_cut3 c ct : point_of (cut3 c) ct = point_of c ct.
Proof. destruct c as [|x [|y [|z c']]]; reflexivity. Qed.
Lemma line_of_cut3 ct cs : line_of ct (map cut3 cs) = line_of ct cs.
Proof. unfold line_of. rewrite mapM_map_ext; [reflexivity|]. intros c _. apply vtx_of_cut3. Qed.
Lemma lines_of_cut3 ct css : mapM (line_of ct) (map (map cut3) css) = mapM (line_of ct) css.
Proof. apply mapM_map_ext. intros cs _. apply line_of_cut3. Qed.

Lemma to_geom_trunc ct (t : gjn) : has_m ct = false -> to_geom ct (trunc3 t) = to_geom ct t.
Proof.
  intros Hm. induction t as [c|c|c|c|c|c|l IH] using gjn_ind';
    rewrite !(proj1 (to_geom_read ct Hm _)); cbn [trunc3 read]; f_equal.
  - apply point_of_cut3.
  - apply line_of_cut3.
  - apply lines_of_cut3.
  - apply mapM_map_ext. intros c0 _. apply point_of_cut3.
  - apply lines_of_cut3.
  - apply mapM_map_ext. intros c0 _. unfold poly_rd. rewrite lines_of_cut3. reflexivity.
  - apply mapM_map_ext. rewrite Forall_forall in IH. exact IH.
Qed.

Lemma gj_extra_ignored_lemma (t : gjn) : unmarshal_gjn (trunc3 t) = unmarshal_gjn t.
Proof.
  unfold unmarshal_gjn. pose proof (detect_trunc t) as H.
  destruct (detect (trunc3 t) []), (detect t []); cbn [omap bind] in *; try congruence.
  injection H as ->. apply to_geom_trunc, decide_ct_no_m.
Qed.

(* ================================================================== round trip *)
(* ---- stage 1: encoding/json reads back the two members *)
Lemma decode_node_coords t v :
  decode_node (gobj t k_coordinates v) = Ok (MkNode (type_name t) (Some v) []).
Proof. reflexivity. Qed.

Lemma decode_node_geoms l ns :
  mapM decode_node l = Ok ns ->
  decode_node (gobj TColl k_geometries (JArr l)) = Ok (MkNode (type_name TColl) None ns).
Proof.
  intros H. unfold gobj. cbn [decode_node]. cbn [str_eqb k_type k_geometries k_coordinates N.eqb Pos.eqb andb].
  rewrite (fix_mapM decode_node), H. reflexivity.
Qed.

Definition posN (ct : ctype) (v : vtx N) : list N :=
  vx v :: vy v :: (if has_z ct then [vz v] else []).
Definition pointN (p : pointT N) : list N :=
  match point_c p with Some v => posN (point_ct p) v | None => [] end.
Definition lineN (l : lineT N) : list (list N) := map (posN (line_ct l)) (line_vs l).
Definition polyN (p : polyT N) : list (list (list N)) := map lineN (poly_rings p).

Fixpoint gjn_of (g : geom) : gjn :=
  match g with
  | GPoint p => NPoint (pointN p)
  | GLine l => NLine (lineN l)
  | GPoly p => NPoly (polyN p)
  | GMPoint _ ps => NMPoint (map pointN (filter point_full ps))
  | GMLine _ ls => NMLine (map lineN ls)
  | GMPoly _ ps => NMPoly (map polyN ps)
  | GColl _ gs => NColl (map gjn_of gs)
  end.

Definition coords_of (g : geom) : option json :=
  match g with
  | GPoint p => Some (point_coords p)
  | GLine l => Some (seq_json l)
  | GPoly p => Some (poly_coords p)
  | GMPoint _ ps => Some (mpoint_coords ps)
  | GMLine _ ls => Some (seqs_json ls)
  | GMPoly _ ps => Some (JArr (map poly_coords ps))
  | GColl _ _ => None
  end.

Fixpoint node_of (g : geom) : node :=
  MkNode (type_name (geom_type g)) (coords_of g)
         (match g with GColl _ gs => map node_of gs | _ => [] end).

Lemma decode_node_to_json (g : geom) : decode_node (to_json g) = Ok (node_of g).
Proof.
  induction g as [p|l|p|c ps|c ls|c ps|c gs IH] using geomT_ind'; cbn [to_json node_of];
    try apply decode_node_coords.
  apply decode_node_geoms. rewrite Forall_forall in IH.
  apply (mapM_map_ok decode_node to_json node_of). exact IH.
Qed.

(* ---- stage 2: the coordinates arrays at the depth of each type *)
Lemma dim1_pos ct v : dim1 (pos_json ct v) = Ok (posN ct v).
Proof. unfold pos_json, posN. destruct (has_z ct); reflexivity. Qed.

Lemma dim1_point p : dim1 (point_coords p) = Ok (pointN p).
Proof. unfold point_coords, pointN. destruct (point_c p); [apply dim1_pos|reflexivity]. Qed.

Lemma arr_map {A B} (rd : json -> outcome B) (f : A -> json) (h : A -> B) l :
  (forall x, In x l -> rd (f x) = Ok (h x)) -> arr rd (JArr (map f l)) = Ok (map h l).
Proof. apply mapM_map_ok. Qed.

Lemma dim2_seq l : dim2 (seq_json l) = Ok (lineN l).
Proof. apply arr_map. intros v _. apply dim1_pos. Qed.

Lemma dim3_seqs ls : dim3 (seqs_json ls) = Ok (map lineN ls).
Proof. apply arr_map. intros l _. apply dim2_seq. Qed.

Lemma decode_geojson_node_of (g : geom) : decode_geojson (node_of g) = Ok (gjn_of g).
Proof.
  induction g as [p|l|p|c ps|c ls|c ps|c gs IH] using geomT_ind';
    cbn [node_of decode_geojson]; rewrite type_of_name_name; cbn [geom_type coords_of raw gjn_of].
  - rewrite dim1_point. reflexivity.
  - rewrite dim2_seq. reflexivity.
  - unfold poly_coords. rewrite dim3_seqs. reflexivity.
  - rewrite mpoint_coords_full. unfold dim2. rewrite (arr_map dim1 point_coords pointN); [reflexivity|].
    intros q _. apply dim1_point.
  - rewrite dim3_seqs. reflexivity.
  - unfold dim4. rewrite (arr_map dim3 poly_coords polyN); [reflexivity|].
    intros p _. apply dim3_seqs.
  - rewrite (fix_mapM decode_geojson). rewrite Forall_forall in IH.
    rewrite (mapM_map_ok decode_geojson node_of gjn_of _ IH). reflexivity.
Qed.

(* ---- stage 3: the dimension decision *)
Definition nonnil {A} (l : list A) : bool := match l with [] => false | _ => true end.
Lemma existsb_true {A} (l : list A) : existsb (fun _ => true) l = nonnil l.
Proof. destruct l; reflexivity. Qed.
Lemma nonnil_app {A} (a b : list A) : nonnil (a ++ b) = nonnil a || nonnil b.
Proof. destruct a; reflexivity. Qed.
Lemma nonnil_flat_map {A B} (f : A -> list B) l :
  nonnil (flat_map f l) = existsb (fun x => nonnil (f x)) l.
Proof. induction l as [|x l IH]; cbn [flat_map existsb]; [reflexivity|]. rewrite nonnil_app, IH. reflexivity. Qed.
Lemma point_full_vs (p : pointT N) : nonnil (point_vs p) = point_full p.
Proof. destruct p as [c [v|]]; reflexivity. Qed.

(* what a part of the document with coordinates type z adds to the two flags of the length pass:
   c says whether it holds a position at all *)
Definition adds_to (z c : bool) (acc L : list nat) : Prop :=
  has2 L = has2 acc || (negb z && c) /\ has3 L = has3 acc || (z && c).

Lemma adds_nothing z acc : adds_to z false acc acc.
Proof. unfold adds_to. rewrite !andb_false_r, !orb_false_r. auto. Qed.

Lemma foldM_adds {A B} z (h : A -> B) (f : B -> list nat -> outcome (list nat)) (cnt : A -> bool) (l : list A) :
  (forall x, In x l -> forall acc, exists L, f (h x) acc = Ok L /\ adds_to z (cnt x) acc L) ->
  forall acc, exists L, foldM f (map h l) acc = Ok L /\ adds_to z (existsb cnt l) acc L.
Proof.
  induction l as [|a l IH]; intros H acc.
  - exists acc. split; [reflexivity|apply adds_nothing].
  - destruct (H a (or_introl eq_refl) acc) as [L1 [E1 [A1 B1]]].
    destruct (IH (fun x Hx => H x (or_intror Hx)) L1) as [L [E [A2 B2]]].
    exists L. cbn [map foldM]. rewrite E1. cbn [bind]. split; [exact E|].
    unfold adds_to. rewrite A2, B2, A1, B1. cbn [existsb].
    rewrite !andb_orb_distrib_r, !orb_assoc. auto.
Qed.

Lemma posN_length ct v : List.length (posN ct v) = pdim (has_z ct).
Proof. unfold posN. destruct (has_z ct); reflexivity. Qed.

Lemma note_pos_adds ok ct v acc :
  ok 2%nat = true -> ok 3%nat = true ->
  exists L, note_len ok (posN ct v) acc = Ok L /\ adds_to (has_z ct) true acc L.
Proof.
  intros O2 O3. unfold note_len. rewrite posN_length. unfold adds_to, has2, has3.
  destruct (has_z ct); cbn [pdim]; rewrite ?O2, ?O3; eexists; (split; [reflexivity|]);
    cbn [existsb Nat.eqb Nat.leb negb andb orb]; rewrite ?orb_true_r, ?orb_false_r; auto.
Qed.

Lemma point_adds ct (p : pointT N) acc :
  point_ok ok1 ct p = true ->
  exists L, note_len len_point (pointN p) acc = Ok L /\ adds_to (has_z ct) (nonnil (point_vs p)) acc L.
Proof.
  intros H. unfold pointN. rewrite (point_ok_ct _ _ p H). destruct p as [c [v|]]; cbn [point_c].
  - apply note_pos_adds; reflexivity.
  - exists (0%nat :: acc). split; [reflexivity|]. pose proof (adds_nothing (has_z ct) acc) as A.
    unfold adds_to, has2, has3 in *. cbn [existsb Nat.eqb Nat.leb orb]. exact A.
Qed.

Lemma line_adds ct (l : lineT N) acc :
  line_ok ok1 ct l = true ->
  exists L, foldM (note_len len_pos) (lineN l) acc = Ok L /\ adds_to (has_z ct) (nonnil (line_vs l)) acc L.
Proof.
  intros H. unfold lineN. rewrite (line_ok_ct _ _ l H), <- existsb_true. apply foldM_adds.
  intros v _ a. apply note_pos_adds; reflexivity.
Qed.

Lemma lines_adds ct (ls : list (lineT N)) acc :
  forallb (line_ok ok1 ct) ls = true ->
  exists L, foldM (foldM (note_len len_pos)) (map lineN ls) acc = Ok L /\
            adds_to (has_z ct) (nonnil (flat_map line_vs ls)) acc L.
Proof.
  intros H. rewrite nonnil_flat_map. apply foldM_adds. intros l Hl a. apply line_adds.
  rewrite forallb_forall in H. apply H, Hl.
Qed.

Lemma detect_adds ct (g : geom) : forall acc,
  geom_ok ok1 ct g = true ->
  exists L, detect (gjn_of g) acc = Ok L /\ adds_to (has_z ct) (nonnil (geom_vs g)) acc L.
Proof.
  induction g as [p|l|p|c ps|c ls|c ps|c gs IH] using geomT_ind'; intros acc H;
    cbn [geom_ok] in H; cbn [gjn_of detect geom_vs];
    try (apply andb_prop in H; destruct H as [_ H]).
  - apply point_adds, H.
  - apply line_adds, H.
  - apply lines_adds, poly_ok_rings, H.
  - rewrite nonnil_flat_map, (existsb_ext_in _ point_full), <- existsb_filter by (intros; apply point_full_vs).
    apply foldM_adds. intros q Hq a. apply filter_In in Hq. destruct Hq as [Hq F].
    rewrite F. rewrite forallb_forall in H. unfold pointN. rewrite (point_ok_ct _ _ q (H q Hq)).
    destruct q as [c0 [v|]]; [|discriminate F]. apply note_pos_adds; reflexivity.
  - apply lines_adds, H.
  - rewrite nonnil_flat_map. apply foldM_adds. intros p Hp a. apply lines_adds, poly_ok_rings.
    rewrite forallb_forall in H. apply H, Hp.
  - rewrite nonnil_flat_map, go_foldM_detect. apply foldM_adds.
    intros x Hx a. rewrite Forall_forall in IH. apply IH; [exact Hx|].
    rewrite forallb_forall in H. apply H. exact Hx.
Qed.

Lemma decide_after_detect (g : geom) :
  same_ct g = true ->
  exists L, detect (gjn_of g) [] = Ok L /\ decide_ct L = gj_ct g.
Proof.
  intros H. destruct (detect_adds (geom_ct g) g [] H) as [L [E [A B]]].
  exists L. split; [exact E|]. unfold decide_ct. fold (has2 L). fold (has3 L). rewrite A, B.
  unfold gj_ct, has2, has3. cbn [existsb orb].
  destruct (has_z (geom_ct g)), (geom_vs g); reflexivity.
Qed.

(* ---- stage 4: construction *)
Section Build.
  Variables ct new : ctype.
  Hypothesis Hm : has_m new = false.
  Hypothesis Hz : has_z new = true -> has_z ct = true.

  Lemma vtx_of_posN v : vtx_of (posN ct v) new = Ok (force_vtx 0 ct new v).
  Proof.
    unfold vtx_of, posN, force_vtx, idx. cbn [nth_error bind]. rewrite Hm.
    destruct (has_z new) eqn:En; [rewrite (Hz eq_refl)|]; reflexivity.
  Qed.

  Lemma point_of_pointN (p : pointT N) :
    point_ok ok1 ct p = true -> point_of (pointN p) new = Ok (force_point 0 new p).
  Proof.
    intros H. apply point_ok_ct in H. destruct p as [c [v|]]; cbn [point_ct] in H; subst c; [|reflexivity].
    unfold pointN, point_of. cbn [point_c point_ct].
    change (posN ct v) with (vx v :: vy v :: (if has_z ct then [vz v] else [])) at 1.
    cbv iota. rewrite vtx_of_posN. reflexivity.
  Qed.

  Lemma line_of_lineN (l : lineT N) :
    line_ok ok1 ct l = true -> line_of new (lineN l) = Ok (force_line 0 new l).
  Proof.
    intros H. apply line_ok_ct in H. destruct l as [c vs]. cbn [line_ct] in H. subst c.
    unfold line_of, lineN. cbn [line_ct line_vs force_line].
    rewrite (mapM_map_ok (fun c => vtx_of c new) (posN ct) (force_vtx 0 ct new)); [reflexivity|].
    intros v _. apply vtx_of_posN.
  Qed.

  Lemma lines_of_lineN (ls : list (lineT N)) :
    forallb (line_ok ok1 ct) ls = true ->
    mapM (line_of new) (map lineN ls) = Ok (map (force_line 0 new) ls).
  Proof.
    intros H. apply mapM_map_ok. intros l Hl. apply line_of_lineN.
    rewrite forallb_forall in H. apply H. exact Hl.
  Qed.

  Lemma poly_of_polyN (p : polyT N) :
    poly_ok ok1 ct p = true -> poly_rd new (polyN p) = Ok (force_poly 0 new p).
  Proof.
    intros H. unfold poly_rd, polyN. rewrite (lines_of_lineN _ (poly_ok_rings _ _ p H)). cbn [bind].
    rewrite force_new_polygon by apply CType_proofs.forallb_map_all, WKB_image.force_line_ok.
    destruct p; reflexivity.
  Qed.

  Lemma to_geom_gjn_of (g : geom) :
    geom_ok ok1 ct g = true -> to_geom new (gjn_of g) = Ok (lossy_at new g).
  Proof.
    induction g as [p|l|p|c ps|c ls|c ps|c gs IH] using geomT_ind'; intros H;
      rewrite (proj1 (to_geom_read new Hm _)); cbn [geom_ok] in H; cbn [gjn_of read lossy_at];
      try (apply andb_prop in H; destruct H as [_ H]).
    - rewrite (point_of_pointN p H). reflexivity.
    - rewrite (line_of_lineN l H). reflexivity.
    - unfold polyN. rewrite (lines_of_lineN _ (poly_ok_rings _ _ p H)). destruct p; reflexivity.
    - rewrite (mapM_map_ok _ pointN (force_point 0 new)); [reflexivity|]. intros q Hq.
      apply filter_In in Hq. rewrite forallb_forall in H. apply point_of_pointN, H, Hq.
    - rewrite (lines_of_lineN _ H). reflexivity.
    - rewrite (mapM_map_ok _ polyN (force_poly 0 new)); [reflexivity|]. intros q Hq.
      rewrite forallb_forall in H. apply poly_of_polyN, H, Hq.
    - rewrite (mapM_map_ok _ gjn_of (lossy_at new)); [reflexivity|]. intros q Hq.
      rewrite Forall_forall in IH. rewrite forallb_forall in H. apply (IH q Hq), H, Hq.
  Qed.
End Build.

Lemma gj_roundtrip_lemma (g : geom) :
  same_ct g = true -> gj_unmarshal (to_json g) = Ok (gj_lossy g).
Proof.
  intros H. unfold gj_unmarshal. rewrite decode_node_to_json. cbn [bind].
  rewrite decode_geojson_node_of. cbn [bind]. unfold unmarshal_gjn.
  destruct (decide_after_detect g H) as [L [E D]]. rewrite E. cbn [bind]. rewrite D.
  unfold gj_lossy. apply (to_geom_gjn_of (geom_ct g)); [| |exact H].
  - unfold gj_ct. destruct (_ && _); reflexivity.
  - unfold gj_ct. destruct (has_z (geom_ct g)); cbn [andb]; [reflexivity|]. discriminate.
Qed.

(* ================================================================== the loss function *)
Lemma lossy_at_ok new (g : geom) : geom_ok (N.eqb 0) new (lossy_at new g) = true.
Proof.
  induction g as [p|l|p|c ps|c ls|c ps|c gs IH] using geomT_ind'; cbn [lossy_at geom_ok];
    rewrite ?ct_eqb_refl; cbn [andb].
  - apply WKB_image.force_point_ok.
  - apply WKB_image.force_line_ok.
  - apply WKB_image.force_poly_ok.
  - apply CType_proofs.forallb_map_all, WKB_image.force_point_ok.
  - apply CType_proofs.forallb_map_all, WKB_image.force_line_ok.
  - apply CType_proofs.forallb_map_all, WKB_image.force_poly_ok.
  - apply forallb_map_in. rewrite Forall_forall in IH. exact IH.
Qed.

Lemma point_full_force c (p : pointT N) : point_full (force_point 0 c p) = point_full p.
Proof. destruct p as [c0 [v|]]; reflexivity. Qed.

Lemma vs_lossy c (g : geom) : nonnil (geom_vs (lossy_at c g)) = nonnil (geom_vs g).
Proof.
  assert (Hl : forall l : lineT N, nonnil (line_vs (force_line 0 c l)) = nonnil (line_vs l)).
  { intros [c0 [|v vs]]; reflexivity. }
  assert (Hy : forall p : polyT N, nonnil (poly_vs (force_poly 0 c p)) = nonnil (poly_vs p)).
  { intros [c0 rs]. unfold poly_vs. cbn [force_poly poly_rings]. rewrite !nonnil_flat_map.
    apply existsb_map_eq. intros l _. apply Hl. }
  induction g as [p|l|p|c0 ps|c0 ls|c0 ps|c0 gs IH] using geomT_ind'; cbn [lossy_at geom_vs];
    rewrite ?nonnil_flat_map; auto.
  - rewrite !point_full_vs. apply point_full_force.
  - rewrite !(existsb_ext_in (fun p => nonnil (point_vs p)) point_full) by (intros; apply point_full_vs).
    rewrite (existsb_map_eq point_full point_full) by (intros; apply point_full_force).
    apply existsb_filter.
  - apply existsb_map_eq. intros l _. apply Hl.
  - apply existsb_map_eq. intros p _. apply Hy.
  - apply existsb_map_eq. rewrite Forall_forall in IH. exact IH.
Qed.

Lemma geom_ct_lossy c (g : geom) : geom_ct (lossy_at c g) = c.
Proof. destruct g as [[? [?|]]|[? ?]|[? ?]| | | | ]; reflexivity. Qed.

Lemma lossy_at_idem c (g : geom) : lossy_at c (lossy_at c g) = lossy_at c g.
Proof.
  induction g as [p|l|p|c0 ps|c0 ls|c0 ps|c0 gs IH] using geomT_ind'; cbn [lossy_at]; f_equal.
  - apply (force_point_id c), WKB_image.force_point_ok.
  - apply (force_line_id c), WKB_image.force_line_ok.
  - apply (force_poly_id c), WKB_image.force_poly_ok.
  - induction ps as [|q ps IHp]; [reflexivity|]. cbn [filter].
    destruct (point_full q) eqn:E; [|exact IHp]. cbn [map filter]. rewrite point_full_force, E.
    cbn [map]. f_equal; [|exact IHp]. apply (force_point_id c), WKB_image.force_point_ok.
  - rewrite map_map. apply map_ext. intros l. apply (force_line_id c), WKB_image.force_line_ok.
  - rewrite map_map. apply map_ext. intros l. apply (force_poly_id c), WKB_image.force_poly_ok.
  - rewrite map_map. apply map_ext_in. rewrite Forall_forall in IH. exact IH.
Qed.

Lemma gj_ct_alt (g : geom) : gj_ct g = if has_z (geom_ct g) && nonnil (geom_vs g) then XYZ else XY.
Proof. unfold gj_ct. destruct (geom_vs g); reflexivity. Qed.

Lemma gj_ct_lossy (g : geom) : gj_ct (gj_lossy g) = gj_ct g.
Proof.
  rewrite (gj_ct_alt (gj_lossy g)). unfold gj_lossy. rewrite geom_ct_lossy, vs_lossy.
  rewrite gj_ct_alt. destruct (has_z (geom_ct g)), (nonnil (geom_vs g)); reflexivity.
Qed.

Lemma gj_lossy_idem_lemma (g : geom) : gj_lossy (gj_lossy g) = gj_lossy g.
Proof. unfold gj_lossy at 1. rewrite gj_ct_lossy. unfold gj_lossy. apply lossy_at_idem. Qed.

Lemma geom_ok_weaken ct (g : geom) : geom_ok (N.eqb 0) ct g = true -> geom_ok ok1 ct g = true.
Proof.
  assert (Hv : forall v, vtx_ok (N.eqb 0) ct v = true -> vtx_ok ok1 ct v = true).
  { intros v _. unfold vtx_ok. rewrite !orb_true_r. reflexivity. }
  assert (Hp : forall p, point_ok (N.eqb 0) ct p = true -> point_ok ok1 ct p = true).
  { intros [c [v|]]; unfold point_ok; intros H; apply andb_prop in H; destruct H as [-> H]; cbn [andb]; auto. }
  assert (Hl : forall l, line_ok (N.eqb 0) ct l = true -> line_ok ok1 ct l = true).
  { intros [c vs]; unfold line_ok; intros H; apply andb_prop in H; destruct H as [-> H]. cbn [andb].
    rewrite forallb_forall in *. auto. }
  assert (Hy : forall p, poly_ok (N.eqb 0) ct p = true -> poly_ok ok1 ct p = true).
  { intros [c rs]; unfold poly_ok; intros H; apply andb_prop in H; destruct H as [-> H]. cbn [andb].
    rewrite forallb_forall in *. auto. }
  induction g as [p|l|p|c ps|c ls|c ps|c gs IH] using geomT_ind'; cbn [geom_ok]; auto;
    intros H; apply andb_prop in H; destruct H as [-> H]; cbn [andb]; rewrite forallb_forall in *; auto.
  rewrite Forall_forall in IH. auto.
Qed.

Lemma gj_lossy_same_ct (g : geom) : same_ct (gj_lossy g) = true /\ consistent (N.eqb 0) (gj_lossy g) = true.
Proof.
  unfold same_ct, consistent, gj_lossy. rewrite geom_ct_lossy.
  pose proof (lossy_at_ok (gj_ct g) g) as H. split; [|exact H]. apply geom_ok_weaken. exact H.
Qed.

(* ================================================================== every result is consistent; the dimension rule *)
Lemma unmarshal_gjn_ok t lens g :
  detect t [] = Ok lens -> unmarshal_gjn t = Ok g ->
  geom_ok (N.eqb 0) (decide_ct lens) g = true /\ geom_ct g = decide_ct lens.
Proof.
  unfold unmarshal_gjn. intros ->. cbn [bind]. intros H.
  destruct (to_geom_ok (decide_ct lens) (decide_ct_no_m lens) t g H) as [Hok _].
  split; [exact Hok|apply (force_geom_id _ _ Hok)].
Qed.

Lemma gj_unmarshal_consistent_lemma j g :
  gj_unmarshal j = Ok g -> consistent (N.eqb 0) g = true /\ has_m (geom_ct g) = false.
Proof.
  unfold gj_unmarshal. destruct (decode_node j); cbn [bind]; try discriminate.
  destruct (decode_geojson a) as [t| |]; cbn [bind]; try discriminate.
  intros H. destruct (bind_ok _ _ _ H) as [lens [E _]].
  destruct (unmarshal_gjn_ok t lens g E H) as [Hok Hct].
  unfold consistent. rewrite Hct. split; [exact Hok|apply decide_ct_no_m].
Qed.

Lemma gj_mixed_is_2d_lemma t lens g :
  detect t [] = Ok lens -> In 2%nat lens -> unmarshal_gjn t = Ok g ->
  geom_ok (N.eqb 0) XY g = true.
Proof.
  intros E Hin H. destruct (unmarshal_gjn_ok t lens g E H) as [Hok _].
  replace XY with (decide_ct lens); [exact Hok|].
  unfold decide_ct. replace (existsb (Nat.eqb 2) lens) with true; [reflexivity|].
  symmetry. apply existsb_exists. exists 2%nat. split; [exact Hin|reflexivity].
Qed.

Lemma gj_dimension_rule_lemma t lens g :
  detect t [] = Ok lens -> unmarshal_gjn t = Ok g ->
  geom_ct g = (if negb (existsb (Nat.eqb 2) lens) && existsb (Nat.leb 3) lens then XYZ else XY).
Proof. intros E H. apply (unmarshal_gjn_ok t lens g E H). Qed.

(* ================================================================== concrete types *)
Lemma decode_geojson_type ty co gs t :
  decode_geojson (MkNode ty co gs) = Ok t -> type_of_name ty = Some (gjn_type t).
Proof.
  cbn [decode_geojson]. destruct (type_of_name ty) as [[]|]; try discriminate;
    match goal with
    | |- bind ?m _ = _ -> _ => destruct m; cbn [bind]; try discriminate; intros H; inversion H; reflexivity
    end.
Qed.

Lemma gj_unmarshal_doc_type j g : gj_unmarshal j = Ok g -> doc_type j = Some (geom_type g).
Proof.
  unfold gj_unmarshal, doc_type. destruct (decode_node j) as [[ty co gs]| |]; cbn [bind]; try discriminate.
  destruct (decode_geojson (MkNode ty co gs)) as [t| |] eqn:E; cbn [bind]; try discriminate.
  unfold unmarshal_gjn. destruct (detect t []); cbn [bind]; try discriminate.
  intros H. apply (to_geom_ok _ (decide_ct_no_m _)) in H. destruct H as [_ ->].
  apply (decode_geojson_type ty co gs t E).
Qed.

Lemma gj_concrete_type_lemma t j g :
  unmarshal_as t j = Ok g <-> gj_unmarshal j = Ok g /\ doc_type j = Some t.
Proof.
  unfold unmarshal_as. split.
  - destruct (gj_unmarshal j) as [g'| |] eqn:E; cbn [bind]; try discriminate.
    destruct (gtype_eqb (geom_type g') t) eqn:Et; try discriminate.
    intros H; inversion H; subst g'. split; [reflexivity|].
    apply gtype_eqb_eq in Et. rewrite <- Et. apply gj_unmarshal_doc_type. exact E.
  - intros [E D]. rewrite E. cbn [bind]. rewrite (gj_unmarshal_doc_type j g E) in D.
    inversion D as [D']. replace (gtype_eqb (geom_type g) (geom_type g)) with true; [reflexivity|].
    symmetry. apply gtype_eqb_eq. reflexivity.
Qed.

Lemma gj_concrete_own_lemma t (g : geom) :
  same_ct g = true ->
  unmarshal_as t (to_json g) = if gtype_eqb (geom_type g) t then Ok (gj_lossy g) else Err EMemberType.
Proof.
  intros H. unfold unmarshal_as. rewrite (gj_roundtrip_lemma g H). cbn [bind].
  replace (geom_type (gj_lossy g)) with (geom_type g); [reflexivity|].
  unfold gj_lossy. destruct g; reflexivity.
Qed.

(* ================================================================== Go maps: the normal form *)
Lemma str_ltb_irrefl a : str_ltb a a = false.
Proof. induction a as [|x a IH]; cbn [str_ltb]; [reflexivity|]. rewrite N.ltb_irrefl, N.eqb_refl, IH. reflexivity. Qed.

Lemma str_ltb_trans a : forall b c, str_ltb a b = true -> str_ltb b c = true -> str_ltb a c = true.
Proof.
  induction a as [|x a IH]; intros [|y b] [|z c]; cbn [str_ltb]; try discriminate; auto.
  intros H1 H2. apply orb_true_iff in H1. apply orb_true_iff in H2. apply orb_true_iff.
  destruct H1 as [H1|H1], H2 as [H2|H2].
  - left. apply N.ltb_lt in H1, H2. apply N.ltb_lt. lia.
  - apply andb_prop in H2. destruct H2 as [E _]. apply N.eqb_eq in E. subst z. left. exact H1.
  - apply andb_prop in H1. destruct H1 as [E _]. apply N.eqb_eq in E. subst y. left. exact H2.
  - apply andb_prop in H1. destruct H1 as [E1 L1]. apply andb_prop in H2. destruct H2 as [E2 L2].
    apply N.eqb_eq in E1, E2. subst y z. right. rewrite N.eqb_refl. cbn [andb]. apply (IH b c L1 L2).
Qed.

Lemma str_ltb_total a : forall b, str_ltb a b = false -> str_eqb a b = false -> str_ltb b a = true.
Proof.
  induction a as [|x a IH]; intros [|y b]; cbn [str_ltb str_eqb]; try discriminate; auto.
  intros H1 H2. apply orb_false_iff in H1. destruct H1 as [L1 A1].
  apply N.ltb_ge in L1. destruct (N.eqb_spec x y) as [->|Hne].
  - cbn [andb] in *. rewrite N.ltb_irrefl, N.eqb_refl. cbn [orb andb]. apply IH; assumption.
  - replace (y <? x) with true; [reflexivity|]. symmetry. apply N.ltb_lt. lia.
Qed.

Lemma str_ltb_asym a b : str_ltb a b = true -> str_ltb b a = false.
Proof.
  intros H. destruct (str_ltb b a) eqn:E; [|reflexivity].
  pose proof (str_ltb_trans a b a H E) as C. rewrite str_ltb_irrefl in C. discriminate.
Qed.

Lemma str_ltb_neq a b : str_ltb a b = true -> str_eqb b a = false.
Proof.
  intros H. destruct (str_eqb b a) eqn:E; [|reflexivity]. apply str_eqb_eq in E. subst b.
  rewrite str_ltb_irrefl in H. discriminate.
Qed.

Definition lt_all (k : str) (l : list (str * json)) : bool := forallb (fun kv => str_ltb k (fst kv)) l.

Lemma sortedb_cons k v r : sortedb ((k, v) :: r) = lt_all k r && sortedb r.
Proof. reflexivity. Qed.

Lemma lt_all_trans k k' l : str_ltb k k' = true -> lt_all k' l = true -> lt_all k l = true.
Proof.
  intros H A. unfold lt_all in *. rewrite forallb_forall in *. intros kv Hkv.
  apply (str_ltb_trans k k' (fst kv) H). apply A. exact Hkv.
Qed.

(* properties of keys and of values carried through ins / nfold *)
Lemma ins_forall (Q : str * json -> bool) k v l : Q (k, v) = true -> forallb Q l = true -> forallb Q (ins k v l) = true.
Proof.
  intros Hq. induction l as [|[k' v'] r IH]; intros A; cbn [ins]; cbn [forallb] in *.
  - rewrite Hq. reflexivity.
  - apply andb_prop in A. destruct A as [A1 A2].
    destruct (str_eqb k k'); [|destruct (str_ltb k k')]; cbn [forallb].
    + rewrite Hq, A2. reflexivity.
    + rewrite Hq, A1, A2. reflexivity.
    + rewrite A1, (IH A2). reflexivity.
Qed.

Lemma ins_sorted k v l : sortedb l = true -> sortedb (ins k v l) = true.
Proof.
  induction l as [|[k' v'] r IH]; intros S; cbn [ins]; [reflexivity|].
  rewrite sortedb_cons in S. apply andb_prop in S. destruct S as [S1 S2].
  destruct (str_eqb k k') eqn:E.
  - apply str_eqb_eq in E. subst k'. rewrite sortedb_cons, S1, S2. reflexivity.
  - destruct (str_ltb k k') eqn:L.
    + rewrite !sortedb_cons, S1, S2.
      change (lt_all k ((k', v') :: r)) with (str_ltb k k' && lt_all k r).
      rewrite L, (lt_all_trans k k' r L S1). reflexivity.
    + rewrite sortedb_cons, (IH S2), andb_true_r. apply (ins_forall (fun kv => str_ltb k' (fst kv))); [|exact S1].
      apply str_ltb_total; assumption.
Qed.

Fixpoint nfold (kvs acc : list (str * json)) : list (str * json) :=
  match kvs with
  | [] => acc
  | (k, v) :: r => nfold r (ins k (jnorm v) acc)
  end.

Lemma jnorm_obj kvs : jnorm (JObj kvs) = JObj (nfold kvs []).
Proof.
  reflexivity.
Qed.
Lemma norm_kvs_nfold kvs : norm_kvs kvs = nfold kvs [].
Proof. unfold norm_kvs. rewrite jnorm_obj. reflexivity. Qed.

Lemma nfold_sorted kvs : forall acc, sortedb acc = true -> sortedb (nfold kvs acc) = true.
Proof. induction kvs as [|[k v] r IH]; intros acc S; cbn [nfold]; [exact S|]. apply IH, ins_sorted, S. Qed.

Lemma nfold_forall (Q : str * json -> bool) kvs :
  (forall k v, In (k, v) kvs -> Q (k, jnorm v) = true) ->
  forall acc, forallb Q acc = true -> forallb Q (nfold kvs acc) = true.
Proof.
  induction kvs as [|[k v] r IH]; intros H acc A; cbn [nfold]; [exact A|].
  apply IH; [intros k' v' Hin; apply H; right; exact Hin|].
  apply ins_forall; [apply H; left; reflexivity|exact A].
Qed.

Lemma ins_append k v l :
  (forall kv, In kv l -> str_ltb (fst kv) k = true) -> ins k v l = l ++ [(k, v)].
Proof.
  induction l as [|[k' v'] r IH]; intros H; cbn [ins app]; [reflexivity|].
  pose proof (H (k', v') (or_introl eq_refl)) as L. cbn [fst] in L.
  rewrite (str_ltb_neq k' k L), (str_ltb_asym k' k L).
  f_equal. apply IH. intros kv Hkv. apply H. right. exact Hkv.
Qed.

Lemma sortedb_app_lt a k v r :
  sortedb (a ++ (k, v) :: r) = true -> forall kv, In kv a -> str_ltb (fst kv) k = true.
Proof.
  induction a as [|[k0 v0] a IH]; intros S kv Hin; [destruct Hin|].
  cbn [app] in S. rewrite sortedb_cons in S. apply andb_prop in S. destruct S as [S1 S2].
  destruct Hin as [<-|Hin]; [|apply (IH S2 kv Hin)].
  unfold lt_all in S1. rewrite forallb_forall in S1. cbn [fst].
  apply (S1 (k, v)). apply in_or_app. right. left. reflexivity.
Qed.

Lemma nfold_id l : forall acc,
  sortedb (acc ++ l) = true -> (forall kv, In kv l -> jnorm (snd kv) = snd kv) -> nfold l acc = acc ++ l.
Proof.
  induction l as [|[k v] r IH]; intros acc S H; cbn [nfold]; [symmetry; apply app_nil_r|].
  pose proof (H (k, v) (or_introl eq_refl)) as Hv. cbn [snd] in Hv. rewrite Hv.
  rewrite (ins_append k v acc (sortedb_app_lt acc k v r S)).
  rewrite IH.
  - rewrite <- app_assoc. reflexivity.
  - rewrite <- app_assoc. exact S.
  - intros kv Hkv. apply H. right. exact Hkv.
Qed.

Lemma canon_jnorm (j : json) : canon j = true -> jnorm j = j.
Proof.
  induction j as [| | | |l IH|kvs IH] using json_ind'; intros C; try reflexivity.
  - cbn [jnorm]. f_equal. apply map_id_on. cbn [canon] in C. rewrite forallb_forall in C.
    rewrite Forall_forall in IH. intros x Hx. apply IH; [exact Hx|]. apply C, Hx.
  - rewrite jnorm_obj. f_equal. cbn [canon] in C. apply andb_prop in C. destruct C as [C1 C2].
    apply (nfold_id kvs []); [exact C1|]. rewrite forallb_forall in C2. rewrite Forall_forall in IH.
    intros kv Hkv. apply IH; [exact Hkv|]. apply C2, Hkv.
Qed.

Lemma jnorm_canon (j : json) : canon (jnorm j) = true.
Proof.
  induction j as [| | | |l IH|kvs IH] using json_ind'; try reflexivity.
  - apply forallb_map_in. rewrite Forall_forall in IH. exact IH.
  - rewrite jnorm_obj. cbn [canon]. rewrite (nfold_sorted kvs [] eq_refl). cbn [andb].
    apply (nfold_forall (fun kv => canon (snd kv))); [|reflexivity].
    intros k v Hin. cbn [snd]. rewrite Forall_forall in IH. apply (IH (k, v) Hin).
Qed.

Lemma jnorm_idem_lemma (j : json) : jnorm (jnorm j) = jnorm j.
Proof. apply canon_jnorm, jnorm_canon. Qed.

Lemma norm_kvs_canon kvs : canon (JObj (norm_kvs kvs)) = true.
Proof. pose proof (jnorm_canon (JObj kvs)) as H. rewrite jnorm_obj in H. rewrite norm_kvs_nfold. exact H. Qed.

Lemma norm_kvs_fixed kvs : canon (JObj kvs) = true -> norm_kvs kvs = kvs.
Proof. intros C. pose proof (canon_jnorm (JObj kvs) C) as H. rewrite jnorm_obj in H. rewrite norm_kvs_nfold. congruence. Qed.

Lemma norm_kvs_idem kvs : norm_kvs (norm_kvs kvs) = norm_kvs kvs.
Proof. apply norm_kvs_fixed, norm_kvs_canon. Qed.

(* ================================================================== Feature round trip *)
Lemma lookup_app k a b :
  lookup k (a ++ b) = match lookup k b with Some x => Some x | None => lookup k a end.
Proof.
  induction a as [|[k' v] a IH]; cbn [app lookup]; [destruct (lookup k b); reflexivity|].
  rewrite IH. destruct (lookup k b); reflexivity.
Qed.

Lemma filter_all {A} (f : A -> bool) l : forallb f l = true -> filter f l = l.
Proof.
  induction l as [|x l IH]; intros H; cbn [filter]; [reflexivity|]. cbn [forallb] in H.
  apply andb_prop in H. destruct H as [-> H]. rewrite (IH H). reflexivity.
Qed.

Definition unreserved (kv : str * json) : bool := negb (reserved (fst kv)).

Lemma norm_kvs_unreserved l : forallb unreserved l = true -> forallb unreserved (norm_kvs l) = true.
Proof.
  intros H. rewrite norm_kvs_nfold. apply (nfold_forall unreserved); [|reflexivity].
  intros k v Hin. rewrite forallb_forall in H. apply (H (k, v) Hin).
Qed.

Lemma unreserved_lookup k l :
  reserved k = true -> forallb unreserved l = true -> lookup k l = None.
Proof.
  intros Hk. induction l as [|[k' v] r IH]; intros H; cbn [lookup]; [reflexivity|].
  cbn [forallb] in H. apply andb_prop in H. destruct H as [H1 H2]. rewrite (IH H2).
  destruct (str_eqb k k') eqn:E; [|reflexivity]. apply str_eqb_eq in E. subst k'.
  unfold unreserved in H1. cbn [fst] in H1. rewrite Hk in H1. discriminate.
Qed.

Lemma lookup_reserved k a F :
  reserved k = true -> forallb unreserved F = true -> lookup k (a ++ F) = lookup k a.
Proof. intros Hk HF. rewrite lookup_app, (unreserved_lookup k F Hk HF). reflexivity. Qed.

Lemma feature_roundtrip_lemma (f : feature) :
  feat_ok f = true -> feat_unmarshal (feat_to_json f) = Ok (feat_lossy f).
Proof.
  destruct f as [g id props fm]. unfold feat_ok. cbn [f_geom f_foreign]. intros H.
  apply andb_prop in H. destruct H as [Hg Hf]. apply norm_kvs_unreserved in Hf.
  unfold feat_to_json, feat_lossy, feat_unmarshal. cbn [f_geom f_id f_props f_foreign].
  set (P := norm_kvs (match props with Some p => p | None => [] end)).
  set (F := norm_kvs fm) in *.
  match goal with |- context [_ ++ ?m ++ [(k_properties, _)] ++ F] => set (idpart := m) end.
  assert (Hcase : (idpart = [] /\ id = JNull) \/ idpart = [(k_id, jnorm id)])
    by (subst idpart; destruct id; auto).
  clearbody idpart. rewrite !app_assoc, !(lookup_reserved _ _ F) by (reflexivity || exact Hf).
  fold unreserved. rewrite filter_app, (filter_all unreserved F Hf).
  destruct Hcase as [[-> ->]| ->];
    cbv [lookup filter app unreserved reserved fst str_eqb k_type k_geometry k_id k_properties s_Feature
         N.eqb Pos.eqb andb orb negb];
    rewrite (gj_roundtrip_lemma g Hg); cbn [bind]; unfold P, F;
    rewrite ?jnorm_idem_lemma, !norm_kvs_idem; reflexivity.
Qed.

Lemma feature_verbatim_lemma g id props fm :
  canon id = true -> canon (JObj (match props with Some p => p | None => [] end)) = true ->
  canon (JObj fm) = true ->
  feat_lossy (MkFeature g id props fm) =
  MkFeature (gj_lossy g) id (Some (match props with Some p => p | None => [] end)) fm.
Proof.
  intros C1 C2 C3. unfold feat_lossy. cbn [f_geom f_id f_props f_foreign].
  rewrite (canon_jnorm id C1), (norm_kvs_fixed _ C2), (norm_kvs_fixed _ C3). reflexivity.
Qed.

Lemma fc_roundtrip_lemma (fs : list feature) :
  forallb feat_ok fs = true -> fc_unmarshal (fc_to_json fs) = Ok (map feat_lossy fs).
Proof.
  intros H. unfold fc_to_json, fc_unmarshal.
  cbn [str_eqb k_type k_features N.eqb Pos.eqb andb].
  rewrite (mapM_map_ok feat_unmarshal feat_to_json feat_lossy).
  - cbn [bind]. change (str_eqb s_FeatureCollection s_FeatureCollection) with true. reflexivity.
  - intros f Hf. apply feature_roundtrip_lemma. rewrite forallb_forall in H. apply H, Hf.
Qed.

(* ---- the foreign-member splice on bytes *)
Definition pr_member (kv : str * json) : list tok := pr_str (fst kv) ++ TC c_colon :: json_print (snd kv).
Definition pr_members (kvs : list (str * json)) : list tok :=
  match kvs with
  | [] => []
  | kv :: r => pr_member kv ++ flat_map (fun kv => TC c_comma :: pr_member kv) r
  end.
Lemma jp_obj kvs : json_print (JObj kvs) = TC c_lcb :: pr_members kvs ++ [TC c_rcb].
Proof. destruct kvs as [|[k v] r]; reflexivity. Qed.

Lemma splice_lemma a b :
  a <> [] -> b <> [] ->
  splice (json_print (JObj a)) (json_print (JObj b)) = json_print (JObj (a ++ b)).
Proof.
  intros Ha Hb. rewrite !jp_obj. unfold splice. cbn [tl].
  change (TC c_lcb :: pr_members a ++ [TC c_rcb]) with ((TC c_lcb :: pr_members a) ++ [TC c_rcb]).
  rewrite removelast_last. cbn [app]. f_equal.
  destruct a as [|x a]; [congruence|]. destruct b as [|y b]; [congruence|].
  cbn [pr_members app]. rewrite flat_map_app. cbn [flat_map].
  rewrite <- !app_assoc. cbn [app]. reflexivity.
Qed.

(* ================================================================== the decoder never panics *)
Definition np {A} (o : outcome A) : Prop := is_panic o = false.

Lemma np_bind {A B} (m : outcome A) (f : A -> outcome B) :
  np m -> (forall a, m = Ok a -> np (f a)) -> np (bind m f).
Proof. unfold np. destruct m; cbn [bind is_panic]; intros H1 H2; auto. Qed.

Lemma np_mapM {A B} (f : A -> outcome B) l : (forall x, In x l -> np (f x)) -> np (mapM f l).
Proof.
  induction l as [|x l IH]; intros H; cbn [mapM]; [reflexivity|].
  apply np_bind; [apply H; left; reflexivity|]. intros y _.
  apply np_bind; [apply IH; intros z Hz; apply H; right; exact Hz|]. intros ys _. reflexivity.
Qed.

Lemma np_arr {A} (f : json -> outcome A) j : (forall x, np (f x)) -> np (arr f j).
Proof. intros H. destruct j; try reflexivity. cbn [arr]. apply np_mapM. intros x _. apply H. Qed.

Lemma np_num j : np (num j). Proof. destruct j; reflexivity. Qed.
Lemma np_raw {A} (f : json -> outcome A) c : (forall x, np (f x)) -> np (raw f c).
Proof. intros H. destruct c; [apply H|reflexivity]. Qed.

Definition npq (j : json) : Prop :=
  np (decode_node j) /\ match j with JArr l => Forall (fun x => np (decode_node x)) l | _ => True end.

Lemma npq_all (j : json) : npq j.
Proof.
  induction j as [| | | |l IH|kvs IH] using json_ind'; try (split; [reflexivity|exact I]).
  - split; [reflexivity|]. eapply Forall_impl; [|exact IH]. intros x [H _]. exact H.
  - split; [|exact I]. cbn [decode_node]. generalize node_zero.
    induction kvs as [|[k v] r IHr]; intros acc; [reflexivity|].
    inversion IH as [|? ? Hv Hr]; subst. cbn [snd] in Hv. destruct acc as [ty co gs].
    destruct (str_eqb k k_type).
    { destruct v; try reflexivity; apply IHr; exact Hr. }
    destruct (str_eqb k k_coordinates); [apply IHr; exact Hr|].
    destruct (str_eqb k k_geometries); [|apply IHr; exact Hr].
    destruct v as [| | | |l|]; try reflexivity; [apply IHr; exact Hr|].
    rewrite (fix_mapM decode_node). apply np_bind; [|intros ns _; apply IHr; exact Hr].
    destruct Hv as [_ Hl]. apply np_mapM. rewrite Forall_forall in Hl. exact Hl.
Qed.

Lemma np_decode_node (j : json) : np (decode_node j).
Proof. apply npq_all. Qed.

Section NodeInd.
  Variable P : node -> Prop.
  Hypothesis H : forall ty co gs, Forall P gs -> P (MkNode ty co gs).
  Fixpoint node_ind' (n : node) : P n :=
    match n with
    | MkNode ty co gs =>
        H ty co gs ((fix go (l : list node) : Forall P l :=
                       match l with
                       | [] => Forall_nil P
                       | x :: r => Forall_cons x (node_ind' x) (go r)
                       end) gs)
    end.
End NodeInd.

Lemma np_decode_geojson (n : node) : np (decode_geojson n).
Proof.
  induction n as [ty co gs IH] using node_ind'. cbn [decode_geojson].
  destruct (type_of_name ty) as [[]|]; try reflexivity;
    try (apply np_bind; [apply np_raw; repeat (intros ?; apply np_arr); apply np_num|intros; reflexivity]).
  rewrite (fix_mapM decode_geojson). apply np_bind; [|intros; reflexivity].
  apply np_mapM. rewrite Forall_forall in IH. exact IH.
Qed.

Lemma gj_unmarshal_no_panic_lemma (j : json) : is_panic (gj_unmarshal j) = false.
Proof.
  unfold gj_unmarshal. apply np_bind; [apply np_decode_node|]. intros n _.
  apply np_bind; [apply np_decode_geojson|]. intros t _.
  unfold np. destruct (detect t []) as [L| |] eqn:E.
  - destruct (unmarshal_gjn_total_lemma t L E) as [g ->]. reflexivity.
  - unfold unmarshal_gjn. rewrite E. reflexivity.
  - rewrite detect_closed in E. destruct (forallb okp (poss t)); discriminate.
Qed.
