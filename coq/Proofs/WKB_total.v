(* Property C08, WKB part: the decoder model of Model/WKB.v is total on arbitrary input.
   For EVERY list of numbers offered as bytes (no well-formedness hypothesis, values above 255
   included): no panic outcome, the fuel error is unreachable, the input is never read past its
   end, and the bytes requested by count-sized `make` calls are at most twice the number of
   bytes consumed.  Technique: one invariant [okS k m s] over parser computations, closed under
   bind, proved for every reader bottom-up; the count-controlled loops and the recursion are
   handled by "fuel exceeds the unread length and every iteration consumes a byte". *)
From Coq Require Import NArith List Bool Lia ZArith.
From Coq Require Import ZifyN ZifyNat ZifyBool.
From SF Require Import Base.Outcome Base.Bytes Base.GeomAST Model.WKB.
Import ListNotations.
Local Open Scope N_scope.

(* ------------------------------------------------------------------ the invariant *)
(* Running m from state s: never a panic; an error is never EFuel and has requested at most
   2 bytes per unread byte; success consumed a prefix [used] of at least k bytes and requested at
   most 2 bytes per consumed byte. *)
Definition okS {A} (k : nat) (m : P A) (s : st) : Prop :=
  match m s with
  | POk _ s' => exists used, fst s = used ++ fst s' /\ (k <= length used)%nat /\
                             snd s' <= snd s + 2 * N.of_nat (length used)
  | PErr e a => e <> EFuel /\ a <= snd s + 2 * N.of_nat (length (fst s))
  | PPanic _ _ => False
  end.

Lemma okS_weaken {A} k k' (m : P A) s : (k' <= k)%nat -> okS k m s -> okS k' m s.
Proof.
  unfold okS. destruct (m s); auto. intros H [u (E & L & B)]. exists u. repeat split; auto. lia.
Qed.

Lemma okS_0 {A} k (m : P A) s : okS k m s -> okS 0 m s.
Proof. apply okS_weaken, Nat.le_0_l. Qed.

Lemma okS_ret {A} (a : A) s : okS 0 (pret a) s.
Proof. unfold okS, pret. exists []. cbn [app length]. repeat split; auto. lia. Qed.

Lemma okS_fail {A} k e s : e <> EFuel -> okS (A:=A) k (pfail e) s.
Proof. unfold okS, pfail. intros H. split; auto. lia. Qed.

Lemma okS_bind_add {A B} k1 k2 (m : P A) (f : A -> P B) s :
  okS k1 m s ->
  (forall a s', m s = POk a s' -> (length (fst s') + k1 <= length (fst s))%nat -> okS k2 (f a) s') ->
  okS (k1 + k2) (pbind m f) s.
Proof.
  unfold okS at 1 3, pbind. destruct (m s) as [a s'|e al|p al] eqn:E; auto.
  intros [u (Eu & Lu & Bu)] Hf.
  assert (Hlen : (length (fst s') + k1 <= length (fst s))%nat).
  { rewrite Eu, app_length. lia. }
  specialize (Hf a s' eq_refl Hlen). unfold okS in Hf.
  destruct (f a s') as [b s''|e al|p al]; auto.
  - destruct Hf as [u2 (Eu2 & Lu2 & Bu2)]. exists (u ++ u2).
    rewrite Eu, Eu2, app_assoc, app_length. repeat split; auto; lia.
  - destruct Hf as [Hne Hb]. split; auto. rewrite Eu, app_length. lia.
Qed.

Lemma okS_bind {A B} k k2 (m : P A) (f : A -> P B) s :
  okS k m s ->
  (forall a s', m s = POk a s' -> (length (fst s') + k <= length (fst s))%nat -> okS k2 (f a) s') ->
  okS k (pbind m f) s.
Proof. intros H1 H2. apply (okS_weaken (k + k2)); [lia|]. apply okS_bind_add; assumption. Qed.

(* bind when the continuation needs nothing from the equation *)
Lemma okS_bind' {A B} k k2 (m : P A) (f : A -> P B) s :
  okS k m s -> (forall a s', okS k2 (f a) s') -> okS k (pbind m f) s.
Proof. intros H1 H2. eapply okS_bind; eauto. Qed.

Lemma okS_remaining {A} k (f : nat -> P A) s : okS k (f (length (fst s))) s -> okS k (pbind remaining f) s.
Proof. exact (fun H => H). Qed.

Lemma okS_plift {A} (o : outcome A) s :
  (forall p, o <> Panic p) -> o <> Err EFuel -> okS 0 (plift o) s.
Proof.
  intros Hp He. unfold okS, plift. destruct o as [a|e|p].
  - exists []. cbn [app length]. repeat split; auto. lia.
  - split; [congruence|lia].
  - eapply Hp; reflexivity.
Qed.

(* ------------------------------------------------------------------ fixed-width readers *)
(* [reads k m]: m consumes exactly k bytes, requests nothing, and can only fail with EEOF *)
Definition reads {A} (k : nat) (m : P A) : Prop := forall s,
  match m s with
  | POk _ s' => exists used, fst s = used ++ fst s' /\ length used = k /\ snd s' = snd s
  | PErr e a => e = EEOF /\ a = snd s
  | PPanic _ _ => False
  end.

Lemma reads_okS {A} k (m : P A) s : reads k m -> okS k m s.
Proof.
  intros H. specialize (H s). unfold okS. destruct (m s); auto.
  - destruct H as [u (E & L & Al)]. exists u. repeat split; auto; lia.
  - destruct H as [-> ->]. split; [discriminate|lia].
Qed.

Lemma reads_ret {A} (a : A) : reads 0 (pret a).
Proof. intros s. unfold pret. exists []. auto. Qed.

Lemma reads_bind {A B} k1 k2 (m : P A) (f : A -> P B) :
  reads k1 m -> (forall a, reads k2 (f a)) -> reads (k1 + k2) (pbind m f).
Proof.
  intros H1 H2 s. unfold pbind. specialize (H1 s). destruct (m s) as [a s'|e al|p al]; auto.
  destruct H1 as [u (E & L & Al)]. specialize (H2 a s').
  destruct (f a s') as [b s''|e al|p al]; auto.
  - destruct H2 as [u2 (E2 & L2 & Al2)]. exists (u ++ u2).
    rewrite E, E2, app_assoc, app_length. repeat split; auto; congruence.
  - destruct H2 as [-> ->]. auto.
Qed.

Lemma reads_rd_u k e : reads k (rd_u k e).
Proof.
  intros s. unfold rd_u. destruct (take k (fst s)) as [[h t]|] eqn:E; auto.
  apply take_spec in E. destruct E as [E L]. exists h. auto.
Qed.

Lemma reads_rd_byte : reads 1 rd_byte.
Proof.
  intros s. unfold rd_byte. destruct (fst s) as [|b r]; auto. exists [b]. auto.
Qed.

Lemma reads_if {A} (c : bool) k1 k2 (m1 m2 : P A) :
  reads k1 m1 -> reads k2 m2 -> reads (if c then k1 else k2) (if c then m1 else m2).
Proof. destruct c; auto. Qed.

Lemma reads_rd_vtx e ct : reads (8 * dim ct) (rd_vtx e ct).
Proof.
  unfold rd_vtx.
  replace (8 * dim ct)%nat
    with (8 + (8 + ((if has_z ct then 8 else 0) + ((if has_m ct then 8 else 0) + 0))))%nat
    by (destruct ct; reflexivity).
  apply reads_bind; [apply reads_rd_u|intros x].
  apply reads_bind; [apply reads_rd_u|intros y].
  apply reads_bind; [apply reads_if; [apply reads_rd_u|apply reads_ret]|intros z].
  apply reads_bind; [apply reads_if; [apply reads_rd_u|apply reads_ret]|intros m].
  apply reads_ret.
Qed.

Lemma reads_rd_vtxs n e ct : reads (n * (8 * dim ct)) (rd_vtxs n e ct).
Proof.
  induction n as [|n IH]; cbn [rd_vtxs].
  - apply reads_ret.
  - replace (S n * (8 * dim ct))%nat with (8 * dim ct + (n * (8 * dim ct) + 0))%nat by lia.
    apply reads_bind; [apply reads_rd_vtx|intros v].
    apply reads_bind; [exact IH|intros vs]. apply reads_ret.
Qed.

(* ------------------------------------------------------------------ header, point, sequence *)
Lemma okS_rd_header s : okS 5 rd_header s.
Proof.
  unfold rd_header.
  apply (okS_bind_add 1 4); [apply reads_okS, reads_rd_byte|intros b s1 _ _].
  apply (okS_bind_add 0 4); [|intros e s2 _ _].
  { destruct (b =? 0); [apply okS_ret|]. destruct (b =? 1); [apply okS_ret|].
    apply okS_fail; discriminate. }
  eapply okS_bind'; [apply reads_okS, reads_rd_u|intros code s3].
  eapply (okS_bind' 0).
  { generalize (code mod 1000). intros c.
    destruct c as [|p]; [apply okS_fail; discriminate|].
    do 3 (try (destruct p as [p|p|]));
      first [apply okS_ret | apply okS_fail; discriminate]. }
  intros t s4.
  eapply (okS_bind' 0).
  { destruct (ct_of_code (code / 1000)); [apply okS_ret|apply okS_fail; discriminate]. }
  intros ct s5. apply okS_ret.
Qed.

Lemma okS_rd_point e ct s : okS 0 (rd_point e ct) s.
Proof.
  unfold rd_point.
  eapply okS_bind'; [eapply okS_0, reads_okS, reads_rd_vtx|intros v s1].
  destruct (is_nan (vx v) && is_nan (vy v)); [apply okS_ret|].
  destruct (is_nan (vx v) || is_nan (vy v)); [apply okS_fail; discriminate|apply okS_ret].
Qed.

Lemma okS_alloc_reads {A} k a (m : P A) s :
  reads k m -> (k <= length (fst s))%nat -> a <= 2 * N.of_nat k -> okS k (doP _ <- palloc a; m) s.
Proof.
  intros Hm Hk Ha. unfold okS, pbind, palloc. specialize (Hm (fst s, snd s + a)).
  destruct (m _) as [x s'|er al|p al]; cbn [fst snd] in *.
  - destruct Hm as [u (E & L & Al)]. exists u. repeat split; auto; lia.
  - destruct Hm as [-> ->]. split; [discriminate|lia].
  - exact Hm.
Qed.

(* wkbParser.parseLineString: the allocation is covered by the bytes that the length check has
   just shown to be present *)
Lemma okS_rd_seq e ct s : okS 4 (rd_seq e ct) s.
Proof.
  unfold rd_seq.
  eapply okS_bind; [apply reads_okS, reads_rd_u|intros n s1 _ _].
  apply okS_remaining. cbv beta zeta.
  destruct (N.ltb_spec (N.of_nat (length (fst s1))) (8 * (n * N.of_nat (dim ct)))) as [Hlt|Hge].
  { apply okS_fail. discriminate. }
  eapply okS_0, (okS_alloc_reads (N.to_nat n * (8 * dim ct) + 0)).
  - apply reads_bind; [apply reads_rd_vtxs|intros vs; apply reads_ret].
  - destruct ct; cbn [dim] in *; lia.
  - destruct e, ct; cbn [dim]; lia.
Qed.

(* ------------------------------------------------------------------ loops *)
(* a step that is fine on every state no longer than the current one, and consumes a byte *)
Definition step_ok {A} (step : P A) (bound : nat) : Prop :=
  forall s', (length (fst s') <= bound)%nat -> okS 1 step s'.

Lemma okS_loopN {A} (step : P A) : forall fuel n acc s,
  (length (fst s) < fuel)%nat -> step_ok step (length (fst s)) ->
  okS 0 (loopN fuel n step acc) s.
Proof.
  induction fuel as [|f IH]; intros n acc s Hf Hstep; [lia|].
  cbn [loopN]. destruct (n =? 0); [apply okS_ret|].
  eapply okS_0, okS_bind; [apply Hstep; lia|].
  intros a s' _ Hlen. apply IH; [lia|].
  intros s'' Hs''. apply Hstep. lia.
Qed.

Lemma okS_loop {A} (step : P A) n s :
  step_ok step (length (fst s)) -> okS 0 (loop n step) s.
Proof.
  intros Hstep. apply okS_remaining, okS_loopN; [lia|exact Hstep].
Qed.

Lemma okS_rd_poly e ct s : okS 4 (rd_poly e ct) s.
Proof.
  unfold rd_poly.
  eapply okS_bind'; [apply reads_okS, reads_rd_u|intros n s1].
  destruct (n =? 0); [apply okS_ret|].
  eapply okS_bind'; [|intros; apply okS_ret].
  apply okS_loop. intros s' _. eapply okS_weaken; [|apply okS_rd_seq]. lia.
Qed.

(* ------------------------------------------------------------------ the recursion *)
Lemma as_point_plift g s : okS 0 (plift (as_point g)) s.
Proof. apply okS_plift; destruct g; cbn; intros; discriminate. Qed.
Lemma as_line_plift g s : okS 0 (plift (as_line g)) s.
Proof. apply okS_plift; destruct g; cbn; intros; discriminate. Qed.
Lemma as_poly_plift g s : okS 0 (plift (as_poly g)) s.
Proof. apply okS_plift; destruct g; cbn; intros; discriminate. Qed.

Lemma okS_member {A} (inner : P geom) (cast : geom -> outcome A) bound :
  (forall g s, okS 0 (plift (cast g)) s) ->
  step_ok inner bound -> step_ok (member inner cast) bound.
Proof.
  intros Hc Hi s' Hs'. unfold member.
  eapply okS_bind'; [apply Hi; exact Hs'|intros g s2; apply Hc].
Qed.

(* the count, then a loop over members; every member starts with a header, hence consumes *)
Lemma okS_counted {A} (step : P A) (e : endian) (emp : geom) (mk : list A -> geom) s :
  step_ok step (length (fst s)) ->
  okS 0 (doP n <- rd_u 4 e;
         if n =? 0 then pret emp else doP ps <- loop n step; pret (mk ps)) s.
Proof.
  intros Hi.
  eapply okS_bind; [eapply okS_0, reads_okS, (reads_rd_u 4 e)|].
  intros n s1 _ Hlen. destruct (n =? 0); [apply okS_ret|].
  eapply okS_bind'; [|intros; apply okS_ret].
  apply okS_loop. intros s' Hs'. apply Hi. lia.
Qed.

Lemma okS_rd_geom : forall fuel s, (length (fst s) < fuel)%nat -> okS 5 (rd_geom fuel) s.
Proof.
  induction fuel as [|f IH]; intros s Hf; [lia|].
  cbn [rd_geom].
  eapply okS_bind; [apply okS_rd_header|].
  intros [[e t] ct] s1 _ Hlen.
  assert (Hrec : step_ok (rd_geom f) (length (fst s1))).
  { intros s' Hs'. eapply okS_weaken; [|apply IH; lia]. lia. }
  destruct t.
  - (* collection *)
    apply okS_counted. intros s' Hs'.
    eapply okS_bind'; [apply Hrec; lia|].
    intros g s3. destruct (ct_eqb (geom_ct g) ct); [apply okS_ret|apply okS_fail; discriminate].
  - eapply okS_bind'; [apply okS_rd_point|intros; apply okS_ret].
  - eapply okS_bind'; [eapply okS_0, okS_rd_seq|intros; apply okS_ret].
  - eapply okS_bind'; [eapply okS_0, okS_rd_poly|intros; apply okS_ret].
  - apply okS_counted, okS_member; [apply as_point_plift|exact Hrec].
  - apply okS_counted, okS_member; [apply as_line_plift|exact Hrec].
  - apply okS_counted, okS_member; [apply as_poly_plift|exact Hrec].
Qed.

(* fuel = input length + 1 is enough; what the invariant says of the whole run *)
Lemma dec_full_ok bs :
  match dec_full bs with
  | POk _ s' => exists used, bs = used ++ fst s' /\ (5 <= length used)%nat /\
                             snd s' <= 2 * N.of_nat (length used)
  | PErr e a => e <> EFuel /\ a <= 2 * N.of_nat (length bs)
  | PPanic _ _ => False
  end.
Proof. apply (okS_rd_geom (S (length bs)) (bs, 0)). cbn [fst]. lia. Qed.

(* ------------------------------------------------------------------ the C08 statements *)
Lemma wkb_dec_no_panic_lemma : forall bs, is_panic (dec bs) = false.
Proof.
  intros bs. pose proof (dec_full_ok bs) as H. unfold dec.
  destruct (dec_full bs); auto. contradiction.
Qed.

Lemma wkb_dec_alloc_linear_lemma : forall bs, dec_alloc bs <= 2 * N.of_nat (length bs).
Proof.
  intros bs. pose proof (dec_full_ok bs) as H. unfold dec_alloc.
  destruct (dec_full bs) as [g s'|e a|p a].
  - destruct H as [u (E & _ & B)]. rewrite E, app_length. lia.
  - apply H.
  - contradiction.
Qed.

(* sharper on success: at most two requested bytes per CONSUMED byte *)
Lemma wkb_dec_alloc_consumed_lemma : forall bs g r a,
  dec_full bs = POk g (r, a) -> exists used, bs = used ++ r /\ a <= 2 * N.of_nat (length used).
Proof.
  intros bs g r a E. pose proof (dec_full_ok bs) as H. rewrite E in H.
  destruct H as [u (Eu & _ & B)]. exists u. split; assumption.
Qed.

Lemma wkb_dec_consumes_lemma : forall bs g r,
  dec bs = Ok (g, r) -> exists used, bs = used ++ r /\ (5 <= length used)%nat.
Proof.
  intros bs g r E. pose proof (dec_full_ok bs) as H. unfold dec in E.
  destruct (dec_full bs) as [g' s'|e a|p a]; try discriminate.
  inversion E; subst. destruct H as [u (Eu & L & _)]. exists u. auto.
Qed.

Lemma wkb_dec_fuel_enough_lemma : forall bs, dec bs <> Err EFuel.
Proof.
  intros bs. pose proof (dec_full_ok bs) as H. unfold dec.
  destruct (dec_full bs) as [g' s'|e a|p a]; try discriminate.
  destruct H as [Hne _]. congruence.
Qed.

(* database adapters (Scan into a concrete type): same totality *)
Lemma wkb_scan_no_panic_lemma : forall t bs, is_panic (scan t bs) = false /\ scan t bs <> Err EFuel.
Proof.
  intros t bs. unfold scan. pose proof (wkb_dec_no_panic_lemma bs) as Hp.
  pose proof (wkb_dec_fuel_enough_lemma bs) as Hf.
  destruct (dec bs) as [[g r]|e|p]; cbn [bind] in *.
  - destruct (gtype_eqb (geom_type g) t); split; auto; discriminate.
  - split; [reflexivity|congruence].
  - cbn in Hp. discriminate.
Qed.

(* ------------------------------------------------------------------ the validation gate *)
Section Gate.
  (* Geometry.Validate as an arbitrary function: the statement is about the gating in
     UnmarshalWKB (geom/wkb_parser.go:UnmarshalWKB), property C03 is about the validator *)
  Variable validate : geom -> bool.

  (* UnmarshalWKB(b) without NoValidate: trailing bytes are deliberately ignored *)
  Definition unmarshal (bs : list N) : outcome geom :=
    do (g, _) <- dec bs;
    if validate g then Ok g else Err EValidate.

  (* UnmarshalWKB(b, NoValidate{}) *)
  Definition unmarshal_nv (bs : list N) : outcome geom := do (g, _) <- dec bs; Ok g.

  Lemma decoded_validated_lemma : forall bs g, unmarshal bs = Ok g -> validate g = true.
  Proof.
    intros bs g. unfold unmarshal. destruct (dec bs) as [[g' r]|e|p]; cbn [bind]; try discriminate.
    destruct (validate g') eqn:V; intros E; [congruence|discriminate].
  Qed.

  (* the gate rejects nothing else: it returns exactly the decoded value when that validates *)
  Lemma gate_exact_lemma : forall bs g,
    unmarshal bs = Ok g <-> (unmarshal_nv bs = Ok g /\ validate g = true).
  Proof.
    intros bs g. unfold unmarshal, unmarshal_nv.
    destruct (dec bs) as [[g' r]|e|p]; cbn [bind].
    - destruct (validate g') eqn:V; split.
      + intros E. inversion E; subst. auto.
      + intros [E _]. exact E.
      + discriminate.
      + intros [E V']. inversion E; subst. congruence.
    - split; [discriminate|intros [E _]; discriminate].
    - split; [discriminate|intros [E _]; discriminate].
  Qed.

  Lemma unmarshal_no_panic_lemma : forall bs, is_panic (unmarshal bs) = false.
  Proof.
    intros bs. unfold unmarshal. pose proof (wkb_dec_no_panic_lemma bs) as H.
    destruct (dec bs) as [[g' r]|e|p]; cbn [bind]; auto. destruct (validate g'); auto.
  Qed.
End Gate.

(* ------------------------------------------------------------------ before the fix (F2) *)
(* geom/wkb_parser.go:parseLineString as it was before commit 9d18c2c: make([]float64, n*dim)
   first, length check second.  Only the LineString root is needed for the witness. *)
Definition rd_seq_unfixed (e : endian) (ct : ctype) : P (lineT N) :=
  doP n <- rd_u 4 e;
  let need := 8 * (n * N.of_nat (dim ct)) in
  doP _ <- palloc need;
  doP len <- remaining;
  if N.of_nat len <? need then pfail EEOF
  else
    doP _ <- palloc (match e with LE => 0 | BE => need end);
    doP vs <- rd_vtxs (N.to_nat n) e ct;
    pret (MkLine ct vs).

Definition dec_unfixed_alloc (bs : list N) : N :=
  let m : P geom :=
    doP hdr <- rd_header;
    let '(e, t, ct) := hdr in
    match t with
    | TLine => doP l <- rd_seq_unfixed e ct; pret (GLine l)
    | _ => rd_geom (length bs) (* other roots: unchanged code, not needed for the witness *)
    end in
  match m (bs, 0) with POk _ s => snd s | PErr _ a => a | PPanic _ a => a end.

Definition f2_witness : list N := [1; 2; 0; 0; 0; 255; 255; 255; 255].

Lemma wkb_alloc_unbounded_before_fix_lemma :
  length f2_witness = 9%nat /\ Forall byte_ok f2_witness /\
  dec_unfixed_alloc f2_witness = 68719476720 /\ dec_alloc f2_witness = 0.
Proof.
  split; [reflexivity|]. split.
  { unfold f2_witness, byte_ok. repeat constructor. }
  split; vm_compute; reflexivity.
Qed.
