(* Property C03 - the index-walking transcription of LineString.IsSimple (is_simple_idx: getLine,
   firstAndLastLines, previousLine, nextLine exactly as in geom/type_sequence.go) equals the form
   over the list of valid lines (is_simple) that ring_simple_spec_lemma (Proofs/Validate_proofs.v) and the invariance theorems are
   about.  Route: the valid indices V (strictly increasing) enumerate as_lines; previousLine /
   nextLine / first / last of a valid index are its neighbours / the ends of V. *)
From Coq Require Import QArith List Bool ZArith Lia Arith.
From SF Require Import Base.GeomAST Base.QKernel Model.Validate Proofs.Validate_kernel Proofs.Validate_proofs.
Import ListNotations.

(* ------------------------------------------------------------------ the valid lines by index *)
Definition valid (ps : list pt) (i : nat) : bool := match get_line ps i with Some _ => true | None => false end.
Definition opt_list {A} (o : option A) : list A := match o with Some s => [s] | None => [] end.
Definition V (ps : list pt) : list nat := filter (valid ps) (seq 0 (length ps)).

Lemma get_line_shift a ps k : get_line (a :: ps) (S (S k)) = get_line ps (S k).
Proof. reflexivity. Qed.
Lemma get_line_lt ps i s : get_line ps i = Some s -> (0 < i < length ps)%nat.
Proof.
  destruct i as [|k]; [discriminate|]. unfold get_line.
  destruct (nth_error ps k) eqn:E1; [|discriminate]. destruct (nth_error ps (S k)) eqn:E2; [|discriminate].
  intros _. split; [lia|]. apply nth_error_Some. congruence.
Qed.

Lemma as_lines_flat ps : as_lines ps = flat_map (fun i => opt_list (get_line ps i)) (seq 0 (length ps)).
Proof.
  induction ps as [|a r IH]; [reflexivity|]. cbn [length seq flat_map]. change (get_line (a :: r) 0) with (@None seg). cbn [opt_list app].
  destruct r as [|b r']; [reflexivity|]. rewrite as_lines_cons2. cbn [length seq flat_map].
  assert (E1 : opt_list (get_line (a :: b :: r') 1) = if pt_eqb a b then [] else [(a, b)]).
  { unfold get_line. cbn [nth_error]. destruct (pt_eqb a b); reflexivity. }
  rewrite E1.
  assert (E2 : flat_map (fun i => opt_list (get_line (a :: b :: r') i)) (seq 2 (length r')) = as_lines (b :: r')).
  { rewrite IH. cbn [length seq flat_map]. change (get_line (b :: r') 0) with (@None seg). cbn [opt_list app].
    rewrite <- (seq_shift (length r') 1), flat_map_map. apply flat_map_ext_in. intros i Hi. apply in_seq in Hi.
    destruct i as [|k]; [lia|]. rewrite get_line_shift. reflexivity. }
  rewrite E2. destruct (pt_eqb a b); reflexivity.
Qed.

Lemma flat_opt_filter {A B} (f : A -> option B) (d : B) l :
  flat_map (fun i => opt_list (f i)) l
  = map (fun i => match f i with Some s => s | None => d end) (filter (fun i => match f i with Some _ => true | None => false end) l).
Proof. induction l as [|a r IH]; [reflexivity|]. simpl. destruct (f a) eqn:E; simpl; rewrite IH; [rewrite E|]; reflexivity. Qed.

Lemma V_in ps i : In i (V ps) <-> valid ps i = true.
Proof.
  unfold V. rewrite filter_In, in_seq. split; [tauto|]. intros H. split; [|exact H].
  unfold valid in H. destruct (get_line ps i) eqn:E; [|discriminate]. apply get_line_lt in E. lia.
Qed.

Lemma as_lines_nth ps k s :
  nth_error (as_lines ps) k = Some s <-> exists i, nth_error (V ps) k = Some i /\ get_line ps i = Some s.
Proof.
  rewrite as_lines_flat, (flat_opt_filter (get_line ps) ((0,0),(0,0))%Q). fold (valid ps). fold (V ps).
  rewrite nth_error_map. split.
  - destruct (nth_error (V ps) k) as [i|] eqn:E; [|discriminate]. simpl. intros H. exists i. split; [reflexivity|].
    assert (Hv : valid ps i = true) by (apply V_in; eapply nth_error_In; exact E).
    unfold valid in Hv. destruct (get_line ps i); [congruence | discriminate].
  - intros [i [E1 E2]]. rewrite E1. simpl. rewrite E2. reflexivity.
Qed.
Lemma as_lines_length_V ps : length (as_lines ps) = length (V ps).
Proof.
  rewrite as_lines_flat, (flat_opt_filter (get_line ps) ((0,0),(0,0))%Q). rewrite map_length. reflexivity.
Qed.

(* V is strictly increasing *)
Lemma filter_seq_mono (f : nat -> bool) n : forall a k l i j, (k < l)%nat ->
  nth_error (filter f (seq a n)) k = Some i -> nth_error (filter f (seq a n)) l = Some j -> (i < j)%nat.
Proof.
  induction n as [|n IH]; intros a k l i j Hkl Hk Hl; [destruct k; discriminate|].
  cbn [seq filter] in Hk, Hl. destruct (f a).
  - destruct l as [|l]; [lia|]. cbn [nth_error] in Hl.
    assert (Hj : (S a <= j)%nat).
    { apply nth_error_In in Hl. apply filter_In in Hl. destruct Hl as [Hl _]. apply in_seq in Hl. lia. }
    destruct k as [|k]; [simpl in Hk; inversion Hk; subst; lia|]. cbn [nth_error] in Hk.
    apply (IH (S a) k l i j); [lia | exact Hk | exact Hl].
  - apply (IH (S a) k l i j); assumption.
Qed.
Lemma V_mono ps k l i j : (k < l)%nat -> nth_error (V ps) k = Some i -> nth_error (V ps) l = Some j -> (i < j)%nat.
Proof. apply filter_seq_mono. Qed.
Lemma V_pos_lt ps k l i j : nth_error (V ps) k = Some i -> nth_error (V ps) l = Some j -> (i < j)%nat -> (k < l)%nat.
Proof.
  intros Hk Hl Hij. destruct (lt_eq_lt_dec k l) as [[H|H]|H]; [exact H | subst; rewrite Hk in Hl; inversion Hl; lia|].
  pose proof (V_mono ps l k j i H Hl Hk). lia.
Qed.
Lemma V_inj ps k l i : nth_error (V ps) k = Some i -> nth_error (V ps) l = Some i -> k = l.
Proof.
  intros Hk Hl. destruct (lt_eq_lt_dec k l) as [[H|H]|H]; [|exact H|].
  - pose proof (V_mono ps k l i i H Hk Hl). lia.
  - pose proof (V_mono ps l k i i H Hl Hk). lia.
Qed.

Lemma find_hd_filter {A} (f : A -> bool) l : find f l = hd_error (filter f l).
Proof. induction l as [|a r IH]; [reflexivity|]. simpl. destruct (f a); [reflexivity | exact IH]. Qed.
Lemma filter_rev' {A} (f : A -> bool) l : filter f (rev l) = rev (filter f l).
Proof.
  induction l as [|a r IH]; [reflexivity|]. simpl. rewrite filter_app, IH. simpl. destruct (f a); simpl; [reflexivity | rewrite app_nil_r; reflexivity].
Qed.

Lemma V_seq1 ps : V ps = filter (valid ps) (seq 1 (length ps - 1)).
Proof.
  unfold V. destruct ps as [|a r]; [reflexivity|].
  replace (length (a :: r) - 1)%nat with (length r) by (simpl; lia). cbn [length seq filter].
  change (valid (a :: r) 0) with false. reflexivity.
Qed.
Lemma first_line_V ps : first_line ps = hd_error (V ps).
Proof. unfold first_line. rewrite find_hd_filter. fold (valid ps). rewrite <- V_seq1. reflexivity. Qed.
Lemma last_line_V ps : last_line ps = hd_error (rev (V ps)).
Proof. unfold last_line. rewrite find_hd_filter. fold (valid ps). rewrite filter_rev', <- V_seq1. reflexivity. Qed.

Lemma first_line_pos ps f : first_line ps = Some f -> nth_error (V ps) 0 = Some f.
Proof. rewrite first_line_V. destruct (V ps); simpl; auto. Qed.
Lemma last_line_pos ps l : last_line ps = Some l -> nth_error (V ps) (length (V ps) - 1) = Some l /\ (1 <= length (V ps))%nat.
Proof.
  rewrite last_line_V. intros H.
  destruct (V ps) as [|x r _] using rev_ind; [discriminate|].
  rewrite rev_app_distr in H. simpl in H. inversion H; subst. rewrite app_length. simpl.
  split; [|lia]. replace (length r + 1 - 1)%nat with (length r) by lia.
  rewrite nth_error_app2 by lia. rewrite Nat.sub_diag. reflexivity.
Qed.
Lemma first_last_none ps : (first_line ps = None \/ last_line ps = None) -> V ps = [].
Proof.
  rewrite first_line_V, last_line_V. intros [H|H]; destruct (V ps) as [|x r] eqn:E; try reflexivity; try discriminate.
  destruct (rev (x :: r)) eqn:E2; [|discriminate]. apply (f_equal (@length nat)) in E2. rewrite rev_length in E2. discriminate.
Qed.
Lemma first_last_some ps : V ps <> [] -> exists f l, first_line ps = Some f /\ last_line ps = Some l.
Proof.
  rewrite first_line_V, last_line_V. intros H. destruct (V ps) as [|x r] eqn:E; [congruence|].
  destruct (rev (x :: r)) as [|y t] eqn:E2.
  - apply (f_equal (@length nat)) in E2. rewrite rev_length in E2. discriminate.
  - exists x, y. split; reflexivity.
Qed.

Lemma previous_line_lt ps i p : previous_line ps i = Some p -> (p < i)%nat.
Proof.
  induction i as [|k IH]; [discriminate|]. simpl. destruct (get_line ps k); [intros H; inversion H; lia|].
  intros H. specialize (IH H). lia.
Qed.

Lemma next_line_fuel_spec ps : forall fuel s,
  match next_line_fuel ps fuel s with
  | Some j => (s <= j < s + fuel)%nat /\ valid ps j = true /\ forall t, (s <= t < j)%nat -> valid ps t = false
  | None => forall t, (s <= t < s + fuel)%nat -> valid ps t = false
  end.
Proof.
  induction fuel as [|f IH]; intros s; simpl; [intros t Ht; lia|].
  destruct (get_line ps s) eqn:E.
  - split; [lia|]. split; [unfold valid; rewrite E; reflexivity | intros t Ht; lia].
  - specialize (IH (S s)). destruct (next_line_fuel ps f (S s)) as [j|].
    + destruct IH as [H1 [H2 H3]]. split; [lia|]. split; [exact H2|]. intros t Ht.
      destruct (Nat.eq_dec t s) as [->|Hne]; [unfold valid; rewrite E; reflexivity | apply H3; lia].
    + intros t Ht. destruct (Nat.eq_dec t s) as [->|Hne]; [unfold valid; rewrite E; reflexivity | apply IH; lia].
Qed.

(* for two valid indices i = V[k] < j = V[l]: j is the next line of i iff l = k + 1 *)
Lemma next_line_pos ps k l i j : (k < l)%nat ->
  nth_error (V ps) k = Some i -> nth_error (V ps) l = Some j ->
  opt_nat_eqb (next_line ps i) j = Nat.eqb l (S k).
Proof.
  intros Hkl Hk Hl.
  assert (Hij : (i < j)%nat) by (apply (V_mono ps k l i j Hkl Hk Hl)).
  assert (Vj : valid ps j = true) by (apply V_in; eapply nth_error_In; exact Hl).
  assert (Hjn : (j < length ps)%nat).
  { unfold valid in Vj. destruct (get_line ps j) eqn:E; [|discriminate]. apply get_line_lt in E. lia. }
  unfold next_line. pose proof (next_line_fuel_spec ps (length ps - S i) (S i)) as NS.
  destruct (next_line_fuel ps (length ps - S i) (S i)) as [j'|].
  - destruct NS as [S1 [S2 S3]]. simpl.
    assert (Hj' : In j' (V ps)) by (apply V_in; exact S2). destruct (In_nth_error _ _ Hj') as [u Hu].
    destruct (Nat.eqb l (S k)) eqn:E.
    + apply Nat.eqb_eq in E. subst l. apply Nat.eqb_eq.
      (* j' is valid, > i, and nothing valid lies in (i, j'): j' = j *)
      destruct (lt_eq_lt_dec j' j) as [[H|H]|H]; [|exact H|].
      * exfalso. assert (k < u)%nat by (apply (V_pos_lt ps k u i j' Hk Hu); lia).
        assert (u < S k)%nat by (apply (V_pos_lt ps u (S k) j' j Hu Hl H)). lia.
      * exfalso. specialize (S3 j ltac:(lia)). congruence.
    + apply Nat.eqb_neq in E. apply Nat.eqb_neq. intros ->.
      (* V[k+1] lies strictly between i and j *)
      destruct (nth_error (V ps) (S k)) as [t|] eqn:Et.
      * assert (i < t)%nat by (apply (V_mono ps k (S k) i t ltac:(lia) Hk Et)).
        assert (t < j)%nat by (apply (V_mono ps (S k) l t j ltac:(lia) Et Hl)).
        assert (valid ps t = true) by (apply V_in; eapply nth_error_In; exact Et).
        specialize (S3 t ltac:(lia)). congruence.
      * apply nth_error_None in Et. assert (l < length (V ps))%nat by (apply nth_error_Some; congruence). lia.
  - exfalso. specialize (NS j ltac:(lia)). congruence.
Qed.

Lemma core_eqs ps f l k l' i j : (k < l')%nat ->
  first_line ps = Some f -> last_line ps = Some l ->
  nth_error (V ps) k = Some i -> nth_error (V ps) l' = Some j ->
  opt_nat_eqb (previous_line ps i) j = false
  /\ opt_nat_eqb (next_line ps i) j = Nat.eqb l' (S k)
  /\ Nat.eqb i f = Nat.eqb k 0
  /\ Nat.eqb j l = Nat.eqb (S l') (length (as_lines ps)).
Proof.
  intros Hkl Hf Hl Hk Hl'.
  assert (Hij : (i < j)%nat) by (apply (V_mono ps k l' i j Hkl Hk Hl')).
  split; [|split; [|split]].
  - destruct (previous_line ps i) as [p|] eqn:E; [|reflexivity]. simpl. apply previous_line_lt in E. apply Nat.eqb_neq. lia.
  - apply next_line_pos; assumption.
  - apply first_line_pos in Hf. destruct (Nat.eqb k 0) eqn:E.
    + apply Nat.eqb_eq in E. subst k. rewrite Hf in Hk. inversion Hk. apply Nat.eqb_refl.
    + apply Nat.eqb_neq in E. apply Nat.eqb_neq. intros ->. apply E. exact (V_inj ps k 0 f Hk Hf).
  - rewrite as_lines_length_V. apply last_line_pos in Hl. destruct Hl as [Hl Hm].
    destruct (Nat.eqb (S l') (length (V ps))) eqn:E.
    + apply Nat.eqb_eq in E. replace (length (V ps) - 1)%nat with l' in Hl by lia. rewrite Hl in Hl'. inversion Hl'. apply Nat.eqb_refl.
    + apply Nat.eqb_neq in E. apply Nat.eqb_neq. intros ->. apply E.
      pose proof (V_inj ps l' (length (V ps) - 1) l Hl' Hl). lia.
Qed.

(* the index-walking transcription of LineString.IsSimple (getLine / firstAndLastLines /
   previousLine / nextLine as in type_sequence.go) computes the same boolean as the form over the
   list of valid lines that the theorems are about *)
Theorem is_simple_idx_eq_lemma ps : is_simple_idx ps = is_simple ps.
Proof.
  destruct (V ps) as [|v0 vr] eqn:EV.
  - (* no valid line *)
    assert (E1 : first_line ps = None) by (rewrite first_line_V, EV; reflexivity).
    unfold is_simple_idx. rewrite E1. unfold is_simple.
    assert (E2 : as_lines ps = []) by (apply length_zero_iff_nil; rewrite as_lines_length_V, EV; reflexivity).
    rewrite E2. reflexivity.
  - destruct (first_last_some ps) as [f [l [Ef El]]]; [rewrite EV; discriminate|].
    unfold is_simple_idx. rewrite Ef, El. apply eq_true_iff_eq.
    unfold is_simple. rewrite simple_from_iff. split.
    + intros H k l' sk sl Hkl Hk Hl'. cbn [Nat.add].
      apply as_lines_nth in Hk. apply as_lines_nth in Hl'. destruct Hk as [i [Vi Gi]], Hl' as [j [Vj Gj]].
      destruct (core_eqs ps f l k l' i j Hkl Ef El Vi Vj) as [C1 [C2 [C3 C4]]].
      assert (Hij : (i < j)%nat) by (apply (V_mono ps k l' i j Hkl Vi Vj)).
      rewrite forallb_forall in H. specialize (H i). rewrite Gi in H.
      assert (Hi : In i (seq 0 (length ps))) by (apply in_seq; apply get_line_lt in Gi; lia).
      specialize (H Hi). rewrite forallb_forall in H. specialize (H j).
      assert (Hj : In j (seq 0 (length ps))) by (apply in_seq; apply get_line_lt in Gj; lia).
      specialize (H Hj). assert (Eji : Nat.leb j i = false) by (apply Nat.leb_gt; exact Hij). rewrite Eji, Gj in H.
      unfold pair_simple. destruct (intersect_line sk sl) as [|pa pb]; [reflexivity|].
      destruct (negb (pt_eqb pa pb)); [exact H|]. rewrite C1, C2, C3, C4 in H. cbn [orb] in H. exact H.
    + intros H. apply forallb_forall. intros i Hi. destruct (get_line ps i) as [si|] eqn:Gi; [|reflexivity].
      apply forallb_forall. intros j Hj. destruct (Nat.leb j i) eqn:Eji; [reflexivity|].
      destruct (get_line ps j) as [sj|] eqn:Gj; [|reflexivity]. apply Nat.leb_gt in Eji.
      assert (Ii : In i (V ps)) by (apply V_in; unfold valid; rewrite Gi; reflexivity).
      assert (Ij : In j (V ps)) by (apply V_in; unfold valid; rewrite Gj; reflexivity).
      destruct (In_nth_error _ _ Ii) as [k Vi]. destruct (In_nth_error _ _ Ij) as [l' Vj].
      assert (Hkl : (k < l')%nat) by (apply (V_pos_lt ps k l' i j Vi Vj Eji)).
      destruct (core_eqs ps f l k l' i j Hkl Ef El Vi Vj) as [C1 [C2 [C3 C4]]].
      assert (Hk : nth_error (as_lines ps) k = Some si) by (apply as_lines_nth; eauto).
      assert (Hl' : nth_error (as_lines ps) l' = Some sj) by (apply as_lines_nth; eauto).
      specialize (H k l' si sj Hkl Hk Hl'). cbn [Nat.add] in H. unfold pair_simple in H.
      destruct (intersect_line si sj) as [|pa pb]; [reflexivity|].
      destruct (negb (pt_eqb pa pb)); [exact H|]. rewrite C1, C2, C3, C4. cbn [orb]. exact H.
Qed.
