(* Basic facts about the helper functions of Model/Carto.v (atan2 and sign by cases, the centre
   branches of the azimuthal inverses) and the evaluation tactic [c19_solve] used by the generated
   correspondence goals (tools/c19_run.py). *)

From Coq Require Import Reals Lra.
From Interval Require Import Tactic.
From SF Require Import Model.Carto.
Local Open Scope R_scope.

Lemma atan2_pos y x : 0 < x -> atan2 y x = atan (y / x).
Proof. intros H. unfold atan2. destruct (Rlt_dec 0 x); [reflexivity | contradiction]. Qed.

Lemma atan2_neg_nonneg y x : x < 0 -> 0 <= y -> atan2 y x = atan (y / x) + PI.
Proof.
  intros H Hy. unfold atan2.
  destruct (Rlt_dec 0 x); [lra|]. destruct (Rlt_dec x 0); [|lra].
  destruct (Rle_dec 0 y); [reflexivity | contradiction].
Qed.

Lemma atan2_neg_neg y x : x < 0 -> y < 0 -> atan2 y x = atan (y / x) - PI.
Proof.
  intros H Hy. unfold atan2.
  destruct (Rlt_dec 0 x); [lra|]. destruct (Rlt_dec x 0); [|lra].
  destruct (Rle_dec 0 y); [lra | reflexivity].
Qed.

Lemma atan2_zero_pos y : 0 < y -> atan2 y 0 = PI / 2.
Proof.
  intros H. unfold atan2.
  destruct (Rlt_dec 0 0); [lra|]. destruct (Rlt_dec 0 y); [reflexivity | contradiction].
Qed.

Lemma atan2_zero_neg y : y < 0 -> atan2 y 0 = - (PI / 2).
Proof.
  intros H. unfold atan2.
  destruct (Rlt_dec 0 0); [lra|]. destruct (Rlt_dec 0 y); [lra|].
  destruct (Rlt_dec y 0); [reflexivity | contradiction].
Qed.

Lemma atan2_zero_zero : atan2 0 0 = 0.
Proof.
  unfold atan2. destruct (Rlt_dec 0 0); [lra|]. reflexivity.
Qed.

Lemma sign_pos x : 0 < x -> sign x = 1.
Proof. intros H. unfold sign. destruct (Rle_dec 0 x); [reflexivity | lra]. Qed.

Lemma sign_neg x : x < 0 -> sign x = -1.
Proof. intros H. unfold sign. destruct (Rle_dec 0 x); [lra | reflexivity]. Qed.

Lemma polar_atan rho th : rho <> 0 -> - (PI / 2) < th < PI / 2 ->
  atan (rho * sin th / (rho * cos th)) = th.
Proof.
  intros Hr Ht. assert (Hc : 0 < cos th) by (apply cos_gt_0; lra).
  replace (rho * sin th / (rho * cos th)) with (tan th) by (unfold tan; field; split; lra).
  apply atan_tan. exact Ht.
Qed.

Lemma sin_minus_PI x : sin (x - PI) = - sin x.
Proof. rewrite sin_minus, cos_PI, sin_PI. ring. Qed.

Lemma cos_minus_PI x : cos (x - PI) = - cos x.
Proof. rewrite cos_minus, cos_PI, sin_PI. ring. Qed.

Lemma atan2_polar r t : 0 < r -> - PI < t <= PI -> atan2 (r * sin t) (r * cos t) = t.
Proof.
  intros Hr [Hl Hu]. pose proof PI_RGT_0 as Hpi.
  (* behind the y axis the point is the reflection through the origin of the one with angle u = t -+ pi *)
  assert (Hback : forall u, - (PI / 2) < u < PI / 2 -> atan (r * - sin u / (r * - cos u)) = u).
  { intros u Hu'. replace (r * - sin u / (r * - cos u)) with (- r * sin u / (- r * cos u)) by (f_equal; ring).
    apply polar_atan; lra. }
  destruct (Rlt_dec t (- (PI / 2))) as [H1|H1].
  { set (u := t + PI). assert (Hu' : 0 < u < PI / 2) by (unfold u; lra).
    assert (Hc : 0 < cos u) by (apply cos_gt_0; lra).
    assert (Hs : 0 < sin u) by (apply sin_gt_0; lra).
    replace t with (u - PI) by (unfold u; ring).
    rewrite sin_minus_PI, cos_minus_PI, atan2_neg_neg by nra. rewrite Hback by lra. reflexivity. }
  destruct (Req_dec t (- (PI / 2))) as [E|NE].
  { subst t. rewrite cos_neg, sin_neg, cos_PI2, sin_PI2, Rmult_0_r.
    apply atan2_zero_neg. nra. }
  destruct (Rlt_dec t (PI / 2)) as [H2|H2].
  { assert (Hc : 0 < cos t) by (apply cos_gt_0; lra).
    rewrite atan2_pos by nra. apply polar_atan; lra. }
  destruct (Req_dec t (PI / 2)) as [E|NE'].
  { subst t. rewrite cos_PI2, sin_PI2, Rmult_0_r. apply atan2_zero_pos. nra. }
  set (u := t - PI). assert (Hu' : - (PI / 2) < u <= 0) by (unfold u; lra).
  assert (Hc : 0 < cos u) by (apply cos_gt_0; lra).
  assert (Hs : 0 <= sin (- u)) by (apply sin_ge_0; lra). rewrite sin_neg in Hs.
  replace t with (u + PI) by (unfold u; ring).
  rewrite neg_sin, neg_cos, atan2_neg_nonneg by nra. rewrite Hback by lra. reflexivity.
Qed.

Lemma atan2_sin_cos t : - (PI / 2) <= t <= PI / 2 -> atan2 (sin t) (cos t) = t.
Proof.
  intros H. pose proof PI_RGT_0. rewrite <- (Rmult_1_l (sin t)), <- (Rmult_1_l (cos t)).
  apply atan2_polar; lra.
Qed.

Lemma unit_circle_angle s c : s * s + c * c = 1 -> exists t, - PI < t <= PI /\ sin t = s /\ cos t = c.
Proof.
  intros E. pose proof (Rle_0_sqr s) as H0. unfold Rsqr in H0.
  assert (Hc : -1 <= c <= 1) by (split; nra).
  pose proof PI_RGT_0 as Hpi. pose proof (acos_bound c) as [Hb1 Hb2]. pose proof (cos_acos c Hc) as Ec.
  pose proof (sin2_cos2 (acos c)) as E2. unfold Rsqr in E2. rewrite Ec in E2.
  assert (Hs : 0 <= sin (acos c)) by (apply sin_ge_0; assumption).
  destruct (Rle_dec 0 s) as [H|H].
  - exists (acos c). split; [lra|]. split; [|exact Ec].
    apply Rsqr_inj; [exact Hs | exact H | unfold Rsqr; lra].
  - assert (Es : sin (acos c) = - s) by (apply Rsqr_inj; [exact Hs | lra | unfold Rsqr; lra]).
    exists (- acos c). rewrite sin_neg, cos_neg. split; [|split; [lra | exact Ec]].
    (* acos c = pi would make s = 0 *)
    destruct Hb2 as [Hb2|Hb2]; [lra|]. rewrite Hb2, sin_PI in Es. lra.
Qed.

Lemma atan2_sin_cos_of a b : 0 < sq a + sq b ->
  sin (atan2 a b) = a / sqrt (sq a + sq b) /\ cos (atan2 a b) = b / sqrt (sq a + sq b).
Proof.
  unfold sq. intros H. set (r := sqrt (a * a + b * b)).
  assert (Hr : 0 < r) by (apply sqrt_lt_R0, H).
  assert (Er : r * r = a * a + b * b) by (apply sqrt_sqrt; lra).
  destruct (unit_circle_angle (a / r) (b / r)) as (t & Ht & Es & Ec).
  { replace (a / r * (a / r) + b / r * (b / r)) with ((a * a + b * b) / (r * r)) by (field; lra).
    rewrite Er. field. lra. }
  replace (atan2 a b) with t; [split; assumption|].
  rewrite <- (atan2_polar r t Hr Ht), Es, Ec. f_equal; field; lra.
Qed.

(* both azimuthal inverses branch on rho = sqrt (x x + y y) being 0 *)

Lemma rho_zero : sqrt (0 * 0 + 0 * 0) = 0.
Proof. replace (0 * 0 + 0 * 0) with 0 by ring. apply sqrt_0. Qed.

Lemma if_rho_zero {T} (a b : T) : (if Req_EM_T (sqrt (0 * 0 + 0 * 0)) 0 then a else b) = a.
Proof. destruct (Req_EM_T _ 0) as [_|N]; [reflexivity | destruct (N rho_zero)]. Qed.

Lemma if_rho_pos {T} x y (a b : T) : 0 < x * x + y * y ->
  (if Req_EM_T (sqrt (x * x + y * y)) 0 then a else b) = b.
Proof. intros H. apply sqrt_lt_R0 in H. destruct (Req_EM_T _ 0); [lra | reflexivity]. Qed.

Lemma azeq_rev_lat_centre c : azeq_rev_lat c 0 0 = az_lat0 c.
Proof. apply if_rho_zero. Qed.

Lemma azeq_rev_lon_centre c : azeq_rev_lon c 0 0 = az_lon0 c.
Proof. apply if_rho_zero. Qed.

Lemma azeq_rev_lat_off c x y : 0 < x * x + y * y ->
  azeq_rev_lat c x y =
  rtod (asin (cos (sqrt (x * x + y * y) / az_R c) * sin (az_phi0 c)
              + (y * sin (sqrt (x * x + y * y) / az_R c) * cos (az_phi0 c)) / sqrt (x * x + y * y))).
Proof. apply if_rho_pos. Qed.

Lemma azeq_rev_lon_off c x y : 0 < x * x + y * y ->
  azeq_rev_lon c x y =
  rtod (az_lam0 c
        + atan2 (x * sin (sqrt (x * x + y * y) / az_R c))
                (sqrt (x * x + y * y) * cos (az_phi0 c) * cos (sqrt (x * x + y * y) / az_R c)
                 - y * sin (az_phi0 c) * sin (sqrt (x * x + y * y) / az_R c))).
Proof. apply if_rho_pos. Qed.

Lemma or_rev_lat_centre c : or_rev_lat c 0 0 = rtod (atan2 (or_sinphi0 c) (or_cosphi0 c)).
Proof. apply if_rho_zero. Qed.

Lemma or_rev_lon_centre c : or_rev_lon c 0 0 = rtod (az_lam0 c).
Proof. apply if_rho_zero. Qed.

Lemma or_rev_lat_off c x y : 0 < x * x + y * y ->
  or_rev_lat c x y =
  rtod (asin (cos (or_rev_c c x y) * or_sinphi0 c
              + y * sin (or_rev_c c x y) * or_cosphi0 c / sqrt (x * x + y * y))).
Proof. apply if_rho_pos. Qed.

Lemma or_rev_lon_off c x y : 0 < x * x + y * y ->
  or_rev_lon c x y =
  rtod (az_lam0 c
        + atan2 (x * sin (or_rev_c c x y))
                (sqrt (x * x + y * y) * cos (or_rev_c c x y) * or_cosphi0 c
                 - y * sin (or_rev_c c x y) * or_sinphi0 c)).
Proof. apply if_rho_pos. Qed.

Lemma az_dl_centre c : dtor (az_lon0 c) - az_lam0 c = 0.
Proof. apply Rminus_diag_eq. reflexivity. Qed.

Lemma az_A_centre c : az_A c (az_lon0 c) (az_lat0 c) = 0.
Proof.
  unfold az_A. rewrite az_dl_centre, sin_0. ring.
Qed.

Lemma az_B_centre c : az_B c (az_lon0 c) (az_lat0 c) = 0.
Proof.
  unfold az_B. rewrite az_dl_centre, cos_0. unfold az_phi0. ring.
Qed.

Lemma az_C_centre c : az_C c (az_lon0 c) (az_lat0 c) = 1.
Proof.
  unfold az_C. rewrite az_dl_centre, cos_0. unfold az_phi0.
  generalize (sin2_cos2 (dtor (az_lat0 c))). unfold Rsqr. lra.
Qed.

Lemma azeq_rho_centre c : azeq_rho c (az_lon0 c) (az_lat0 c) = 0.
Proof.
  unfold azeq_rho. rewrite az_A_centre, az_B_centre, az_C_centre.
  unfold sq. replace (0 * 0 + 0 * 0) with 0 by ring. rewrite sqrt_0.
  rewrite atan2_pos by lra. replace (0 / 1) with 0 by field. rewrite atan_0. ring.
Qed.

Lemma azeq_fwd_x_centre c : azeq_fwd_x c (az_lon0 c) (az_lat0 c) = 0.
Proof. unfold azeq_fwd_x. rewrite azeq_rho_centre. ring. Qed.

Lemma azeq_fwd_y_centre c : azeq_fwd_y c (az_lon0 c) (az_lat0 c) = 0.
Proof. unfold azeq_fwd_y. rewrite azeq_rho_centre. ring. Qed.

Ltac c19_unfold :=
  unfold er_fwd_x, er_fwd_y, er_rev_lon, er_rev_lat, er_lam0, er_cosphi1,
         sn_fwd_x, sn_fwd_y, sn_rev_lon, sn_rev_lat, sn_lam0,
         lc_fwd_x, lc_fwd_y, lc_rev_lon, lc_rev_lat, lc_lam0,
         wm_fwd_x, wm_fwd_y, wm_rev_lon, wm_rev_lat, wm_P,
         lcc_fwd_x, lcc_fwd_y, lcc_rev_lon, lcc_rev_lat, lcc_rev_theta, lcc_rev_rho, lcc_rho0, lcc_rho, lcc_F, lcc_n,
         alb_fwd_x, alb_fwd_y, alb_rev_lon, alb_rev_lat, alb_rev_theta, alb_rev_rho, alb_rho0, alb_rho, alb_C, alb_n,
         eqdc_fwd_x, eqdc_fwd_y, eqdc_rev_lon, eqdc_rev_lat, eqdc_rev_theta, eqdc_rev_rho, eqdc_rho0, eqdc_rho, eqdc_G, eqdc_n,
         azeq_fwd_x, azeq_fwd_y, azeq_rho, azeq_theta, az_A, az_B, az_C,
         or_fwd_x, or_fwd_y, or_rev_c, or_rev_rho, or_sinphi0, or_cosphi0,
         cn_lam0, cn_phi0, cn_phi1, cn_phi2, az_lam0, az_phi0,
         sec, cot, sq, pow, dtor, rtod;
  cbn [er_R er_lon0 er_lat1 sn_R sn_lon0 lc_R lc_lon0 wm_zoom
       cn_R cn_lon0 cn_lat0 cn_lat1 cn_lat2 az_R az_lon0 az_lat0];
  (* a point on the central meridian: lon - lon0 is exactly 0 *)
  repeat match goal with
         | |- context [?a - ?a] => replace (a - a) with 0 by ring
         end;
  rewrite ?sin_0, ?cos_0.

Ltac c19_ival := interval with (i_prec 80).

Ltac c19_branches :=
  repeat first
    [ rewrite sign_pos by c19_ival
    | rewrite sign_neg by c19_ival
    | rewrite atan2_pos by c19_ival
    | rewrite atan2_neg_nonneg by c19_ival
    | rewrite atan2_neg_neg by c19_ival ].

Ltac c19_trig :=
  repeat first
    [ rewrite cos_asin by (split; c19_ival)
    | rewrite sin_asin by (split; c19_ival) ].

Ltac c19_asin := repeat (rewrite asin_atan by (split; c19_ival)).

(* the generic script: unfold the model down to elementary functions, decide the case splits of
   sign and atan2 numerically, express asin by atan, evaluate *)
Ltac c19_solve := c19_unfold; c19_trig; c19_branches; c19_asin; c19_ival.

(* azimuthal inverses: away from the centre / exactly at the centre *)
Ltac c19_off lem := rewrite lem by c19_ival; c19_solve.
Ltac c19_centre :=
  c19_unfold;
  try (rewrite atan2_sin_cos by (pose proof PI_RGT_0; split; lra));
  c19_ival.
