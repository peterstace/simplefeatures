(* Translator tie for function bodies (DESIGN.md A.8b): the exact planar kernel coq/Base/QKernel.v
   (cross, orient, on_seg, edge_cross - the reference the geometric properties C01, C02, C03, C09,
   C14, C15 are stated with) against the bodies of geom/xy.go (Sub, Cross), geom/alg_orientation.go
   (orientation), geom/line.go (onSegment, intersectsXY) and geom/alg_point_in_ring.go
   (hasCrossing), as re-read from the Go source into Gen/Funcs.v on every run.  Carrier: Q.
   QKernel is written as mathematics, not as a transcription, so these are lemmas of agreement
   (each says what differs), proved by case analysis on the comparisons and linear arithmetic over
   the monomials.  An edited body in the Go source makes this file fail to compile. *)
From Coq Require Import ZArith QArith Bool Lia Lqa.
From SF Require Import Base.FOps Gen.Funcs Proofs.Funcs_tie_lib Base.QKernel.
Open Scope Q_scope.

Definition gpt (p : pt) : geom_XY Q := Mk_geom_XY (fst p) (snd p).
Definition gln (s : seg) : geom_line Q := Mk_geom_line (gpt (fst s)) (gpt (snd s)).
Definition gcmp (c : comparison) : Z :=
  match c with Gt => geom_leftTurn | Eq => geom_collinear | Lt => geom_rightTurn end.

Ltac qtie := intros; destruct_pairs; qtie0.

(* geom/alg_orientation.go: cp := q.Sub(p).Cross(s.Sub(q)), i.e. (q - p) x (s - q); QKernel.cross
   p q s is (q - p) x (s - p): equal as rationals (the difference is (q - p) x (q - p) = 0) *)
Lemma tie_cross : forall p q s,
  geom_XY_Cross qops (geom_XY_Sub qops (gpt q) (gpt p)) (geom_XY_Sub qops (gpt s) (gpt q)) == cross p q s.
Proof. intros [] [] []. cbv -[Qplus Qminus Qmult Qeq]. ring. Qed.

(* geom/alg_orientation.go:orientation is the sign of that number: leftTurn = Gt, collinear = Eq,
   rightTurn = Lt of QKernel.orient *)
Lemma tie_orient : forall p q s, geom_orientation qops (gpt p) (gpt q) (gpt s) = gcmp (orient p q s).
Proof.
  (* the first proof follows the switch of the Go body; should the body be rewritten into an
     equivalent one, the comparisons are decided case by case (here and below) *)
  first [ intros p q s; unfold orient; rewrite <- (tie_cross p q s);
          unfold geom_orientation; cbv zeta; apply q_switch_sign
        | qtie ].
Qed.
Lemma orient_collinear : forall a b p, Z.eqb (gcmp (orient a b p)) geom_collinear = Qeq_bool (cross a b p) 0.
Proof.
  intros. unfold orient, qsgn. generalize (cross a b p) as x. intro x.
  destruct (Qcompare_spec0 x 0), (Qeq_bool_spec x 0); (reflexivity || (exfalso; lra)).
Qed.

(* betweenness in one ordinate, as the Go code tests it: against fastMax / fastMin of the two ends
   (onSegment), and against the sorted pair of the two ends (uncheckedEnvelope, Contains) *)
Lemma between_minmax : forall a b x,
  Qle_bool x (if q_ltb b a then a else b) && Qle_bool (if q_ltb a b then a else b) x = qbetween a b x.
Proof. intros. unfold qbetween. destruct (q_ltb_spec b a), (q_ltb_spec a b); qtie_core. Qed.
Lemma between_sorted : forall a b x,
  (let '(lo, hi) := if q_ltb b a then (b, a) else (a, b) in Qle_bool lo x && Qle_bool x hi) = qbetween a b x.
Proof. intros. unfold qbetween. destruct (q_ltb_spec b a); cbv beta iota; qtie_core. Qed.

Lemma onSegment_between : forall p q r : geom_XY Q,
  geom_onSegment qops p q r
  = qbetween (geom_XY_X p) (geom_XY_X q) (geom_XY_X r) && qbetween (geom_XY_Y p) (geom_XY_Y q) (geom_XY_Y r).
Proof. first [ intros; rewrite <- !between_minmax; symmetry; apply andb_assoc | intros [] [] []; qtie0 ]. Qed.
Lemma line_envelope_contains : forall (ln : geom_line Q) (p : geom_XY Q),
  geom_Envelope_Contains qops (geom_line_uncheckedEnvelope qops ln) p
  = qbetween (geom_XY_X (geom_line_a ln)) (geom_XY_X (geom_line_b ln)) (geom_XY_X p)
    && qbetween (geom_XY_Y (geom_line_a ln)) (geom_XY_Y (geom_line_b ln)) (geom_XY_Y p).
Proof.
  intros [[ax ay] [bx by']] [px py]. cbn [geom_line_a geom_line_b geom_XY_X geom_XY_Y].
  first
    [ rewrite <- (between_sorted ax bx px), <- (between_sorted ay by' py);
      unfold geom_line_uncheckedEnvelope, geom_sortFloat64Pair; cbn [geom_line_a geom_line_b geom_XY_X geom_XY_Y];
      change (f_gtb qops ax bx) with (q_ltb bx ax); change (f_gtb qops ay by') with (q_ltb by' ay);
      destruct (q_ltb bx ax), (q_ltb by' ay); symmetry; apply andb_assoc
    | qtie0 ].
Qed.

(* geom/line.go:intersectsXY (bounding box of the line, then (xy - a) x (b - a) == 0 written as an
   equation between two products) is QKernel.on_seg (betweenness in x and y, then cross == 0) *)
Lemma tie_on_seg_intersectsXY : forall s p, geom_line_intersectsXY qops (gln s) (gpt p) = on_seg s p.
Proof.
  intros [a b] p. unfold geom_line_intersectsXY, on_seg. cbv zeta. rewrite line_envelope_contains.
  cbn [gln gpt fst snd geom_line_a geom_line_b geom_XY_X geom_XY_Y].
  destruct (qbetween _ _ _ && qbetween _ _ _); [|reflexivity].
  apply Qeq_bool_ext. unfold cross. cbn [qops qops_with f_sub f_mul]. split; intro H; lra.
Qed.

(* geom/line.go:onSegment is the bounding-box half of on_seg; together with a collinear
   orientation it is on_seg *)
Lemma tie_on_seg_onSegment : forall a b p,
  geom_onSegment qops (gpt a) (gpt b) (gpt p) && Z.eqb (geom_orientation qops (gpt a) (gpt b) (gpt p)) geom_collinear
  = on_seg (a, b) p.
Proof. intros a b p. rewrite onSegment_between, tie_orient, orient_collinear. reflexivity. Qed.

(* geom/alg_point_in_ring.go:hasCrossing.  onLine is on_seg.  crossing uses the same half-open
   rule in y as QKernel.edge_cross but shoots the ray towards -x where edge_cross shoots it
   towards +x: the two agree after mirroring in the y axis (their parities over a closed ring are
   equal, which is Intersects_proofs.parity_left_right). *)
Definition mirror (p : pt) : pt := (- fst p, snd p).
Lemma tie_hasCrossing_onLine : forall p a b, snd (geom_hasCrossing qops (gpt p) (gln (a, b))) = on_seg (a, b) p.
Proof.
  intros p a b. unfold geom_hasCrossing, on_seg. cbv zeta.
  (* collinearity does not depend on which end of the line is the lower one *)
  destruct (f_gtb qops _ _); cbn [snd]; rewrite line_envelope_contains; cbn [gln fst snd geom_line_a geom_line_b];
    rewrite tie_orient, orient_collinear; [|reflexivity].
  f_equal. apply Qeq_bool_ext. unfold cross. split; intro H; lra.
Qed.
Lemma tie_hasCrossing_crossing : forall p a b,
  fst (geom_hasCrossing qops (gpt p) (gln (a, b))) = edge_cross (mirror a) (mirror b) (mirror p).
Proof. qtie. Qed.
