(* Property C11 - proofs about the real priority queue (Model/RTreeHeap.v): Go's container/heap
   (up, down, Push, Pop) on entriesQueue establishes and re-establishes the binary-heap invariant,
   Pop returns a minimum; PrioritySearch / Nearest running on it meet their specifications. *)
From Coq Require Import ZArith List Bool Arith Lia Permutation FinFun.
From SF Require Import Base.Outcome Model.RTree Model.RTreeHeap Proofs.RTree_proofs
     Proofs.RTree_bulk_proofs Proofs.RTree_qp_proofs Proofs.RTree_prio_proofs.
Import ListNotations.
Open Scope nat_scope.

Section HeapProofs.
  Variable o : box.

  (* squared distance of the element at index n (0 outside the slice; only used inside) *)
  Definition dat (l : list entry) (n : nat) : Z :=
    match nth_error l n with Some e => dkey o e | None => 0%Z end.
  Lemma dat_nth l l' n m : nth_error l' n = nth_error l m -> dat l' n = dat l m.
  Proof. unfold dat. intros ->. reflexivity. Qed.

  Lemma q_swap_ok l i j :
    i < length l -> j < length l ->
    exists l', q_swap l i j = Some l' /\ length l' = length l /\ Permutation l' l /\
               nth_error l' i = nth_error l j /\ nth_error l' j = nth_error l i /\
               (forall n, n <> i -> n <> j -> nth_error l' n = nth_error l n).
  Proof.
    intros Hi Hj. destruct (nth_error_lt l i Hi) as [a Ea]. destruct (nth_error_lt l j Hj) as [b Eb].
    unfold q_swap. rewrite Ea, Eb, eupd_lupd. eexists. split; [reflexivity|]. apply lupd_swap; assumption.
  Qed.
  Lemma q_less_spec l i j :
    i < length l -> j < length l -> q_less o l i j = Some (dat l i <? dat l j)%Z.
  Proof.
    intros Hi Hj. unfold q_less, dat.
    destruct (nth_error_lt l i Hi) as [a ->]. destruct (nth_error_lt l j Hj) as [b ->]. reflexivity.
  Qed.

  Definition par (c : nat) : nat := Nat.div2 (c - 1).
  Lemma par_bounds c : 0 < c -> 2 * par c + 1 <= c <= 2 * par c + 2.
  Proof. intros H. unfold par. pose proof (div2_bounds (c - 1)). lia. Qed.

  (* every node among the first n is <= its children (in the squared-distance key) *)
  Definition heap_on (l : list entry) (n : nat) : Prop :=
    forall c, 0 < c < n -> (dat l (par c) <= dat l c)%Z.
  Definition is_heap (l : list entry) : Prop := heap_on l (length l).

  Lemma heap_root_min l : is_heap l -> forall c, c < length l -> (dat l 0 <= dat l c)%Z.
  Proof.
    intros H c. induction c as [c IH] using lt_wf_ind. intros Hc.
    destruct c as [|c]; [lia|]. pose proof (par_bounds (S c) ltac:(lia)) as Hp.
    specialize (IH (par (S c)) ltac:(lia) ltac:(lia)). specialize (H (S c) ltac:(lia)). lia.
  Qed.

  Definition up_inv (l : list entry) (j : nat) : Prop :=
    j < length l /\
    (forall c, 0 < c < length l -> c <> j -> (dat l (par c) <= dat l c)%Z) /\
    (forall c, 0 < c < length l -> par c = j -> 0 < j -> (dat l (par j) <= dat l c)%Z).

  Lemma up_loop_ok : forall fuel l j,
    j < fuel -> up_inv l j ->
    exists l', up_loop o fuel l j = Some l' /\ Permutation l' l /\ is_heap l'.
  Proof.
    induction fuel as [|f IH]; intros l j Hf (Hj & C1 & C2); [lia|]. cbn [up_loop]. fold (par j).
    destruct (Nat.eqb_spec (par j) j) as [E|E].
    - (* the root *)
      assert (j = 0) by (destruct j; [reflexivity|pose proof (par_bounds (S j) ltac:(lia)); lia]). subst j.
      exists l. split; [reflexivity|]. split; [reflexivity|]. intros c Hc. apply C1; lia.
    - assert (Hj0 : 0 < j) by (destruct j; [exfalso; apply E; reflexivity|lia]).
      pose proof (par_bounds j Hj0) as Hp. set (i := par j) in *.
      rewrite q_less_spec by lia. destruct (Z.ltb_spec (dat l j) (dat l i)) as [Hlt|Hge].
      + destruct (q_swap_ok l i j) as (l1 & -> & L & P & Ni & Nj & No); [lia|lia|].
        pose proof (dat_nth _ _ _ _ Ni) as Ki. pose proof (dat_nth _ _ _ _ Nj) as Kj.
        assert (Ko : forall n, n <> i -> n <> j -> dat l1 n = dat l n) by (intros; apply dat_nth; auto).
        destruct (IH l1 i ltac:(lia)) as (l' & E' & P' & H').
        { split; [lia|]. rewrite L. split.
          - intros c Hc Hci. pose proof (par_bounds c ltac:(lia)) as Hpc.
            destruct (Nat.eq_dec c j) as [->|Hcj]; [fold i; lia|].
            rewrite (Ko c) by lia. destruct (Nat.eq_dec (par c) i) as [Ei|Ei].
            + rewrite Ei, Ki. specialize (C1 c Hc Hcj). rewrite Ei in C1. lia.
            + destruct (Nat.eq_dec (par c) j) as [Ej|Ej].
              * rewrite Ej, Kj. apply (C2 c Hc Ej Hj0).
              * rewrite Ko by lia. apply C1; lia.
          - intros c Hc Epc Hi0. pose proof (par_bounds i Hi0) as Hpi.
            rewrite (Ko (par i)) by lia. pose proof (C1 i ltac:(lia) ltac:(lia)) as Hi1.
            destruct (Nat.eq_dec c j) as [->|Hcj]; [lia|].
            pose proof (par_bounds c ltac:(lia)). rewrite (Ko c) by lia.
            pose proof (C1 c Hc Hcj) as Hc1. rewrite Epc in Hc1. lia. }
        exists l'. split; [exact E'|]. split; [etransitivity; eauto|exact H'].
      + exists l. split; [reflexivity|]. split; [reflexivity|]. intros c Hc.
        destruct (Nat.eq_dec c j) as [->|Hcj]; [fold i; lia|]. apply C1; auto.
  Qed.

  (* container/heap.Push re-establishes the invariant *)
  Lemma heap_push_ok l x :
    is_heap l -> exists l', heap_push o l x = Some l' /\ Permutation l' (x :: l) /\ is_heap l'.
  Proof.
    intros H. unfold heap_push, heap_up. rewrite app_length. simpl.
    replace (length l + 1 - 1) with (length l) by lia.
    destruct (up_loop_ok (S (length l)) (l ++ [x]) (length l) ltac:(lia)) as (l' & E & P & H').
    { split; [rewrite app_length; simpl; lia|]. rewrite app_length. simpl. split.
      - intros c Hc Hcl. pose proof (par_bounds c ltac:(lia)).
        rewrite (dat_nth l (l ++ [x]) (par c) (par c)) by (apply nth_error_app1; lia).
        rewrite (dat_nth l (l ++ [x]) c c) by (apply nth_error_app1; lia). apply H. lia.
      - intros c Hc Epc _. pose proof (par_bounds c ltac:(lia)). lia. }
    exists l'. split; [exact E|]. split; [|exact H']. rewrite P. symmetry. apply Permutation_cons_append.
  Qed.

  Definition down_inv (l : list entry) (i n : nat) : Prop :=
    (forall c, 0 < c < n -> par c <> i -> (dat l (par c) <= dat l c)%Z) /\
    (forall c, 0 < c < n -> par c = i -> 0 < i -> (dat l (par i) <= dat l c)%Z).

  Lemma down_loop_ok : forall fuel l i n,
    n - i < fuel -> n <= length l -> down_inv l i n ->
    exists l', down_loop o fuel l i n = Some l' /\ Permutation l' l /\ length l' = length l /\
               heap_on l' n /\ (forall m, n <= m -> nth_error l' m = nth_error l m).
  Proof.
    induction fuel as [|f IH]; intros l i n Hf Hn (C1 & C2); [lia|]. cbn [down_loop].
    destruct (Nat.leb_spec n (2 * i + 1)) as [Hj1|Hj1].
    - (* no child below n *)
      exists l. split; [reflexivity|]. split; [reflexivity|]. split; [reflexivity|]. split; [|auto].
      intros c Hc. apply C1; [exact Hc|]. pose proof (par_bounds c ltac:(lia)). lia.
    - set (j1 := 2 * i + 1) in *.
      (* the smaller child j; s ranges over the children of i below n *)
      assert (exists c : bool,
                 (if j1 + 1 <? n then q_less o l (j1 + 1) j1 else Some false) = Some c /\
                 let j := if c then j1 + 1 else j1 in
                 j < n /\ par j = i /\ forall s, 0 < s < n -> par s = i -> (dat l j <= dat l s)%Z)
        as (c & -> & Hjn & Hpj & Hmin).
      { assert (Hch : forall s, 0 < s -> par s = i -> s = j1 \/ s = j1 + 1)
          by (intros s Hs Es; pose proof (par_bounds s Hs); lia).
        assert (Hp1 : par j1 = i) by (pose proof (par_bounds j1 ltac:(lia)); lia).
        assert (Hp2 : par (j1 + 1) = i) by (pose proof (par_bounds (j1 + 1) ltac:(lia)); lia).
        destruct (Nat.ltb_spec (j1 + 1) n) as [H2|H2].
        - rewrite q_less_spec by lia. eexists. split; [reflexivity|].
          destruct (Z.ltb_spec (dat l (j1 + 1)) (dat l j1)); cbv zeta; (split; [lia|]); (split; [assumption|]);
            intros s Hs Es; destruct (Hch s ltac:(lia) Es) as [->| ->]; lia.
        - exists false. split; [reflexivity|]. cbv zeta. split; [lia|]. split; [assumption|].
          intros s Hs Es. destruct (Hch s ltac:(lia) Es) as [->| ->]; lia. }
      set (j := if c then j1 + 1 else j1) in *. cbv zeta in Hjn, Hpj, Hmin.
      assert (Hij : i < j) by (subst j; destruct c; lia).
      rewrite q_less_spec by lia. destruct (Z.ltb_spec (dat l j) (dat l i)) as [Hlt|Hge].
      + destruct (q_swap_ok l i j) as (l1 & -> & L & P & Ni & Nj & No); [lia|lia|].
        pose proof (dat_nth _ _ _ _ Ni) as Ki. pose proof (dat_nth _ _ _ _ Nj) as Kj.
        assert (Ko : forall m, m <> i -> m <> j -> dat l1 m = dat l m) by (intros; apply dat_nth; auto).
        destruct (IH l1 j n ltac:(lia) ltac:(lia)) as (l' & E' & P' & L' & H' & U').
        { split.
          - intros s Hs Hps. pose proof (par_bounds s ltac:(lia)) as Hb.
            destruct (Nat.eq_dec s j) as [->|Hsj]; [rewrite Hpj; lia|].
            destruct (Nat.eq_dec s i) as [->|Hsi].
            + (* s = i: its parent is untouched *)
              assert (0 < i) by lia. rewrite Ko by lia. rewrite Ki.
              apply (C2 j ltac:(lia) Hpj ltac:(lia)).
            + rewrite (Ko s) by lia. destruct (Nat.eq_dec (par s) i) as [Ei|Ei].
              * rewrite Ei, Ki. apply Hmin; auto.
              * rewrite Ko by lia. apply C1; auto.
          - intros s Hs Eps _. pose proof (par_bounds s ltac:(lia)) as Hb.
            rewrite Hpj, Ki. rewrite (Ko s) by lia.
            pose proof (C1 s Hs ltac:(lia)) as Hc. rewrite Eps in Hc. exact Hc. }
        exists l'. split; [exact E'|]. split; [etransitivity; eauto|]. split; [congruence|]. split; [exact H'|].
        intros m Hm. rewrite U' by exact Hm. apply No; lia.
      + exists l. split; [reflexivity|]. split; [reflexivity|]. split; [reflexivity|]. split; [|auto].
        intros s Hs. destruct (Nat.eq_dec (par s) i) as [Ei|Ei]; [|apply C1; auto].
        rewrite Ei. specialize (Hmin s Hs Ei). lia.
  Qed.

  (* container/heap.Pop on a non-empty heap returns a minimum and leaves a heap *)
  Lemma heap_pop_ok l :
    is_heap l -> l <> [] ->
    exists e rest, heap_pop_go o l = Some (e, rest) /\ Permutation l (e :: rest) /\ is_heap rest /\
                   forall e', In e' rest -> (dkey o e <= dkey o e')%Z.
  Proof.
    intros H Hne. unfold heap_pop_go, heap_down.
    assert (Hlen : 0 < length l) by (destruct l; [congruence|simpl; lia]).
    set (n := length l - 1).
    destruct (q_swap_ok l 0 n) as (l1 & -> & L & P & N0 & Nn & No); [lia|lia|].
    destruct (down_loop_ok (S n) l1 0 n ltac:(lia) ltac:(lia)) as (l2 & -> & P2 & L2 & H2 & U2).
    { split; [|lia]. intros c Hc Hpc. pose proof (par_bounds c ltac:(lia)).
      rewrite (dat_nth l l1 (par c) (par c)) by (apply No; lia).
      rewrite (dat_nth l l1 c c) by (apply No; lia). apply H. lia. }
    assert (En : nth_error l2 n = nth_error l 0) by (rewrite U2 by lia; exact Nn).
    destruct (nth_error_lt l 0 Hlen) as [e E0]. rewrite En, E0.
    exists e, (firstn n l2). split; [reflexivity|].
    assert (Hsplit : l2 = firstn n l2 ++ [e]).
    { rewrite <- (firstn_skipn n l2) at 1. f_equal.
      assert (Hs : length (skipn n l2) = 1) by (rewrite skipn_length; lia).
      pose proof (nth_error_skipn' l2 n 0) as Hk. rewrite Nat.add_0_r, En, E0 in Hk.
      destruct (skipn n l2) as [|x [|y r]]; simpl in Hs; try lia. simpl in Hk. congruence. }
    assert (Pl : Permutation l (e :: firstn n l2)).
    { rewrite <- P, <- P2. rewrite Hsplit at 1. symmetry. apply Permutation_cons_append. }
    split; [exact Pl|]. split.
    - unfold is_heap. rewrite firstn_length. replace (Nat.min n (length l2)) with n by lia.
      intros c Hc. pose proof (par_bounds c ltac:(lia)).
      rewrite (dat_nth l2 (firstn n l2) (par c) (par c)) by (apply nth_error_firstn; lia).
      rewrite (dat_nth l2 (firstn n l2) c c) by (apply nth_error_firstn; lia). apply H2. exact Hc.
    - intros e' He'. assert (Hin : In e' l) by (eapply Permutation_in; [symmetry; exact Pl|right; exact He']).
      apply In_nth_error in Hin. destruct Hin as [c Ec].
      assert (Hc : c < length l) by (apply nth_error_Some; congruence).
      pose proof (heap_root_min l H c Hc) as Hm. unfold dat in Hm. rewrite E0, Ec in Hm. exact Hm.
  Qed.

  Lemma is_heap_nil : is_heap [].
  Proof. intros c Hc. simpl in Hc. lia. Qed.

  (* equeueNode: every entry of the node is pushed *)
  Lemma enqueue_ok n : forall l,
    is_heap l -> exists l', enqueue o l n = Some l' /\ Permutation l' (l ++ n) /\ is_heap l'.
  Proof.
    induction n as [|e r IH]; intros l H; simpl.
    - exists l. rewrite app_nil_r. auto.
    - destruct (heap_push_ok l e H) as (l1 & -> & P1 & H1).
      destruct (IH l1 H1) as (l' & -> & P' & H'). exists l'. split; [reflexivity|]. split; [|exact H'].
      rewrite P', P1. simpl. apply Permutation_middle.
  Qed.

  Variable cb : callback.

  (* as for the abstract queue: all records below the queue, nearest first *)
  Lemma psh_loop_run : forall fuel queue k,
    Forall (fun e => entry_inv e = true) queue -> is_heap queue -> (nsize queue < fuel)%nat ->
    exists l, Permutation l (leaves_node queue) /\ sorted_by (dist o) l = true /\
              psh_loop o cb fuel queue k = Some (run cb k l).
  Proof.
    induction fuel as [|f IH]; intros queue k Hall Hheap Hf; [lia|]. cbn [psh_loop].
    destruct (Nat.eqb_spec (length queue) 0) as [E|E].
    - apply length_zero_iff_nil in E. subst queue. exists []. split; [constructor|]. split; reflexivity.
    - destruct (heap_pop_ok queue Hheap) as (e & restq & -> & P & Hrest & Hmin); [intros ->; apply E; reflexivity|].
      rewrite P in Hall. apply Forall_cons_iff in Hall. destruct Hall as [He Hrestq].
      rewrite (nsize_perm _ _ P), nsize_cons in Hf. destruct e as [b id|b n].
      + destruct (IH restq (S k) Hrestq Hrest) as (l & Pl & Sl & El); [cbn [esize] in Hf; lia|].
        exists (MkItem b id :: l). split; [rewrite (leaves_node_perm _ _ P); apply perm_skip, Pl|].
        split; [eapply popped_leaf_first; eauto|]. cbn [run iid].
        destruct (err_of (cb k id)); [reflexivity|]. rewrite El. destruct (run cb (S k) l); reflexivity.
      + apply entry_inv_branch in He. destruct He as (_ & _ & Hn).
        change (esize (EBranch b n)) with (S (nsize n)) in Hf.
        destruct (enqueue_ok n restq Hrest) as (queue' & -> & Pq & Hq').
        destruct (IH queue' k) as (l & Pl & Sl & El);
          [eapply Permutation_Forall; [symmetry; exact Pq|apply Forall_app; auto]|exact Hq'|
           rewrite (nsize_perm _ _ Pq), nsize_app; lia|].
        exists l. split; [|auto]. rewrite Pl, (leaves_node_perm _ _ Pq), (leaves_node_perm _ _ P).
        rewrite !leaves_node_app. apply Permutation_app_comm.
  Qed.
End HeapProofs.

Lemma priority_search_heap_run t q cb :
  tree_inv t = true ->
  exists l, Permutation l (tree_leaves t) /\ sorted_by (dist q) l = true /\
            priority_search_heap q cb t = Some (visit cb l).
Proof.
  unfold tree_inv, priority_search_heap, tree_leaves, visit. destruct (root t) as [n|].
  - rewrite andb_true_iff. intros [Hinv _]. apply node_inv_forall in Hinv.
    destruct (enqueue_ok q n [] (is_heap_nil q)) as (queue & -> & Pq & Hq). cbn [app] in Pq.
    destruct (psh_loop_run q cb (S (nsize n)) queue 0) as (l & P & S & ->);
      [eapply Permutation_Forall; [symmetry; exact Pq|exact Hinv]|exact Hq|rewrite (nsize_perm _ _ Pq); lia|].
    exists l. split; [rewrite P; apply leaves_node_perm, Pq|]. split; [exact S|].
    destruct (run cb 0 l); reflexivity.
  - intros _. exists []. split; [constructor|]. split; reflexivity.
Qed.

(* PrioritySearch on Go's real heap: no hypothesis about the queue is left *)
Lemma priority_search_heap_spec_lemma t q cb :
  tree_inv t = true ->
  exists v ret, priority_search_heap q cb t = Some (v, ret) /\
                prio_ok (tree_leaves t) q cb v ret = true.
Proof.
  intros Ht. destruct (priority_search_heap_run t q cb Ht) as (l & P & S & ->).
  destruct (visit_prio_ok _ q cb l P S) as (v & ret & -> & H). eauto.
Qed.

Lemma nearest_heap_spec_lemma t q :
  tree_inv t = true ->
  exists r, nearest_heap t q = Some r /\ nearest_ok (tree_leaves t) q r = true.
Proof.
  intros Ht. unfold nearest_heap.
  destruct (priority_search_heap_run t q (fun _ _ => Stop) Ht) as (l & P & S & ->).
  pose proof (visit_nearest_ok _ q l P S) as H. destruct (visit _ l) as [v ret].
  eexists. split; [reflexivity|exact H].
Qed.

(* end to end from the loaded items *)
Lemma bulk_priority_search_heap_lemma items q cb :
  exists t v ret, bulk_load items = Ok t /\ priority_search_heap q cb t = Some (v, ret) /\
                  prio_ok items q cb v ret = true.
Proof.
  destruct (bulk_load_ok_lemma items) as (t & Ht & Hinv & P & _).
  destruct (priority_search_heap_run t q cb Hinv) as (l & Pl & S & E). rewrite P in Pl.
  destruct (visit_prio_ok _ q cb l Pl S) as (v & ret & Ev & H). rewrite Ev in E. eauto 6.
Qed.
Lemma bulk_nearest_heap_lemma items q :
  exists t r, bulk_load items = Ok t /\ nearest_heap t q = Some r /\ nearest_ok items q r = true.
Proof.
  destruct (bulk_load_ok_lemma items) as (t & Ht & Hinv & P & _).
  destruct (priority_search_heap_run t q (fun _ _ => Stop) Hinv) as (l & Pl & S & E). rewrite P in Pl.
  pose proof (visit_nearest_ok _ q l Pl S) as H. exists t. unfold nearest_heap. rewrite E.
  destruct (visit _ l) as [v ret]. eauto.
Qed.
