(* Translator tie for functions WITH LOOPS (DESIGN.md A.8b, A.10), property C14, second part: the type-level
   measures built on the ring / line loops of Funcs_tie_Loop_Measure.v -
   geom/type_multi_line_string.go:Length (sum of the members' lengths, in member order),
   geom/type_line_string.go:Centroid (length-weighted sum divided by the total length; empty point when the
   total length is 0), geom/type_multi_point.go:Centroid (average of the non-empty members; empty point when
   there is none) - as re-read from the Go source into Gen/FuncsLoop.v on every run, against
   Model/Measure.v (mline_length, line_centroid, mpoint_centroid: the functions the C14 theorems are about).
   For collections with ANY number of members of ANY length. *)
From Coq Require Import String ZArith QArith List Bool Lia.
From SF Require Import Base.FOps Base.FLoop Gen.FuncsLoop Proofs.Funcs_tie_lib Proofs.Funcs_tie_Loop_lib
  Base.GeomAST Model.Measure Proofs.Funcs_tie_Loop_Measure.
Import ListNotations.
Open Scope Q_scope.

(* what a returned geom.Point says: its XY when it is non-empty *)
Definition point_xy_opt (p : geom_Point Q) : option xy :=
  if geom_Point_full p then Some (mxy (geom_Coordinates_XY (geom_Point_coords p))) else None.

Section WithRoot.
  Variables (sq : Q -> Q) (hy : Q -> Q -> Q).
  Hypothesis hy_sq : forall x y, hy x y = sq (x * x + y * y).
  Local Notation rops := (qops_with sq hy).

  Lemma as_point_xy (w : geom_XY Q) : point_xy_opt (geom_XY_AsPoint rops w) = Some (mxy w).
  Proof. reflexivity. Qed.
  Lemma empty_point_xy ct : point_xy_opt (geom_NewEmptyPoint rops ct) = None.
  Proof. reflexivity. Qed.

  (* ---- MultiLineString.Length *)
  Definition mlen (css : list (list (geom_Coordinates Q))) (s0 : Q) : Q :=
    fold_left (fun s cs => s + length_xy sq (map cxy cs)) css s0.

  Lemma tie_MultiLineString_Length : forall css ct,
    geom_MultiLineString_Length rops (Mk_geom_MultiLineString (map gls css) ct) = Known (mlen css 0).
  Proof.
    intros css ct. unfold geom_MultiLineString_Length. cbn [geom_MultiLineString_lines]. cbv zeta.
    rewrite (range_loop_fold_tie gls (fun s : Q => s) _ (fun s cs => s + length_xy sq (map cxy cs))); [reflexivity|].
    intros i cs s. rewrite (tie_LineString_Length sq hy hy_sq). reflexivity.
  Qed.

  (* the model's statement over lineT *)
  Lemma mlen_is_mline_length (ls : list (lineT Q)) (f : lineT Q -> list (geom_Coordinates Q)) :
    (forall l, map cxy (f l) = line_xys l) -> forall s0, mlen (map f ls) s0 = fold_left (fun s l => s + line_length sq l) ls s0.
  Proof.
    intros Hf. induction ls as [|l ls IH]; intros s0; [reflexivity|].
    cbn [map mlen fold_left]. unfold mlen in IH. rewrite IH. unfold line_length. rewrite Hf. reflexivity.
  Qed.

  (* ---- LineString.Centroid *)
  Definition lc_xy (pts : list xy) : option xy :=
    let '(sumXY, sumLen) := sumcl_xy sq pts in
    if Qeq_bool sumLen 0 then None else Some (xy_scale sumXY (1 / sumLen)).
  Lemma lc_xy_is_line_centroid (l : lineT Q) : lc_xy (line_xys l) = line_centroid sq l.
  Proof. reflexivity. Qed.

  Lemma tie_LineString_Centroid : forall cs,
    known_map point_xy_opt (geom_LineString_Centroid rops (gls cs)) = Known (lc_xy (map cxy cs)).
  Proof.
    intros cs. unfold geom_LineString_Centroid, lc_xy.
    pose proof (tie_sumCentroidAndLengthOfLineString sq hy hy_sq cs) as H.
    destruct (geom_sumCentroidAndLengthOfLineString rops (gls cs)) as [[s l]|m]; cbn [known_map] in H; [|discriminate].
    injection H as H. rewrite <- H.
    change (f_eqb rops l (f_of_Z rops 0%Z)) with (Qeq_bool l 0).
    destruct (Qeq_bool l 0); cbn [known_map]; [reflexivity|].
    rewrite as_point_xy. reflexivity.
  Qed.

  (* ---- MultiPoint.Centroid *)
  Definition psum (ps : list (geom_Point Q)) (acc : xy * Z) : xy * Z :=
    fold_left (fun (sn : xy * Z) p =>
                 match point_xy_opt p with Some c => (xy_add (fst sn) c, (snd sn + 1)%Z) | None => sn end) ps acc.
  Definition mpc (ps : list (geom_Point Q)) : option xy :=
    let '(sum, n) := psum ps (xy0, 0%Z) in
    if (n =? 0)%Z then None else Some (xy_scale sum (1 / inject_Z n)).

  Lemma tie_MultiPoint_Centroid : forall ps ct,
    known_map point_xy_opt (geom_MultiPoint_Centroid rops (Mk_geom_MultiPoint ps ct)) = Known (mpc ps).
  Proof.
    intros ps ct. unfold geom_MultiPoint_Centroid, geom_MultiPoint_NumPoints, geom_MultiPoint_PointN.
    cbn [geom_MultiPoint_points]. cbv zeta.
    set (n := Z.of_nat (Datatypes.length ps)).
    set (TOTAL := psum ps (xy0, 0%Z)).
    loop_rule 0%Z n
      (fun (i : Z) '((sum, k) : geom_XY Q * Z) => psum (suffix ps i) (mxy sum, k) = TOTAL)
      (fun res : loop_res (geom_XY Q * Z) (geom_Point Q) =>
         match res with LDone (sum, k) => (mxy sum, k) = TOTAL | _ => False end).
    - loop_cond.
    - loop_fuel.
    - rewrite suffix_0. reflexivity.
    - intros i [sum k] Hi Hinv.
      destruct (suffix_one ps i ltac:(unfold n in Hi; lia)) as (p & r & Hs & Hp & Hr).
      rewrite Hp. unfold geom_Point_XY. rewrite Hs in Hinv. rewrite Hr. rewrite <- Hinv.
      cbn [psum fold_left]. unfold point_xy_opt. destruct (geom_Point_full p); reflexivity.
    - intros [sum k] Hinv.
      assert (Hm : (0 <= Z.max 0 n)%Z) by lia.
      pose proof (suffix_length ps _ Hm) as HL. fold n in HL.
      destruct (suffix ps (Z.max 0 n)) as [|a r]; [exact Hinv|cbn [Datatypes.length] in HL; lia].
    - destruct s as [sum k]. unfold mpc. fold TOTAL. rewrite <- HP.
      destruct (Z.eqb k 0); cbn [known_map]; [reflexivity|]. rewrite as_point_xy. reflexivity.
    - contradiction.
    - contradiction.
  Qed.

  (* the model's statement over pointT: a Point of the model as the translator's geom.Point *)
  Definition gpoint (p : pointT Q) : geom_Point Q :=
    match point_c p with
    | None => geom_NewEmptyPoint rops 0%Z
    | Some v => Mk_geom_Point (Mk_geom_Coordinates (Mk_geom_XY (vx v) (vy v)) (vz v) (vm v) 0%Z) true
    end.
  Lemma gpoint_xy (p : pointT Q) : point_xy_opt (gpoint p) = point_xy p.
  Proof. unfold gpoint, point_xy. destruct (point_c p); reflexivity. Qed.
  Lemma mpc_is_mpoint_centroid (ps : list (pointT Q)) : mpc (map gpoint ps) = mpoint_centroid ps.
  Proof.
    unfold mpc, mpoint_centroid.
    assert (H : forall acc, psum (map gpoint ps) acc = points_sum ps acc).
    { induction ps as [|p ps IH]; intros acc; [reflexivity|].
      cbn [map psum points_sum fold_left]. rewrite gpoint_xy. apply IH. }
    rewrite H. reflexivity.
  Qed.

  (* the three ties stated over the model's own types (lineT / pointT) *)
  Definition gcoordq (v : vtx Q) : geom_Coordinates Q :=
    Mk_geom_Coordinates (Mk_geom_XY (vx v) (vy v)) (vz v) (vm v) 0%Z.
  Definition gline (l : lineT Q) : list (geom_Coordinates Q) := map gcoordq (line_vs l).
  Lemma gline_xys (l : lineT Q) : map cxy (gline l) = line_xys l.
  Proof. unfold gline, line_xys. rewrite map_map. reflexivity. Qed.

  Lemma go_mls_length : forall (ls : list (lineT Q)) (ct : Z),
    geom_MultiLineString_Length rops (Mk_geom_MultiLineString (map gls (map gline ls)) ct) = Known (mline_length sq ls).
  Proof.
    intros ls ct. rewrite tie_MultiLineString_Length. f_equal.
    apply (mlen_is_mline_length ls gline gline_xys).
  Qed.
  Lemma go_ls_centroid : forall l : lineT Q,
    known_map point_xy_opt (geom_LineString_Centroid rops (gls (gline l))) = Known (line_centroid sq l).
  Proof.
    intros l. rewrite tie_LineString_Centroid. f_equal. rewrite gline_xys. apply lc_xy_is_line_centroid.
  Qed.
  Lemma go_mp_centroid : forall (ps : list (pointT Q)) (ct : Z),
    known_map point_xy_opt (geom_MultiPoint_Centroid rops (Mk_geom_MultiPoint (map gpoint ps) ct))
    = Known (mpoint_centroid ps).
  Proof. intros ps ct. rewrite tie_MultiPoint_Centroid. f_equal. apply mpc_is_mpoint_centroid. Qed.
End WithRoot.
