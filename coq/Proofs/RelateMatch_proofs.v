(* Lemmas of property C02, layer (a): the pattern matcher for all byte strings, its typed view, the
   entry-by-entry meaning of the twelve pattern lists (the ma_ lemmas), and the facts about the named predicates
   that follow from the meanings, for every one of the 4^9 = 262144 matrices. *)
From Coq Require Import QArith List Bool ZArith NArith String Ascii Lia Btauto.
From SF Require Import Base.GeomAST Base.QKernel Base.Planar Model.RelatePatterns Model.Relate.
Import ListNotations.
Local Close Scope Q_scope.
Local Open Scope nat_scope.


(* ---------------- the byte patterns are the strings of RelatePatterns.v *)
Lemma bp_spec :
  bp_equals = map str_bytes pats_equals /\ bp_disjoint = map str_bytes pats_disjoint /\
  bp_touches = map str_bytes pats_touches /\ bp_contains = map str_bytes pats_contains /\
  bp_covers = map str_bytes pats_covers /\ bp_within = map str_bytes pats_within /\
  bp_coveredby = map str_bytes pats_coveredby /\ bp_crosses_lt = map str_bytes pats_crosses_lt /\
  bp_crosses_gt = map str_bytes pats_crosses_gt /\ bp_crosses_11 = map str_bytes pats_crosses_11 /\
  bp_overlaps_00_22 = map str_bytes pats_overlaps_00_22 /\ bp_overlaps_11 = map str_bytes pats_overlaps_11.
Proof. repeat split; reflexivity. Qed.

(* ---------------- RelateMatches: specification for all byte strings *)
Inductive cell := CellOk | CellMismatch | CellErr.
(* what one position decides: the pattern character is checked first, then the matrix character *)
Definition cell_of (m p : N) : cell :=
  if pat_char_ok p then
    match mat_class m with
    | Some d => if cell_match d p then CellOk else CellMismatch
    | None => CellErr
    end
  else CellErr.

(* the first position (if any) that is not Ok decides *)
Inductive first_bad : bytes -> bytes -> option cell -> Prop :=
| fb_nil_l : forall pat, first_bad [] pat None
| fb_nil_r : forall mat, first_bad mat [] None
| fb_ok : forall m p mat pat r, cell_of m p = CellOk -> first_bad mat pat r -> first_bad (m :: mat) (p :: pat) r
| fb_bad : forall m p mat pat c, cell_of m p = c -> c <> CellOk -> first_bad (m :: mat) (p :: pat) (Some c).

Lemma rm_loop_cons m p mat pat :
  rm_loop (m :: mat) (p :: pat) =
  match cell_of m p with CellOk => rm_loop mat pat | CellMismatch => RM false | CellErr => RMErr end.
Proof.
  cbn [rm_loop]. unfold cell_of. destruct (pat_char_ok p); [|reflexivity]. destruct (mat_class m); [|reflexivity].
  destruct (cell_match d p); reflexivity.
Qed.

Lemma rm_loop_first_bad mat pat :
  exists r, first_bad mat pat r /\
            rm_loop mat pat = match r with None => RM true | Some CellMismatch => RM false | Some _ => RMErr end.
Proof.
  revert pat. induction mat as [|m mat IH]; intros [|p pat]; try (exists None; split; [constructor | reflexivity]).
  rewrite rm_loop_cons. destruct (IH pat) as [r [Hr Er]]. destruct (cell_of m p) eqn:Ec.
  - exists r. split; [exact (fb_ok _ _ _ _ _ Ec Hr) | exact Er].
  - exists (Some CellMismatch). split; [apply fb_bad; [exact Ec | discriminate] | reflexivity].
  - exists (Some CellErr). split; [apply fb_bad; [exact Ec | discriminate] | reflexivity].
Qed.
Lemma first_bad_fun mat pat r1 r2 : first_bad mat pat r1 -> first_bad mat pat r2 -> r1 = r2.
Proof.
  intros H1. revert r2. induction H1; intros r2 H2; inversion H2; subst; auto; try congruence.
Qed.

(* Ok cells never arise in first_bad's answer *)
Lemma first_bad_not_ok mat pat : ~ first_bad mat pat (Some CellOk).
Proof.
  intros H. remember (Some CellOk) as r. induction H; try discriminate; auto.
  injection Heqr as ->. congruence.
Qed.

(* relate_matches_spec: an error iff a length is not 9 or the first non-matching position is an
   invalid character (pattern character checked before the matrix character); false iff both
   lengths are 9 and the first non-matching position is a plain mismatch; true iff both lengths
   are 9 and every position matches *)
Theorem relate_matches_spec_lemma mat pat :
  (relate_matches mat pat = RMErr <->
     List.length mat <> 9 \/ List.length pat <> 9 \/ first_bad mat pat (Some CellErr)) /\
  (relate_matches mat pat = RM false <->
     List.length mat = 9 /\ List.length pat = 9 /\ first_bad mat pat (Some CellMismatch)) /\
  (relate_matches mat pat = RM true <->
     List.length mat = 9 /\ List.length pat = 9 /\ first_bad mat pat None).
Proof.
  unfold relate_matches.
  destruct (Nat.eqb_spec (List.length mat) 9) as [E1|E1], (Nat.eqb_spec (List.length pat) 9) as [E2|E2]; cbn [negb];
    try (intuition congruence).
  destruct (rm_loop_first_bad mat pat) as [r [Hr Er]]. rewrite Er.
  assert (U : forall r', first_bad mat pat r' <-> r' = r)
    by (intros r'; split; [intros H; exact (first_bad_fun _ _ _ _ H Hr) | intros ->; exact Hr]).
  rewrite !U. destruct r as [[| |]|]; [destruct (first_bad_not_ok _ _ Hr)| | |]; intuition congruence.
Qed.



(* ---------------- typed view of the matcher on well-formed matrices and patterns *)
Definition enc_pchar (c : pchar) : N :=
  match c with PF => cF | P0 => c0 | P1 => c1 | P2 => c2 | PT => cT | PStar => cStar end.
Lemma pchar_of_some b c : pchar_of b = Some c -> b = enc_pchar c.
Proof.
  unfold pchar_of.
  repeat match goal with |- context [N.eqb b ?k] =>
    destruct (N.eqb_spec b k) as [->|_]; [intros [= <-]; reflexivity|] end.
  discriminate.
Qed.
Lemma cell_typed d c :
  pat_char_ok (enc_pchar c) = true /\ mat_class (enc_dim d) = Some d /\
  cell_match d (enc_pchar c) = pcell d c.
Proof. destruct d, c; repeat split; reflexivity. Qed.

Lemma rm_loop_typed ds bs ps :
  parse_pat bs = Some ps -> rm_loop (map enc_dim ds) bs = RM (pmatch ds ps).
Proof.
  revert bs ps. induction ds as [|d ds IH]; intros bs ps H; simpl.
  - destruct ps; reflexivity.
  - destruct bs as [|b bs]; simpl in H.
    + injection H as <-. reflexivity.
    + destruct (pchar_of b) eqn:Eb; [|discriminate]. destruct (parse_pat bs) eqn:Ebs; [|discriminate].
      injection H as <-. apply pchar_of_some in Eb. subst b.
      destruct (cell_typed d p) as [H1 [H2 H3]]. rewrite H1, H2, H3. simpl.
      destruct (pcell d p); simpl; [apply IH; exact Ebs | reflexivity].
Qed.
Lemma parse_pat_length bs ps : parse_pat bs = Some ps -> List.length bs = List.length ps.
Proof.
  revert ps. induction bs as [|b bs IH]; simpl; intros ps H.
  - injection H as <-. reflexivity.
  - destruct (pchar_of b); [|discriminate]. destruct (parse_pat bs); [|discriminate].
    injection H as <-. simpl. f_equal. apply IH. reflexivity.
Qed.
Lemma enc_matrix_length m : List.length (enc_matrix m) = 9.
Proof. reflexivity. Qed.

Lemma match_any_typed m pats tps :
  typed_pats pats = Some tps -> match_any (enc_matrix m) pats = RM (pmatch_any m tps).
Proof.
  revert tps. induction pats as [|p pats IH]; simpl; intros tps H.
  - injection H as <-. reflexivity.
  - destruct (parse_pat p) eqn:Ep; [|discriminate]. destruct (typed_pats pats) eqn:Et; [|discriminate].
    destruct (Nat.eqb (List.length l) 9) eqn:El; [|discriminate]. injection H as <-.
    apply Nat.eqb_eq in El. unfold relate_matches. rewrite enc_matrix_length.
    rewrite (parse_pat_length _ _ Ep), El. change (Nat.eqb 9 9) with true. cbn [negb].
    unfold enc_matrix. rewrite (rm_loop_typed _ _ _ Ep). unfold pmatch_any. cbn [existsb].
    destruct (pmatch (matrix_list m) l); cbn [orb]; [reflexivity|]. apply IH. reflexivity.
Qed.

Definition tp_of (pats : list bytes) : list (list pchar) :=
  match typed_pats pats with Some l => l | None => [] end.

(* ---------------- all 4^9 matrices *)
Lemma all_dims_complete d : In d all_dims.
Proof. destruct d; simpl; tauto. Qed.
Lemma all_matrices_complete m : In m all_matrices.
Proof.
  destruct m as [a b c d e f g h i]. unfold all_matrices.
  repeat (apply in_flat_map; eexists; split; [apply all_dims_complete|]).
  apply in_map. apply all_dims_complete.
Qed.
Lemma flat_map_dims_length (A : Type) (f : dimv -> list A) (n : N) :
  (forall d, N.of_nat (List.length (f d)) = n) -> N.of_nat (List.length (flat_map f all_dims)) = (4 * n)%N.
Proof.
  intros H. cbn [flat_map all_dims]. rewrite !app_length, !Nat2N.inj_add, !H. cbn [List.length]. lia.
Qed.
Lemma all_matrices_length : N.of_nat (List.length all_matrices) = 262144%N.
Proof.
  change 262144%N with (4 * (4 * (4 * (4 * (4 * (4 * (4 * (4 * 4))))))))%N. unfold all_matrices.
  repeat (apply flat_map_dims_length; intro). reflexivity.
Qed.

(* the typed pattern lists (computed) *)
Lemma typed_ok :
  typed_pats bp_equals = Some (tp_of bp_equals) /\ typed_pats bp_disjoint = Some (tp_of bp_disjoint) /\
  typed_pats bp_touches = Some (tp_of bp_touches) /\ typed_pats bp_contains = Some (tp_of bp_contains) /\
  typed_pats bp_covers = Some (tp_of bp_covers) /\ typed_pats bp_within = Some (tp_of bp_within) /\
  typed_pats bp_coveredby = Some (tp_of bp_coveredby) /\ typed_pats bp_crosses_lt = Some (tp_of bp_crosses_lt) /\
  typed_pats bp_crosses_gt = Some (tp_of bp_crosses_gt) /\ typed_pats bp_crosses_11 = Some (tp_of bp_crosses_11) /\
  typed_pats bp_overlaps_00_22 = Some (tp_of bp_overlaps_00_22) /\ typed_pats bp_overlaps_11 = Some (tp_of bp_overlaps_11).
Proof. repeat split; reflexivity. Qed.

Definition beq (a b : bool) : bool := Bool.eqb a b.

(* shorthand: the boolean a pattern list gives on a matrix *)
Definition pm (m : matrix) (pats : list bytes) : bool := pmatch_any m (tp_of pats).

(* typed patterns, evaluated once *)
Definition tq_equals : list (list pchar) := Eval vm_compute in tp_of bp_equals.
Definition tq_disjoint : list (list pchar) := Eval vm_compute in tp_of bp_disjoint.
Definition tq_touches : list (list pchar) := Eval vm_compute in tp_of bp_touches.
Definition tq_contains : list (list pchar) := Eval vm_compute in tp_of bp_contains.
Definition tq_covers : list (list pchar) := Eval vm_compute in tp_of bp_covers.
Definition tq_within : list (list pchar) := Eval vm_compute in tp_of bp_within.
Definition tq_coveredby : list (list pchar) := Eval vm_compute in tp_of bp_coveredby.
Definition tq_crosses_lt : list (list pchar) := Eval vm_compute in tp_of bp_crosses_lt.
Definition tq_crosses_gt : list (list pchar) := Eval vm_compute in tp_of bp_crosses_gt.
Definition tq_crosses_11 : list (list pchar) := Eval vm_compute in tp_of bp_crosses_11.
Definition tq_overlaps_00_22 : list (list pchar) := Eval vm_compute in tp_of bp_overlaps_00_22.
Definition tq_overlaps_11 : list (list pchar) := Eval vm_compute in tp_of bp_overlaps_11.

Definition isT (d : dimv) : bool := match d with DF => false | _ => true end.
Definition isF (d : dimv) : bool := negb (isT d).
(* the two point sets share a point: some entry among II, IB, BI, BB is set *)
Definition m_intersects (m : matrix) : bool := isT (mII m) || isT (mIB m) || isT (mBI m) || isT (mBB m).

Lemma tq_spec :
  tp_of bp_equals = tq_equals /\ tp_of bp_disjoint = tq_disjoint /\ tp_of bp_touches = tq_touches /\
  tp_of bp_contains = tq_contains /\ tp_of bp_covers = tq_covers /\ tp_of bp_within = tq_within /\
  tp_of bp_coveredby = tq_coveredby /\ tp_of bp_crosses_lt = tq_crosses_lt /\ tp_of bp_crosses_gt = tq_crosses_gt /\
  tp_of bp_crosses_11 = tq_crosses_11 /\ tp_of bp_overlaps_00_22 = tq_overlaps_00_22 /\
  tp_of bp_overlaps_11 = tq_overlaps_11.
Proof. repeat split; reflexivity. Qed.

(* ---------------- what each pattern list says of a matrix, entry by entry.
   A typed pattern is a conjunction over the nine cells: a `*` cell drops out, a T cell is isT, an F cell
   is isF.  What is left is a Boolean identity between a handful of cells, so no matrix is enumerated. *)
Lemma pcell_star d : pcell d PStar = true.
Proof. destruct d; reflexivity. Qed.
Lemma pcell_T d : pcell d PT = isT d.
Proof. destruct d; reflexivity. Qed.
Lemma pcell_F d : pcell d PF = isF d.
Proof. destruct d; reflexivity. Qed.

(* the goal is  match_any (enc_matrix (MkM a .. i)) bp = RM b,  where tq is the typed form of bp *)
Ltac meaning bp tq :=
  rewrite (match_any_typed _ bp tq eq_refl); f_equal; unfold pmatch_any, tq, m_intersects;
  cbn [existsb pmatch matrix_list mII mIB mIE mBI mBB mBE mEI mEB mEE];
  rewrite ?pcell_star, ?pcell_T, ?pcell_F; unfold isF.

Lemma ma_equals m : match_any (enc_matrix m) bp_equals =
  RM (isT (mII m) && isF (mIE m) && isF (mBE m) && isF (mEI m) && isF (mEB m)).
Proof. destruct m as [a b c d e f g h i]. meaning bp_equals tq_equals. btauto. Qed.
Lemma ma_disjoint m : match_any (enc_matrix m) bp_disjoint = RM (negb (m_intersects m)).
Proof. destruct m as [a b c d e f g h i]. meaning bp_disjoint tq_disjoint. btauto. Qed.
Lemma ma_touches m : match_any (enc_matrix m) bp_touches =
  RM (isF (mII m) && (isT (mIB m) || isT (mBI m) || isT (mBB m))).
Proof. destruct m as [a b c d e f g h i]. meaning bp_touches tq_touches. btauto. Qed.
Lemma ma_contains m : match_any (enc_matrix m) bp_contains = RM (isT (mII m) && isF (mEI m) && isF (mEB m)).
Proof. destruct m as [a b c d e f g h i]. meaning bp_contains tq_contains. btauto. Qed.
Lemma ma_covers m : match_any (enc_matrix m) bp_covers = RM (m_intersects m && isF (mEI m) && isF (mEB m)).
Proof. destruct m as [a b c d e f g h i]. meaning bp_covers tq_covers. btauto. Qed.
Lemma ma_within m : match_any (enc_matrix m) bp_within = RM (isT (mII m) && isF (mIE m) && isF (mBE m)).
Proof. destruct m as [a b c d e f g h i]. meaning bp_within tq_within. btauto. Qed.
Lemma ma_coveredby m : match_any (enc_matrix m) bp_coveredby = RM (m_intersects m && isF (mIE m) && isF (mBE m)).
Proof. destruct m as [a b c d e f g h i]. meaning bp_coveredby tq_coveredby. btauto. Qed.
Lemma ma_crosses_lt m : match_any (enc_matrix m) bp_crosses_lt = RM (isT (mII m) && isT (mIE m)).
Proof. destruct m as [a b c d e f g h i]. meaning bp_crosses_lt tq_crosses_lt. btauto. Qed.
Lemma ma_crosses_gt m : match_any (enc_matrix m) bp_crosses_gt = RM (isT (mII m) && isT (mEI m)).
Proof. destruct m as [a b c d e f g h i]. meaning bp_crosses_gt tq_crosses_gt. btauto. Qed.
Lemma ma_crosses_11 m : match_any (enc_matrix m) bp_crosses_11 = RM (match mII m with D0 => true | _ => false end).
Proof. destruct m as [a b c d e f g h i]. meaning bp_crosses_11 tq_crosses_11. destruct a; reflexivity. Qed.
Lemma ma_overlaps_00_22 m : match_any (enc_matrix m) bp_overlaps_00_22 = RM (isT (mII m) && isT (mIE m) && isT (mEI m)).
Proof. destruct m as [a b c d e f g h i]. meaning bp_overlaps_00_22 tq_overlaps_00_22. btauto. Qed.
Lemma ma_overlaps_11 m : match_any (enc_matrix m) bp_overlaps_11 =
  RM ((match mII m with D1 => true | _ => false end) && isT (mIE m) && isT (mEI m)).
Proof. destruct m as [a b c d e f g h i]. meaning bp_overlaps_11 tq_overlaps_11. destruct a; cbn [pcell andb]; btauto. Qed.

Ltac unf :=
  unfold go_equals, go_disjoint, go_touches, go_contains, go_covers, go_within, go_coveredby, go_crosses, go_overlaps;
  rewrite ?ma_equals, ?ma_disjoint, ?ma_touches, ?ma_contains, ?ma_covers, ?ma_within, ?ma_coveredby,
    ?ma_crosses_lt, ?ma_crosses_gt, ?ma_crosses_11, ?ma_overlaps_00_22, ?ma_overlaps_11.

Lemma transpose_involutive m : transpose (transpose m) = m.
Proof. destruct m; reflexivity. Qed.
(* goals  RM b = RM b'  between the meanings of a predicate on m and on transpose m *)
Ltac cellwise m :=
  destruct m as [? ? ? ? ? ? ? ? ?]; unfold m_intersects, isF; cbn [transpose mII mIB mIE mBI mBB mBE mEI mEB mEE]; f_equal; btauto.

(* ---- the theorems of layer (a), for every matrix: both sides are rewritten to their meaning;
   transposition swaps IE/EI, BE/EB, IB/BI, after which the two sides are the same Boolean expression *)
Lemma contains_within_dual_lemma m : go_contains (enc_matrix m) = go_within (enc_matrix (transpose m)).
Proof. unf. reflexivity. Qed.
Lemma within_contains_dual_lemma m : go_within (enc_matrix m) = go_contains (enc_matrix (transpose m)).
Proof. unf. reflexivity. Qed.
Lemma covers_coveredby_dual_lemma m : go_covers (enc_matrix m) = go_coveredby (enc_matrix (transpose m)).
Proof. unf. cellwise m. Qed.
Lemma coveredby_covers_dual_lemma m : go_coveredby (enc_matrix m) = go_covers (enc_matrix (transpose m)).
Proof. rewrite covers_coveredby_dual_lemma, transpose_involutive. reflexivity. Qed.
Lemma disjoint_iff_not_intersects_lemma m : go_disjoint (enc_matrix m) = RM (negb (m_intersects m)).
Proof. unf. reflexivity. Qed.
Lemma equals_sym_lemma m ea eb : go_equals (enc_matrix m) ea eb = go_equals (enc_matrix (transpose m)) eb ea.
Proof.
  unfold go_equals. rewrite (andb_comm eb ea). destruct (ea && eb); [reflexivity|].
  unf. cellwise m.
Qed.
Lemma touches_sym_lemma m : go_touches (enc_matrix m) = go_touches (enc_matrix (transpose m)).
Proof. unf. cellwise m. Qed.
Lemma disjoint_sym_lemma m : go_disjoint (enc_matrix m) = go_disjoint (enc_matrix (transpose m)).
Proof. unf. cellwise m. Qed.
Lemma overlaps_sym_lemma m da db : go_overlaps (enc_matrix m) da db = go_overlaps (enc_matrix (transpose m)) db da.
Proof.
  unfold go_overlaps. rewrite (andb_comm (Nat.eqb db 1)), (andb_comm (Nat.eqb db 0)), (andb_comm (Nat.eqb db 2)).
  unf. repeat match goal with |- context [if ?c then _ else _] => destruct c end; try reflexivity; cellwise m.
Qed.
Lemma crosses_sym_lemma m da db : go_crosses (enc_matrix m) da db = go_crosses (enc_matrix (transpose m)) db da.
Proof.
  unfold go_crosses. rewrite (andb_comm (Nat.eqb db 1)). unf.
  destruct m as [a b c d e f g h i]; cbn [transpose mII mIB mIE mBI mBB mBE mEI mEB mEE].
  destruct (Nat.ltb da db) eqn:E1, (Nat.ltb db da) eqn:E2; try reflexivity.
  apply Nat.ltb_lt in E1, E2. lia.
Qed.
Lemma RM_inj a b : RM a = RM b -> a = b.
Proof. intros H. inversion H. reflexivity. Qed.
Lemma within_implies_coveredby_lemma m : go_within (enc_matrix m) = RM true -> go_coveredby (enc_matrix m) = RM true.
Proof.
  unf. unfold m_intersects. intros E. apply RM_inj in E. f_equal.
  destruct (isT (mII m)); [|discriminate]. exact E.
Qed.
Lemma contains_implies_covers_lemma m : go_contains (enc_matrix m) = RM true -> go_covers (enc_matrix m) = RM true.
Proof.
  unf. unfold m_intersects. intros E. apply RM_inj in E. f_equal.
  destruct (isT (mII m)); [|discriminate]. exact E.
Qed.
Lemma equals_implies_within_contains_lemma m :
  go_equals (enc_matrix m) false false = RM true ->
  go_within (enc_matrix m) = RM true /\ go_contains (enc_matrix m) = RM true.
Proof.
  unfold go_equals; cbn [andb]. unf. intros E. apply RM_inj in E.
  rewrite !andb_true_iff in E. destruct E as [[[[-> ->] ->] ->] ->]. split; reflexivity.
Qed.
(* dimension rules of Crosses and Overlaps, for all dimensions (not only 0..2) and all byte strings *)
Lemma overlaps_dim_rule_lemma mat da db : da <> db -> go_overlaps mat da db = RM false.
Proof.
  intros H. unfold go_overlaps.
  destruct (Nat.eqb da 0) eqn:A0; destruct (Nat.eqb db 0) eqn:B0; destruct (Nat.eqb da 2) eqn:A2;
    destruct (Nat.eqb db 2) eqn:B2; destruct (Nat.eqb da 1) eqn:A1; destruct (Nat.eqb db 1) eqn:B1; simpl; try reflexivity;
    rewrite ?Nat.eqb_eq in *; lia.
Qed.
Lemma crosses_dim_rule_lemma mat da db : da = db -> da <> 1 -> go_crosses mat da db = RM false.
Proof.
  intros -> H. unfold go_crosses. rewrite Nat.ltb_irrefl.
  destruct (Nat.eqb db 1) eqn:E; [apply Nat.eqb_eq in E; lia | reflexivity].
Qed.
(* the named predicates never fail on a well-formed matrix *)
Lemma preds_no_error_lemma m da db ea eb : ~ In RMErr (go_preds (enc_matrix m) da db ea eb).
Proof.
  unfold go_preds. unf.
  repeat match goal with |- context [if ?c then _ else _] => destruct c end; simpl; intuition discriminate.
Qed.
(* the documented meaning of each pattern list, entry by entry (OGC 06-103r4 6.1.15.3, JTS) *)
Lemma predicates_match_ogc_lemma m :
  go_equals (enc_matrix m) false false = RM (isT (mII m) && isF (mIE m) && isF (mBE m) && isF (mEI m) && isF (mEB m)) /\
  go_disjoint (enc_matrix m) = RM (isF (mII m) && isF (mIB m) && isF (mBI m) && isF (mBB m)) /\
  go_touches (enc_matrix m) = RM (isF (mII m) && (isT (mIB m) || isT (mBI m) || isT (mBB m))) /\
  go_contains (enc_matrix m) = RM (isT (mII m) && isF (mEI m) && isF (mEB m)) /\
  go_covers (enc_matrix m) = RM (m_intersects m && isF (mEI m) && isF (mEB m)) /\
  go_within (enc_matrix m) = RM (isT (mII m) && isF (mIE m) && isF (mBE m)) /\
  go_coveredby (enc_matrix m) = RM (m_intersects m && isF (mIE m) && isF (mBE m)) /\
  (forall da db, da < db -> go_crosses (enc_matrix m) da db = RM (isT (mII m) && isT (mIE m))) /\
  (forall da db, db < da -> go_crosses (enc_matrix m) da db = RM (isT (mII m) && isT (mEI m))) /\
  go_crosses (enc_matrix m) 1 1 = RM (match mII m with D0 => true | _ => false end) /\
  go_overlaps (enc_matrix m) 0 0 = RM (isT (mII m) && isT (mIE m) && isT (mEI m)) /\
  go_overlaps (enc_matrix m) 2 2 = RM (isT (mII m) && isT (mIE m) && isT (mEI m)) /\
  go_overlaps (enc_matrix m) 1 1 = RM ((match mII m with D1 => true | _ => false end) && isT (mIE m) && isT (mEI m)).
Proof.
  unfold go_equals; cbn [andb]. repeat split; try (unf; reflexivity).
  - unf. f_equal. unfold m_intersects, isF. btauto.
  - intros da db L. unfold go_crosses. apply Nat.ltb_lt in L. rewrite L. unf. reflexivity.
  - intros da db L. unfold go_crosses. assert (Nat.ltb da db = false) as -> by (apply Nat.ltb_ge; lia).
    apply Nat.ltb_lt in L. rewrite L. unf. reflexivity.
Qed.
