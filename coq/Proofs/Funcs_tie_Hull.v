(* Translator tie for function bodies (DESIGN.md A.8b), property C13: the kernel functions of
   coq/Model/Hull.v (cross, orientation, pt_less) and coq/Model/Calipers.v (sub, dot, rot90, neg,
   qcross2, qcross, proj_on) against the bodies of geom/xy.go (Sub, Cross, Dot, Less, rotateCCW90,
   rotate180, Scale, proj) and geom/alg_orientation.go (orientation), as re-read from the Go source
   into Gen/Funcs.v on every run.  Carriers: Z ([zops]) and Q ([qops]).  An edited body in the Go
   source makes this file fail to compile. *)
From Coq Require Import ZArith QArith Bool Lia Lqa.
From SF Require Import Base.FOps Gen.Funcs Proofs.Funcs_tie_lib Base.GeomAST Model.Hull Model.Calipers.

Definition gpt (p : Hull.pt) : geom_XY Z := Mk_geom_XY (fst p) (snd p).
Definition mpt (p : geom_XY Z) : Hull.pt := (geom_XY_X p, geom_XY_Y p).
Definition gor (o : orient) : Z :=
  match o with LeftTurn => geom_leftTurn | Collinear => geom_collinear | RightTurn => geom_rightTurn end.

Open Scope Z_scope.
Ltac ztie := intros; destruct_pairs; ztie0.
(* geom/alg_orientation.go: cp := q.Sub(p).Cross(s.Sub(q)) *)
Lemma tie_cross : forall p q s,
  geom_XY_Cross zops (geom_XY_Sub zops (gpt q) (gpt p)) (geom_XY_Sub zops (gpt s) (gpt q)) = Hull.cross p q s.
Proof. first [reflexivity | intros [] [] []; cbv -[Z.add Z.sub Z.mul Z.opp]; ring]. Qed.
(* orientation: Go tests cp > 0, the model 0 < cp *)
Lemma tie_orientation : forall p q s, geom_orientation zops (gpt p) (gpt q) (gpt s) = gor (Hull.orientation p q s).
Proof. ztie. Qed.
Lemma tie_is_left_turn : forall o, Z.eqb (gor o) geom_leftTurn = is_left_turn o.
Proof. intros []; reflexivity. Qed.
(* geom/xy.go:Less *)
Lemma tie_pt_less : forall w o, geom_XY_Less zops (gpt w) (gpt o) = pt_less w o.
Proof. ztie. Qed.
(* geom/xy.go:Sub, Dot, rotateCCW90, rotate180 *)
Lemma tie_sub : forall a b, mpt (geom_XY_Sub zops (gpt a) (gpt b)) = Calipers.sub a b.
Proof. reflexivity. Qed.
Lemma tie_dot : forall u v, geom_XY_Dot zops (gpt u) (gpt v) = Calipers.dot u v.
Proof. first [reflexivity | intros [] []; cbv -[Z.add Z.sub Z.mul Z.opp]; ring]. Qed.
Lemma tie_rot90 : forall d, mpt (geom_XY_rotateCCW90 zops (gpt d)) = rot90 d.
Proof. reflexivity. Qed.
Lemma tie_neg : forall d, mpt (geom_XY_rotate180 zops (gpt d)) = Calipers.neg d.
Proof. reflexivity. Qed.

Open Scope Q_scope.
Definition gqpt (p : qpt) : geom_XY Q := Mk_geom_XY (fst p) (snd p).
Definition mqpt (p : geom_XY Q) : qpt := (geom_XY_X p, geom_XY_Y p).
Lemma tie_qadd : forall a b, mqpt (geom_XY_Add qops (gqpt a) (gqpt b)) = qadd a b.
Proof. reflexivity. Qed.
Lemma tie_qsub : forall a b, mqpt (geom_XY_Sub qops (gqpt a) (gqpt b)) = qsub a b.
Proof. reflexivity. Qed.
Lemma tie_qdot : forall a b, geom_XY_Dot qops (gqpt a) (gqpt b) = qdot a b.
Proof. reflexivity. Qed.
Lemma tie_qcross2 : forall a b, geom_XY_Cross qops (gqpt a) (gqpt b) = qcross2 a b.
Proof. reflexivity. Qed.
Lemma tie_qcross : forall p q s,
  geom_XY_Cross qops (geom_XY_Sub qops (gqpt q) (gqpt p)) (geom_XY_Sub qops (gqpt s) (gqpt q)) = qcross p q s.
Proof. reflexivity. Qed.
(* geom/xy.go:proj  w.proj(o) = o.Scale(w.Dot(o) / o.Dot(o)); the model takes t = w.Dot(o) as an
   integer and divides the injected integers: the same rational (inject_Z is a ring morphism) *)
Lemma tie_proj : forall w o : Hull.pt,
  let r := geom_XY_proj qops (gqpt (q_of_pt w)) (gqpt (q_of_pt o)) in
  geom_XY_X r == fst (proj_on o (Calipers.dot w o)) /\ geom_XY_Y r == snd (proj_on o (Calipers.dot w o)).
Proof.
  intros [wx wy] [ox oy]. cbv zeta.
  unfold geom_XY_proj, geom_XY_Scale, geom_XY_Dot, proj_on, Calipers.dot, q_of_pt, gqpt.
  cbn [fst snd geom_XY_X geom_XY_Y qops qops_with f_mul f_div f_add].
  rewrite !inject_Z_plus, !inject_Z_mult. split; reflexivity.
Qed.
