(* Lemmas about Model/Distance.v (property C09): the squared-distance kernels against the
   parametrised segment (QKernel.on_seg_iff), the search as a minimum over all pairs of parts,
   the pruning rule, symmetry, zero iff intersecting, envelope lower bound. *)
From Coq Require Import QArith Qabs Qreduction List Bool ZArith Lia Lqa Setoid Morphisms Sorting.Sorted.
From SF Require Import Base.GeomAST Base.QKernel Base.Planar Proofs.Planar_proofs Proofs.Planar_slab_base
  Model.Intersects Model.Distance Proofs.Intersects_proofs.
Import ListNotations.
Open Scope Q_scope.

(* ================================================================ qmin *)
Lemma qmin_cases a b : (qmin a b = a /\ a <= b) \/ (qmin a b = b /\ b <= a).
Proof. destruct (qmin2_spec a b) as [[H E]|[H E]]; [left | right]; (split; [exact E | lra]). Qed.
Lemma qmin_le_l a b : qmin a b <= a.
Proof. destruct (qmin_cases a b) as [[E H]|[E H]]; rewrite E; lra. Qed.
Lemma qmin_le_r a b : qmin a b <= b.
Proof. destruct (qmin_cases a b) as [[E H]|[E H]]; rewrite E; lra. Qed.

(* ================================================================ point - point *)
Lemma d2_xy_expand p q : d2_xy p q == (fst p - fst q) * (fst p - fst q) + (snd p - snd q) * (snd p - snd q).
Proof. unfold d2_xy, vdot, vsub; cbn [fst snd]. ring. Qed.
Lemma d2_xy_sym p q : d2_xy p q == d2_xy q p.
Proof. rewrite !d2_xy_expand. ring. Qed.
Lemma d2_xy_nonneg p q : 0 <= d2_xy p q.
Proof. rewrite d2_xy_expand. generalize (fst p - fst q) (snd p - snd q). intros x y. nra. Qed.
Lemma sq_sum_zero x y : x * x + y * y == 0 -> x == 0 /\ y == 0.
Proof.
  intros H. assert (0 <= x * x) by nra. assert (0 <= y * y) by nra.
  assert (Hx : x * x == 0) by lra. assert (Hy : y * y == 0) by lra.
  apply Qmult_integral in Hx. apply Qmult_integral in Hy. tauto.
Qed.
Lemma d2_xy_zero p q : d2_xy p q == 0 -> pt_eq p q.
Proof. rewrite d2_xy_expand. intros H. apply sq_sum_zero in H. destruct H. split; lra. Qed.
Lemma d2_xy_proper p p' q q' : pt_eq p p' -> pt_eq q q' -> d2_xy p q == d2_xy p' q'.
Proof. intros [H1 H2] [H3 H4]. rewrite !d2_xy_expand, H1, H2, H3, H4. reflexivity. Qed.

(* ================================================================ point - segment *)
Lemma sq_pos x : ~ x == 0 -> 0 < x * x.
Proof. intros H. destruct (Q_dec x 0) as [[K|K]|K]; [nra | nra | contradiction]. Qed.
Lemma sq_nonneg x : 0 <= x * x.
Proof. nra. Qed.
Lemma l2_pos a b : ~ pt_eq a b -> 0 < vdot (vsub b a) (vsub b a).
Proof.
  unfold pt_eq, vdot, vsub; cbn [fst snd]. intros H.
  pose proof (sq_nonneg (fst b - fst a)) as N1. pose proof (sq_nonneg (snd b - snd a)) as N2.
  destruct (Qeq_dec (fst a) (fst b)) as [E1|E1].
  - destruct (Qeq_dec (snd a) (snd b)) as [E2|E2]; [exfalso; auto|].
    assert (P : 0 < (snd b - snd a) * (snd b - snd a)) by (apply sq_pos; lra). lra.
  - assert (P : 0 < (fst b - fst a) * (fst b - fst a)) by (apply sq_pos; lra). lra.
Qed.

(* a quadratic with leading coefficient l2 >= 0 is least, over an interval, at a point t where its
   derivative 2 (t l2 - pr) does not point out of the interval *)
Lemma quad_min l2 pr s t :
  0 <= l2 -> 0 <= (s - t) * (t * l2 - pr) -> t * t * l2 - 2 * t * pr <= s * s * l2 - 2 * s * pr.
Proof.
  intros Hl Hd. assert (K : 0 <= l2 * ((s - t) * (s - t))) by (apply Qmult_le_0_compat; [exact Hl | apply sq_nonneg]). lra.
Qed.

(* the point measured to has the parameter pr / l2 clamped to [0,1] *)
Lemma closest_param p a b :
  ~ pt_eq a b ->
  exists t, seg_param a b (closest_on_line p (a, b)) t /\
    (forall s, 0 <= s <= 1 -> 0 <= (s - t) * (t * vdot (vsub b a) (vsub b a) - vdot (vsub p a) (vsub b a))).
Proof.
  intros Hab. unfold closest_on_line.
  set (ab := vsub b a). set (l2 := vdot ab ab). set (pr := vdot (vsub p a) ab).
  pose proof (l2_pos a b Hab) as Hl. fold ab in Hl. fold l2 in Hl.
  destruct (qltb pr 0) eqn:E1; [|destruct (qltb l2 pr) eqn:E2].
  - apply qltb_iff in E1. exists 0. split; [unfold seg_param; split; [lra | split; ring]|]. intros s S. nra.
  - apply qltb_iff in E2. exists 1. split; [unfold seg_param; split; [lra | split; ring]|]. intros s S. nra.
  - apply qltb_false_iff in E1. apply qltb_false_iff in E2.
    assert (Hd : ~ l2 == 0) by lra.
    assert (Ht : pr / l2 * l2 == pr) by (field; exact Hd).
    set (t := pr / l2) in *. exists t. split.
    + unfold seg_param, ab, vsub; cbn [fst snd]. split; [split; nra | split; ring].
    + intros s _. rewrite Ht. setoid_replace (pr - pr) with 0 by ring. rewrite Qmult_0_r. apply Qle_refl.
Qed.

Lemma closest_on_seg p a b : ~ pt_eq a b -> on_seg (a, b) (closest_on_line p (a, b)) = true.
Proof. intros Hab. destruct (closest_param p a b Hab) as [t [Ht _]]. apply on_seg_iff. exists t. exact Ht. Qed.

(* the value computed by the code is the squared distance to that point *)
Lemma d2_xy_line_closest p a b : ~ pt_eq a b -> d2_xy_line p (a, b) == d2_xy p (closest_on_line p (a, b)).
Proof.
  intros Hab. unfold d2_xy_line, closest_on_line.
  pose proof (l2_pos a b Hab) as Hl.
  destruct (qltb (vdot (vsub p a) (vsub b a)) 0); [reflexivity|].
  destruct (qltb (vdot (vsub b a) (vsub b a)) (vdot (vsub p a) (vsub b a))); [reflexivity|].
  rewrite d2_xy_expand. destruct p as [px py], a as [ax ay], b as [bx by_].
  unfold vcross, vdot, vsub in *; cbn [fst snd] in *. field. lra.
Qed.

(* ... and no point of the segment is closer *)
Lemma d2_xy_line_le p a b q :
  ~ pt_eq a b -> on_seg (a, b) q = true -> d2_xy_line p (a, b) <= d2_xy p q.
Proof.
  intros Hab Hq. apply on_seg_iff in Hq. destruct Hq as [s [S [Hx Hy]]].
  destruct (closest_param p a b Hab) as [t [[_ [Tx Ty]] Hd]].
  rewrite (d2_xy_line_closest p a b Hab), !d2_xy_expand, Hx, Hy, Tx, Ty.
  pose proof (quad_min _ _ s t (Qlt_le_weak _ _ (l2_pos a b Hab)) (Hd s S)) as Q.
  unfold vdot, vsub in Q; cbn [fst snd] in Q. lra.
Qed.

Lemma d2_xy_line_nonneg p s : 0 <= d2_xy_line p s.
Proof.
  destruct s as [a b]. unfold d2_xy_line.
  destruct (qltb (vdot (vsub p a) (vsub b a)) 0); [apply d2_xy_nonneg|].
  destruct (qltb (vdot (vsub b a) (vsub b a)) (vdot (vsub p a) (vsub b a))); [apply d2_xy_nonneg|].
  unfold Qdiv. apply Qmult_le_0_compat; [apply sq_nonneg|]. apply Qinv_le_0_compat.
  unfold vdot. pose proof (sq_nonneg (fst (vsub b a))). pose proof (sq_nonneg (snd (vsub b a))). lra.
Qed.

(* distance zero: the point is on the segment *)
Lemma d2_xy_line_zero p a b : ~ pt_eq a b -> d2_xy_line p (a, b) == 0 -> on_seg (a, b) p = true.
Proof.
  intros Hab H. rewrite (d2_xy_line_closest p a b Hab) in H. apply d2_xy_zero in H.
  rewrite (on_seg_pt_eq (a, b) p _ H). apply closest_on_seg. exact Hab.
Qed.

Lemma d2_xy_line_attained p t : nondeg t -> exists q, on_seg t q = true /\ d2_xy_line p t == d2_xy p q.
Proof.
  destruct t as [c d]. intros Ht. exists (closest_on_line p (c, d)).
  split; [apply closest_on_seg | apply d2_xy_line_closest]; exact Ht.
Qed.

(* ================================================================ segment - segment *)
Lemma qmin4_spec A B C D :
  let m := qmin (qmin (qmin A B) C) D in
  (m <= A /\ m <= B /\ m <= C /\ m <= D) /\ (m = A \/ m = B \/ m = C \/ m = D).
Proof.
  cbv zeta.
  destruct (qmin_cases A B) as [[E1 H1]|[E1 H1]]; rewrite E1;
  match goal with |- context [qmin (qmin ?X C) D] =>
    destruct (qmin_cases X C) as [[E2 H2]|[E2 H2]]; rewrite E2 end;
  match goal with |- context [qmin ?X D] =>
    destruct (qmin_cases X D) as [[E3 H3]|[E3 H3]]; rewrite E3 end;
  (split; [repeat split; lra | auto]).
Qed.

Lemma d2_line_line_sym s t : d2_line_line s t == d2_line_line t s.
Proof.
  unfold d2_line_line.
  destruct (qmin4_spec (d2_xy_line (fst s) t) (d2_xy_line (snd s) t) (d2_xy_line (fst t) s) (d2_xy_line (snd t) s))
    as [[L1 [L2 [L3 L4]]] Hm].
  destruct (qmin4_spec (d2_xy_line (fst t) s) (d2_xy_line (snd t) s) (d2_xy_line (fst s) t) (d2_xy_line (snd s) t))
    as [[R1 [R2 [R3 R4]]] Hm'].
  cbv zeta in *.
  apply Qle_antisym.
  - destruct Hm' as [E|[E|[E|E]]]; rewrite E; assumption.
  - destruct Hm as [E|[E|[E|E]]]; rewrite E; assumption.
Qed.

(* the value is attained by an end point of one segment and a point of the other *)
Lemma d2_line_line_attained s t :
  nondeg s -> nondeg t ->
  exists p q, on_seg s p = true /\ on_seg t q = true /\ d2_line_line s t == d2_xy p q.
Proof.
  destruct s as [a b], t as [c d]. unfold nondeg; cbn [fst snd]. intros Hs Ht.
  destruct (qmin4_spec (d2_xy_line a (c, d)) (d2_xy_line b (c, d)) (d2_xy_line c (a, b)) (d2_xy_line d (a, b)))
    as [_ Hm]. cbv zeta in Hm. unfold d2_line_line; cbn [fst snd].
  destruct Hm as [E|[E|[E|E]]]; rewrite E.
  - destruct (d2_xy_line_attained a (c, d) Ht) as [q [Hq Eq]]. exists a, q. auto using on_seg_left.
  - destruct (d2_xy_line_attained b (c, d) Ht) as [q [Hq Eq]]. exists b, q. auto using on_seg_right.
  - destruct (d2_xy_line_attained c (a, b) Hs) as [q [Hq Eq]]. exists q, c. rewrite d2_xy_sym. auto using on_seg_left.
  - destruct (d2_xy_line_attained d (a, b) Hs) as [q [Hq Eq]]. exists q, d. rewrite d2_xy_sym. auto using on_seg_right.
Qed.

Lemma d2_line_line_nonneg s t : 0 <= d2_line_line s t.
Proof.
  unfold d2_line_line.
  destruct (qmin4_spec (d2_xy_line (fst s) t) (d2_xy_line (snd s) t) (d2_xy_line (fst t) s) (d2_xy_line (snd t) s))
    as [_ Hm]. cbv zeta in Hm. destruct Hm as [E|[E|[E|E]]]; rewrite E; apply d2_xy_line_nonneg.
Qed.

(* distance zero: the segments share a point *)
Lemma d2_line_line_zero s t :
  nondeg s -> nondeg t -> d2_line_line s t == 0 -> exists w, on_seg s w = true /\ on_seg t w = true.
Proof.
  intros Hs Ht H. destruct (d2_line_line_attained s t Hs Ht) as [p [q [Hp [Hq E]]]].
  exists p. split; [exact Hp|]. rewrite (on_seg_pt_eq t p q); [exact Hq|]. apply d2_xy_zero. rewrite <- E. exact H.
Qed.

(* ================================================================ folds of omin *)
Lemma fold_omin_map {A} (f : A -> Q) l m :
  fold_left (fun m x => omin m (f x)) l m = fold_left omin (map f l) m.
Proof. revert m. induction l as [|a l IH]; intros m; [reflexivity|]. simpl. apply IH. Qed.
Lemma fold_omin_flat {A} (g : A -> list Q) l m :
  fold_left (fun m x => fold_left omin (g x) m) l m = fold_left omin (flat_map g l) m.
Proof.
  revert m. induction l as [|a l IH]; intros m; [reflexivity|]. simpl. rewrite fold_left_app. apply IH.
Qed.
Lemma fold_left_ext_eq {A B} (f g : A -> B -> A) l a : (forall a b, f a b = g a b) -> fold_left f l a = fold_left g l a.
Proof. intros H. revert a. induction l as [|b l IH]; intros a; [reflexivity|]. simpl. rewrite H. apply IH. Qed.

Lemma fold_omin_spec l m :
  match fold_left omin l m with
  | None => m = None /\ l = []
  | Some v => (m = Some v \/ In v l) /\ (forall x, In x l -> v <= x) /\ (forall v0, m = Some v0 -> v <= v0)
  end.
Proof.
  revert m. induction l as [|a l IH]; intros m.
  - simpl. destruct m as [v|]; [|auto]. split; [auto|]. split; [intros x []|]. intros v0 E. injection E as <-. lra.
  - cbn [fold_left]. specialize (IH (omin m a)).
    destruct (fold_left omin l (omin m a)) as [v|].
    + destruct IH as [Hin [Hle Hm]]. split; [|split].
      * destruct Hin as [E|Hin]; [|right; right; exact Hin].
        destruct m as [x|]; simpl in E; injection E as E.
        -- destruct (qmin_cases x a) as [[E' _]|[E' _]]; rewrite E' in E; subst; [left; reflexivity | right; left; reflexivity].
        -- subst. right; left; reflexivity.
      * intros x [<-|Hx]; [|apply Hle; exact Hx].
        destruct m as [y|]; simpl in Hm.
        -- pose proof (Hm _ eq_refl) as K. pose proof (qmin_le_r y a). lra.
        -- pose proof (Hm _ eq_refl) as K. exact K.
      * intros v0 E. subst m. simpl in Hm. pose proof (Hm _ eq_refl) as K. pose proof (qmin_le_l v0 a). lra.
    + destruct IH as [E _]. destruct m; discriminate.
Qed.

Lemma min_list_spec l :
  match min_list l with
  | None => l = []
  | Some v => In v l /\ forall x, In x l -> v <= x
  end.
Proof.
  unfold min_list. pose proof (fold_omin_spec l None) as H.
  destruct (fold_left omin l None) as [v|].
  - destruct H as [[E|Hin] [Hle _]]; [discriminate|]. auto.
  - tauto.
Qed.

Definition opt_qeq (a b : option Q) : Prop :=
  match a, b with
  | None, None => True
  | Some x, Some y => x == y
  | _, _ => False
  end.

Lemma min_list_equiv l l' :
  (forall x, In x l -> exists y, In y l' /\ x == y) ->
  (forall y, In y l' -> exists x, In x l /\ y == x) ->
  opt_qeq (min_list l) (min_list l').
Proof.
  intros H1 H2. pose proof (min_list_spec l) as S. pose proof (min_list_spec l') as S'.
  destruct (min_list l) as [v|], (min_list l') as [v'|]; simpl.
  - destruct S as [Hv Hle], S' as [Hv' Hle'].
    destruct (H1 v Hv) as [y [Hy Ey]]. destruct (H2 v' Hv') as [x [Hx Ex]].
    pose proof (Hle' y Hy). pose proof (Hle x Hx). lra.
  - subst l'. destruct S as [Hv _]. destruct (H1 v Hv) as [y [[] _]].
  - subst l. destruct S' as [Hv _]. destruct (H2 v' Hv) as [y [[] _]].
  - exact I.
Qed.

(* ================================================================ the search is a minimum over all pairs *)
Definition pairvals (x1 : list pt) (l1 : list seg) (x2 : list pt) (l2 : list seg) : list Q :=
  flat_map (fun p => map (d2_xy p) x2 ++ map (d2_xy_line p) l2) x1 ++
  flat_map (fun ln => map (fun q => d2_xy_line q ln) x2 ++ map (fun ln2 => d2_line_line ln2 ln) l2) l1.

Lemma search_all_min_list x1 l1 x2 l2 : search_all x1 l1 x2 l2 = min_list (pairvals x1 l1 x2 l2).
Proof.
  unfold search_all, min_list, pairvals. rewrite fold_left_app.
  rewrite <- !fold_omin_flat.
  assert (E1 : fold_left (fun m xy => scan_xy xy x2 l2 m) x1 None =
               fold_left (fun m p => fold_left omin (map (d2_xy p) x2 ++ map (d2_xy_line p) l2) m) x1 None).
  { apply fold_left_ext_eq. intros m p. unfold scan_xy. rewrite fold_left_app, (fold_omin_map (d2_xy_line p)), (fold_omin_map (d2_xy p)). reflexivity. }
  rewrite E1. apply fold_left_ext_eq. intros m ln. unfold scan_line.
  rewrite fold_left_app, (fold_omin_map (fun ln2 => d2_line_line ln2 ln)), (fold_omin_map (fun q => d2_xy_line q ln)). reflexivity.
Qed.

Inductive pairval (x1 : list pt) (l1 : list seg) (x2 : list pt) (l2 : list seg) : Q -> Prop :=
| PV_pp p q : In p x1 -> In q x2 -> pairval x1 l1 x2 l2 (d2_xy p q)
| PV_pl p ln : In p x1 -> In ln l2 -> pairval x1 l1 x2 l2 (d2_xy_line p ln)
| PV_lp ln q : In ln l1 -> In q x2 -> pairval x1 l1 x2 l2 (d2_xy_line q ln)
| PV_ll ln ln2 : In ln l1 -> In ln2 l2 -> pairval x1 l1 x2 l2 (d2_line_line ln2 ln).

Lemma pairvals_in x1 l1 x2 l2 v : In v (pairvals x1 l1 x2 l2) <-> pairval x1 l1 x2 l2 v.
Proof.
  unfold pairvals. rewrite in_app_iff, !in_flat_map. split.
  - intros [[p [Hp H]]|[ln [Hln H]]]; apply in_app_iff in H; destruct H as [H|H]; apply in_map_iff in H;
      destruct H as [y [<- Hy]]; constructor; assumption.
  - intros H. destruct H as [p q Hp Hq|p ln Hp Hln|ln q Hln Hq|ln ln2 Hln Hln2].
    + left. exists p. split; [exact Hp|]. apply in_app_iff. left. apply in_map. exact Hq.
    + left. exists p. split; [exact Hp|]. apply in_app_iff. right. apply in_map. exact Hln.
    + right. exists ln. split; [exact Hln|]. apply in_app_iff. left. apply (in_map (fun q => d2_xy_line q ln)). exact Hq.
    + right. exists ln. split; [exact Hln|]. apply in_app_iff. right. apply (in_map (fun ln2 => d2_line_line ln2 ln)). exact Hln2.
Qed.

Lemma pairval_swap x1 l1 x2 l2 v : pairval x1 l1 x2 l2 v -> exists v', pairval x2 l2 x1 l1 v' /\ v == v'.
Proof.
  intros H. destruct H as [p q Hp Hq|p ln Hp Hln|ln q Hln Hq|ln ln2 Hln Hln2].
  - exists (d2_xy q p). split; [constructor; assumption | apply d2_xy_sym].
  - exists (d2_xy_line p ln). split; [apply PV_lp; assumption | reflexivity].
  - exists (d2_xy_line q ln). split; [apply PV_pl; assumption | reflexivity].
  - exists (d2_line_line ln ln2). split; [apply PV_ll; assumption | apply d2_line_line_sym].
Qed.

Lemma search_all_swap x1 l1 x2 l2 : opt_qeq (search_all x1 l1 x2 l2) (search_all x2 l2 x1 l1).
Proof.
  rewrite !search_all_min_list. apply min_list_equiv; intros v Hv; apply pairvals_in in Hv;
    destruct (pairval_swap _ _ _ _ v Hv) as [v' [H1 H2]]; exists v'; (split; [apply pairvals_in; exact H1 | exact H2]).
Qed.

Lemma opt_qeq_refl a : opt_qeq a a.
Proof. destruct a; simpl; [reflexivity | exact I]. Qed.
Lemma opt_qeq_sym a b : opt_qeq a b -> opt_qeq b a.
Proof. destruct a, b; simpl; auto. intros H; symmetry; exact H. Qed.

(* the search branch of Distance as a function of the parts, independent of which operand is indexed *)
Definition dist2_search (g1 g2 : geom) : option Q :=
  search_all (part_xys g1) (part_lines g1) (part_xys g2) (part_lines g2).

Lemma dist2_unfold g1 g2 :
  opt_qeq (dist2 g1 g2) (if intersects g1 g2 then Some 0 else dist2_search g1 g2).
Proof.
  unfold dist2, dist2_search. destruct (intersects g1 g2); [simpl; reflexivity|].
  destruct (Nat.ltb _ _); [apply search_all_swap | apply opt_qeq_refl].
Qed.

Lemma opt_qeq_trans a b c : opt_qeq a b -> opt_qeq b c -> opt_qeq a c.
Proof. destruct a, b, c; simpl; auto; try tauto. intros H1 H2. rewrite H1. exact H2. Qed.

Lemma distance_sym g1 g2 : opt_qeq (dist2 g1 g2) (dist2 g2 g1).
Proof.
  eapply opt_qeq_trans; [apply dist2_unfold|]. apply opt_qeq_sym.
  eapply opt_qeq_trans; [apply dist2_unfold|]. rewrite (intersects_sym g2 g1).
  destruct (intersects g1 g2); [simpl; reflexivity|]. unfold dist2_search. apply search_all_swap.
Qed.

Lemma dist2_pair_min g1 g2 d :
  intersects g1 g2 = false -> dist2 g1 g2 = Some d ->
  exists v, d == v /\ pairval (part_xys g1) (part_lines g1) (part_xys g2) (part_lines g2) v /\
            forall x, pairval (part_xys g1) (part_lines g1) (part_xys g2) (part_lines g2) x -> v <= x.
Proof.
  intros E Hd. pose proof (dist2_unfold g1 g2) as U. rewrite Hd, E in U. unfold dist2_search in U.
  rewrite search_all_min_list in U.
  pose proof (min_list_spec (pairvals (part_xys g1) (part_lines g1) (part_xys g2) (part_lines g2))) as S.
  destruct (min_list _) as [v|]; [|destruct U]. destruct S as [Hin Hle]. exists v. split; [exact U|].
  split; [apply pairvals_in; exact Hin | intros x Hx; apply Hle, pairvals_in, Hx].
Qed.

(* ================================================================ undefined iff no parts *)
Lemma pairvals_nil x1 l1 x2 l2 :
  pairvals x1 l1 x2 l2 = [] <-> (x1 = [] /\ l1 = []) \/ (x2 = [] /\ l2 = []).
Proof.
  split.
  - destruct x1 as [|p x1], l1 as [|ln l1], x2 as [|q x2], l2 as [|ln2 l2]; cbn; intros H; try discriminate H; auto.
  - intros [[-> ->]|[-> ->]]; [reflexivity|].
    destruct (pairvals x1 l1 [] []) as [|v r] eqn:E; [reflexivity|]. exfalso.
    assert (X : In v (pairvals x1 l1 [] [])) by (rewrite E; left; reflexivity).
    apply pairvals_in in X. destruct X as [? ? ? []|? ? ? []|? ? ? []|? ? ? []].
Qed.

Definition no_parts (g : geom) : Prop := part_xys g = [] /\ part_lines g = [].

Lemma dist2_none_iff g1 g2 : dist2 g1 g2 = None <-> intersects g1 g2 = false /\ (no_parts g1 \/ no_parts g2).
Proof.
  pose proof (dist2_unfold g1 g2) as H. unfold dist2_search in H. rewrite search_all_min_list in H.
  pose proof (min_list_spec (pairvals (part_xys g1) (part_lines g1) (part_xys g2) (part_lines g2))) as S.
  destruct (intersects g1 g2).
  - split; [|intros [X _]; discriminate]. intros E. rewrite E in H. simpl in H. destruct H.
  - destruct (min_list _) as [v|] eqn:Em.
    + split.
      * intros E. rewrite E in H. simpl in H. destruct H.
      * intros [_ Hn]. exfalso. apply pairvals_nil in Hn. rewrite Hn in S. destruct S as [[] _].
    + split.
      * intros _. split; [reflexivity|]. apply pairvals_nil. exact S.
      * intros _. destruct (dist2 g1 g2); [simpl in H; destruct H | reflexivity].
Qed.

(* an empty geometry has no parts *)
Lemma empty_no_parts g : is_empty g = true -> no_parts g.
Proof.
  assert (P : forall p, point_empty p = true -> point_pts p = [])
    by (intros p; unfold point_empty, point_pts; destruct (point_c p); [discriminate | reflexivity]).
  assert (L : forall l, line_empty l = true -> ls_lines l = [])
    by (intros l; unfold line_empty, ls_lines, line_pts; destruct (line_vs l); [reflexivity | discriminate]).
  assert (Y : forall y, poly_empty y = true -> poly_lines y = [])
    by (intros y; unfold poly_empty, poly_lines; destruct (poly_rings y); [reflexivity | discriminate]).
  unfold no_parts. induction g using geomT_ind'; cbn [is_empty part_xys part_lines]; intros E;
    rewrite ?forallb_forall in E.
  - split; [exact (P p E) | reflexivity].
  - split; [reflexivity | exact (L l E)].
  - split; [reflexivity | exact (Y p E)].
  - split; [apply flat_map_nil; intros q Hq; exact (P q (E q Hq)) | reflexivity].
  - split; [reflexivity | apply flat_map_nil; intros l Hl; exact (L l (E l Hl))].
  - split; [reflexivity | apply flat_map_nil; intros y Hy; exact (Y y (E y Hy))].
  - rewrite Forall_forall in H. split; apply flat_map_nil; intros x Hx; apply (H x Hx (E x Hx)).
Qed.

Lemma distance_undefined_of_empty g1 g2 : is_empty g1 = true \/ is_empty g2 = true -> dist2 g1 g2 = None.
Proof.
  intros H. apply dist2_none_iff. split; [apply intersects_empty; exact H|].
  destruct H as [H|H]; [left | right]; apply empty_no_parts; exact H.
Qed.

(* ================================================================ parts are in the point set *)
Lemma part_xy_inG g p w : In p (part_xys g) -> pt_eq w p -> inG g w = true.
Proof.
  induction g using geomT_ind'; cbn [part_xys inG]; intros Hp Hw; try (destruct Hp; fail).
  - unfold in_point. apply existsb_exists. exists p. split; [exact Hp | apply pt_eqb_iff; exact Hw].
  - apply in_flat_map in Hp. destruct Hp as [q [Hq Hp]]. apply existsb_exists. exists q. split; [exact Hq|].
    unfold in_point. apply existsb_exists. exists p. split; [exact Hp | apply pt_eqb_iff; exact Hw].
  - apply in_flat_map in Hp. destruct Hp as [x [Hx Hp]]. apply existsb_exists. exists x. split; [exact Hx|].
    rewrite Forall_forall in H. apply (H x Hx Hp Hw).
Qed.

Lemma part_line_inG g ln w : In ln (part_lines g) -> on_seg ln w = true -> inG g w = true.
Proof.
  induction g using geomT_ind'; cbn [part_lines inG]; intros Hl Hw; try (destruct Hl; fail).
  - eapply ls_lines_on_line; eauto.
  - eapply poly_lines_in_poly; eauto.
  - apply (mls_lines_inML ls ln w Hl Hw).
  - apply (mpoly_lines_inMY ps ln w Hl Hw).
  - apply in_flat_map in Hl. destruct Hl as [x [Hx Hl]]. apply existsb_exists. exists x. split; [exact Hx|].
    rewrite Forall_forall in H. apply (H x Hx Hl Hw).
Qed.

Lemma part_lines_nondeg g : Forall nondeg (part_lines g).
Proof.
  induction g using geomT_ind'; cbn [part_lines]; try constructor.
  - apply ls_lines_nondeg.
  - apply poly_lines_nondeg.
  - apply mls_lines_nondeg.
  - apply mpoly_lines_nondeg.
  - apply Forall_forall. intros s Hs. apply in_flat_map in Hs. destruct Hs as [x [Hx Hs]].
    rewrite Forall_forall in H. specialize (H x Hx). rewrite Forall_forall in H. auto.
Qed.
Lemma part_line_nondeg g ln : In ln (part_lines g) -> ~ pt_eq (fst ln) (snd ln).
Proof. intros H. pose proof (part_lines_nondeg g) as F. rewrite Forall_forall in F. exact (F ln H). Qed.

Definition covered (g : geom) (x : pt) : Prop :=
  (exists v, In v (part_xys g) /\ pt_eq x v) \/ (exists ln, In ln (part_lines g) /\ on_seg ln x = true).

Lemma covered_xy g p : In p (part_xys g) -> covered g p.
Proof. intros H. left. exists p. split; [exact H | reflexivity]. Qed.
Lemma covered_line g ln x : In ln (part_lines g) -> on_seg ln x = true -> covered g x.
Proof. intros H Hx. right. exists ln. auto. Qed.
Lemma covered_inG g x : covered g x -> inG g x = true.
Proof. intros [[v [Hv E]]|[ln [Hln E]]]; [eapply part_xy_inG | eapply part_line_inG]; eauto. Qed.
Lemma covered_pt_eq g x x' : pt_eq x x' -> covered g x' -> covered g x.
Proof.
  intros E [[v [Hv Ev]]|[ln [Hln Hon]]].
  - left. exists v. split; [exact Hv | etransitivity; eassumption].
  - right. exists ln. split; [exact Hln|]. rewrite (on_seg_pt_eq ln x x' E). exact Hon.
Qed.

Lemma pairval_covered g1 g2 v :
  pairval (part_xys g1) (part_lines g1) (part_xys g2) (part_lines g2) v ->
  exists p q, covered g1 p /\ covered g2 q /\ v == d2_xy p q.
Proof.
  intros H. destruct H as [p q Hp Hq|p ln Hp Hln|ln q Hln Hq|ln ln2 Hln Hln2].
  - exists p, q. split; [apply covered_xy; exact Hp|]. split; [apply covered_xy; exact Hq | reflexivity].
  - destruct (d2_xy_line_attained p ln (part_line_nondeg g2 ln Hln)) as [q [Hq E]].
    exists p, q. split; [apply covered_xy; exact Hp|]. split; [exact (covered_line g2 ln q Hln Hq) | exact E].
  - destruct (d2_xy_line_attained q ln (part_line_nondeg g1 ln Hln)) as [p [Hp E]].
    exists p, q. split; [exact (covered_line g1 ln p Hln Hp)|]. split; [apply covered_xy; exact Hq | rewrite E; apply d2_xy_sym].
  - pose proof (part_line_nondeg g1 ln Hln) as Nd1. pose proof (part_line_nondeg g2 ln2 Hln2) as Nd2.
    destruct (d2_line_line_attained ln2 ln Nd2 Nd1) as [p [q [Hp [Hq E]]]].
    exists q, p. split; [exact (covered_line g1 ln q Hln Hq)|]. split; [exact (covered_line g2 ln2 p Hln2 Hp)|].
    rewrite E. apply d2_xy_sym.
Qed.

(* a pair value of zero is a common point of the two point sets *)
Lemma pairval_zero g1 g2 v :
  pairval (part_xys g1) (part_lines g1) (part_xys g2) (part_lines g2) v -> v == 0 -> common g1 g2.
Proof.
  intros H Hv. destruct (pairval_covered g1 g2 v H) as [p [q [Cp [Cq E]]]].
  assert (Epq : pt_eq p q) by (apply d2_xy_zero; rewrite <- E; exact Hv).
  exists p. split; [exact (covered_inG g1 p Cp) | exact (covered_inG g2 p (covered_pt_eq g2 p q Epq Cq))].
Qed.

(* for every pair of operands: intersecting implies distance zero, and a zero distance always has
   a common point as witness *)
Lemma distance_zero_witness g1 g2 d :
  dist2 g1 g2 = Some d -> d == 0 -> intersects g1 g2 = true \/ common g1 g2.
Proof.
  intros Hd H0. destruct (intersects g1 g2) eqn:E; [left; reflexivity|]. right.
  destruct (dist2_pair_min g1 g2 d E Hd) as [v [Ev [Hv _]]]. apply (pairval_zero g1 g2 v Hv). lra.
Qed.

(* so Distance = 0 exactly when Intersects, wherever Intersects finds every common point *)
Lemma distance_zero_iff_of g1 g2 :
  (forall w, inG g1 w = true -> inG g2 w = true -> intersects g1 g2 = true) ->
  ((exists d, dist2 g1 g2 = Some d /\ d == 0) <-> intersects g1 g2 = true).
Proof.
  intros K. split.
  - intros [d [Hd H0]]. destruct (distance_zero_witness g1 g2 d Hd H0) as [H|[w [H1 H2]]]; [exact H | exact (K w H1 H2)].
  - intros H. exists 0. split; [|reflexivity]. unfold dist2. rewrite H. reflexivity.
Qed.

Lemma distance_zero_iff_intersects g1 g2 :
  no_polys g1 = true -> no_polys g2 = true -> lines_wf g1 = true -> lines_wf g2 = true ->
  ((exists d, dist2 g1 g2 = Some d /\ d == 0) <-> intersects g1 g2 = true).
Proof.
  intros N1 N2 W1 W2. apply distance_zero_iff_of. intros w. apply intersects_complete_lineal; assumption.
Qed.

(* ================================================================ the pruned search *)
Lemma full_search_noop {R} (val : R -> Q) l b :
  (forall r, In r l -> b < val r) -> full_search val l (Some b) = Some b.
Proof.
  unfold full_search. induction l as [|r l IH]; intros H; [reflexivity|].
  cbn [fold_left omin]. assert (E : qmin b (val r) = b).
  { unfold qmin. assert (X : qltb b (val r) = true) by (apply qltb_iff; apply H; left; reflexivity).
    rewrite X. reflexivity. }
  rewrite E. apply IH. intros r' Hr'. apply H. right. exact Hr'.
Qed.

(* on a stream sorted by a lower bound [key] of [val], stopping at the first record whose bound
   exceeds the best value so far loses nothing *)
Lemma pruned_search_is_min {R} (key val : R -> Q) recs best :
  StronglySorted (fun r s => key r <= key s) recs ->
  (forall r, In r recs -> key r <= val r) ->
  pruned_search key val recs best = full_search val recs best.
Proof.
  revert best. induction recs as [|r rest IH]; intros best Hs Hk; [reflexivity|].
  inversion Hs as [|? ? Hs' Hall]; subst.
  assert (Hk' : forall r0, In r0 rest -> key r0 <= val r0) by (intros r0 H0; apply Hk; right; exact H0).
  cbn [pruned_search]. destruct best as [b|].
  - destruct (qltb b (key r)) eqn:E.
    + apply qltb_iff in E. symmetry. apply full_search_noop. intros r0 [<-|H0].
      * pose proof (Hk r (or_introl eq_refl)). lra.
      * rewrite Forall_forall in Hall. pose proof (Hall r0 H0). pose proof (Hk' r0 H0). lra.
    + rewrite (IH _ Hs' Hk'). reflexivity.
  - rewrite (IH _ Hs' Hk'). reflexivity.
Qed.

(* ================================================================ envelopes *)
Lemma box_contains_iff e p :
  box_contains e p = true <-> bminx e <= fst p <= bmaxx e /\ bminy e <= snd p <= bmaxy e.
Proof. unfold box_contains. rewrite !andb_true_iff, !Qle_bool_iff. tauto. Qed.

Lemma sq_le_sq a x : 0 <= a -> (a <= x \/ a <= - x \/ a == 0) -> a * a <= x * x.
Proof. intros Ha [K|[K|K]]; nra. Qed.

(* one coordinate: the gap between two intervals is at most the distance of any two of their points *)
Lemma gap_sq_le a1 a2 b1 b2 x y :
  a1 <= x <= a2 -> b1 <= y <= b2 ->
  let d := qmax2 0 (qmax2 (b1 - a2) (a1 - b2)) in d * d <= (x - y) * (x - y).
Proof.
  intros [X1 X2] [Y1 Y2]. cbv zeta.
  destruct (qmax2_spec 0 (qmax2 (b1 - a2) (a1 - b2))) as [[H1 ->]|[H1 ->]]; [|pose proof (sq_nonneg (x - y)); lra].
  destruct (qmax2_spec (b1 - a2) (a1 - b2)) as [[H2 E]|[H2 E]]; rewrite E in *;
    (apply sq_le_sq; [exact H1|]); [left | right; left]; lra.
Qed.

Lemma box_d2_le e o p q :
  box_contains e p = true -> box_contains o q = true -> box_d2 e o <= d2_xy p q.
Proof.
  rewrite !box_contains_iff, d2_xy_expand. intros [Xp Yp] [Xq Yq]. unfold box_d2.
  pose proof (gap_sq_le _ _ _ _ _ _ Xp Xq) as Sx. pose proof (gap_sq_le _ _ _ _ _ _ Yp Yq) as Sy.
  cbv zeta in Sx, Sy. lra.
Qed.

Lemma qmin2_le a b : qmin2 a b <= a /\ qmin2 a b <= b.
Proof. destruct (qmin2_spec a b) as [[? ->]|[? ->]]; split; lra. Qed.
Lemma qmax2_ge a b : a <= qmax2 a b /\ b <= qmax2 a b.
Proof. destruct (qmax2_spec a b) as [[? ->]|[? ->]]; split; lra. Qed.

Lemma box_add_contains e q p : box_contains e p = true \/ p = q -> box_contains (box_add e q) p = true.
Proof.
  rewrite !box_contains_iff. unfold box_add; cbn [bminx bminy bmaxx bmaxy]. intros H.
  pose proof (qmin2_le (bminx e) (fst q)). pose proof (qmax2_ge (bmaxx e) (fst q)).
  pose proof (qmin2_le (bminy e) (snd q)). pose proof (qmax2_ge (bmaxy e) (snd q)).
  destruct H as [H| ->]; lra.
Qed.
Lemma fold_box_add_contains r e p :
  box_contains e p = true \/ In p r -> box_contains (fold_left box_add r e) p = true.
Proof.
  revert e. induction r as [|q r IH]; intros e [H|H]; cbn [fold_left].
  - exact H.
  - destruct H.
  - apply IH. left. apply box_add_contains. left. exact H.
  - apply IH. destruct H as [<-|H]; [left; apply box_add_contains; right; reflexivity | right; exact H].
Qed.
Lemma box_of_pts_contains ps e p : box_of_pts ps = Some e -> In p ps -> box_contains e p = true.
Proof.
  destruct ps as [|a r]; [discriminate|]. cbn [box_of_pts]. intros E Hp. injection E as <-.
  apply fold_box_add_contains. destruct Hp as [<-|Hp]; [left | right; exact Hp].
  rewrite box_contains_iff. unfold xy_box; cbn [bminx bminy bmaxx bmaxy]. repeat split; lra.
Qed.

Lemma box_contains_seg e a b w :
  box_contains e a = true -> box_contains e b = true -> on_seg (a, b) w = true -> box_contains e w = true.
Proof.
  rewrite !box_contains_iff. intros [[A1 A2] [A3 A4]] [[B1 B2] [B3 B4]] H.
  unfold on_seg in H. rewrite !andb_true_iff, !qbetween_iff in H. destruct H as [[Hx Hy] _].
  repeat split; [destruct Hx; lra | destruct Hx; lra | destruct Hy; lra | destruct Hy; lra].
Qed.

Lemma part_pts_xy g p : In p (part_xys g) -> In p (part_pts g).
Proof. intros H. unfold part_pts. apply in_app_iff. left. exact H. Qed.
Lemma part_pts_line g ln : In ln (part_lines g) -> In (fst ln) (part_pts g) /\ In (snd ln) (part_pts g).
Proof.
  intros H. unfold part_pts. split; apply in_app_iff; right; apply in_flat_map; exists ln; (split; [exact H|]); simpl; auto.
Qed.

Lemma parts_box_xy g e p : parts_box g = Some e -> In p (part_xys g) -> box_contains e p = true.
Proof. intros E H. eapply box_of_pts_contains; [exact E | apply part_pts_xy; exact H]. Qed.
Lemma parts_box_line g e ln w :
  parts_box g = Some e -> In ln (part_lines g) -> on_seg ln w = true -> box_contains e w = true.
Proof.
  intros E H Hw. destruct (part_pts_line g ln H) as [H1 H2]. destruct ln as [a b].
  apply (box_contains_seg e a b w); [eapply box_of_pts_contains; eauto | eapply box_of_pts_contains; eauto | exact Hw].
Qed.

Lemma box_contains_pt_eq e p p' : pt_eq p p' -> box_contains e p = box_contains e p'.
Proof. intros [H1 H2]. unfold box_contains. rewrite H1, H2. reflexivity. Qed.

Lemma covered_in_box g e p : parts_box g = Some e -> covered g p -> box_contains e p = true.
Proof.
  intros E [[x [Hx Ex]]|[ln [Hln Eln]]].
  - rewrite (box_contains_pt_eq e p x Ex). eapply parts_box_xy; eauto.
  - eapply parts_box_line; eauto.
Qed.

Lemma pairval_ge_box g1 g2 e1 e2 v :
  parts_box g1 = Some e1 -> parts_box g2 = Some e2 ->
  pairval (part_xys g1) (part_lines g1) (part_xys g2) (part_lines g2) v -> box_d2 e1 e2 <= v.
Proof.
  intros E1 E2 H. destruct (pairval_covered g1 g2 v H) as [p [q [Cp [Cq E]]]]. rewrite E.
  apply box_d2_le; eapply covered_in_box; eauto.
Qed.

(* the value found by the search is never below the squared distance of the boxes of the parts *)
Lemma distance_ge_envelope_search g1 g2 e1 e2 d :
  parts_box g1 = Some e1 -> parts_box g2 = Some e2 -> intersects g1 g2 = false ->
  dist2 g1 g2 = Some d -> box_d2 e1 e2 <= d.
Proof.
  intros E1 E2 Hi Hd. destruct (dist2_pair_min g1 g2 d Hi Hd) as [v [Ev [Hv _]]].
  rewrite Ev. eapply pairval_ge_box; eauto.
Qed.
