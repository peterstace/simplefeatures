(* Lemmas for property C20: PointOnSurface (Model/PointOnSurface.v, C15) on geometries with inserted
   typed empty members: the well-formedness domain of C15 is closed under insert_empties and the
   result is the empty Point exactly when the geometry (with or without the members) is empty. *)
From Coq Require Import List Bool Arith QArith.
From SF Require Import Base.GeomAST Base.QKernel Base.Planar Model.Empty Proofs.Empty_proofs.
From SF Require Import Model.Boundary Model.PointOnSurface Proofs.PointOnSurface_proofs.
Import ListNotations.

(* geom_wf asks nothing of Points *)
Lemma ins_geom_bwf (g : geomT Q) : forall p, geom_wf (insert_empties g p) = geom_wf g.
Proof.
  apply (ins_memberwise Q geom_wf (fun _ => true) line_wf poly_wf); try reflexivity.
  intros [| | |c ps| | |]; try reflexivity. symmetry. apply forallb_forall. reflexivity.
Qed.

Lemma ins_pos_empty_iff (cen : geom -> option pt) (g : geomT Q) p :
  (forall x, is_empty x = false -> cen x <> None) -> geom_wf g = true ->
  point_empty (pos cen (insert_empties g p)) = is_empty g.
Proof.
  intros Hc W. rewrite (pos_empty_iff_lemma cen Hc (insert_empties g p)).
  - apply ins_is_empty.
  - rewrite ins_geom_bwf. exact W.
Qed.
