(* Property C03 - the verdict of validation is invariant under integer translation.
   The validator looks at its vertices only through five kernel tests, a comparison of ordinates
   and two derived points ([Invariant]); a relation on points which these respect is respected by
   the whole model, and translation by v (p' == p + v, up to Qeq) is one.  The reflections are
   not: reflx reverses [orientation] and [xy_less] and changes the crossing probe.  The top level
   instantiates v with an integer vector and the raw ordinates of a geometry.
   Main results: validate_with_tr, is_simple_R, is_ring_R. *)
From Coq Require Import QArith Qreduction List Bool ZArith Lia Lqa Arith Setoid Morphisms.
From SF Require Import Base.QKernel Model.Validate Model.ValidateSpec Proofs.Validate_kernel Proofs.Validate_proofs.
Import ListNotations.
Open Scope Q_scope.


Lemma fold_left_R {A A' X X'} (RA : A -> A' -> Prop) (RX : X -> X' -> Prop) f f' :
  (forall a a' x x', RA a a' -> RX x x' -> RA (f a x) (f' a' x')) ->
  forall l l', Forall2 RX l l' -> forall a a', RA a a' -> RA (fold_left f l a) (fold_left f' l' a').
Proof.
  intros H l l'. induction 1 as [|x x' r r' Hx Hr IH]; intros a a' Ha; [exact Ha|]. simpl. apply IH. apply H; assumption.
Qed.
Lemma existsb_R {X X'} (RX : X -> X' -> Prop) f f' : (forall x x', RX x x' -> f' x' = f x) ->
  forall l l', Forall2 RX l l' -> existsb f' l' = existsb f l.
Proof. intros H l l'. induction 1 as [|x x' r r' Hx Hr IH]; [reflexivity|]. simpl. rewrite (H x x' Hx), IH. reflexivity. Qed.
Lemma forallb_R {X X'} (RX : X -> X' -> Prop) f f' : (forall x x', RX x x' -> f' x' = f x) ->
  forall l l', Forall2 RX l l' -> forallb f' l' = forallb f l.
Proof. intros H l l'. induction 1 as [|x x' r r' Hx Hr IH]; [reflexivity|]. simpl. rewrite (H x x' Hx), IH. reflexivity. Qed.
Lemma Forall2_length {A B} {Q : A -> B -> Prop} {l l'} : Forall2 Q l l' -> length l = length l'.
Proof. induction 1; simpl; congruence. Qed.
Lemma remove_nth_R {A B} (Q : A -> B -> Prop) l l' : Forall2 Q l l' -> forall i, Forall2 Q (remove_nth i l) (remove_nth i l').
Proof. induction 1; intros i; [destruct i; constructor|]. destruct i; simpl; [assumption|]. constructor; auto. Qed.

Inductive Ropt {A} (Q : A -> A -> Prop) : option A -> option A -> Prop :=
| Ropt_none : Ropt Q None None
| Ropt_some x x' : Q x x' -> Ropt Q (Some x) (Some x').
Inductive Rres {A} (Q : A -> A -> Prop) : rule + A -> rule + A -> Prop :=
| Rres_l e : Rres Q (inl e) (inl e)
| Rres_r x x' : Q x x' -> Rres Q (inr x) (inr x').

(* the point computed by the general branch of intersectLine *)
Definition meet_pt (a b c d : pt) : pt :=
  let e := (snd c - snd d) * (fst a - fst c) + (fst d - fst c) * (snd a - snd c) in
  let f := (fst d - fst c) * (snd a - snd b) - (fst a - fst b) * (snd d - snd c) in
  (Qred ((fst b - fst a) * (e / f) + fst a), Qred ((snd b - snd a) * (e / f) + snd a)).

Record Invariant {R : pt -> pt -> Prop} : Prop := {
  inv_eqb p q p' q' : R p p' -> R q q' -> pt_eqb p' q' = pt_eqb p q;
  inv_orient p q s p' q' s' : R p p' -> R q q' -> R s s' -> orientation p' q' s' = orientation p q s;
  inv_less p q p' q' : R p p' -> R q q' -> xy_less p' q' = xy_less p q;
  inv_gt p q p' q' : R p p' -> R q q' -> xy_gt p' q' = xy_gt p q;
  inv_bb p q r p' q' r' : R p p' -> R q q' -> R r r' -> on_segment_bb p' q' r' = on_segment_bb p q r;
  inv_yle p q p' q' : R p p' -> R q q' -> Qle_bool (snd p') (snd q') = Qle_bool (snd p) (snd q);
  inv_mid a b a' b' : R a a' -> R b b' -> R (midpoint a b) (midpoint a' b');
  inv_meet a b c d a' b' c' d' : R a a' -> R b b' -> R c c' -> R d d' -> R (meet_pt a b c d) (meet_pt a' b' c' d') }.
Arguments Invariant : clear implicits.

Section Invariance.
  Variable R : pt -> pt -> Prop.
  Hypothesis HR : Invariant R.
  Definition Rs (s s' : seg) : Prop := R (fst s) (fst s') /\ R (snd s) (snd s').
  Notation Rl := (Forall2 R).
  Notation Rsl := (Forall2 Rs).

  Lemma rth_from_R ps ps' : Rl ps ps' -> forall best best' bi i, R best best' ->
    rth_from best' bi i ps' = rth_from best bi i ps.
  Proof.
    induction 1 as [|p p' r r' Hp Hr IH]; intros best best' bi i Hb; [reflexivity|].
    simpl. rewrite (inv_gt HR _ _ _ _ Hb Hp). destruct (xy_gt best p); apply IH; assumption.
  Qed.
  Lemma ltl_from_R ps ps' : Rl ps ps' -> forall best best' bi i, R best best' ->
    ltl_from best' bi i ps' = ltl_from best bi i ps.
  Proof.
    induction 1 as [|p p' r r' Hp Hr IH]; intros best best' bi i Hb; [reflexivity|].
    simpl. rewrite (inv_less HR _ _ _ _ Hp Hb). destruct (xy_less p best); apply IH; assumption.
  Qed.
  Lemma rth_R ps ps' : Rl ps ps' -> rightmost_then_highest_index ps' = rightmost_then_highest_index ps.
  Proof. destruct 1; [reflexivity|]. simpl. apply rth_from_R; assumption. Qed.
  Lemma ltl_R ps ps' : Rl ps ps' -> leftmost_then_lowest_index ps' = leftmost_then_lowest_index ps.
  Proof. destruct 1; [reflexivity|]. simpl. apply ltl_from_R; assumption. Qed.

  Inductive Ril : il -> il -> Prop :=
  | Ril_empty : Ril ILEmpty ILEmpty
  | Ril_some a b a' b' : R a a' -> R b b' -> Ril (ILSome a b) (ILSome a' b').

  Lemma collinear_intersection_R a b c d a' b' c' d' :
    R a a' -> R b b' -> R c c' -> R d d' ->
    Ril (collinear_intersection a b c d) (collinear_intersection a' b' c' d').
  Proof.
    intros Ha Hb Hc Hd. unfold collinear_intersection.
    rewrite (inv_bb HR a b c a' b' c'), (inv_bb HR a b d a' b' d'), (inv_bb HR c d a c' d' a'), (inv_bb HR c d b c' d' b'); auto.
    destruct (negb (on_segment_bb a b c) && negb (on_segment_bb a b d) && negb (on_segment_bb c d a) && negb (on_segment_bb c d b));
      [constructor|].
    assert (L0 : Rl [a; b; c; d] [a'; b'; c'; d']) by (repeat constructor; assumption).
    cbv zeta. rewrite (rth_R _ _ L0).
    pose proof (remove_nth_R R _ _ L0 (rightmost_then_highest_index [a; b; c; d])) as L1.
    rewrite (ltl_R _ _ L1).
    pose proof (remove_nth_R R _ _ L1 (leftmost_then_lowest_index (remove_nth (rightmost_then_highest_index [a; b; c; d]) [a; b; c; d]))) as L2.
    destruct L2 as [|x x' r r' Hx Hr]; [constructor|]. destruct Hr as [|y y' r2 r2' Hy Hr2]; constructor; assumption.
  Qed.

  Lemma intersect_line_R s t s' t' : Rs s s' -> Rs t t' -> Ril (intersect_line s t) (intersect_line s' t').
  Proof.
    destruct s as [a b], t as [c d], s' as [a' b'], t' as [c' d']. intros [Ha Hb] [Hc Hd]. cbn [fst snd] in *.
    unfold intersect_line.
    rewrite (inv_orient HR a b c a' b' c'), (inv_orient HR a b d a' b' d'), (inv_orient HR c d a c' d' a'), (inv_orient HR c d b c' d' b'); auto.
    destruct (negb (cmp_eqb (orientation a b c) (orientation a b d)) && negb (cmp_eqb (orientation c d a) (orientation c d b))).
    - destruct (is_eq (orientation a b c)); [constructor; assumption|].
      destruct (is_eq (orientation a b d)); [constructor; assumption|].
      destruct (is_eq (orientation c d a)); [constructor; assumption|].
      destruct (is_eq (orientation c d b)); [constructor; assumption|].
      cbv zeta. constructor; exact (inv_meet HR a b c d a' b' c' d' Ha Hb Hc Hd).
    - destruct (is_eq (orientation a b c) && is_eq (orientation a b d)); [|constructor].
      apply collinear_intersection_R; assumption.
  Qed.
  Lemma il_kind_R s t s' t' : Rs s s' -> Rs t t' ->
    il_pt (intersect_line s' t') = il_pt (intersect_line s t) /\ il_ls (intersect_line s' t') = il_ls (intersect_line s t).
  Proof.
    intros Hs Ht. destruct (intersect_line_R s t s' t' Hs Ht) as [|a b a' b' Ha Hb]; cbn [il_pt il_ls]; [auto|].
    rewrite (inv_eqb HR a b a' b' Ha Hb). auto.
  Qed.

  Lemma as_lines_R ps ps' : Rl ps ps' -> Rsl (as_lines ps) (as_lines ps').
  Proof.
    induction 1 as [|a a' r r' Ha Hr IH]; [constructor|].
    destruct Hr as [|b b' r2 r2' Hb Hr2]; [constructor|].
    rewrite !as_lines_cons2. rewrite (inv_eqb HR a b a' b' Ha Hb).
    destruct (pt_eqb a b); [exact IH|]. constructor; [split; assumption | exact IH].
  Qed.

  Lemma has_2_distinct_R ps ps' : Rl ps ps' -> has_2_distinct ps' = has_2_distinct ps.
  Proof.
    destruct 1 as [|a a' r r' Ha Hr]; [reflexivity|]. cbn [has_2_distinct].
    apply (existsb_R R) with (2 := Hr). intros b b' Hb. rewrite (inv_eqb HR b a b' a' Hb Ha). reflexivity.
  Qed.

  Lemma last_R ps ps' : Rl ps ps' -> forall d d', R d d' -> R (last ps d) (last ps' d').
  Proof.
    induction 1 as [|a a' r r' Ha Hr IH]; intros d d' Hd; [exact Hd|].
    destruct Hr as [|b b' r2 r2' Hb Hr2]; [exact Ha|]. rewrite !last_cons2. apply IH. exact Hd.
  Qed.
  Lemma is_closed_R ps ps' : Rl ps ps' -> is_closed ps' = is_closed ps.
  Proof.
    intros H. destruct H as [|a a' r r' Ha Hr]; [reflexivity|]. unfold is_closed.
    apply (inv_eqb HR); [exact Ha|]. apply last_R; [constructor; assumption | exact Ha].
  Qed.

  Lemma pair_simple_R cl m k l sk sl sk' sl' : Rs sk sk' -> Rs sl sl' ->
    pair_simple cl m k l sk' sl' = pair_simple cl m k l sk sl.
  Proof.
    intros Hk Hl. unfold pair_simple. destruct (intersect_line_R sk sl sk' sl' Hk Hl) as [|a b a' b' Ha Hb]; [reflexivity|].
    rewrite (inv_eqb HR a b a' b' Ha Hb). reflexivity.
  Qed.
  Lemma simple_against_R cl m k sk sk' rest rest' : Rs sk sk' -> Rsl rest rest' -> forall l,
    simple_against cl m k l sk' rest' = simple_against cl m k l sk rest.
  Proof.
    intros Hk. induction 1 as [|s s' r r' Hs Hr IH]; intros l; [reflexivity|]. simpl.
    rewrite (pair_simple_R cl m k l sk s sk' s' Hk Hs), IH. reflexivity.
  Qed.
  Lemma simple_from_R cl m L L' : Rsl L L' -> forall k, simple_from cl m k L' = simple_from cl m k L.
  Proof.
    induction 1 as [|s s' r r' Hs Hr IH]; intros k; [reflexivity|]. simpl.
    rewrite (simple_against_R cl m k s s' r r' Hs Hr), IH. reflexivity.
  Qed.
  Lemma is_simple_R ps ps' : Rl ps ps' -> is_simple ps' = is_simple ps.
  Proof.
    intros H. unfold is_simple. pose proof (as_lines_R ps ps' H) as HL.
    rewrite (is_closed_R ps ps' H). rewrite <- (Forall2_length HL). apply simple_from_R. exact HL.
  Qed.
  Lemma is_ring_R ps ps' : Rl ps ps' -> is_ring ps' = is_ring ps.
  Proof. intros H. unfold is_ring. rewrite (is_closed_R _ _ H), (is_simple_R _ _ H). reflexivity. Qed.
  Lemma ring_geom_validate_R ps ps' : Rl ps ps' -> ring_geom_validate ps' = ring_geom_validate ps.
  Proof.
    intros H. unfold ring_geom_validate. rewrite (has_2_distinct_R _ _ H), (is_closed_R _ _ H), (is_simple_R _ _ H). reflexivity.
  Qed.

  Lemma has_crossing_R p p' s s' : R p p' -> Rs s s' -> has_crossing p' s' = has_crossing p s.
  Proof.
    destruct s as [a b], s' as [a' b']. intros Hp [Ha Hb]. cbn [fst snd] in *. unfold has_crossing, qltb.
    rewrite (inv_yle HR _ _ _ _ Ha Hb), (inv_bb HR a b p a' b' p' Ha Hb Hp).
    destruct (negb (Qle_bool (snd a) (snd b))).
    - rewrite (inv_orient HR b a p b' a' p' Hb Ha Hp), (inv_yle HR _ _ _ _ Hb Hp), (inv_yle HR _ _ _ _ Ha Hp). reflexivity.
    - rewrite (inv_orient HR a b p a' b' p' Ha Hb Hp), (inv_yle HR _ _ _ _ Ha Hp), (inv_yle HR _ _ _ _ Hb Hp). reflexivity.
  Qed.
  Lemma relate_lines_R p p' ls ls' : R p p' -> Rsl ls ls' -> forall odd, relate_lines p' ls' odd = relate_lines p ls odd.
  Proof.
    intros Hp. induction 1 as [|s s' r r' Hs Hr IH]; intros odd; [reflexivity|]. simpl.
    rewrite (has_crossing_R p p' s s' Hp Hs). destruct (has_crossing p s) as [cr on]. destruct on; [reflexivity|]. apply IH.
  Qed.
  Lemma relate_point_to_ring_R p p' r r' : R p p' -> Rl r r' -> relate_point_to_ring p' r' = relate_point_to_ring p r.
  Proof. intros Hp Hr. unfold relate_point_to_ring. apply relate_lines_R; [exact Hp | apply as_lines_R; exact Hr]. Qed.

  Inductive Risum : isum -> isum -> Prop :=
  | Risum_none : Risum INone INone
  | Risum_single p p' : R p p' -> Risum (ISingle p) (ISingle p')
  | Risum_multi : Risum IMulti IMulti.

  Lemma isum_step_R acc acc' la la' lb lb' : Risum acc acc' -> Rs la la' -> Rs lb lb' ->
    Risum (isum_step acc la lb) (isum_step acc' la' lb').
  Proof.
    intros Ha Hla Hlb. unfold isum_step.
    destruct (intersect_line_R la lb la' lb' Hla Hlb) as [|a b a' b' Ha' Hb'].
    - destruct Ha; constructor; assumption.
    - rewrite (inv_eqb HR a b a' b' Ha' Hb'). destruct Ha as [|q q' Hq|]; try constructor.
      + destruct (pt_eqb a b); constructor; assumption.
      + destruct (pt_eqb a b); simpl; [|constructor]. rewrite (inv_eqb HR q a q' a' Hq Ha').
        destruct (pt_eqb q a); constructor; assumption.
  Qed.
  Lemma inter_summary_R l1 l1' l2 l2' : Rsl l1 l1' -> Rsl l2 l2' -> Risum (inter_summary l1 l2) (inter_summary l1' l2').
  Proof.
    intros H1 H2. unfold inter_summary. apply (fold_left_R Risum Rs); [|exact H2|constructor].
    intros acc acc' la la' Hacc Hla. apply (fold_left_R Risum Rs); [|exact H1|exact Hacc].
    intros a a' lb lb' Ha Hlb. apply isum_step_R; assumption.
  Qed.

  Definition Rivs := Forall2 (fun (e e' : pt * nat) => R (fst e) (fst e') /\ snd e = snd e').
  Definition Rst (s s' : pstate) : Prop :=
    ps_next s = ps_next s' /\ ps_edges s = ps_edges s' /\ Rivs (ps_ivs s) (ps_ivs s').

  Lemma lookup_pt_R p p' d d' : R p p' -> Rivs d d' -> lookup_pt p' d' = lookup_pt p d.
  Proof.
    intros Hp. induction 1 as [|[q k] [q' k'] r r' [Hq Hk] Hr IH]; [reflexivity|]. simpl in *. subst k'.
    rewrite (inv_eqb HR q p q' p' Hq Hp). destruct (pt_eqb q p); [reflexivity | exact IH].
  Qed.

  Section Poly.
    Variable nested : list pt -> list pt -> option bool.
    Hypothesis nested_R : forall ri rj ri' rj', Rl ri ri' -> Rl rj rj' -> nested ri' rj' = nested ri rj.

    Lemma pair_step_R i j ri rj ri' rj' st st' : Rl ri ri' -> Rl rj rj' -> Rst st st' ->
      Rres Rst (pair_step nested i j ri rj st) (pair_step nested i j ri' rj' st').
    Proof.
      intros Hi Hj [Hn [He Hivs]]. unfold pair_step. rewrite (nested_R ri rj ri' rj' Hi Hj).
      destruct (if (0 <? i)%nat && (0 <? j)%nat then nested ri rj else Some false) as [[|]|]; try constructor.
      destruct (inter_summary_R _ _ _ _ (as_lines_R _ _ Hi) (as_lines_R _ _ Hj)) as [|p p' Hp|]; try constructor.
      - split; [exact Hn|]. split; assumption.
      - rewrite (lookup_pt_R p p' _ _ Hp Hivs). destruct (lookup_pt p (ps_ivs st)) as [k|].
        + constructor. split; [exact Hn|]. split; [simpl; rewrite He; reflexivity | exact Hivs].
        + constructor. split; [simpl; rewrite Hn; reflexivity|]. split; [simpl; rewrite He, Hn; reflexivity|].
          simpl. constructor; [split; [exact Hp | simpl; exact Hn] | exact Hivs].
    Qed.

    Definition Rbelow := Forall2 (fun (x x' : nat * list pt) => fst x = fst x' /\ Rl (snd x) (snd x')).

    Lemma loop_j_R i ri ri' below below' : Rl ri ri' -> Rbelow below below' -> forall st st', Rst st st' ->
      Rres Rst (loop_j nested i ri below st) (loop_j nested i ri' below' st').
    Proof.
      intros Hi. induction 1 as [|[j rj] [j' rj'] r r' [Hj Hrj] Hr IH]; intros st st' Hst; [constructor; exact Hst|].
      simpl in *. subst j'.
      destruct (pair_step_R i j ri rj ri' rj' st st' Hi Hrj Hst) as [e|x x' Hx]; [constructor|]. apply IH. exact Hx.
    Qed.

    Lemma loop_i_R rest rest' : Forall2 Rl rest rest' -> forall i below below' st st', Rbelow below below' -> Rst st st' ->
      Rres Rst (loop_i nested i below rest st) (loop_i nested i below' rest' st').
    Proof.
      induction 1 as [|ri ri' r r' Hi Hr IH]; intros i below below' st st' Hb Hst; [constructor; exact Hst|].
      simpl. destruct (loop_j_R i ri ri' below below' Hi Hb st st' Hst) as [e|x x' Hx]; [constructor|].
      apply IH; [|exact Hx]. apply Forall2_app; [exact Hb|]. constructor; [split; [reflexivity | exact Hi] | constructor].
    Qed.

    Lemma hole_in_shell_R shell shell' : Rsl shell shell' -> forall vs vs', Rl vs vs' -> hole_in_shell shell' vs' = hole_in_shell shell vs.
    Proof.
      intros Hs vs vs'. induction 1 as [|p p' r r' Hp Hr IH]; [reflexivity|]. simpl.
      rewrite (relate_lines_R p p' shell shell' Hp Hs). destruct (relate_lines p shell false); auto.
    Qed.

    Lemma poly_geom_validate_R rings rings' : Forall2 Rl rings rings' ->
      poly_geom_validate nested rings' = poly_geom_validate nested rings.
    Proof.
      intros H. unfold poly_geom_validate. destruct H as [|shell shell' holes holes' Hs Hh] eqn:E; [reflexivity|].
      assert (Hall : Forall2 Rl (shell :: holes) (shell' :: holes')) by (constructor; assumption).
      rewrite <- (Forall2_length Hall).
      assert (Hst0 : Rst (MkPS (length (shell :: holes)) [] []) (MkPS (length (shell :: holes)) [] [])).
      { split; [reflexivity|]. split; [reflexivity | constructor]. }
      destruct (loop_i_R _ _ Hall 0%nat [] [] _ _ (Forall2_nil _) Hst0) as [e|st st' [Hn [He Hivs]]]; [reflexivity|].
      rewrite He, (forallb_R Rl _ _ (hole_in_shell_R _ _ (as_lines_R _ _ Hs)) _ _ Hh). reflexivity.
    Qed.
  End Poly.

  Lemma nested_v0_R ri rj ri' rj' : Rl ri ri' -> Rl rj rj' -> nested_v0 ri' rj' = nested_v0 ri rj.
  Proof.
    intros Hi Hj. unfold nested_v0. destruct Hi as [|a a' r r' Ha Hr] eqn:Ei; [reflexivity|].
    destruct Hj as [|b b' s s' Hb Hs] eqn:Ej; [reflexivity|].
    rewrite (relate_point_to_ring_R a a' (b :: s) (b' :: s') Ha), (relate_point_to_ring_R b b' (a :: r) (a' :: r') Hb);
      [reflexivity | constructor; assumption | constructor; assumption].
  Qed.
  Lemma first_off_boundary_R vs vs' other other' : Rl vs vs' -> Rsl other other' ->
    first_off_boundary vs' other' = first_off_boundary vs other.
  Proof.
    intros H Ho. induction H as [|p p' r r' Hp Hr IH]; [reflexivity|]. simpl.
    rewrite (relate_lines_R p p' other other' Hp Ho). destruct (relate_lines p other false); auto.
  Qed.
  Lemma nested_v1_R ri rj ri' rj' : Rl ri ri' -> Rl rj rj' -> nested_v1 ri' rj' = nested_v1 ri rj.
  Proof.
    intros Hi Hj. unfold nested_v1.
    rewrite (first_off_boundary_R ri ri' _ _ Hi (as_lines_R _ _ Hj)), (first_off_boundary_R rj rj' _ _ Hj (as_lines_R _ _ Hi)).
    destruct Hi; [reflexivity|]. destruct Hj; reflexivity.
  Qed.

  Lemma poly_lines_R rings rings' : Forall2 Rl rings rings' -> Rsl (poly_lines rings) (poly_lines rings').
  Proof.
    unfold poly_lines. induction 1 as [|r r' t t' Hr Ht IH]; [constructor|]. simpl.
    apply Forall2_app; [apply as_lines_R; exact Hr | exact IH].
  Qed.

  Lemma boundary_inter_R b1 b1' b2 b2' : Rsl b1 b1' -> Rsl b2 b2' -> boundary_inter b1' b2' = boundary_inter b1 b2.
  Proof.
    intros H1 H2. rewrite !boundary_inter_exists.
    f_equal; apply (existsb_R Rs) with (2 := H1); intros la la' Hla; apply (existsb_R Rs) with (2 := H2); intros lb lb' Hlb;
      apply il_kind_R; assumption.
  Qed.

  Lemma xy_insert_R p p' l l' : R p p' -> Rl l l' -> Rl (xy_insert p l) (xy_insert p' l').
  Proof.
    intros Hp. induction 1 as [|q q' r r' Hq Hr IH]; [repeat constructor; assumption|]. simpl.
    rewrite (inv_less HR q p q' p' Hq Hp). destruct (xy_less q p); repeat (constructor; [assumption|]); assumption.
  Qed.
  Lemma xy_uniq_R l l' : Rl l l' -> Rl (xy_uniq l) (xy_uniq l').
  Proof.
    induction 1 as [|a a' r r' Ha Hr IH]; [constructor|].
    destruct Hr as [|b b' r2 r2' Hb Hr2]; [repeat constructor; assumption|].
    rewrite !xy_uniq_cons2, (inv_eqb HR a b a' b' Ha Hb). destruct (pt_eqb a b); [exact IH | constructor; [exact Ha | exact IH]].
  Qed.
  Lemma sort_uniq_R l l' : Rl l l' -> Rl (sort_uniq_xys l) (sort_uniq_xys l').
  Proof.
    intros H. unfold sort_uniq_xys. apply xy_uniq_R. induction H as [|a a' r r' Ha Hr IH]; [constructor|]. simpl.
    apply xy_insert_R; assumption.
  Qed.
  Lemma midpoints_R l l' : Rl l l' -> Rl (midpoints l) (midpoints l').
  Proof.
    induction 1 as [|a a' r r' Ha Hr IH]; [constructor|].
    destruct Hr as [|b b' r2 r2' Hb Hr2]; [constructor|].
    rewrite !midpoints_cons2. constructor; [apply (inv_mid HR); assumption | exact IH].
  Qed.

  Lemma inter_pts_with_R p1 p1' l2 l2' : Rsl p1 p1' -> Rs l2 l2' -> Ropt Rl (inter_pts_with p1 l2) (inter_pts_with p1' l2').
  Proof.
    intros H Hl. induction H as [|s s' r r' Hs Hr IH]; [constructor; constructor|]. simpl.
    destruct (intersect_line_R s l2 s' l2' Hs Hl) as [|a b a' b' Ha Hb]; [exact IH|].
    rewrite (inv_eqb HR a b a' b' Ha Hb). destruct (pt_eqb a b); [|constructor].
    destruct IH as [|x x' Hx]; constructor. constructor; assumption.
  Qed.

  Lemma poly_not_inside_poly_R p1 p1' p2 p2' : Rsl p1 p1' -> Rsl p2 p2' ->
    poly_not_inside_poly p1' p2' = poly_not_inside_poly p1 p2.
  Proof.
    intros H1 H2. induction H2 as [|l2 l2' r r' Hl Hr IH]; [reflexivity|]. simpl.
    destruct (inter_pts_with_R p1 p1' l2 l2' H1 Hl) as [|pts pts' Hpts]; [reflexivity|].
    destruct Hpts as [|x x' t t' Hx Ht]; [exact IH|].
    assert (Hall : Rl ((x :: t) ++ [fst l2; snd l2]) ((x' :: t') ++ [fst l2'; snd l2'])).
    { apply Forall2_app; [constructor; assumption|]. destruct Hl as [Hl1 Hl2]. repeat constructor; assumption. }
    rewrite (existsb_R R _ _ (fun m m' Hm => f_equal (fun x => side_eqb x SInterior) (relate_lines_R m m' p1 p1' Hm H1 false)) _ _ (midpoints_R _ _ (sort_uniq_R _ _ Hall))).
    destruct (existsb _ _); [reflexivity | exact IH].
  Qed.

  Notation Rrings := (Forall2 Rl).
  Notation Rpolys := (Forall2 Rrings).

  Lemma mpoly_pair_R pi pj pi' pj' : Rrings pi pi' -> Rrings pj pj' -> mpoly_pair pi' pj' = mpoly_pair pi pj.
  Proof.
    intros Hi Hj. unfold mpoly_pair.
    pose proof (poly_lines_R _ _ Hi) as Li. pose proof (poly_lines_R _ _ Hj) as Lj.
    rewrite (boundary_inter_R _ _ _ _ Li Lj). destruct (boundary_inter (poly_lines pi) (poly_lines pj)) as [hp hl].
    destruct hl; [reflexivity|]. destruct hp; simpl.
    - rewrite (poly_not_inside_poly_R _ _ _ _ Li Lj), (poly_not_inside_poly_R _ _ _ _ Lj Li). reflexivity.
    - destruct Hi as [|ri ri' ti ti' [|a a' ra ra' Ha Hra] Hti]; [reflexivity..|].
      destruct Hj as [|rj rj' tj tj' [|b b' rb rb' Hb Hrb] Htj]; [reflexivity..|].
      rewrite (relate_lines_R a a' _ _ Ha Lj), (relate_lines_R b b' _ _ Hb Li). reflexivity.
  Qed.
  Lemma mpoly_against_R pi pi' below below' : Rrings pi pi' -> Rpolys below below' -> mpoly_against pi' below' = mpoly_against pi below.
  Proof.
    intros Hi. induction 1 as [|pj pj' r r' Hj Hr IH]; [reflexivity|]. simpl.
    rewrite (mpoly_pair_R pi pj pi' pj' Hi Hj), IH. destruct Hj; reflexivity.
  Qed.
  Lemma mpoly_constraints_R rest rest' : Rpolys rest rest' -> forall below below', Rpolys below below' ->
    mpoly_constraints below' rest' = mpoly_constraints below rest.
  Proof.
    induction 1 as [|pi pi' r r' Hi Hr IH]; intros below below' Hb; [reflexivity|]. simpl.
    rewrite (mpoly_against_R pi pi' below below' Hi Hb).
    rewrite (IH (below ++ [pi]) (below' ++ [pi'])); [|apply Forall2_app; [exact Hb | repeat constructor; assumption]].
    destruct Hi; reflexivity.
  Qed.
End Invariance.


Lemma Qle_bool_shift a b a' b' d : a' == a + d -> b' == b + d -> Qle_bool a' b' = Qle_bool a b.
Proof. intros H1 H2. apply eq_true_iff_eq. rewrite !Qle_bool_iff, H1, H2. split; lra. Qed.
Lemma Qeq_bool_shift a b a' b' d : a' == a + d -> b' == b + d -> Qeq_bool a' b' = Qeq_bool a b.
Proof. intros H1 H2. apply eq_true_iff_eq. rewrite !Qeq_bool_iff, H1, H2. split; lra. Qed.
Lemma qltb_shift a b a' b' d : a' == a + d -> b' == b + d -> qltb a' b' = qltb a b.
Proof. intros H1 H2. unfold qltb. rewrite (Qle_bool_shift b a b' a' d H2 H1). reflexivity. Qed.
Lemma qbetween_shift a b x a' b' x' d :
  a' == a + d -> b' == b + d -> x' == x + d -> qbetween a' b' x' = qbetween a b x.
Proof.
  intros H1 H2 H3. unfold qbetween.
  rewrite (Qle_bool_shift a x a' x' d), (Qle_bool_shift x b x' b' d), (Qle_bool_shift b x b' x' d), (Qle_bool_shift x a x' a' d); auto.
Qed.

Section Translate.
  Variable v : pt.
  (* p' is p translated by v (up to Qeq) *)
  Definition R (p p' : pt) : Prop := pt_eq p' (pt_add p v).

  Lemma R_fst p p' : R p p' -> fst p' == fst p + fst v.
  Proof. intros [H _]. exact H. Qed.
  Lemma R_snd p p' : R p p' -> snd p' == snd p + snd v.
  Proof. intros [_ H]. exact H. Qed.

  Lemma pt_eqb_R p q p' q' : R p p' -> R q q' -> pt_eqb p' q' = pt_eqb p q.
  Proof.
    intros Hp Hq. unfold pt_eqb.
    rewrite (Qeq_bool_shift _ _ _ _ _ (R_fst _ _ Hp) (R_fst _ _ Hq)), (Qeq_bool_shift _ _ _ _ _ (R_snd _ _ Hp) (R_snd _ _ Hq)).
    reflexivity.
  Qed.
  Lemma R_pt_eq p q p' q' : R p p' -> R q q' -> pt_eq p q -> pt_eq p' q'.
  Proof. intros Hp Hq E. apply pt_eqb_iff. rewrite (pt_eqb_R p q p' q' Hp Hq). apply pt_eqb_iff. exact E. Qed.
  Lemma R_eq_l p q p' : pt_eq p q -> R p p' -> R q p'.
  Proof. unfold R, pt_eq, pt_add. intros [E1 E2] [H1 H2]. cbn [fst snd] in *. split; lra. Qed.

  (* each test compares differences of ordinates; each derived point is an affine combination *)
  Lemma translate_invariant : Invariant R.
  Proof.
    split.
    - exact pt_eqb_R.
    - intros p q s p' q' s' Hp Hq Hs. unfold orientation. apply qsgn_proper.
      rewrite (R_fst _ _ Hp), (R_snd _ _ Hp), (R_fst _ _ Hq), (R_snd _ _ Hq), (R_fst _ _ Hs), (R_snd _ _ Hs). ring.
    - intros p q p' q' Hp Hq. unfold xy_less.
      rewrite (Qeq_bool_shift _ _ _ _ _ (R_fst _ _ Hp) (R_fst _ _ Hq)),
              (qltb_shift _ _ _ _ _ (R_snd _ _ Hp) (R_snd _ _ Hq)), (qltb_shift _ _ _ _ _ (R_fst _ _ Hp) (R_fst _ _ Hq)).
      reflexivity.
    - intros p q p' q' Hp Hq. unfold xy_gt.
      rewrite (Qeq_bool_shift _ _ _ _ _ (R_fst _ _ Hq) (R_fst _ _ Hp)),
              (qltb_shift _ _ _ _ _ (R_snd _ _ Hp) (R_snd _ _ Hq)), (qltb_shift _ _ _ _ _ (R_fst _ _ Hp) (R_fst _ _ Hq)).
      reflexivity.
    - intros p q r p' q' r' Hp Hq Hr. unfold on_segment_bb.
      rewrite (qbetween_shift _ _ _ _ _ _ _ (R_fst _ _ Hp) (R_fst _ _ Hq) (R_fst _ _ Hr)),
              (qbetween_shift _ _ _ _ _ _ _ (R_snd _ _ Hp) (R_snd _ _ Hq) (R_snd _ _ Hr)).
      reflexivity.
    - intros p q p' q' Hp Hq. exact (Qle_bool_shift _ _ _ _ _ (R_snd _ _ Hp) (R_snd _ _ Hq)).
    - intros a b a' b' Ha Hb. unfold R, pt_eq, pt_add, midpoint. cbn [fst snd]. rewrite !Qred_correct.
      rewrite (R_fst _ _ Ha), (R_snd _ _ Ha), (R_fst _ _ Hb), (R_snd _ _ Hb). split; ring.
    - intros a b c d a' b' c' d' Ha Hb Hc Hd.
      assert (Ee : (snd c' - snd d') * (fst a' - fst c') + (fst d' - fst c') * (snd a' - snd c')
                   == (snd c - snd d) * (fst a - fst c) + (fst d - fst c) * (snd a - snd c)).
      { rewrite (R_fst _ _ Ha), (R_snd _ _ Ha), (R_fst _ _ Hc), (R_snd _ _ Hc), (R_fst _ _ Hd), (R_snd _ _ Hd). ring. }
      assert (Ef : (fst d' - fst c') * (snd a' - snd b') - (fst a' - fst b') * (snd d' - snd c')
                   == (fst d - fst c) * (snd a - snd b) - (fst a - fst b) * (snd d - snd c)).
      { rewrite (R_fst _ _ Ha), (R_snd _ _ Ha), (R_fst _ _ Hb), (R_snd _ _ Hb), (R_fst _ _ Hc), (R_snd _ _ Hc), (R_fst _ _ Hd), (R_snd _ _ Hd). ring. }
      unfold R, pt_eq, pt_add, meet_pt; cbn [fst snd].
      rewrite !Qred_correct, Ee, Ef, (R_fst _ _ Ha), (R_snd _ _ Ha), (R_fst _ _ Hb), (R_snd _ _ Hb); split; ring.
  Qed.
End Translate.


(* ------------------------------------------------------------------ integer translation of raw ordinates *)
Definition tr_ord (d : Z) (o : ord) : ord := match o with OFin z => OFin (z + d) | x => x end.
Definition tr_oxy (dx dy : Z) (p : oxy) : oxy := (tr_ord dx (fst p), tr_ord dy (snd p)).
Fixpoint tr_geom (dx dy : Z) (g : vgeom) : vgeom :=
  match g with
  | VPoint p => VPoint (option_map (tr_oxy dx dy) p)
  | VLine vs => VLine (map (tr_oxy dx dy) vs)
  | VPoly rs => VPoly (map (map (tr_oxy dx dy)) rs)
  | VMPoint ps => VMPoint (map (option_map (tr_oxy dx dy)) ps)
  | VMLine ls => VMLine (map (map (tr_oxy dx dy)) ls)
  | VMPoly ps => VMPoly (map (map (map (tr_oxy dx dy))) ps)
  | VColl gs => VColl (map (tr_geom dx dy) gs)
  end.

Section TranslateOrd.
  Variables dx dy : Z.
  Let v : pt := (inject_Z dx, inject_Z dy).
  Let HR := translate_invariant v.
  Notation tr := (tr_oxy dx dy).
  Notation Rl := (Forall2 (R v)).

  Lemma xy_validate_tr p : xy_validate (tr p) = xy_validate p.
  Proof. destruct p as [[x| | | ] [y| | | ]]; reflexivity. Qed.
  Lemma seq_validate_tr vs : seq_validate (map tr vs) = seq_validate vs.
  Proof. induction vs as [|a r IH]; [reflexivity|]. simpl. rewrite xy_validate_tr, IH. reflexivity. Qed.
  Lemma nonfinite_rule_tr vs : nonfinite_rule (map tr vs) = nonfinite_rule vs.
  Proof. unfold nonfinite_rule. rewrite seq_validate_tr. reflexivity. Qed.

  Lemma oxy_pt_tr p : Ropt (R v) (oxy_pt p) (oxy_pt (tr p)).
  Proof.
    destruct p as [[x| | | ] [y| | | ]]; try constructor.
    unfold R, pt_eq, pt_add, v; cbn [fst snd]. rewrite !inject_Z_plus. split; reflexivity.
  Qed.
  Lemma fin_pts_tr vs : Ropt Rl (fin_pts vs) (fin_pts (map tr vs)).
  Proof.
    induction vs as [|a r IH]; [constructor; constructor|]. simpl.
    destruct (oxy_pt_tr a) as [|p p' Hp]; [constructor|].
    destruct IH as [|ps ps' Hps]; constructor. constructor; assumption.
  Qed.

  Lemma ls_validate_tr vs : ls_validate (map tr vs) = ls_validate vs.
  Proof.
    unfold ls_validate. rewrite nonfinite_rule_tr. destruct (fin_pts_tr vs) as [|ps ps' Hps].
    - destruct vs; reflexivity.
    - rewrite (has_2_distinct_R _ HR ps ps' Hps). destruct vs; reflexivity.
  Qed.

  Lemma ring_check_tr r : Rres Rl (ring_check r) (ring_check (map tr r)).
  Proof.
    unfold ring_check. rewrite nonfinite_rule_tr. destruct (fin_pts_tr r) as [|ps ps' Hps].
    - destruct r; constructor.
    - rewrite (ring_geom_validate_R _ HR ps ps' Hps). destruct r; [constructor|]. cbn [map].
      destruct (ring_geom_validate ps); constructor. exact Hps.
  Qed.
  Lemma rings_check_tr rs : Rres (Forall2 Rl) (rings_check rs) (rings_check (map (map tr) rs)).
  Proof.
    induction rs as [|r t IH]; [constructor; constructor|]. simpl.
    destruct (ring_check_tr r) as [e|ps ps' Hps]; [constructor|].
    destruct IH as [e|pss pss' Hpss]; constructor. constructor; assumption.
  Qed.

  Section WithNested.
    Variable nested : list pt -> list pt -> option bool.
    Hypothesis nested_R : forall ri rj ri' rj', Rl ri ri' -> Rl rj rj' -> nested ri' rj' = nested ri rj.

    Lemma poly_validate_tr rs : poly_validate_with nested (map (map tr) rs) = poly_validate_with nested rs.
    Proof.
      unfold poly_validate_with. destruct (rings_check_tr rs) as [e|rings rings' Hr].
      - destruct rs; reflexivity.
      - rewrite (poly_geom_validate_R _ HR nested nested_R rings rings' Hr). destruct rs; reflexivity.
    Qed.

    Lemma pc_member_tr p : Rres (Forall2 Rl) (pc_member nested p) (pc_member nested (map (map tr) p)).
    Proof.
      unfold pc_member. destruct (rings_check_tr p) as [e|rings rings' Hr]; [destruct p; constructor; constructor|].
      rewrite (poly_geom_validate_R _ HR nested nested_R rings rings' Hr).
      destruct p; [constructor; constructor|]. cbn [map]. destruct (poly_geom_validate nested rings); constructor. exact Hr.
    Qed.
    Lemma polys_check_tr ps :
      Rres (Forall2 (Forall2 Rl)) (polys_check nested ps) (polys_check nested (map (map (map tr)) ps)).
    Proof.
      induction ps as [|p t IH]; [constructor; constructor|]. cbn [map]. rewrite !polys_check_cons.
      destruct (pc_member_tr p) as [e|rings rings' Hr]; [constructor|].
      destruct IH as [e|l l' Hl]; constructor. constructor; assumption.
    Qed.

    Lemma mpoly_validate_tr ps : mpoly_validate_with nested (map (map (map tr)) ps) = mpoly_validate_with nested ps.
    Proof.
      unfold mpoly_validate_with. destruct (polys_check_tr ps) as [e|l l' Hl]; [reflexivity|].
      apply (mpoly_constraints_R _ HR l l' Hl [] []). constructor.
    Qed.

    Lemma point_validate_tr p : point_validate (option_map tr p) = point_validate p.
    Proof. destruct p; [apply xy_validate_tr | reflexivity]. Qed.

    Lemma first_err_map {A} (f : A -> verdict) (h : A -> A) l : (forall x, f (h x) = f x) -> first_err f (map h l) = first_err f l.
    Proof. intros H. induction l as [|a r IH]; [reflexivity|]. simpl. rewrite H, IH. reflexivity. Qed.

    Lemma validate_with_tr g : validate_with nested (tr_geom dx dy g) = validate_with nested g.
    Proof.
      (* vgeom is a nested inductive type: the members of a collection by an inner recursion *)
      revert g. fix IH 1. intros [p|vs|rs|ps|ls|ps|gs]; simpl.
      - apply point_validate_tr.
      - apply ls_validate_tr.
      - apply poly_validate_tr.
      - apply first_err_map. apply point_validate_tr.
      - apply first_err_map. apply ls_validate_tr.
      - apply mpoly_validate_tr.
      - revert gs. fix IHgs 1. intros [|x r]; [reflexivity|]. simpl. rewrite (IH x), (IHgs r). reflexivity.
    Qed.
  End WithNested.
End TranslateOrd.

Theorem validate_translation_invariant_lemma dx dy g : validate (tr_geom dx dy g) = validate g.
Proof. apply validate_with_tr. apply nested_v1_R. apply translate_invariant. Qed.
Theorem validate_v0_translation_invariant_lemma dx dy g : validate_v0 (tr_geom dx dy g) = validate_v0 g.
Proof. apply validate_with_tr. apply nested_v0_R. apply translate_invariant. Qed.

Lemma Rl_translate v ps : Forall2 (R v) ps (map (fun p => pt_add p v) ps).
Proof. induction ps as [|a r IH]; simpl; [apply Forall2_nil | apply Forall2_cons; [unfold R; reflexivity | exact IH]]. Qed.
Theorem ring_checks_translation_invariant_lemma v ps :
  let ps' := map (fun p => pt_add p v) ps in
  is_closed ps' = is_closed ps /\ is_simple ps' = is_simple ps /\ is_ring ps' = is_ring ps.
Proof.
  cbv zeta. pose proof (Rl_translate v ps) as H. pose proof (translate_invariant v) as HR.
  split; [apply (is_closed_R _ HR); exact H|]. split; [apply (is_simple_R _ HR); exact H | apply (is_ring_R _ HR); exact H].
Qed.
