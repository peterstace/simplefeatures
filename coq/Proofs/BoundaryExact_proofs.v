(* Property C15 - the witness-evaluated statement "Boundary(g) is exactly the boundary set of g"
   (Model/Boundary.v: boundary_exact, the SPEC check of the correspondence run) decides the
   statement for ALL points of Q^2: slab-witness sufficiency (Proofs/Planar_slab.v:
   witnesses_sufficient) for the non-face witnesses and for areal results, and the meaning of the
   face tag (Proofs/Planar_slab_dim.v: witness_tag - a D2 witness is on no segment and is no
   vertex) for the face witnesses that boundary_exact skips when the result has no areal part. *)
From Coq Require Import QArith Qreduction List Bool ZArith Lia Arith.
From SF Require Import Base.GeomAST Base.QKernel Base.Planar Proofs.Planar_proofs Proofs.Planar_slab_base
  Proofs.Planar_slab Proofs.Planar_slab_dim Model.Boundary Proofs.Boundary_proofs Model.BoundaryExact.
Import ListNotations.
Open Scope Q_scope.

Lemma dedup_sorted_in {A} (key : A -> list Z) (key_inj : forall x y, key x = key y -> x = y) l x :
  In x l -> In x (dedup_sorted key l).
Proof.
  revert x. induction l as [|a l IH]; intros x Hx; [destruct Hx|].
  destruct l as [|b r]; [exact Hx|].
  change (dedup_sorted key (a :: b :: r)) with
    (if lex_leb (key a) (key b) && lex_leb (key b) (key a) then dedup_sorted key (b :: r) else a :: dedup_sorted key (b :: r)).
  destruct (lex_leb (key a) (key b) && lex_leb (key b) (key a)) eqn:E.
  - apply andb_prop in E. destruct E as [E1 E2]. pose proof (key_inj _ _ (lex_leb_antisym _ _ E1 E2)) as ->.
    apply IH. destruct Hx as [<-|Hx]; [left; reflexivity|exact Hx].
  - destruct Hx as [<-|Hx]; [left; reflexivity|right; apply IH; exact Hx].
Qed.

Lemma leaf_incl {X} (c : geom -> list X) : (forall ct gs, c (GColl ct gs) = flat_map c gs) ->
  forall g l : geom, In l (leaves g) -> incl (c l) (c g).
Proof.
  intros Hc. induction g as [| | | | | |ct gs H] using geomT_ind'; cbn [leaves]; intros lf Hl; try (destruct Hl as [<-|[]]; apply incl_refl).
  apply in_flat_map in Hl as [x [Hx Hl]]. rewrite Forall_forall in H. rewrite Hc. intros s Hs.
  apply in_flat_map. exists x. split; [exact Hx | exact (H x Hx lf Hl s Hs)].
Qed.
Lemma flat_map_incl {A B} (f : A -> list B) l l' : incl l l' -> incl (flat_map f l) (flat_map f l').
Proof. intros Hi s Hs. apply in_flat_map in Hs as [x [Hx Hs]]. apply in_flat_map. exists x. auto. Qed.
Lemma g_polys_leaf' (g l : geom) y : In l (leaves g) -> In y (g_polys l) -> In y (g_polys g).
Proof. intros Hl. apply (leaf_incl g_polys (fun _ _ => eq_refl) g l Hl). Qed.
Lemma arr_points_leaf (g l : geom) : In l (leaves g) -> incl (arr_points l) (arr_points g).
Proof. apply (leaf_incl g_points (fun _ _ => eq_refl)). Qed.
Lemma arr_segments_leaf (g l : geom) : In l (leaves g) -> incl (arr_segments l) (arr_segments g).
Proof.
  intros Hl. apply incl_app_app; apply flat_map_incl.
  - exact (leaf_incl g_polys (fun _ _ => eq_refl) g l Hl).
  - exact (leaf_incl g_lines (fun _ _ => eq_refl) g l Hl).
Qed.

(* ================================================================ a face witness is in no boundary *)
Lemma on_some_seg_incl A B w : incl A B -> on_some_seg A w = true -> on_some_seg B w = true.
Proof.
  intros Hi H. unfold on_some_seg in *. apply existsb_exists in H. destruct H as [e [He Hon]].
  apply existsb_exists. exists e. split; [apply Hi; exact He|exact Hon].
Qed.

Lemma locate_boundary_on_seg (g : geom) w : locate g w = Boundary -> on_some_seg (arr_segments g) w = true.
Proof.
  unfold locate, locate_p, prep. cbn [pg_polys pg_lines pg_ends pg_points].
  destruct (existsb (fun rs => rings_interior rs w) (map poly_ring_segs (g_polys g))); [discriminate|].
  destruct (existsb (fun rs => rings_boundary rs w) (map poly_ring_segs (g_polys g))) eqn:Eb.
  - intros _. rewrite existsb_map in Eb. apply existsb_exists in Eb. destruct Eb as [y [Hy Hb]].
    unfold rings_boundary in Hb. apply existsb_exists in Hb. destruct Hb as [r [Hr Hon]].
    apply (on_some_seg_incl r); [|exact Hon]. intros s Hs. unfold arr_segments. apply in_or_app. left.
    apply in_flat_map. exists y. split; [exact Hy|]. apply in_concat. exists r. auto.
  - destruct (existsb (fun es => on_edges es w) (map line_segs (g_lines g))) eqn:El.
    + intros _. rewrite existsb_map in El. apply existsb_exists in El. destruct El as [ln [Hln Hon]].
      apply (on_some_seg_incl (line_segs ln)); [|exact Hon]. intros s Hs. unfold arr_segments. apply in_or_app. right.
      apply in_flat_map. exists ln. auto.
    + destruct (existsb (pt_eqb w) (g_points g)); discriminate.
Qed.

Lemma low_dim_no_polys (g : geom) : (dimension g <= 1)%nat -> g_polys g = [].
Proof.
  induction g using geomT_ind'; cbn [dimension g_polys]; intros Hd; try reflexivity; try lia.
  rewrite Forall_forall in H.
  assert (G : forall x, In x gs -> g_polys x = []).
  { intros x Hx. apply H; [exact Hx|]. pose proof (fold_max_ge _ dimension gs 0%nat x Hx). lia. }
  clear Hd H. induction gs as [|a gs IH]; [reflexivity|]. cbn [flat_map]. rewrite (G a (or_introl eq_refl)).
  apply IH. intros; apply G; right; assumption.
Qed.

Lemma face_not_in_low_dim L P (b : geom) w : covers_geom L P b -> (dimension b <= 1)%nat ->
  on_some_seg L w = false -> is_vertex (vertex_set L P) w = false -> inG b w = false.
Proof.
  intros [CL CP] Hdim Tseg Tvtx. rewrite inG_flat, (low_dim_no_polys b Hdim). cbn [existsb orb]. apply orb_false_iff. split.
  - apply existsb_all_false. intros ln Hln. apply not_true_iff_false. intros E.
    rewrite (on_some_seg_incl (line_segs ln) L w) in Tseg; [discriminate| |exact E].
    intros s Hs. apply CL, in_or_app. right. apply in_flat_map. eauto.
  - apply existsb_all_false. intros q Hq. apply not_true_iff_false. intros E.
    assert (K : is_vertex (vertex_set L P) w = true); [|congruence].
    apply existsb_exists. exists q. split; [|exact E]. unfold vertex_set. apply in_or_app. right. apply in_or_app. right. exact (CP q Hq).
Qed.
Lemma face_on_no_leaf_boundary L (g : geom) w : (forall l, In l (leaves g) -> incl (arr_segments l) L) ->
  on_some_seg L w = false -> on_leaf_boundary (leaf_preps g) w = false.
Proof.
  intros C Tseg. unfold on_leaf_boundary, leaf_preps. rewrite existsb_map. apply existsb_all_false. intros l Hl.
  change (locate_p (prep l) w) with (locate l w). destruct (locate l w) eqn:E; try reflexivity.
  now rewrite (on_some_seg_incl _ L w (C l Hl) (locate_boundary_on_seg l w E)) in Tseg.
Qed.

(* ================================================================ boundary_exact decides the statement for ALL points *)
Theorem boundary_exact_everywhere_lemma (g b : geom) :
  boundary_exact_ok g b = true ->
  forall p, inG b p = on_leaf_boundary (leaf_preps g) p.
Proof.
  unfold boundary_exact_ok. intros H p. apply andb_prop in H. destruct H as [H Hex]. apply andb_prop in H.
  destruct H as [Hg Hb]. apply rings_closed_b_sound in Hg, Hb.
  unfold boundary_exact in Hex.
  set (L := dedup_sorted seg_key (canon_segs (arr_segments g ++ arr_segments b))) in *.
  set (P := dedup_sorted pt_key (canon_pts (arr_points g ++ arr_points b))) in *.
  rewrite forallb_forall in Hex.
  assert (InL : incl (arr_segments g ++ arr_segments b) L).
  { intros s Hs. apply (dedup_sorted_in seg_key seg_key_inj). apply (ksort_in _ seg_key). exact Hs. }
  assert (InP : incl (arr_points g ++ arr_points b) P).
  { intros s Hs. apply (dedup_sorted_in pt_key pt_key_inj). apply (ksort_in _ pt_key). exact Hs. }
  assert (Cb : covers_geom L P b).
  { split; intros x Hx; [apply InL|apply InP]; apply in_or_app; right; exact Hx. }
  assert (Cl : forall l, In l (leaves g) -> covers_geom L P l /\ rings_closed l).
  { intros l Hl. split; [split|].
    - intros x Hx. apply InL. apply in_or_app. left. apply (arr_segments_leaf g l Hl). exact Hx.
    - intros x Hx. apply InP. apply in_or_app. left. apply (arr_points_leaf g l Hl). exact Hx.
    - intros y Hy. apply Hg. apply (g_polys_leaf' g l y Hl Hy). }
  destruct (witnesses_sufficient L P p) as [w [d [Hin Hs]]].
  assert (Eb : inG b p = inG b w) by (apply inG_of_locate; apply Hs; assumption).
  assert (El : on_leaf_boundary (leaf_preps g) p = on_leaf_boundary (leaf_preps g) w).
  { unfold on_leaf_boundary, leaf_preps. rewrite !existsb_map. apply existsb_ext_in. intros l Hl.
    destruct (Cl l Hl) as [C R]. change (locate_p (prep l) p) with (locate l p). change (locate_p (prep l) w) with (locate l w).
    rewrite (Hs l C R). reflexivity. }
  rewrite Eb, El. specialize (Hex (w, d) Hin). cbn [fst snd] in Hex.
  destruct d; try (apply eqb_prop; exact Hex).
  destruct (Nat.ltb 1 (dimension b)) eqn:Ef; [apply eqb_prop; exact Hex|].
  (* a face witness that the check skipped: both sides are false *)
  apply Nat.ltb_ge in Ef. destruct (witness_tag L P w D2 Hin) as [T _]. destruct (T eq_refl) as [Tseg Tvtx].
  rewrite (face_not_in_low_dim L P b w Cb Ef Tseg Tvtx). symmetry. apply (face_on_no_leaf_boundary L); [|exact Tseg].
  intros l Hl. apply (Cl l Hl).
Qed.
