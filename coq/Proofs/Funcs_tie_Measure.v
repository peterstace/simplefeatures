(* Translator tie for function bodies (DESIGN.md A.8b), property C14: the vector operations of
   coq/Model/Measure.v (xy_add, xy_sub, xy_scale, xy_eqb, xy_len) against the bodies of geom/xy.go
   (Add, Sub, Scale, ==, Length, distanceTo, Midpoint) and geom/line.go (length, centroid), as
   re-read from the Go source into Gen/Funcs.v on every run.  Carrier: Q.  An edited body in the
   Go source makes this file fail to compile. *)
From Coq Require Import ZArith QArith Qfield Bool Lqa.
From SF Require Import Base.FOps Gen.Funcs Proofs.Funcs_tie_lib Base.GeomAST Model.Measure.
Open Scope Q_scope.

Definition gxy (p : xy) : geom_XY Q := Mk_geom_XY (fst p) (snd p).
Definition mxy (p : geom_XY Q) : xy := (geom_XY_X p, geom_XY_Y p).

Lemma tie_xy_add : forall a b, mxy (geom_XY_Add qops (gxy a) (gxy b)) = xy_add a b.
Proof. reflexivity. Qed.
Lemma tie_xy_sub : forall a b, mxy (geom_XY_Sub qops (gxy a) (gxy b)) = xy_sub a b.
Proof. reflexivity. Qed.
Lemma tie_xy_scale : forall a s, mxy (geom_XY_Scale qops (gxy a) s) = xy_scale a s.
Proof. reflexivity. Qed.
Lemma tie_xy_eqb : forall a b, geom_XY_eqb qops (gxy a) (gxy b) = xy_eqb a b.
Proof. reflexivity. Qed.

(* geom/xy.go:Length is math.Hypot(w.X, w.Y); the model takes the square root [sq] of X*X + Y*Y:
   the same number for every pair of operations with hypot x y = sqrt (x*x + y*y) *)
Lemma tie_xy_len : forall sq hy, (forall x y, hy x y = sq (x * x + y * y)) ->
  forall d, geom_XY_Length (qops_with sq hy) (gxy d) = xy_len sq d.
Proof. intros sq hy H [x y]. unfold geom_XY_Length, xy_len. cbn. apply H. Qed.
(* geom/xy.go:distanceTo  w.distanceTo(o) = o.Sub(w).Length();  geom/line.go:length *)
Lemma tie_distanceTo : forall sq hy, (forall x y, hy x y = sq (x * x + y * y)) ->
  forall w o, geom_XY_distanceTo (qops_with sq hy) (gxy w) (gxy o) = xy_len sq (xy_sub o w).
Proof. intros sq hy H w o. exact (tie_xy_len sq hy H (xy_sub o w)). Qed.
Lemma tie_line_length : forall sq hy, (forall x y, hy x y = sq (x * x + y * y)) ->
  forall a b, geom_line_length (qops_with sq hy) (Mk_geom_line (gxy a) (gxy b)) = xy_len sq (xy_sub b a).
Proof. intros sq hy H a b. exact (tie_distanceTo sq hy H a b). Qed.

(* geom/xy.go:Midpoint = w.Add(o).Scale(0.5);  geom/line.go:centroid = 0.5 * (a + b) per ordinate:
   both are the midpoint (the literal 0.5 is translated as 1/2) *)
Lemma tie_midpoint : forall a b, mxy (geom_XY_Midpoint qops (gxy a) (gxy b)) = xy_scale (xy_add a b) (1 / 2).
Proof. reflexivity. Qed.
Lemma tie_line_centroid : forall a b,
  let c := geom_line_centroid qops (Mk_geom_line (gxy a) (gxy b)) in
  geom_XY_X c == fst (xy_scale (xy_add a b) (1 / 2)) /\ geom_XY_Y c == snd (xy_scale (xy_add a b) (1 / 2)).
Proof. intros [] []. cbv zeta. cbv -[Qplus Qmult Qdiv Qeq inject_Z]. split; field. Qed.
