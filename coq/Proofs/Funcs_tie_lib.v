(* Shared lemmas and tactics of the translator tie for function bodies (Proofs/Funcs_tie_*.v,
   DESIGN.md A.8b).  A tie lemma states that a function body translated from the Go source
   (Gen/Funcs.v) and a hand-written model function agree on all arguments.  Most are closed by
   [reflexivity] (same term up to unfolding).  Where the two are only extensionally equal - the
   model writes a comparison the other way round, or the Go body has been rewritten into an
   equivalent one - the tactics below decide the equality by case analysis on every comparison
   followed by linear (lia / lra) or polynomial (nia / nra) arithmetic:
     [ztie]  carrier Z,  [qtie]  carrier Q. *)
From Coq Require Import ZArith QArith Qabs Qminmax Bool Lia Lqa.
From SF Require Import Base.FOps.

(* ---------------------------------------------------------------- Q: comparisons reflected *)
Lemma Qle_bool_spec a b : reflect (a <= b)%Q (Qle_bool a b).
Proof. apply iff_reflect. symmetry. apply Qle_bool_iff. Qed.
Lemma Qeq_bool_spec a b : reflect (a == b)%Q (Qeq_bool a b).
Proof. apply iff_reflect. symmetry. apply Qeq_bool_iff. Qed.
Lemma q_ltb_spec a b : reflect (a < b)%Q (q_ltb a b).
Proof. unfold q_ltb. destruct (Qle_bool_spec b a); constructor.
  - intro H. exact (Qlt_not_le _ _ H q).
  - apply Qnot_le_lt. exact n. Qed.
Lemma q_ltb_iff a b : q_ltb a b = true <-> (a < b)%Q.
Proof. destruct (q_ltb_spec a b); split; intro; auto; try discriminate; contradiction. Qed.
Lemma Qcompare_spec0 a b : CompareSpec (a == b)%Q (a < b)%Q (b < a)%Q (a ?= b)%Q.
Proof. destruct (a ?= b)%Q eqn:E; constructor.
  - apply Qeq_alt; exact E. - apply Qlt_alt; exact E. - apply Qgt_alt in E; exact E. Qed.

Lemma Qle_bool_ext a b c d : ((a <= b)%Q <-> (c <= d)%Q) -> Qle_bool a b = Qle_bool c d.
Proof. intro H. apply eq_true_iff_eq. rewrite !Qle_bool_iff. exact H. Qed.
Lemma Qeq_bool_ext a b c d : ((a == b)%Q <-> (c == d)%Q) -> Qeq_bool a b = Qeq_bool c d.
Proof. intro H. apply eq_true_iff_eq. rewrite !Qeq_bool_iff. exact H. Qed.
(* a Go switch  x > 0 / x < 0 / default  selects by the sign of x *)
Lemma q_switch_sign {A} (x : Q) (l r c : A) :
  (if q_ltb 0 x then l else if q_ltb x 0 then r else c) = match (x ?= 0)%Q with Gt => l | Lt => r | Eq => c end.
Proof. destruct (Qcompare_spec0 x 0), (q_ltb_spec 0 x), (q_ltb_spec x 0); (reflexivity || (exfalso; lra)). Qed.

(* every comparison in the goal is replaced by its truth value, with the corresponding
   (in)equality among the hypotheses *)
Ltac no_if a := lazymatch a with context [if _ then _ else _] => fail | _ => idtac end.
Ltac qcases :=
  repeat match goal with
  | |- context [Qle_bool ?a ?b] => no_if a; no_if b; destruct (Qle_bool_spec a b); cbv iota
  | |- context [Qeq_bool ?a ?b] => no_if a; no_if b; destruct (Qeq_bool_spec a b); cbv iota
  | |- context [(?a ?= ?b)%Q] => no_if a; no_if b; destruct (Qcompare_spec0 a b); cbv iota
  end.
Ltac qfinish := cbn [negb andb orb xorb Bool.eqb]; first [reflexivity | exfalso; lra | exfalso; nra].
Ltac qtie_core := unfold q_ltb; cbn [negb andb orb]; qcases; qfinish.

(* ---------------------------------------------------------------- Z *)
Ltac zcases :=
  repeat match goal with
  | |- context [Z.leb ?a ?b] => no_if a; no_if b; destruct (Z.leb_spec a b); cbv iota
  | |- context [Z.ltb ?a ?b] => no_if a; no_if b; destruct (Z.ltb_spec a b); cbv iota
  | |- context [Z.eqb ?a ?b] => no_if a; no_if b; destruct (Z.eqb_spec a b); cbv iota
  end.
Ltac zfinish := cbn [negb andb orb xorb Bool.eqb]; first [reflexivity | exfalso; lia | exfalso; nia | lia | nia].
Ltac ztie_core := rewrite ?Z.gtb_ltb, ?Z.geb_leb; cbn [negb andb orb]; zcases; zfinish.

(* ---------------------------------------------------------------- the two deciding tactics *)
(* arguments that are pairs (points, segments) are split into their components *)
Ltac destruct_pairs :=
  repeat match goal with
         | p : ?T |- _ => lazymatch eval hnf in T with prod _ _ => destruct p end
         end.
(* everything is unfolded except the field operations and comparisons of the carrier *)
Ltac qcompute := cbv -[Qle_bool Qeq_bool Qcompare Qplus Qminus Qmult Qdiv Qopp Qinv Qred].
Ltac zcompute := cbv -[Z.add Z.sub Z.mul Z.opp Z.leb Z.ltb Z.gtb Z.geb Z.eqb Z.div Z.min Z.max Z.abs Z.sqrt].
Ltac qtie0 := first [reflexivity | qcompute; qcases; qfinish].
Ltac ztie0 := first [reflexivity | zcompute; ztie_core].
