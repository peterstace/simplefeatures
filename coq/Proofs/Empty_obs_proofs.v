(* Lemmas for property C20: the observables modelled for other properties do not see empty members.
   One lemma [strip_<obs>] per observable (obs (strip_empties g) ~ obs g, by induction on g); the
   statements about insert_empties then follow from Empty_proofs.obs_factors_through_parts_lemma.
   Cited models: Model/Envelope.v (env_of), Model/Measure.v (geom_area, geom_length,
   geom_centroid), Model/Hull.v (point_set, convex_hull), Base/Planar.v (inG, locate, de9im_ref),
   Model/Relate.v (relate, preds), Model/SetOpSpec.v (dispatch, expected). *)
From Coq Require Import List Bool Arith Lia QArith Qabs ZArith.
From SF Require Import Base.GeomAST Base.QKernel Base.Planar Model.Empty Proofs.Empty_proofs Proofs.Empty_transform_proofs.
From SF Require Model.Envelope Model.Measure Model.Hull Model.Relate Model.SetOpSpec.
From SF Require Proofs.Planar_proofs Proofs.Relate_proofs Proofs.Measure_proofs Proofs.SetOpSpec_proofs.
Import ListNotations.

Section StripFold.
  Variable F : Type.
  Notation geom := (geomT F).
  Notation strip := (@strip_empties F).

  Lemma existsb_strip (f : geom -> bool) gs :
    (forall x, is_empty x = true -> f x = false) ->
    Forall (fun x => f (strip x) = f x) gs ->
    existsb f (flat_map (fun x => if is_empty x then [] else [strip x]) gs) = existsb f gs.
  Proof.
    intros He. induction 1 as [|x r Hx Hr IH]; simpl; [reflexivity|].
    destruct (is_empty x) eqn:E; simpl.
    - rewrite (He x E). exact IH.
    - rewrite Hx, IH. reflexivity.
  Qed.
End StripFold.

(* ================================================================ Envelope (C12) *)
Section Env.
  Import Model.Envelope.
  Variable F : Type.
  Variable O : ops F.
  Notation geom := (geomT F).

  Lemma join_none_r (e : env F) : join O e None = e.
  Proof. destruct e; reflexivity. Qed.

  Lemma point_env_empty (p : pointT F) : point_empty p = true -> point_env O p = None.
  Proof. intros E. unfold point_env. rewrite (point_empty_c p E). reflexivity. Qed.
  Lemma line_env_empty (l : lineT F) : line_empty l = true -> line_env O l = None.
  Proof. intros E. unfold line_env. rewrite (line_empty_vs l E). reflexivity. Qed.
  Lemma poly_env_empty (y : polyT F) : poly_empty y = true -> poly_env O y = None.
  Proof. intros E. unfold poly_env, exterior_ring. rewrite (poly_empty_rings y E). reflexivity. Qed.

  Lemma fold_env_all_none {A} (f : A -> env F) l : (forall a, In a l -> f a = None) -> fold_env O f l = None.
  Proof.
    unfold fold_env. induction l as [|a r IH]; simpl; intros H; [reflexivity|].
    rewrite (H a) by (left; reflexivity). simpl. apply IH. intros; apply H; right; assumption.
  Qed.
  Lemma fold_env_keep {A} (e : A -> bool) (f : A -> env F) l :
    (forall a, e a = true -> f a = None) -> fold_env O f (filter (fun a => negb (e a)) l) = fold_env O f l.
  Proof. intros H. apply fold_left_keep. intros a b K. rewrite (H a K). apply join_none_r. Qed.

  (* neutral answer: an empty geometry has the empty envelope *)
  Lemma empty_env (g : geom) : is_empty g = true -> env_of O g = None.
  Proof.
    induction g using geomT_ind'; simpl; intros E.
    - apply point_env_empty, E.
    - apply line_env_empty, E.
    - apply poly_env_empty, E.
    - rewrite <- (fold_env_keep point_empty) by exact point_env_empty. rewrite keep_none by exact E. reflexivity.
    - rewrite <- (fold_env_keep line_empty) by exact line_env_empty. rewrite keep_none by exact E. reflexivity.
    - rewrite <- (fold_env_keep poly_empty) by exact poly_env_empty. rewrite keep_none by exact E. reflexivity.
    - apply (fold_env_all_none (env_of O)). rewrite forallb_forall in E. rewrite Forall_forall in H. auto.
  Qed.

  Lemma strip_env (g : geom) : env_of O (strip_empties g) = env_of O g.
  Proof.
    induction g using geomT_ind'; simpl; try reflexivity.
    - apply fold_env_keep, point_env_empty.
    - apply fold_env_keep, line_env_empty.
    - apply fold_env_keep, poly_env_empty.
    - apply (fold_left_strip F (fun e a => join O e (env_of O a))).
      + intros x b E. rewrite (empty_env x E). apply join_none_r.
      + eapply Forall_impl; [|exact H]. intros x Hx b. simpl in Hx. rewrite Hx. reflexivity.
  Qed.
End Env.

(* ================================================================ Area, Length (C14) *)
Section Measure.
  Import Model.Measure.
  Notation geom := (geomT Q).

  Lemma Qplus_mono_l (a : Q) : forall b b', b == b' -> b + a == b' + a.
  Proof. intros b b' H. rewrite H. reflexivity. Qed.


  Lemma qfold_all_zero {A} (f : A -> Q) l : (forall a, In a l -> f a == 0) ->
    forall b, fold_left (fun s a => s + f a) l b == b.
  Proof.
    induction l as [|a r IH]; intros H b; simpl; [reflexivity|].
    rewrite IH by (intros; apply H; right; assumption). rewrite (H a) by (left; reflexivity). ring.
  Qed.
  Lemma qfold_keep {A} (e : A -> bool) (f : A -> Q) l : (forall a, e a = true -> f a == 0) ->
    fold_left (fun s a => s + f a) (filter (fun a => negb (e a)) l) 0 == fold_left (fun s a => s + f a) l 0.
  Proof.
    intros H. apply (fold_left_keep_R e Qeq); [exact Qeq_trans | exact Qeq_sym | | | reflexivity].
    - intros a. apply Qplus_mono_l.
    - intros a b K. rewrite (H a K). ring.
  Qed.
  Lemma qfold_strip (f : geom -> Q) gs :
    (forall x, is_empty x = true -> f x == 0) -> Forall (fun x => f (strip_empties x) == f x) gs ->
    fold_left (fun s a => s + f a) (flat_map strip_member gs) 0 == fold_left (fun s a => s + f a) gs 0.
  Proof.
    intros He H. apply (fold_left_strip_R Q Qeq); [exact Qeq_trans | exact Qeq_sym | | | reflexivity].
    - intros x b E. rewrite (He x E). ring.
    - eapply Forall_impl; [|exact H]. intros x Hx b b' Hb. simpl in Hx. rewrite Hx, Hb. reflexivity.
  Qed.

  Lemma poly_area_of_empty s tr (y : polyT Q) : poly_empty y = true -> poly_area s tr y = 0.
  Proof. intros E. unfold poly_area. rewrite (poly_empty_rings y E). reflexivity. Qed.

  Lemma empty_area s tr (g : geom) : is_empty g = true -> geom_area s tr g == 0.
  Proof.
    induction g using geomT_ind'; simpl; intros E; try reflexivity.
    - rewrite (poly_area_of_empty s tr p E). reflexivity.
    - apply qfold_all_zero. intros y Hy. rewrite forallb_forall in E. rewrite (poly_area_of_empty s tr y (E y Hy)). reflexivity.
    - apply (qfold_all_zero (geom_area s tr)). rewrite forallb_forall in E. rewrite Forall_forall in H. auto.
  Qed.

  Lemma strip_area s tr (g : geom) : geom_area s tr (strip_empties g) == geom_area s tr g.
  Proof.
    induction g using geomT_ind'; simpl; try reflexivity.
    - apply (qfold_keep poly_empty). intros y E. rewrite (poly_area_of_empty s tr y E). reflexivity.
    - apply (qfold_strip (geom_area s tr)); [apply empty_area | exact H].
  Qed.

  Section Len.
    Variable sq : Q -> Q.

    (* neutral answer: by the first case of Geometry.Length *)
    Lemma empty_length (g : geom) : is_empty g = true -> geom_length sq g = 0.
    Proof. intros E. destruct g; simpl in *; rewrite E; reflexivity. Qed.

    Lemma line_length_of_empty (l : lineT Q) : line_empty l = true -> line_length sq l = 0.
    Proof. intros E. unfold line_length, line_xys. rewrite (line_empty_vs l E). reflexivity. Qed.

    Lemma strip_length (g : geom) : geom_length sq (strip_empties g) == geom_length sq g.
    Proof.
      induction g using geomT_ind'; try reflexivity.
      - simpl. destruct (forallb _ _), (forallb _ _); reflexivity.
      - simpl. unfold keep_lines. rewrite keep_all_empty. destruct (forallb _ ls); [reflexivity|].
        apply (qfold_keep line_empty). intros l E. rewrite (line_length_of_empty l E). reflexivity.
      - simpl. destruct (forallb _ _), (forallb _ _); reflexivity.
      - simpl. rewrite strip_members_all_empty. destruct (forallb _ gs); [reflexivity|].
        apply (qfold_strip (geom_length sq)); [|exact H]. intros x E. rewrite (empty_length x E). reflexivity.
    Qed.
  End Len.
End Measure.

(* ================================================================ Convex hull input (C13) *)
Section HullPts.
  Import Model.Hull.
  Lemma point_set_flat (g : geomZ) : (is_empty g = true -> point_set g = []) /\ point_set (strip_empties g) = point_set g.
  Proof.
    apply (flat_obs Z _ point_set point_pts line_pts poly_pts).
    - intros []; reflexivity.
    - intros p E. unfold point_pts. rewrite (point_empty_c p E). reflexivity.
    - intros l E. unfold line_pts. rewrite (line_empty_vs l E). reflexivity.
    - intros y E. unfold poly_pts. rewrite (poly_empty_rings y E). reflexivity.
  Qed.
  Lemma empty_point_set (g : geomZ) : is_empty g = true -> point_set g = [].
  Proof. apply point_set_flat. Qed.
  Lemma strip_point_set (g : geomZ) : point_set (strip_empties g) = point_set g.
  Proof. apply point_set_flat. Qed.

  (* ConvexHull: the same hull for a non-empty geometry; for an empty one the result is the
     operand itself (forced to XY), which is empty either way *)
  Lemma strip_convex_hull (g : geomZ) : is_empty g = false -> convex_hull (strip_empties g) = convex_hull g.
  Proof.
    intros E. unfold convex_hull. rewrite strip_is_empty, E, strip_point_set. reflexivity.
  Qed.
  Lemma empty_convex_hull (g : geomZ) : is_empty g = true ->
    exists h, convex_hull g = Some h /\ h = force_geom 0%Z XY g /\ is_empty h = true.
  Proof.
    intros E. exists (force_geom 0%Z XY g). unfold convex_hull. rewrite E. repeat split.
    rewrite (proj1 (force_geom_strip Z 0%Z XY g)). exact E.
  Qed.
End HullPts.

(* ================================================================ point sets, locate, Relate (C01, C02) *)
Section Planar.
  Import Model.Relate Proofs.Relate_proofs.
  Notation geom := (geomT Q).

  Lemma strip_g_points (g : geom) : g_points (strip_empties g) = g_points g.
  Proof.
    induction g using geomT_ind'; simpl; try reflexivity.
    - apply flat_map_keep. intros a K. unfold point_pts. rewrite (point_empty_c a K). reflexivity.
    - apply flat_map_strip; [|exact H]. intros x E. apply (empty_parts x E).
  Qed.

  (* what Planar consults about the line strings / polygons of g: per-member functions that vanish
     on empty members *)
  Lemma strip_lines_flat {B} (f : lineT Q -> list B) (g : geom) :
    (forall l, line_vs l = [] -> f l = []) ->
    flat_map f (g_lines (strip_empties g)) = flat_map f (g_lines g).
  Proof.
    intros Hf. induction g using geomT_ind'; simpl; try reflexivity.
    - apply flat_map_keep. intros a K. apply Hf, line_empty_vs, K.
    - rewrite !(flat_map_flat_map f g_lines). apply flat_map_strip; [|exact H].
      intros x E. apply flat_map_nil. intros l Hl. apply Hf. apply (empty_parts x E). exact Hl.
  Qed.
  Lemma strip_polys_flat {B} (f : polyT Q -> list B) (g : geom) :
    (forall y, poly_rings y = [] -> f y = []) ->
    flat_map f (g_polys (strip_empties g)) = flat_map f (g_polys g).
  Proof.
    intros Hf. induction g using geomT_ind'; simpl; try reflexivity.
    - apply flat_map_keep. intros a K. apply Hf, poly_empty_rings, K.
    - rewrite !(flat_map_flat_map f g_polys). apply flat_map_strip; [|exact H].
      intros x E. apply flat_map_nil. intros y Hy. apply Hf. apply (empty_parts x E). exact Hy.
  Qed.
  Lemma existsb_as_flat {A} (f : A -> bool) l : existsb f l = existsb (fun b => b) (flat_map (fun a => [f a]) l).
  Proof. induction l; simpl; [reflexivity | rewrite IHl; reflexivity]. Qed.
  Lemma existsb_true_only {A} (f : A -> bool) l :
    existsb f l = match flat_map (fun a => if f a then [tt] else []) l with [] => false | _ => true end.
  Proof. induction l as [|a r IH]; simpl; [reflexivity|]. destruct (f a); simpl; [reflexivity | exact IH]. Qed.
  Lemma strip_lines_existsb (f : lineT Q -> bool) (g : geom) :
    (forall l, line_vs l = [] -> f l = false) ->
    existsb f (g_lines (strip_empties g)) = existsb f (g_lines g).
  Proof.
    intros Hf. rewrite !existsb_true_only.
    rewrite (strip_lines_flat (fun a => if f a then [tt] else [])); [reflexivity|].
    intros l Hl. rewrite (Hf l Hl). reflexivity.
  Qed.
  Lemma strip_polys_existsb (f : polyT Q -> bool) (g : geom) :
    (forall y, poly_rings y = [] -> f y = false) ->
    existsb f (g_polys (strip_empties g)) = existsb f (g_polys g).
  Proof.
    intros Hf. rewrite !existsb_true_only.
    rewrite (strip_polys_flat (fun a => if f a then [tt] else [])); [reflexivity|].
    intros l Hl. rewrite (Hf l Hl). reflexivity.
  Qed.

  Lemma strip_arr_segments (g : geom) : arr_segments (strip_empties g) = arr_segments g.
  Proof.
    unfold arr_segments. f_equal.
    - apply strip_polys_flat. intros y Hy. rewrite (empty_poly_facts y Hy). reflexivity.
    - apply strip_lines_flat. intros l Hl. apply empty_line_facts. exact Hl.
  Qed.

  Lemma strip_locate (g : geom) p : locate (strip_empties g) p = locate g p.
  Proof.
    unfold locate, locate_p, prep; cbn [pg_polys pg_lines pg_ends pg_points].
    rewrite !existsb_map, strip_g_points.
    rewrite (strip_polys_existsb (fun y => rings_interior (poly_ring_segs y) p)),
      (strip_polys_existsb (fun y => rings_boundary (poly_ring_segs y) p)),
      (strip_lines_existsb (fun l => on_edges (line_segs l) p)),
      (strip_lines_flat (@line_ends)).
    - reflexivity.
    - intros l Hl. apply empty_line_facts. exact Hl.
    - intros l Hl. destruct (empty_line_facts l Hl) as [-> _]. reflexivity.
    - intros y Hy. rewrite (empty_poly_facts y Hy). reflexivity.
    - intros y Hy. rewrite (empty_poly_facts y Hy). reflexivity.
  Qed.

  (* the definitional point set *)
  Lemma strip_inG (g : geom) p : inG (strip_empties g) p = inG g p.
  Proof.
    rewrite !Planar_proofs.inG_flat, strip_g_points.
    rewrite (strip_polys_existsb (fun y => in_poly y p)), (strip_lines_existsb (fun l => on_line l p)).
    - reflexivity.
    - intros l Hl. unfold on_line. destruct (empty_line_facts l Hl) as [-> _]. reflexivity.
    - intros y Hy. unfold in_poly, poly_boundary, poly_interior. rewrite (empty_poly_facts y Hy). reflexivity.
  Qed.

  Lemma strip_boundary_empty (g : geom) : boundary_empty (strip_empties g) = boundary_empty g.
  Proof.
    induction g using geomT_ind'; try reflexivity.
    - simpl. unfold mline_boundary_empty, keep_lines.
      rewrite (flat_map_keep line_empty (@line_ends)); [reflexivity|].
      intros a K. apply empty_line_facts, line_empty_vs, K.
    - apply forallb_keep. intros y K. rewrite (poly_empty_rings y K). reflexivity.
    - simpl. rewrite strip_members_all_empty. destruct (forallb _ gs); [reflexivity|].
      apply forallb_strip; [apply empty_boundary_empty | exact H].
  Qed.

  Lemma strip_same_sig (g : geom) : same_sig (strip_empties g) g.
  Proof.
    split; [apply strip_is_empty|]. split; [apply (strip_dimension_ie Q)|]. split; [apply strip_boundary_empty|].
    split; [apply strip_arr_segments|]. split; [apply strip_g_points | intros p; apply strip_locate].
  Qed.

  Lemma relate_same_sig_r g h h' : same_sig h h' -> relate g h = relate g h'.
  Proof.
    intros S. unfold relate. rewrite (relate_with_transpose dimension_ie h g), (relate_with_transpose dimension_ie h' g).
    f_equal. apply relate_same_sig. exact S.
  Qed.
  Lemma preds_same_sig_r g h h' : same_sig h h' -> preds g h = preds g h'.
  Proof.
    intros S. unfold preds, preds_with. fold (relate g h). fold (relate g h').
    rewrite (relate_same_sig_r g h h' S). destruct S as [E [D _]]. rewrite E, D. reflexivity.
  Qed.

  Lemma ins_relate (a b : geom) p q :
    relate (insert_empties a p) (insert_empties b q) = relate a b /\
    preds (insert_empties a p) (insert_empties b q) = preds a b.
  Proof.
    split.
    - apply (obs2_factors_through_parts_lemma Q eq relate); try congruence.
      + intros g h. apply relate_same_sig, strip_same_sig.
      + intros g h. apply relate_same_sig_r, strip_same_sig.
    - apply (obs2_factors_through_parts_lemma Q eq preds); try congruence.
      + intros g h. apply preds_same_sig, strip_same_sig.
      + intros g h. apply preds_same_sig_r, strip_same_sig.
  Qed.

  (* the pinned code (F8): a witness through insert_empties *)
  Lemma ins_relate_unfixed_refuted :
    exists (a b : geom) p, relate_unfixed (insert_empties a p) b <> relate_unfixed a b /\
    exists (a' b' : geom) p', preds_unfixed (insert_empties a' p') b' <> preds_unfixed a' b'.
  Proof.
    exists (GColl XY [f8_g]), f8_h, (EP [(1%nat, EPg)] []). split; [vm_compute; discriminate|].
    exists (GColl XY [f8_l1]), f8_l2, (EP [(0%nat, EMPg 1)] []). vm_compute. discriminate.
  Qed.
End Planar.

(* ================================================================ set operations (C01 glue) *)
Section SetOps.
  Import Model.SetOpSpec.
  Notation geom := (geomT Q).

  Lemma ins_dispatch o (a b : geom) p q :
    dispatch o (g_empty (insert_empties a p)) (g_empty (insert_empties b q)) = dispatch o (g_empty a) (g_empty b).
  Proof. unfold g_empty. rewrite !ins_is_empty. reflexivity. Qed.

  Lemma ins_inG (g : geom) p x : inG (insert_empties g p) x = inG g x.
  Proof.
    apply (obs_factors_through_parts_lemma Q eq (fun g => inG g x)); try congruence.
    intros g0. apply strip_inG.
  Qed.

  Lemma expected_f_ext o fa fb fa' fb' w :
    (forall x, fa x = fa' x) -> (forall x, fb x = fb' x) -> expected_f o fa fb w = expected_f o fa' fb' w.
  Proof.
    intros Ha Hb. unfold expected_f, in_closure, raw_f.
    destruct o; rewrite ?Ha, ?Hb; try reflexivity;
      (f_equal; apply existsb_ext_in; intros x _; rewrite Ha, Hb; reflexivity).
  Qed.

  (* the set-theoretic result the overlay is judged against (closure of the Boolean combination of
     the operands' point sets, evaluated at any witness) does not see empty members *)
  Lemma ins_expected o (a b : geom) p q w :
    expected o (insert_empties a p) (insert_empties b q) w = expected o a b w.
  Proof. unfold expected. apply expected_f_ext; intros x; apply ins_inG. Qed.

  Lemma ins_expected_many (gs : list geom) (ps : list eplan) w :
    expected_many (map (fun gp => insert_empties (fst gp) (snd gp)) (combine gs ps)) w =
    expected_many (map fst (combine gs ps)) w.
  Proof.
    unfold expected_many. rewrite !existsb_map. apply existsb_ext_in. intros [g p] _. apply ins_inG.
  Qed.

  (* UnionMany wraps its operands in a collection: empty operands are empty members *)
  Lemma union_many_empty_operand ct (gs1 gs2 : list geom) (e : geom) x :
    is_empty e = true -> inG (GColl ct (gs1 ++ e :: gs2)) x = inG (GColl ct (gs1 ++ gs2)) x.
  Proof.
    intros E. simpl. rewrite !existsb_app. simpl.
    rewrite (SetOpSpec_proofs.empty_no_points_lemma e x E). reflexivity.
  Qed.
End SetOps.

(* ================================================================ neutral answers of Relate and the predicates *)
Section RelateNeutral.
Import Model.Relate Proofs.Relate_proofs.
Definition quiet (mat : bytes) : Prop :=
  go_disjoint mat = RM true /\ go_touches mat = RM false /\ go_contains mat = RM false /\ go_covers mat = RM false /\
  go_within mat = RM false /\ go_coveredby mat = RM false /\
  match_any mat bp_crosses_lt = RM false /\ match_any mat bp_crosses_gt = RM false /\ match_any mat bp_crosses_11 = RM false /\
  match_any mat bp_overlaps_00_22 = RM false /\ match_any mat bp_overlaps_11 = RM false /\ match_any mat bp_equals = RM false.
Lemma quiet_preds mat da db ea eb : quiet mat ->
  go_preds mat da db ea eb = [RM (ea && eb); RM true; RM false; RM false; RM false; RM false; RM false; RM false; RM false].
Proof.
  intros [H1 [H2 [H3 [H4 [H5 [H6 [H7 [H8 [H9 [H10 [H11 H12]]]]]]]]]]].
  unfold go_preds, go_equals, go_crosses, go_overlaps. rewrite H1, H2, H3, H4, H5, H6, H12.
  destruct (ea && eb), (Nat.ltb da db), (Nat.ltb db da), (Nat.eqb da 1 && Nat.eqb db 1), ((Nat.eqb da 0 && Nat.eqb db 0) || (Nat.eqb da 2 && Nat.eqb db 2));
    rewrite ?H7, ?H8, ?H9, ?H10, ?H11; reflexivity.
Qed.
(* every matrix the empty branch can answer: a finite table *)
Lemma quiet_empty_branch (dimf : geom -> nat) (a b : geomT Q) : quiet (enc_matrix (relate_empty_branch dimf a b)).
Proof.
  unfold relate_empty_branch.
  destruct (is_empty a && is_empty b), (is_empty b); try destruct (dimf _) as [|[|[|n]]]; try destruct (boundary_empty _);
    unfold quiet; vm_compute; repeat split; reflexivity.
Qed.
Lemma preds_empty (a b : geomT Q) : is_empty a || is_empty b = true ->
  preds a b = [RM (is_empty a && is_empty b); RM true; RM false; RM false; RM false; RM false; RM false; RM false; RM false].
Proof.
  intros H. unfold preds, preds_with, relate_with. rewrite H. apply quiet_preds, quiet_empty_branch.
Qed.
End RelateNeutral.
