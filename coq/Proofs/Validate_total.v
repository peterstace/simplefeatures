(* Property C03 - the model never reaches the explicit panic of validatePolyNotInsidePoly
   (geom/type_multi_polygon.go), because "two lines overlap" is symmetric in exact arithmetic.
   The Go code computes in float64, where this fails for huge ordinates: defect F33. *)
From Coq Require Import QArith Qreduction List Bool ZArith Lia Lqa Arith Setoid Morphisms.
From SF Require Import Base.QKernel Model.Validate Model.ValidateSpec Proofs.Validate_kernel Proofs.Validate_proofs Proofs.Validate_graph Proofs.Validate_sound.
Import ListNotations.
Open Scope Q_scope.


(* "the two lines overlap" does not depend on the order of the arguments of intersectLine - in exact
   arithmetic (intersect_line_spec).  The Go code relies on this between its two passes; in float64
   it fails when the cross products overflow (defect F33). *)
Lemma no_overlap_sym la lb : nondeg la -> nondeg lb -> no_overlap la lb -> no_overlap lb la.
Proof. intros Na Nb. rewrite !no_overlap_iff, (proj2 (il_kind_sym la lb Na Nb)). tauto. Qed.

Lemma inter_pts_with_total p1 l2 : (forall l1, In l1 p1 -> no_overlap l1 l2) -> inter_pts_with p1 l2 <> None.
Proof.
  induction p1 as [|l1 r IH]; intros H; [discriminate|]. simpl.
  pose proof (H l1 (or_introl eq_refl)) as N. unfold no_overlap in N.
  assert (IH' : inter_pts_with r l2 <> None) by (apply IH; intros l Hl; apply H; right; exact Hl).
  destruct (intersect_line l1 l2) as [|pa pb]; [exact IH'|]. rewrite N.
  destruct (inter_pts_with r l2); [discriminate | congruence].
Qed.

Lemma poly_not_inside_poly_total p1 p2 :
  (forall l1 l2, In l1 p1 -> In l2 p2 -> no_overlap l1 l2) -> poly_not_inside_poly p1 p2 <> Some RPanic.
Proof.
  induction p2 as [|l2 r IH]; intros H; [discriminate|]. simpl.
  assert (T : inter_pts_with p1 l2 <> None) by (apply inter_pts_with_total; intros l1 Hl; apply H; [exact Hl | left; reflexivity]).
  assert (IH' : poly_not_inside_poly p1 r <> Some RPanic) by (apply IH; intros l1 l Hl1 Hl; apply H; [exact Hl1 | right; exact Hl]).
  destruct (inter_pts_with p1 l2) as [[|x t]|]; [exact IH' | | congruence].
  destruct (existsb _ _); [discriminate | exact IH'].
Qed.

(* The explicit panic of validatePolyNotInsidePoly ("already established that boundaries only
   intersect at points") is unreachable in the model: once the first pass (boundary_inter) has
   found no overlapping pair of boundary lines, neither direction of the second pass finds one.
   This holds because the model computes with exact rationals; the Go code computes the same
   predicates in float64, where it is false for huge ordinates (F33). *)
Theorem slow_case_panic_unreachable_lemma bi bj :
  Forall nondeg bi -> Forall nondeg bj -> snd (boundary_inter bi bj) = false ->
  poly_not_inside_poly bi bj <> Some RPanic /\ poly_not_inside_poly bj bi <> Some RPanic.
Proof.
  intros Ni Nj H. pose proof (boundary_inter_no_overlap bi bj H) as N. split.
  - apply poly_not_inside_poly_total. exact N.
  - apply poly_not_inside_poly_total. intros l1 l2 H1 H2. apply no_overlap_sym.
    + exact (proj1 (Forall_forall _ _) Ni l2 H2).
    + exact (proj1 (Forall_forall _ _) Nj l1 H1).
    + exact (N l2 l1 H2 H1).
Qed.
