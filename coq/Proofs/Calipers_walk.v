(* Property C13 - the rotating-calipers walk of geom/alg_rotating_calipers.go (findMBR /
   caliper.update, transcribed as Model/Calipers.v:walk_candidates) reaches, for every base edge
   of a strictly convex counter-clockwise ring, exactly the extreme projections that the
   reference semantics [candidates] takes over all ring vertices.  Hence every theorem about
   [candidates] / [find_mbr] is a theorem about the walked candidates. *)
From Coq Require Import ZArith QArith List Bool Lia Arith.
From SF Require Import Base.GeomAST Model.Hull Model.Calipers Proofs.Hull_proofs Proofs.Hull_chain
  Proofs.Hull_ring Proofs.Hull_idem Proofs.Hull_main Proofs.Calipers_proofs.
Import ListNotations.
Open Scope Z_scope.

Definition vx (p q : pt) : Z := fst p * snd q - snd p * fst q.

Lemma cross_vx a b c : cross a b c = vx (sub b a) (sub c b).
Proof. unfold cross, vx, sub. cbn [fst snd]. ring. Qed.

(* at a vertex b with a strict left turn a,b,c, every point v on or left of both edges a->b and
   b->c lies in the cone at b: if u does not descend along a->b and descends along b->c, no
   such v is farther along u than b *)
Lemma cone_max a b c v u :
  0 < cross a b c -> 0 <= cross a b v -> 0 <= cross b c v ->
  0 <= dot (sub b a) u -> dot (sub c b) u < 0 -> dot (sub v b) u <= 0.
Proof.
  destruct a as [ax ay], b as [bx b_y], c as [cx cy], v as [vx0 vy0], u as [ux uy].
  unfold cross, dot, sub. cbn [fst snd]. intros HD H1 H2 H3 H4.
  assert (E : ((bx - ax) * (cy - b_y) - (b_y - ay) * (cx - bx)) * ((vx0 - bx) * ux + (vy0 - b_y) * uy)
              = ((bx - ax) * (vy0 - b_y) - (b_y - ay) * (vx0 - bx)) * ((cx - bx) * ux + (cy - b_y) * uy)
                - ((cx - bx) * (vy0 - cy) - (cy - b_y) * (vx0 - cx)) * ((bx - ax) * ux + (b_y - ay) * uy)) by ring.
  nia.
Qed.

(* Lagrange: (p x q)(u x w) = (p.u)(q.w) - (p.w)(q.u).  A vertex that is a strict local maximum
   for u is not strictly inside a descent for any w counter-clockwise of u *)
Lemma good_transfer p q u w :
  0 <= dot p u -> dot q u < 0 -> 0 < vx p q -> 0 < vx u w -> 0 <= dot p w \/ 0 <= dot q w.
Proof.
  destruct p as [px py], q as [qx qy], u as [ux uy], w as [wx wy].
  unfold dot, vx. cbn [fst snd]. intros H1 H2 H3 H4.
  assert (E : (px * qy - py * qx) * (ux * wy - uy * wx)
              = (px * ux + py * uy) * (qx * wx + qy * wy) - (px * wx + py * wy) * (qx * ux + qy * uy)) by ring.
  nia.
Qed.

(* two non-parallel vectors cannot both be perpendicular to a non-zero vector *)
Lemma perp_zero a b u : dot a u = 0 -> dot b u = 0 -> vx a b <> 0 -> u = (0, 0).
Proof.
  destruct a as [ax ay], b as [bx b_y], u as [ux uy]. unfold dot, vx. cbn [fst snd]. intros H1 H2 H3.
  assert (E1 : (ax * b_y - ay * bx) * ux = (ax * ux + ay * uy) * b_y - (bx * ux + b_y * uy) * ay) by ring.
  assert (E2 : (ax * b_y - ay * bx) * uy = (bx * ux + b_y * uy) * ax - (ax * ux + ay * uy) * bx) by ring.
  rewrite H1, H2 in E1, E2.
  assert (ux = 0) by nia. assert (uy = 0) by nia. subst; reflexivity.
Qed.

Lemma dot_sub_diff a b off u : dot (sub b off) u - dot (sub a off) u = dot (sub b a) u.
Proof. unfold dot, sub. cbn [fst snd]. ring. Qed.


Lemma last_nth_len {A} (l : list A) d : last l d = nth (length l - 1) l d.
Proof.
  induction l as [|x l IH]; [reflexivity|]. destruct l as [|y l]; [reflexivity|].
  change (last (x :: y :: l) d) with (last (y :: l) d). rewrite IH.
  cbn [length Nat.sub nth]. rewrite Nat.sub_0_r. reflexivity.
Qed.

Lemma ring_edges_seq (l : list pt) d :
  ring_edges l = map (fun j => (nth j l d, nth (S j) l d)) (seq 0 (length l - 1)).
Proof.
  induction l as [|x l IH]; [reflexivity|]. destruct l as [|y t]; [reflexivity|].
  rewrite ring_edges_cons2, IH. cbn [length Nat.sub]. rewrite Nat.sub_0_r.
  cbn [seq map]. f_equal. rewrite <- seq_shift, map_map. reflexivity.
Qed.
Lemma ring_edges_nth (l : list pt) d j : (S j < length l)%nat -> In (nth j l d, nth (S j) l d) (ring_edges l).
Proof.
  intros H. rewrite (ring_edges_seq l d). apply (in_map (fun j => (nth j l d, nth (S j) l d))), in_seq. lia.
Qed.


Lemma mono_or_descent (g : nat -> Z) k :
  (forall a b, (a <= b <= k)%nat -> g a <= g b) \/ (exists j, (j < k)%nat /\ g (S j) < g j).
Proof.
  induction k as [|k [IH|[j [Hj Hd]]]]; [left; intros a b H; replace b with a by lia; lia| |].
  - destruct (Z_lt_le_dec (g (S k)) (g k)) as [Hd|Hd]; [right; exists k; split; [lia|exact Hd]|].
    left. intros a b H. destruct (Nat.eq_dec b (S k)) as [->|Hn]; [|apply IH; lia].
    destruct (Nat.eq_dec a (S k)) as [->|Hn]; [lia|]. specialize (IH a k). lia.
  - right. exists j. split; [lia|exact Hd].
Qed.

(* A strictly convex counter-clockwise closed ring, by position *)

Definition ring_convex (ring : list pt) : Prop :=
  strictly_convex_ring ring = true /\
  (forall a b v, In (a, b) (ring_edges ring) -> In v ring -> 0 <= cross a b v).

Section Ring.
  Variable ring : list pt.
  Hypothesis Hrc : ring_convex ring.

  Let n := length ring.
  Let m := (n - 1)%nat.
  Definition P (j : nat) : pt := nth j ring (0, 0).
  Definition predidx (k : nat) : nat := if Nat.eqb k 0 then (m - 1)%nat else (k - 1)%nat.

  (* strictly_convex_ring read by position: positions 0..m, the last one closing the ring *)
  Lemma F_parts : (4 <= n)%nat /\ P m = P 0 /\ strict_turns (ring ++ [P 1]) = true.
  Proof.
    destruct (strictly_convex_ring_parts ring (proj1 Hrc)) as (v0 & v1 & rest & E & Hl & Hn & _ & Ht).
    split; [exact Hn|]. unfold P, m, n. rewrite (last_nth_len ring v0) in Hl.
    rewrite (nth_indep ring (0, 0) v0), Hl by lia.
    replace (nth 0 ring (0, 0)) with v0 by (rewrite E; reflexivity).
    replace (nth 1 ring (0, 0)) with v1 by (rewrite E; reflexivity). split; [reflexivity|exact Ht].
  Qed.

  Lemma F_len : (4 <= n)%nat.
  Proof. exact (proj1 F_parts). Qed.
  Lemma F_n : n = S m.
  Proof. pose proof F_len. unfold m. lia. Qed.
  Lemma F_close : P m = P 0.
  Proof. exact (proj1 (proj2 F_parts)). Qed.

  Lemma F_nth j : (j <= m)%nat -> nth_error ring j = Some (P j).
  Proof. intros H. apply nth_error_nth'. pose proof F_n. fold n. lia. Qed.
  Lemma F_in j : (j <= m)%nat -> In (P j) ring.
  Proof. intros H. exact (nth_error_In _ _ (F_nth j H)). Qed.
  Lemma F_ext j : (j <= m)%nat -> nth_error (ring ++ [P 1]) j = Some (P j).
  Proof. intros H. rewrite nth_error_app1; [apply F_nth, H|]. pose proof F_n. fold n. lia. Qed.

  Lemma F_turn j : (S (S j) <= m)%nat -> 0 < cross (P j) (P (S j)) (P (S (S j))).
  Proof. intros H. apply (strict_turns_nth _ (proj2 (proj2 F_parts)) j); apply F_ext; lia. Qed.

  (* the wrap-around triple is the last one of the ring extended by its second vertex *)
  Lemma F_wrap : 0 < cross (P (m - 1)) (P 0) (P 1).
  Proof.
    pose proof F_len. pose proof F_n as En. rewrite <- F_close.
    apply (strict_turns_nth _ (proj2 (proj2 F_parts)) (m - 1)); [apply F_ext; lia| |].
    - replace (S (m - 1)) with m by lia. apply F_ext. lia.
    - replace (S (S (m - 1))) with n by lia. unfold n. rewrite nth_error_app2, Nat.sub_diag by lia. reflexivity.
  Qed.

  Lemma F_edge j : (j < m)%nat -> In (P j, P (S j)) (ring_edges ring).
  Proof. intros H. apply ring_edges_nth. pose proof F_n. fold n. lia. Qed.

  Lemma predidx_S k : predidx (S k) = k.
  Proof. unfold predidx. simpl. apply Nat.sub_0_r. Qed.
  Lemma predidx_m : predidx m = predidx 0.
  Proof. pose proof F_len. pose proof F_n. unfold predidx. destruct m; [lia|reflexivity]. Qed.

  Lemma F_predturn k : (k < m)%nat -> 0 < cross (P (predidx k)) (P k) (P (S k)).
  Proof. intros Hk. destruct k as [|k]; [apply F_wrap|]. rewrite predidx_S. apply F_turn. lia. Qed.
  Lemma F_prededge k : (k < m)%nat -> In (P (predidx k), P k) (ring_edges ring).
  Proof.
    intros Hk. destruct k as [|k]; [|rewrite predidx_S; apply F_edge; lia].
    pose proof F_len. pose proof F_n. change (predidx 0) with (m - 1)%nat. rewrite <- F_close.
    replace m with (S (m - 1)) at 2 by lia. apply F_edge. lia.
  Qed.
  Lemma F_cover a b v : In (a, b) (ring_edges ring) -> In v ring -> 0 <= cross a b v.
  Proof. destruct Hrc as [_ H]. apply H. Qed.
  Lemma F_predidx_le k : (k <= m)%nat -> (predidx k <= m)%nat.
  Proof. unfold predidx. destruct (Nat.eqb k 0); lia. Qed.

  (* a vertex that does not descend from its predecessor and descends to its successor is a
     global maximum of the projection *)
  Lemma local_max_global u k : (k < m)%nat ->
    0 <= dot (sub (P k) (P (predidx k))) u -> dot (sub (P (S k)) (P k)) u < 0 ->
    forall v, In v ring -> dot (sub v (P k)) u <= 0.
  Proof.
    intros Hk H1 H2 v Hv.
    apply (cone_max (P (predidx k)) (P k) (P (S k)) v u); auto.
    - apply F_predturn; exact Hk.
    - apply F_cover; [apply F_prededge; exact Hk|exact Hv].
    - apply F_cover; [apply F_edge; exact Hk|exact Hv].
  Qed.

  (* One caliper: caliper.update *)

  (* k is a strict local (hence global) maximum of the projection on u *)
  Definition LM (u : pt) (k : nat) : Prop :=
    (k < m)%nat /\ 0 <= dot (sub (P k) (P (predidx k))) u /\ dot (sub (P (S k)) (P k)) u < 0.
  (* s is an admissible start for direction w: not strictly inside a descent *)
  Definition Good (w : pt) (s : nat) : Prop :=
    (s < m)%nat /\ (0 <= dot (sub (P s) (P (predidx s))) w \/ 0 <= dot (sub (P (S s)) (P s)) w).

  Section Caliper.
    Variables off u : pt.
    Let f (j : nat) : Z := dot (sub (P j) off) u.

    Lemma f_diff a b : f b - f a = dot (sub (P b) (P a)) u.
    Proof. unfold f. apply dot_sub_diff. Qed.
    Lemma f_close : f m = f 0%nat.
    Proof. unfold f. rewrite F_close. reflexivity. Qed.


    Lemma loop_step fuel idx : (idx <= m)%nat ->
      caliper_loop (S fuel) ring n off u idx (f idx) =
        let j := if Nat.eqb idx m then 0%nat else S idx in
        if f j <? f idx then Some (idx, f idx) else caliper_loop fuel ring n off u j (f j).
    Proof.
      intros H. pose proof F_len. cbn [caliper_loop].
      destruct (Nat.eqb_spec idx m) as [->|Nm].
      - rewrite <- F_n, Nat.mod_same, (F_nth 0) by lia. reflexivity.
      - rewrite Nat.mod_small, (F_nth (S idx)) by (rewrite ?F_n; lia). reflexivity.
    Qed.

    Hypothesis Hu : u <> (0, 0).

    (* termination: some edge descends; otherwise the projection is constant along the closed
       ring, so u is perpendicular to two consecutive edges, which are not parallel *)
    Lemma descent_exists : exists j, (j < m)%nat /\ f (S j) < f j.
    Proof.
      destruct (mono_or_descent f m) as [Hle|H]; [exfalso|exact H].
      pose proof F_len. pose proof F_n. pose proof f_close as Em.
      pose proof (Hle 0%nat 1%nat). pose proof (Hle 1%nat 2%nat). pose proof (Hle 2%nat m).
      apply Hu. apply (perp_zero (sub (P 1) (P 0)) (sub (P 2) (P 1))).
      - rewrite <- f_diff. lia.
      - rewrite <- f_diff. lia.
      - rewrite <- cross_vx. pose proof (F_turn 0). lia.
    Qed.

    (* from a position that was reached going up, or a level start, the loop stops at the first
       descent, at the latest at a known one jd, and only where it came up and goes down *)
    Lemma loop_spec jd : (jd < m)%nat -> f (S jd) < f jd ->
      forall fuel idx, (idx <= m)%nat ->
      (f (predidx idx) <= f idx \/ ((idx < m)%nat /\ f idx <= f (S idx))) ->
      (fuel > (if Nat.leb idx jd then jd - idx else jd + n - idx))%nat ->
      exists k, caliper_loop fuel ring n off u idx (f idx) = Some (k, f k) /\ LM u k.
    Proof.
      intros Hjd Hdesc. induction fuel as [|fuel IH]; intros idx Hidx Hg Hfuel; [lia|].
      rewrite loop_step by exact Hidx. pose proof F_n as En.
      destruct (Nat.eqb_spec idx m) as [->|Nm]; cbv zeta iota.
      - (* at the closing duplicate: the next position is the same point *)
        rewrite <- f_close, Z.ltb_irrefl, f_close. apply IH; [lia| |].
        + left. rewrite <- predidx_m, <- f_close. destruct Hg as [Hg|[Hlt _]]; [exact Hg|lia].
        + revert Hfuel. destruct (Nat.leb_spec m jd); [lia|]. simpl Nat.leb. cbv iota. lia.
      - destruct (Z.ltb_spec (f (S idx)) (f idx)) as [Hd|Hd].
        + exists idx. split; [reflexivity|]. split; [lia|].
          rewrite <- !f_diff. destruct Hg as [Hg|[_ Hg]]; lia.
        + assert (idx <> jd) by (intros ->; lia). apply IH; [lia| |].
          * left. rewrite predidx_S. exact Hd.
          * revert Hfuel. destruct (Nat.leb_spec idx jd), (Nat.leb_spec (S idx) jd); lia.
    Qed.

    (* caliper.update from an admissible start ends at a global maximum of the projection *)
    Lemma update_spec s : Good u s ->
      exists k, caliper_update ring n off u s = Some (k, f k) /\ LM u k.
    Proof.
      intros [Hs Hg]. unfold caliper_update. rewrite (F_nth s) by lia. fold (f s).
      destruct descent_exists as [jd [Hjd Hdesc]].
      apply (loop_spec jd Hjd Hdesc); [lia| |].
      - rewrite <- !f_diff in Hg. destruct Hg; [left|right]; lia.
      - pose proof F_n. destruct (Nat.leb s jd); lia.
    Qed.

    Lemma LM_max k : LM u k -> forall v, In v ring -> dot (sub v off) u <= f k.
    Proof.
      intros [Hk [H1 H2]] v Hv. pose proof (local_max_global u k Hk H1 H2 v Hv) as H.
      unfold f. rewrite <- (dot_sub_diff (P k) v off u) in H. lia.
    Qed.
  End Caliper.

  (* a strict local maximum for u is an admissible start for every w counter-clockwise of u *)
  Lemma LM_Good u w k : LM u k -> 0 < vx u w -> Good w k.
  Proof.
    intros [Hk [H1 H2]] Hc. split; [exact Hk|].
    apply (good_transfer _ _ u w H1 H2); [|exact Hc].
    rewrite <- cross_vx. apply F_predturn. exact Hk.
  Qed.
End Ring.

(* The three calipers over all base edges: findMBR *)

Lemma vx_rot90 a b : vx (rot90 a) (rot90 b) = vx a b.
Proof. unfold vx, rot90. cbn [fst snd]. ring. Qed.
Lemma vx_neg a b : vx (neg a) (neg b) = vx a b.
Proof. unfold vx, neg. cbn [fst snd]. ring. Qed.
Lemma vx_d_rot90 d : vx d (rot90 d) = dot d d.
Proof. unfold vx, rot90, dot. cbn [fst snd]. ring. Qed.
(* xy.go:rotate180 is rotateCCW90 twice *)
Lemma neg_rot90 d : neg d = rot90 (rot90 d).
Proof. reflexivity. Qed.
Lemma rot90_nz d : d <> (0, 0) -> rot90 d <> (0, 0).
Proof. destruct d as [x y]. unfold rot90. cbn [fst snd]. intros H E. inversion E. apply H. f_equal; lia. Qed.
Lemma dot_neg w d : dot w (neg d) = - dot w d.
Proof. unfold dot, neg. cbn [fst snd]. ring. Qed.

Section Walk.
  Variable ring : list pt.
  Hypothesis Hrc : ring_convex ring.
  Let n := length ring.
  Let m := (n - 1)%nat.
  Let Pt := P ring.
  Let e (j : nat) : pt := sub (Pt (S j)) (Pt j).

  Lemma e_nz j : (j < m)%nat -> e j <> (0, 0).
  Proof.
    intros Hj. apply sub_nz. intros E. pose proof (F_predturn ring Hrc j Hj) as T. fold Pt in T.
    rewrite <- E, cross_abb in T. lia.
  Qed.

  Lemma e_turn j : (S j < m)%nat -> 0 < vx (e j) (e (S j)).
  Proof. intros Hj. unfold e. rewrite <- cross_vx. apply (F_turn ring Hrc j). fold n m. lia. Qed.

  (* what the three caliper indices are before base edge i *)
  Definition WInv (i r f l : nat) : Prop :=
    match i with
    | O => r = 0%nat
    | S i' => LM ring (e i') r /\ LM ring (rot90 (e i')) f /\ LM ring (neg (e i')) l
    end.

  (* the extreme of the previous edge is an admissible start for the next one, for each of the
     three calipers: their directions turn with the edge *)
  Lemma next_Good (phi : pt -> pt) i x : (forall a b, vx (phi a) (phi b) = vx a b) ->
    (S i < m)%nat -> LM ring (phi (e i)) x -> Good ring (phi (e (S i))) x.
  Proof. intros Hphi Hi L. apply (LM_Good ring Hrc _ _ _ L). rewrite Hphi. apply e_turn, Hi. Qed.

  (* caliper.update returns the extreme that [candidate] takes over all vertices *)
  Lemma update_max a u s : In a ring -> u <> (0, 0) -> Good ring u s ->
    exists k, caliper_update ring n a u s = Some (k, fold_right Z.max 0 (map (fun v => dot (sub v a) u) ring)) /\
              LM ring u k.
  Proof.
    intros Ha Hu G. destruct (update_spec ring Hrc a u Hu s G) as [k [E L]]. exists k. split; [|exact L].
    fold n in E. rewrite E. f_equal. f_equal. pose proof (LM_max ring Hrc a u k L) as Hub. apply Z.le_antisymm.
    - apply (fold_max_ge (fun v => dot (sub v a) u)), F_in; [exact Hrc|]. destruct L as [Hk _]. fold n m. lia.
    - destruct (fold_max_cases (map (fun v => dot (sub v a) u) ring)) as [->|Hin].
      + rewrite <- (dot_self_sub a u). apply Hub, Ha.
      + apply in_map_iff in Hin. destruct Hin as [v [<- Hv]]. apply Hub, Hv.
  Qed.

  Theorem walk_edges_spec : forall k i r f l,
    (i + k = m)%nat -> WInv i r f l ->
    walk_edges ring n i k r f l =
      Some (map (candidate ring) (map (fun j => (Pt j, Pt (S j))) (seq i k))).
  Proof.
    induction k as [|k IH]; intros i r f l Hik Hinv; [reflexivity|].
    assert (Hi : (i < m)%nat) by lia.
    pose proof (F_n ring Hrc) as En. fold n m in En.
    cbn [walk_edges].
    rewrite (F_nth ring Hrc i) by (fold n m; lia). rewrite (F_nth ring Hrc (S i)) by (fold n m; lia).
    cbv zeta. fold Pt. fold (e i).
    set (a := Pt i). set (d := e i).
    assert (Hd : d <> (0, 0)) by (apply e_nz; exact Hi).
    assert (Hdd : 0 < dot d d) by (apply sq_pos, Hd).
    assert (Ia : In a ring) by (apply F_in; [exact Hrc|fold n m; lia]).
    (* rhs: starts at 0 on the first edge, whose direction ascends from P 0 to P 1 *)
    assert (G1 : Good ring d r).
    { destruct i as [|i']; [|apply (next_Good (fun p => p)); [reflexivity|lia|apply Hinv]].
      simpl in Hinv. subst r. split; [fold n m; lia|]. right. fold Pt. fold (e 0%nat). fold d. lia. }
    destruct (update_max a d r Ia Hd G1) as [r' [-> Lr]].
    (* far: on the first edge it starts where rhs stopped *)
    assert (G2 : Good ring (rot90 d) (if Nat.eqb i 0 then r' else f)).
    { destruct i as [|i']; [|apply (next_Good rot90 _ _ vx_rot90); [lia|apply Hinv]].
      apply (LM_Good ring Hrc d _ _ Lr). rewrite vx_d_rot90. exact Hdd. }
    destruct (update_max a (rot90 d) _ Ia (rot90_nz d Hd) G2) as [f' [-> Lf]].
    (* lhs: on the first edge it starts where far stopped *)
    assert (G3 : Good ring (neg d) (if Nat.eqb i 0 then f' else l)).
    { destruct i as [|i']; [|apply (next_Good neg _ _ vx_neg); [lia|apply Hinv]].
      apply (LM_Good ring Hrc (rot90 d) _ _ Lf). rewrite neg_rot90, vx_d_rot90, dot_rot90_rot90. exact Hdd. }
    destruct (update_max a (neg d) _ Ia (rot90_nz _ (rot90_nz d Hd)) G3) as [l' [-> Ll]].
    (* the remaining edges *)
    rewrite (IH (S i) r' f' l'); [|lia|simpl; auto].
    cbn [seq map]. f_equal. f_equal.
    unfold candidate. cbn [fst snd]. fold Pt a (e i) d. f_equal.
    rewrite fold_min_neg_max. f_equal. f_equal. apply map_ext. intros v. apply dot_neg.
  Qed.

  (* findMBR's walk computes exactly the reference candidates *)
  Theorem walk_candidates_correct : walk_candidates ring = Some (candidates ring).
  Proof.
    unfold walk_candidates, candidates. fold n. fold m.
    rewrite (walk_edges_spec m 0 0 0 0); [|lia|reflexivity].
    rewrite (ring_edges_seq ring (0, 0)). fold n m. reflexivity.
  Qed.
End Walk.

(* Corollaries for the hull ring *)

Lemma hull_ring_convex ps ring : hull_pts ps = HPoly ring -> ring_convex ring.
Proof.
  intros E. pose proof (hull_cases_lemma ps) as Hc. rewrite E in Hc. destruct Hc as [Hsc Hincl].
  split; [exact Hsc|]. intros a b v He Hv. eapply hull_covers_lemma; eauto.
Qed.

(* one caliper, stated on its own: from an admissible start index, caliper.update terminates and
   its index is a vertex attaining the maximum of the projection over the whole ring *)
Theorem caliper_update_reaches_max_lemma : forall ring off u s,
  ring_convex ring -> u <> (0, 0) -> Good ring u s ->
  exists k, caliper_update ring (length ring) off u s = Some (k, dot (sub (P ring k) off) u) /\
            In (P ring k) ring /\ forall v, In v ring -> dot (sub v off) u <= dot (sub (P ring k) off) u.
Proof.
  intros ring off u s Hrc Hu Hg. destruct (update_spec ring Hrc off u Hu s Hg) as [k [E L]].
  exists k. split; [exact E|]. split.
  - apply F_in; [exact Hrc|]. destruct L as [Hk _]. lia.
  - apply (LM_max ring Hrc off u k L).
Qed.

(* findMBR as written: walk, then "first strictly smaller metric wins" *)
Definition walked_mbr (k : metric_kind) (ring : list pt) : option cand :=
  match walk_candidates ring with
  | Some (c :: r) => Some (first_min k c r)
  | _ => None
  end.

Theorem walked_mbr_is_find_mbr_lemma : forall k ps ring,
  hull_pts ps = HPoly ring -> walked_mbr k ring = find_mbr k ring /\ exists c, find_mbr k ring = Some c.
Proof.
  intros k ps ring E. pose proof (hull_ring_convex ps ring E) as Hrc.
  unfold walked_mbr. rewrite (walk_candidates_correct ring Hrc). unfold find_mbr. split; [reflexivity|].
  apply find_mbr_some.
  pose proof (F_len ring Hrc). destruct ring as [|a [|b t]]; simpl in *; try lia. discriminate.
Qed.

Theorem walked_mbr_is_min_lemma : forall k ps ring c,
  hull_pts ps = HPoly ring -> walked_mbr k ring = Some c ->
  exists cs, walk_candidates ring = Some cs /\ In c cs /\
             (forall c', In c' cs -> (cand_metric k c <= cand_metric k c')%Q) /\
             (forall c' v, In c' cs -> In v ring -> rect_contains (rect_corners (cand_rect c')) (q_of_pt v) = true).
Proof.
  intros k ps ring c E Hw. pose proof (hull_ring_convex ps ring E) as Hrc.
  destruct (walked_mbr_is_find_mbr_lemma k ps ring E) as [Eq _]. rewrite Eq in Hw.
  destruct (mbr_is_min_candidate_lemma k ring c Hw) as [Hin Hmin].
  exists (candidates ring). split; [apply walk_candidates_correct; exact Hrc|]. split; [exact Hin|]. split; [exact Hmin|].
  intros c' v Hc' Hv. eapply cand_rect_covers_lemma; eauto.
Qed.
