(* Property C09, third part: completeness of Intersects for polygon against polygon.
   If no ring edge of A meets a ring edge of B and the two polygons share a point, then the start
   vertex of one shell lies in the other polygon (the two probes of hasIntersectionPolygonWithPolygon).
   Ingredients: parity constancy along ring-avoiding segments (Intersects_areal.path_parity), the
   leftmost hit of a horizontal segment with a finite family of edges (no continuity), and three
   consequences for closed rings with disjoint boundaries: mutual containment is impossible,
   containment is transitive, mutually exterior rings have disjoint interiors. *)
From Coq Require Import QArith Qabs Qround Qreduction List Bool ZArith Lia Lqa Setoid Morphisms.
From SF Require Import Base.GeomAST Base.QKernel Base.Planar Proofs.Planar_proofs
  Proofs.Planar_slab_base Proofs.Planar_slab
  Model.Intersects Model.Distance Proofs.Intersects_proofs Proofs.Distance_proofs Proofs.Distance_lower
  Proofs.Intersects_areal.
Import ListNotations.
Open Scope Q_scope.

(* ================================================================ crossings lie to the right *)
Lemma cross_pos_right a b q : snd a <= snd q -> snd q < snd b -> 0 < cross a b q -> fst q < fst a \/ fst q < fst b.
Proof.
  unfold cross. intros Ya Yb H.
  destruct (Qlt_le_dec (fst q) (fst a)) as [K|K]; [left; exact K|].
  destruct (Qlt_le_dec (fst q) (fst b)) as [K'|K']; [right; exact K'|]. exfalso.
  destruct (Qlt_le_dec (fst a) (fst b)); nra.
Qed.

Lemma edge_cross_right a b q : edge_cross a b q = true -> fst q < fst a \/ fst q < fst b.
Proof.
  unfold edge_cross.
  destruct (Qle_bool (snd a) (snd q)) eqn:Ya; destruct (Qle_bool (snd b) (snd q)) eqn:Yb; cbn [Bool.eqb]; try discriminate;
    rewrite qltb_iff; intros H.
  - apply Qle_bool_iff in Ya. apply Qle_bool_false_iff in Yb. apply (cross_pos_right a b q); assumption.
  - apply Qle_bool_false_iff in Ya. apply Qle_bool_iff in Yb. apply or_comm. apply (cross_pos_right b a q); assumption.
Qed.

Lemma parity_true_right es q :
  edges_parity es q = true -> exists e, In e es /\ (fst q < fst (fst e) \/ fst q < fst (snd e)).
Proof.
  induction es as [|e es IH]; [discriminate|]. rewrite edges_parity_cons. intros H.
  destruct (edge_cross (fst e) (snd e) q) eqn:E.
  - exists e. split; [left; reflexivity | apply edge_cross_right; exact E].
  - simpl in H. assert (H' : edges_parity es q = true) by (destruct (edges_parity es q); [reflexivity | discriminate]).
    destruct (IH H') as [e' [He' K]]. exists e'. split; [right; exact He' | exact K].
Qed.

(* the end point with the largest abscissa *)
Lemma max_endpoint (E : list seg) : E <> [] ->
  exists v, on_edges E v = true /\ forall e, In e E -> fst (fst e) <= fst v /\ fst (snd e) <= fst v.
Proof.
  induction E as [|[a b] E IH]; [congruence|]. intros _.
  assert (Hab : exists m, (m = a \/ m = b) /\ fst a <= fst m /\ fst b <= fst m).
  { destruct (Qlt_le_dec (fst a) (fst b)); [exists b | exists a]; (split; [auto | split; lra]). }
  destruct Hab as [m [Hm [Ma Mb]]].
  assert (Om : on_seg (a, b) m = true) by (destruct Hm as [->| ->]; [apply on_seg_left | apply on_seg_right]).
  destruct E as [|e' E'].
  - exists m. split; [unfold on_edges; cbn [existsb]; rewrite Om; reflexivity|].
    intros e [<-|[]]. cbn [fst snd]. split; assumption.
  - destruct (IH ltac:(discriminate)) as [v [Ov Hv]].
    destruct (Qlt_le_dec (fst v) (fst m)) as [L|L].
    + exists m. split; [unfold on_edges; cbn [existsb]; rewrite Om; reflexivity|].
      intros e [<-|He]; [cbn [fst snd]; split; assumption|]. destruct (Hv e He). split; lra.
    + exists v. split; [unfold on_edges in *; cbn [existsb] in *; rewrite Ov; apply orb_true_r|].
      intros e [<-|He]; [cbn [fst snd]; split; lra | apply Hv; exact He].
Qed.

(* an abscissa to the right of q and of every end point *)
Lemma far_abscissa (es : list seg) (q : pt) : exists M, fst q < M /\ forall e, In e es -> fst (fst e) < M /\ fst (snd e) < M.
Proof.
  destruct (max_endpoint ((q, q) :: es) ltac:(discriminate)) as [v [_ Hv]]. exists (fst v + 1). split.
  - destruct (Hv (q, q) (or_introl eq_refl)) as [H _]. cbn [fst] in H. lra.
  - intros e He. destruct (Hv e (or_intror He)). split; lra.
Qed.

Lemma seg_meet_iff e T : seg_meet e T = true <-> exists w, on_seg e w = true /\ on_seg T w = true.
Proof.
  unfold seg_meet. rewrite <- seg_seg_nonempty_iff. destruct (seg_seg e T); split; intros H; try reflexivity; try discriminate; try congruence.
Qed.

Lemma no_meet_avoids es T : existsb (fun e => seg_meet e T) es = false -> avoids es T.
Proof.
  intros H e He w Hw. assert (X : seg_meet e T = true) by (apply seg_meet_iff; eauto).
  rewrite (proj1 (existsb_false_iff _ _) H e He) in X. discriminate.
Qed.

(* ================================================================ the leftmost hit of a horizontal segment *)
Section Hit.
  Variable q : pt.
  Variable M : Q.
  Hypothesis HM : fst q < M.
  Let T : seg := (q, (M, snd q)).

  Lemma on_T w : on_seg T w = true <-> snd w == snd q /\ fst q <= fst w <= M.
  Proof.
    unfold T, on_seg. cbn [fst snd]. rewrite !andb_true_iff, !qbetween_iff, Qeq_bool_iff. unfold cross; cbn [fst snd].
    split.
    - intros [[Hx Hy] Hc]. split; [lra | destruct Hx; lra].
    - intros [Hy Hx]. split; [split|].
      + left. lra.
      + left. lra.
      + rewrite Hy. ring.
  Qed.

  Lemma single_leftmost e :
    (exists w, on_seg e w = true /\ on_seg T w = true) ->
    exists a, on_seg e a = true /\ on_seg T a = true /\
      forall w, on_seg e w = true -> on_seg T w = true -> fst a <= fst w.
  Proof.
    destruct e as [a b]. intros [w0 [He0 HT0]]. pose proof HT0 as HT0'. apply on_T in HT0'. destruct HT0' as [Y0 [X0 X1]].
    destruct (Qeq_dec (snd a) (snd b)) as [Eh|Nh].
    - (* horizontal edge at the height of q *)
      pose proof He0 as He0'. unfold on_seg in He0'. rewrite !andb_true_iff, !qbetween_iff, Qeq_bool_iff in He0'.
      destruct He0' as [[Hx0 Hy0] Hc0].
      assert (Ya : snd a == snd q) by (destruct Hy0; lra).
      set (mn := if Qlt_le_dec (fst a) (fst b) then fst a else fst b).
      assert (Hmn : mn <= fst a /\ mn <= fst b /\ (mn == fst a \/ mn == fst b)).
      { unfold mn. destruct (Qlt_le_dec (fst a) (fst b)); repeat split; try lra; try (left; reflexivity); try (right; reflexivity). }
      set (xl := if Qlt_le_dec (fst q) mn then mn else fst q).
      assert (Hxl : fst q <= xl /\ mn <= xl /\ (xl == mn \/ xl == fst q)).
      { unfold xl. destruct (Qlt_le_dec (fst q) mn); repeat split; try lra; try (left; reflexivity); try (right; reflexivity). }
      destruct Hmn as [M1 [M2 M3]]. destruct Hxl as [L1 [L2 L3]].
      assert (W0 : mn <= fst w0) by (destruct Hx0; lra).
      exists (xl, snd q). split; [|split].
      + unfold on_seg. cbn [fst snd]. rewrite !andb_true_iff, !qbetween_iff, Qeq_bool_iff. unfold cross; cbn [fst snd].
        split; [split|].
        * destruct L3 as [L3|L3]; destruct Hx0 as [Hx0|Hx0]; destruct M3 as [M3|M3]; first [left; lra | right; lra].
        * left. lra.
        * rewrite Ya, <- Eh, Ya. ring.
      + apply on_T. cbn [fst snd]. split; [reflexivity|]. split; [lra|]. destruct L3; lra.
      + intros w Hw HTw. apply on_T in HTw. destruct HTw as [_ [Xw _]].
        unfold on_seg in Hw. rewrite !andb_true_iff, !qbetween_iff in Hw. destruct Hw as [[Hxw _] _].
        cbn [fst]. destruct L3 as [L3|L3]; [|lra]. destruct Hxw; lra.
    - (* the edge meets the line y = snd q in one point *)
      exists w0. split; [exact He0|]. split; [exact HT0|]. intros w Hw HTw.
      apply on_T in HTw. destruct HTw as [Yw _].
      unfold on_seg in He0, Hw. rewrite !andb_true_iff, Qeq_bool_iff in He0, Hw.
      destruct He0 as [_ C0], Hw as [_ Cw]. unfold cross in C0, Cw.
      assert (K : (snd b - snd a) * (fst w - fst w0) == 0).
      { transitivity (((fst b - fst a) * (snd w0 - snd a) - (snd b - snd a) * (fst w0 - fst a))
                      - ((fst b - fst a) * (snd w - snd a) - (snd b - snd a) * (fst w - fst a))
                      + (fst b - fst a) * (snd w - snd w0)); [ring|]. rewrite C0, Cw, Yw, Y0. ring. }
      apply Qmult_integral in K. destruct K as [K|K]; [exfalso; apply Nh; lra | lra].
  Qed.

  Lemma leftmost_hit es :
    existsb (fun e => seg_meet e T) es = true ->
    exists a e0, In e0 es /\ on_seg e0 a = true /\ on_seg T a = true /\
      forall e w, In e es -> on_seg e w = true -> on_seg T w = true -> fst a <= fst w.
  Proof.
    induction es as [|e es IH]; [discriminate|]. cbn [existsb]. intros H.
    destruct (existsb (fun e => seg_meet e T) es) eqn:Ees.
    - destruct (IH eq_refl) as [a' [e' [He' [Oa' [Ta' Min']]]]].
      destruct (seg_meet e T) eqn:Ee.
      + apply seg_meet_iff in Ee. destruct (single_leftmost e Ee) as [a [Oa [Ta Min]]].
        destruct (Qlt_le_dec (fst a) (fst a')) as [L|L].
        * exists a, e. split; [left; reflexivity|]. split; [exact Oa|]. split; [exact Ta|].
          intros f w [<-|Hf] Hw HTw; [apply Min; assumption|]. pose proof (Min' f w Hf Hw HTw). lra.
        * exists a', e'. split; [right; exact He'|]. split; [exact Oa'|]. split; [exact Ta'|].
          intros f w [<-|Hf] Hw HTw; [pose proof (Min w Hw HTw); lra | apply (Min' f w Hf Hw HTw)].
      + exists a', e'. split; [right; exact He'|]. split; [exact Oa'|]. split; [exact Ta'|].
        intros f w [<-|Hf] Hw HTw; [|apply (Min' f w Hf Hw HTw)].
        exfalso. assert (X : seg_meet e T = true) by (apply seg_meet_iff; eauto). congruence.
    - rewrite orb_false_r in H. apply seg_meet_iff in H. destruct (single_leftmost e H) as [a [Oa [Ta Min]]].
      exists a, e. split; [left; reflexivity|]. split; [exact Oa|]. split; [exact Ta|].
      intros f w [<-|Hf] Hw HTw; [apply Min; assumption|]. exfalso.
      exact (no_meet_avoids es T Ees f Hf w (conj Hw HTw)).
  Qed.
End Hit.

(* ================================================================ first hit among two edge families *)
Definition no_meet (E1 E2 : list seg) : Prop :=
  forall e f w, In e E1 -> In f E2 -> ~ (on_seg e w = true /\ on_seg f w = true).
Lemma no_meet_sym E1 E2 : no_meet E1 E2 -> no_meet E2 E1.
Proof. intros H e f w He Hf [H1 H2]. apply (H f e w Hf He). auto. Qed.
Lemma no_meet_off E1 E2 x : no_meet E1 E2 -> on_edges E1 x = true -> on_edges E2 x = false.
Proof.
  unfold on_edges. intros NM H. apply existsb_exists in H. destruct H as [e [He H1]].
  apply existsb_false_iff. intros f Hf. destruct (on_seg f x) eqn:H2; [|reflexivity].
  exfalso. apply (NM e f x He Hf). auto.
Qed.

(* parity is kept along segments that avoid the edges: the property of closed rings (path_parity) *)
Definition keeps (E : list seg) : Prop := forall u v, avoids E (u, v) -> edges_parity E u = edges_parity E v.

Lemma on_edges_pt_eq E w w' : pt_eq w w' -> on_edges E w = on_edges E w'.
Proof. exact (on_edges_eq E w w'). Qed.

Lemma first_hit E1 E2 q :
  no_meet E1 E2 -> edges_parity E1 q = true ->
  exists a, (on_edges E1 a = true /\ avoids E2 (q, a)) \/ (on_edges E2 a = true /\ avoids E1 (q, a)).
Proof.
  intros NM Hpar. destruct (far_abscissa (E1 ++ E2) q) as [M [HM Hfar]].
  set (T := (q, (M, snd q))).
  assert (Hmeet : existsb (fun e => seg_meet e T) (E1 ++ E2) = true).
  { destruct (existsb (fun e => seg_meet e T) E1) eqn:E; [rewrite existsb_app, E; reflexivity|]. exfalso.
    rewrite (edges_parity_horizontal E1 q (M, snd q) (reflexivity _) (no_meet_avoids E1 T E)) in Hpar.
    destruct (parity_true_right E1 (M, snd q) Hpar) as [e [He K]]. cbn [fst] in K.
    destruct (Hfar e (in_or_app _ _ _ (or_introl He))). lra. }
  destruct (leftmost_hit q M HM (E1 ++ E2) Hmeet) as [a [e0 [He0 [Oa [Ta Min]]]]].
  assert (Sub : forall w, on_seg (q, a) w = true -> on_seg T w = true /\ pt_eq w a \/ on_seg T w = true /\ fst w < fst a).
  { intros w Hw. assert (HT : on_seg T w = true) by (eapply on_seg_sub; [exact Ta | exact Hw]).
    pose proof Ta as Ta'. apply (on_T q M HM) in Ta'. destruct Ta' as [Ya [Xa _]].
    pose proof HT as HT'. apply (on_T q M HM) in HT'. destruct HT' as [Yw _].
    unfold on_seg in Hw. rewrite !andb_true_iff, !qbetween_iff in Hw. destruct Hw as [[Hx _] _].
    destruct (Qlt_le_dec (fst w) (fst a)) as [L|L]; [right; auto|]. left. split; [exact HT|].
    split; [destruct Hx; lra | lra]. }
  assert (Avoid : forall Eo, (forall f, In f Eo -> In f (E1 ++ E2)) ->
            (forall f, In f Eo -> on_seg f a = false) -> avoids Eo (q, a)).
  { intros Eo Hin Hoff f Hf w [H1 H2]. destruct (Sub w H2) as [[HT E]|[HT L]].
    - rewrite (on_seg_pt_eq f w a E) in H1. rewrite (Hoff f Hf) in H1. discriminate.
    - pose proof (Min f w (Hin f Hf) H1 HT). lra. }
  exists a. apply in_app_or in He0. destruct He0 as [He0|He0].
  - left. split; [unfold on_edges; apply existsb_exists; eauto|].
    apply Avoid; [intros f Hf; apply in_or_app; right; exact Hf|].
    intros f Hf. destruct (on_seg f a) eqn:E; [|reflexivity]. exfalso. apply (NM e0 f a He0 Hf). auto.
  - right. split; [unfold on_edges; apply existsb_exists; eauto|].
    apply Avoid; [intros f Hf; apply in_or_app; left; exact Hf|].
    intros f Hf. destruct (on_seg f a) eqn:E; [|reflexivity]. exfalso. apply (NM f e0 a Hf He0). auto.
Qed.

(* ================================================================ relations between closed rings *)
Definition inside (E1 E2 : list seg) : Prop :=
  forall w, on_edges E1 w = true -> on_edges E2 w = false /\ edges_parity E2 w = true.
Definition outside (E1 E2 : list seg) : Prop :=
  forall w, on_edges E1 w = true -> on_edges E2 w = false /\ edges_parity E2 w = false.
(* all points of E1 look alike from E2 (E1 is a connected path that avoids E2) *)
Definition uniform (E1 E2 : list seg) : Prop :=
  forall w1 w2, on_edges E1 w1 = true -> on_edges E1 w2 = true ->
    on_edges E2 w1 = false /\ edges_parity E2 w1 = edges_parity E2 w2.

Lemma uniform_inside E1 E2 w : uniform E1 E2 -> on_edges E1 w = true -> edges_parity E2 w = true -> inside E1 E2.
Proof. intros U Hw Hp w' Hw'. destruct (U w' w Hw' Hw) as [O P]. split; [exact O | rewrite P; exact Hp]. Qed.
Lemma uniform_outside E1 E2 w : uniform E1 E2 -> on_edges E1 w = true -> edges_parity E2 w = false -> outside E1 E2.
Proof. intros U Hw Hp w' Hw'. destruct (U w' w Hw' Hw) as [O P]. split; [exact O | rewrite P; exact Hp]. Qed.

Lemma endpoint_on E e : In e E -> on_edges E (fst e) = true /\ on_edges E (snd e) = true.
Proof.
  intros He. destruct e as [a b]. cbn [fst snd]. split; unfold on_edges; apply existsb_exists; exists (a, b);
    (split; [exact He|]); [apply on_seg_left | apply on_seg_right].
Qed.

(* two rings cannot each lie inside the other *)
Lemma no_mutual_inside E1 E2 : E1 <> [] -> inside E1 E2 -> inside E2 E1 -> False.
Proof.
  intros Hne I12 I21. destruct (max_endpoint E1 Hne) as [v1 [O1 Max]].
  destruct (I12 v1 O1) as [_ P]. destruct (parity_true_right E2 v1 P) as [f [Hf K]].
  destruct (endpoint_on E2 f Hf) as [Oa Ob].
  destruct K as [K|K].
  - destruct (I21 _ Oa) as [_ P']. destruct (parity_true_right E1 _ P') as [e [He K']].
    destruct (Max e He). destruct K'; lra.
  - destruct (I21 _ Ob) as [_ P']. destruct (parity_true_right E1 _ P') as [e [He K']].
    destruct (Max e He). destruct K'; lra.
Qed.

(* containment is transitive: q strictly inside E2, E2 inside E3  =>  q strictly inside E3 *)
Lemma inside_trans E2 E3 q :
  keeps E2 -> keeps E3 -> no_meet E2 E3 -> uniform E3 E2 -> E2 <> [] ->
  inside E2 E3 -> edges_parity E2 q = true -> edges_parity E3 q = true.
Proof.
  intros K2 K3 NM U Hne I23 Hq. destruct (first_hit E2 E3 q NM Hq) as [a [[Oa Av]|[Oa Av]]].
  - rewrite (K3 q a Av). apply (I23 a Oa).
  - exfalso. assert (P : edges_parity E2 a = true) by (rewrite <- (K2 q a Av); exact Hq).
    apply (no_mutual_inside E2 E3 Hne I23). apply (uniform_inside E3 E2 a U Oa P).
Qed.

(* mutually exterior rings have no common interior point *)
Lemma exterior_disjoint E1 E2 q :
  keeps E1 -> keeps E2 -> no_meet E1 E2 -> outside E1 E2 -> outside E2 E1 ->
  edges_parity E1 q = true -> edges_parity E2 q = true -> False.
Proof.
  intros K1 K2 NM O12 O21 H1 H2. destruct (first_hit E1 E2 q NM H1) as [a [[Oa Av]|[Oa Av]]].
  - destruct (O12 a Oa) as [_ P]. rewrite <- (K2 q a Av) in P. congruence.
  - destruct (O21 a Oa) as [_ P]. rewrite <- (K1 q a Av) in P. congruence.
Qed.

(* ================================================================ rings of polygons *)
Notation E r := (line_segs r).

Lemma ring_keeps r : pts_closed (line_pts r) = true -> keeps (E r).
Proof. intros C u v Hav. apply (path_parity (line_pts r) u v C Hav). Qed.

Lemma ring_wf_shape r : ring_wf r = true ->
  exists a rest, line_pts r = a :: rest /\ rest <> [] /\ E r = ring_edges (a :: rest) /\ on_edges (E r) a = true.
Proof.
  intros W. destruct (ring_wf_pts r W) as [_ Es]. unfold ring_wf in W.
  destruct (line_pts r) as [|a [|b rest]] eqn:Ep; try discriminate.
  exists a, (b :: rest). split; [reflexivity|]. split; [discriminate|]. split; [exact Es|].
  rewrite Es. change (ring_edges (a :: b :: rest)) with ((a, b) :: ring_edges (b :: rest)).
  unfold on_edges. cbn [existsb]. rewrite on_seg_left. reflexivity.
Qed.

Lemma ring_nonempty r : ring_wf r = true -> E r <> [].
Proof.
  intros W. destruct (ring_wf_shape r W) as [a [rest [_ [_ [_ O]]]]]. intros Z. rewrite Z in O. discriminate.
Qed.

Lemma ring_uniform r r' :
  ring_wf r = true -> pts_closed (line_pts r') = true -> no_meet (E r) (E r') -> uniform (E r) (E r').
Proof.
  intros W C NM. destruct (ring_wf_shape r W) as [a [rest [_ [Hne [Es _]]]]].
  assert (Hav : forall e, In e (ring_edges (a :: rest)) -> avoids (E r') e).
  { intros e He f Hf w [H1 H2]. rewrite <- Es in He. apply (NM e f w He Hf). auto. }
  intros w1 w2 H1 H2. rewrite Es in H1, H2.
  destruct (walk_off (E r') a rest w1 Hav H1) as [O1 _]. split; [exact O1|].
  rewrite <- (walk_parity (E r') a rest w1 (ring_keeps r' C) Hav H1).
  apply (walk_parity (E r') a rest w2 (ring_keeps r' C) Hav H2).
Qed.

(* ================================================================ the core argument *)
Section Core.
  Variables A B : polyT Q.
  Variables SA SB : lineT Q.
  Variables HA HB : list (lineT Q).
  Hypothesis ErA : poly_rings A = SA :: HA.
  Hypothesis ErB : poly_rings B = SB :: HB.
  Hypothesis CA : forall r, In r (poly_rings A) -> pts_closed (line_pts r) = true.
  Hypothesis CB : forall r, In r (poly_rings B) -> pts_closed (line_pts r) = true.
  Hypothesis WA : forall r, In r (poly_rings A) -> ring_wf r = true.
  Hypothesis WB : forall r, In r (poly_rings B) -> ring_wf r = true.
  Hypothesis NA : poly_nest_ok A.
  Hypothesis NM : forall rA rB, In rA (poly_rings A) -> In rB (poly_rings B) -> no_meet (E rA) (E rB).

  Let inSA : In SA (poly_rings A). Proof. rewrite ErA. left. reflexivity. Qed.
  Let inSB : In SB (poly_rings B). Proof. rewrite ErB. left. reflexivity. Qed.

  Lemma core w a0 b0 :
    on_edges (E SA) a0 = true -> on_edges (E SB) b0 = true ->
    in_poly A w = true -> in_poly B w = true -> poly_boundary B w = false ->
    in_poly B a0 = false -> in_poly A b0 = false -> False.
  Proof.
    intros Oa0 Ob0 HAw HBw BBw HBa0 HAb0.
    (* w relative to B: off every ring, inside the shell, outside the holes *)
    pose proof (proj1 (poly_boundary_false B w) BBw) as OffBw.
    rewrite (in_poly_off B SB HB w ErB OffBw) in HBw. apply andb_true_iff in HBw. destruct HBw as [PSBw PHBw].
    rewrite forallb_forall in PHBw.
    (* points of a ring of A are off every ring of B, and conversely *)
    assert (OffB : forall rA x, In rA (poly_rings A) -> on_edges (E rA) x = true -> forall rB, In rB (poly_rings B) -> on_edges (E rB) x = false)
      by (intros rA x HrA Hx rB HrB; exact (no_meet_off _ _ x (NM rA rB HrA HrB) Hx)).
    assert (OffA : forall rB x, In rB (poly_rings B) -> on_edges (E rB) x = true -> forall rA, In rA (poly_rings A) -> on_edges (E rA) x = false)
      by (intros rB x HrB Hx rA HrA; exact (no_meet_off _ _ x (no_meet_sym _ _ (NM rA rB HrA HrB)) Hx)).
    (* uniformity in both directions *)
    assert (UAB : forall rA rB, In rA (poly_rings A) -> In rB (poly_rings B) -> uniform (E rA) (E rB)).
    { intros rA rB HrA HrB. apply ring_uniform; [apply WA | apply CB | apply NM]; assumption. }
    assert (UBA : forall rA rB, In rA (poly_rings A) -> In rB (poly_rings B) -> uniform (E rB) (E rA)).
    { intros rA rB HrA HrB. apply ring_uniform; [apply WB | apply CA | apply no_meet_sym, NM]; assumption. }
    (* the shell of A against B *)
    rewrite (in_poly_off B SB HB a0 ErB (OffB SA a0 inSA Oa0)) in HBa0.
    rewrite (in_poly_off A SA HA b0 ErA (OffA SB b0 inSB Ob0)) in HAb0.
    destruct (in_poly_shell A SA HA w ErA NA HAw) as [OnS | [OffS PSAw]].
    { (* w on the shell of A: then the shell start is in B as well *)
      assert (X : edges_parity (E SB) a0 && forallb (fun h => negb (edges_parity (E h) a0)) HB = true).
      { apply andb_true_iff. split.
        - destruct (UAB SA SB inSA inSB a0 w Oa0 OnS) as [_ P]. rewrite P. exact PSBw.
        - apply forallb_forall. intros g Hg.
          assert (HgB : In g (poly_rings B)) by (rewrite ErB; right; exact Hg).
          destruct (UAB SA g inSA HgB a0 w Oa0 OnS) as [_ P]. rewrite P. apply PHBw. exact Hg. }
      congruence. }
    apply andb_false_iff in HBa0. destruct HBa0 as [PSBa0 | HBa0].
    2:{ (* the shell of A lies in a hole g of B: so does w *)
      apply forallb_false_exists in HBa0. destruct HBa0 as [g [Hg Pg]]. apply negb_false_iff in Pg.
      assert (HgB : In g (poly_rings B)) by (rewrite ErB; right; exact Hg).
      assert (I : inside (E SA) (E g)) by (apply (uniform_inside _ _ a0 (UAB SA g inSA HgB) Oa0 Pg)).
      pose proof (inside_trans (E SA) (E g) w (ring_keeps SA (CA SA inSA)) (ring_keeps g (CB g HgB))
                    (NM SA g inSA HgB) (UBA SA g inSA HgB) (ring_nonempty SA (WA SA inSA)) I PSAw) as P.
      pose proof (PHBw g Hg) as Q0. rewrite P in Q0. discriminate. }
    apply andb_false_iff in HAb0. destruct HAb0 as [PSAb0 | HAb0].
    { (* mutually exterior shells cannot both contain w *)
      apply (exterior_disjoint (E SA) (E SB) w (ring_keeps SA (CA SA inSA)) (ring_keeps SB (CB SB inSB)) (NM SA SB inSA inSB)).
      - apply (uniform_outside _ _ a0 (UAB SA SB inSA inSB) Oa0 PSBa0).
      - apply (uniform_outside _ _ b0 (UBA SA SB inSA inSB) Ob0 PSAb0).
      - exact PSAw.
      - exact PSBw. }
    (* the shell of B lies in a hole h' of A *)
    apply forallb_false_exists in HAb0. destruct HAb0 as [h' [Hh' Ph']]. apply negb_false_iff in Ph'.
    assert (Hh'A : In h' (poly_rings A)) by (rewrite ErA; right; exact Hh').
    assert (I : inside (E SB) (E h')) by (apply (uniform_inside _ _ b0 (UBA h' SB Hh'A inSB) Ob0 Ph')).
    destruct (on_edges (E h') w) eqn:Ohw.
    - (* w on h': then h' lies inside the shell of B, which lies inside h' *)
      apply (no_mutual_inside (E SB) (E h') (ring_nonempty SB (WB SB inSB)) I).
      apply (uniform_inside _ _ w (UAB h' SB Hh'A inSB) Ohw PSBw).
    - pose proof (inside_trans (E SB) (E h') w (ring_keeps SB (CB SB inSB)) (ring_keeps h' (CA h' Hh'A))
                    (no_meet_sym _ _ (NM h' SB Hh'A inSB)) (UAB h' SB Hh'A inSB) (ring_nonempty SB (WB SB inSB)) I PSBw) as P.
      apply (in_poly_not_in_hole A SA HA w h' ErA NA HAw Hh'). split; assumption.
  Qed.
End Core.

(* ================================================================ hasIntersectionPolygonWithPolygon is complete *)
Lemma rings_no_meet p1 p2 :
  poly_rings_wf p1 = true -> poly_rings_wf p2 = true ->
  has_intersection_between_lines (poly_lines p1) (poly_lines p2) = false ->
  forall r1 r2, In r1 (poly_rings p1) -> In r2 (poly_rings p2) -> no_meet (E r1) (E r2).
Proof.
  unfold poly_rings_wf. rewrite !forallb_forall. intros W1 W2 Hh r1 r2 Hr1 Hr2 e f w He Hf [H1 H2].
  destruct (ring_wf_pts r1 (W1 r1 Hr1)) as [Wf1 _]. destruct (ring_wf_pts r2 (W2 r2 Hr2)) as [Wf2 _].
  assert (O1 : on_line r1 w = true) by (unfold on_line, on_edges; apply existsb_exists; eauto).
  assert (O2 : on_line r2 w = true) by (unfold on_line, on_edges; apply existsb_exists; eauto).
  destruct (on_line_cover r1 w Wf1 O1) as [s [Hs Hsw]]. destruct (on_line_cover r2 w Wf2 O2) as [t [Ht Htw]].
  assert (X : has_intersection_between_lines (poly_lines p1) (poly_lines p2) = true).
  { apply hibl_iff; [apply poly_lines_nondeg | apply poly_lines_nondeg|].
    exists s, t, w. split; [eapply ring_in_poly_lines; eauto|]. split; [eapply ring_in_poly_lines; eauto | auto]. }
  congruence.
Qed.

Lemma in_poly_rings y w : in_poly y w = true -> exists shell holes, poly_rings y = shell :: holes.
Proof. intros H. destruct (poly_rings y) eqn:Er; [rewrite (in_poly_nil y w Er) in H; discriminate | eauto]. Qed.

Lemma ix_polygon_polygon_complete p1 p2 w :
  poly_rings_closed p1 = true -> poly_rings_closed p2 = true ->
  poly_rings_wf p1 = true -> poly_rings_wf p2 = true -> poly_nest_ok p1 -> poly_nest_ok p2 ->
  in_poly p1 w = true -> in_poly p2 w = true -> ix_polygon_polygon p1 p2 = true.
Proof.
  intros C1 C2 W1 W2 N1 N2 H1 H2. unfold ix_polygon_polygon.
  destruct (has_intersection_between_lines (poly_lines p1) (poly_lines p2)) eqn:Eh; [reflexivity|].
  pose proof (rings_no_meet p1 p2 W1 W2 Eh) as NM.
  pose proof C1 as C1'. pose proof C2 as C2'. pose proof W1 as W1'. pose proof W2 as W2'.
  unfold poly_rings_closed in C1', C2'. unfold poly_rings_wf in W1', W2'. rewrite forallb_forall in C1', C2', W1', W2'.
  destruct (in_poly_rings p1 w H1) as [S1 [Hs1 Er1]]. destruct (in_poly_rings p2 w H2) as [S2 [Hs2 Er2]].
  assert (In1 : In S1 (poly_rings p1)) by (rewrite Er1; left; reflexivity).
  assert (In2 : In S2 (poly_rings p2)) by (rewrite Er2; left; reflexivity).
  destruct (ring_wf_shape S1 (W1' S1 In1)) as [a0 [rest1 [Ep1 [_ [_ Oa0]]]]].
  destruct (ring_wf_shape S2 (W2' S2 In2)) as [b0 [rest2 [Ep2 [_ [_ Ob0]]]]].
  unfold exterior_ring. rewrite Er1, Er2. unfold start_xy. rewrite Ep1, Ep2. cbn [ix_optxy_polygon].
  (* a probe that fails means the start vertex is outside (it is off the other boundary) *)
  assert (Off12 : poly_boundary p2 a0 = false).
  { apply poly_boundary_false. intros r Hr. exact (no_meet_off _ _ a0 (NM S1 r In1 Hr) Oa0). }
  assert (Off21 : poly_boundary p1 b0 = false).
  { apply poly_boundary_false. intros r Hr. exact (no_meet_off _ _ b0 (no_meet_sym _ _ (NM r S2 Hr In2)) Ob0). }
  destruct (ix_xy_polygon a0 p2) eqn:P1; [reflexivity|].
  destruct (ix_xy_polygon b0 p1) eqn:P2; [reflexivity|]. exfalso.
  assert (F1 : in_poly p2 a0 = false).
  { destruct (in_poly p2 a0) eqn:Ein; [|reflexivity]. rewrite (ix_xy_polygon_complete_off a0 p2 C2 W2 Off12 Ein) in P1. discriminate. }
  assert (F2 : in_poly p1 b0 = false).
  { destruct (in_poly p1 b0) eqn:Ein; [|reflexivity]. rewrite (ix_xy_polygon_complete_off b0 p1 C1 W1 Off21 Ein) in P2. discriminate. }
  destruct (poly_boundary p2 w) eqn:B2.
  - (* w on the boundary of p2: then it is off the boundary of p1; roles swapped *)
    assert (B1 : poly_boundary p1 w = false).
    { apply poly_boundary_true in B2. destruct B2 as [r2 [Hr2 On2]]. apply poly_boundary_false. intros r Hr.
      exact (no_meet_off _ _ w (no_meet_sym _ _ (NM r r2 Hr Hr2)) On2). }
    assert (NM' : forall rA rB, In rA (poly_rings p2) -> In rB (poly_rings p1) -> no_meet (E rA) (E rB)).
    { intros rA rB HA HB. apply no_meet_sym. apply NM; assumption. }
    exact (core p2 p1 S2 S1 Hs2 Hs1 Er2 Er1 C2' C1' W2' W1' N2 NM' w b0 a0 Ob0 Oa0 H2 H1 B1 F2 F1).
  - exact (core p1 p2 S1 S2 Hs1 Hs2 Er1 Er2 C1' C2' W1' W2' N1 NM w a0 b0 Oa0 Ob0 H1 H2 B2 F1 F2).
Qed.

Lemma ix_mpoly_mpoly_complete ys1 ys2 w :
  forallb poly_rings_closed ys1 = true -> forallb poly_rings_closed ys2 = true ->
  forallb poly_rings_wf ys1 = true -> forallb poly_rings_wf ys2 = true ->
  (forall y, In y ys1 -> poly_nest_ok y) -> (forall y, In y ys2 -> poly_nest_ok y) ->
  inMY ys1 w = true -> inMY ys2 w = true -> ix_mpoly_mpoly ys1 ys2 = true.
Proof.
  intros C1 C2 W1 W2 N1 N2 H1 H2. rewrite forallb_forall in C1, C2, W1, W2.
  apply existsb_exists in H1. apply existsb_exists in H2. destruct H1 as [y1 [Hy1 H1]], H2 as [y2 [Hy2 H2]].
  unfold ix_mpoly_mpoly. apply existsb_exists. exists y1. split; [exact Hy1|].
  apply existsb_exists. exists y2. split; [exact Hy2|].
  apply (ix_polygon_polygon_complete y1 y2 w); auto.
Qed.

(* ================================================================ the dispatch, every pair of types *)
Lemma ix_flat_complete_all g1 g2 w :
  is_multi g1 -> is_multi g2 -> operand_ok g1 -> operand_ok g2 ->
  inG g1 w = true -> inG g2 w = true -> ix_flat g1 g2 = true.
Proof.
  intros M1 M2 O1 O2 H1 H2.
  destruct (no_polys g1) eqn:Np1; [apply (ix_flat_complete_mixed g1 g2 w); auto|].
  destruct (no_polys g2) eqn:Np2; [apply (ix_flat_complete_mixed g1 g2 w); auto|].
  destruct O1 as [W1 [C1 [F1 N1]]], O2 as [W2 [C2 [F2 N2]]].
  destruct g1 as [p|l|y|c a|c a|c a|c gs], g2 as [p'|l'|y'|c' b|c' b|c' b|c' gs'];
    cbn [is_multi] in M1, M2; try contradiction; try discriminate.
  exact (ix_mpoly_mpoly_complete a b w C1 C2 F1 F2 N1 N2 H1 H2).
Qed.

(* Intersects(a, b) = false implies that the point sets are disjoint: every pair of operands *)
Theorem intersects_complete a b w :
  operand_ok a -> operand_ok b -> inG a w = true -> inG b w = true -> intersects a b = true.
Proof.
  intros Oa Ob. apply intersects_complete_of. intros la lb Hla Hlb.
  apply ix_flat_complete_all; eauto using mleaves_multi, operand_ok_mleaf.
Qed.

(* the model of Intersects IS the exact (verified) oracle, and the exact statement of the property *)
Theorem intersects_exact a b :
  operand_ok a -> operand_ok b ->
  (intersects a b = true <-> exists p, inG a p = true /\ inG b p = true) /\
  intersects a b = share_witness a b.
Proof.
  intros Oa Ob. pose proof Oa as [_ [Ca _]]. pose proof Ob as [_ [Cb _]].
  assert (Iff : intersects a b = true <-> exists p, inG a p = true /\ inG b p = true).
  { split; [apply intersects_sound; assumption|]. intros [p [H1 H2]]. eapply intersects_complete; eauto. }
  split; [exact Iff|]. apply eq_true_iff_eq. rewrite (share_witness_iff a b Ca Cb). exact Iff.
Qed.

Theorem distance_zero_iff_intersects_all a b :
  operand_ok a -> operand_ok b ->
  ((exists d, dist2 a b = Some d /\ d == 0) <-> intersects a b = true).
Proof.
  intros Oa Ob. apply distance_zero_iff_of. intros w. apply intersects_complete; assumption.
Qed.

(* ================================================================ the nesting hypothesis is decidable *)
(* poly_nest_ok quantifies over all points; by the sufficiency of the slab witnesses it is enough
   to test the witnesses of the polygon's own arrangement *)
Definition ringY (r : lineT Q) : geom := GPoly (MkPoly XY [r]).
Definition onb (r : lineT Q) (w : pt) : bool := inG (GLine r) w.
Definition inb (r : lineT Q) (w : pt) : bool := inG (ringY r) w.
Definition sinb (r : lineT Q) (w : pt) : bool := negb (onb r w) && inb r w.     (* strictly inside *)

Definition nest_at (shell : lineT Q) (holes : list (lineT Q)) (w : pt) : bool :=
  forallb (fun h => implb (onb h w) (inb shell w)) holes &&
  forallb (fun h => implb (onb shell w) (negb (sinb h w))) holes &&
  forallb (fun h => forallb (fun h' => implb (onb h w) (negb (sinb h' w))) holes) holes.

Definition poly_nest_okb (y : polyT Q) : bool :=
  match poly_rings y with
  | [] => true
  | shell :: holes => forallb (fun wd => nest_at shell holes (fst wd)) (witnesses (arr_segments (GPoly y)) [])
  end.

Lemma onb_spec r p : onb r p = on_edges (E r) p.
Proof. reflexivity. Qed.
Lemma inb_spec r p : inb r p = on_edges (E r) p || edges_parity (E r) p.
Proof.
  unfold inb, ringY. cbn [inG]. unfold in_poly, poly_boundary, poly_interior, poly_ring_segs, rings_boundary.
  cbn [poly_rings map existsb rings_interior forallb]. unfold ring_strict_in.
  destruct (on_edges (E r) p), (edges_parity (E r) p); reflexivity.
Qed.
Lemma sinb_spec r p : sinb r p = true <-> strictly_in r p.
Proof.
  unfold sinb, strictly_in. rewrite onb_spec, inb_spec.
  destruct (on_edges (E r) p), (edges_parity (E r) p); simpl; split; intros H; try discriminate; try tauto; destruct H; discriminate.
Qed.

Section NestDec.
  Variable y : polyT Q.
  Hypothesis Cy : poly_rings_closed y = true.
  Let L := arr_segments (GPoly y).

  Lemma cov_line r : In r (poly_rings y) -> covers_geom L [] (GLine r) /\ Planar_slab_base.rings_closed (GLine r).
  Proof.
    intros Hr. split; [split|].
    - intros e He. unfold arr_segments in He. cbn [g_polys g_lines flat_map app] in He. rewrite app_nil_r in He.
      apply (in_arr_ring (GPoly y) y r e); [left; reflexivity | exact Hr | exact He].
    - intros x [].
    - intros y0 [].
  Qed.
  Lemma cov_ring r : In r (poly_rings y) -> covers_geom L [] (ringY r) /\ Planar_slab_base.rings_closed (ringY r).
  Proof.
    intros Hr. split; [split|].
    - intros e He. unfold arr_segments, ringY in He. cbn [g_polys g_lines flat_map app poly_ring_segs poly_rings map concat] in He.
      rewrite !app_nil_r in He.
      apply (in_arr_ring (GPoly y) y r e); [left; reflexivity | exact Hr | exact He].
    - intros x [].
    - intros y0 [<-|[]] r0 [<-|[]]. unfold poly_rings_closed in Cy. rewrite forallb_forall in Cy. exact (Cy r Hr).
  Qed.

  Lemma rings_everywhere r1 r2 r3 (F : bool -> bool -> bool -> bool) :
    In r1 (poly_rings y) -> In r2 (poly_rings y) -> In r3 (poly_rings y) ->
    (forall w d, In (w, d) (witnesses L []) -> F (onb r1 w) (onb r2 w) (inb r3 w) = true) ->
    forall p, F (onb r1 p) (onb r2 p) (inb r3 p) = true.
  Proof.
    intros H1 H2 H3 H p.
    apply (pointwise_everywhere L [] [GLine r1; GLine r2; ringY r3] (fun l => match l with [a; b; c] => F a b c | _ => true end)).
    - intros g [<-|[<-|[<-|[]]]]; [apply cov_line | apply cov_line | apply cov_ring]; assumption.
    - intros w d Hw. exact (H w d Hw).
  Qed.

  Lemma poly_nest_okb_sound : poly_nest_okb y = true -> poly_nest_ok y.
  Proof.
    unfold poly_nest_okb, poly_nest_ok. destruct (poly_rings y) as [|shell holes] eqn:Er; [auto|].
    intros H. rewrite forallb_forall in H.
    assert (At : forall w d, In (w, d) (witnesses L []) ->
              (forall h, In h holes -> implb (onb h w) (inb shell w) = true) /\
              (forall h, In h holes -> implb (onb shell w) (negb (sinb h w)) = true) /\
              (forall h h', In h holes -> In h' holes -> implb (onb h w) (negb (sinb h' w)) = true)).
    { intros w d Hw. pose proof (H (w, d) Hw) as A. unfold nest_at in A. cbn [fst] in A.
      rewrite !andb_true_iff, !forallb_forall in A. destruct A as [[A1 A2] A3]. split; [exact A1|]. split; [exact A2|].
      intros h h' Hh Hh'. specialize (A3 h Hh). rewrite forallb_forall in A3. exact (A3 h' Hh'). }
    assert (InS : In shell (poly_rings y)) by (rewrite Er; left; reflexivity).
    assert (InH : forall h, In h holes -> In h (poly_rings y)) by (intros h Hh; rewrite Er; right; exact Hh).
    split; [|split].
    - intros h p Hh Hon [So Sp].
      pose proof (rings_everywhere h h shell (fun a _ c => implb a c) (InH h Hh) (InH h Hh) InS
                    (fun w d Hw => proj1 (At w d Hw) h Hh) p) as Kp.
      rewrite onb_spec, inb_spec, Hon, So, Sp in Kp. discriminate.
    - intros h p Hh Hon Hs. apply sinb_spec in Hs.
      pose proof (rings_everywhere shell h h (fun a b c => implb a (negb (negb b && c))) InS (InH h Hh) (InH h Hh)
                    (fun w d Hw => proj1 (proj2 (At w d Hw)) h Hh) p) as Kp.
      change (implb (onb shell p) (negb (sinb h p)) = true) in Kp. rewrite onb_spec, Hon, Hs in Kp. discriminate.
    - intros h h' p Hh Hh' Hon Hs. apply sinb_spec in Hs.
      pose proof (rings_everywhere h h' h' (fun a b c => implb a (negb (negb b && c))) (InH h Hh) (InH h' Hh') (InH h' Hh')
                    (fun w d Hw => proj2 (proj2 (At w d Hw)) h h' Hh Hh') p) as Kp.
      change (implb (onb h p) (negb (sinb h' p)) = true) in Kp. rewrite onb_spec, Hon, Hs in Kp. discriminate.
  Qed.
End NestDec.

(* the executable form of the hypotheses *)
Definition operand_okb (g : geom) : bool :=
  lines_wf g && Intersects.rings_closed g && polys_wf g && forallb poly_nest_okb (g_polys g).

Lemma operand_okb_sound g : operand_okb g = true -> operand_ok g.
Proof.
  unfold operand_okb, operand_ok. rewrite !andb_true_iff. intros [[[W C] F] N]. repeat split; try assumption.
  intros y Hy. rewrite forallb_forall in N. unfold Intersects.rings_closed in C. rewrite forallb_forall in C.
  apply poly_nest_okb_sound; [apply C; exact Hy | apply N; exact Hy].
Qed.
