(* Property C13 - assembling the two chains into the ring; the result satisfies the statement. *)
From Coq Require Import ZArith List Bool Lia Permutation Sorting.Sorted Arith.
From SF Require Import Base.GeomAST Model.Hull Proofs.Hull_proofs Proofs.Hull_chain.
Import ListNotations.
Open Scope Z_scope.

Lemma sgn1 : sgn 1. Proof. left; reflexivity. Qed.
Lemma sgnm1 : sgn (-1). Proof. right; reflexivity. Qed.

Lemma two_distinct_len (l : list pt) a b : In a l -> In b l -> a <> b -> (2 <= length l)%nat.
Proof.
  destruct l as [|x [|y t]]; simpl; try tauto; try lia.
  intros [<-|[]] [<-|[]] H. congruence.
Qed.

Lemma hd_last_decomp (l : list pt) d : (2 <= length l)%nat -> exists mid, l = hd d l :: mid ++ [last l d].
Proof.
  destruct l as [|x t]; [simpl; lia|]. intros H.
  destruct (exists_last (l := t)) as [mid [z E]]; [destruct t; simpl in H; [lia|discriminate]|].
  exists mid. subst t. cbn [hd].
  replace (last (x :: mid ++ [z]) d) with z; [reflexivity|].
  change (x :: mid ++ [z]) with ((x :: mid) ++ [z]). symmetry. apply last_last.
Qed.

(* edges: adjacent pairs *)
Lemma ring_edges_cons2 a b t : ring_edges (a :: b :: t) = (a, b) :: ring_edges (b :: t).
Proof. reflexivity. Qed.

Lemma ring_edges_snoc2 l a b : ring_edges (l ++ [a; b]) = ring_edges (l ++ [a]) ++ [(a, b)].
Proof.
  induction l as [|x l IH]; [reflexivity|]. destruct l as [|y l]; [reflexivity|].
  cbn [app] in *. rewrite !ring_edges_cons2, IH. reflexivity.
Qed.

Lemma covered_rev q st : cov q st -> covered_by (rev st) q = true.
Proof.
  unfold covered_by. induction st as [|b st IH]; [reflexivity|]. destruct st as [|a r]; [reflexivity|].
  intros [H C]. cbn [rev] in *. rewrite <- app_assoc. cbn [app].
  rewrite ring_edges_snoc2, forallb_app, (IH C). unfold on_or_left. cbn [forallb fst snd].
  rewrite (proj2 (Z.leb_le _ _) H). reflexivity.
Qed.

Lemma cov_glue q P x S : cov q (P ++ [x]) -> cov q (x :: S) -> cov q (P ++ x :: S).
Proof.
  induction P as [|b P IH]; intros H1 H2; [exact H2|]. destruct P as [|a P].
  - destruct S; [exact H1|]. split; [apply H1|exact H2].
  - cbn [app] in *. split; [apply H1|apply IH; [apply H1|exact H2]].
Qed.

(* consecutive triples, on a stack (top first) *)
Fixpoint stk_turns (st : list pt) : Prop :=
  match st with
  | c :: ((b :: a :: _) as r) => 0 < cross a b c /\ stk_turns r
  | _ => True
  end.
Lemma stk_turns_cons3 c b a r : stk_turns (c :: b :: a :: r) = (0 < cross a b c /\ stk_turns (b :: a :: r)).
Proof. reflexivity. Qed.

Lemma stk_turns_tl c r : stk_turns (c :: r) -> stk_turns r.
Proof. destruct r as [|b [|a r]]; try exact (fun _ => I). rewrite stk_turns_cons3. tauto. Qed.

Lemma stk_turns_glue P a b S :
  stk_turns (P ++ [a; b]) -> stk_turns (a :: b :: S) -> stk_turns (P ++ a :: b :: S).
Proof.
  induction P as [|p1 P IH]; intros H1 H2; [exact H2|].
  destruct P as [|p2 [|p3 P]].
  - simpl in *. destruct H1 as [H1 _]. split; auto.
  - simpl app in H1 |- *. rewrite stk_turns_cons3 in H1. destruct H1 as [H1 H1'].
    rewrite stk_turns_cons3. split; [exact H1|apply IH; [exact H1'|exact H2]].
  - simpl app in H1 |- *. rewrite stk_turns_cons3 in H1. destruct H1 as [H1 H1'].
    rewrite stk_turns_cons3. split; [exact H1|apply IH; [exact H1'|exact H2]].
Qed.

Lemma all_triples_turns st : all_triples st -> stk_turns st.
Proof.
  induction st as [|c st IH]; [intros; exact I|]. intros [F T].
  destruct st as [|b [|a r]]; try exact I.
  rewrite stk_turns_cons3. split; [|apply IH; exact T].
  destruct F as [F _]. inversion F; subst. assumption.
Qed.

Lemma strict_turns_cons3 a b c t : strict_turns (a :: b :: c :: t) = (0 <? cross a b c) && strict_turns (b :: c :: t).
Proof. reflexivity. Qed.

Lemma strict_turns_snoc l a b c :
  strict_turns (l ++ [a; b]) = true -> 0 < cross a b c -> strict_turns (l ++ [a; b; c]) = true.
Proof.
  induction l as [|x l IH]; intros H Hc.
  - simpl. apply Z.ltb_lt in Hc. rewrite Hc. reflexivity.
  - destruct l as [|y [|z l]].
    + simpl in *. rewrite andb_true_iff in *. destruct H as [H _]. split; auto.
      apply Z.ltb_lt in Hc. rewrite Hc. reflexivity.
    + simpl app in H |- *. rewrite strict_turns_cons3 in H |- *. rewrite andb_true_iff in H |- *. destruct H as [H H'].
      split; [exact H|apply IH; [exact H'|exact Hc]].
    + simpl app in H |- *. rewrite strict_turns_cons3 in H |- *. rewrite andb_true_iff in H |- *. destruct H as [H H'].
      split; [exact H|apply IH; [exact H'|exact Hc]].
Qed.

Lemma stk_turns_rev st : stk_turns st -> strict_turns (rev st) = true.
Proof.
  induction st as [|c st IH]; [reflexivity|]. intros H.
  destruct st as [|b [|a r]]; try reflexivity.
  rewrite stk_turns_cons3 in H. destruct H as [H H'].
  change (rev (c :: b :: a :: r)) with (((rev r ++ [a]) ++ [b]) ++ [c]).
  rewrite <- !app_assoc. simpl app. apply strict_turns_snoc; auto.
  specialize (IH H'). simpl rev in IH. rewrite <- app_assoc in IH. exact IH.
Qed.

Lemma nodup_b_spec l : nodup_b l = true <-> NoDup l.
Proof.
  induction l as [|x l IH]; simpl; [split; [constructor|reflexivity]|].
  rewrite andb_true_iff, negb_true_iff, IH. split.
  - intros [H1 H2]. constructor; auto. intros Hin. apply mem_In in Hin. congruence.
  - intros H. inversion H; subst. split; auto. destruct (mem x l) eqn:E; auto. apply mem_In in E. contradiction.
Qed.

Lemma sorted_NoDup s l : sgn s -> StronglySorted (fun x y => dlt s y x) l -> NoDup l.
Proof.
  intros Hs. induction 1 as [|a l Hl IH Hall]; constructor; auto.
  intros Hin. rewrite Forall_forall in Hall. eapply dlt_irrefl; [exact Hs|apply Hall; exact Hin].
Qed.

Lemma NoDup_app_intro {A} (l1 l2 : list A) :
  NoDup l1 -> NoDup l2 -> (forall x, In x l1 -> In x l2 -> False) -> NoDup (l1 ++ l2).
Proof.
  induction l1 as [|a l1 IH]; simpl; intros H1 H2 Hd; [exact H2|].
  inversion H1; subst. constructor.
  - intros Hin. apply in_app_or in Hin. destruct Hin as [Hin|Hin]; [contradiction|]. eapply Hd; eauto.
  - apply IH; auto. intros x Hx Hx'. eapply Hd; eauto.
Qed.

Lemma nth_error_removelast {A} (l : list A) k : (S k < length l)%nat -> nth_error (removelast l) k = nth_error l k.
Proof.
  revert k. induction l as [|x l IH]; intros k H; [simpl in H; lia|].
  destruct l as [|y l]; [simpl in H; lia|].
  change (removelast (x :: y :: l)) with (x :: removelast (y :: l)).
  destruct k; [reflexivity|]. simpl nth_error. apply IH. simpl in *. lia.
Qed.

(* The two chains of a point list with at least two distinct points *)

Lemma has_2_distinct_true ps : has_2_distinct ps = true -> exists a b, In a ps /\ In b ps /\ a <> b.
Proof.
  destruct ps as [|p0 r]; [discriminate|]. simpl. rewrite existsb_exists.
  intros [q [Hq E]]. exists q, p0. split; [right; exact Hq|]. split; [left; reflexivity|].
  apply negb_true_iff, pt_eqb_neq in E. exact E.
Qed.
Lemma has_2_distinct_false p0 r : has_2_distinct (p0 :: r) = false -> forall q, In q (p0 :: r) -> q = p0.
Proof.
  simpl. intros H q [<-|Hq]; [reflexivity|].
  destruct (pt_eq_dec q p0) as [E|E]; [exact E|exfalso].
  assert (existsb (fun q => negb (pt_eqb q p0)) r = true); [|congruence].
  apply existsb_exists. exists q. split; auto. apply negb_true_iff, pt_eqb_neq. exact E.
Qed.

Lemma hd_neq_last_len (l : list pt) d : hd d l <> last l d -> (2 <= length l)%nat.
Proof.
  destruct l as [|x [|y t]]; simpl; try congruence; try lia.
Qed.

(* what one scan over the points ps ordered along direction sg leaves on its stack: from the last
   point [top] down to the first point [bot] a strictly convex chain of points of ps with every
   point of ps on or left of its edges *)
Record chain_facts (sg : Z) (ps : list pt) (top bot : pt) (mid : list pt) : Prop := {
  cf_desc : desc sg (top :: mid ++ [bot]);
  cf_tri : all_triples (top :: mid ++ [bot]);
  cf_cov : forall q, In q ps -> cov q (top :: mid ++ [bot]);
  cf_incl : incl (top :: mid ++ [bot]) ps;
  cf_lt : dlt sg bot top;
  cf_max : forall q, In q ps -> dle sg q top;
  cf_min : forall q, In q ps -> dle sg bot q
}.
Arguments cf_desc {sg ps top bot mid}. Arguments cf_tri {sg ps top bot mid}.
Arguments cf_cov {sg ps top bot mid}. Arguments cf_incl {sg ps top bot mid}.
Arguments cf_lt {sg ps top bot mid}. Arguments cf_max {sg ps top bot mid}.
Arguments cf_min {sg ps top bot mid}.

Lemma stk_facts sg ps l : sgn sg ->
  StronglySorted (dle sg) l -> (forall x, In x l <-> In x ps) ->
  (exists a b, In a ps /\ In b ps /\ a <> b) ->
  exists top bot mid, chain_rev l = top :: mid ++ [bot] /\ chain_facts sg ps top bot mid.
Proof.
  intros Hs Hl Hel [a [b [Ha [Hb Hab]]]].
  pose proof (dedup_sorted sg l Hs Hl) as HD.
  assert (HelD : forall x, In x (dedup l) <-> In x ps) by (intros x; rewrite dedup_In; apply Hel).
  assert (Hlen : (2 <= length (dedup l))%nat).
  { apply (two_distinct_len _ a b); auto; apply HelD; auto. }
  rewrite (chain_rev_dedup l Hlen).
  destruct (dedup l) as [|x l'] eqn:ED; [simpl in Hlen; lia|].
  pose proof (chain_rev_inv sg Hs x l' HD) as [Hd Ht Hc Hi Hne Htop Hbot].
  set (st := chain_rev (x :: l')) in *.
  assert (HQ : forall q, In q (rev l' ++ [x]) <-> In q ps).
  { intros q. rewrite <- HelD. rewrite in_app_iff, <- in_rev. simpl. tauto. }
  set (top := hd x st). set (bot := last st x).
  assert (Itop : In top ps).
  { apply HQ, Hi. unfold top. destruct st; [congruence|left; reflexivity]. }
  assert (Htop' : forall q, In q ps -> dle sg q top) by (intros q Hq; apply Htop, HQ, Hq).
  assert (Hbot' : forall q, In q ps -> dle sg bot q) by (intros q Hq; apply Hbot, HQ, Hq).
  assert (Hlt : dlt sg bot top).
  { destruct (Hbot' top Itop) as [H|H]; [exact H|exfalso].
    apply Hab. transitivity top; apply (dle_antisym sg); auto; rewrite <- H; apply Hbot'; auto. }
  assert (Hlen2 : (2 <= length st)%nat).
  { apply (hd_neq_last_len st x). fold top bot. intros E. rewrite E in Hlt. eapply dlt_irrefl; eauto. }
  destruct (hd_last_decomp st x Hlen2) as [mid Emid]. fold top bot in Emid.
  exists top, bot, mid. split; [exact Emid|]. constructor; rewrite <- ?Emid; auto.
  - intros q Hq. apply Hc, HQ, Hq.
  - intros y Hy. apply HQ, Hi, Hy.
Qed.

Lemma dlt_opp s a b : dlt (- s) a b <-> dlt s b a.
Proof. dpt; ord_tac. Qed.

(* the points strictly inside a chain lie strictly between its ends, strictly left of bot->top *)
Lemma cf_inner {sg ps top bot mid y} : chain_facts sg ps top bot mid -> In y mid ->
  dlt sg bot y /\ dlt sg y top /\ 0 < cross bot y top.
Proof.
  intros C Hy. pose proof (cf_desc C) as Hd. inversion Hd as [|? ? Hd' Hall]; subst.
  rewrite Forall_forall in Hall. split; [|split; [apply Hall, in_or_app; left; exact Hy|]].
  - apply (fop_cross _ mid [bot] y bot (fop_of_sorted _ _ Hd') Hy). left; reflexivity.
  - destruct (cf_tri C) as [F _]. apply (fop_cross _ mid [bot] y bot F Hy). left; reflexivity.
Qed.

Lemma cf_nodup {sg ps top bot mid} : sgn sg -> chain_facts sg ps top bot mid -> NoDup (top :: mid ++ [bot]).
Proof. intros Hs C. apply (sorted_NoDup sg _ Hs), (cf_desc C). Qed.

Lemma cross_swap_ends a b c : cross a b c = - cross c b a.
Proof. unfold cross. ring. Qed.
Lemma cross_cyc a b c : cross a b c = cross b c a.
Proof. unfold cross. ring. Qed.

(* a degenerate junction is impossible: x below the top M of the lower chain, y the successor of
   M on the upper chain, both before M, m the common other end *)
Lemma junction_strict sg m M x y : sgn sg ->
  dlt sg x M -> dlt sg y M ->
  (x = m \/ 0 < cross m x M) -> (y = m \/ 0 < cross M y m) -> (x <> m \/ y <> m) ->
  0 <= cross x M y -> 0 < cross x M y.
Proof.
  intros Hs HxM HyM Hx Hy Hne H0.
  destruct (Z.eq_dec (cross x M y) 0) as [E|E]; [exfalso|lia].
  destruct Hx as [->|Hx]; destruct Hy as [->|Hy].
  - destruct Hne; congruence.
  - unfold cross in *. lia.
  - unfold cross in *. lia.
  - destruct m as [mx my], M as [Mx My], x as [xx xy], y as [yx yy].
    dsgn Hs.
    + pose proof (T_par (Mx - xx) (My - xy) (Mx - yx) (My - yy) (Mx - mx) (My - my)) as T.
      unfold dlt, dv, lexpos, cross in *; cbn [fst snd] in *. lia.
    + pose proof (T_par (xx - Mx) (xy - My) (yx - Mx) (yy - My) (mx - Mx) (my - My)) as T.
      unfold dlt, dv, lexpos, cross in *; cbn [fst snd] in *. lia.
Qed.

Lemma snoc_hd_cases {A} (l : list A) b x xs : l ++ [b] = x :: xs -> (x = b /\ l = []) \/ In x l.
Proof. destruct l as [|z l]; intros [= <- _]; [left; auto|right; left; reflexivity]. Qed.
Lemma cons_last_cases {A} (l : list A) b us u : b :: l = us ++ [u] -> (u = b /\ l = []) \/ In u l.
Proof.
  destruct us as [|z us]; intros [= <- E]; [left; auto|right]. rewrite E. apply in_or_app. right; left; reflexivity.
Qed.

(* where the chain for direction sg meets the chain for the opposite direction (at [top]): x is the
   vertex below top on the first chain, u the vertex adjacent to top on the other; unless both
   chains are bare segments the turn x, top, u is strict *)
Lemma junction sg ps top bot mid mid' x xs us u : sgn sg ->
  chain_facts sg ps top bot mid -> chain_facts (- sg) ps bot top mid' -> mid <> [] \/ mid' <> [] ->
  mid ++ [bot] = x :: xs -> bot :: mid' = us ++ [u] -> 0 < cross x top u.
Proof.
  intros Hs C C' Hnd Ex Eu.
  pose proof (cf_lt C) as Hlt.
  apply snoc_hd_cases in Ex as Fx. apply cons_last_cases in Eu as Fu.
  assert (Iu : In u ps).
  { apply (cf_incl C'). destruct Fu as [[-> _]|H]; [left; reflexivity|right; apply in_or_app; left; exact H]. }
  apply (junction_strict sg bot top x u Hs).
  - destruct Fx as [[-> _]|H]; [exact Hlt|apply (cf_inner C H)].
  - destruct Fu as [[-> _]|H]; [exact Hlt|apply dlt_opp, (cf_inner C' H)].
  - destruct Fx as [[-> _]|H]; [left; reflexivity|right; apply (cf_inner C H)].
  - destruct Fu as [[-> _]|H]; [left; reflexivity|right; apply (cf_inner C' H)].
  - destruct Fx as [[_ E]|H].
    + destruct Fu as [[_ E']|H']; [destruct Hnd; congruence|]. right. intros ->.
      destruct (cf_inner C' H') as (_ & H1 & _). apply (dlt_irrefl sg bot Hs), dlt_opp, H1.
    + left. intros ->. destruct (cf_inner C H) as (H1 & _). eapply dlt_irrefl; eauto.
  - pose proof (cf_cov C u Iu) as Cv. rewrite Ex in Cv. simpl in Cv. tauto.
Qed.

(* isLinearHull on a ring without repeated vertices *)

Lemma odd_half n : Nat.even n = false -> exists k, n = (2 * k + 1)%nat /\ Nat.div n 2 = k.
Proof.
  intros H. assert (Ho : Nat.odd n = true) by (unfold Nat.odd; rewrite H; reflexivity).
  apply Nat.odd_spec in Ho. destruct Ho as [k Ek]. exists k. split; [exact Ek|].
  subst n. symmetry. apply (Nat.div_unique (2 * k + 1) 2 k 1); lia.
Qed.

Lemma is_linear_long ring : (4 <= length ring)%nat -> NoDup (removelast ring) -> is_linear_hull ring = LinNo.
Proof.
  intros Hlen Hnd. unfold is_linear_hull.
  destruct (Nat.even (length ring)) eqn:Ev; [reflexivity|].
  destruct (odd_half _ Ev) as [k [Ek Ed]]. rewrite Ed.
  destruct k as [|k1]; [lia|].
  destruct (nth_error ring k1) as [a|] eqn:Ea; [|apply nth_error_None in Ea; lia].
  destruct (nth_error ring (S (S k1))) as [b|] eqn:Eb; [|apply nth_error_None in Eb; lia].
  destruct (pt_eqb a b) eqn:E; [exfalso|reflexivity].
  apply pt_eqb_eq in E. subst b.
  assert (L : length (removelast ring) = (2 * S k1)%nat).
  { destruct (exists_last (l := ring)) as [l' [z El]]; [destruct ring; simpl in Hlen; [lia|discriminate]|].
    rewrite El, removelast_last. rewrite El, app_length in Ek. simpl in Ek. lia. }
  rewrite NoDup_nth_error in Hnd.
  assert (k1 = S (S k1)); [|lia].
  apply Hnd; [lia|].
  rewrite !nth_error_removelast by lia. congruence.
Qed.

(* The shape of monotone_chain's result: the lower chain from M down to m and the upper chain
   from m down to M (as stacks), glued at both ends *)

Definition ring_facts (ps : list pt) (m M : pt) (Umid Lmid : list pt) : Prop :=
  chain_facts 1 ps M m Lmid /\ chain_facts (-1) ps m M Umid.

Lemma rev_sort_In x ps : In x (rev (sort ps)) <-> In x ps.
Proof. rewrite <- in_rev. apply sort_In. Qed.

Theorem ring_shape ps : has_2_distinct ps = true ->
  exists m M Umid Lmid,
    monotone_chain ps = rev (m :: Umid ++ M :: Lmid ++ [m]) /\ ring_facts ps m M Umid Lmid.
Proof.
  intros H2. apply has_2_distinct_true in H2.
  destruct (stk_facts 1 ps (sort ps) sgn1 (sort_sorted ps) (fun x => sort_In x ps) H2)
    as (M & m & Lmid & EL & CL).
  destruct (stk_facts (-1) ps (rev (sort ps)) sgnm1 (sorted_rev_flip _ (sort_sorted ps)) (fun x => rev_sort_In x ps) H2)
    as (m' & M' & Umid & EU & CU).
  pose proof (cf_incl CL) as IL. pose proof (cf_incl CU) as IU.
  assert (Im : In m ps) by (apply IL; right; apply in_or_app; right; left; reflexivity).
  assert (IM : In M' ps) by (apply IU; right; apply in_or_app; right; left; reflexivity).
  assert (m' = m).
  { apply (dle_antisym 1); [exact sgn1|apply dle_flip, (cf_max CU), Im|].
    apply (cf_min CL), IU. left; reflexivity. }
  assert (M' = M).
  { apply (dle_antisym 1); [exact sgn1|apply (cf_max CL), IM|].
    apply dle_flip, (cf_min CU), IL. left; reflexivity. }
  subst m' M'.
  exists m, M, Umid, Lmid. split; [|split; assumption].
  unfold monotone_chain, chain. rewrite EL, EU.
  assert (E1 : rev (m :: Umid ++ [M]) = M :: rev (m :: Umid)).
  { change (m :: Umid ++ [M]) with ((m :: Umid) ++ [M]). rewrite rev_app_distr. reflexivity. }
  rewrite E1. cbn [tl].
  change (m :: Umid ++ M :: Lmid ++ [m]) with ((m :: Umid) ++ (M :: Lmid ++ [m])).
  rewrite (rev_app_distr (m :: Umid)). reflexivity.
Qed.

(* Strict convexity of the ring *)

Section Ring.
  Variables (ps : list pt) (m M : pt) (Umid Lmid : list pt).
  Hypothesis RF : ring_facts ps m M Umid Lmid.

  Let Z := m :: Umid ++ M :: Lmid ++ [m].

  Lemma ring_nodup : NoDup (Umid ++ M :: Lmid ++ [m]).
  Proof.
    destruct RF as [CL CU]. apply NoDup_app_intro.
    - pose proof (cf_nodup sgnm1 CU) as Hd. inversion Hd as [|? ? _ Hd']; subst.
      apply NoDup_remove_1 in Hd'. rewrite app_nil_r in Hd'. exact Hd'.
    - apply (cf_nodup sgn1 CL).
    - intros y Hu Hl. destruct (cf_inner CU Hu) as (H1 & H2 & H3).
      apply dlt_flip in H1, H2. destruct Hl as [<-|Hl]; [eapply dlt_irrefl; [exact sgn1|exact H1]|].
      apply in_app_or in Hl. destruct Hl as [Hl|[<-|[]]]; [|eapply dlt_irrefl; [exact sgn1|exact H2]].
      destruct (cf_inner CL Hl) as (_ & _ & H4). rewrite (cross_swap_ends M y m) in H3. lia.
  Qed.

  Lemma ring_cover p : In p ps -> covered_by (rev Z) p = true.
  Proof.
    intros Hp. destruct RF as [CL CU]. apply covered_rev. unfold Z.
    change (m :: Umid ++ M :: Lmid ++ [m]) with ((m :: Umid) ++ M :: (Lmid ++ [m])).
    apply cov_glue; [apply (cf_cov CU p Hp)|apply (cf_cov CL p Hp)].
  Qed.

  Lemma ring_incl : incl (rev Z) ps.
  Proof.
    intros x Hx. destruct RF as [CL CU]. apply in_rev in Hx. unfold Z in Hx.
    change (m :: Umid ++ M :: Lmid ++ [m]) with ((m :: Umid) ++ (M :: Lmid ++ [m])) in Hx.
    apply in_app_or in Hx. destruct Hx as [Hx|Hx]; [|apply (cf_incl CL), Hx].
    apply (cf_incl CU). simpl in *. destruct Hx as [Hx|Hx]; [left; exact Hx|right; apply in_or_app; left; exact Hx].
  Qed.

  Hypothesis Hnondeg : Umid <> [] \/ Lmid <> [].

  (* v1: the vertex after m on the ring (last of M :: Lmid); u1: the vertex after M (last of m :: Umid) *)
  Lemma ring_turns v1 u1 Lf Uf :
    M :: Lmid = Lf ++ [v1] -> m :: Umid = Uf ++ [u1] -> stk_turns (v1 :: Z).
  Proof.
    intros ELf EUf. destruct RF as [CL CU].
    assert (exists x Lr, Lmid ++ [m] = x :: Lr) as (x & Lr & Ex) by (destruct Lmid; eexists; eexists; reflexivity).
    assert (exists y Ur, Umid ++ [M] = y :: Ur) as (y & Ur & Ey) by (destruct Umid; eexists; eexists; reflexivity).
    assert (JM : 0 < cross x M u1) by (apply (junction 1 ps M m Lmid Umid x Lr Uf u1 sgn1); auto; tauto).
    assert (Jm : 0 < cross y m v1) by (apply (junction (-1) ps m M Umid Lmid y Ur Lf v1 sgnm1); auto).
    assert (EZ : v1 :: Z = (v1 :: Uf) ++ u1 :: M :: (Lmid ++ [m])).
    { unfold Z. change (m :: Umid ++ M :: Lmid ++ [m]) with ((m :: Umid) ++ M :: Lmid ++ [m]).
      rewrite EUf, <- app_assoc. reflexivity. }
    rewrite EZ. apply stk_turns_glue.
    - replace ((v1 :: Uf) ++ [u1; M]) with (v1 :: m :: y :: Ur).
      + rewrite stk_turns_cons3. split; [exact Jm|].
        rewrite <- Ey. apply all_triples_turns, (cf_tri CU).
      + rewrite <- Ey. change (v1 :: m :: Umid ++ [M]) with (v1 :: (m :: Umid) ++ [M]).
        rewrite EUf, <- app_assoc. reflexivity.
    - rewrite Ex. rewrite stk_turns_cons3. split; [exact JM|].
      rewrite <- Ex. apply all_triples_turns, (cf_tri CL).
  Qed.
End Ring.

(* The result satisfies the statement of the property *)

Lemma on_segment_of_between m M p :
  dle 1 m p -> dle 1 p M -> cross m M p = 0 -> on_segment m M p = true.
Proof.
  intros H1 H2 H3. destruct m as [mx my], M as [Mx My], p as [px py].
  unfold on_segment. cbn [fst snd].
  assert (C : mx <= px <= Mx /\ (Z.min my My <= py <= Z.max my My)).
  { destruct H1 as [H1|E1]; [|inversion E1; subst; clear E1];
      (destruct H2 as [H2|E2]; [|inversion E2; subst; clear E2]);
      unfold dlt, dv, lexpos, cross in *; cbn [fst snd] in *; nia. }
  rewrite H3. destruct C as [[C1 C2] [C3 C4]].
  repeat (apply andb_true_iff; split); try apply Z.leb_le; try reflexivity; lia.
Qed.

Lemma both_nil_or_not {A} (l l' : list A) : (l = [] /\ l' = []) \/ (l <> [] \/ l' <> []).
Proof. destruct l; [destruct l'; [left; auto|right; right; discriminate]|right; left; discriminate]. Qed.

Lemma hull_poly_ok ps m M Umid Lmid :
  ring_facts ps m M Umid Lmid -> Umid <> [] \/ Lmid <> [] ->
  let ring := rev (m :: Umid ++ M :: Lmid ++ [m]) in
  is_linear_hull ring = LinNo /\ hull_ok ps (HPoly ring) = true.
Proof.
  intros RF Hnd ring.
  destruct (exists_last (l := M :: Lmid)) as [Lf [v1 ELf]]; [discriminate|].
  destruct (exists_last (l := m :: Umid)) as [Uf [u1 EUf]]; [discriminate|].
  (* the ring, with its first two vertices exposed *)
  assert (Ering : ring = m :: v1 :: rev (Umid ++ Lf) ++ [m]).
  { unfold ring. replace (m :: Umid ++ M :: Lmid ++ [m]) with ([m] ++ (Umid ++ (M :: Lmid)) ++ [m])
      by (rewrite <- app_assoc; reflexivity).
    rewrite ELf. rewrite (app_assoc Umid Lf [v1]). rewrite !rev_app_distr. reflexivity. }
  assert (Hnodup : NoDup (removelast ring)).
  { unfold ring. change (rev (m :: Umid ++ M :: Lmid ++ [m])) with (rev (Umid ++ M :: Lmid ++ [m]) ++ [m]).
    rewrite removelast_last. apply NoDup_rev, (ring_nodup ps m M Umid Lmid RF). }
  assert (Hlen : (4 <= length ring)%nat).
  { rewrite Ering. simpl. rewrite app_length, rev_length, app_length. simpl.
    assert (ELen : length Lf = length Lmid).
    { assert (E : length (M :: Lmid) = length (Lf ++ [v1])) by (rewrite ELf; reflexivity).
      rewrite app_length in E. simpl in E. lia. }
    destruct Hnd as [Hn|Hn]; [destruct Umid; [congruence|simpl; lia]|destruct Lmid; [congruence|simpl in *; lia]]. }
  split; [apply is_linear_long; assumption|].
  unfold hull_ok. rewrite !andb_true_iff. split; [split|].
  - (* strictly convex ring *)
    rewrite Ering. unfold strictly_convex_ring. rewrite <- Ering.
    rewrite !andb_true_iff. split; [split; [split|]|].
    + apply Z.leb_le. lia.
    + rewrite Ering. change (m :: v1 :: rev (Umid ++ Lf) ++ [m]) with ((m :: v1 :: rev (Umid ++ Lf)) ++ [m]).
      rewrite last_last. apply pt_eqb_refl.
    + unfold ring. change (rev (m :: Umid ++ M :: Lmid ++ [m]) ++ [v1]) with (rev (v1 :: m :: Umid ++ M :: Lmid ++ [m])).
      apply stk_turns_rev. eapply ring_turns; eauto.
    + apply nodup_b_spec. exact Hnodup.
  - apply forallb_forall. intros v Hv. apply mem_In. eapply ring_incl; eauto.
  - apply forallb_forall. intros p Hp. eapply ring_cover; eauto.
Qed.

Theorem hull_correct_lemma : forall ps, hull_ok ps (hull_pts ps) = true.
Proof.
  intros ps. destruct ps as [|p0 r]; [reflexivity|].
  unfold hull_pts. destruct (has_2_distinct (p0 :: r)) eqn:H2; cbn [negb].
  2:{ (* one distinct point *)
      unfold hull_ok. apply andb_true_iff. split; [apply mem_In; left; reflexivity|].
      apply forallb_forall. intros q Hq. apply pt_eqb_eq. symmetry. eapply has_2_distinct_false; eauto. }
  set (ps := p0 :: r) in *.
  destruct (ring_shape ps H2) as [m [M [Umid [Lmid [Ering RF]]]]].
  rewrite Ering.
  destruct (both_nil_or_not Umid Lmid) as [[-> ->]|Hnd];
    [|destruct (hull_poly_ok ps m M Umid Lmid RF Hnd) as [E1 E2]; rewrite E1; exact E2].
  (* all points collinear: the ring is m M m *)
  destruct RF as [CL CU]. pose proof (cf_lt CL) as HmM.
  cbn [app rev]. unfold is_linear_hull. cbn [length Nat.even Nat.div Nat.divmod fst nth_error firstn].
  rewrite pt_eqb_refl. cbn [last]. unfold hull_ok.
  assert (Hne : pt_eqb m M = false).
  { apply pt_eqb_neq. intros ->. eapply dlt_irrefl; [exact sgn1|exact HmM]. }
  rewrite Hne. cbn [negb andb].
  rewrite (proj2 (mem_In m ps)), (proj2 (mem_In M ps)) by (apply (cf_incl CL); simpl; auto).
  apply forallb_forall. intros p Hp. apply on_segment_of_between.
  + apply (cf_min CL); exact Hp.
  + apply (cf_max CL); exact Hp.
  + pose proof (cf_cov CL p Hp) as C1. pose proof (cf_cov CU p Hp) as C2.
    simpl in C1, C2. unfold cross in *. lia.
Qed.
