(* Translator tie (fourth output of tools/gen_funcs, DESIGN.md A.10), properties C07 / C08: the guard
   geom/twkb_parser.go:twkbParser.checkCount - every element count read from untrusted TWKB input goes
   through it before anything is allocated or looped over - as re-read into Gen/FuncsInt.v on every run,
   against Model/TWKB.v:check_count (the function the no-panic / linear-allocation theorems of C08 and the
   rejection theorems of C07 are about).  The translation is over Z with Go's conversions written out
   (uint64(len(p.twkb) - p.pos), uint64(minBytesPerElement), the unsigned division); the lemma holds for
   EVERY count in uint64, EVERY positive element size and EVERY parser position: the comparison is made
   in the direction `count > remaining / size` - a product count*size (which can wrap around in uint64)
   does not appear.  Go panics on a division by zero where Z.quot returns 0: the lemma requires a
   positive element size (the call sites pass 1, 2 or p.dimensions in 2..4, Consts_tie_C07.v).
   Also here ([tie_wkb_readByte]): geom/wkb_parser.go:wkbParser.readByte, the reader every WKB header
   goes through, against Model/WKB.v:rd_byte, for every body. *)
From Coq Require Import String ZArith NArith List Bool Lia ZifyNat ZifyN.
From SF Require Import Base.FOps Base.FLoop Base.FInt Gen.FuncsInt Base.Varint Model.TWKB
  Proofs.Funcs_tie_Loop_lib Proofs.Funcs_tie_Int_Varint.
From SF Require Model.WKB.
Import ListNotations.
Open Scope Z_scope.

Section Guard.
  Context {F : Type}.

  Definition accepted {A} (r : tres A) : bool := match r with TOk _ _ => true | _ => false end.

  Lemma tie_checkCount : forall (p : geom_twkbParser F) (bs : list N) (s : pst) (cnt : N) (mb : nat),
    geom_twkbParser_twkb p = zbytes bs ->
    0 <= geom_twkbParser_pos p <= Z.of_nat (length bs) -> Z.of_nat (length bs) < two63 ->
    s_in s = skipn (Z.to_nat (geom_twkbParser_pos p)) bs ->
    (0 < mb)%nat -> Z.of_nat mb < two63 -> in_u64 (Z.of_N cnt) ->
    geom_twkbParser_checkCount p (Z.of_N cnt) (Z.of_nat mb) = accepted (check_count cnt mb s).
  Proof.
    intros p bs s cnt mb Eb Hp Hlen Es Hmb Hmb2 Hc.
    unfold geom_twkbParser_checkCount, check_count, accepted, two63 in *. cbv zeta.
    rewrite Eb, Es. unfold zbytes. rewrite map_length, skipn_length.
    set (n := length bs) in *. set (pos := geom_twkbParser_pos p) in *.
    rewrite wrap_i64_id, (wrap_u64_id (Z.of_nat n - pos)), (wrap_u64_id (Z.of_nat mb)) by lia.
    rewrite Z.quot_div_nonneg by lia.
    assert (Hq : 0 <= (Z.of_nat n - pos) / Z.of_nat mb <= Z.of_nat n - pos).
    { split; [apply Z.div_pos; lia|]. apply Z.div_le_upper_bound; nia. }
    rewrite wrap_u64_id by lia.
    assert (Hd : Z.of_N (N.of_nat ((n - Z.to_nat pos) / mb)) = (Z.of_nat n - pos) / Z.of_nat mb).
    { rewrite nat_N_Z, Nat2Z.inj_div. f_equal. lia. }
    destruct (N.ltb_spec (N.of_nat ((n - Z.to_nat pos) / mb)) cnt) as [H|H];
      destruct (Z.gtb_spec (Z.of_N cnt) ((Z.of_nat n - pos) / Z.of_nat mb)) as [G|G]; try reflexivity; exfalso; lia.
  Qed.

  (* the overflow the guard must not have: a count whose product with the element size wraps around
     uint64 is refused whatever is left (here 2^62 + 1 four-ordinate points against 40 unread bytes) *)
  Example huge_count_refused : forall (p : geom_twkbParser F),
    geom_twkbParser_twkb p = zbytes (repeat 0%N 40) -> geom_twkbParser_pos p = 0 ->
    geom_twkbParser_checkCount p (2 ^ 62 + 1) 4 = false.
  Proof.
    intros p Eb Ep. unfold geom_twkbParser_checkCount. rewrite Eb, Ep. vm_compute. reflexivity.
  Qed.

  (* geom/wkb_parser.go:wkbParser.readByte against Model/WKB.v:rd_byte (the reader every WKB header goes
     through): on an empty body the error result (ok = false) and the parser unchanged, otherwise the first
     byte and the body advanced by one - for EVERY body, byte-order field and native-order flag; the
     allocation counter of the model's state is not touched *)
  Lemma tie_wkb_readByte : forall (bs : list N) (bo : Z) (no : bool) (alloc : N),
    geom_wkbParser_readByte (Mk_geom_wkbParser (F:=F) (zbytes bs) bo no)
    = match WKB.rd_byte (bs, alloc) with
      | WKB.POk b (r, _) => Known (Z.of_N b, true, Mk_geom_wkbParser (zbytes r) bo no)
      | _ => Known (0, false, Mk_geom_wkbParser (zbytes bs) bo no)
      end.
  Proof.
    intros bs bo no alloc. unfold geom_wkbParser_readByte, WKB.rd_byte. cbn [geom_wkbParser_body geom_wkbParser_bo geom_wkbParser_no fst snd].
    destruct bs as [|b r]; [reflexivity|].
    pose proof (slice_from_zbytes (b :: r) 1) as H. cbn [length skipn Z.to_nat Pos.to_nat Pos.iter_op] in H.
    rewrite H by lia. cbn [zbytes map length lookup].
    destruct (Z.eqb_spec (Z.of_nat (S (length (map Z.of_N r)))) 0) as [E|_]; [lia|]. reflexivity.
  Qed.
End Guard.
