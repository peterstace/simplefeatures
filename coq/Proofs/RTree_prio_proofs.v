(* Property C11 - proofs about PrioritySearch / Nearest (rtree/nearest.go) of the R-tree model.
   container/heap is abstracted by [heap_spec]: pop removes an entry of minimal distance. *)
From Coq Require Import ZArith List Bool Arith Lia Permutation.
From SF Require Import Base.Outcome Model.RTree Proofs.RTree_proofs.
Import ListNotations.
Open Scope Z_scope.

Definition heap_spec (pop : heap_pop) : Prop :=
  forall q l,
    match pop q l with
    | None => l = []
    | Some (e, r) => Permutation l (e :: r) /\
                     forall e', In e' r -> sqdist (ebox e) q <= sqdist (ebox e') q
    end.

Definition dist (q : box) (it : item) : Z := sqdist (ibox it) q.

Lemma pop_min_aux_spec q : forall l best rest,
  (forall e', In e' rest -> sqdist (ebox best) q <= sqdist (ebox e') q) ->
  let (e, r) := pop_min_aux q best rest l in
  Permutation (best :: rest ++ l) (e :: r) /\
  forall e', In e' r -> sqdist (ebox e) q <= sqdist (ebox e') q.
Proof.
  induction l as [|x l IH]; intros best rest H; simpl.
  - rewrite app_nil_r. split; [reflexivity|exact H].
  - destruct (Z.ltb_spec (sqdist (ebox x) q) (sqdist (ebox best) q)) as [Hlt|Hge].
    + specialize (IH x (best :: rest)). destruct (pop_min_aux q x (best :: rest) l) as [e r].
      destruct IH as [P M].
      { intros e' [<-|He']; [lia|]. specialize (H e' He'). lia. }
      split; [|exact M]. etransitivity; [|exact P]. simpl.
      rewrite <- (Permutation_middle rest l x). apply perm_swap.
    + specialize (IH best (x :: rest)). destruct (pop_min_aux q best (x :: rest) l) as [e r].
      destruct IH as [P M].
      { intros e' [<-|He']; [lia|auto]. }
      split; [|exact M]. etransitivity; [|exact P]. simpl. constructor. symmetry. apply Permutation_middle.
Qed.
Lemma pop_min_heap_spec : heap_spec pop_min.
Proof.
  intros q l. unfold pop_min. destruct l as [|e r]; [reflexivity|].
  pose proof (pop_min_aux_spec q r e [] ltac:(simpl; tauto)) as H.
  destruct (pop_min_aux q e [] r) as [e0 r0]. exact H.
Qed.

Lemma nsize_cons e r : nsize (e :: r) = (esize e + nsize r)%nat.
Proof. reflexivity. Qed.
Lemma nsize_app a b : nsize (a ++ b) = (nsize a + nsize b)%nat.
Proof. induction a as [|x a IH]; [reflexivity|]. cbn [app]. rewrite !nsize_cons, IH. lia. Qed.
Lemma nsize_perm a b : Permutation a b -> nsize a = nsize b.
Proof. induction 1; rewrite ?nsize_cons; lia. Qed.
Lemma leaves_node_perm a b : Permutation a b -> Permutation (leaves_node a) (leaves_node b).
Proof. apply Permutation_flat_map. Qed.

Lemma sorted_by_cons f x r :
  sorted_by f (x :: r) = true <-> forallb (fun y => f x <=? f y) r = true /\ sorted_by f r = true.
Proof.
  revert x. induction r as [|y r IH]; intros x.
  - simpl. tauto.
  - change (sorted_by f (x :: y :: r)) with ((f x <=? f y) && sorted_by f (y :: r)).
    cbn [forallb]. rewrite !andb_true_iff. split.
    + intros [H1 H2]. split; [split; [exact H1|]|exact H2].
      apply IH in H2. destruct H2 as [H2 _]. rewrite forallb_forall in *. intros z Hz.
      specialize (H2 z Hz). apply Z.leb_le in H1, H2. apply Z.leb_le. lia.
    + intros [[H1 _] H2]. tauto.
Qed.
Lemma sorted_by_app f v rest :
  sorted_by f (v ++ rest) = true ->
  sorted_by f v = true /\ forall x u, In x v -> In u rest -> f x <= f u.
Proof.
  induction v as [|x v IH]; [split; [reflexivity|intros x u []]|].
  cbn [app]. rewrite !sorted_by_cons, forallb_app, andb_true_iff. intros [[H1 H2] H3].
  destruct (IH H3) as [S F]. split; [split; assumption|].
  intros y u [<-|Hy] Hu; [|auto]. rewrite forallb_forall in H2. apply Z.leb_le, H2, Hu.
Qed.

Definition prio_okP (items : list item) (q : box) (cb : callback)
           (visits : list item) (ret : result) : Prop :=
  exists rest, Permutation (visits ++ rest) items /\
               sorted_by (dist q) visits = true /\
               (forall x u, In x visits -> In u rest -> dist q x <= dist q u) /\
               stop_clause cb visits rest ret.

Lemma prio_ok_iff items q cb visits ret :
  prio_ok items q cb visits ret = true <-> prio_okP items q cb visits ret.
Proof.
  unfold prio_ok, prio_okP. fold (dist q). split.
  - destruct (ms_diff items visits) as [rest|] eqn:E; [|discriminate].
    rewrite !andb_true_iff. intros [[H1 H2] H3]. exists rest.
    split; [apply ms_diff_perm; exact E|]. split; [exact H1|]. split; [|apply stop_clause_bool; exact H3].
    intros x u Hx Hu. rewrite forallb_forall in H2. specialize (H2 x Hx). rewrite forallb_forall in H2.
    apply Z.leb_le. apply (H2 u Hu).
  - intros (rest & P & H1 & H2 & H3). destruct (perm_ms_diff _ _ _ P) as (rest' & -> & P').
    rewrite !andb_true_iff. split; [split; [exact H1|]|].
    + apply forallb_forall. intros x Hx. apply forallb_forall. intros u Hu. apply Z.leb_le.
      apply H2; [exact Hx|]. eapply Permutation_in; [exact P'|exact Hu].
    + apply stop_clause_bool. eapply stop_clause_perm; eauto.
Qed.

(* a search that presents all records to the callback in an order of non-decreasing distance meets
   the statement of PrioritySearch, whatever the callback answers *)
Lemma visit_prio_ok items q cb l :
  Permutation l items -> sorted_by (dist q) l = true ->
  exists v ret, visit cb l = (v, ret) /\ prio_ok items q cb v ret = true.
Proof.
  intros P S. destruct (visit_spec cb l) as (rest & E & C).
  destruct (visit cb l) as [v ret]; cbn [fst snd] in *. subst l.
  destruct (sorted_by_app _ _ _ S) as [Sv F]. exists v, ret. split; [reflexivity|].
  apply prio_ok_iff. exists rest. auto.
Qed.

Lemma visit_nearest_ok items q l :
  Permutation l items -> sorted_by (dist q) l = true ->
  nearest_ok items q (fold_left (fun _ x => Some x) (fst (visit (fun _ _ => Stop) l)) None) = true.
Proof.
  intros P S. destruct l as [|x l]; cbn.
  - apply Permutation_nil in P. subst. reflexivity.
  - apply sorted_by_cons in S. destruct S as [S _]. rewrite forallb_forall in S. apply andb_true_iff. split.
    + apply existsb_exists. exists x. split; [apply (Permutation_in _ P); left; reflexivity|].
      apply item_eqb_eq. reflexivity.
    + apply forallb_forall. intros y Hy. apply (Permutation_in _ (Permutation_sym P)) in Hy.
      destruct Hy as [<-|Hy]; [apply Z.leb_refl|apply S, Hy].
Qed.

(* each record still below the queue lies inside the box of a queued entry, and that box is at
   least as far as the popped one *)
Lemma popped_leaf_first q b id restq l :
  Forall (fun e => entry_inv e = true) restq ->
  (forall e', In e' restq -> sqdist b q <= sqdist (ebox e') q) ->
  Permutation l (leaves_node restq) -> sorted_by (dist q) l = true ->
  sorted_by (dist q) (MkItem b id :: l) = true.
Proof.
  intros Hall Hmin P S. apply sorted_by_cons. split; [|exact S]. apply forallb_forall. intros u Hu.
  apply (Permutation_in _ P), in_flat_map in Hu. destruct Hu as (e & He & Hu). rewrite Forall_forall in Hall.
  apply Z.leb_le. etransitivity; [apply Hmin, He|]. apply sqdist_inside_mono, leaves_inside; auto.
Qed.

Section Loop.
  Variable pop : heap_pop.
  Hypothesis pop_ok : heap_spec pop.
  Variable q : box.
  Variable cb : callback.


  Lemma ps_loop_run : forall fuel queue k,
    Forall (fun e => entry_inv e = true) queue -> (nsize queue < fuel)%nat ->
    exists l, Permutation l (leaves_node queue) /\ sorted_by (dist q) l = true /\
              ps_loop pop q cb fuel queue k = Some (run cb k l).
  Proof.
    induction fuel as [|f IH]; intros queue k Hall Hf; [lia|]. cbn [ps_loop].
    pose proof (pop_ok q queue) as Hpop. destruct (pop q queue) as [[e restq]|].
    - destruct Hpop as [P Hmin]. rewrite P in Hall. apply Forall_cons_iff in Hall. destruct Hall as [He Hrestq].
      rewrite (nsize_perm _ _ P), nsize_cons in Hf. destruct e as [b id|b n].
      + destruct (IH restq (S k) Hrestq) as (l & Pl & Sl & El); [cbn [esize] in Hf; lia|].
        exists (MkItem b id :: l). split; [rewrite (leaves_node_perm _ _ P); apply perm_skip, Pl|].
        split; [eapply popped_leaf_first; eauto|]. cbn [run iid].
        destruct (err_of (cb k id)); [reflexivity|]. rewrite El. destruct (run cb (S k) l); reflexivity.
      + apply entry_inv_branch in He. destruct He as (_ & _ & Hn).
        change (esize (EBranch b n)) with (S (nsize n)) in Hf.
        destruct (IH (restq ++ n) k) as (l & Pl & Sl & El); [apply Forall_app; auto|rewrite nsize_app; lia|].
        exists l. split; [|auto]. rewrite Pl, (leaves_node_perm _ _ P). unfold leaves_node.
        cbn [flat_map leaves]. rewrite flat_map_app. apply Permutation_app_comm.
    - subst queue. exists []. split; [constructor|]. split; reflexivity.
  Qed.

  Lemma priority_search_run t :
    tree_inv t = true ->
    exists l, Permutation l (tree_leaves t) /\ sorted_by (dist q) l = true /\
              priority_search pop q cb t = Some (visit cb l).
  Proof.
    unfold tree_inv, priority_search, tree_leaves, visit. destruct (root t) as [n|].
    - rewrite andb_true_iff. intros [Hinv _].
      destruct (ps_loop_run (S (nsize n)) n 0 (node_inv_forall _ Hinv)) as (l & P & S & ->); [lia|].
      exists l. split; [exact P|]. split; [exact S|]. destruct (run cb 0 l); reflexivity.
    - intros _. exists []. split; [constructor|]. split; reflexivity.
  Qed.
End Loop.

Lemma priority_search_spec_lemma pop t q cb :
  heap_spec pop -> tree_inv t = true ->
  exists v ret, priority_search pop q cb t = Some (v, ret) /\
                prio_ok (tree_leaves t) q cb v ret = true.
Proof.
  intros Hp Ht. destruct (priority_search_run pop Hp q cb t Ht) as (l & P & S & ->).
  destruct (visit_prio_ok _ q cb l P S) as (v & ret & -> & H). eauto.
Qed.

(* Nearest: a record at minimal distance, or None iff the tree holds no record *)
Lemma nearest_spec_lemma pop t q :
  heap_spec pop -> tree_inv t = true ->
  exists r, nearest pop t q = Some r /\ nearest_ok (tree_leaves t) q r = true.
Proof.
  intros Hp Ht. unfold nearest.
  destruct (priority_search_run pop Hp q (fun _ _ => Stop) t Ht) as (l & P & S & ->).
  pose proof (visit_nearest_ok _ q l P S) as H. destruct (visit _ l) as [v ret].
  eexists. split; [reflexivity|exact H].
Qed.

(* Re-entrancy: a callback may itself search the same tree (another query, another script) and
   let its answers depend on what it found.  In the model a search is a function of (tree, query,
   script) and the tree is immutable, so such a callback is just another callback: the inner
   search meets its specification, and so does the outer one, whatever the interleaving. *)
Lemma nested_searches_spec_lemma pop t q q2 cb2
      (answer : option (list item * result) -> list item * result -> nat -> Z -> action) :
  heap_spec pop -> tree_inv t = true ->
  let inner_p := priority_search pop q2 cb2 t in
  let inner_r := range_search q2 cb2 t in
  let cb := fun k id => answer inner_p inner_r k id in
  (exists v ret, inner_p = Some (v, ret) /\ prio_ok (tree_leaves t) q2 cb2 v ret = true) /\
  range_ok (tree_leaves t) q2 cb2 (fst inner_r) (snd inner_r) = true /\
  (exists v ret, priority_search pop q cb t = Some (v, ret) /\ prio_ok (tree_leaves t) q cb v ret = true) /\
  range_ok (tree_leaves t) q cb (fst (range_search q cb t)) (snd (range_search q cb t)) = true.
Proof.
  intros Hp Ht. cbv zeta. split; [apply priority_search_spec_lemma; assumption|].
  split; [apply range_search_spec_lemma; assumption|].
  split; [apply priority_search_spec_lemma; assumption|apply range_search_spec_lemma; assumption].
Qed.
