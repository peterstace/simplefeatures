(* T3: the ghost spanning tree of geom/dcel_ghosts.go:spanningTree connects all the (distinct) component
   points with exactly n-1 edges, for EVERY order in which PrioritySearch offers the records, provided
   it offers every record. *)
From Coq Require Import QArith List Bool Arith Lia Relations Permutation.
From SF Require Import Base.QKernel Model.OverlayRenode Proofs.OverlayRenode_proofs.
Import ListNotations.
Close Scope Q_scope.
Open Scope nat_scope.

(* connected in the undirected graph with edge list E *)
Definition st_conn (E : list (nat * nat)) : nat -> nat -> Prop :=
  clos_refl_sym_trans nat (fun x y => In (x, y) E).

Lemma rst_map {A B} (R : relation A) (S : relation B) (g : A -> B) :
  (forall x y, R x y -> S (g x) (g y)) ->
  forall x y, clos_refl_sym_trans A R x y -> clos_refl_sym_trans B S (g x) (g y).
Proof.
  intros Hg x y H. induction H.
  - apply rst_step. auto.
  - apply rst_refl.
  - apply rst_sym. assumption.
  - eapply rst_trans; eassumption.
Qed.
Lemma st_conn_mono E E' x y : incl E E' -> st_conn E x y -> st_conn E' x y.
Proof. intros Hi. apply (rst_map _ _ (fun z => z)). intros a b. apply Hi. Qed.

Lemma relabel_classes (ds : list nat) a b : In a ds -> In b ds -> a <> b ->
  S (length (nodup Nat.eq_dec (map (fun l => if Nat.eqb l b then a else l) ds))) = length (nodup Nat.eq_dec ds).
Proof.
  intros Ha Hb Hab. set (f := fun l => if Nat.eqb l b then a else l).
  assert (Hf : forall y, f y <> b) by (intros y; unfold f; destruct (Nat.eqb_spec y b); congruence).
  (* b is the one label that disappears *)
  change (length (b :: nodup Nat.eq_dec (map f ds)) = length (nodup Nat.eq_dec ds)).
  apply Permutation_length, NoDup_Permutation.
  - constructor; [|apply NoDup_nodup]. rewrite nodup_In, in_map_iff. intros [y [E _]]. exact (Hf y E).
  - apply NoDup_nodup.
  - intros x. simpl. rewrite !nodup_In, in_map_iff. split.
    + intros [<-|[y [<- Hy]]]; [exact Hb|]. unfold f. destruct (Nat.eqb y b); assumption.
    + intros Hx. destruct (Nat.eq_dec b x) as [E|E]; [left; exact E|right]. exists x. split; [|exact Hx].
      unfold f. destruct (Nat.eqb_spec x b); congruence.
Qed.

Lemma ds_find_nth ds i d : i < length ds -> ds_find ds i = nth i ds d.
Proof. apply nth_indep. Qed.
Lemma find_in_range (ds : list nat) i : i < length ds -> In (ds_find ds i) ds.
Proof. apply nth_In. Qed.

Lemma ds_find_union ds i j k : k < length ds ->
  ds_find (ds_union ds i j) k =
  (if Nat.eqb (ds_find ds k) (ds_find ds j) then ds_find ds i else ds_find ds k).
Proof.
  intros Hk. unfold ds_union. set (f := fun l => if Nat.eqb l (ds_find ds j) then ds_find ds i else l).
  rewrite (ds_find_nth _ k (f k)) by (rewrite map_length; exact Hk). apply map_nth.
Qed.

Section Tree.
  Variable prio : nat -> list nat.
  Variable n : nat.
  Hypothesis prio_complete : forall i j, i < n -> j < n -> In j (prio i).
  Hypothesis prio_range : forall i j, In j (prio i) -> j < n.

  Definition edges_ok (E : list (nat * nat)) : Prop := forall i j, In (i, j) E -> i < n /\ j < n /\ i <> j.

  Record st_inv (ds : list nat) (acc : list (nat * nat)) (k : nat) : Prop := {
    inv_len : length ds = n;
    inv_conn : forall i j, i < n -> j < n -> ds_find ds i = ds_find ds j -> st_conn acc i j;
    inv_count : length (nodup Nat.eq_dec ds) + k = n;
    inv_edges : length acc = k;
    inv_ok : edges_ok acc }.

  Lemma st_inv_init : st_inv (ds_new n) [] 0.
  Proof.
    unfold ds_new. constructor.
    - apply seq_length.
    - intros i j Hi Hj E. unfold ds_find in E. rewrite !seq_nth in E by assumption. simpl in E. subst j. apply rst_refl.
    - rewrite nodup_fixed_point by apply seq_NoDup. rewrite seq_length. lia.
    - reflexivity.
    - intros i j [].
  Qed.

  Lemma st_pick_some ds i : length ds = n -> i < n -> 2 <= length (nodup Nat.eq_dec ds) ->
    exists j, st_pick prio ds i = Some j.
  Proof.
    intros Hl Hi H2. unfold st_pick. destruct (find _ (prio i)) eqn:E; [eauto|]. exfalso.
    (* no record with another label is offered, and all are offered: one class only *)
    assert (Hall : incl (nodup Nat.eq_dec ds) [ds_find ds i]).
    { intros z Hz. apply nodup_In in Hz. destruct (In_nth ds z z Hz) as [j [Hj Ej]]. left.
      rewrite <- (ds_find_nth ds j z Hj) in Ej. rewrite <- Ej.
      pose proof (find_none _ _ E j (prio_complete i j Hi ltac:(lia))) as F. cbv beta in F.
      destruct (Nat.eqb_spec i j) as [->|_]; [reflexivity|]. apply negb_false_iff, Nat.eqb_eq in F. exact F. }
    apply (NoDup_incl_length (NoDup_nodup _ _)) in Hall. simpl in Hall. lia.
  Qed.

  Lemma st_pick_spec ds i j : st_pick prio ds i = Some j -> j < n /\ i <> j /\ ds_find ds i <> ds_find ds j.
  Proof.
    unfold st_pick. intros H. apply find_some in H. destruct H as [Hin H].
    apply andb_true_iff in H. destruct H as [H1 H2]. apply negb_true_iff in H1, H2.
    apply Nat.eqb_neq in H1, H2. split; [apply (prio_range i j Hin) | split; assumption].
  Qed.

  Lemma st_inv_step ds acc k j : st_inv ds acc k -> k < n -> st_pick prio ds k = Some j ->
    st_inv (ds_union ds k j) (acc ++ [(k, j)]) (S k).
  Proof.
    intros [Il Ic In_ Ie Io] Hk Hp. destruct (st_pick_spec ds k j Hp) as [Hj [Nkj Nl]].
    assert (Hlen : forall x, x < n -> x < length ds) by (intros; lia).
    constructor.
    - unfold ds_union. rewrite map_length. exact Il.
    - assert (Hmono : forall u v, st_conn acc u v -> st_conn (acc ++ [(k, j)]) u v).
      { intros u v. apply st_conn_mono. apply incl_appl. apply incl_refl. }
      assert (Hedge : st_conn (acc ++ [(k, j)]) k j).
      { apply rst_step. apply in_or_app. right. left. reflexivity. }
      (* every item is joined to an item that carried the label of its new class before *)
      assert (Hrep : forall x, x < n -> exists r, r < n /\ ds_find ds r = ds_find (ds_union ds k j) x /\
                                                  st_conn (acc ++ [(k, j)]) x r).
      { intros x Hx. rewrite ds_find_union by auto.
        destruct (Nat.eqb_spec (ds_find ds x) (ds_find ds j)) as [Ex|_].
        - exists k. repeat split; auto. eapply rst_trans; [apply Hmono, (Ic x j Hx Hj Ex)|apply rst_sym, Hedge].
        - exists x. split; [exact Hx|]. split; [reflexivity|apply rst_refl]. }
      intros x y Hx Hy E. destruct (Hrep x Hx) as (rx & Hrx & Ex & Cx), (Hrep y Hy) as (ry & Hry & Ey & Cy).
      eapply rst_trans; [exact Cx|]. eapply rst_trans; [|apply rst_sym; exact Cy].
      apply Hmono, Ic; auto. congruence.
    - unfold ds_union.
      pose proof (relabel_classes ds (ds_find ds k) (ds_find ds j)
                    (find_in_range ds k (Hlen k Hk)) (find_in_range ds j (Hlen j Hj)) Nl) as R.
      lia.
    - rewrite app_length. simpl. lia.
    - intros x y H. apply in_app_or in H. destruct H as [H|[H|[]]]; [apply Io; exact H|].
      inversion H; subst. auto.
  Qed.

  (* every step of the loop over 0 .. n-2 adds an edge *)
  Lemma st_loop_inv m : forall k ds acc, k + m = n - 1 -> st_inv ds acc k ->
    st_inv (fst (st_loop prio (seq k m) ds acc)) (snd (st_loop prio (seq k m) ds acc)) (k + m).
  Proof.
    induction m as [|m IH]; intros k ds acc Hkm Hinv.
    - simpl. rewrite Nat.add_0_r. exact Hinv.
    - cbn [seq st_loop].
      assert (Hk : k < n) by lia.
      assert (H2 : 2 <= length (nodup Nat.eq_dec ds)) by (pose proof (inv_count _ _ _ Hinv); lia).
      destruct (st_pick_some ds k (inv_len _ _ _ Hinv) Hk H2) as [j Hp]. rewrite Hp.
      replace (k + S m) with (S k + m) by lia. apply IH; [lia|].
      apply st_inv_step; assumption.
  Qed.

  Lemma st_edges_inv : exists ds, st_inv ds (st_edges prio n) (n - 1).
  Proof.
    unfold st_edges. destruct (Nat.leb_spec n 1) as [E|E].
    - replace (n - 1) with 0 by lia. exists (ds_new n). apply st_inv_init.
    - exists (fst (st_loop prio (seq 0 (n - 1)) (ds_new n) [])).
      apply (st_loop_inv (n - 1) 0 (ds_new n) []); [lia | apply st_inv_init].
  Qed.

  (* T3 *)
  Lemma st_edges_count : length (st_edges prio n) = n - 1.
  Proof. destruct st_edges_inv as [ds H]. apply (inv_edges _ _ _ H). Qed.
  Lemma st_edges_connected i j : i < n -> j < n -> st_conn (st_edges prio n) i j.
  Proof.
    intros Hi Hj. destruct st_edges_inv as [ds H].
    apply (inv_conn _ _ _ H i j Hi Hj).
    (* one class only *)
    pose proof (inv_count _ _ _ H) as Hc. pose proof (inv_len _ _ _ H) as Hl.
    assert (H1 : length (nodup Nat.eq_dec ds) = 1) by lia.
    destruct (nodup Nat.eq_dec ds) as [|x [|y r]] eqn:E; simpl in H1; try lia.
    assert (Hall : forall z, In z ds -> z = x).
    { intros z Hz. apply (nodup_In Nat.eq_dec) in Hz. rewrite E in Hz. destruct Hz as [->|[]]. reflexivity. }
    rewrite (Hall _ (find_in_range ds i ltac:(lia))), (Hall _ (find_in_range ds j ltac:(lia))). reflexivity.
  Qed.
  Lemma st_edges_ok : edges_ok (st_edges prio n).
  Proof. destruct st_edges_inv as [ds H]. apply (inv_ok _ _ _ H). Qed.
End Tree.

(* ---------------------------------------------------------------- the executable enumeration order *)
(* what the spanning tree needs of PrioritySearch: it offers every record, and records only *)
Definition prio_ok (prio : list pt -> nat -> list nat) : Prop :=
  (forall xys i j, i < length xys -> j < length xys -> In j (prio xys i)) /\
  (forall xys i j, In j (prio xys i) -> j < length xys).
Lemma prio_by_dist_in xys i j : In j (prio_by_dist xys i) <-> j < length xys.
Proof.
  unfold prio_by_dist. rewrite isort_in. rewrite in_seq. lia.
Qed.
Lemma prio_by_dist_ok : prio_ok prio_by_dist.
Proof. split; intros xys i j; rewrite prio_by_dist_in; auto. Qed.

(* ghost lines as a graph on points *)
Definition ghost_conn (G : list (list pt)) : pt -> pt -> Prop :=
  clos_refl_sym_trans pt (fun p q => In [p; q] G).

Lemma spanning_tree_with_length prio pts :
  prio_ok prio ->
  length (spanning_tree_with prio pts) = if Nat.leb (length pts) 1 then 0 else length (sort_uniq_xys pts) - 1.
Proof.
  intros [Hc Hr]. unfold spanning_tree_with. destruct (Nat.leb (length pts) 1); [reflexivity|].
  rewrite map_length. apply st_edges_count; [apply Hc | apply Hr].
Qed.

Lemma spanning_tree_with_connected prio pts :
  prio_ok prio -> 2 <= length pts ->
  forall p q, In p (sort_uniq_xys pts) -> In q (sort_uniq_xys pts) -> ghost_conn (spanning_tree_with prio pts) p q.
Proof.
  intros [Hc Hr] H2 p q Hp Hq. unfold spanning_tree_with.
  assert (L : Nat.leb (length pts) 1 = false) by (apply Nat.leb_gt; lia). rewrite L.
  set (xys := sort_uniq_xys pts) in *. set (d := (0, 0)%Q : pt).
  destruct (In_nth xys p d Hp) as [i [Hi Ei]]. destruct (In_nth xys q d Hq) as [j [Hj Ej]].
  pose proof (st_edges_connected (prio xys) (length xys) (Hc xys) (Hr xys) i j Hi Hj) as C.
  rewrite <- Ei, <- Ej. revert C. apply (rst_map _ _ (fun k => nth k xys d)).
  intros x y H. apply in_map_iff. exists (x, y). split; [reflexivity | exact H].
Qed.

(* every supplied point is (equal to) one of the tree's nodes *)
Lemma sort_uniq_keeps pts p : In p pts -> exists p', In p' (sort_uniq_xys pts) /\ pt_eq p' p.
Proof.
  intros H. unfold sort_uniq_xys. apply uniq_grouped_keeps. apply isort_in. exact H.
Qed.

(* createGhosts: any two component points of the operands are joined by a path of ghost lines *)
Lemma create_ghosts_connects_lemma a b p q :
  let cp := component_pts a ++ component_pts b in
  2 <= length cp -> In p cp -> In q cp ->
  exists p' q', pt_eq p' p /\ pt_eq q' q /\ ghost_conn (create_ghosts a b) p' q'.
Proof.
  intros cp H2 Hp Hq. destruct (sort_uniq_keeps cp p Hp) as [p' [Hp' Ep]].
  destruct (sort_uniq_keeps cp q Hq) as [q' [Hq' Eq]]. exists p', q'. split; [exact Ep|]. split; [exact Eq|].
  unfold create_ghosts, spanning_tree. apply spanning_tree_with_connected; auto using prio_by_dist_ok.
Qed.
Lemma create_ghosts_count_lemma a b :
  let cp := component_pts a ++ component_pts b in
  length (create_ghosts a b) = if Nat.leb (length cp) 1 then 0 else length (sort_uniq_xys cp) - 1.
Proof.
  intros cp. unfold create_ghosts, spanning_tree. apply spanning_tree_with_length, prio_by_dist_ok.
Qed.
