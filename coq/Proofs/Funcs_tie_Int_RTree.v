(* Translator tie (fourth output of tools/gen_funcs, DESIGN.md A.10), property C11: coq/Model/RTree.v
   (calc_bound, extent, count, items_are_horizontal) against the bodies of rtree/box.go
   (calculateBound: the loop over the entries of a node), rtree/bulk.go (itemsAreHorizontal: a range
   loop over items[1:]) and rtree/rtree.go (Count, Extent), as re-read from the Go source into
   Gen/FuncsInt.v on every run.  Carrier: Z ([zops]).  The Go types node / entry are mutually
   recursive through the pointer entry.child: the translation is a mutual Inductive in which a
   pointer field is an option (nil = None); the model's tree (ELeaf / EBranch over lists) is mapped
   into it by [gentry], the fixed-size array node.entries being the list of the numEntries used
   entries followed by ANY padding.  Every lemma is for all trees / all item lists.  An edited body in
   the Go source makes this file fail to compile. *)
From Coq Require Import String ZArith List Bool Lia.
From SF Require Import Base.FOps Base.FLoop Base.FInt Gen.FuncsInt Proofs.Funcs_tie_lib Proofs.Funcs_tie_Loop_lib
  Base.Outcome Model.RTree.
Import ListNotations.
Open Scope Z_scope.

Ltac ztie := intros; repeat match goal with b : RTree.box |- _ => destruct b end; ztie0.

Definition gbox (b : RTree.box) : rtree_Box Z := Mk_rtree_Box (minx b) (miny b) (maxx b) (maxy b).
Definition gitem (it : item) : rtree_BulkItem Z := Mk_rtree_BulkItem (gbox (ibox it)) (iid it).
(* model entry -> Go entry; [pad] is what the unused part of the array node.entries holds *)
Section Pad.
  Variable pad : list (rtree_entry Z).
  Fixpoint gentry (e : entry) : rtree_entry Z :=
    match e with
    | ELeaf b id => Mk_rtree_entry (gbox b) None id
    | EBranch b n => Mk_rtree_entry (gbox b) (Some (Mk_rtree_node (map gentry n ++ pad) (Z.of_nat (length n)))) 0
    end.
  Definition gnode (n : node) : rtree_node Z := Mk_rtree_node (map gentry n ++ pad) (Z.of_nat (length n)).
  Definition gtree (t : rtree) : rtree_RTree Z := Mk_rtree_RTree (option_map gnode (root t)) (Z.of_nat (tcount t)).

  Lemma gentry_box : forall e, rtree_entry_box (gentry e) = gbox (ebox e).
  Proof. intros []; reflexivity. Qed.

  (* rtree/box.go:combine as translated into Gen/FuncsInt.v *)
  Lemma tie_combine : forall b1 b2, rtree_combine zops (gbox b1) (gbox b2) = gbox (RTree.combine b1 b2).
  Proof. ztie. Qed.

  Lemma lookup_entries : forall (n : node) i e, lookup n i = Some e -> lookup (map gentry n ++ pad) i = Some (gentry e).
  Proof.
    intros n i e H. unfold lookup in *. destruct (i <? 0); [discriminate|].
    rewrite nth_error_app1.
    - rewrite nth_error_map, H. reflexivity.
    - rewrite map_length. apply nth_error_Some. congruence.
  Qed.

  (* rtree/box.go:calculateBound on a node with at least one entry *)
  Lemma tie_calculateBound : forall n, n <> [] ->
    rtree_calculateBound zops (gnode n) = Known (gbox (calc_bound n)).
  Proof.
    intros n Hne. destruct n as [|e0 r]; [contradiction|]. set (n := e0 :: r).
    unfold rtree_calculateBound. cbn [gnode rtree_node_entries rtree_node_numEntries].
    rewrite (lookup_entries n 0 e0) by reflexivity. cbv zeta. rewrite gentry_box.
    set (f := fun b e' => RTree.combine b (ebox e')).
    set (TOTAL := fold_left f r (ebox e0)).
    loop_rule 1 (Z.of_nat (length n))
      (fun (i : Z) (box : rtree_Box Z) => exists b, box = gbox b /\ fold_left f (suffix n i) b = TOTAL)
      (fun res : loop_res (rtree_Box Z) (rtree_Box Z) => match res with LDone box => box = gbox TOTAL | _ => False end).
    - loop_cond.
    - loop_fuel.
    - exists (ebox e0). split; reflexivity.
    - intros i box Hi (b & -> & Hf).
      destruct (suffix_one n i ltac:(lia)) as (e & r' & Hs & Hl & Hs1).
      rewrite (lookup_entries n i e Hl). rewrite gentry_box, tie_combine.
      exists (RTree.combine b (ebox e)). split; [reflexivity|]. rewrite Hs1. rewrite Hs in Hf. exact Hf.
    - intros box (b & -> & Hf). rewrite suffix_nil_ge in Hf by (unfold n; cbn [length]; lia). cbn in Hf. now subst.
    - subst s. reflexivity.
    - contradiction.
    - contradiction.
  Qed.

  (* rtree/rtree.go:Count, Extent *)
  Lemma tie_Count : forall t, rtree_RTree_Count (gtree t) = Z.of_nat (count t).
  Proof. reflexivity. Qed.
  Lemma tie_Extent : forall t,
    rtree_RTree_Extent zops (gtree t)
    = Known (match extent t with None => (gbox zero_box, false) | Some b => (gbox b, true) end).
  Proof.
    intros [[n|] c]; unfold rtree_RTree_Extent, extent; cbn [gtree root option_map rtree_RTree_root is_nil_func]; [|reflexivity].
    cbn [gnode rtree_node_numEntries]. destruct n as [|e0 r]; [reflexivity|].
    change (Z.of_nat (length (e0 :: r)) =? 0) with false. cbv iota.
    change (Mk_rtree_node (map gentry (e0 :: r) ++ pad) (Z.of_nat (length (e0 :: r)))) with (gnode (e0 :: r)).
    rewrite tie_calculateBound by discriminate. reflexivity.
  Qed.
End Pad.

(* rtree/bulk.go:itemsAreHorizontal; the empty slice panics at items[0] *)
Lemma tie_itemsAreHorizontal : forall l,
  rtree_itemsAreHorizontal zops (map gitem l)
  = match items_are_horizontal l with
    | Ok b => Known b
    | _ => Unknown "index out of range"%string
    end.
Proof.
  intros [|it r]; [reflexivity|]. unfold rtree_itemsAreHorizontal, items_are_horizontal.
  cbn [map]. rewrite lookup_0. cbv zeta.
  assert (Es : slice_from (gitem it :: map gitem r) 1 = Some (map gitem r)) by (unfold slice_from; cbn [length]; destruct (Z.ltb_spec (Z.of_nat (S (length (map gitem r)))) 1); [lia|reflexivity]).
  rewrite Es. change (rtree_BulkItem_Box (gitem it)) with (gbox (ibox it)).
  rewrite (range_loop_fold_tie gitem gbox _ (fun b it' => RTree.combine b (ibox it')))
    by (intros i x b; cbn [gitem rtree_BulkItem_Box]; rewrite tie_combine; reflexivity).
  reflexivity.
Qed.
