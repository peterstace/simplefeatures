(* Lower bound of the segment-segment kernel of Distance (property C09): for two closed
   non-degenerate segments without a common point, the minimum of the four end-point-to-segment
   distances is a lower bound of the distance between any two of their points.
   Argument: f(u,v) = |a + u(b-a) - c - v(d-c)|^2 is the squared length of a vector affine in (u,v), so
   along a straight path in (u,v) space it stays below the larger of its two end values.  Take the path
   from (u0,v0) to the (u,v) values of the crossing point of the supporting lines (outside the unit
   square; f = 0 there), or, when the lines are parallel, along their common direction (f constant);
   the path leaves the unit square through its boundary, where one of the two points is an end point. *)
From Coq Require Import QArith Qabs Qreduction List Bool ZArith Lia Lqa Setoid Morphisms.
From SF Require Import Base.GeomAST Base.QKernel Base.Planar Proofs.Planar_slab_base Model.Intersects Model.Distance
  Proofs.Intersects_proofs Proofs.Distance_proofs.
Import ListNotations.
Open Scope Q_scope.

(* one coordinate: how far one can go from u (inside [0,1]) towards u' while staying inside *)
Lemma exit_1d u u' :
  0 <= u <= 1 ->
  exists tu, 0 <= tu <= 1 /\
    (forall tau, 0 <= tau <= tu -> 0 <= u + tau * (u' - u) <= 1) /\
    ((0 <= u' <= 1 /\ tu == 1) \/ u + tu * (u' - u) == 0 \/ u + tu * (u' - u) == 1).
Proof.
  intros [U0 U1].
  destruct (Qlt_le_dec u' 0) as [L|L].
  - assert (Hd : ~ u - u' == 0) by lra.
    exists (u / (u - u')).
    assert (Ht : u / (u - u') * (u - u') == u) by (field; exact Hd).
    set (t := u / (u - u')) in *.
    assert (T0 : 0 <= t) by nra. assert (T1 : t <= 1) by nra.
    split; [lra|]. split.
    + intros tau [A B]. split; nra.
    + right; left. nra.
  - destruct (Qlt_le_dec 1 u') as [G|G].
    + assert (Hd : ~ u' - u == 0) by lra.
      exists ((1 - u) / (u' - u)).
      assert (Ht : (1 - u) / (u' - u) * (u' - u) == 1 - u) by (field; exact Hd).
      set (t := (1 - u) / (u' - u)) in *.
      assert (T0 : 0 <= t) by nra. assert (T1 : t <= 1) by nra.
      split; [lra|]. split.
      * intros tau [A B]. split; nra.
      * right; right. nra.
    + exists 1. split; [lra|]. split.
      * intros tau [A B]. split; nra.
      * left. split; [lra | reflexivity].
Qed.

(* two coordinates: a straight path from a point of the unit square to a point outside it meets
   the boundary of the square *)
Lemma exit_square u v u' v' :
  0 <= u <= 1 -> 0 <= v <= 1 -> ~ (0 <= u' <= 1 /\ 0 <= v' <= 1) ->
  exists tau, 0 <= tau <= 1 /\
    0 <= u + tau * (u' - u) <= 1 /\ 0 <= v + tau * (v' - v) <= 1 /\
    (u + tau * (u' - u) == 0 \/ u + tau * (u' - u) == 1 \/ v + tau * (v' - v) == 0 \/ v + tau * (v' - v) == 1).
Proof.
  intros Hu Hv Hout.
  destruct (exit_1d u u' Hu) as [tu [[Tu0 Tu1] [Ru Eu]]].
  destruct (exit_1d v v' Hv) as [tv [[Tv0 Tv1] [Rv Ev]]].
  destruct (Qlt_le_dec tv tu) as [L|L].
  - (* leaves through v first *)
    exists tv. split; [lra|]. split; [apply Ru; lra|]. split; [apply Rv; lra|].
    destruct Ev as [[Hv' E]|[E|E]].
    + exfalso. lra.
    + right; right; left. exact E.
    + right; right; right. exact E.
  - exists tu. split; [lra|]. split; [apply Ru; lra|]. split; [apply Rv; lra|].
    destruct Eu as [[Hu' E]|[E|E]].
    + (* tu = 1 <= tv <= 1 *)
      assert (Etv : tu == tv) by lra.
      destruct Ev as [[Hv' _]|[E'|E']].
      * exfalso. apply Hout. split; assumption.
      * right; right; left. rewrite Etv. exact E'.
      * right; right; right. rewrite Etv. exact E'.
    + left. exact E.
    + right; left. exact E.
Qed.

Definition pt_at (a b : pt) (u : Q) : pt := (fst a + u * (fst b - fst a), snd a + u * (snd b - snd a)).

Lemma pt_at_on_seg a b u : 0 <= u <= 1 -> on_seg (a, b) (pt_at a b u) = true.
Proof.
  intros H. apply on_seg_iff. exists u. unfold seg_param, pt_at; cbn [fst snd]. split; [exact H|]. split; reflexivity.
Qed.
Lemma on_seg_pt_at a b p : on_seg (a, b) p = true -> exists u, 0 <= u <= 1 /\ pt_eq p (pt_at a b u).
Proof.
  intros H. apply on_seg_iff in H. destruct H as [u [Hu [Hx Hy]]]. exists u. split; [exact Hu|].
  split; cbn [pt_at fst snd]; assumption.
Qed.

Lemma d2_line_line_le a b c d :
  let m := d2_line_line (a, b) (c, d) in
  m <= d2_xy_line a (c, d) /\ m <= d2_xy_line b (c, d) /\ m <= d2_xy_line c (a, b) /\ m <= d2_xy_line d (a, b).
Proof. exact (proj1 (qmin4_spec _ _ _ _)). Qed.

(* on the boundary of the unit (u,v) square one of the two points is an end point *)
Lemma end_bound a b c d x y :
  ~ pt_eq c d -> 0 <= y <= 1 -> x == 0 \/ x == 1 ->
  d2_line_line (a, b) (c, d) <= d2_xy (pt_at a b x) (pt_at c d y).
Proof.
  intros Hcd Hy Hx. destruct (d2_line_line_le a b c d) as [La [Lb _]].
  assert (K : forall e, pt_eq (pt_at a b x) e -> d2_line_line (a, b) (c, d) <= d2_xy_line e (c, d) ->
              d2_line_line (a, b) (c, d) <= d2_xy (pt_at a b x) (pt_at c d y)).
  { intros e Ep Le. rewrite (d2_xy_proper _ e _ (pt_at c d y) Ep); [|reflexivity].
    eapply Qle_trans; [exact Le|]. apply d2_xy_line_le; [exact Hcd | apply pt_at_on_seg; exact Hy]. }
  destruct Hx as [E|E]; [apply (K a) | apply (K b)]; trivial; split; cbn [pt_at fst snd]; rewrite E; ring.
Qed.

Lemma boundary_bound a b c d x y :
  ~ pt_eq a b -> ~ pt_eq c d -> 0 <= x <= 1 -> 0 <= y <= 1 ->
  (x == 0 \/ x == 1 \/ y == 0 \/ y == 1) ->
  d2_line_line (a, b) (c, d) <= d2_xy (pt_at a b x) (pt_at c d y).
Proof.
  intros Hab Hcd Hx Hy Hb. assert (Hb' : (x == 0 \/ x == 1) \/ (y == 0 \/ y == 1)) by tauto.
  destruct Hb' as [E|E]; [apply end_bound; assumption|].
  rewrite d2_line_line_sym, d2_xy_sym. apply end_bound; assumption.
Qed.

(* along a straight path in (u,v) space the difference vector is affine *)
Lemma diff_along a b c d u0 v0 u1 v1 tau :
  let x := u0 + tau * (u1 - u0) in let y := v0 + tau * (v1 - v0) in
  fst (pt_at a b x) - fst (pt_at c d y) ==
    (1 - tau) * (fst (pt_at a b u0) - fst (pt_at c d v0)) + tau * (fst (pt_at a b u1) - fst (pt_at c d v1)) /\
  snd (pt_at a b x) - snd (pt_at c d y) ==
    (1 - tau) * (snd (pt_at a b u0) - snd (pt_at c d v0)) + tau * (snd (pt_at a b u1) - snd (pt_at c d v1)).
Proof. cbv zeta. unfold pt_at; cbn [fst snd]. split; ring. Qed.

(* |(1 - tau) w + tau z|^2 = (1 - tau) |w|^2 + tau |z|^2 - tau (1 - tau) |w - z|^2 *)
Lemma sq_convex wx wy zx zy tau :
  0 <= tau <= 1 -> zx * zx + zy * zy <= wx * wx + wy * wy ->
  ((1 - tau) * wx + tau * zx) * ((1 - tau) * wx + tau * zx) + ((1 - tau) * wy + tau * zy) * ((1 - tau) * wy + tau * zy)
    <= wx * wx + wy * wy.
Proof.
  intros Ht Hz.
  assert (A : 0 <= tau * (1 - tau) * ((wx - zx) * (wx - zx) + (wy - zy) * (wy - zy))).
  { pose proof (sq_nonneg (wx - zx)). pose proof (sq_nonneg (wy - zy)). repeat apply Qmult_le_0_compat; lra. }
  assert (B : 0 <= tau * (wx * wx + wy * wy - (zx * zx + zy * zy))) by (apply Qmult_le_0_compat; lra).
  lra.
Qed.

Lemma path_bound a b c d u0 v0 u1 v1 :
  ~ pt_eq a b -> ~ pt_eq c d -> 0 <= u0 <= 1 -> 0 <= v0 <= 1 -> ~ (0 <= u1 <= 1 /\ 0 <= v1 <= 1) ->
  d2_xy (pt_at a b u1) (pt_at c d v1) <= d2_xy (pt_at a b u0) (pt_at c d v0) ->
  d2_line_line (a, b) (c, d) <= d2_xy (pt_at a b u0) (pt_at c d v0).
Proof.
  intros Hab Hcd Hu Hv Hout Hle.
  destruct (exit_square u0 v0 u1 v1 Hu Hv Hout) as [tau [Ht [Hx [Hy Hb]]]].
  eapply Qle_trans; [apply (boundary_bound a b c d _ _ Hab Hcd Hx Hy Hb)|].
  destruct (diff_along a b c d u0 v0 u1 v1 tau) as [Dx Dy]. cbv zeta in Dx, Dy.
  rewrite !d2_xy_expand in Hle. rewrite !d2_xy_expand, Dx, Dy. apply sq_convex; assumption.
Qed.

Lemma seg_seg_d2_lower a b c d p q :
  ~ pt_eq a b -> ~ pt_eq c d ->
  (forall w, ~ (on_seg (a, b) w = true /\ on_seg (c, d) w = true)) ->
  on_seg (a, b) p = true -> on_seg (c, d) q = true ->
  d2_line_line (a, b) (c, d) <= d2_xy p q.
Proof.
  intros Hab Hcd Hdis Hp Hq.
  destruct (on_seg_pt_at a b p Hp) as [u0 [Hu0 Ep]]. destruct (on_seg_pt_at c d q Hq) as [v0 [Hv0 Eq]].
  rewrite (d2_xy_proper p _ q _ Ep Eq).
  set (abx := fst b - fst a). set (aby := snd b - snd a). set (cdx := fst d - fst c). set (cdy := snd d - snd c).
  set (den := abx * cdy - aby * cdx).
  destruct (Qeq_dec den 0) as [Epar|Hden].
  - (* parallel supporting lines: cd = k * ab, and the difference vector is the same at (u0 + 2 k, v0 + 2) *)
    assert (Hl : 0 < abx * abx + aby * aby).
    { pose proof (l2_pos a b Hab) as L. unfold vdot, vsub in L; cbn [fst snd] in L. exact L. }
    assert (Hd : ~ abx * abx + aby * aby == 0) by lra.
    set (k := (cdx * abx + cdy * aby) / (abx * abx + aby * aby)).
    assert (Hk : k * (abx * abx + aby * aby) == cdx * abx + cdy * aby) by (unfold k; field; exact Hd).
    assert (Kx : (k * abx - cdx) * (abx * abx + aby * aby) == 0).
    { transitivity (k * (abx * abx + aby * aby) * abx - cdx * (abx * abx + aby * aby)); [ring|]. rewrite Hk.
      transitivity (aby * (abx * cdy - aby * cdx)); [ring|]. fold den. rewrite Epar. ring. }
    assert (Ky : (k * aby - cdy) * (abx * abx + aby * aby) == 0).
    { transitivity (k * (abx * abx + aby * aby) * aby - cdy * (abx * abx + aby * aby)); [ring|]. rewrite Hk.
      transitivity (- abx * (abx * cdy - aby * cdx)); [ring|]. fold den. rewrite Epar. ring. }
    apply Qmult_integral in Kx. apply Qmult_integral in Ky.
    destruct Kx as [Kx|Kx]; [|contradiction]. destruct Ky as [Ky|Ky]; [|contradiction].
    apply (path_bound a b c d u0 v0 (u0 + 2 * k) (v0 + 2) Hab Hcd Hu0 Hv0); [lra|].
    assert (Dx : fst (pt_at a b (u0 + 2 * k)) - fst (pt_at c d (v0 + 2)) == fst (pt_at a b u0) - fst (pt_at c d v0)).
    { unfold pt_at; cbn [fst snd]. fold abx cdx.
      transitivity (fst a + u0 * abx - (fst c + v0 * cdx) + 2 * (k * abx - cdx)); [ring|]. rewrite Kx. ring. }
    assert (Dy : snd (pt_at a b (u0 + 2 * k)) - snd (pt_at c d (v0 + 2)) == snd (pt_at a b u0) - snd (pt_at c d v0)).
    { unfold pt_at; cbn [fst snd]. fold aby cdy.
      transitivity (snd a + u0 * aby - (snd c + v0 * cdy) + 2 * (k * aby - cdy)); [ring|]. rewrite Ky. ring. }
    rewrite !d2_xy_expand, Dx, Dy. apply Qle_refl.
  - (* the supporting lines cross at (us, vs), outside the unit square *)
    set (rx := fst c - fst a). set (ry := snd c - snd a).
    set (us := (rx * cdy - ry * cdx) / den). set (vs := (rx * aby - ry * abx) / den).
    assert (Hus : us * den == rx * cdy - ry * cdx) by (unfold us; field; exact Hden).
    assert (Hvs : vs * den == rx * aby - ry * abx) by (unfold vs; field; exact Hden).
    assert (Mx : (fst (pt_at a b us) - fst (pt_at c d vs)) * den == 0).
    { unfold pt_at; cbn [fst snd]. fold abx cdx.
      transitivity (fst a * den + (us * den) * abx - fst c * den - (vs * den) * cdx); [ring|]. rewrite Hus, Hvs.
      unfold den, rx. ring. }
    assert (My : (snd (pt_at a b us) - snd (pt_at c d vs)) * den == 0).
    { unfold pt_at; cbn [fst snd]. fold aby cdy.
      transitivity (snd a * den + (us * den) * aby - snd c * den - (vs * den) * cdy); [ring|]. rewrite Hus, Hvs.
      unfold den, ry. ring. }
    apply Qmult_integral in Mx. apply Qmult_integral in My.
    destruct Mx as [Mx|Mx]; [|contradiction]. destruct My as [My|My]; [|contradiction].
    assert (Hout : ~ (0 <= us <= 1 /\ 0 <= vs <= 1)).
    { intros [H1 H2]. apply (Hdis (pt_at a b us)). split; [apply pt_at_on_seg; exact H1|].
      rewrite (on_seg_pt_eq (c, d) (pt_at a b us) (pt_at c d vs)); [apply pt_at_on_seg; exact H2|]. split; lra. }
    apply (path_bound a b c d u0 v0 us vs Hab Hcd Hu0 Hv0 Hout).
    rewrite (d2_xy_expand (pt_at a b us)), Mx, My, Qmult_0_l, Qplus_0_l. apply d2_xy_nonneg.
Qed.

(* ================================================================ Distance is the minimum distance *)
Lemma part_xys_as_multi g : part_xys (as_multi g) = part_xys g.
Proof. destruct g; try reflexivity. apply app_nil_r. Qed.
Lemma part_lines_as_multi g : part_lines (as_multi g) = part_lines g.
Proof. destruct g; try reflexivity; apply app_nil_r. Qed.
Lemma covered_mleaf g l x : In l (mleaves g) -> covered l x -> covered g x.
Proof.
  intros Hl [[v [Hv E]]|[ln [Hln E]]].
  - left. exists v. split; [|exact E]. exact (in_mleaf part_xys g l v (fun _ _ => eq_refl) part_xys_as_multi Hl Hv).
  - right. exists ln. split; [|exact E]. exact (in_mleaf part_lines g l ln (fun _ _ => eq_refl) part_lines_as_multi Hl Hln).
Qed.

Lemma inG_part_cover g p : no_polys g = true -> lines_wf g = true -> inG g p = true -> covered g p.
Proof.
  intros N W H. apply inG_iff in H. destruct H as [l [Hl H]]. apply (covered_mleaf g l p Hl).
  pose proof (mleaves_multi g l Hl) as M. pose proof (no_polys_mleaf g l N Hl) as Nl. pose proof (lines_wf_mleaf g l W Hl) as Wl.
  destruct l as [q|r|y|c a|c a|c a|c gs]; cbn [is_multi] in M; try contradiction.
  - left. cbn [inG part_xys] in *. apply existsb_exists in H. destruct H as [q [Hq H]].
    unfold in_point in H. apply existsb_exists in H. destruct H as [x [Hx E]].
    exists x. split; [apply in_flat_map; eauto | apply pt_eqb_iff; exact E].
  - right. exact (inML_cover a p Wl H).
  - destruct a; discriminate.
Qed.

Lemma covered_pair_bound a b v p q :
  (forall w, inG a w = true -> inG b w = true -> False) ->
  (forall x, pairval (part_xys a) (part_lines a) (part_xys b) (part_lines b) x -> v <= x) ->
  covered a p -> covered b q -> v <= d2_xy p q.
Proof.
  intros Hdis Hle [[x [Hx Ex]]|[ln [Hln Eln]]] [[y [Hy Ey]]|[ln2 [Hln2 Eln2]]].
  - rewrite (d2_xy_proper p x q y Ex Ey). apply Hle. constructor; assumption.
  - rewrite (d2_xy_proper p x q q Ex); [|reflexivity].
    pose proof (part_line_nondeg b ln2 Hln2) as Nd. destruct ln2 as [c d']. cbn [fst snd] in Nd.
    eapply Qle_trans; [apply Hle; apply (PV_pl _ _ _ _ x (c, d') Hx Hln2)|].
    apply d2_xy_line_le; assumption.
  - rewrite (d2_xy_proper p p q y); [|reflexivity|exact Ey]. rewrite d2_xy_sym.
    pose proof (part_line_nondeg a ln Hln) as Nd. destruct ln as [c d']. cbn [fst snd] in Nd.
    eapply Qle_trans; [apply Hle; apply (PV_lp _ _ _ _ (c, d') y Hln Hy)|].
    apply d2_xy_line_le; assumption.
  - pose proof (part_line_nondeg a ln Hln) as Nd1. pose proof (part_line_nondeg b ln2 Hln2) as Nd2.
    eapply Qle_trans; [apply Hle; apply (PV_ll _ _ _ _ ln ln2 Hln Hln2)|].
    rewrite d2_xy_sym. destruct ln as [a1 b1], ln2 as [c1 d1]. cbn [fst snd] in Nd1, Nd2.
    apply seg_seg_d2_lower; try assumption.
    intros w [H1 H2]. apply (Hdis w); [eapply part_line_inG; [exact Hln | exact H2] | eapply part_line_inG; [exact Hln2 | exact H1]].
Qed.

(* Distance (squared) is the minimum squared distance between the two point sets as soon as
   Intersects finds every common point and every pair of points has a pair of covered points at
   most as far apart: the value is attained, and a lower bound for every pair of points *)
Lemma distance_is_min_of a b d :
  rings_closed a = true -> rings_closed b = true ->
  (forall w, inG a w = true -> inG b w = true -> intersects a b = true) ->
  (intersects a b = false -> forall p q, inG a p = true -> inG b q = true ->
     exists p' q', covered a p' /\ covered b q' /\ d2_xy p' q' <= d2_xy p q) ->
  dist2 a b = Some d ->
  (exists p q, inG a p = true /\ inG b q = true /\ d == d2_xy p q) /\
  (forall p q, inG a p = true -> inG b q = true -> d <= d2_xy p q).
Proof.
  intros Ca Cb Complete Reach Hd. destruct (intersects a b) eqn:Ei.
  - assert (E0 : d = 0) by (unfold dist2 in Hd; rewrite Ei in Hd; injection Hd as <-; reflexivity). subst d.
    split.
    + destruct (intersects_sound a b Ca Cb Ei) as [w [H1 H2]].
      exists w, w. split; [exact H1|]. split; [exact H2|]. rewrite d2_xy_expand. ring.
    + intros p q _ _. apply d2_xy_nonneg.
  - destruct (dist2_pair_min a b d Ei Hd) as [v [Ev [Hv Hle]]]. split.
    + destruct (pairval_covered a b v Hv) as [p [q [Cp [Cq E]]]]. exists p, q. rewrite Ev. auto using covered_inG.
    + intros p q Hp Hq. destruct (Reach eq_refl p q Hp Hq) as [p' [q' [Cp [Cq Le]]]].
      rewrite Ev. eapply Qle_trans; [|exact Le]. apply (covered_pair_bound a b v p' q'); try assumption.
      intros w H1 H2. discriminate (Complete w H1 H2).
Qed.

Lemma no_polys_closed g : no_polys g = true -> rings_closed g = true.
Proof. unfold no_polys, rings_closed. destruct (g_polys g); [reflexivity | discriminate]. Qed.

Lemma distance_is_min_lineal a b d :
  no_polys a = true -> no_polys b = true -> lines_wf a = true -> lines_wf b = true ->
  dist2 a b = Some d ->
  (exists p q, inG a p = true /\ inG b q = true /\ d == d2_xy p q) /\
  (forall p q, inG a p = true -> inG b q = true -> d <= d2_xy p q).
Proof.
  intros Na Nb Wa Wb. apply distance_is_min_of; try (apply no_polys_closed; assumption).
  - intros w. apply intersects_complete_lineal; assumption.
  - intros _ p q Hp Hq. exists p, q. split; [apply inG_part_cover; assumption|]. split; [apply inG_part_cover; assumption|]. lra.
Qed.

Lemma inG_in_parts_box g e p :
  no_polys g = true -> lines_wf g = true -> parts_box g = Some e -> inG g p = true -> box_contains e p = true.
Proof. intros N W E H. exact (covered_in_box g e p E (inG_part_cover g p N W H)). Qed.

(* also when the operands intersect (then the boxes overlap), for operands without areal parts *)
Lemma distance_ge_envelope_lineal a b ea eb d :
  no_polys a = true -> no_polys b = true -> lines_wf a = true -> lines_wf b = true ->
  parts_box a = Some ea -> parts_box b = Some eb -> dist2 a b = Some d -> box_d2 ea eb <= d.
Proof.
  intros Na Nb Wa Wb Ea Eb Hd.
  destruct (distance_is_min_lineal a b d Na Nb Wa Wb Hd) as [[p [q [Hp [Hq E]]]] _].
  rewrite E. apply box_d2_le; [exact (inG_in_parts_box a ea p Na Wa Ea Hp) | exact (inG_in_parts_box b eb q Nb Wb Eb Hq)].
Qed.
