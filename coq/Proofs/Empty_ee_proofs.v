(* Lemmas for property C20: ExactEquals (Model/ExactEq.v, C18) is structural - it is NOT transparent
   to empty members by design - but it is total and reflexive on geometries with inserted typed
   empty members: the domain of C18's reflexivity theorem is closed under insert_empties. *)
From Coq Require Import List Bool Arith NArith.
From SF Require Import Base.GeomAST Model.Empty Proofs.Empty_proofs.
From SF Require Import Model.WKB Model.ExactEq Proofs.ExactEq_proofs.
Import ListNotations.

Lemma ins_geom_nf (ok : N -> bool) (g : geomT N) : forall p, geom_nf ok (insert_empties g p) = geom_nf ok g.
Proof. apply (ins_memberwise N (geom_nf ok) (point_nf ok) (line_nf ok) (poly_nf ok)); [intros []|..]; reflexivity. Qed.
Lemma ins_nan_free (g : geomT N) p : nan_free (insert_empties g p) = nan_free g.
Proof. apply ins_geom_nf. Qed.

Lemma ins_ee_refl simple tol io (g : geomT N) p :
  nan_free g = true -> exact_equals simple tol io (insert_empties g p) (insert_empties g p) = true.
Proof. intros H. apply ee_tol_refl_lemma. rewrite ins_nan_free. exact H. Qed.

(* not transparent, by design: POINT(1 1) in a collection with / without a POLYGON EMPTY sibling *)
Lemma ee_sees_empty_members simple :
  exists (g : geomT N) p, nan_free g = true /\ exact_equals simple 0 false (insert_empties g p) g = false.
Proof.
  exists (GColl XY [GPoint (MkPoint XY (Some (Build_vtx 4607182418800017408%N 4607182418800017408%N 0%N 0%N)))]), (EP [(1%nat, EPg)] []).
  split; vm_compute; reflexivity.
Qed.
