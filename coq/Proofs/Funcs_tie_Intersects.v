(* Translator tie for function bodies (DESIGN.md A.8b), property C09: the kernel functions of
   coq/Model/Intersects.v (and the envelope distance of Model/Distance.v) against the bodies of
   geom/util.go (sortFloat64Pair, fastMin, fastMax), geom/line.go (box, uncheckedEnvelope,
   intersectsXY, onSegment, intersectLine), geom/type_envelope.go (Contains), rtree/box.go (overlap),
   geom/alg_orientation.go (orientation), geom/xy.go (Sub, Cross, box) and
   geom/alg_point_in_ring.go (hasCrossing), as re-read from the Go source into Gen/Funcs.v on every
   run.  Carrier: Q ([qops]).  Every lemma is for all arguments.  An edited body in the Go source
   makes this file fail to compile. *)
From Coq Require Import ZArith QArith Bool Lia Lqa.
From SF Require Import Base.FOps Gen.Funcs Proofs.Funcs_tie_lib Base.QKernel Model.Intersects.
Open Scope Q_scope.

(* geom.XY <-> pt,  geom.line <-> seg,  rtree.Box / non-empty geom.Envelope <-> Intersects.box *)
Definition gpt (p : pt) : geom_XY Q := Mk_geom_XY (fst p) (snd p).
Definition gln (s : seg) : geom_line Q := Mk_geom_line (gpt (fst s)) (gpt (snd s)).
Definition gbox (b : Intersects.box) : rtree_Box Q := Mk_rtree_Box (bminx b) (bminy b) (bmaxx b) (bmaxy b).
Definition genv (b : Intersects.box) : geom_Envelope Q :=
  Mk_geom_Envelope (Mk_geom_XY (bminx b) (bminy b)) (Mk_geom_XY (bmaxx b) (bmaxy b)) true.
(* threePointOrientation <-> turn *)
Definition gturn (t : turn) : Z :=
  match t with LeftTurn => geom_leftTurn | Collinear => geom_collinear | RightTurn => geom_rightTurn end.

Ltac qtie := intros; destruct_pairs; repeat match goal with b : Intersects.box |- _ => destruct b end; qtie0.

(* geom/util.go:sortFloat64Pair, fastMin, fastMax (math.IsNaN is constantly false on Q) *)
Lemma tie_sortFloat64Pair : forall a b, geom_sortFloat64Pair qops a b = sort_pair a b.
Proof. reflexivity. Qed.
Lemma tie_geom_fastMax : forall a b, geom_fastMax qops a b = qmax2 a b.
Proof. reflexivity. Qed.
Lemma tie_geom_fastMin : forall a b, geom_fastMin qops a b = qmin2 a b.
Proof. reflexivity. Qed.

(* geom/line.go:box and uncheckedEnvelope; geom/xy.go:box and uncheckedEnvelope *)
Lemma tie_line_box : forall ln, geom_line_box qops (gln ln) = gbox (line_box ln).
Proof. qtie. Qed.
Lemma tie_line_uncheckedEnvelope : forall ln, geom_line_uncheckedEnvelope qops (gln ln) = genv (line_box ln).
Proof. qtie. Qed.
Lemma tie_xy_box : forall p, geom_XY_box (gpt p) = gbox (xy_box p).
Proof. reflexivity. Qed.
Lemma tie_xy_uncheckedEnvelope : forall p, geom_XY_uncheckedEnvelope (gpt p) = genv (xy_box p).
Proof. reflexivity. Qed.

(* geom/type_envelope.go:Contains on a non-empty envelope (XY.validate() == nil holds on Q) *)
Lemma tie_envelope_contains : forall e p, geom_Envelope_Contains qops (genv e) (gpt p) = box_contains e p.
Proof. reflexivity. Qed.

(* rtree/box.go:overlap *)
Lemma tie_box_overlap : forall b1 b2, rtree_overlap qops (gbox b1) (gbox b2) = box_overlap b1 b2.
Proof. qtie. Qed.

(* geom/alg_orientation.go:orientation, geom/xy.go:Sub, Cross *)
Lemma tie_go_cp : forall p q s,
  geom_XY_Cross qops (geom_XY_Sub qops (gpt q) (gpt p)) (geom_XY_Sub qops (gpt s) (gpt q)) = go_cp p q s.
Proof. reflexivity. Qed.
Lemma tie_orientation : forall p q s, geom_orientation qops (gpt p) (gpt q) (gpt s) = gturn (orientation p q s).
Proof.
  first [ intros p q s; unfold geom_orientation, orientation, qsgn; cbv zeta;
          etransitivity; [apply q_switch_sign|]; rewrite tie_go_cp; destruct (go_cp p q s ?= 0); reflexivity
        | qtie ].
Qed.
Lemma gturn_eqb : forall a b, Z.eqb (gturn a) (gturn b) = turn_eqb a b.
Proof. intros [] []; reflexivity. Qed.

(* geom/line.go:intersectsXY *)
Lemma tie_intersectsXY : forall ln xy, geom_line_intersectsXY qops (gln ln) (gpt xy) = intersects_xy ln xy.
Proof. qtie. Qed.

(* geom/line.go:onSegment *)
Lemma tie_onSegment : forall p q r, geom_onSegment qops (gpt p) (gpt q) (gpt r) = on_segment p q r.
Proof. qtie. Qed.

(* geom/line.go:intersectLine, the `empty` flag.  The translation is partial: the block that
   computes the end points of a collinear overlap (make/append on a slice) is outside the
   fragment; on that path the model says "not empty", which is what the Go code returns there
   (lineWithLineIntersection{false, pts[0], pts[1]}, not re-read by the generator). *)
Definition il_empty (r : partial (geom_lineWithLineIntersection Q)) : bool :=
  match r with Known v => geom_lineWithLineIntersection_empty v | Unknown _ => false end.
Lemma tie_intersectLine_empty : forall ln other,
  il_empty (geom_line_intersectLine qops (gln ln) (gln other)) = intersect_line_empty ln other.
Proof.
  intros [a b] [c d].
  unfold geom_line_intersectLine, intersect_line_empty, gln, fst, snd, geom_line_a, geom_line_b.
  cbv zeta. rewrite !tie_orientation, !tie_onSegment.
  change geom_collinear with (gturn Collinear). rewrite !gturn_eqb.
  destruct (negb (turn_eqb _ _) && negb (turn_eqb _ _)).
  - (* the lines cross or touch: each of the five branches returns a point *)
    do 4 (destruct (turn_eqb _ Collinear); [reflexivity|]). reflexivity.
  - destruct (turn_eqb _ Collinear && turn_eqb _ Collinear); [|reflexivity].
    destruct (_ && _); reflexivity.
Qed.

(* geom/alg_point_in_ring.go:hasCrossing *)
Lemma tie_hasCrossing : forall p ln, geom_hasCrossing qops (gpt p) (gln ln) = has_crossing p ln.
Proof.
  (* the structured proof follows the Go body statement by statement; should the body be rewritten
     into an equivalent one, the comparisons are decided case by case *)
  first
    [ intros p [a b];
     unfold geom_hasCrossing, has_crossing;
     rewrite tie_line_uncheckedEnvelope;
     cbn [gln fst snd geom_line_a geom_line_b];
     cbv zeta;
     change (f_gtb qops (geom_XY_Y (gpt a)) (geom_XY_Y (gpt b))) with (qltb (snd b) (snd a));
     destruct (qltb (snd b) (snd a)); rewrite tie_orientation, tie_envelope_contains;
    change geom_rightTurn with (gturn RightTurn); change geom_collinear with (gturn Collinear);
    rewrite !gturn_eqb; reflexivity
    | qtie ].
Qed.
