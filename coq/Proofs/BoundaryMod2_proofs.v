(* Property C15 - lemmas about Model/BoundaryMod2.v: the model's boundary satisfies the executable
   mod-2 statements, and agreement at the finitely many candidates decides it for every point. *)
From Coq Require Import QArith List Bool Lia PeanoNat.
From SF Require Import Base.GeomAST Base.QKernel Base.Planar Proofs.Planar_proofs Model.Boundary Model.BoundaryMod2
  Proofs.Boundary_proofs.
Import ListNotations.

Lemma odd_open_ends_cnt ls p : odd_open_ends ls p = Nat.odd (cnt p (mod2_ends ls)).
Proof. unfold odd_open_ends, mod2_ends. rewrite ends_cnt. reflexivity. Qed.

Lemma odd_open_ends_proper ls p q : pt_eqb p q = true -> odd_open_ends ls p = odd_open_ends ls q.
Proof. intros H. rewrite !odd_open_ends_cnt, (cnt_eq p q _ H). reflexivity. Qed.

(* a geometry without lineal and areal parts is the set of its points *)
Lemma inG_puntal (b : geom) p : g_lines b = [] -> g_polys b = [] -> inG b p = existsb (pt_eqb p) (g_points b).
Proof. intros Hl Hp. now rewrite inG_flat, Hl, Hp. Qed.

Lemma puntalb_spec b : puntalb b = true -> g_lines b = [] /\ g_polys b = [].
Proof. unfold puntalb. destruct (g_lines b); [|discriminate]. destruct (g_polys b); [auto|discriminate]. Qed.


Lemma agree_on_support (f g : pt -> bool) C :
  (forall p q, pt_eqb p q = true -> f p = f q) -> (forall p q, pt_eqb p q = true -> g p = g q) ->
  (forall p, f p = true \/ g p = true -> exists c, In c C /\ pt_eqb p c = true) ->
  (forall c, In c C -> f c = g c) -> forall p, f p = g p.
Proof.
  intros Pf Pg S A p. destruct (f p) eqn:Ef; destruct (g p) eqn:Eg; auto;
    (destruct (S p) as [c [Hc E]]; [auto|]); rewrite (Pf p c E), (A c Hc) in Ef; rewrite (Pg p c E) in Eg; congruence.
Qed.

Theorem mod2_exact_everywhere_lemma (g b : geom) :
  (exists l, g = GLine l) \/ (exists ct ls, g = GMLine ct ls) ->
  puntalb b = true -> mod2_exact g b = true ->
  forall p, inG b p = odd_open_ends (lineal_members g) p.
Proof.
  intros Hg Hb He. destruct (puntalb_spec b Hb) as [Hl Hp].
  apply (agree_on_support _ _ (mod2_ends (lineal_members g) ++ g_points b)).
  - intros p q E. rewrite !(inG_puntal b _ Hl Hp). now apply existsb_pt_proper.
  - apply odd_open_ends_proper.
  - (* a point of b equals one of its points; an odd end point equals an end point of a member *)
    intros p [H|H].
    + rewrite (inG_puntal b p Hl Hp) in H. apply existsb_exists in H as [c [Hc E]]. exists c. auto using in_or_app.
    + rewrite odd_open_ends_cnt in H. apply odd_pos, cnt_pos_iff, existsb_exists in H as [c [Hc E]].
      exists c. auto using in_or_app.
  - destruct Hg as [[l ->]|[ct [ls ->]]]; cbn [mod2_exact] in He; unfold mod2_agree_at in He;
      rewrite forallb_forall in He; intros c Hc; apply eqb_prop; apply He; exact Hc.
Qed.

Lemma inG_boundary_lineal (l : geom) p :
  inG (boundary l) p = match l with
                       | GLine _ | GMLine _ _ => odd_open_ends (lineal_members l) p
                       | _ => inG (boundary l) p
                       end.
Proof.
  destruct l; try reflexivity; cbn [boundary lineal_members].
  - rewrite inG_line_boundary. unfold odd_open_ends. cbn [filter]. destruct (open_end_of l p); reflexivity.
  - apply boundary_mod2_spec_lemma.
Qed.

Theorem mod2_exact_model_lemma (g : geom) : mod2_exact g (boundary g) = true.
Proof.
  destruct g; try reflexivity; cbn [mod2_exact]; unfold mod2_agree_at; apply forallb_forall; intros p _;
    rewrite inG_boundary_lineal; apply eqb_reflx.
Qed.

(* the boundary of a geometry contains the boundary of each of its leaves *)
Lemma inG_boundary_leaf (g : geom) p l : In l (leaves g) -> inG (boundary l) p = true -> inG (boundary g) p = true.
Proof.
  induction g using geomT_ind'; cbn [leaves]; intros Hin Hb;
    try (destruct Hin as [<-|[]]; exact Hb).
  rewrite boundary_collection_lemma. apply in_flat_map in Hin. destruct Hin as [x [Hx Hl]].
  apply existsb_exists. exists x. split; [exact Hx|]. rewrite Forall_forall in H. exact (H x Hx Hl Hb).
Qed.

Theorem mod2_complete_model_lemma (g : geom) : mod2_complete g (boundary g) = true.
Proof.
  unfold mod2_complete. apply forallb_forall. intros l Hl. unfold mod2_leaf_complete.
  apply forallb_forall. intros p _.
  destruct (odd_open_ends (lineal_members l) p) eqn:Eo; [|reflexivity]. cbn [implb].
  apply (inG_boundary_leaf g p l Hl).
  destruct l; cbn [lineal_members] in Eo; try (unfold odd_open_ends in Eo; discriminate Eo);
    rewrite inG_boundary_lineal; exact Eo.
Qed.
