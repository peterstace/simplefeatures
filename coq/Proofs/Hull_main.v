(* Property C13 - the readable corollaries of hull_correct_lemma (Proofs/Hull_ring.v), and the
   geometry-level statements (convex_hull_correct_lemma). *)
From Coq Require Import ZArith List Bool Lia Permutation Sorting.Sorted Arith.
From SF Require Import Base.GeomAST Model.Hull Proofs.Hull_proofs Proofs.Hull_chain Proofs.Hull_ring Proofs.Hull_idem.
Import ListNotations.
Open Scope Z_scope.

Lemma hull_never_panics_lemma : forall ps, hull_pts ps <> HPanic.
Proof. intros ps E. pose proof (hull_correct_lemma ps) as H. rewrite E in H. discriminate. Qed.

(* every input point is on or to the left of every directed edge of the hull ring *)
Lemma hull_covers_lemma : forall ps ring p a b,
  hull_pts ps = HPoly ring -> In p ps -> In (a, b) (ring_edges ring) -> 0 <= cross a b p.
Proof.
  intros ps ring p a b E Hp He. pose proof (hull_correct_lemma ps) as H. rewrite E in H.
  unfold hull_ok in H. rewrite !andb_true_iff in H. destruct H as [_ H].
  rewrite forallb_forall in H. specialize (H p Hp). unfold covered_by in H.
  rewrite forallb_forall in H. specialize (H (a, b) He). unfold on_or_left in H. cbn [fst snd] in H.
  apply Z.leb_le. exact H.
Qed.
Lemma hull_covers_line_lemma : forall ps a b p,
  hull_pts ps = HLine a b -> In p ps -> on_segment a b p = true.
Proof.
  intros ps a b p E Hp. pose proof (hull_correct_lemma ps) as H. rewrite E in H.
  unfold hull_ok in H. rewrite !andb_true_iff in H. destruct H as [_ H].
  rewrite forallb_forall in H. apply H. exact Hp.
Qed.

(* consecutive triples, by position *)
Lemma strict_turns_nth l : strict_turns l = true ->
  forall i a b c, nth_error l i = Some a -> nth_error l (S i) = Some b -> nth_error l (S (S i)) = Some c ->
  0 < cross a b c.
Proof.
  induction l as [|x l IH]; intros H i a b c Ha Hb Hc; [destruct i; discriminate|].
  destruct l as [|y [|z l]]; try (destruct i as [|[|i]]; simpl in *; discriminate).
  rewrite strict_turns_cons3, andb_true_iff in H. destruct H as [H1 H2].
  destruct i as [|i].
  - simpl in Ha, Hb, Hc. inversion Ha; inversion Hb; inversion Hc; subst. apply Z.ltb_lt. exact H1.
  - apply (IH H2 i); assumption.
Qed.

Lemma strictly_convex_ring_parts ring : strictly_convex_ring ring = true ->
  exists v0 v1 rest,
    ring = v0 :: v1 :: rest /\ last ring v0 = v0 /\ (4 <= length ring)%nat /\
    NoDup (removelast ring) /\ strict_turns (ring ++ [v1]) = true.
Proof.
  unfold strictly_convex_ring. destruct ring as [|v0 [|v1 rest]]; try discriminate.
  rewrite !andb_true_iff, Z.leb_le, pt_eqb_eq, nodup_b_spec. intros [[[H1 H2] H3] H4].
  exists v0, v1, rest. repeat split; auto. lia.
Qed.

Lemma hull_strict_lemma : forall ps ring, hull_pts ps = HPoly ring ->
  exists v0 v1 rest,
    ring = v0 :: v1 :: rest /\ last ring v0 = v0 /\ (4 <= length ring)%nat /\
    NoDup (removelast ring) /\
    (forall i a b c, nth_error (ring ++ [v1]) i = Some a -> nth_error (ring ++ [v1]) (S i) = Some b ->
                     nth_error (ring ++ [v1]) (S (S i)) = Some c -> 0 < cross a b c).
Proof.
  intros ps ring E. pose proof (hull_correct_lemma ps) as H. rewrite E in H.
  unfold hull_ok in H. rewrite !andb_true_iff in H. destruct H as [[H _] _].
  destruct (strictly_convex_ring_parts ring H) as (v0 & v1 & rest & E0 & H1 & H2 & H3 & H4).
  exists v0, v1, rest. repeat split; auto. apply strict_turns_nth, H4.
Qed.

Lemma hull_cases_lemma : forall ps,
  match hull_pts ps with
  | HNoPoints => ps = []
  | HPoint a => In a ps /\ forall q, In q ps -> q = a
  | HLine a b => a <> b /\ In a ps /\ In b ps /\ forall q, In q ps -> on_segment a b q = true
  | HPoly ring => strictly_convex_ring ring = true /\ incl ring ps
  | HPanic => False
  end.
Proof.
  intros ps. pose proof (hull_correct_lemma ps) as H. destruct (hull_pts ps) as [|a|a b|ring|]; unfold hull_ok in H.
  - destruct ps; [reflexivity|discriminate].
  - rewrite andb_true_iff in H. destruct H as [H1 H2]. split; [apply mem_In; exact H1|].
    intros q Hq. rewrite forallb_forall in H2. symmetry. apply pt_eqb_eq. apply H2; exact Hq.
  - rewrite !andb_true_iff in H. destruct H as [[[H1 H2] H3] H4].
    split; [apply pt_eqb_neq, negb_true_iff; exact H1|]. split; [apply mem_In; exact H2|].
    split; [apply mem_In; exact H3|]. rewrite forallb_forall in H4. exact H4.
  - rewrite !andb_true_iff in H. destruct H as [[H1 H2] _]. split; [exact H1|].
    intros v Hv. rewrite forallb_forall in H2. apply mem_In. apply H2; exact Hv.
  - discriminate.
Qed.

(* which case occurs is decided by the point set alone *)
Lemma hull_point_iff : forall ps a, hull_pts ps = HPoint a <-> (ps <> [] /\ forall q, In q ps -> q = a).
Proof.
  intros ps a. split.
  - intros E. pose proof (hull_cases_lemma ps) as H. rewrite E in H. destruct H as [H1 H2].
    split; [intros ->; destruct H1|exact H2].
  - intros [Hne Hall]. destruct ps as [|p0 r]; [congruence|].
    unfold hull_pts. destruct (has_2_distinct (p0 :: r)) eqn:H2.
    + apply has_2_distinct_true in H2. destruct H2 as [x [y [Hx [Hy Hxy]]]].
      exfalso. apply Hxy. rewrite (Hall x Hx), (Hall y Hy). reflexivity.
    + cbn [negb]. f_equal. apply Hall. left; reflexivity.
Qed.

Lemma hull_subset_lemma : forall pts v, In v (result_pts (hull_pts pts)) -> In v pts.
Proof.
  intros pts v. pose proof (hull_cases_lemma pts) as H.
  destruct (hull_pts pts) as [|a|a b|ring|]; cbn [result_pts].
  - intros [].
  - intros [<-|[]]. apply H.
  - intros [<-|[<-|[]]]; apply H.
  - apply H.
  - intros [].
Qed.

(* minimality: a half plane (A x + B y <= C) that contains the points contains the hull's vertices;
   with convexity of half planes this is "contained in every convex set containing the points" *)
Lemma hull_minimal_lemma : forall ps A B C,
  (forall p, In p ps -> A * fst p + B * snd p <= C) ->
  forall v, In v (result_pts (hull_pts ps)) -> A * fst v + B * snd v <= C.
Proof. intros ps A B C H v Hv. apply H, hull_subset_lemma, Hv. Qed.

(* Geometry level *)

Lemma forallb_map_ext {A} (f g : A -> bool) (h : A -> A) l :
  (forall x, In x l -> f (h x) = g x) -> forallb f (map h l) = forallb g l.
Proof. intros E. rewrite forallb_map. apply forallb_ext_in, E. Qed.

Lemma force_point_empty (z : Z) c p : point_empty (force_point z c p) = point_empty p.
Proof. destruct p as [ct [v|]]; reflexivity. Qed.
Lemma force_line_empty (z : Z) c l : line_empty (force_line z c l) = line_empty l.
Proof. destruct l as [ct [|v vs]]; reflexivity. Qed.
Lemma force_poly_empty (z : Z) c p : poly_empty (force_poly z c p) = poly_empty p.
Proof. destruct p as [ct [|r rs]]; reflexivity. Qed.

Lemma force_geom_empty (z : Z) c g : is_empty (force_geom z c g) = is_empty g.
Proof.
  induction g using geomT_ind'; simpl.
  - apply force_point_empty.
  - apply force_line_empty.
  - apply force_poly_empty.
  - apply forallb_map_ext. intros; apply force_point_empty.
  - apply forallb_map_ext. intros; apply force_line_empty.
  - apply forallb_map_ext. intros; apply force_poly_empty.
  - apply forallb_map_ext. intros x Hx. rewrite Forall_forall in H. apply H; exact Hx.
Qed.

Lemma force_vtx_idem (z : Z) old v : force_vtx z XY XY (force_vtx z old XY v) = force_vtx z old XY v.
Proof. reflexivity. Qed.
Lemma force_point_idem (z : Z) p : force_point z XY (force_point z XY p) = force_point z XY p.
Proof. destruct p as [ct [v|]]; reflexivity. Qed.
Lemma force_line_idem (z : Z) l : force_line z XY (force_line z XY l) = force_line z XY l.
Proof. destruct l as [ct vs]. simpl. rewrite map_map. reflexivity. Qed.
Lemma map_idem {A} (f : A -> A) l : (forall x, In x l -> f (f x) = f x) -> map f (map f l) = map f l.
Proof. intros H. rewrite map_map. apply map_ext_in. exact H. Qed.
Lemma force_poly_idem (z : Z) p : force_poly z XY (force_poly z XY p) = force_poly z XY p.
Proof. destruct p as [ct rs]. simpl. f_equal. apply map_idem. intros; apply force_line_idem. Qed.
Lemma force_geom_idem (z : Z) g : force_geom z XY (force_geom z XY g) = force_geom z XY g.
Proof.
  induction g using geomT_ind'; simpl; f_equal.
  - apply force_point_idem.
  - apply force_line_idem.
  - apply force_poly_idem.
  - apply map_idem. intros; apply force_point_idem.
  - apply map_idem. intros; apply force_line_idem.
  - apply map_idem. intros; apply force_poly_idem.
  - apply map_idem. intros x Hx. rewrite Forall_forall in H. apply H; exact Hx.
Qed.

Lemma xy_vtx p : xy_of (vtx_xy p) = p.
Proof. destruct p; reflexivity. Qed.
Lemma map_xy_vtx l : map xy_of (map vtx_xy l) = l.
Proof. rewrite map_map. rewrite <- (map_id l) at 2. apply map_ext. apply xy_vtx. Qed.

Lemma result_of_result_geom r : r <> HPanic ->
  exists out, result_geom r = Some out /\ result_of_geom out = Some r.
Proof.
  destruct r as [|p|a b|ring|]; intros H; try congruence; eexists; (split; [reflexivity|]); simpl.
  - reflexivity.
  - rewrite xy_vtx. reflexivity.
  - rewrite !xy_vtx. reflexivity.
  - unfold line_pts. simpl. rewrite map_xy_vtx. reflexivity.
Qed.

(* ConvexHull never panics and its result satisfies the statement of the property *)
Theorem convex_hull_correct_lemma : forall g, exists out, convex_hull g = Some out /\ hull_geom_ok g out = true.
Proof.
  intros g. unfold convex_hull, hull_geom_ok. destruct (is_empty g) eqn:E.
  - eexists. split; [reflexivity|]. rewrite force_geom_empty. exact E.
  - destruct (result_of_result_geom (hull_pts (point_set g)) (hull_never_panics_lemma _)) as [out [E1 E2]].
    exists out. split; [exact E1|]. rewrite E2. apply hull_correct_lemma.
Qed.

Lemma point_set_result r out : result_geom r = Some out -> point_set out = result_pts r.
Proof.
  destruct r as [|p|a b|ring|]; simpl; intros E; inversion E; subst; simpl; try reflexivity.
  - unfold point_pts. simpl. rewrite xy_vtx. reflexivity.
  - unfold line_pts. simpl. rewrite !xy_vtx. reflexivity.
  - unfold poly_pts, line_pts. simpl. apply map_xy_vtx.
Qed.

(* taking the hull again changes nothing *)
Theorem convex_hull_idem_lemma : forall g out, convex_hull g = Some out -> convex_hull out = Some out.
Proof.
  intros g out. unfold convex_hull at 1. destruct (is_empty g) eqn:E.
  - intros H. inversion H; subst. unfold convex_hull. rewrite force_geom_empty, E, force_geom_idem. reflexivity.
  - intros H. pose proof (point_set_result _ _ H) as Hps.
    pose proof (hull_idem_lemma (point_set g)) as Hi.
    unfold convex_hull.
    destruct (hull_pts (point_set g)) as [|p|a b|ring|] eqn:Er; simpl in H; inversion H; subst; clear H;
      cbn [result_pts] in Hi, Hps.
    + reflexivity.
    + assert (Ee : is_empty (GPoint (MkPoint XY (Some (vtx_xy p)))) = false) by reflexivity.
      rewrite Ee, Hps, Hi. reflexivity.
    + assert (Ee : is_empty (GLine (MkLine XY [vtx_xy a; vtx_xy b])) = false) by reflexivity.
      rewrite Ee, Hps, Hi. reflexivity.
    + pose proof (hull_cases_lemma (point_set g)) as Hc. rewrite Er in Hc.
      assert (Ee : is_empty (GPoly (MkPoly XY [MkLine XY (map vtx_xy ring)])) = false) by reflexivity.
      rewrite Ee, Hps, Hi. reflexivity.
Qed.

(* the result depends only on the set of control points the hull reads *)
Theorem convex_hull_set_ext_lemma : forall g g',
  is_empty g = false -> is_empty g' = false -> same_set (point_set g) (point_set g') ->
  convex_hull g = convex_hull g'.
Proof.
  intros g g' E E' H. unfold convex_hull. rewrite E, E'. rewrite (hull_set_ext_lemma _ _ H). reflexivity.
Qed.

(* Which case occurs is decided by the geometry of the point set *)

Definition all_collinear (ps : list pt) : Prop := forall p q r, In p ps -> In q ps -> In r ps -> cross p q r = 0.

(* two vectors parallel to a non-zero vector are parallel *)
Lemma par_par dx dy ux uy vx vy :
  (dx <> 0 \/ dy <> 0) -> dx * uy - dy * ux = 0 -> dx * vy - dy * vx = 0 -> ux * vy - uy * vx = 0.
Proof.
  intros Hd Hu Hv.
  assert (E1 : dx * (ux * vy - uy * vx) = 0) by (replace (dx * (ux * vy - uy * vx)) with (ux * (dx * vy - dy * vx) - vx * (dx * uy - dy * ux)) by ring; rewrite Hu, Hv; ring).
  assert (E2 : dy * (ux * vy - uy * vx) = 0) by (replace (dy * (ux * vy - uy * vx)) with (uy * (dx * vy - dy * vx) - vy * (dx * uy - dy * ux)) by ring; rewrite Hu, Hv; ring).
  destruct Hd as [Hd|Hd]; [apply Z.mul_eq_0 in E1|apply Z.mul_eq_0 in E2]; tauto.
Qed.

Lemma collinear3 a b p q r : a <> b ->
  cross a b p = 0 -> cross a b q = 0 -> cross a b r = 0 -> cross p q r = 0.
Proof.
  intros Hab Hp Hq Hr.
  destruct a as [ax ay], b as [bx b_y], p as [px py], q as [qx qy], r as [rx ry].
  unfold cross in *. cbn [fst snd] in *.
  assert (Hd : bx - ax <> 0 \/ b_y - ay <> 0).
  { destruct (Z.eq_dec bx ax) as [E1|E1]; [destruct (Z.eq_dec b_y ay) as [E2|E2]|];
      [subst; exfalso; apply Hab; reflexivity|right; lia|left; lia]. }
  (* vectors from a *)
  pose proof (par_par (bx - ax) (b_y - ay) (px - ax) (py - ay) (qx - ax) (qy - ay) Hd) as A.
  pose proof (par_par (bx - ax) (b_y - ay) (qx - ax) (qy - ay) (rx - ax) (ry - ay) Hd) as B.
  pose proof (par_par (bx - ax) (b_y - ay) (px - ax) (py - ay) (rx - ax) (ry - ay) Hd) as C.
  lia.
Qed.

Lemma on_segment_cross a b p : on_segment a b p = true -> cross a b p = 0.
Proof. unfold on_segment. rewrite !andb_true_iff. intros [[[[H _] _] _] _]. apply Z.eqb_eq. exact H. Qed.

Lemma convex_ring_turn ring : strictly_convex_ring ring = true ->
  exists a b c, In a ring /\ In b ring /\ In c ring /\ 0 < cross a b c.
Proof.
  intros H. destruct (strictly_convex_ring_parts ring H) as (v0 & v1 & rest & -> & _ & Hlen & _ & Hst).
  destruct rest as [|v2 rest']; [simpl in Hlen; lia|].
  exists v0, v1, v2. split; [|split; [|split]]; [simpl; tauto..|].
  apply (strict_turns_nth _ Hst 0); reflexivity.
Qed.

Lemma hull_collinear_cases ps :
  match hull_pts ps with HPoly _ => ~ all_collinear ps | _ => all_collinear ps end.
Proof.
  pose proof (hull_cases_lemma ps) as Hc. destruct (hull_pts ps) as [|a|a b|ring|].
  - subst ps. intros p q r [].
  - destruct Hc as [_ Hall]. intros p q r Hp Hq Hr. rewrite (Hall p Hp), (Hall q Hq). apply cross_aab.
  - destruct Hc as (Hab & _ & _ & Hall). intros p q r Hp Hq Hr.
    apply (collinear3 a b); auto; apply on_segment_cross, Hall; assumption.
  - destruct Hc as [Hsc Hincl]. destruct (convex_ring_turn ring Hsc) as (a & b & c & Ia & Ib & Ic & Ht).
    intros Hcol. rewrite (Hcol a b c) in Ht by (apply Hincl; assumption). lia.
  - destruct Hc.
Qed.

(* two-point line exactly when there are two different points and all points are collinear;
   polygon exactly when they are not all collinear *)
Theorem hull_line_iff : forall ps,
  (exists a b, hull_pts ps = HLine a b) <-> ((exists x y, In x ps /\ In y ps /\ x <> y) /\ all_collinear ps).
Proof.
  intros ps. pose proof (hull_cases_lemma ps) as Hc. pose proof (hull_collinear_cases ps) as Hk. split.
  - intros [a [b E]]. rewrite E in Hc, Hk. destruct Hc as (Hab & Ia & Ib & _). split; [exists a, b; auto|exact Hk].
  - intros [[x [y [Hx [Hy Hxy]]]] Hcol]. destruct (hull_pts ps) as [|a|a b|ring|].
    + subst ps. destruct Hx.
    + destruct Hc as [_ Hall]. exfalso. apply Hxy. rewrite (Hall x Hx), (Hall y Hy). reflexivity.
    + exists a, b. reflexivity.
    + contradiction.
    + destruct Hc.
Qed.

Theorem hull_polygon_iff : forall ps, (exists ring, hull_pts ps = HPoly ring) <-> ~ all_collinear ps.
Proof.
  intros ps. pose proof (hull_collinear_cases ps) as Hk. split.
  - intros [ring E]. rewrite E in Hk. exact Hk.
  - intros Hn. destruct (hull_pts ps) as [|a|a b|ring|]; try contradiction. exists ring; reflexivity.
Qed.
