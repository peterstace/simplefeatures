(* Lemmas about Base/Planar.v (definitional semantics, canonical order, witnesses, reference matrix).
   Sufficiency of the witnesses - every point of the plane shares its arrangement cell with a
   witness and locate is constant on cells - is not here: it is Proofs/Planar_slab_base.v,
   Planar_slab.v and Planar_slab_dim.v. *)
From Coq Require Import QArith Qreduction List Bool ZArith Lia Permutation.
From SF Require Import Base.GeomAST Base.QKernel Base.Planar.
Import ListNotations.

(* ---------------- canonical sort: invariant under permutation of its input *)
Lemma lex_leb_total a b : lex_leb a b = true \/ lex_leb b a = true.
Proof.
  revert b. induction a as [|x a IH]; intros [|y b]; simpl; auto.
  rewrite (Z.compare_antisym x y). destruct (x ?= y)%Z; simpl; auto.
Qed.
Lemma lex_leb_trans a b c : lex_leb a b = true -> lex_leb b c = true -> lex_leb a c = true.
Proof.
  revert b c. induction a as [|x a IH]; intros [|y b] [|z c]; simpl; auto; try discriminate.
  destruct (x ?= y)%Z eqn:E1; destruct (y ?= z)%Z eqn:E2; try discriminate; intros H1 H2.
  - apply Z.compare_eq in E1, E2. subst. rewrite Z.compare_refl. eauto.
  - apply Z.compare_eq in E1. subst. rewrite E2. reflexivity.
  - apply Z.compare_eq in E2. subst. rewrite E1. reflexivity.
  - assert (x ?= z = Lt)%Z as -> by (rewrite Z.compare_lt_iff in *; lia). reflexivity.
Qed.
Lemma lex_leb_antisym a b : lex_leb a b = true -> lex_leb b a = true -> a = b.
Proof.
  revert b. induction a as [|x a IH]; intros [|y b]; simpl; auto; try discriminate.
  rewrite (Z.compare_antisym x y). destruct (x ?= y)%Z eqn:E; simpl; try discriminate.
  intros H1 H2. apply Z.compare_eq in E. subst. f_equal. auto.
Qed.

Section KSort.
  Variable A : Type.
  Variable key : A -> list Z.
  Hypothesis key_inj : forall x y, key x = key y -> x = y.

  (* inserting x then y or y then x: it is enough to look at x strictly before y *)
  Lemma kinsert_comm_lt x y l : lex_leb (key x) (key y) = true -> lex_leb (key y) (key x) = false ->
    kinsert key x (kinsert key y l) = kinsert key y (kinsert key x l).
  Proof.
    intros Hxy Hyx. induction l as [|z l IH]; simpl; [rewrite Hxy, Hyx; reflexivity|].
    destruct (lex_leb (key y) (key z)) eqn:Eyz; destruct (lex_leb (key x) (key z)) eqn:Exz; simpl;
      rewrite ?Hxy, ?Hyx, ?Eyz, ?Exz; try reflexivity.
    - rewrite (lex_leb_trans _ _ _ Hxy Eyz) in Exz. discriminate.
    - f_equal. exact IH.
  Qed.
  Lemma kinsert_comm x y l : kinsert key x (kinsert key y l) = kinsert key y (kinsert key x l).
  Proof.
    destruct (lex_leb (key x) (key y)) eqn:Hxy; destruct (lex_leb (key y) (key x)) eqn:Hyx.
    - rewrite (key_inj _ _ (lex_leb_antisym _ _ Hxy Hyx)). reflexivity.
    - apply kinsert_comm_lt; assumption.
    - symmetry. apply kinsert_comm_lt; assumption.
    - destruct (lex_leb_total (key x) (key y)); congruence.
  Qed.

  Lemma ksort_perm l l' : Permutation l l' -> ksort key l = ksort key l'.
  Proof.
    induction 1; simpl; auto.
    - f_equal. assumption.
    - apply kinsert_comm.
    - congruence.
  Qed.

  Lemma kinsert_in x l y : In y (kinsert key x l) <-> y = x \/ In y l.
  Proof.
    induction l as [|z l IH]; simpl; [intuition|].
    destruct (lex_leb (key x) (key z)); simpl; [intuition|]. rewrite IH. intuition.
  Qed.
  Lemma ksort_in l y : In y (ksort key l) <-> In y l.
  Proof. induction l as [|z l IH]; simpl; [tauto|]. rewrite kinsert_in, IH. intuition. Qed.
End KSort.

Lemma q_key_inj x y : q_key x = q_key y -> x = y.
Proof. destruct x, y; unfold q_key; simpl. intros H. inversion H. reflexivity. Qed.
Lemma pt_key_inj x y : pt_key x = pt_key y -> x = y.
Proof.
  destruct x as [a b], y as [c d]. unfold pt_key; cbn [fst snd]. unfold q_key. cbn [app].
  intros H. inversion H. f_equal; apply q_key_inj; unfold q_key; congruence.
Qed.
Lemma seg_key_inj x y : seg_key x = seg_key y -> x = y.
Proof.
  destruct x as [a b], y as [c d]. unfold seg_key; cbn [fst snd].
  destruct a as [a1 a2], b as [b1 b2], c as [c1 c2], d as [d1 d2]. unfold pt_key, q_key; cbn [fst snd app].
  intros H. inversion H. f_equal; f_equal; apply q_key_inj; unfold q_key; congruence.
Qed.

Lemma pair_witnesses_comm a b : pair_witnesses b a = pair_witnesses a b.
Proof.
  unfold pair_witnesses, canon_segs, canon_pts.
  rewrite (ksort_perm _ seg_key seg_key_inj _ _ (Permutation_app_comm (arr_segments b) (arr_segments a))).
  rewrite (ksort_perm _ pt_key pt_key_inj _ _ (Permutation_app_comm (arr_points b) (arr_points a))).
  reflexivity.
Qed.

(* ---------------- the matrix *)
Lemma entry_swap T la lb :
  entry (map (fun t => (snd (fst t), fst (fst t), snd t)) T) la lb = entry T lb la.
Proof.
  unfold entry. induction T as [|[[x y] d] T IH]; simpl; auto.
  rewrite (andb_comm (loc_eqb y la)). destruct (loc_eqb x lb && loc_eqb y la); simpl; rewrite IH; reflexivity.
Qed.

Theorem de9im_ref_transpose a b : de9im_ref b a = transpose (de9im_ref a b).
Proof.
  unfold de9im_ref. rewrite pair_witnesses_comm.
  set (W := pair_witnesses a b).
  assert (E : classify b a W = map (fun t => (snd (fst t), fst (fst t), snd t)) (classify a b W)).
  { unfold classify. rewrite map_map. reflexivity. }
  rewrite E. unfold de9im_of, transpose; simpl. rewrite !entry_swap. reflexivity.
Qed.

(* ---------------- locate is a total function into three exclusive classes *)
Lemma locate_total g p : locate g p = Interior \/ locate g p = Boundary \/ locate g p = Exterior.
Proof. destruct (locate g p); auto. Qed.
Lemma loc_eqb_eq a b : loc_eqb a b = true <-> a = b.
Proof. destruct a, b; simpl; split; intros; congruence. Qed.
Lemma locate_exclusive g p l1 l2 : locate g p = l1 -> locate g p = l2 -> l1 = l2.
Proof. congruence. Qed.

(* ---------------- inG agrees with locate: p is in g iff it is not exterior *)
Lemma forallb_false_exists {A} (f : A -> bool) l : forallb f l = false -> exists x, In x l /\ f x = false.
Proof.
  induction l as [|a l IH]; [discriminate|]. cbn [forallb]. intros H. destruct (f a) eqn:Ea.
  - destruct (IH H) as [x [Hx Fx]]. exists x. split; [right; exact Hx | exact Fx].
  - exists a. split; [left; reflexivity | exact Ea].
Qed.

Lemma inG_flat g p :
  inG g p = existsb (fun y => in_poly y p) (g_polys g) || existsb (fun l => on_line l p) (g_lines g)
            || existsb (pt_eqb p) (g_points g).
Proof.
  induction g using geomT_ind'; simpl.
  - unfold in_point. reflexivity.
  - rewrite !orb_false_r. reflexivity.
  - rewrite !orb_false_r. reflexivity.
  - rewrite existsb_flat_map. reflexivity.
  - rewrite !orb_false_r. reflexivity.
  - rewrite !orb_false_r. reflexivity.
  - rewrite !existsb_flat_map.
    induction H as [|g gs Hg Hgs IH]; simpl; auto.
    rewrite Hg, IH.
    destruct (existsb (fun y => in_poly y p) (g_polys g)), (existsb (fun l => on_line l p) (g_lines g)),
      (existsb (pt_eqb p) (g_points g)); simpl; rewrite ?orb_true_r; auto.
Qed.

Theorem inG_locate g p : inG g p = true <-> locate g p <> Exterior.
Proof.
  rewrite inG_flat. unfold locate, locate_p, prep; cbn [pg_polys pg_lines pg_ends pg_points].
  rewrite !existsb_map.
  assert (E : existsb (fun y => in_poly y p) (g_polys g) =
              existsb (fun y => rings_interior (poly_ring_segs y) p) (g_polys g)
              || existsb (fun y => rings_boundary (poly_ring_segs y) p) (g_polys g)).
  { induction (g_polys g) as [|y ys IH]; simpl; auto. rewrite IH. unfold in_poly, poly_boundary, poly_interior.
    destruct (rings_boundary (poly_ring_segs y) p), (rings_interior (poly_ring_segs y) p); simpl; rewrite ?orb_true_r; auto. }
  rewrite E. unfold on_line.
  destruct (existsb (fun y => rings_interior (poly_ring_segs y) p) (g_polys g)); simpl; [split; congruence|].
  destruct (existsb (fun y => rings_boundary (poly_ring_segs y) p) (g_polys g)); simpl; [split; congruence|].
  destruct (existsb (fun l => on_edges (line_segs l) p) (g_lines g)); simpl.
  { destruct (odd_ends _ p); split; congruence. }
  destruct (existsb (pt_eqb p) (g_points g)); split; congruence.
Qed.

(* ---------------- matrix entries *)
Lemma mget_de9im_of T la lb : mget (de9im_of T) la lb = entry T la lb.
Proof. destruct la, lb; reflexivity. Qed.

Lemma fold_dmax_in l : fold_right dmax DF l = DF \/ In (fold_right dmax DF l) l.
Proof.
  induction l as [|d l IH]; simpl; auto.
  remember (fold_right dmax DF l) as m. unfold dmax.
  destruct (Nat.leb (dim_rank d) (dim_rank m)) eqn:E.
  - destruct IH as [IH|IH].
    + left. exact IH.
    + right. right. exact IH.
  - right. left. reflexivity.
Qed.
Lemma fold_dmax_ge l d : In d l -> (dim_rank d <= dim_rank (fold_right dmax DF l))%nat.
Proof.
  induction l as [|e l IH]; simpl; [tauto|]. remember (fold_right dmax DF l) as m. intros [->|H]; unfold dmax.
  - destruct (Nat.leb (dim_rank d) (dim_rank m)) eqn:E; [apply Nat.leb_le in E; lia | lia].
  - specialize (IH H). destruct (Nat.leb (dim_rank e) (dim_rank m)) eqn:E; [lia|].
    apply Nat.leb_gt in E. lia.
Qed.

Lemma entry_in T la lb : entry T la lb <> DF -> In (la, lb, entry T la lb) T.
Proof.
  unfold entry. set (F := filter _ T). intros H.
  destruct (fold_dmax_in (map snd F)) as [E|E]; [contradiction|].
  apply in_map_iff in E. destruct E as [[[x y] d] [Ed Hin]]. unfold F in Hin. apply filter_In in Hin.
  destruct Hin as [Hin Hc]. cbn [fst snd] in Hc, Ed. apply andb_true_iff in Hc. destruct Hc as [H1 H2].
  apply loc_eqb_eq in H1, H2. rewrite <- Ed, <- H1, <- H2. exact Hin.
Qed.
Lemma entry_ge T la lb d : In (la, lb, d) T -> (dim_rank d <= dim_rank (entry T la lb))%nat.
Proof.
  intros H. unfold entry. apply fold_dmax_ge. apply in_map_iff. exists (la, lb, d). split; auto.
  apply filter_In. split; auto. simpl. rewrite !(proj2 (loc_eqb_eq _ _) eq_refl). reflexivity.
Qed.

(* every set entry of the reference matrix is witnessed by a concrete point of the arrangement with
   exactly that pair of locations and that cell dimension *)
Theorem de9im_ref_entry_witnessed a b la lb :
  mget (de9im_ref a b) la lb <> DF ->
  exists w, In (w, mget (de9im_ref a b) la lb) (pair_witnesses a b) /\ locate a w = la /\ locate b w = lb.
Proof.
  unfold de9im_ref. rewrite mget_de9im_of. intros H. apply entry_in in H.
  unfold classify in H. apply in_map_iff in H. destruct H as [[w d] [E Hin]]. cbn [fst snd] in E.
  injection E as E1 E2 E3. exists w. split; [|split; [exact E1 | exact E2]]. unfold classify. rewrite <- E3. exact Hin.
Qed.
(* and no witness is forgotten: an entry is at least the dimension of every witness with its locations *)
Theorem de9im_ref_entry_ge a b w d :
  In (w, d) (pair_witnesses a b) ->
  (dim_rank d <= dim_rank (mget (de9im_ref a b) (locate a w) (locate b w)))%nat.
Proof.
  intros H. unfold de9im_ref. rewrite mget_de9im_of. apply entry_ge.
  unfold classify. apply in_map_iff. exists (w, d). split; auto.
Qed.

(* ---------------- the vertices of the arrangement *)
Lemma pair_points_in L v :
  In v (pair_points L) -> exists s t, In s L /\ In t L /\ In v (ssr_points (seg_seg s t)).
Proof.
  induction L as [|s r IH]; simpl; [tauto|]. rewrite in_app_iff, in_flat_map.
  intros [[t [Ht Hv]]|H].
  - exists s, t. auto.
  - destruct (IH H) as [s' [t' [H1 [H2 H3]]]]. exists s', t'. auto.
Qed.

(* a vertex is an end of an input segment, a reported intersection point (or overlap end) of two
   input segments - which lies on both, by seg_seg_sound - or an isolated input point *)
Theorem vertex_set_spec L P v :
  In v (vertex_set L P) ->
  (exists s, In s L /\ (v = fst s \/ v = snd s)) \/
  (exists s t, In s L /\ In t L /\ In v (ssr_points (seg_seg s t)) /\ on_seg s v = true /\ on_seg t v = true) \/
  In v P.
Proof.
  unfold vertex_set. rewrite !in_app_iff, in_flat_map. intros [[s [Hs Hv]]|[H|H]].
  - left. exists s. split; auto. unfold seg_ends in Hv. simpl in Hv. destruct Hv as [<-|[<-|[]]]; auto.
  - right. left. destruct (pair_points_in _ _ H) as [s [t [H1 [H2 H3]]]]. exists s, t.
    destruct (seg_seg_sound s t v H3). auto.
  - auto.
Qed.

(* ---------------- dimension tags *)
Lemma gaps_between_dim x ys mid w d :
  In (w, d) (gaps_between x ys mid) -> exists y1 y2, d = mid y1 y2.
Proof.
  revert w d. induction ys as [|y1 ys IH]; simpl; [tauto|]. destruct ys as [|y2 r]; [simpl; tauto|].
  intros w d [H|H].
  - inversion H. eauto.
  - eapply IH; eauto.
Qed.
Lemma column_dim x ys at_y mid w d :
  In (w, d) (column x ys at_y mid) ->
  d = D2 \/ (exists y, In y ys /\ w = (x, y) /\ d = at_y y) \/ (exists y1 y2, d = mid y1 y2).
Proof.
  unfold column. destruct ys as [|y1 r].
  - intros [H|[]]. inversion H. auto.
  - intros H. apply in_inv in H. destruct H as [H|H]; [inversion H; auto|].
    apply in_inv in H. destruct H as [H|H]; [inversion H; auto|].
    apply in_app_or in H. destruct H as [H|H].
    + apply in_map_iff in H. destruct H as [y [E Hy]]. inversion E. right. left. exists y. auto.
    + right. right. eapply gaps_between_dim; eauto.
Qed.

Lemma slabs_between_dim L xs w d : In (w, d) (slabs_between L xs) -> d = D1 \/ d = D2.
Proof.
  induction xs as [|x0 xs IH]; simpl; [tauto|]. destruct xs as [|x1 r]; [simpl; tauto|].
  rewrite in_app_iff. intros [H|H]; [|auto].
  unfold slab_witnesses in H. apply column_dim in H. destruct H as [H|[[y [_ [_ H]]]|[y1 [y2 H]]]]; auto.
Qed.

Lemma witness_dim L P w d : In (w, d) (witnesses L P) ->
  d = D2 \/ d = D1 \/
  d = D0 /\ exists x y, w = (x, y) /\ existsb (Qeq_bool y) (vertex_ordinates (vertex_set L P) x) = true.
Proof.
  unfold witnesses. destruct (events (vertex_set L P)) as [|x0 xs].
  - intros [H|[]]. inversion H. auto.
  - intros [H|[H|H]]; [inversion H; auto | inversion H; auto |].
    rewrite in_app_iff in H. destruct H as [H|H].
    + apply in_flat_map in H. destruct H as [x [_ H]]. apply column_dim in H.
      destruct H as [H|[[y [_ [Ew H]]]|[y1 [y2 H]]]]; [auto | |].
      * destruct (existsb (Qeq_bool y) (vertex_ordinates (vertex_set L P) x)) eqn:E; [|auto].
        right. right. split; [exact H|]. exists x, y. auto.
      * destruct (vertical_covers L x y1 y2); auto.
    + apply slabs_between_dim in H. destruct H; auto.
Qed.
Lemma witness_dim_not_F L P w d : In (w, d) (witnesses L P) -> d <> DF.
Proof. intros H. destruct (witness_dim L P w d H) as [->|[->|[-> _]]]; discriminate. Qed.

(* every witness tagged with dimension 0 is (equal to) a vertex of the arrangement *)
Theorem witness_dim0_is_vertex L P w :
  In (w, D0) (witnesses L P) -> exists v, In v (vertex_set L P) /\ pt_eq v w.
Proof.
  intros H. destruct (witness_dim L P w D0 H) as [|[|[_ [x [y [-> E]]]]]]; try discriminate.
  apply existsb_exists in E. destruct E as [y' [Hy' Ey]]. apply Qeq_bool_iff in Ey.
  apply in_flat_map in Hy'. destruct Hy' as [v [Hv Hy']].
  destruct (Qeq_bool (fst v) x) eqn:Ex; [|destruct Hy']. apply Qeq_bool_iff in Ex. destruct Hy' as [<-|[]].
  exists v. split; [exact Hv|]. split; simpl; [exact Ex | symmetry; exact Ey].
Qed.

(* witnesses of pair_witnesses: the vertices are those of the two operands' segments and points *)
Lemma arr_in_canon_segs L s : In s (canon_segs L) <-> In s L.
Proof. apply ksort_in. Qed.
Lemma arr_in_canon_pts P p : In p (canon_pts P) <-> In p P.
Proof. apply ksort_in. Qed.
