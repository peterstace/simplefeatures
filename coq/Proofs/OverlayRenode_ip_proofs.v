(* T4, the local part: findInteractionPoints and forEachNonInteractingSegment of Model/OverlayRenode.v.
   Proved here: which control points are certainly interaction points (ends of every linear element, every
   point of a Point/MultiPoint, every reversal point, every control point at which two occurrences have
   different neighbour pairs - independently of the order in which the elements are visited); the
   chains produced by forEachNonInteractingSegment start and end at interaction points, contain none in
   between, and their pieces are exactly the pieces of the element, in order.
   The global consequence - two different DCEL edges (chains) have no common point except common end
   vertices - is Proofs/OverlayPipeline_proofs.v: T4_full_lemma. *)
From Coq Require Import QArith List Bool Arith Lia.
From SF Require Import Base.QKernel Model.OverlayRenode Proofs.OverlayRenode_proofs.
Import ListNotations.

(* ---------------------------------------------------------------- the visit as a list of events *)
Inductive ip_ev := EvPt (p : pt) | EvMid (prev curr next : pt).
Definition ip_step (st : ip_state) (e : ip_ev) : ip_state :=
  match e with
  | EvPt p => MkIP (ip_adj st) (p :: ip_int st)
  | EvMid a c b => ip_middle st a c b
  end.
Fixpoint triples_of (ps : list pt) : list ip_ev :=
  match ps with
  | [] => []
  | prev :: r =>
      match r with
      | curr :: next :: _ => EvMid prev curr next :: triples_of r
      | _ => []
      end
  end.
Definition ls_events (ps : list pt) : list ip_ev :=
  match ps with
  | [] => []
  | p0 :: r => EvPt p0 :: EvPt (last r p0) :: triples_of ps
  end.

Lemma ip_walk_events ps : forall st, ip_walk st ps = fold_left ip_step (triples_of ps) st.
Proof.
  induction ps as [|prev r IH]; intros st; [reflexivity|].
  destruct r as [|curr [|next r']]; try reflexivity. exact (IH (ip_middle st prev curr next)).
Qed.
Lemma ip_line_string_events st ps : ip_line_string st ps = fold_left ip_step (ls_events ps) st.
Proof.
  destruct ps as [|p0 r]; [reflexivity|]. unfold ip_line_string, ls_events. rewrite ip_walk_events. reflexivity.
Qed.
Lemma ip_points_events P : forall st, ip_points st P = fold_left ip_step (map EvPt P) st.
Proof.
  induction P as [|p P IH]; intros st; [destruct st; reflexivity|].
  cbn [map fold_left ip_step]. rewrite <- IH. unfold ip_points. cbn [ip_adj ip_int rev]. rewrite <- app_assoc. reflexivity.
Qed.
Lemma fold_ls_events es : forall st, fold_left ip_line_string es st = fold_left ip_step (flat_map ls_events es) st.
Proof.
  induction es as [|e es IH]; intros st; [reflexivity|].
  cbn [fold_left flat_map]. rewrite fold_left_app, <- ip_line_string_events. apply IH.
Qed.

Definition all_events (ea : list (list pt)) (pa : list pt) (eb : list (list pt)) (pb : list pt) (gh : list (list pt)) : list ip_ev :=
  flat_map ls_events ea ++ map EvPt pa ++ flat_map ls_events eb ++ map EvPt pb ++ flat_map ls_events gh.
Lemma find_interaction_points_events ea pa eb pb gh :
  find_interaction_points ea pa eb pb gh = ip_int (fold_left ip_step (all_events ea pa eb pb gh) (MkIP [] [])).
Proof.
  unfold find_interaction_points, all_events. rewrite !fold_left_app.
  rewrite <- !fold_ls_events, <- !ip_points_events. reflexivity.
Qed.

(* ---------------------------------------------------------------- one step, many steps *)
Lemma adj_lookup_proper m x y : pt_eq x y -> adj_lookup m x = adj_lookup m y.
Proof.
  intros E. induction m as [|[k v] m IH]; [reflexivity|]. simpl. rewrite (pt_eqb_proper k k x y (reflexivity k) E), IH. reflexivity.
Qed.

Lemma ip_step_mono st e p : In p (ip_int st) -> In p (ip_int (ip_step st e)).
Proof.
  destruct e as [q|a c b]; cbn [ip_step ip_int]; [intros; right; assumption|].
  unfold ip_middle. destruct (pt_eqb a b); [intros; right; assumption|].
  destruct (adj_lookup (ip_adj st) c); [destruct (pair_eqb _ _); cbn [ip_int]; intros; try right; assumption|].
  cbn [ip_int]. tauto.
Qed.
Lemma ip_step_lookup st e c v : adj_lookup (ip_adj st) c = Some v -> adj_lookup (ip_adj (ip_step st e)) c = Some v.
Proof.
  destruct e as [q|a c' b]; cbn [ip_step ip_adj]; [tauto|].
  unfold ip_middle. destruct (pt_eqb a b); [tauto|].
  destruct (adj_lookup (ip_adj st) c') eqn:E; [destruct (pair_eqb _ _); tauto|].
  cbn [ip_adj adj_lookup]. intros H. destruct (pt_eqb c' c) eqn:Ec; [|exact H].
  apply pt_eqb_iff in Ec. rewrite (adj_lookup_proper _ c' c Ec) in E. congruence.
Qed.
Lemma fold_left_inv {A B} (f : A -> B -> A) (P : A -> Prop) :
  (forall a b, P a -> P (f a b)) -> forall l a, P a -> P (fold_left f l a).
Proof. intros Hf. induction l; simpl; auto. Qed.
Lemma ip_fold_mono evs : forall st p, In p (ip_int st) -> In p (ip_int (fold_left ip_step evs st)).
Proof. intros st p. apply (fold_left_inv ip_step (fun st => In p (ip_int st))). intros a b. apply ip_step_mono. Qed.
Lemma ip_fold_lookup evs : forall st c v, adj_lookup (ip_adj st) c = Some v ->
  adj_lookup (ip_adj (fold_left ip_step evs st)) c = Some v.
Proof.
  intros st c v. apply (fold_left_inv ip_step (fun st => adj_lookup (ip_adj st) c = Some v)).
  intros a b. apply ip_step_lookup.
Qed.

(* what is known right after an event, and stays known *)
Definition ev_done (st : ip_state) (e : ip_ev) : Prop :=
  match e with
  | EvPt p => In p (ip_int st)
  | EvMid a c b =>
      if pt_eqb a b then In c (ip_int st)
      else exists v, adj_lookup (ip_adj st) c = Some v /\ (pair_eqb v (adj_pair a b) = true \/ In c (ip_int st))
  end.
Lemma pair_eqb_refl u : pair_eqb u u = true.
Proof. unfold pair_eqb. rewrite !pt_eqb_refl. reflexivity. Qed.
Lemma pair_eqb_join v p q : pair_eqb v p = true -> pair_eqb v q = true -> pair_eqb p q = true.
Proof.
  unfold pair_eqb. rewrite !andb_true_iff, !pt_eqb_iff. intros [A1 A2] [B1 B2].
  split; [rewrite <- A1|rewrite <- A2]; assumption.
Qed.
Lemma is_interaction_in I c c' : pt_eq c c' -> In c' I -> is_interaction I c = true.
Proof. intros E H. apply existsb_exists. exists c'. split; [exact H|apply pt_eqb_iff; exact E]. Qed.
Lemma ev_done_step st e : ev_done (ip_step st e) e.
Proof.
  destruct e as [p|a c b]; cbn [ev_done ip_step]; [left; reflexivity|].
  unfold ip_middle. destruct (pt_eqb a b) eqn:Eab; [left; reflexivity|].
  destruct (adj_lookup (ip_adj st) c) as [v|] eqn:E.
  - destruct (pair_eqb v (adj_pair a b)) eqn:Ep.
    + exists v. split; [exact E | left; exact Ep].
    + cbn [ip_adj ip_int]. exists v. split; [exact E | right; left; reflexivity].
  - cbn [ip_adj ip_int adj_lookup]. rewrite pt_eqb_refl. eexists. split; [reflexivity | left; apply pair_eqb_refl].
Qed.
Lemma ev_done_fold evs st e : ev_done st e -> ev_done (fold_left ip_step evs st) e.
Proof.
  destruct e as [p|a c b]; cbn [ev_done]; [apply ip_fold_mono|].
  destruct (pt_eqb a b); [apply ip_fold_mono|].
  intros [v [H1 H2]]. exists v. split; [apply ip_fold_lookup; exact H1|].
  destruct H2 as [H2|H2]; [left; exact H2 | right; apply ip_fold_mono; exact H2].
Qed.
Lemma ev_done_all evs : forall st e, In e evs -> ev_done (fold_left ip_step evs st) e.
Proof.
  induction evs as [|x evs IH]; intros st e Hin; [destruct Hin|]. cbn [fold_left]. destruct Hin as [->|Hin].
  - apply ev_done_fold. apply ev_done_step.
  - apply IH. exact Hin.
Qed.

(* ---------------------------------------------------------------- occurrences in the elements *)
Definition consecutive3 (ps : list pt) (a c b : pt) : Prop := exists l1 l2, ps = l1 ++ a :: c :: b :: l2.
Lemma triples_of_cons x l ev : In ev (triples_of l) -> In ev (triples_of (x :: l)).
Proof. destruct l as [|y [|z r]]; [intros []|intros []|right; assumption]. Qed.
Lemma consecutive3_event ps a c b : consecutive3 ps a c b -> In (EvMid a c b) (triples_of ps).
Proof.
  intros [l1 [l2 ->]]. induction l1 as [|x l1 IH]; [left; reflexivity|]. apply triples_of_cons, IH.
Qed.

Section IP.
  Variables (ea : list (list pt)) (pa : list pt) (eb : list (list pt)) (pb : list pt) (gh : list (list pt)).
  Let I := find_interaction_points ea pa eb pb gh.
  Let elems := ea ++ eb ++ gh.

  Lemma elem_events e ev : In e elems -> In ev (ls_events e) -> In ev (all_events ea pa eb pb gh).
  Proof.
    unfold elems, all_events. intros He Hev. rewrite !in_app_iff in He. rewrite !in_app_iff.
    destruct He as [He|[He|He]]; [left | right; right; left | right; right; right; right];
      apply in_flat_map; exists e; split; assumption.
  Qed.

  Lemma triple_events e a c b : In e elems -> consecutive3 e a c b -> In (EvMid a c b) (all_events ea pa eb pb gh).
  Proof.
    intros He Hc. apply (elem_events e _ He). destruct e as [|p0 r]; [destruct Hc as [[|] [? ?]]; discriminate|].
    right; right. apply consecutive3_event. exact Hc.
  Qed.

  Lemma ip_done ev : In ev (all_events ea pa eb pb gh) ->
    ev_done (fold_left ip_step (all_events ea pa eb pb gh) (MkIP [] [])) ev.
  Proof. apply ev_done_all. Qed.

  (* the ends of every linear element *)
  Lemma ip_endpoints_lemma p0 r : In (p0 :: r) elems -> In p0 I /\ In (last r p0) I.
  Proof.
    intros He. unfold I. rewrite find_interaction_points_events. split.
    - apply (ip_done (EvPt p0)). apply (elem_events (p0 :: r)); [exact He | left; reflexivity].
    - apply (ip_done (EvPt (last r p0))). apply (elem_events (p0 :: r)); [exact He | right; left; reflexivity].
  Qed.
  (* every point of a Point / MultiPoint *)
  Lemma ip_points_lemma p : In p (pa ++ pb) -> In p I.
  Proof.
    intros Hp. unfold I. rewrite find_interaction_points_events. apply (ip_done (EvPt p)).
    unfold all_events. rewrite !in_app_iff. apply in_app_or in Hp.
    destruct Hp as [Hp|Hp]; [right; left | right; right; right; left]; apply in_map; exact Hp.
  Qed.
  (* a reversal point *)
  Lemma ip_spike_lemma e a c b : In e elems -> consecutive3 e a c b -> pt_eq a b -> In c I.
  Proof.
    intros He Hc Eab. unfold I. rewrite find_interaction_points_events.
    pose proof (ip_done _ (triple_events e a c b He Hc)) as D.
    cbn [ev_done] in D. apply pt_eqb_iff in Eab. rewrite Eab in D. exact D.
  Qed.
  (* two occurrences of a control point with different neighbour pairs *)
  Lemma ip_conflict_lemma e1 a1 c1 b1 e2 a2 c2 b2 :
    In e1 elems -> consecutive3 e1 a1 c1 b1 -> In e2 elems -> consecutive3 e2 a2 c2 b2 ->
    pt_eq c1 c2 -> pair_eqb (adj_pair a1 b1) (adj_pair a2 b2) = false -> is_interaction I c1 = true.
  Proof.
    intros He1 Hc1 He2 Hc2 Ec Hp. unfold I. rewrite find_interaction_points_events.
    pose proof (ip_done _ (triple_events _ _ _ _ He1 Hc1)) as D1.
    pose proof (ip_done _ (triple_events _ _ _ _ He2 Hc2)) as D2.
    set (st := fold_left ip_step (all_events ea pa eb pb gh) (MkIP [] [])) in *.
    cbn [ev_done] in D1, D2.
    assert (In1 : In c1 (ip_int st) -> is_interaction (ip_int st) c1 = true) by (apply is_interaction_in; reflexivity).
    pose proof (is_interaction_in (ip_int st) c1 c2 Ec) as In2.
    destruct (pt_eqb a1 b1); [exact (In1 D1)|]. destruct (pt_eqb a2 b2); [exact (In2 D2)|].
    destruct D1 as [v1 [L1 [P1|P1]]]; [|exact (In1 P1)].
    destruct D2 as [v2 [L2 [P2|P2]]]; [|exact (In2 P2)].
    (* both occurrences found the same recorded pair: the two neighbour pairs agree *)
    rewrite (adj_lookup_proper _ c1 c2 Ec), L2 in L1. injection L1 as <-.
    rewrite (pair_eqb_join v2 _ _ P1 P2) in Hp. discriminate.
  Qed.
End IP.

(* ---------------------------------------------------------------- forEachNonInteractingSegment *)
(* the chain under construction starts at an interaction point and has met none since *)
Definition cur_ok (isI : pt -> bool) (cur : list pt) : Prop :=
  match cur with
  | [] => True
  | c0 :: cm => isI c0 = true /\ forallb (fun p => negb (isI p)) cm = true
  end.

Lemma split_chains_spec isI : forall ps cur cs,
  cur_ok isI cur -> (cur = [] -> match ps with [] => True | p :: _ => isI p = true end) ->
  split_chains isI cur ps = Some cs ->
  flat_map (@ring_edges) cs = ring_edges (cur ++ ps) /\ forallb (chain_ok_b isI) cs = true.
Proof.
  induction ps as [|p r IH]; intros cur cs Hok H0 H; cbn [split_chains] in H.
  - rewrite app_nil_r. destruct cur as [|x [|y cur']]; inversion H; split; reflexivity.
  - destruct (isI p && Nat.ltb 1 (length (cur ++ [p]))) eqn:E.
    + destruct (split_chains isI [p] r) as [cs'|] eqn:E'; [|discriminate]. injection H as <-.
      apply andb_true_iff in E as [Ep El]. apply Nat.ltb_lt in El. rewrite app_length in El. simpl in El.
      destruct cur as [|c0 cm]; [simpl in El; lia|]. destruct Hok as [Hc0 Hcm].
      destruct (IH [p] cs') as [IH1 IH2]; [split; [exact Ep|reflexivity]|discriminate|exact E'|].
      cbn [flat_map forallb]. rewrite IH1, IH2, andb_true_r. split.
      * symmetry. apply ring_edges_app. discriminate.
      * cbn [app]. unfold chain_ok_b. destruct (cm ++ [p]) as [|y r'] eqn:Ey; [destruct cm; discriminate|].
        rewrite <- Ey. rewrite last_last, removelast_last, Hc0, Ep, Hcm. reflexivity.
    + replace (cur ++ p :: r) with ((cur ++ [p]) ++ r) by (rewrite <- app_assoc; reflexivity).
      apply IH; [|intros Hn; destruct cur; discriminate|exact H].
      destruct cur as [|c0 cm].
      * cbn [app cur_ok]. split; [apply H0; reflexivity | reflexivity].
      * destruct Hok as [Hc0 Hcm]. cbn [app cur_ok]. split; [exact Hc0|].
        rewrite forallb_app, Hcm. cbn [forallb]. rewrite andb_true_r.
        apply andb_false_iff in E. destruct E as [E|E]; [rewrite E; reflexivity|].
        apply Nat.ltb_ge in E. rewrite app_length in E. simpl in E. lia.
Qed.

Lemma chains_of_spec_lemma I ps cs : chains_of I ps = Some cs ->
  match ps with [] => True | p :: _ => is_interaction I p = true end ->
  flat_map (@ring_edges) cs = ring_edges ps /\ forallb (chain_ok_b (is_interaction I)) cs = true.
Proof.
  unfold chains_of. intros H H0. apply (split_chains_spec _ ps [] cs); [exact Logic.I | intros _; exact H0 | exact H].
Qed.
