(* Property C17 - Densify lifted to whole geometries (Model/TrDensify.v:dens_geom). *)
From Coq Require Import ZArith QArith Qround Qfield Lqa List Bool Lia.
From SF Require Import Base.Outcome Base.GeomAST Model.TrCommon Model.TrDensify Model.TrJudge Proofs.TrDensify_proofs.
Import ListNotations.

Section DG.
  Variable kf : qv -> qv -> Z.
  Variable d : Q.
  Hypothesis d_pos : 0 < d.

  Definition line_dens (l l' : lineT Q) : Prop :=
    line_ct l' = line_ct l /\ line_vs l' = densify_seq kf (line_vs l).

  Lemma omapl_ok {A B} (f : A -> outcome B) (R : A -> B -> Prop) (l : list A) :
    (forall x, exists y, f x = Ok y /\ R x y) -> exists l', omapl f l = Ok l' /\ Forall2 R l l'.
  Proof.
    intros H. induction l as [|x r (r' & E & F)]; simpl.
    - exists []. split; auto.
    - destruct (H x) as (y & Ey & Ry). rewrite Ey, E. exists (y :: r'). split; auto.
  Qed.

  Lemma dens_line_rel l : exists l', dens_line kf d l = Ok l' /\ line_dens l l'.
  Proof. exact (dens_line_spec kf d l d_pos). Qed.

  Definition poly_dens (p p' : polyT Q) : Prop :=
    poly_ct p' = poly_ct p /\ Forall2 line_dens (poly_rings p) (poly_rings p').
  Lemma dens_poly_rel p : exists p', dens_poly kf d p = Ok p' /\ poly_dens p p'.
  Proof.
    destruct p as [ct rs]. unfold dens_poly.
    destruct (omapl_ok (dens_line kf d) line_dens rs dens_line_rel) as (rs' & E & F).
    rewrite E. exists (MkPoly ct rs'). split; auto. split; auto.
  Qed.

  Lemma Forall2_flat_map {A B C D} (R : A -> B -> Prop) (S : C -> D -> Prop) f g l l' :
    (forall x y, R x y -> Forall2 S (f x) (g y)) -> Forall2 R l l' -> Forall2 S (flat_map f l) (flat_map g l').
  Proof. intros H. induction 1; simpl; auto. apply Forall2_app; auto. Qed.

  (* geometry level: d > 0 never panics, keeps type, coordinates type and structure, and every
     line / ring of the result is the densified line / ring of the input, in order *)
  Theorem dens_geom_rel (g : geomT Q) :
    exists g', dens_geom kf d g = Ok g' /\ geom_type g' = geom_type g /\ geom_ct g' = geom_ct g
               /\ Forall2 line_dens (geom_lines g) (geom_lines g').
  Proof.
    assert (Qle_bool d 0 = false) as DN.
    { destruct (Qle_bool d 0) eqn:E; auto. apply Qle_bool_iff in E. lra. }
    induction g using geomT_ind'; simpl.
    - rewrite DN. exists (GPoint p). repeat split. constructor.
    - destruct (dens_line_rel l) as (l' & E & R). rewrite E. exists (GLine l').
      repeat split; [apply R | constructor; [exact R | constructor]].
    - destruct (dens_poly_rel p) as (p' & E & R1 & R2). rewrite E. exists (GPoly p'). repeat split; assumption.
    - rewrite DN. exists (GMPoint ct ps). repeat split. constructor.
    - destruct (omapl_ok (dens_line kf d) line_dens ls dens_line_rel) as (r & E & F).
      rewrite E. exists (GMLine ct r). repeat split. exact F.
    - destruct (omapl_ok (dens_poly kf d) poly_dens ps dens_poly_rel) as (r & E & F).
      rewrite E. exists (GMPoly ct r). repeat split.
      apply (Forall2_flat_map poly_dens line_dens); auto. intros x y [_ Hxy]. exact Hxy.
    - match goal with |- exists g', match ?X with _ => _ end = _ /\ _ =>
        assert (exists r, X = Ok r /\ Forall2 (fun x y => geom_type y = geom_type x /\ geom_ct y = geom_ct x
                                                 /\ Forall2 line_dens (geom_lines x) (geom_lines y)) gs r) as (r & E & F) end.
      { induction H as [|x rest (y & Ey & Ty & Cy & Ly) Hr (r & Er & Fr)].
        - exists []. split; auto.
        - rewrite Ey, Er. exists (y :: r). split; auto. }
      rewrite E. exists (GColl ct r). repeat split.
      apply (Forall2_flat_map _ line_dens _ _ _ _ (fun x y H => proj2 (proj2 H)) F).
  Qed.
End DG.
