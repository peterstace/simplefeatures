(* Property C13 - scale-equivariance of the models Model/Hull.v and Model/Calipers.v.
   Multiplying every point by a positive integer c multiplies the hull and every candidate
   rectangle by c, the metrics by c^2, and keeps the argmin: findMBR of the scaled ring is the
   scaled findMBR of the ring.  This is what allows the correspondence to judge a case that the
   implementation saw multiplied by an exact power of two on its pre-image (classes scaled and
   rescaled of harness/cmd/c13): the model has no intrinsic scale. *)
From Coq Require Import ZArith QArith Qminmax List Bool Lia.
From SF Require Import Base.GeomAST Model.Hull Model.Calipers.
Import ListNotations.
Open Scope Z_scope.

Definition scl (c : Z) (p : pt) : pt := (c * fst p, c * snd p).

Definition scl_result (c : Z) (r : hull_result) : hull_result :=
  match r with
  | HNoPoints => HNoPoints
  | HPoint p => HPoint (scl c p)
  | HLine a b => HLine (scl c a) (scl c b)
  | HPoly ring => HPoly (map (scl c) ring)
  | HPanic => HPanic
  end.

Lemma mul_eqb c x y : 0 < c -> (c * x =? c * y) = (x =? y).
Proof. intros Hc. destruct (Z.eqb_spec (c*x) (c*y)), (Z.eqb_spec x y); try reflexivity; exfalso; nia. Qed.
Lemma mul_ltb c x y : 0 < c -> (c * x <? c * y) = (x <? y).
Proof. intros Hc. destruct (Z.ltb_spec (c*x) (c*y)), (Z.ltb_spec x y); try reflexivity; exfalso; nia. Qed.

Definition scl_verdict (c : Z) (v : linear_verdict) : linear_verdict :=
  match v with LinNo => LinNo | LinYes half => LinYes (map (scl c) half) | LinPanic => LinPanic end.
Lemma map_tl {A B} (f : A -> B) l : tl (map f l) = map f (tl l).
Proof. destruct l; reflexivity. Qed.

(* every comparison the hull makes is unchanged by a positive factor, so each of its functions
   commutes with the scaling *)
Section Scale.
  Variable c : Z.
  Hypothesis Hc : 0 < c.

  Lemma scl_eqb a b : pt_eqb (scl c a) (scl c b) = pt_eqb a b.
  Proof. unfold pt_eqb, scl. cbn [fst snd]. rewrite !mul_eqb by exact Hc. reflexivity. Qed.
  Lemma scl_less a b : pt_less (scl c a) (scl c b) = pt_less a b.
  Proof. unfold pt_less, scl. cbn [fst snd]. rewrite !mul_eqb, !mul_ltb by exact Hc. reflexivity. Qed.
  Lemma scl_cross p q s : cross (scl c p) (scl c q) (scl c s) = (c * c) * cross p q s.
  Proof. unfold cross, scl. cbn [fst snd]. ring. Qed.
  Lemma scl_orientation p q s : orientation (scl c p) (scl c q) (scl c s) = orientation p q s.
  Proof.
    assert (Hk : 0 < c * c) by nia. unfold orientation. rewrite scl_cross.
    rewrite <- (mul_ltb (c * c) 0 (cross p q s)), <- (mul_ltb (c * c) (cross p q s) 0), Z.mul_0_r by exact Hk.
    reflexivity.
  Qed.

  Lemma scl_insert p l : insert (scl c p) (map (scl c) l) = map (scl c) (insert p l).
  Proof.
    induction l as [|x r IH]; [reflexivity|].
    cbn [map insert]. rewrite scl_less. destruct (pt_less p x); [reflexivity|].
    cbn [map]. rewrite IH. reflexivity.
  Qed.
  Lemma scl_sort l : sort (map (scl c) l) = map (scl c) (sort l).
  Proof.
    unfold sort. induction l as [|x r IH]; [reflexivity|].
    cbn [map fold_right]. rewrite IH. apply scl_insert.
  Qed.

  Lemma scl_pop st p : pop_nonleft (map (scl c) st) (scl c p) = map (scl c) (pop_nonleft st p).
  Proof.
    induction st as [|b st' IH]; [reflexivity|].
    destruct st' as [|a st'']; [reflexivity|].
    change (map (scl c) (b :: a :: st'')) with (scl c b :: scl c a :: map (scl c) st'').
    cbn [pop_nonleft]. rewrite scl_orientation.
    destruct (is_left_turn (orientation a b p)); [reflexivity|].
    exact IH.
  Qed.
  Lemma scl_push st p : push (map (scl c) st) (scl c p) = map (scl c) (push st p).
  Proof. unfold push. rewrite scl_pop. reflexivity. Qed.
  Lemma scl_fold_push pts acc :
    fold_left push (map (scl c) pts) (map (scl c) acc) = map (scl c) (fold_left push pts acc).
  Proof.
    revert acc. induction pts as [|p r IH]; intros acc; [reflexivity|].
    cbn [map fold_left]. rewrite scl_push. apply IH.
  Qed.
  Lemma scl_chain pts : chain (map (scl c) pts) = map (scl c) (chain pts).
  Proof.
    unfold chain, chain_rev.
    change (@nil pt) with (map (scl c) []) at 1. rewrite scl_fold_push.
    rewrite map_rev. reflexivity.
  Qed.
  Lemma scl_monotone_chain pts : monotone_chain (map (scl c) pts) = map (scl c) (monotone_chain pts).
  Proof.
    unfold monotone_chain. rewrite scl_sort.
    rewrite <- map_rev, !scl_chain. rewrite map_tl, map_app. reflexivity.
  Qed.

  Lemma scl_has_2_distinct pts : has_2_distinct (map (scl c) pts) = has_2_distinct pts.
  Proof.
    destruct pts as [|p0 r]; [reflexivity|]. cbn [map has_2_distinct].
    induction r as [|q r IH]; [reflexivity|]. cbn [map existsb]. rewrite scl_eqb. rewrite IH. reflexivity.
  Qed.

  Lemma scl_is_linear_hull h : is_linear_hull (map (scl c) h) = scl_verdict c (is_linear_hull h).
  Proof.
    unfold is_linear_hull. rewrite map_length.
    destruct (Nat.even (length h)); [reflexivity|].
    destruct (Nat.div (length h) 2) as [|i1] eqn:E; [reflexivity|].
    rewrite !nth_error_map.
    destruct (nth_error h i1) as [a|]; [|reflexivity].
    destruct (nth_error h (S (S i1))) as [b|]; [|reflexivity].
    cbn [option_map]. rewrite scl_eqb.
    destruct (pt_eqb a b); [|reflexivity].
    cbn [scl_verdict]. rewrite firstn_map. reflexivity.
  Qed.

  Lemma scl_last l d : last (map (scl c) l) (scl c d) = scl c (last l d).
  Proof. induction l as [|x r IH]; [reflexivity|]. destruct r; [reflexivity|]. exact IH. Qed.
End Scale.

Theorem hull_pts_scale_lemma : forall (c : Z) (ps : list pt), 0 < c ->
  hull_pts (map (scl c) ps) = scl_result c (hull_pts ps).
Proof.
  intros c ps Hc. destruct ps as [|p0 r]; [reflexivity|].
  unfold hull_pts. cbn [map]. change (scl c p0 :: map (scl c) r) with (map (scl c) (p0 :: r)).
  rewrite (scl_has_2_distinct c Hc).
  destruct (has_2_distinct (p0 :: r)); cbn [negb]; [|reflexivity].
  rewrite (scl_monotone_chain c Hc), (scl_is_linear_hull c Hc).
  destruct (is_linear_hull (monotone_chain (p0 :: r))) as [|half|]; cbn [scl_verdict scl_result]; try reflexivity.
  destruct half as [|h0 t]; [reflexivity|].
  cbn [map scl_result]. f_equal. exact (scl_last c (h0 :: t) h0).
Qed.

Definition scl_cand (c : Z) (x : cand) : cand :=
  {| c_a := scl c (c_a x); c_d := scl c (c_d x);
     c_tmin := c * c * c_tmin x; c_tmax := c * c * c_tmax x; c_hmax := c * c * c_hmax x |}.

Lemma scl_sub c a b : sub (scl c a) (scl c b) = scl c (sub a b).
Proof. unfold sub, scl. cbn [fst snd]. f_equal; ring. Qed.
Lemma scl_dot c u v : dot (scl c u) (scl c v) = c * c * dot u v.
Proof. unfold dot, scl. cbn [fst snd]. ring. Qed.
Lemma scl_rot90 c d : rot90 (scl c d) = scl c (rot90 d).
Proof. unfold rot90, scl. cbn [fst snd]. f_equal; ring. Qed.

Lemma scl_ring_edges c r :
  ring_edges (map (scl c) r) = map (fun e => (scl c (fst e), scl c (snd e))) (ring_edges r).
Proof.
  induction r as [|a t IH]; [reflexivity|]. destruct t as [|b t']; [reflexivity|].
  change (map (scl c) (a :: b :: t')) with (scl c a :: scl c b :: map (scl c) t').
  cbn [ring_edges map fst snd]. f_equal.
  change (scl c b :: map (scl c) t') with (map (scl c) (b :: t')). exact IH.
Qed.

Lemma fold_scale (op : Z -> Z -> Z) k (f g : pt -> Z) l :
  (forall x y, op (k * x) (k * y) = k * op x y) -> (forall v, g v = k * f v) ->
  fold_right op 0 (map g l) = k * fold_right op 0 (map f l).
Proof.
  intros Hop E. induction l as [|x r IH]; cbn [map fold_right]; [ring|]. rewrite IH, E. apply Hop.
Qed.

Lemma scl_candidate c ring e :
  candidate (map (scl c) ring) (scl c (fst e), scl c (snd e)) = scl_cand c (candidate ring e).
Proof.
  assert (Hk : 0 <= c * c) by nia.
  assert (E : forall a d v, dot (sub (scl c v) (scl c a)) (scl c d) = c * c * dot (sub v a) d)
    by (intros a d v; rewrite scl_sub; apply scl_dot).
  unfold candidate, scl_cand. cbn [fst snd c_a c_d c_tmin c_tmax c_hmax].
  rewrite !map_map, !scl_sub, scl_rot90.
  f_equal.
  - apply (fold_scale Z.min); [intros x y; apply Z.mul_min_distr_nonneg_l, Hk|apply E].
  - apply (fold_scale Z.max); [intros x y; apply Z.mul_max_distr_nonneg_l, Hk|apply E].
  - apply (fold_scale Z.max); [intros x y; apply Z.mul_max_distr_nonneg_l, Hk|apply E].
Qed.

Theorem candidates_scale_lemma : forall (c : Z) (ring : list pt), 0 < c ->
  candidates (map (scl c) ring) = map (scl_cand c) (candidates ring).
Proof.
  intros c ring Hc. unfold candidates. rewrite scl_ring_edges, !map_map.
  apply map_ext. intros e. apply scl_candidate.
Qed.

(* rectangles and metrics over Q *)
Open Scope Q_scope.

Definition qpt_eq (a b : qpt) : Prop := fst a == fst b /\ snd a == snd b.
Definition qscl (c : Z) (p : qpt) : qpt := (inject_Z c * fst p, inject_Z c * snd p).

Lemma inject_Z_nonzero (n : Z) : n <> 0%Z -> ~ inject_Z n == 0.
Proof. intros Hn E. apply Hn. unfold Qeq in E. cbn in E. lia. Qed.

(* also when n = 0 (x / 0 is 0 in Q) *)
Lemma Qdiv_scale (m t n : Z) : m <> 0%Z ->
  inject_Z (m * t) / inject_Z (m * n) == inject_Z t / inject_Z n.
Proof.
  intros Hm. destruct (Z.eq_dec n 0) as [->|Hn].
  - rewrite Z.mul_0_r. unfold Qdiv. change (/ inject_Z 0) with 0. ring.
  - rewrite !inject_Z_mult. field. split; apply inject_Z_nonzero; assumption.
Qed.

Lemma scl_proj_on c o t : (0 < c)%Z -> qpt_eq (proj_on (scl c o) (c * c * t)) (qscl c (proj_on o t)).
Proof.
  intros Hc. unfold proj_on, qpt_eq, qscl. cbv zeta. rewrite scl_dot. unfold scl. cbn [fst snd].
  rewrite Qdiv_scale by nia. rewrite !inject_Z_mult. split; ring.
Qed.

Lemma q_of_pt_scl c p : qpt_eq (q_of_pt (scl c p)) (qscl c (q_of_pt p)).
Proof. unfold qpt_eq, q_of_pt, scl, qscl. cbn [fst snd]. rewrite !inject_Z_mult. split; reflexivity. Qed.
Lemma qadd_scl c a b a' b' :
  qpt_eq a' (qscl c a) -> qpt_eq b' (qscl c b) -> qpt_eq (qadd a' b') (qscl c (qadd a b)).
Proof. unfold qpt_eq, qadd, qscl. cbn [fst snd]. intros [A1 A2] [B1 B2]. rewrite A1, A2, B1, B2. split; ring. Qed.
Lemma qsub_scl c a b a' b' :
  qpt_eq a' (qscl c a) -> qpt_eq b' (qscl c b) -> qpt_eq (qsub a' b') (qscl c (qsub a b)).
Proof. unfold qpt_eq, qsub, qscl. cbn [fst snd]. intros [A1 A2] [B1 B2]. rewrite A1, A2, B1, B2. split; ring. Qed.

Lemma scl_cand_rect c x : (0 < c)%Z ->
  let r' := cand_rect (scl_cand c x) in
  let r := cand_rect x in
  qpt_eq (r_origin r') (qscl c (r_origin r)) /\ qpt_eq (r_span1 r') (qscl c (r_span1 r)) /\
  qpt_eq (r_span2 r') (qscl c (r_span2 r)).
Proof.
  intros Hc. unfold cand_rect, scl_cand. cbn [c_a c_d c_tmin c_tmax c_hmax r_origin r_span1 r_span2].
  rewrite scl_rot90. split; [|split].
  - apply qadd_scl; [apply q_of_pt_scl|apply scl_proj_on, Hc].
  - apply qsub_scl; apply scl_proj_on, Hc.
  - apply scl_proj_on, Hc.
Qed.

(* corner by corner *)
Lemma scl_rect_corners c x : (0 < c)%Z ->
  Forall2 qpt_eq (rect_corners (cand_rect (scl_cand c x))) (map (qscl c) (rect_corners (cand_rect x))).
Proof.
  intros Hc. destruct (scl_cand_rect c x Hc) as (O & S & T).
  pose proof (qadd_scl c _ _ _ _ O S) as C1.
  unfold rect_corners. cbn [map].
  apply Forall2_cons; [exact O|]. apply Forall2_cons; [exact C1|].
  apply Forall2_cons; [exact (qadd_scl c _ _ _ _ C1 T)|]. apply Forall2_cons; [exact (qadd_scl c _ _ _ _ O T)|].
  apply Forall2_cons; [exact O|constructor].
Qed.

Lemma Qmin_scale (k x y x' y' : Q) : 0 < k -> x' == k * x -> y' == k * y -> Qmin x' y' == k * Qmin x y.
Proof.
  intros Hk -> ->. apply (Q.min_mono (fun z => k * z)).
  - intros a b E. rewrite E. reflexivity.
  - intros a b E. rewrite Qmult_le_l by exact Hk. exact E.
Qed.

Theorem cand_metric_scale_lemma : forall (k : metric_kind) (c : Z) (x : cand), (0 < c)%Z ->
  cand_metric k (scl_cand c x) == inject_Z (c * c) * cand_metric k x.
Proof.
  intros k c x Hc. unfold cand_metric, rect_metric.
  destruct (scl_cand_rect c x Hc) as [_ [[S1 S2] [T1 T2]]].
  unfold qscl in *. cbn [fst snd] in *.
  destruct k.
  - unfold qcross2. rewrite S1, S2, T1, T2, inject_Z_mult. ring.
  - apply Qmin_scale.
    + unfold Qlt. cbn. nia.
    + unfold qlen2, qdot. rewrite S1, S2, inject_Z_mult. ring.
    + unfold qlen2, qdot. rewrite T1, T2, inject_Z_mult. ring.
Qed.

(* the first strict minimum is kept *)
Lemma scl_first_min k c best l : (0 < c)%Z ->
  first_min k (scl_cand c best) (map (scl_cand c) l) = scl_cand c (first_min k best l).
Proof.
  intros Hc. assert (Hk : 0 < inject_Z (c * c)) by (unfold Qlt; cbn; nia).
  revert best. induction l as [|a r IH]; intros best; [reflexivity|].
  cbn [map first_min].
  destruct (Qlt_le_dec (cand_metric k (scl_cand c a)) (cand_metric k (scl_cand c best))) as [H1|H1];
    destruct (Qlt_le_dec (cand_metric k a) (cand_metric k best)) as [H2|H2]; try apply IH; exfalso;
    rewrite !cand_metric_scale_lemma in H1 by exact Hc.
  - rewrite Qmult_lt_l in H1 by exact Hk. exact (Qlt_not_le _ _ H1 H2).
  - rewrite Qmult_le_l in H1 by exact Hk. exact (Qlt_not_le _ _ H2 H1).
Qed.

Theorem find_mbr_scale_lemma : forall (k : metric_kind) (c : Z) (ring : list pt), (0 < c)%Z ->
  find_mbr k (map (scl c) ring) = option_map (scl_cand c) (find_mbr k ring).
Proof.
  intros k c ring Hc. unfold find_mbr. rewrite candidates_scale_lemma by exact Hc.
  destruct (candidates ring) as [|x r]; [reflexivity|].
  cbn [map option_map]. rewrite scl_first_min by exact Hc. reflexivity.
Qed.

Definition scl_mbr (c : Z) (m : mbr_result) : mbr_result :=
  match m with
  | MHull r => MHull (scl_result c r)
  | MRect x => MRect (scl_cand c x)
  | MPanic => MPanic
  end.

Theorem mbr_pts_scale_lemma : forall (k : metric_kind) (c : Z) (ps : list pt), (0 < c)%Z ->
  mbr_pts k (map (scl c) ps) = scl_mbr c (mbr_pts k ps).
Proof.
  intros k c ps Hc. unfold mbr_pts. rewrite hull_pts_scale_lemma by exact Hc.
  destruct (hull_pts ps) as [|p|a b|ring|]; cbn [scl_result scl_mbr]; try reflexivity.
  rewrite find_mbr_scale_lemma by exact Hc.
  destruct (find_mbr k ring); reflexivity.
Qed.
