(* Property C15 - lemmas about Model/PointOnSurface.v.
   Every statement holds for every centroid oracle [cen]. *)
From Coq Require Import QArith Qreduction List Bool ZArith Lia Arith Lqa Permutation.
From SF Require Import Base.GeomAST Base.QKernel Base.Planar Proofs.Planar_proofs Proofs.Planar_slab_base
  Model.Boundary Proofs.Boundary_proofs Model.PointOnSurface.
Import ListNotations.
Open Scope Q_scope.

Lemma point_xy_nonempty (q : pointT Q) p : point_xy q = Some p -> point_empty q = false.
Proof. destruct q as [ct [v|]]; [reflexivity|discriminate]. Qed.

Lemma consider_cases t st c :
  consider t st c = st \/ (fst (consider t st c) = c /\ point_empty c = false).
Proof.
  unfold consider. destruct t as [t|]; [|left; reflexivity].
  destruct (point_xy c) as [xy|] eqn:E; [|left; reflexivity].
  destruct (point_empty (fst st) || qltb (d2 t xy) (snd st)); [right|left; reflexivity].
  split; [reflexivity|exact (point_xy_nonempty c xy E)].
Qed.

Lemma fold_keep_or_take {S C} (step : S -> C -> S) (P : S -> C -> Prop) :
  (forall st c, step st c = st \/ P (step st c) c) ->
  forall cs st, fold_left step cs st = st \/ exists c, In c cs /\ P (fold_left step cs st) c.
Proof.
  intros H. induction cs as [|c cs IH]; intros st; [left; reflexivity|]. cbn [fold_left].
  destruct (IH (step st c)) as [E|[c' [Hc' HP]]]; [|right; exists c'; split; [right; exact Hc'|exact HP]].
  rewrite E. destruct (H st c) as [->|HP]; [left; reflexivity|].
  right. exists c. split; [left; reflexivity|exact HP].
Qed.

Lemma consider_all_result t cs st :
  fst (consider_all t st cs) = fst st \/
  (In (fst (consider_all t st cs)) cs /\ point_empty (fst (consider_all t st cs)) = false).
Proof.
  unfold consider_all.
  destruct (fold_keep_or_take (consider t) (fun s c => fst s = c /\ point_empty c = false) (consider_cases t) cs st)
    as [->|[c [Hc [-> Hne]]]]; [left; reflexivity|right; split; assumption].
Qed.

Lemma consider_all_in t cs st :
  point_empty (fst st) = true -> point_empty (fst (consider_all t st cs)) = false ->
  In (fst (consider_all t st cs)) cs.
Proof.
  intros He Hne. destruct (consider_all_result t cs st) as [E|[H _]]; [|exact H].
  rewrite E in Hne. congruence.
Qed.

Lemma consider_all_none st cs : consider_all None st cs = st.
Proof. unfold consider_all. induction cs as [|c cs IH]; [reflexivity|]. exact IH. Qed.

Lemma consider_all_empties t cs : forall st,
  (forall c, In c cs -> point_empty c = true) -> consider_all t st cs = st.
Proof.
  unfold consider_all. induction cs as [|c cs IH]; intros st H; [reflexivity|]. cbn [fold_left].
  destruct (consider_cases t st c) as [->|[_ Hne]]; [apply IH; intros; apply H; right; assumption|].
  rewrite (H c (or_introl eq_refl)) in Hne. discriminate.
Qed.

Lemma consider_all_picks t0 cs : forall st,
  (exists c, In c cs /\ point_empty c = false) ->
  point_empty (fst (consider_all (Some t0) st cs)) = false.
Proof.
  unfold consider_all. induction cs as [|c cs IH]; intros st [c0 [Hin Hne]]; [destruct Hin|]. cbn [fold_left].
  destruct Hin as [->|Hin]; [|apply IH; exists c0; auto].
  (* c0 is taken unless the state is already non-empty; later steps keep a non-empty state *)
  destruct (consider_all_result (Some t0) cs (consider (Some t0) st c0)) as [E|[_ H]]; [|exact H].
  unfold consider_all in E. rewrite E.
  unfold consider. destruct c0 as [ct [v|]]; [|discriminate]. cbn [point_xy point_c option_map].
  destruct (point_empty (fst st)) eqn:Est; [reflexivity|]. destruct (qltb _ _); [reflexivity|exact Est].
Qed.

(* the shape of line_pos and mline_pos: the candidates b are consulted only when a gives nothing *)
Definition two_stage (t : option pt) (a b : list (pointT Q)) : pointT Q :=
  let st := consider_all t nacc0 a in
  if negb (point_empty (fst st)) then fst st else fst (consider_all t st b).

Lemma two_stage_in t a b : point_empty (two_stage t a b) = false -> In (two_stage t a b) (a ++ b).
Proof.
  unfold two_stage. cbn zeta. destruct (point_empty (fst (consider_all t nacc0 a))) eqn:E; cbn [negb]; intros H;
    apply in_or_app.
  - right. apply consider_all_in; assumption.
  - left. apply consider_all_in; [reflexivity|exact E].
Qed.
Lemma two_stage_empties t a b :
  (forall c, In c (a ++ b) -> point_empty c = true) -> point_empty (two_stage t a b) = true.
Proof.
  intros H. unfold two_stage. cbn zeta.
  rewrite !consider_all_empties by (intros; apply H, in_or_app; auto). reflexivity.
Qed.
Lemma two_stage_picks t0 a b :
  (exists c, In c b /\ point_empty c = false) -> point_empty (two_stage (Some t0) a b) = false.
Proof.
  intros H. unfold two_stage. cbn zeta.
  destruct (point_empty (fst (consider_all (Some t0) nacc0 a))) eqn:E; cbn [negb]; [apply consider_all_picks, H|exact E].
Qed.

Lemma point_xy_point2d q : point_xy (point2d q) = point_xy q.
Proof. destruct q as [ct [v|]]; reflexivity. Qed.
Lemma point_empty_point2d q : point_empty (point2d q) = point_empty q.
Proof. destruct q as [ct [v|]]; reflexivity. Qed.

Lemma in_removelast {A} (x : A) l : In x (removelast l) -> In x l.
Proof.
  induction l as [|a [|b r] IH]; simpl; auto. intros [H|H]; [left; exact H|right; apply IH; exact H].
Qed.
Lemma in_tl {A} (x : A) l : In x (tl l) -> In x l.
Proof. destruct l; simpl; auto. Qed.

Lemma line_cands_on_line l q p :
  In q (inner_points l ++ end_points2d l) -> point_xy q = Some p -> on_line l p = true.
Proof.
  intros Hin E. assert (G : exists v, In v (line_vs l) /\ p = vpt v).
  2:{ destruct G as [v [Hv ->]]. apply vertex_on_line, Hv. }
  apply in_app_or in Hin. destruct Hin as [Hin|[<-|[<-|[]]]].
  - apply in_map_iff in Hin. destruct Hin as [v [<- Hv]]. cbn in E. injection E as <-.
    exists v. split; [apply in_tl, in_removelast, Hv|destruct v; reflexivity].
  - rewrite point_xy_point2d in E. destruct l as [ct [|a r]]; [discriminate|]. injection E as <-.
    exists a. split; [left|]; reflexivity.
  - rewrite point_xy_point2d in E. destruct l as [ct [|a r]]; [discriminate|]. injection E as <-.
    exists (last r a). split; [apply last_in|reflexivity].
Qed.
Lemma line_cands_empty (l : lineT Q) c :
  line_empty l = true -> In c (inner_points l ++ end_points2d l) -> point_empty c = true.
Proof. destruct l as [ct [|a r]]; [|discriminate]. intros _ [<-|[<-|[]]]; reflexivity. Qed.
Lemma line_end_nonempty (l : lineT Q) :
  line_empty l = false -> exists c, In c (end_points2d l) /\ point_empty c = false.
Proof. destruct l as [ct [|a r]]; [discriminate|]. intros _. eexists. split; [left; reflexivity|reflexivity]. Qed.

Lemma in_flat_map_app {A B} (f g : A -> list B) l x :
  In x (flat_map f l ++ flat_map g l) -> exists a, In a l /\ In x (f a ++ g a).
Proof.
  intros H. apply in_app_or in H. destruct H as [H|H]; apply in_flat_map in H; destruct H as [a [Ha H]];
    exists a; (split; [exact Ha|apply in_or_app; auto]).
Qed.

Fixpoint ssorted (l : list Q) : Prop :=
  match l with
  | [] => True
  | a :: r => (forall z, In z r -> a < z) /\ ssorted r
  end.
(* number of elements strictly greater than m *)
Definition cgt (m : Q) (l : list Q) : nat := length (filter (qltb m) l).

Lemma qltb_proper_r m x y : x == y -> qltb m x = qltb m y.
Proof. intros H. unfold qltb. rewrite H. reflexivity. Qed.

Lemma memq_proper x y l : x == y -> memq x l = memq y l.
Proof. intros H. unfold memq. apply existsb_ext_in. intros z _. rewrite H. reflexivity. Qed.
Lemma memq_iff z l : memq z l = true <-> exists x, In x l /\ z == x.
Proof.
  unfold memq. rewrite existsb_exists. split; intros [x [Hx E]]; exists x; (split; [exact Hx|]); apply Qeq_bool_iff, E.
Qed.

Lemma memq_app z a b : memq z (a ++ b) = memq z a || memq z b.
Proof. unfold memq. apply existsb_app. Qed.

Lemma qisert_perm x l : Permutation (qisert x l) (x :: l).
Proof.
  induction l as [|y r IH]; [reflexivity|]. cbn [qisert]. destruct (Qle_bool x y); [reflexivity|].
  rewrite IH. apply perm_swap.
Qed.
Lemma isort_perm l : Permutation (isort l) l.
Proof.
  induction l as [|x l IH]; [reflexivity|]. cbn [isort fold_right]. rewrite qisert_perm. apply perm_skip, IH.
Qed.
Lemma cgt_perm m l l' : Permutation l l' -> cgt m l = cgt m l'.
Proof.
  unfold cgt. induction 1 as [|x l l' _ IH|x y l|l l' l'' _ IH1 _ IH2]; cbn [filter]; [reflexivity| | |congruence].
  - destruct (qltb m x); cbn [length]; rewrite IH; reflexivity.
  - destruct (qltb m x), (qltb m y); reflexivity.
Qed.
Lemma memq_perm z l l' : Permutation l l' -> memq z l = memq z l'.
Proof.
  intros P. apply eq_true_iff_eq. rewrite !memq_iff.
  split; intros [x [Hx E]]; exists x; (split; [|exact E]); [|symmetry in P]; exact (Permutation_in x P Hx).
Qed.

Lemma qisert_ssorted x l : ssorted l -> memq x l = false -> ssorted (qisert x l).
Proof.
  induction l as [|y r IH]; cbn [qisert]; [intros _ _; split; [intros z []|exact I]|].
  intros [Hy Hr] Hm. unfold memq in Hm. cbn [existsb] in Hm. apply orb_false_iff in Hm. destruct Hm as [Hxy Hm].
  apply Qeq_bool_false_iff in Hxy. destruct (Qle_bool x y) eqn:E.
  - apply Qle_bool_iff in E. split; [|split; assumption].
    intros z [<-|Hz]; [|specialize (Hy z Hz)]; lra.
  - apply Qle_bool_false_iff in E. split; [|apply IH; assumption].
    intros z Hz. apply (Permutation_in z (qisert_perm x r)) in Hz. destruct Hz as [<-|Hz]; [exact E|apply Hy, Hz].
Qed.
Lemma isort_ssorted l : nodupq l = true -> ssorted (isort l).
Proof.
  induction l as [|x l IH]; [intros _; exact I|]. cbn [nodupq isort fold_right]. intros H.
  apply andb_prop in H. destruct H as [Hx Hl]. apply qisert_ssorted; [apply IH, Hl|].
  fold (isort l). rewrite (memq_perm x _ _ (isort_perm l)). apply negb_true_iff, Hx.
Qed.

Lemma cgt_app m a b : cgt m (a ++ b) = (cgt m a + cgt m b)%nat.
Proof. unfold cgt. rewrite filter_app, app_length. reflexivity. Qed.
Lemma cgt_all_le m l : (forall z, In z l -> z <= m) -> cgt m l = 0%nat.
Proof.
  unfold cgt. induction l as [|x l IH]; [reflexivity|]. intros H. cbn [filter].
  assert (qltb m x = false) as -> by (apply qltb_false_iff; apply H; left; reflexivity).
  apply IH. intros; apply H; right; assumption.
Qed.
Lemma cgt_all_gt m l : (forall z, In z l -> m < z) -> cgt m l = length l.
Proof.
  unfold cgt. induction l as [|x l IH]; [reflexivity|]. intros H. cbn [filter].
  assert (qltb m x = true) as -> by (apply qltb_iff; apply H; left; reflexivity).
  cbn [length]. f_equal. apply IH. intros; apply H; right; assumption.
Qed.

(* (A,B) are neighbours in the list at an even position *)
Inductive even_pair : list Q -> Q -> Q -> Prop :=
| ep_here a b r : even_pair (a :: b :: r) a b
| ep_skip a b r A B : even_pair r A B -> even_pair (a :: b :: r) A B.

Lemma even_pair_in xs A B : even_pair xs A B -> In A xs.
Proof. induction 1; [left; reflexivity|right; right; assumption]. Qed.

Lemma pair_ind {A} (P : list A -> Prop) :
  P [] -> (forall a, P [a]) -> (forall a b r, P r -> P (a :: b :: r)) -> forall l, P l.
Proof.
  intros H0 H1 H2. fix F 1. intros [|a [|b r]]; [exact H0|exact (H1 a)|exact (H2 a b r (F r))].
Qed.

Lemma best_pair_cases rest : forall a b,
  best_pair a b rest = (a, b) \/ even_pair rest (fst (best_pair a b rest)) (snd (best_pair a b rest)).
Proof.
  induction rest as [|c0|c d r IH] using pair_ind; intros a b; try (left; reflexivity).
  cbn [best_pair]. destruct (qltb (b - a) (d - c)).
  - right. destruct (IH c d) as [->|H]; [apply ep_here|apply ep_skip, H].
  - destruct (IH a b) as [E|H]; [left; exact E|right; apply ep_skip, H].
Qed.

(* the midpoint of an even pair of a sorted list of even length: an odd number of elements to its
   right, and not an element itself *)
Lemma even_pair_mid xs A B :
  even_pair xs A B -> ssorted xs -> Nat.even (length xs) = true ->
  let m := (A + B) / 2 in
  A < B /\ Nat.odd (cgt m xs) = true /\ memq m xs = false.
Proof.
  intros H. induction H as [a b r|a b r A B H IH]; intros [Ha [Hb Hr]] Hl; cbn zeta.
  - pose proof (Ha b (or_introl eq_refl)) as Hab. split; [exact Hab|].
    set (m := (a + b) / 2). assert (Hm : a < m < b) by (unfold m; change ((a + b) / 2) with ((a + b) * (1 # 2)); lra).
    assert (Hr' : forall z, In z r -> m < z) by (intros z Hz; specialize (Hb z Hz); lra).
    unfold cgt, memq. cbn [filter existsb].
    rewrite (proj2 (qltb_false_iff m a)), (proj2 (qltb_iff m b)), !(proj2 (Qeq_bool_false_iff m _)) by lra.
    split.
    + cbn [length]. fold (cgt m r). rewrite (cgt_all_gt m r Hr'), Nat.odd_succ. exact Hl.
    + apply existsb_all_false. intros z Hz. apply Qeq_bool_false_iff. specialize (Hr' z Hz). lra.
  - destruct (IH Hr Hl) as [HAB [Hodd Hmem]]. split; [exact HAB|].
    pose proof (Ha b (or_introl eq_refl)) as Hab. pose proof (Hb A (even_pair_in _ _ _ H)) as HbA.
    set (m := (A + B) / 2) in *. assert (Hm : A < m) by (unfold m; change ((A + B) / 2) with ((A + B) * (1 # 2)); lra).
    unfold cgt, memq in *. cbn [filter existsb].
    rewrite !(proj2 (qltb_false_iff m _)), !(proj2 (Qeq_bool_false_iff m _)) by lra. split; assumption.
Qed.

Definition off_row (e : seg) (y0 : Q) : Prop := ~ snd (fst e) == y0 /\ ~ snd (snd e) == y0.

Lemma straddleb_iff e y0 : straddleb e y0 = true <->
  (snd (fst e) < y0 /\ y0 < snd (snd e)) \/ (snd (snd e) < y0 /\ y0 < snd (fst e)).
Proof.
  unfold straddleb. rewrite orb_true_iff, !andb_true_iff, !qltb_iff. reflexivity.
Qed.
Lemma off_row_straddle a b y0 :
  off_row (a, b) y0 -> (snd a <= y0 <= snd b) \/ (snd b <= y0 <= snd a) -> straddleb (a, b) y0 = true.
Proof. intros [Ha Hb] H. apply straddleb_iff. cbn [fst snd] in *. lra. Qed.
Lemma on_bis x0 x1 y0 p : on_seg ((x0, y0), (x1, y0)) p = true -> snd p == y0.
Proof.
  unfold on_seg. cbn [fst snd]. intros H. apply andb_prop in H. destruct H as [H _]. apply andb_prop in H.
  destruct H as [_ Hy]. apply qbetween_iff in Hy. lra.
Qed.
Lemma on_bis_intro x0 x1 y0 p : x0 <= fst p <= x1 -> snd p == y0 -> on_seg ((x0, y0), (x1, y0)) p = true.
Proof.
  intros Hx Hy. unfold on_seg. cbn [fst snd]. rewrite !andb_true_iff. repeat split.
  - apply qbetween_iff. left. exact Hx.
  - apply qbetween_iff. left. lra.
  - apply Qeq_bool_iff. unfold cross. cbn [fst snd]. rewrite Hy. ring.
Qed.

Lemma on_seg_parts a b p : on_seg (a, b) p = true ->
  ((snd a <= snd p <= snd b) \/ (snd b <= snd p <= snd a)) /\ cross a b p == 0.
Proof.
  unfold on_seg. intros H. apply andb_prop in H. destruct H as [H Hc]. apply andb_prop in H. destruct H as [_ Hy].
  apply qbetween_iff in Hy. apply Qeq_bool_iff in Hc. split; assumption.
Qed.

(* the cross product measures the signed horizontal distance to the edge *)
Lemma cross_cx a b p : ~ snd a == snd b ->
  cross a b p == (snd b - snd a) * (cx (a, b) (snd p) - fst p).
Proof. intros H. unfold cross, cx. cbn [fst snd]. field. intros E. apply H. lra. Qed.

Lemma on_edge_row_cx a b p y0 :
  straddleb (a, b) y0 = true -> on_seg (a, b) p = true -> snd p == y0 -> fst p == cx (a, b) y0.
Proof.
  intros Hs H Hy. apply straddleb_iff in Hs. cbn [fst snd] in Hs.
  apply on_seg_parts in H. destruct H as [_ Hc]. rewrite cross_cx in Hc by lra.
  apply Qmult_integral in Hc. destruct Hc as [Hc|Hc]; [lra|]. unfold cx in *. cbn [fst snd] in *. rewrite <- Hy.
  set (k := (snd p - snd a) * (fst b - fst a) / (snd b - snd a)) in *. lra.
Qed.

Lemma straddle_point_on_edge a b y0 :
  straddleb (a, b) y0 = true -> on_seg (a, b) (cx (a, b) y0, y0) = true.
Proof.
  intros Hs. apply straddleb_iff in Hs. cbn [fst snd] in Hs.
  assert (Hd : ~ snd b - snd a == 0) by lra.
  apply on_seg_iff. exists ((y0 - snd a) / (snd b - snd a)).
  set (d := snd b - snd a) in *. set (n := y0 - snd a).
  assert (Ht : (n / d) * d == n) by (field; exact Hd).
  set (t := n / d) in *.
  unfold seg_param. cbn [fst snd]. split; [|split].
  - unfold n, d in *. destruct Hs as [[H1 H2]|[H1 H2]]; split; nra.
  - unfold cx. cbn [fst snd]. fold d. fold n. unfold t. field. exact Hd.
  - unfold n, d in Ht. lra.
Qed.

Lemma intercept_cases x0 x1 y0 e :
  (intercept ((x0, y0), (x1, y0)) e = [] /\ seg_seg e ((x0, y0), (x1, y0)) = SSEmpty) \/
  (exists p, intercept ((x0, y0), (x1, y0)) e = [fst p] /\ on_seg e p = true /\ snd p == y0).
Proof.
  unfold intercept. pose proof (seg_seg_sound e ((x0, y0), (x1, y0))) as S.
  destruct (seg_seg e _) as [|p|p q]; [left; split; reflexivity| |]; right; exists p;
    destruct (S p (or_introl eq_refl)) as [He Hb]; (split; [reflexivity|]); (split; [exact He|exact (on_bis _ _ _ _ Hb)]).
Qed.

Lemma intercept_none x0 x1 y0 e :
  off_row e y0 -> straddleb e y0 = false -> intercept ((x0, y0), (x1, y0)) e = [].
Proof.
  intros Hoff Hs. destruct (intercept_cases x0 x1 y0 e) as [[E _]|[p [_ [He Hy]]]]; [exact E|exfalso].
  destruct e as [a b]. apply on_seg_parts in He. destruct He as [Hbt _].
  rewrite (off_row_straddle a b y0 Hoff) in Hs; [discriminate|lra].
Qed.

Lemma intercept_some x0 x1 y0 e :
  straddleb e y0 = true -> x0 <= cx e y0 <= x1 ->
  exists x, intercept ((x0, y0), (x1, y0)) e = [x] /\ x == cx e y0.
Proof.
  intros Hs Hx. destruct e as [a b].
  destruct (intercept_cases x0 x1 y0 (a, b)) as [[_ E]|[p [E [He Hy]]]].
  - exfalso. refine (seg_seg_complete _ _ _ (straddle_point_on_edge a b y0 Hs) _ E).
    apply on_bis_intro; [exact Hx|reflexivity].
  - exists (fst p). split; [exact E|exact (on_edge_row_cx a b p y0 Hs He Hy)].
Qed.

Lemma edge_cross_straddle a b mx y0 :
  straddleb (a, b) y0 = true -> edge_cross a b (mx, y0) = qltb mx (cx (a, b) y0).
Proof.
  intros Hs. apply straddleb_iff in Hs. cbn [fst snd] in Hs.
  assert (C : cross a b (mx, y0) == (snd b - snd a) * (cx (a, b) y0 - mx)) by (apply (cross_cx a b (mx, y0)); lra).
  assert (C' : cross b a (mx, y0) == - cross a b (mx, y0)) by (unfold cross; ring).
  unfold edge_cross. cbn [fst snd]. apply eq_true_iff_eq. rewrite (qltb_iff mx).
  destruct Hs as [[H1 H2]|[H1 H2]].
  - rewrite (proj2 (Qle_bool_iff (snd a) y0)), (proj2 (Qle_bool_false_iff (snd b) y0)) by lra.
    cbn [Bool.eqb]. rewrite qltb_iff, C. split; nra.
  - rewrite (proj2 (Qle_bool_false_iff (snd a) y0)), (proj2 (Qle_bool_iff (snd b) y0)) by lra.
    cbn [Bool.eqb]. rewrite qltb_iff, C', C. split; nra.
Qed.

Lemma edge_cross_no_straddle a b mx y0 :
  off_row (a, b) y0 -> straddleb (a, b) y0 = false -> edge_cross a b (mx, y0) = false.
Proof.
  intros Hoff Hs. unfold edge_cross. cbn [fst snd].
  destruct (Qle_bool (snd a) y0) eqn:Ea, (Qle_bool (snd b) y0) eqn:Eb; try reflexivity; exfalso;
    rewrite ?Qle_bool_iff, ?Qle_bool_false_iff in *;
    rewrite (off_row_straddle a b y0 Hoff) in Hs by lra; discriminate.
Qed.

Lemma edge_cross_degenerate a b m : pt_eqb a b = true -> edge_cross a b m = false.
Proof.
  intros H. apply pt_eqb_iff in H. destruct H as [_ Hy]. unfold edge_cross. rewrite Hy.
  destruct (Qle_bool (snd b) (snd m)); reflexivity.
Qed.

(* degenerate edges never cross *)
Lemma edges_parity_proper es m :
  edges_parity (filter (fun s => negb (pt_eqb (fst s) (snd s))) es) m = edges_parity es m.
Proof.
  induction es as [|e es IH]; [reflexivity|]. cbn [filter].
  destruct (pt_eqb (fst e) (snd e)) eqn:E; cbn [negb]; rewrite ?edges_parity_cons, IH; [|reflexivity].
  rewrite (edge_cross_degenerate _ _ m E). symmetry. apply xorb_false_l.
Qed.
Lemma edges_parity_ring_lines m (r : lineT Q) : edges_parity (line_segs r) m = edges_parity (ring_lines r) m.
Proof.
  unfold ring_lines, line_segs, segs_of_pts. rewrite edges_parity_proper.
  destruct (line_pts r) as [|p [|q l]]; try reflexivity.
  cbn [ring_edges]. rewrite edges_parity_cons. cbn [fst snd].
  rewrite (edge_cross_degenerate p p m (pt_eqb_refl p)). reflexivity.
Qed.

Lemma ring_lines_iff (r : lineT Q) e :
  In e (ring_lines r) <-> In e (line_segs r) /\ pt_eqb (fst e) (snd e) = false.
Proof.
  unfold ring_lines, line_segs, segs_of_pts. rewrite filter_In, negb_true_iff.
  destruct (line_pts r) as [|p [|q l]]; [tauto| |tauto]. cbn [ring_edges In]. split; [tauto|].
  intros [[<-|[]] H]. cbn [fst snd] in H. rewrite pt_eqb_refl in H. discriminate.
Qed.

Lemma ring_edges_ends ps e : In e (ring_edges ps) -> In (fst e) ps /\ In (snd e) ps.
Proof.
  induction ps as [|a [|b r] IH]; simpl; try tauto.
  intros [<-|H]; [cbn; auto|]. destruct (IH H) as [H1 H2]. auto.
Qed.
Lemma line_segs_ends (r : lineT Q) e : In e (line_segs r) -> In (fst e) (line_pts r) /\ In (snd e) (line_pts r).
Proof.
  unfold line_segs, segs_of_pts. destruct (line_pts r) as [|p [|q l]] eqn:E.
  - intros [].
  - intros [<-|[]]. cbn. auto.
  - apply ring_edges_ends.
Qed.

Lemma memq_flat_map {A} z (f : A -> list Q) l e : In e l -> memq z (f e) = true -> memq z (flat_map f l) = true.
Proof.
  intros He Hm. unfold memq. rewrite existsb_flat_map. apply existsb_exists. exists e. split; assumption.
Qed.

Lemma filter_nil_all_false {A} (f : A -> bool) l : length (filter f l) = 0%nat -> forall x, In x l -> f x = false.
Proof.
  induction l as [|a l IH]; intros H x Hx; [destruct Hx|].
  cbn [filter] in H. destruct (f a) eqn:E; [discriminate|].
  destruct Hx as [<-|Hx]; [exact E|apply IH; assumption].
Qed.

Section Row.
  Variables x0 x1 y0 : Q.
  (* the abscissae where the proper edges of r meet the bisector *)
  Definition ring_icpts (r : lineT Q) : list Q := flat_map (intercept ((x0, y0), (x1, y0))) (ring_lines r).
  Definition ring_row_ok (r : lineT Q) : Prop :=
    (forall q, In q (line_pts r) -> ~ snd q == y0) /\ row_spans_edges x0 x1 y0 (ring_lines r) = true.

  Lemma edge_row a b x :
    off_row (a, b) y0 ->
    (if straddleb (a, b) y0 then Qle_bool x0 (cx (a, b) y0) && Qle_bool (cx (a, b) y0) x1 else true) = true ->
    edge_cross a b (x, y0) = Nat.odd (cgt x (intercept ((x0, y0), (x1, y0)) (a, b))) /\
    on_seg (a, b) (x, y0) = memq x (intercept ((x0, y0), (x1, y0)) (a, b)).
  Proof.
    intros Hoff He. destruct (straddleb (a, b) y0) eqn:Es.
    - apply andb_prop in He. destruct He as [H0 H1]. apply Qle_bool_iff in H0, H1.
      destruct (intercept_some x0 x1 y0 (a, b) Es (conj H0 H1)) as [z [-> Ez]]. split.
      + rewrite (edge_cross_straddle a b x y0 Es). unfold cgt. cbn [filter].
        rewrite (qltb_proper_r x z _ Ez). destruct (qltb x (cx (a, b) y0)); reflexivity.
      + unfold memq. cbn [existsb]. rewrite orb_false_r. apply eq_true_iff_eq. rewrite Qeq_bool_iff, Ez. split.
        * intros Hon. exact (on_edge_row_cx a b (x, y0) y0 Es Hon (Qeq_refl _)).
        * intros E. rewrite <- (straddle_point_on_edge a b y0 Es).
          apply on_seg_proper; try reflexivity. split; [exact E|reflexivity].
    - rewrite (intercept_none x0 x1 y0 (a, b) Hoff Es). split; [exact (edge_cross_no_straddle a b x y0 Hoff Es)|].
      apply not_true_iff_false. intros Hon. apply on_seg_parts in Hon. destruct Hon as [Hbt _].
      rewrite (off_row_straddle a b y0 Hoff Hbt) in Es. discriminate.
  Qed.

  Lemma edges_row es x :
    (forall e, In e es -> off_row e y0) -> row_spans_edges x0 x1 y0 es = true ->
    edges_parity es (x, y0) = Nat.odd (cgt x (flat_map (intercept ((x0, y0), (x1, y0))) es)) /\
    on_edges es (x, y0) = memq x (flat_map (intercept ((x0, y0), (x1, y0))) es).
  Proof.
    induction es as [|[a b] es IH]; intros Hoff Hsp; [split; reflexivity|].
    cbn [row_spans_edges forallb] in Hsp. apply andb_prop in Hsp. destruct Hsp as [He Hsp].
    destruct (edge_row a b x (Hoff _ (or_introl eq_refl)) He) as [E1 E2].
    destruct IH as [I1 I2]; [intros; apply Hoff; right; assumption|exact Hsp|].
    rewrite edges_parity_cons. unfold on_edges in *. cbn [flat_map existsb fst snd].
    rewrite cgt_app, Nat.odd_add, memq_app, <- E1, <- E2, <- I1, <- I2. split; reflexivity.
  Qed.

  Lemma ring_row r : ring_row_ok r -> forall x,
    edges_parity (line_segs r) (x, y0) = Nat.odd (cgt x (ring_icpts r)) /\
    on_edges (line_segs r) (x, y0) = memq x (ring_icpts r).
  Proof.
    intros [Hoff Hsp] x.
    assert (Hends : forall e, In e (line_segs r) -> off_row e y0).
    { intros e He. apply line_segs_ends in He. destruct He. split; apply Hoff; assumption. }
    destruct (edges_row (ring_lines r) x) as [E1 E2]; [intros e He; apply Hends, ring_lines_iff, He|exact Hsp|].
    unfold ring_icpts. rewrite <- E1, <- E2, edges_parity_ring_lines. split; [reflexivity|].
    (* a degenerate edge has its one point off the row *)
    apply eq_true_iff_eq. unfold on_edges. rewrite !existsb_exists.
    split; intros [[a b] [He Hon]]; exists (a, b); (split; [|exact Hon]); [|apply ring_lines_iff, He].
    apply ring_lines_iff. split; [exact He|]. apply not_true_iff_false. intros D. apply pt_eqb_iff in D.
    destruct D as [_ D]. destruct (Hends _ He) as [Ha _]. apply on_seg_parts in Hon. cbn [fst snd] in *. lra.
  Qed.

  Lemma rings_parity_intercepts mx rings :
    (forall r, In r rings -> ring_row_ok r) ->
    Nat.odd (length (filter (fun r => edges_parity (line_segs r) (mx, y0)) rings))
    = Nat.odd (cgt mx (flat_map ring_icpts rings)).
  Proof.
    induction rings as [|r rings IH]; intros Hok; [reflexivity|]. cbn [filter flat_map].
    rewrite cgt_app, Nat.odd_add, <- IH by (intros; apply Hok; right; assumption).
    rewrite <- (proj1 (ring_row r (Hok r (or_introl eq_refl)) mx)).
    destruct (edges_parity (line_segs r) (mx, y0)); [|symmetry; apply xorb_false_l].
    cbn [length]. rewrite Nat.odd_succ, <- Nat.negb_odd. symmetry. apply xorb_true_l.
  Qed.

  Lemma row_point_interior mx shell rest :
    (forall r, In r (shell :: rest) -> ring_row_ok r) ->
    Nat.odd (cgt mx (flat_map ring_icpts (shell :: rest))) = true ->
    memq mx (flat_map ring_icpts (shell :: rest)) = false ->
    (rings_boundary (map line_segs (shell :: rest)) (mx, y0) = false ->
     let k := length (filter (fun h => edges_parity (line_segs h) (mx, y0)) rest) in
     (k <= 1)%nat /\ (k = 1%nat -> edges_parity (line_segs shell) (mx, y0) = true)) ->
    rings_interior (map line_segs (shell :: rest)) (mx, y0) = true.
  Proof.
    intros Hok Hodd Hmem Hnest.
    assert (Hnot : forall r, In r (shell :: rest) -> on_edges (line_segs r) (mx, y0) = false).
    { intros r Hr. rewrite (proj2 (ring_row r (Hok r Hr) mx)). apply not_true_iff_false. intros E.
      rewrite (memq_flat_map mx _ _ r Hr E) in Hmem. discriminate. }
    assert (Hb : rings_boundary (map line_segs (shell :: rest)) (mx, y0) = false).
    { unfold rings_boundary. rewrite existsb_map. apply existsb_all_false. exact Hnot. }
    specialize (Hnest Hb). cbn zeta in Hnest. destruct Hnest as [Hk1 Hk2].
    cbn [flat_map] in Hodd. rewrite cgt_app, Nat.odd_add in Hodd.
    rewrite <- (proj1 (ring_row shell (Hok shell (or_introl eq_refl)) mx)) in Hodd.
    rewrite <- (rings_parity_intercepts mx rest) in Hodd by (intros; apply Hok; right; assumption).
    set (k := length (filter (fun h => edges_parity (line_segs h) (mx, y0)) rest)) in *.
    (* the total is odd and at most one hole contains the point: it is the exterior ring alone *)
    assert (Hsk : edges_parity (line_segs shell) (mx, y0) = true /\ k = 0%nat).
    { destruct k as [|[|k']]; [|specialize (Hk2 eq_refl)|lia];
        destruct (edges_parity (line_segs shell) (mx, y0)); try discriminate. split; reflexivity. }
    destruct Hsk as [Hs Hk0]. cbn [map rings_interior]. apply andb_true_iff. split.
    - unfold ring_strict_in. rewrite (Hnot shell (or_introl eq_refl)), Hs. reflexivity.
    - rewrite forallb_map. apply forallb_forall. intros h Hh. unfold ring_strict_out.
      rewrite (Hnot h (or_intror Hh)), (filter_nil_all_false _ rest Hk0 h Hh). reflexivity.
  Qed.
End Row.

Lemma next_above_spec y ys :
  match next_above y ys with
  | Some n => In n ys /\ y < n /\ forall v, In v ys -> y < v -> n <= v
  | None => forall v, In v ys -> v <= y
  end.
Proof.
  unfold next_above. induction ys as [|v0 ys IH] using rev_ind; [intros v []|].
  rewrite fold_left_app. cbn [fold_left].
  assert (Hin : forall P : Q -> Prop, (forall v, In v ys -> P v) -> P v0 -> forall v, In v (ys ++ [v0]) -> P v).
  { intros P H H0 v Hv. apply in_app_or in Hv. destruct Hv as [Hv|[<-|[]]]; auto. }
  assert (Hl : In v0 (ys ++ [v0])) by (apply in_or_app; right; left; reflexivity).
  destruct (qltb y v0) eqn:E; [apply qltb_iff in E|apply qltb_false_iff in E];
    destruct (fold_left _ ys None) as [a|].
  - destruct IH as [Hi [Ha Hmin]]. destruct (qltb v0 a) eqn:E2; [apply qltb_iff in E2|apply qltb_false_iff in E2].
    + split; [exact Hl|]. split; [exact E|]. apply (Hin (fun v => y < v -> v0 <= v)); [|lra].
      intros v Hv Hy. specialize (Hmin v Hv Hy). lra.
    + split; [apply in_or_app; left; exact Hi|]. split; [exact Ha|].
      apply (Hin (fun v => y < v -> a <= v)); [exact Hmin|intros _; exact E2].
  - split; [exact Hl|]. split; [exact E|]. apply (Hin (fun v => y < v -> v0 <= v)); [|lra].
    intros v Hv Hy. specialize (IH v Hv). lra.
  - destruct IH as [Hi [Ha Hmin]]. split; [apply in_or_app; left; exact Hi|]. split; [exact Ha|].
    apply (Hin (fun v => y < v -> a <= v)); [exact Hmin|lra].
  - apply (Hin (fun v => v <= y)); [exact IH|exact E].
Qed.

Lemma row_y_off lo hi ys my : row_y lo hi ys = Some my -> forall v, In v ys -> ~ v == my.
Proof.
  unfold row_y. set (mid := (lo + hi) * (1 # 2)).
  destruct (existsb (fun v => Qeq_bool v mid) ys) eqn:Em.
  - pose proof (next_above_spec mid ys) as G. destruct (next_above mid ys) as [n|]; [|discriminate].
    destruct G as [_ [H1 H2]]. intros [= <-] v Hv Ev. change ((mid + n) / 2) with ((mid + n) * (1 # 2)) in Ev.
    destruct (Qlt_le_dec mid v) as [Hgt|Hle]; [specialize (H2 v Hv Hgt)|]; lra.
  - intros [= <-] v Hv Ev. apply not_true_iff_false in Em. apply Em.
    apply existsb_exists. exists v. split; [exact Hv|apply Qeq_bool_iff; exact Ev].
Qed.

Lemma poly_row_inv y ri : poly_row y = Some ri ->
  exists x0 x1,
    r_bis ri = ((x0, r_y ri), (x1, r_y ri)) /\
    r_xs ri = isort (raw_intercepts (r_bis ri) (poly_rings y)) /\
    forall r q, In r (poly_rings y) -> In q (line_pts r) -> ~ snd q == r_y ri.
Proof.
  unfold poly_row. destruct (poly_rings y) as [|shell rest]; [discriminate|].
  destruct (line_pts shell) as [|p0 pr]; [discriminate|].
  destruct (row_y _ _ _) as [my|] eqn:Ey; [|discriminate]. intros [= <-]. cbn [r_y r_bis r_xs].
  eexists. eexists. split; [reflexivity|]. split; [reflexivity|].
  intros r q Hr Hq. apply (row_y_off _ _ _ _ Ey). apply in_flat_map. exists r. split; [exact Hr|apply in_map, Hq].
Qed.

(* the bisector passes through no control point of any ring *)
Theorem row_avoids_vertices_lemma (y : polyT Q) (ri : row_info) :
  poly_row y = Some ri ->
  forall r q, In r (poly_rings y) -> In q (line_pts r) -> ~ snd q == r_y ri.
Proof. intros Hrow. destruct (poly_row_inv y ri Hrow) as (x0 & x1 & _ & _ & Hoff). exact Hoff. Qed.

(* the bisector is horizontal at the row ordinate and the intercepts are the sorted abscissae
   where ring edges meet it, strictly increasing when they are pairwise distinct *)
Theorem row_shape_lemma (y : polyT Q) (ri : row_info) :
  poly_row y = Some ri ->
  snd (fst (r_bis ri)) = r_y ri /\ snd (snd (r_bis ri)) = r_y ri /\
  r_xs ri = isort (raw_intercepts (r_bis ri) (poly_rings y)) /\
  (nodupq (raw_intercepts (r_bis ri) (poly_rings y)) = true -> ssorted (r_xs ri)).
Proof.
  intros Hrow. destruct (poly_row_inv y ri Hrow) as (x0 & x1 & Eb & Exs & _).
  split; [rewrite Eb; reflexivity|]. split; [rewrite Eb; reflexivity|]. split; [exact Exs|].
  intros Hnd. rewrite Exs. apply isort_ssorted, Hnd.
Qed.

Lemma point_on_area_row (y : polyT Q) (p : pt) :
  row_hyps y = true -> point_xy (fst (point_on_area y)) = Some p ->
  exists x0 x1 y0 mx, p = (mx, y0) /\
    (forall r, In r (poly_rings y) -> ring_row_ok x0 x1 y0 r) /\
    nodupq (flat_map (ring_icpts x0 x1 y0) (poly_rings y)) = true /\
    Nat.odd (cgt mx (flat_map (ring_icpts x0 x1 y0) (poly_rings y))) = true /\
    memq mx (flat_map (ring_icpts x0 x1 y0) (poly_rings y)) = false.
Proof.
  unfold row_hyps. destruct (poly_row y) as [ri|] eqn:Hrow; [|discriminate].
  intros H Hp. apply andb_prop in H. destruct H as [H Hnd]. apply andb_prop in H. destruct H as [Hreg Hsp].
  destruct (poly_row_inv y ri Hrow) as (x0 & x1 & Ebis & Exs & Hoff).
  rewrite Ebis in *. cbn [fst snd] in Hsp.
  exists x0, x1, (r_y ri). unfold point_on_area in Hp. rewrite Hrow, Hreg in Hp.
  change (raw_intercepts ((x0, r_y ri), (x1, r_y ri)) (poly_rings y))
    with (flat_map (ring_icpts x0 x1 (r_y ri)) (poly_rings y)) in *.
  destruct (poly_rings y) as [|shell rest]; [discriminate Hp|]. destruct (line_pts shell); [discriminate Hp|].
  destruct (r_xs ri) as [|a [|b rest']]; [discriminate|discriminate|].
  destruct (best_pair a b rest') as [A B] eqn:Ebp.
  assert (Hev : even_pair (a :: b :: rest') A B).
  { destruct (best_pair_cases rest' a b) as [E|H]; rewrite Ebp in *; [injection E as -> ->; apply ep_here|apply ep_skip, H]. }
  assert (Hss : ssorted (a :: b :: rest')) by (rewrite Exs; apply isort_ssorted, Hnd).
  apply andb_prop in Hreg. destruct Hreg as [_ Hlen].
  destruct (even_pair_mid _ A B Hev Hss Hlen) as [HAB' [Hodd Hmem]].
  assert (HAB : Qeq_bool A B = false) by (apply Qeq_bool_false_iff; lra).
  rewrite HAB in Hp. cbn [fst point_xy xy_point point_c option_map vpt vx vy] in Hp. injection Hp as <-.
  exists ((A + B) / 2). rewrite Exs, (cgt_perm _ _ _ (isort_perm _)) in Hodd. rewrite Exs, (memq_perm _ _ _ (isort_perm _)) in Hmem.
  split; [reflexivity|]. split; [|split; [exact Hnd|split; [exact Hodd|exact Hmem]]].
  intros r Hr. split; [intros q Hq; exact (Hoff r q Hr Hq)|].
  unfold row_spans in Hsp. rewrite forallb_forall in Hsp. exact (Hsp r Hr).
Qed.

Lemma filter_map_length {A B} (f : A -> B) (g : B -> bool) l :
  length (filter g (map f l)) = length (filter (fun x => g (f x)) l).
Proof. induction l as [|a l IH]; [reflexivity|]. cbn [map filter]. destruct (g (f a)); cbn [length]; rewrite IH; reflexivity. Qed.

Lemma poly_interior_locate (y : polyT Q) p : poly_interior y p = true -> locate (GPoly y) p = Interior.
Proof.
  intros H. unfold locate, prep, locate_p. cbn [g_polys map existsb pg_polys].
  unfold poly_interior in H. rewrite H. reflexivity.
Qed.

Lemma pos_areal_interior_in (y : polyT Q) (p : pt) :
  row_hyps y = true -> valid_nesting y -> point_xy (fst (point_on_area y)) = Some p -> poly_interior y p = true.
Proof.
  intros Hrh Hnest Hp.
  destruct (point_on_area_row y p Hrh Hp) as (x0 & x1 & y0 & mx & -> & Hok & _ & Hodd & Hmem).
  specialize (Hnest (mx, y0)). unfold nesting_at in Hnest. unfold poly_interior. unfold poly_ring_segs in *.
  destruct (poly_rings y) as [|shell rest]; [discriminate Hodd|].
  apply (row_point_interior x0 x1 y0 mx shell rest Hok Hodd Hmem). intros Hb.
  cbn [map] in Hnest. cbn zeta in Hnest. rewrite filter_map_length in Hnest. exact (Hnest Hb).
Qed.

Theorem pos_areal_interior_lemma (y : polyT Q) (ri : row_info) (p : pt) :
  poly_row y = Some ri ->
  xs_regular (r_xs ri) = true ->
  row_spans (fst (fst (r_bis ri))) (fst (snd (r_bis ri))) (r_y ri) (poly_rings y) = true ->
  nodupq (raw_intercepts (r_bis ri) (poly_rings y)) = true ->
  valid_nesting y ->
  point_xy (fst (point_on_area y)) = Some p ->
  poly_interior y p = true /\ locate (GPoly y) p = Interior.
Proof.
  intros Hrow Hreg Hsp Hnd Hnest Hp.
  assert (Hrh : row_hyps y = true) by (unfold row_hyps; rewrite Hrow, Hreg, Hsp, Hnd; reflexivity).
  pose proof (pos_areal_interior_in y p Hrh Hnest Hp) as Hint.
  split; [exact Hint|exact (poly_interior_locate y p Hint)].
Qed.

Lemma mp_step_cases st y :
  mp_step st y = st \/ (mp_step st y = point_on_area y /\ point_empty (fst (point_on_area y)) = false).
Proof.
  unfold mp_step. destruct (point_on_area y) as [q w]. destruct (point_empty q) eqn:E; [left; reflexivity|].
  destruct (_ || _); [right; split; [reflexivity|exact E]|left; reflexivity].
Qed.
Lemma mp_fold_result ys st :
  fold_left mp_step ys st = st \/
  exists y, In y ys /\ fold_left mp_step ys st = point_on_area y /\ point_empty (fst (point_on_area y)) = false.
Proof.
  exact (fold_keep_or_take mp_step (fun s y => s = point_on_area y /\ point_empty (fst (point_on_area y)) = false)
           mp_step_cases ys st).
Qed.

Lemma mpoly_pos_member ys p :
  point_xy (mpoly_pos ys) = Some p -> exists y, In y ys /\ mpoly_pos ys = fst (point_on_area y).
Proof.
  unfold mpoly_pos. intros E. destruct (mp_fold_result ys (empty_point, 0)) as [E0|(y & Hy & Ey & _)].
  - rewrite E0 in E. discriminate.
  - exists y. split; [exact Hy|]. rewrite Ey. reflexivity.
Qed.

Lemma mpoly_pos_interior ct ys p :
  (forall y, In y ys -> poly_empty y = false -> point_xy (fst (point_on_area y)) = Some p -> poly_interior y p = true) ->
  point_xy (mpoly_pos ys) = Some p -> locate (GMPoly ct ys) p = Interior.
Proof.
  intros Hh E. destruct (mpoly_pos_member ys p E) as [y [Hy Ey]]. rewrite Ey in E.
  assert (Hne : poly_empty y = false) by (destruct y as [c [|r rs]]; [discriminate E|reflexivity]).
  unfold locate, prep, locate_p. cbn [g_polys map pg_polys].
  assert (Hex : existsb (fun rs => rings_interior rs p) (map poly_ring_segs ys) = true).
  { rewrite existsb_map. apply existsb_exists. exists y. split; [exact Hy|exact (Hh y Hy Hne E)]. }
  rewrite Hex. reflexivity.
Qed.

Theorem pos_mpoly_interior_lemma ct ys p :
  (forall y, In y ys -> poly_empty y = false -> row_hyps y = true /\ valid_nesting y) ->
  point_xy (mpoly_pos ys) = Some p ->
  locate (GMPoly ct ys) p = Interior.
Proof.
  intros Hh. apply mpoly_pos_interior. intros y Hy Hne Hp. destruct (Hh y Hy Hne) as [Hrh Hnest].
  exact (pos_areal_interior_in y p Hrh Hnest Hp).
Qed.

Lemma mpoly_pos_fold_empty ys : forall st,
  (forall y, In y ys -> poly_empty y = true) -> fold_left mp_step ys st = st.
Proof.
  induction ys as [|y ys IH]; intros st H; [reflexivity|]. cbn [fold_left].
  rewrite IH by (intros; apply H; right; assumption).
  pose proof (H y (or_introl eq_refl)) as Hy. destruct y as [ct [|r rs]]; [reflexivity|discriminate].
Qed.

Lemma mp_fold_picks ys : forall st,
  (exists y, In y ys /\ point_empty (fst (point_on_area y)) = false) ->
  point_empty (fst (fold_left mp_step ys st)) = false.
Proof.
  induction ys as [|y ys IH]; intros st [y0 [Hin Hne]]; [destruct Hin|]. cbn [fold_left].
  destruct Hin as [->|Hin]; [|apply IH; exists y0; auto].
  destruct (mp_fold_result ys (mp_step st y0)) as [->|(y' & _ & -> & H)]; [|exact H].
  unfold mp_step. destruct (point_on_area y0) as [q w]. cbn [fst] in Hne. rewrite Hne.
  destruct (point_empty (fst st)) eqn:Es; [exact Hne|]. destruct (qltb _ _); [exact Hne|exact Es].
Qed.

Lemma point_on_area_nonempty (y : polyT Q) :
  poly_wf y = true -> poly_empty y = false -> point_empty (fst (point_on_area y)) = false.
Proof.
  intros Hwf He. destruct y as [ct [|sh rs]]; [discriminate|]. unfold poly_wf in Hwf. cbn [poly_rings forallb] in Hwf.
  apply andb_prop in Hwf. destruct Hwf as [Hsh _]. apply ring_ok_nonempty in Hsh.
  unfold point_on_area. cbn [poly_rings]. destruct sh as [c [|v vs]]; [discriminate|].
  unfold line_pts. cbn [line_vs map].
  destruct (poly_row _) as [ri|]; [|reflexivity].
  destruct (xs_regular (r_xs ri)); [|reflexivity].
  destruct (r_xs ri) as [|a [|b rest]]; try reflexivity. destruct (best_pair a b rest) as [A B].
  destruct (Qeq_bool A B); reflexivity.
Qed.

Lemma leaves_forallb (f : geom -> bool) :
  (forall ct gs, f (GColl ct gs) = forallb f gs) -> forall g, f g = forallb f (leaves g).
Proof.
  intros Hf. induction g as [p|l|p|ct ps|ct ls|ct ps|ct gs H] using geomT_ind'; cbn [leaves forallb];
    rewrite ?andb_true_r; try reflexivity.
  rewrite Hf. rewrite Forall_forall in H. induction gs as [|a gs IH]; [reflexivity|]. cbn [forallb flat_map].
  rewrite forallb_app, <- (H a (or_introl eq_refl)), IH by (intros; apply H; right; assumption). reflexivity.
Qed.
Lemma leaves_of_empty (g : geom) : is_empty g = true -> forall l, In l (leaves g) -> is_empty l = true.
Proof. rewrite (leaves_forallb (@is_empty Q)) by reflexivity. apply forallb_forall. Qed.
Lemma nonempty_leaf (g : geom) : is_empty g = false -> exists l, In l (leaves g) /\ is_empty l = false.
Proof. rewrite (leaves_forallb (@is_empty Q)) by reflexivity. apply forallb_false_exists. Qed.
Lemma geom_wf_leaves (g : geom) : geom_wf g = true -> forall l, In l (leaves g) -> geom_wf l = true.
Proof. rewrite (leaves_forallb geom_wf) by reflexivity. apply forallb_forall. Qed.
Lemma leaves_not_coll (g l : geom) : In l (leaves g) -> forall ct gs, l <> GColl ct gs.
Proof.
  induction g using geomT_ind'; cbn [leaves]; intros Hl; try (destruct Hl as [<-|[]]; intros; discriminate).
  apply in_flat_map in Hl. destruct Hl as [x [Hx Hl]]. rewrite Forall_forall in H. apply (H x Hx Hl).
Qed.

(* max_dim_nonempty is the maximum of this quantity, which on a leaf is dim_ie *)
Definition ne_dim (g : geom) : nat := if is_empty g then 0%nat else dimension g.
Lemma mdn_fold_max lv : max_dim_nonempty lv = fold_left (fun d g => Nat.max d (ne_dim g)) lv 0%nat.
Proof.
  unfold max_dim_nonempty. generalize 0%nat. induction lv as [|g lv IH]; intros d; [reflexivity|]. cbn [fold_left].
  rewrite IH. f_equal. unfold ne_dim. destruct (is_empty g); lia.
Qed.
Lemma fold_max_from {A} (f : A -> nat) l d0 :
  fold_left (fun d x => Nat.max d (f x)) l d0 = Nat.max d0 (fold_left (fun d x => Nat.max d (f x)) l 0%nat).
Proof.
  revert d0. induction l as [|a l IH]; intros d0; cbn [fold_left]; [lia|].
  rewrite (IH (Nat.max d0 (f a))), (IH (Nat.max 0 (f a))). lia.
Qed.

Lemma dim_ie_leaf (g : geom) : (forall ct gs, g <> GColl ct gs) -> dim_ie g = ne_dim g.
Proof. intros Hn. rewrite dim_ie_eq. destruct g; try reflexivity. exfalso. eapply Hn. reflexivity. Qed.

Lemma dim_ie_coll ct gs : dim_ie (GColl ct gs) = fold_left (fun d g' => Nat.max d (dim_ie g')) gs 0%nat.
Proof.
  rewrite dim_ie_eq. cbn [dim_body is_empty]. destruct (forallb (@is_empty Q) gs) eqn:E; [|reflexivity].
  symmetry. apply Nat.le_antisymm; [|lia]. apply fold_max_bound; [lia|].
  intros x Hx. rewrite forallb_forall in E. rewrite dim_ie_eq, (E x Hx). lia.
Qed.

Lemma mdn_dim_ie (g : geom) : max_dim_nonempty (leaves g) = dim_ie g.
Proof.
  induction g as [p|l|p|ct ps|ct ls|ct ps|ct gs H] using geomT_ind';
    try (rewrite dim_ie_leaf by (intros; discriminate); rewrite mdn_fold_max; reflexivity).
  rewrite dim_ie_coll, mdn_fold_max. cbn [leaves]. rewrite Forall_forall in H. generalize 0%nat.
  induction gs as [|a gs IH]; intros d0; [reflexivity|]. cbn [flat_map fold_left].
  rewrite fold_left_app, (fold_max_from ne_dim (leaves a)), <- mdn_fold_max, (H a (or_introl eq_refl)).
  apply IH. intros; apply H; right; assumption.
Qed.

Lemma mdn_attained lv : (exists l, In l lv /\ is_empty l = false) ->
  exists l, In l lv /\ is_empty l = false /\ dimension l = max_dim_nonempty lv.
Proof.
  rewrite mdn_fold_max. intros [l0 [Hl0 He0]].
  destruct (Nat.eq_0_gt_0_cases (fold_left (fun d g => Nat.max d (ne_dim g)) lv 0%nat)) as [E|Hpos].
  - (* the maximum is 0: any non-empty leaf has dimension 0 *)
    exists l0. split; [exact Hl0|]. split; [exact He0|].
    pose proof (fold_max_ge _ ne_dim lv 0%nat l0 Hl0) as G. unfold ne_dim at 1 in G. rewrite He0 in G. lia.
  - destruct (fold_max_attained _ ne_dim lv Hpos) as [x [Hx Ex]]. exists x. split; [exact Hx|].
    unfold ne_dim at 1 in Ex. destruct (is_empty x); [lia|split; [reflexivity|exact Ex]].
Qed.

Section WithCen.
  Variable cen : geom -> option pt.

  Lemma line_pos_two_stage l : line_pos cen l = two_stage (cen (GLine l)) (inner_points l) (end_points2d l).
  Proof. reflexivity. Qed.
  Lemma mline_pos_two_stage ct ls :
    mline_pos cen ct ls = two_stage (cen (GMLine ct ls)) (flat_map inner_points ls) (flat_map end_points2d ls).
  Proof. reflexivity. Qed.

  Theorem pos_line_on_line_lemma l p : point_xy (pos cen (GLine l)) = Some p -> on_line l p = true.
  Proof.
    cbn [pos leaf_pos]. rewrite line_pos_two_stage. intros E.
    refine (line_cands_on_line l _ p _ E). apply two_stage_in, (point_xy_nonempty _ p), E.
  Qed.

  Theorem pos_mline_on_line_lemma ct ls p :
    point_xy (pos cen (GMLine ct ls)) = Some p -> inG (GMLine ct ls) p = true.
  Proof.
    cbn [pos leaf_pos]. rewrite mline_pos_two_stage. intros E.
    pose proof (two_stage_in _ _ _ (point_xy_nonempty _ p E)) as Hin.
    apply in_flat_map_app in Hin. destruct Hin as [l [Hl Hin]].
    cbn [inG]. apply existsb_exists. exists l. split; [exact Hl|exact (line_cands_on_line l _ p Hin E)].
  Qed.

  Theorem pos_mpoint_member_lemma ct ps p :
    point_xy (pos cen (GMPoint ct ps)) = Some p -> exists q, In q ps /\ point_xy q = Some p.
  Proof.
    cbn [pos leaf_pos]. unfold mpoint_pos. intros E.
    pose proof (consider_all_in _ _ nacc0 eq_refl (point_xy_nonempty _ p E)) as Hin.
    apply in_map_iff in Hin. destruct Hin as [q [Eq Hq]]. exists q. split; [exact Hq|].
    rewrite <- Eq, point_xy_point2d in E. exact E.
  Qed.

  Theorem pos_point_lemma q : point_xy (pos cen (GPoint q)) = point_xy q.
  Proof. apply point_xy_point2d. Qed.

  Lemma leaf_pos_of_empty (g : geom) : is_empty g = true -> point_empty (leaf_pos cen g) = true.
  Proof.
    destruct g; cbn [is_empty leaf_pos]; intros He; try reflexivity.
    - rewrite point_empty_point2d. exact He.
    - rewrite line_pos_two_stage. apply two_stage_empties. intros c. apply line_cands_empty, He.
    - destruct p as [ct [|r rs]]; [reflexivity|discriminate].
    - unfold mpoint_pos. rewrite consider_all_empties; [reflexivity|].
      intros c Hc. apply in_map_iff in Hc. destruct Hc as [q [<- Hq]]. rewrite point_empty_point2d.
      rewrite forallb_forall in He. auto.
    - rewrite forallb_forall in He. rewrite mline_pos_two_stage. apply two_stage_empties. intros c Hc.
      apply in_flat_map_app in Hc. destruct Hc as [l [Hl Hc]]. exact (line_cands_empty l c (He l Hl) Hc).
    - rewrite forallb_forall in He. unfold mpoly_pos. rewrite mpoly_pos_fold_empty; [reflexivity|exact He].
  Qed.

  Lemma pos_of_empty (g : geom) : is_empty g = true -> point_empty (pos cen g) = true.
  Proof.
    intros He. destruct g; try (apply leaf_pos_of_empty; exact He).
    cbn [pos]. unfold coll_pos. rewrite consider_all_empties; [reflexivity|].
    intros c Hc. apply in_map_iff in Hc. destruct Hc as [l [<- Hl]]. apply filter_In in Hl. destruct Hl as [Hl _].
    apply leaf_pos_of_empty. apply (leaves_of_empty _ He). exact Hl.
  Qed.

  Theorem pos_collection_lemma ct gs p :
    point_xy (pos cen (GColl ct gs)) = Some p ->
    exists l, In l (leaves (GColl ct gs)) /\ is_empty l = false /\
              dim_ie l = dim_ie (GColl ct gs) /\ pos cen (GColl ct gs) = leaf_pos cen l.
  Proof.
    cbn [pos]. unfold coll_pos. set (g := GColl ct gs). set (lv := leaves g). intros E.
    pose proof (point_xy_nonempty _ p E) as Hne.
    pose proof (consider_all_in _ _ nacc0 eq_refl Hne) as Hin.
    apply in_map_iff in Hin. destruct Hin as [l [El Hl]]. unfold coll_candidates in Hl.
    apply filter_In in Hl. destruct Hl as [Hl Hd]. apply Nat.eqb_eq in Hd.
    exists l. split; [exact Hl|].
    assert (Hel : is_empty l = false).
    { destruct (is_empty l) eqn:Ee; [|reflexivity]. rewrite <- El, (leaf_pos_of_empty l Ee) in Hne. discriminate. }
    split; [exact Hel|]. split; [|symmetry; exact El].
    rewrite (dim_ie_leaf l (leaves_not_coll g l Hl)). unfold ne_dim. rewrite Hel, Hd. apply mdn_dim_ie.
  Qed.

  Hypothesis cen_total : forall x, is_empty x = false -> cen x <> None.

  Lemma leaf_pos_of_nonempty (g : geom) :
    geom_wf g = true -> (forall ct gs, g <> GColl ct gs) ->
    is_empty g = false -> point_empty (leaf_pos cen g) = false.
  Proof.
    intros Hwf Hnc He. pose proof (cen_total g He) as Hc.
    destruct g; cbn [is_empty leaf_pos geom_wf] in *.
    - rewrite point_empty_point2d. exact He.
    - rewrite line_pos_two_stage. destruct (cen (GLine l)) as [t|]; [|congruence].
      apply two_stage_picks, line_end_nonempty, He.
    - apply point_on_area_nonempty; assumption.
    - unfold mpoint_pos. destruct (cen (GMPoint ct ps)) as [t|]; [|congruence].
      apply consider_all_picks. destruct (forallb_false_exists _ _ He) as [q [Hq Hne]].
      exists (point2d q). split; [apply in_map; exact Hq|rewrite point_empty_point2d; exact Hne].
    - rewrite mline_pos_two_stage. destruct (cen (GMLine ct ls)) as [t|]; [|congruence]. apply two_stage_picks.
      destruct (forallb_false_exists _ _ He) as [l [Hl Hne]]. destruct (line_end_nonempty l Hne) as [c [Hc' Hce]].
      exists c. split; [apply in_flat_map; exists l; split; assumption|exact Hce].
    - unfold mpoly_pos. apply mp_fold_picks. destruct (forallb_false_exists _ _ He) as [y [Hy Hne]].
      exists y. split; [exact Hy|]. rewrite forallb_forall in Hwf. exact (point_on_area_nonempty y (Hwf y Hy) Hne).
    - exfalso. eapply Hnc. reflexivity.
  Qed.

  Theorem pos_empty_iff_lemma (g : geom) :
    geom_wf g = true -> point_empty (pos cen g) = is_empty g.
  Proof.
    intros Hwf. destruct (is_empty g) eqn:He; [apply pos_of_empty; exact He|].
    destruct g; try (apply leaf_pos_of_nonempty; auto; intros; discriminate).
    cbn [pos]. unfold coll_pos. set (g := GColl ct gs) in *.
    destruct (cen g) as [t|] eqn:Ec; [|exfalso; apply (cen_total g He); exact Ec].
    apply consider_all_picks.
    destruct (mdn_attained (leaves g) (nonempty_leaf g He)) as [l [Hl [Hle Hd]]].
    exists (leaf_pos cen l). split.
    - apply in_map. unfold coll_candidates. apply filter_In. split; [exact Hl|apply Nat.eqb_eq; exact Hd].
    - apply leaf_pos_of_nonempty; [apply (geom_wf_leaves g Hwf); exact Hl|apply (leaves_not_coll g); exact Hl|exact Hle].
  Qed.
End WithCen.
