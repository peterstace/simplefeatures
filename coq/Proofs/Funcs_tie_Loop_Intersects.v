(* Translator tie for functions WITH LOOPS (DESIGN.md A.8b), property C09: the crossing-number loop
   of coq/Model/Intersects.v (relate_point_to_ring = relate_loop over as_lines) against the body of
   geom/alg_point_in_ring.go:relatePointToRing (with type_sequence.go:getLine and hasCrossing), as
   re-read from the Go source into Gen/FuncsLoop.v on every run.  Carrier: Q ([qops]).  The lemma
   is for ALL points and ALL sequences (any length, repeated points included).  An edited loop in
   the Go source makes this file fail to compile. *)
From Coq Require Import String ZArith QArith List Bool Lia Lqa.
From SF Require Import Base.FOps Base.FLoop Gen.FuncsLoop Proofs.Funcs_tie_lib Proofs.Funcs_tie_Loop_lib
  Base.QKernel Model.Intersects.
Import ListNotations.
Open Scope Q_scope.

Definition gpt (p : pt) : geom_XY Q := Mk_geom_XY (fst p) (snd p).
Definition mpt (p : geom_XY Q) : pt := (geom_XY_X p, geom_XY_Y p).
Definition cpt (c : geom_Coordinates Q) : pt := mpt (geom_Coordinates_XY c).
Definition gln (s : seg) : geom_line Q := Mk_geom_line (gpt (fst s)) (gpt (snd s)).
Definition gls (cs : list (geom_Coordinates Q)) : geom_LineString Q := Mk_geom_LineString cs.
Definition genv (b : Intersects.box) : geom_Envelope Q :=
  Mk_geom_Envelope (Mk_geom_XY (bminx b) (bminy b)) (Mk_geom_XY (bmaxx b) (bmaxy b)) true.
Definition gturn (t : turn) : Z :=
  match t with LeftTurn => geom_leftTurn | Collinear => geom_collinear | RightTurn => geom_rightTurn end.
Definition gside (s : side) : Z :=
  match s with SInterior => geom_interior | SBoundary => geom_boundary | SExterior => geom_exterior end.
Lemma gpt_mpt p : gpt (mpt p) = p.
Proof. now destruct p. Qed.

Ltac qtie := intros; destruct_pairs; repeat match goal with b : Intersects.box |- _ => destruct b end; qtie0.

(* the loop-free callees, as translated into Gen/FuncsLoop.v (the same obligations as in
   Proofs/Funcs_tie_Intersects.v for Gen/Funcs.v) *)
Lemma tie_line_uncheckedEnvelope : forall ln, geom_line_uncheckedEnvelope qops (gln ln) = genv (line_box ln).
Proof. qtie. Qed.
Lemma tie_envelope_contains : forall e p, geom_Envelope_Contains qops (genv e) (gpt p) = box_contains e p.
Proof. reflexivity. Qed.
Lemma tie_orientation : forall p q s, geom_orientation qops (gpt p) (gpt q) (gpt s) = gturn (orientation p q s).
Proof. qtie. Qed.
Lemma gturn_eqb : forall a b, Z.eqb (gturn a) (gturn b) = turn_eqb a b.
Proof. intros [] []; reflexivity. Qed.
Lemma tie_hasCrossing : forall p ln, geom_hasCrossing qops (gpt p) (gln ln) = has_crossing p ln.
Proof.
  first
    [ intros p [a b];
     unfold geom_hasCrossing, has_crossing;
     rewrite tie_line_uncheckedEnvelope;
     cbn [gln fst snd geom_line_a geom_line_b];
     cbv zeta;
     change (f_gtb qops (geom_XY_Y (gpt a)) (geom_XY_Y (gpt b))) with (qltb (snd b) (snd a));
     destruct (qltb (snd b) (snd a)); rewrite tie_orientation, tie_envelope_contains;
    change geom_rightTurn with (gturn RightTurn); change geom_collinear with (gturn Collinear);
    rewrite !gturn_eqb; reflexivity
    | qtie ].
Qed.

(* geom/type_sequence.go:getLine *)
Lemma getLine_pos : forall cs i a b, (0 < i)%Z -> lookup cs (i - 1) = Some a -> lookup cs i = Some b ->
  geom_getLine qops cs i = Known (gln (cpt a, cpt b), negb (pt_eqb (cpt a) (cpt b))).
Proof.
  intros cs i a b Hi Ha Hb. unfold geom_getLine. destruct (Z.eqb_spec i 0); [lia|].
  rewrite Ha, Hb. unfold gln, cpt. cbn [fst snd]. rewrite !gpt_mpt. reflexivity.
Qed.

Lemma rem2_odd : forall c, (0 <= c)%Z -> (Z.rem c 2 =? 0)%Z = negb (Z.odd c).
Proof.
  intros c Hc. rewrite Z.rem_mod_nonneg by lia.
  pose proof (Zmod_odd c) as H. destruct (Z.odd c); rewrite H; reflexivity.
Qed.

(* geom/alg_point_in_ring.go:relatePointToRing *)
Lemma tie_relatePointToRing : forall p cs,
  geom_relatePointToRing qops (gpt p) (gls cs) = Known (gside (relate_point_to_ring p (map cpt cs))).
Proof.
  intros p cs. unfold geom_relatePointToRing.
  cbn [gls geom_LineString_Coordinates geom_LineString_seq]. cbv zeta.
  set (TOTAL := relate_point_to_ring p (map cpt cs)).
  lines_rule cs
    (fun (l : list (geom_Coordinates Q)) (count : Z) =>
       (0 <= count)%Z /\ relate_loop p (as_lines (map cpt l)) (Z.odd count) = TOTAL)
    (fun res : loop_res Z Z =>
       match res with
       | LDone count => (0 <= count)%Z /\ (if Z.odd count then SInterior else SExterior) = TOTAL
       | LRet r => r = gside TOTAL
       | LErr _ => False
       end).
  - loop_cond.
  - loop_fuel.
  - reflexivity.
  - split; [lia|reflexivity].
  - intros i count a b r Hi Ha Hb [Hc Hl]. rewrite (getLine_pos cs i a b Hi Ha Hb).
    cbn [map as_lines] in Hl. destruct (pt_eqb (cpt a) (cpt b)); cbn [negb]; cbv iota beta.
    + split; assumption.
    + rewrite tie_hasCrossing. cbn [relate_loop] in Hl.
      destruct (has_crossing p (cpt a, cpt b)) as [crossing on_line].
      destruct on_line; [rewrite <- Hl; reflexivity|].
      destruct crossing.
      * split; [lia|]. rewrite <- Hl. f_equal. rewrite Z.odd_add. cbn. now rewrite xorb_true_r.
      * split; [exact Hc|]. rewrite <- Hl. f_equal. now rewrite xorb_false_r.
  - intros [|a [|b r]] count HL [Hc Hl]; [split; assumption..|cbn in HL; lia].
  - destruct HP as [Hc HP]. rewrite rem2_odd by exact Hc. rewrite <- HP.
    destruct (Z.odd s); reflexivity.
  - subst r. reflexivity.
  - contradiction.
Qed.
