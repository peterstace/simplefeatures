(* Property C01: lifting the judgement from the witnesses to EVERY point of Q^2, with the sufficiency
   theorems of Proofs/Planar_slab*.v.  The arrangement of C01 stores one canonical representative per
   segment (ordinates normalised, orientation fixed: SetOpSpec.seg_canon), so the covering hypothesis of
   Planar_slab (literal inclusion of the geometry's segments) is replaced by covering UP TO
   reversal and Qeq of the end points; cell constancy of membership is re-proved under that hypothesis. *)
From Coq Require Import QArith Qreduction List Bool ZArith Lia Lqa Setoid Morphisms.
From SF Require Import Base.GeomAST Base.QKernel Base.Planar Proofs.Planar_proofs
  Proofs.Planar_slab_base Proofs.Planar_slab Proofs.Planar_slab_dim Model.SetOpSpec Proofs.SetOpSpec_proofs.
Import ListNotations.
Open Scope Q_scope.

Definition seg_equiv (e e' : seg) : Prop :=
  (pt_eq (fst e) (fst e') /\ pt_eq (snd e) (snd e')) \/ (pt_eq (fst e) (snd e') /\ pt_eq (snd e) (fst e')).

Lemma vcross_sym a b p : vcross a b p = vcross b a p.
Proof.
  unfold vcross. destruct (Qle_bool (fst a) (fst p)), (Qle_bool (fst b) (fst p)); reflexivity.
Qed.
Lemma vcross_proper a a' b b' p : pt_eq a a' -> pt_eq b b' -> vcross a b p = vcross a' b' p.
Proof.
  intros Ea Eb. unfold vcross.
  rewrite (Qle_bool_proper_l _ _ (fst p) (proj1 Ea)), (Qle_bool_proper_l _ _ (fst p) (proj1 Eb)),
    (qltb_proper _ _ (cross_proper _ _ Ea _ _ Eb p p (reflexivity p)) _ _ (Qeq_refl 0)),
    (qltb_proper _ _ (cross_proper _ _ Eb _ _ Ea p p (reflexivity p)) _ _ (Qeq_refl 0)).
  reflexivity.
Qed.
Lemma seg_equiv_tests e e' p :
  seg_equiv e e' ->
  on_seg e p = on_seg e' p /\ vcross (fst e) (snd e) p = vcross (fst e') (snd e') p.
Proof.
  destruct e as [a b], e' as [a' b']. cbn [fst snd]. intros [[Ea Eb]|[Ea Eb]].
  - split; [apply on_seg_proper; auto; reflexivity|apply vcross_proper; assumption].
  - split.
    + rewrite <- (on_seg_sym a' b' p). apply on_seg_proper; auto; reflexivity.
    + rewrite (vcross_sym a' b' p). apply vcross_proper; assumption.
Qed.

(* the arrangement (L, P) contains g up to reversal / Qeq *)
Definition covers_equiv (L : list seg) (P : list pt) (g : geom) : Prop :=
  (forall e, In e (arr_segments g) -> exists e', In e' L /\ seg_equiv e e') /\
  (forall v, In v (arr_points g) -> exists v', In v' P /\ pt_eq v v').

Theorem inG_same_cell_equiv L P g p w :
  covers_equiv L P g -> rings_closed g -> same_cell L (vertex_set L P) p w -> inG g p = inG g w.
Proof.
  intros [Cs Cp] Hclosed [Sseg Svtx].
  assert (Vtx : forall v v', In v' (vertex_set L P) -> pt_eq v v' -> pt_eqb p v = pt_eqb w v).
  { intros v v' Hv E. rewrite (pt_eqb_proper p p v v' (reflexivity p) E), (pt_eqb_proper w w v v' (reflexivity w) E). apply Svtx, Hv. }
  apply eq_true_iff_eq. rewrite !inG_locate.
  replace (locate g w) with (locate g p); [reflexivity|].
  apply locate_indistinguishable; [exact Hclosed | | |].
  - intros e He. destruct (Cs e He) as (e' & Hin & Eq).
    destruct (seg_equiv_tests e e' p Eq) as [A1 A2]. destruct (seg_equiv_tests e e' w Eq) as [B1 B2].
    destruct (Sseg e' Hin) as [C1 C2]. rewrite A1, A2, B1, B2. auto.
  - intros e He. destruct (Cs e He) as (e' & Hin & Eq). destruct (seg_end_vertex L P e' Hin) as [Va Vb].
    destruct Eq as [[Ea Eb]|[Ea Eb]]; split; (eapply Vtx; [|eassumption]; assumption).
  - intros v Hv. destruct (Cp v Hv) as (v' & Hin & Ev). apply (Vtx v v'); [|exact Ev].
    unfold vertex_set. rewrite !in_app_iff. right. right. exact Hin.
Qed.

Lemma lex_eqb_eq a b : lex_eqb a b = true <-> a = b.
Proof.
  revert b. induction a as [|x a IH]; intros [|y b]; simpl; split; intros H; try reflexivity; try discriminate.
  - apply andb_true_iff in H as [H1 H2]. apply Z.eqb_eq in H1. apply IH in H2. subst. reflexivity.
  - inversion H; subst. rewrite Z.eqb_refl. apply IH. reflexivity.
Qed.
Lemma kdedup_cons2 {A} (key : A -> list Z) a b (r : list A) :
  kdedup key (a :: b :: r) = if lex_eqb (key a) (key b) then kdedup key (b :: r) else a :: kdedup key (b :: r).
Proof. reflexivity. Qed.
Lemma kdedup_in {A} (key : A -> list Z) (key_inj : forall x y, key x = key y -> x = y) (l : list A) x :
  In x l -> In x (kdedup key l).
Proof.
  induction l as [|a|a b r IH] using consec_ind; intros Hin; [destruct Hin|exact Hin|].
  rewrite kdedup_cons2. destruct (lex_eqb (key a) (key b)) eqn:E.
  - apply lex_eqb_eq, key_inj in E. subst b. apply IH.
    destruct Hin as [<-|Hin]; [left; reflexivity|exact Hin].
  - destruct Hin as [<-|Hin]; [left; reflexivity|right; apply IH; exact Hin].
Qed.

Lemma seg_canon_equiv e : seg_equiv e (seg_canon e).
Proof.
  unfold seg_canon. destruct (pt_leb (pt_red (fst e)) (pt_red (snd e))); cbn [fst snd].
  - left. split; symmetry; apply pt_red_eq.
  - right. split; symmetry; apply pt_red_eq.
Qed.

Lemma ctx_covers gs g : In g gs -> covers_equiv (ctx_segs gs) (ctx_pts gs) g.
Proof.
  intros Hg. split.
  - intros e He. exists (seg_canon e). split; [|apply seg_canon_equiv].
    unfold ctx_segs. apply kdedup_in; [exact seg_key_inj|]. apply ksort_in, in_map, in_flat_map. exists g. auto.
  - intros v Hv. exists (pt_red v). split; [|symmetry; apply pt_red_eq].
    unfold ctx_pts. apply kdedup_in; [exact pt_key_inj|]. apply ksort_in, in_map, in_flat_map. exists g. auto.
Qed.

Lemma in_map_strip W w d : In (w, d) (map strip W) -> exists wn, In wn W /\ wpt wn = w /\ wdim wn = d.
Proof.
  intros H. apply in_map_iff in H as ([[w' d'] nb] & E & Hwn). injection E as -> ->. eexists; eauto.
Qed.

Section Everywhere.
  Variable gs : list geom.
  Let L := ctx_segs gs.
  Let P := ctx_pts gs.
  Let V := vertex_set L P.

  (* every point of the plane shares its cell with an (annotated) witness of the arrangement *)
  Lemma cover_nb p : exists wn, In wn (ctx_witnesses gs) /\ same_cell L V p (wpt wn).
  Proof.
    destruct (witness_cover L P p) as (w & d & Hin & Hs).
    rewrite <- (witnesses_nb_strip_lemma L P) in Hin. apply in_map_strip in Hin as (wn & Hwn & <- & _).
    exists wn. split; assumption.
  Qed.

  (* membership in a geometry of the arrangement (closed rings) is constant on cells *)
  Lemma transfer g p w : In g gs -> rings_closed g -> same_cell L V p w -> inG g p = inG g w.
  Proof.
    intros Hg Hr Hs. exact (inG_same_cell_equiv L P g p w (ctx_covers gs g Hg) Hr Hs).
  Qed.
End Everywhere.

Definition closed_all (gs : list geom) : Prop := forall g, In g gs -> rings_closed g.

Lemma judge_at_cell o a b r :
  closed_all [a; b; r] -> v_agree (judge o a b r) = true ->
  forall p wn, In wn (ctx_witnesses [a; b; r]) ->
    same_cell (ctx_segs [a; b; r]) (vertex_set (ctx_segs [a; b; r]) (ctx_pts [a; b; r])) p (wpt wn) ->
    inG r p = match o with
              | OpUnion | OpInter => raw o a b p
              | OpDiff | OpSym => raw o a b p || existsb (raw o a b) (wnb wn)
              end.
Proof.
  intros Hc Hj p wn Hwn Hs.
  assert (T : forall g, In g [a; b; r] -> inG g p = inG g (wpt wn)).
  { intros g Hg. apply (transfer [a; b; r]); auto. }
  rewrite (T r), (judge_sound_lemma o a b r Hj wn Hwn) by (simpl; auto).
  unfold expected, expected_f, in_closure, raw, raw_f. rewrite (T a), (T b) by (simpl; auto).
  destruct o; reflexivity.
Qed.

(* (1) union and intersection: a passing judgement means equality of the point sets at EVERY point *)
Theorem judge_everywhere_lemma o a b r :
  (o = OpUnion \/ o = OpInter) -> closed_all [a; b; r] ->
  v_agree (judge o a b r) = true ->
  forall p, inG r p = op_bool o (inG a p) (inG b p).
Proof.
  intros Ho Hc Hj p. destruct (cover_nb [a; b; r] p) as (wn & Hwn & Hs).
  rewrite (judge_at_cell o a b r Hc Hj p wn Hwn Hs). destruct Ho as [-> | ->]; reflexivity.
Qed.

(* UnaryUnion / UnionMany: the result is the union of the list at every point *)
Theorem judge_many_everywhere_lemma gs r :
  closed_all (r :: gs) -> v_agree (judge_many gs r) = true ->
  forall p, inG r p = existsb (fun g => inG g p) gs.
Proof.
  intros Hc Hj p. destruct (cover_nb (r :: gs) p) as (wn & Hwn & Hs).
  assert (T : forall g, In g (r :: gs) -> inG g p = inG g (wpt wn)).
  { intros g Hg. apply (transfer (r :: gs)); auto. }
  rewrite (T r), (judge_many_sound_lemma gs r Hj wn Hwn) by (left; reflexivity).
  apply existsb_ext_in. intros g Hg. symmetry. apply T. right. exact Hg.
Qed.

(* (1') all four operations, closure form: at every point p of the plane the result's membership is
   the membership of p in the Boolean combination, or that of one of the cells named as incident to
   the cell of p.  In particular the result CONTAINS the Boolean combination at every point. *)
Theorem judge_closure_everywhere_lemma o a b r :
  closed_all [a; b; r] -> v_agree (judge o a b r) = true ->
  forall p, exists wn, In wn (ctx_witnesses [a; b; r]) /\
    same_cell (ctx_segs [a; b; r]) (vertex_set (ctx_segs [a; b; r]) (ctx_pts [a; b; r])) p (wpt wn) /\
    inG r p = match o with
              | OpUnion | OpInter => raw o a b p
              | OpDiff | OpSym => raw o a b p || existsb (raw o a b) (wnb wn)
              end.
Proof.
  intros Hc Hj p. destruct (cover_nb [a; b; r] p) as (wn & Hwn & Hs).
  exists wn. split; [exact Hwn|]. split; [exact Hs|]. apply judge_at_cell; assumption.
Qed.
Corollary judge_contains_lemma o a b r :
  closed_all [a; b; r] -> v_agree (judge o a b r) = true ->
  forall p, raw o a b p = true -> inG r p = true.
Proof.
  intros Hc Hj p Hp. destruct (judge_closure_everywhere_lemma o a b r Hc Hj p) as (wn & _ & _ & E).
  rewrite E, Hp. destruct o; reflexivity.
Qed.

(* D2 witnesses of slab columns and the two outer witnesses carry no incidence *)
Lemma column_nb_d2_nil x ys mid wn :
  In wn (column_nb x ys (fun _ => D1) mid (fun _ => [])) -> wdim wn = D2 -> wnb wn = [].
Proof.
  unfold column_nb. destruct ys as [|y1 r].
  - intros [<-|[]] _. reflexivity.
  - intros [<-|[<-|H]] Hd; [reflexivity|reflexivity|].
    apply in_app_or in H as [H|H]; apply in_map_iff in H as (z & <- & _).
    + discriminate Hd.
    + reflexivity.
Qed.
Lemma slabs_between_nb_in L xs x0 x1 wn :
  In (x0, x1) (consec xs) -> In wn (slab_witnesses_nb L x0 x1) -> In wn (slabs_between_nb L xs).
Proof.
  induction xs as [|a|a b r IH] using consec_ind; intros Hc Hw; [destruct Hc..|].
  rewrite slabs_between_nb_cons2. apply in_or_app. destruct Hc as [E|Hc].
  - inversion E; subst. left. exact Hw.
  - right. apply IH; assumption.
Qed.
Lemma wits_of_slabs L V xs wn : In wn (slabs_between_nb L xs) -> In wn (wits_of L V xs).
Proof. destruct xs; [intros []|]. intros H. right. right. apply in_or_app. right. exact H. Qed.

Section OffSkeleton.
  Variable gs : list geom.
  Let L := ctx_segs gs.
  Let P := ctx_pts gs.
  Let V := vertex_set L P.

  (* a point on no segment whose abscissa is no event has a D2 witness without incidence in its cell *)
  Lemma cover_off_skeleton p :
    on_some_seg L p = false -> (forall x, In x (events V) -> ~ fst p == x) ->
    exists wn, In wn (ctx_witnesses gs) /\ same_cell L V p (wpt wn) /\ wnb wn = [].
  Proof.
    intros Hoff Hne.
    pose proof (qsort_sorted (map fst V)) as S. pose proof (vertex_event L P) as Hev.
    pose proof (vertex_in_range L P) as Ev. pose proof (slab_cover L P) as Hslab. pose proof (slab_tag L P) as Htag.
    change (ctx_witnesses gs) with (wits_of L V (events V)).
    cbv zeta in Ev. fold V in Hev, Ev, Hslab, Htag. fold (events V) in S. destruct (events V) as [|x0 l].
    - (* no vertex at all *)
      exists ((0, 0), D2, []). split; [left; reflexivity|]. split; [|reflexivity].
      apply left_same_cell. intros v Hv. destruct (Hev v Hv) as (x & [] & _).
    - specialize (fun v => Ev x0 l v eq_refl).
      destruct (qsorted_position x0 l (fst p) S) as [K|[K|[(x & Hx & Ex)|(a & b & Hc & Hb)]]].
      + exists ((Qred (x0 - 1), 0), D2, []). split; [left; reflexivity|]. split; [|reflexivity].
        apply left_same_cell. intros v Hv. destruct (Ev v Hv). cbn [wpt fst]. rewrite Qred_correct. split; lra.
      + exists ((Qred (last (x0 :: l) x0 + 1), 0), D2, []). split; [right; left; reflexivity|]. split; [|reflexivity].
        apply right_same_cell. intros v Hv. destruct (Ev v Hv). cbn [wpt fst].
        rewrite Qred_correct, last_cons_default. split; lra.
      + destruct (Hne x Hx Ex).
      + destruct (Hslab a b Hc p Hb) as (w & d & Hin & Hs).
        (* w lies on no segment, as p does, so its tag is D2 *)
        assert (F : on_some_seg L w = false).
        { rewrite <- Hoff. symmetry. apply existsb_ext_in. intros e He. apply (proj1 Hs e He). }
        destruct (Htag a b w d Hc Hin) as (_ & _ & [->|T]); [|congruence].
        rewrite <- (slab_witnesses_nb_strip L a b) in Hin. apply in_map_strip in Hin as (wn & Hwn & <- & Hd).
        exists wn. split; [apply wits_of_slabs, (slabs_between_nb_in L _ a b); assumption|].
        split; [exact Hs|]. apply (column_nb_d2_nil _ _ _ wn Hwn Hd).
  Qed.
End OffSkeleton.

(* (1'') difference and symmetric difference (and the other two): at every point that lies on no
   segment of the arrangement and whose abscissa is not an event abscissa - an open dense subset of
   the plane - the result's membership is exactly the Boolean combination *)
Theorem judge_off_skeleton_lemma o a b r :
  closed_all [a; b; r] -> v_agree (judge o a b r) = true ->
  forall p,
    on_some_seg (ctx_segs [a; b; r]) p = false ->
    (forall x, In x (events (vertex_set (ctx_segs [a; b; r]) (ctx_pts [a; b; r]))) -> ~ fst p == x) ->
    inG r p = raw o a b p.
Proof.
  intros Hc Hj p Hoff Hne.
  destruct (cover_off_skeleton [a; b; r] p Hoff Hne) as (wn & Hwn & Hs & Hnb).
  rewrite (judge_at_cell o a b r Hc Hj p wn Hwn Hs), Hnb. destruct o; simpl; rewrite ?orb_false_r; reflexivity.
Qed.

Lemma gap_cells_in_gaps x wd ys mid c :
  In c (gap_cells x wd ys) -> exists d, In (fst c, d) (gaps_between x ys mid).
Proof.
  induction ys as [|y1|y1 y2 r IH] using consec_ind; [intros []..|].
  change (In c (((x, qmid y1 y2), wd * (y2 - y1)) :: gap_cells x wd (y2 :: r)) ->
          exists d, In (fst c, d) (((x, qmid y1 y2), mid y1 y2) :: gaps_between x (y2 :: r) mid)).
  intros [<-|H].
  - exists (mid y1 y2). left. reflexivity.
  - destruct (IH H) as (d & Hd). exists d. right. exact Hd.
Qed.
Lemma column_nb_gap x ys at_y mid extra q d :
  In (q, d) (gaps_between x ys mid) -> In (q, d, extra (snd q)) (column_nb x ys at_y mid extra).
Proof.
  intros H. unfold column_nb. destruct ys as [|y1 r]; [destruct H|].
  right. right. apply in_or_app. right. apply in_map_iff. exists (q, d). split; [reflexivity|exact H].
Qed.
(* every trapezoid of the area functional is represented by a slab witness without incidence *)
Lemma slab_cells_witness L : forall xs c, In c (slab_cells L xs) ->
  exists wn, In wn (slabs_between_nb L xs) /\ wpt wn = fst c /\ wnb wn = [].
Proof.
  induction xs as [|x0|x0 x1 r IH] using consec_ind; intros c Hc; [destruct Hc..|].
  rewrite slab_cells_cons2 in Hc. rewrite slabs_between_nb_cons2. apply in_app_or in Hc as [Hc|Hc].
  - destruct (gap_cells_in_gaps _ _ _ (fun _ _ => D2) c Hc) as (d & Hd).
    exists (fst c, d, []). split; [|split; reflexivity]. apply in_or_app. left.
    apply (column_nb_gap _ _ (fun _ => D1) (fun _ _ => D2) (fun _ => []) (fst c) d Hd).
  - destruct (IH c Hc) as (wn & Hwn & E1 & E2). exists wn. split; [apply in_or_app; right; exact Hwn|auto].
Qed.
Lemma cells_area_ext_in cells f g :
  (forall c, In c cells -> f (fst c) = g (fst c)) -> cells_area cells f == cells_area cells g.
Proof.
  induction cells as [|c r IH]; intros H; simpl; [reflexivity|].
  rewrite (H c (or_introl eq_refl)), IH; [reflexivity|]. intros c' Hc'. apply H. right. exact Hc'.
Qed.

(* (2) a passing membership judgement makes the exact area functional of the result equal to that
   of the Boolean combination (all four operations: no closure is involved on trapezoids) *)
Theorem judge_area_lemma o a b r :
  v_agree (judge o a b r) = true ->
  area_of (ctx_segs [a; b; r]) (ctx_pts [a; b; r]) (inG r) ==
  area_of (ctx_segs [a; b; r]) (ctx_pts [a; b; r]) (raw o a b).
Proof.
  intros Hj. unfold area_of. apply cells_area_ext_in. intros c Hc.
  destruct (slab_cells_witness _ _ c Hc) as (wn & Hwn & E1 & E2).
  pose proof (judge_sound_lemma o a b r Hj wn (wits_of_slabs _ _ _ wn Hwn)) as E. rewrite E1 in E. rewrite E.
  unfold expected, expected_f, in_closure. rewrite E2, E1. destruct o; simpl; rewrite ?orb_false_r; reflexivity.
Qed.

Lemma closed_all_b gs : forallb rings_closed_b gs = true -> closed_all gs.
Proof. rewrite forallb_forall. intros H g Hg. apply rings_closed_b_sound. apply H. exact Hg. Qed.
