(* Property C03 - IsClosed / IsSimple / IsRing do not depend on the representation of the curve:
   axis reflections (any point map that preserves segments), reversal, and the start vertex of a
   closed curve.  All three go through the definitional statement [Simple] (Validate_proofs.ring_simple_spec_lemma).
   Main results: ring_checks_reflection_invariant_lemma, ring_checks_reversal_invariant_lemma,
   ring_checks_rotation_invariant_lemma. *)
From Coq Require Import QArith Qreduction List Bool ZArith Lia Lqa Arith Setoid Morphisms.
From SF Require Import Base.GeomAST Base.QKernel Model.Validate Model.ValidateSpec Proofs.Validate_kernel Proofs.Validate_proofs.
Import ListNotations.
Open Scope Q_scope.

(* ------------------------------------------------------------------ point maps that preserve segments *)
(* a map of the plane that preserves equality of points and membership in segments, and is onto
   (up to Qeq): IsClosed, IsSimple and IsRing cannot tell ps from map T ps *)
Section PointMap.
  Variable T T' : pt -> pt.
  Hypothesis T_eqb : forall a b, pt_eqb (T a) (T b) = pt_eqb a b.
  Hypothesis T_seg : forall a b p, on_seg (T a, T b) (T p) = on_seg (a, b) p.
  Hypothesis T_onto : forall q, pt_eq (T (T' q)) q.

  Definition Tseg (s : seg) : seg := (T (fst s), T (snd s)).

  Lemma as_lines_map ps : as_lines (map T ps) = map Tseg (as_lines ps).
  Proof.
    induction ps as [|a r IH]; [reflexivity|]. destruct r as [|b r']; [reflexivity|].
    change (map T (a :: b :: r')) with (T a :: T b :: map T r'). rewrite !as_lines_cons2, T_eqb.
    change (T b :: map T r') with (map T (b :: r')). rewrite IH. destruct (pt_eqb a b); reflexivity.
  Qed.
  Lemma is_closed_map ps : is_closed (map T ps) = is_closed ps.
  Proof.
    destruct ps as [|a r]; [reflexivity|]. unfold is_closed.
    change (map T (a :: r)) with (T a :: map T r) at 1. cbv iota beta.
    rewrite (last_map T (a :: r) a). apply T_eqb.
  Qed.
  Lemma T_pt_eq a b : pt_eq (T a) (T b) <-> pt_eq a b.
  Proof. rewrite <- !pt_eqb_iff, T_eqb. tauto. Qed.

  Lemma common_map s t p : common (Tseg s) (Tseg t) (T p) <-> common s t p.
  Proof. destruct s, t. unfold common, Tseg; cbn [fst snd]. rewrite !T_seg. tauto. Qed.

  Lemma Simple_map ps : Simple (map T ps) <-> Simple ps.
  Proof.
    unfold Simple. rewrite as_lines_map, is_closed_map, map_length. cbv zeta. split.
    - intros H k l sk sl Hkl Hk Hl p Hp. rewrite <- (T_pt_eq p (snd sk)), <- (T_pt_eq p (fst sk)).
      apply (H k l (Tseg sk) (Tseg sl) Hkl); [apply map_nth_error; exact Hk | apply map_nth_error; exact Hl | apply common_map; exact Hp].
    - intros H k l sk' sl' Hkl Hk Hl q Hq.
      rewrite nth_error_map in Hk, Hl.
      destruct (nth_error (as_lines ps) k) as [sk|] eqn:Ek; [|discriminate].
      destruct (nth_error (as_lines ps) l) as [sl|] eqn:El; [|discriminate].
      simpl in Hk, Hl. inversion Hk; inversion Hl; subst sk' sl'.
      (* q is the image of T' q *)
      apply (common_eq _ _ q (T (T' q))) in Hq; [|symmetry; apply T_onto]. apply (proj1 (common_map sk sl (T' q))) in Hq.
      rewrite <- (T_onto q) at 1 2. unfold Tseg; cbn [fst snd]. rewrite !T_pt_eq. exact (H k l sk sl Hkl Ek El (T' q) Hq).
  Qed.

  Lemma is_simple_map ps : is_simple (map T ps) = is_simple ps.
  Proof. apply eq_true_iff_eq. rewrite !ring_simple_spec_lemma. apply Simple_map. Qed.
  Lemma is_ring_map ps : is_ring (map T ps) = is_ring ps.
  Proof. unfold is_ring. rewrite is_closed_map, is_simple_map. reflexivity. Qed.
End PointMap.

(* axis reflections *)
Definition reflx (p : pt) : pt := (- fst p, snd p).
Definition refly (p : pt) : pt := (fst p, - snd p).

Lemma Qeq_bool_opp a b : Qeq_bool (- a) (- b) = Qeq_bool a b.
Proof. apply eq_true_iff_eq. rewrite !Qeq_bool_iff. split; intros; lra. Qed.

Lemma reflx_eqb a b : pt_eqb (reflx a) (reflx b) = pt_eqb a b.
Proof. unfold pt_eqb, reflx; cbn [fst snd]. rewrite Qeq_bool_opp. reflexivity. Qed.
Lemma refly_eqb a b : pt_eqb (refly a) (refly b) = pt_eqb a b.
Proof. unfold pt_eqb, refly; cbn [fst snd]. rewrite Qeq_bool_opp. reflexivity. Qed.
Lemma reflx_seg a b p : on_seg (reflx a, reflx b) (reflx p) = on_seg (a, b) p.
Proof.
  apply eq_true_iff_eq. rewrite !on_seg_iff. unfold seg_param, reflx; cbn [fst snd].
  split; intros [t [Ht [Hx Hy]]]; exists t; (split; [exact Ht|]); split; lra.
Qed.
Lemma refly_seg a b p : on_seg (refly a, refly b) (refly p) = on_seg (a, b) p.
Proof.
  apply eq_true_iff_eq. rewrite !on_seg_iff. unfold seg_param, refly; cbn [fst snd].
  split; intros [t [Ht [Hx Hy]]]; exists t; (split; [exact Ht|]); split; lra.
Qed.
Lemma reflx_onto q : pt_eq (reflx (reflx q)) q.
Proof. unfold pt_eq, reflx; cbn [fst snd]. split; ring. Qed.
Lemma refly_onto q : pt_eq (refly (refly q)) q.
Proof. unfold pt_eq, refly; cbn [fst snd]. split; ring. Qed.

Theorem ring_checks_reflection_invariant_lemma ps :
  (is_closed (map reflx ps) = is_closed ps /\ is_simple (map reflx ps) = is_simple ps /\ is_ring (map reflx ps) = is_ring ps)
  /\ (is_closed (map refly ps) = is_closed ps /\ is_simple (map refly ps) = is_simple ps /\ is_ring (map refly ps) = is_ring ps).
Proof.
  split.
  - split; [apply (is_closed_map reflx reflx_eqb)|]. split;
      [apply (is_simple_map reflx reflx reflx_eqb reflx_seg reflx_onto) | apply (is_ring_map reflx reflx reflx_eqb reflx_seg reflx_onto)].
  - split; [apply (is_closed_map refly refly_eqb)|]. split;
      [apply (is_simple_map refly refly refly_eqb refly_seg refly_onto) | apply (is_ring_map refly refly refly_eqb refly_seg refly_onto)].
Qed.

(* ------------------------------------------------------------------ reversal *)
Definition swap_seg (s : seg) : seg := (snd s, fst s).

Lemma as_lines_snoc l z a :
  as_lines ((l ++ [z]) ++ [a]) = as_lines (l ++ [z]) ++ (if pt_eqb z a then [] else [(z, a)]).
Proof.
  induction l as [|x l' IH].
  - simpl. destruct (pt_eqb z a); reflexivity.
  - destruct (l' ++ [z]) as [|y t] eqn:E; [destruct l'; discriminate|].
    change (((x :: l') ++ [z]) ++ [a]) with (x :: ((l' ++ [z]) ++ [a])).
    change ((x :: l') ++ [z]) with (x :: (l' ++ [z])). rewrite E in *.
    change ((y :: t) ++ [a]) with (y :: (t ++ [a])) in *.
    rewrite !as_lines_cons2. rewrite IH. destruct (pt_eqb x y); reflexivity.
Qed.

Lemma as_lines_rev ps : as_lines (rev ps) = rev (map swap_seg (as_lines ps)).
Proof.
  induction ps as [|a r IH]; [reflexivity|]. destruct r as [|b r']; [reflexivity|].
  change (rev (a :: b :: r')) with ((rev r' ++ [b]) ++ [a]).
  rewrite as_lines_snoc. change (rev r' ++ [b]) with (rev (b :: r')). rewrite IH.
  rewrite as_lines_cons2. rewrite (pt_eqb_sym b a). destruct (pt_eqb a b).
  - rewrite app_nil_r. reflexivity.
  - simpl. reflexivity.
Qed.

Lemma is_closed_rev ps : is_closed (rev ps) = is_closed ps.
Proof.
  destruct ps as [|a r]; [reflexivity|].
  destruct (@exists_last pt (a :: r)) as [l [z E]]; [discriminate|].
  rewrite E at 1. rewrite rev_app_distr. simpl rev at 1. cbn [app]. unfold is_closed.
  assert (L1 : last (z :: rev l) z = a).
  { assert (H : rev (a :: r) = z :: rev l) by (rewrite E, rev_app_distr; reflexivity).
    rewrite <- H. simpl. apply last_last. }
  assert (L2 : last (a :: r) a = z) by (rewrite E; apply last_last).
  rewrite L1, L2. apply pt_eqb_sym.
Qed.

Lemma nth_error_rev {A} (l : list A) : forall k, (k < length l)%nat -> nth_error (rev l) k = nth_error l (length l - 1 - k).
Proof.
  induction l as [|x l' IH] using rev_ind; intros k H; [simpl in H; lia|].
  rewrite app_length in H. cbn [length] in H.
  rewrite rev_app_distr, app_length. cbn [length rev app]. destruct k as [|k].
  - replace (length l' + 1 - 1 - 0)%nat with (length l') by lia.
    rewrite nth_error_app2 by lia. rewrite Nat.sub_diag. reflexivity.
  - cbn [nth_error]. rewrite IH by lia. rewrite nth_error_app1 by lia. f_equal. lia.
Qed.

Lemma common_swap s t p : common (swap_seg s) (swap_seg t) p <-> common t s p.
Proof.
  destruct s as [a b], t as [c d]. unfold common, swap_seg; cbn [fst snd]. rewrite (on_seg_sym a b p), (on_seg_sym c d p). tauto.
Qed.

Lemma Simple_rev_imp ps : Simple ps -> Simple (rev ps).
Proof.
  unfold Simple. cbv zeta. intros H k l sk' sl' Hkl Hk Hl p Hp.
  rewrite is_closed_rev. rewrite as_lines_rev in Hk, Hl. rewrite as_lines_rev, rev_length, map_length.
  set (L := as_lines ps) in *. set (m := length L) in *.
  assert (Hlm : (l < m)%nat).
  { unfold m. rewrite <- (map_length swap_seg), <- rev_length. apply nth_error_Some. congruence. }
  rewrite nth_error_rev in Hk, Hl by (rewrite map_length; fold m; lia).
  rewrite map_length in Hk, Hl. fold m in Hk, Hl. rewrite nth_error_map in Hk, Hl.
  destruct (nth_error L (m - 1 - k)) as [sk|] eqn:Ek; [|discriminate].
  destruct (nth_error L (m - 1 - l)) as [sl|] eqn:El; [|discriminate].
  simpl in Hk, Hl. inversion Hk; inversion Hl; subst sk' sl'. clear Hk Hl.
  apply (proj1 (common_swap sk sl p)) in Hp.
  assert (Hlt : (m - 1 - l < m - 1 - k)%nat) by lia.
  destruct (H _ _ sl sk Hlt El Ek p Hp) as [[E1 E2]|[Hc [E1 [E3 E4]]]].
  - left. split; [lia|]. unfold swap_seg; cbn [snd]. rewrite E2.
    apply (as_lines_chain ps (m - 1 - l) sl sk El). rewrite <- E1. exact Ek.
  - right. split; [exact Hc|]. split; [lia|]. split; [lia|]. unfold swap_seg; cbn [fst]. rewrite E4.
    apply (as_lines_closure ps sl sk Hc); [rewrite <- E1; exact El|].
    fold L m. replace (m - 1)%nat with (m - 1 - k)%nat by lia. exact Ek.
Qed.

Theorem ring_checks_reversal_invariant_lemma ps :
  is_closed (rev ps) = is_closed ps /\ is_simple (rev ps) = is_simple ps /\ is_ring (rev ps) = is_ring ps.
Proof.
  assert (S : is_simple (rev ps) = is_simple ps).
  { apply eq_true_iff_eq. rewrite !ring_simple_spec_lemma. split.
    - intros H. apply Simple_rev_imp in H. rewrite rev_involutive in H. exact H.
    - apply Simple_rev_imp. }
  split; [apply is_closed_rev|]. split; [exact S|]. unfold is_ring. rewrite is_closed_rev, S. reflexivity.
Qed.

(* ------------------------------------------------------------------ rotation of a closed curve *)
(* Simple as a statement about a list of valid lines and the closed flag *)
Definition SimpleL (cl : bool) (L : list seg) : Prop :=
  forall k l sk sl, (k < l)%nat -> nth_error L k = Some sk -> nth_error L l = Some sl ->
  forall p, common sk sl p ->
    (l = S k /\ pt_eq p (snd sk)) \/ (cl = true /\ k = 0%nat /\ S l = length L /\ pt_eq p (fst sk)).
Lemma Simple_SimpleL ps : Simple ps <-> SimpleL (is_closed ps) (as_lines ps).
Proof. unfold Simple, SimpleL. tauto. Qed.

Definition seg_eq (s t : seg) : Prop := pt_eq (fst s) (fst t) /\ pt_eq (snd s) (snd t).
Lemma common_seg_eq s s' t p : seg_eq s s' -> common s t p -> common s' t p.
Proof.
  destruct s as [a b], s' as [a' b']. intros [E1 E2] [H1 H2]. cbn [fst snd] in *. split; [|exact H2].
  rewrite <- (on_seg_proper a b p a' b' p); [exact H1 | exact E1 | exact E2 | reflexivity].
Qed.

(* the cyclic shift of the line list of a closed curve by one line *)
Lemma SimpleL_rot (s0 s0' : seg) (M : list seg) :
  seg_eq s0 s0' ->
  (forall s1, nth_error M 0 = Some s1 -> pt_eq (snd s0) (fst s1)) ->
  (forall sl, nth_error M (length M - 1) = Some sl -> pt_eq (fst s0) (snd sl)) ->
  SimpleL true (s0 :: M) <-> SimpleL true (M ++ [s0']).
Proof.
  intros Es Hchain Hclos. set (n := length M).
  assert (Es' : seg_eq s0' s0) by (destruct Es; split; symmetry; assumption).
  assert (Hlast : nth_error (M ++ [s0']) n = Some s0').
  { unfold n. rewrite nth_error_app2 by lia. rewrite Nat.sub_diag. reflexivity. }
  assert (Hlen' : length (M ++ [s0']) = S n) by (rewrite app_length; simpl; unfold n; lia).
  split.
  - intros H k l sk sl Hkl Hk Hl p Hp. replace (length (M ++ [s0'])) with (S n) by (symmetry; exact Hlen').
    assert (Hln : (l <= n)%nat).
    { assert (l < length (M ++ [s0']))%nat by (apply nth_error_Some; congruence). lia. }
    assert (Hk' : nth_error M k = Some sk) by (rewrite nth_error_app1 in Hk by (fold n; lia); exact Hk).
    destruct (Nat.eq_dec l n) as [->|Hne].
    + (* the pair (sk, s0'): in the original list the pair (s0, sk) at positions 0 and k+1 *)
      rewrite Hlast in Hl. inversion Hl; subst sl.
      assert (C : common s0 sk p) by (apply (common_seg_eq s0' s0 sk p Es'); apply common_sym; exact Hp).
      destruct (H 0%nat (S k) s0 sk ltac:(lia) eq_refl Hk' p C) as [[E1 E2]|[_ [_ [E3 E4]]]].
      * (* k = 0: p is the end of s0 = the start of M[0] *)
        assert (k = 0)%nat by lia. subst k. right. split; [reflexivity|]. split; [reflexivity|]. split; [reflexivity|].
        rewrite E2. apply Hchain. exact Hk'.
      * (* k + 1 is the last position of the original list *)
        simpl in E3. left. split; [fold n in E3; lia|].
        rewrite E4. apply Hclos. replace (length M - 1)%nat with k by (fold n; lia). exact Hk'.
    + (* both lines in M *)
      assert (Hl' : nth_error M l = Some sl) by (rewrite nth_error_app1 in Hl by (fold n; lia); exact Hl).
      destruct (H (S k) (S l) sk sl ltac:(lia) Hk' Hl' p Hp) as [[E1 E2]|[_ [E1 _]]]; [|discriminate].
      left. split; [lia | exact E2].
  - intros H k l sk sl Hkl Hk Hl p Hp. simpl length. fold n.
    assert (Hln : (l <= n)%nat).
    { assert (l < length (s0 :: M))%nat by (apply nth_error_Some; congruence). simpl in H0. fold n in H0. lia. }
    destruct l as [|l]; [lia|]. simpl in Hl.
    assert (Hl' : nth_error (M ++ [s0']) l = Some sl) by (rewrite nth_error_app1 by (fold n; lia); exact Hl).
    destruct k as [|k].
    + (* the pair (s0, sl): in the shifted list the pair (sl, s0') at positions l and n *)
      simpl in Hk. inversion Hk; subst sk.
      assert (C : common sl s0' p) by (apply common_sym; apply (common_seg_eq s0 s0' sl p Es); exact Hp).
      destruct (H l n sl s0' ltac:(lia) Hl' Hlast p C) as [[E1 E2]|[_ [E1 [_ E4]]]].
      * (* l + 1 = n: sl is the last line of M *)
        right. split; [reflexivity|]. split; [reflexivity|]. split; [lia|].
        rewrite E2. symmetry. apply Hclos. replace (length M - 1)%nat with l by (fold n; lia). exact Hl.
      * subst l. left. split; [reflexivity|]. rewrite E4. symmetry. apply Hchain. exact Hl.
    + simpl in Hk.
      assert (Hk' : nth_error (M ++ [s0']) k = Some sk) by (rewrite nth_error_app1 by (fold n; lia); exact Hk).
      destruct (H k l sk sl ltac:(lia) Hk' Hl' p Hp) as [[E1 E2]|[_ [E1 [E3 _]]]].
      * left. split; [lia | exact E2].
      * rewrite Hlen' in E3. lia.
Qed.

(* a closed curve started at its next vertex is closed, and simple iff the original is *)
Lemma rot1_ring_checks ps : is_closed ps = true ->
  is_closed (rot1 ps) = true /\ is_simple (rot1 ps) = is_simple ps.
Proof.
  intros Hc. destruct ps as [|a [|b t]]; [discriminate | split; [exact Hc | reflexivity] |].
  destruct (@exists_last pt (b :: t)) as [l [z El]]; [discriminate|].
  assert (Ea : pt_eq a z).
  { unfold is_closed in Hc. apply pt_eqb_iff in Hc. rewrite last_cons2 in Hc. rewrite El in Hc.
    rewrite last_last in Hc. exact Hc. }
  change (rot1 (a :: b :: t)) with ((b :: t) ++ [b]).
  assert (Hc' : is_closed ((b :: t) ++ [b]) = true).
  { unfold is_closed. cbn [app]. change (b :: t ++ [b]) with ((b :: t) ++ [b]). rewrite last_last. apply pt_eqb_refl. }
  split; [exact Hc'|].
  set (M := as_lines (b :: t)).
  assert (EL' : as_lines ((b :: t) ++ [b]) = M ++ (if pt_eqb a b then [] else [(z, b)])).
  { unfold M. rewrite El. rewrite as_lines_snoc. rewrite (pt_eqb_proper a z b b Ea (reflexivity b)). reflexivity. }
  assert (EL : as_lines (a :: b :: t) = if pt_eqb a b then M else (a, b) :: M) by (rewrite as_lines_cons2; reflexivity).
  destruct (pt_eqb a b) eqn:Eab.
  - unfold is_simple. rewrite EL', EL, Hc', Hc, app_nil_r. reflexivity.
  - apply eq_true_iff_eq. rewrite !ring_simple_spec_lemma, !Simple_SimpleL. rewrite EL', EL, Hc', Hc.
    symmetry. apply SimpleL_rot.
    + split; [exact Ea | reflexivity].
    + intros s1 H1. cbn [snd]. unfold M in H1. destruct (as_lines (b :: t)) as [|s L0] eqn:E0; [discriminate|].
      simpl in H1. inversion H1; subst. symmetry. eapply as_lines_head. exact E0.
    + intros sl Hl. cbn [fst].
      assert (HM : M <> []) by (intros E; rewrite E in Hl; discriminate).
      pose proof (nth_error_last M sl HM) as K.
      assert (Esl : last M sl = sl) by congruence.
      pose proof (as_lines_last (b :: t) sl HM) as E1. fold M in E1. rewrite Esl in E1.
      rewrite E1. rewrite El, last_last. exact Ea.
Qed.

Theorem ring_checks_rotation_invariant_lemma k ps : is_closed ps = true ->
  is_closed (rotate_ring k ps) = true /\ is_simple (rotate_ring k ps) = is_simple ps
  /\ is_ring (rotate_ring k ps) = is_ring ps.
Proof.
  intros Hc.
  assert (H : is_closed (rotate_ring k ps) = true /\ is_simple (rotate_ring k ps) = is_simple ps).
  { induction k as [|k [IH1 IH2]]; [split; [exact Hc | reflexivity]|].
    unfold rotate_ring in *. simpl Nat.iter. destruct (rot1_ring_checks _ IH1) as [H1 H2].
    split; [exact H1 | rewrite H2; exact IH2]. }
  destruct H as [H1 H2]. split; [exact H1|]. split; [exact H2|]. unfold is_ring. rewrite H1, H2, Hc. reflexivity.
Qed.
