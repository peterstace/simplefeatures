(* Lemmas for property C20: the structure-preserving transformations commute with the removal of
   empty members, hence their results on a geometry with inserted empty members equal their results
   on the geometry itself up to empty members (what the harness compares):
     Reverse (Model/TrReverse.v), ForceCoordinatesType / Force2D (Base/GeomAST.v: force_geom),
     ForceCW / ForceCCW and IsCW / IsCCW (Model/TrForce.v). *)
From Coq Require Import List Bool Arith Lia QArith.
From SF Require Import Base.GeomAST Model.Empty Proofs.Empty_proofs.
From SF Require Import Model.TrCommon Model.TrReverse Model.TrForce Proofs.TrReverse_proofs.
Import ListNotations.

Lemma keep_map {A} (e : A -> bool) (t : A -> A) l :
  (forall a, e (t a) = e a) -> filter (fun a => negb (e a)) (map t l) = map t (filter (fun a => negb (e a)) l).
Proof.
  intros H. induction l as [|a r IH]; simpl; [reflexivity|]. rewrite H.
  destruct (e a); simpl; rewrite IH; reflexivity.
Qed.

(* the generic consequence: T commutes with strip => T does not see inserted members, up to empties *)
Lemma commuting_transform_transparent {F} (T : geomT F -> geomT F) :
  (forall g, strip_empties (T g) = T (strip_empties g)) ->
  forall g p, strip_empties (T (insert_empties g p)) = strip_empties (T g).
Proof. intros H g p. rewrite !H, strip_ins. reflexivity. Qed.

(* A transformation that works member by member, keeps every node's type and keeps empty Points,
   LineStrings and Polygons empty (and the others non-empty) keeps emptiness at every level and
   commutes with the removal of empty members. *)
Section MemberWise.
  Variable F : Type.
  Variables (T : geomT F -> geomT F) (c : ctype -> ctype)
    (tp : pointT F -> pointT F) (tl : lineT F -> lineT F) (ty : polyT F -> polyT F).
  Hypothesis T_eq : forall g, T g =
    match g with
    | GPoint p => GPoint (tp p) | GLine l => GLine (tl l) | GPoly y => GPoly (ty y)
    | GMPoint ct ps => GMPoint (c ct) (map tp ps) | GMLine ct ls => GMLine (c ct) (map tl ls)
    | GMPoly ct ys => GMPoly (c ct) (map ty ys) | GColl ct gs => GColl (c ct) (map T gs)
    end.
  Hypothesis tp_empty : forall p, point_empty (tp p) = point_empty p.
  Hypothesis tl_empty : forall l, line_empty (tl l) = line_empty l.
  Hypothesis ty_empty : forall y, poly_empty (ty y) = poly_empty y.

  Lemma memberwise_strip g : is_empty (T g) = is_empty g /\ strip_empties (T g) = T (strip_empties g).
  Proof.
    induction g using geomT_ind'; rewrite !T_eq; simpl.
    - split; [apply tp_empty | reflexivity].
    - split; [apply tl_empty | reflexivity].
    - split; [apply ty_empty | reflexivity].
    - split; [apply forallb_map_eq; auto | f_equal; apply keep_map, tp_empty].
    - split; [apply forallb_map_eq; auto | f_equal; apply keep_map, tl_empty].
    - split; [apply forallb_map_eq; auto | f_equal; apply keep_map, ty_empty].
    - split; [|f_equal]; induction H as [|x r [E S] Hr IH]; simpl; try reflexivity.
      + rewrite E, IH. reflexivity.
      + rewrite E. destruct (is_empty x); simpl; [exact IH | rewrite S, IH; reflexivity].
  Qed.
End MemberWise.

(* Reverse returns an empty collection as it is, which is what reversing its members gives *)
Lemma rev_geom_strip (F : Type) (g : geomT F) :
  is_empty (rev_geom g) = is_empty g /\ strip_empties (rev_geom g) = rev_geom (strip_empties g).
Proof.
  apply (memberwise_strip F rev_geom (fun ct => ct) (fun p => p) rev_line rev_poly);
    [|reflexivity | apply line_empty_rev | apply poly_empty_rev].
  intros []; rewrite ?rev_geom_coll; cbn [rev_geom]; rewrite ?map_id; reflexivity.
Qed.

Section Force.
  Variable F : Type.
  Variable zero : F.
  Variable ct : ctype.
  Lemma force_point_empty (p : pointT F) : point_empty (force_point zero ct p) = point_empty p.
  Proof. destruct p as [c [v|]]; reflexivity. Qed.
  Lemma force_line_empty (l : lineT F) : line_empty (force_line zero ct l) = line_empty l.
  Proof. destruct l as [c vs]. unfold line_empty. simpl. destruct vs; reflexivity. Qed.
  Lemma force_poly_empty (y : polyT F) : poly_empty (force_poly zero ct y) = poly_empty y.
  Proof. destruct y as [c rs]. unfold poly_empty. simpl. destruct rs; reflexivity. Qed.

  Lemma force_geom_strip (g : geomT F) :
    is_empty (force_geom zero ct g) = is_empty g /\
    strip_empties (force_geom zero ct g) = force_geom zero ct (strip_empties g).
  Proof.
    apply (memberwise_strip F (force_geom zero ct) (fun _ => ct) (force_point zero ct) (force_line zero ct) (force_poly zero ct));
      [intros []; reflexivity | apply force_point_empty | apply force_line_empty | apply force_poly_empty].
  Qed.
End Force.

Lemma poly_force_orient_empty cw (y : polyT Q) : poly_empty (poly_force_orient cw y) = poly_empty y.
Proof. destruct y as [c rs]. unfold poly_empty. simpl. destruct rs; reflexivity. Qed.

Lemma force_orient_strip cw (g : geomT Q) :
  is_empty (geom_force_orient cw g) = is_empty g /\
  strip_empties (geom_force_orient cw g) = geom_force_orient cw (strip_empties g).
Proof.
  apply (memberwise_strip Q (geom_force_orient cw) (fun ct => ct) (fun p => p) (fun l => l) (poly_force_orient cw));
    [|reflexivity | reflexivity | apply poly_force_orient_empty].
  intros []; cbn [geom_force_orient]; rewrite ?map_id; reflexivity.
Qed.

(* IsCW / IsCCW: an empty polygon has no ring to violate the orientation *)
Lemma geom_is_of_empty (ptest : polyT Q -> bool) (g : geomT Q) :
  (forall y, poly_rings y = [] -> ptest y = true) -> is_empty g = true -> geom_is ptest g = true.
Proof.
  intros Hp. induction g using geomT_ind'; simpl; intros E; try reflexivity.
  - apply Hp, poly_empty_rings, E.
  - apply forallb_forall. intros y Hy. rewrite forallb_forall in E. apply Hp, poly_empty_rings, E, Hy.
  - apply forallb_forall. intros y Hy. rewrite forallb_forall in E. rewrite Forall_forall in H. auto.
Qed.
Lemma geom_is_strip (ptest : polyT Q -> bool) (g : geomT Q) :
  (forall y, poly_rings y = [] -> ptest y = true) -> geom_is ptest (strip_empties g) = geom_is ptest g.
Proof.
  intros Hp. induction g using geomT_ind'; simpl; try reflexivity.
  - apply forallb_keep. intros y E. apply Hp, poly_empty_rings, E.
  - apply forallb_strip; [intros x; apply (geom_is_of_empty ptest x Hp) | exact H].
Qed.
Lemma is_cw_empty_poly (y : polyT Q) : poly_rings y = [] -> poly_is_cw y = true /\ poly_is_ccw y = true.
Proof. unfold poly_is_cw, poly_is_ccw. intros ->. split; reflexivity. Qed.

Lemma force_cw_strip (g : geomT Q) :
  strip_empties (geom_force_cw g) = geom_force_cw (strip_empties g) /\
  strip_empties (geom_force_ccw g) = geom_force_ccw (strip_empties g).
Proof.
  unfold geom_force_cw, geom_force_ccw, geom_is_cw, geom_is_ccw.
  rewrite !geom_is_strip by (intros y Hy; apply (is_cw_empty_poly y Hy)).
  split.
  - destruct (geom_is poly_is_cw g); [reflexivity | apply force_orient_strip].
  - destruct (geom_is poly_is_ccw g); [reflexivity | apply force_orient_strip].
Qed.

Lemma geom_is_cw_of_empty (g : geomT Q) : is_empty g = true -> geom_is_cw g = true /\ geom_is_ccw g = true.
Proof.
  intros E. split; apply geom_is_of_empty; try exact E; intros y Hy; apply (is_cw_empty_poly y Hy).
Qed.
Lemma force_cw_of_empty (g : geomT Q) : is_empty g = true -> geom_force_cw g = g /\ geom_force_ccw g = g.
Proof.
  intros E. destruct (geom_is_cw_of_empty g E) as [A B]. unfold geom_force_cw, geom_force_ccw. rewrite A, B. auto.
Qed.
