(* Lemmas about Model/Intersects.v (property C09): the Go routines against the exact kernel
   (Base/QKernel.v) and the definitional point-set semantics (Base/Planar.v). *)
From Coq Require Import QArith Qreduction List Bool ZArith Lia Lqa Setoid Morphisms.
From SF Require Import Base.GeomAST Base.QKernel Base.Planar Proofs.Planar_proofs Proofs.Planar_slab_base Model.Intersects.
Import ListNotations.
Open Scope Q_scope.

(* ================================================================ scalars *)
Global Instance qltb_proper : Proper (Qeq ==> Qeq ==> eq) qltb.
Proof. intros a a' Ha b b' Hb. unfold qltb. rewrite Ha, Hb. reflexivity. Qed.

Lemma sort_pair_spec a b :
  let '(lo, hi) := sort_pair a b in
  lo <= hi /\ ((lo = a /\ hi = b) \/ (lo = b /\ hi = a)).
Proof.
  unfold sort_pair. destruct (qltb b a) eqn:E.
  - apply qltb_iff in E. split; [lra | right; auto].
  - apply qltb_false_iff in E. split; [lra | left; auto].
Qed.

Lemma sort_pair_between a b x :
  Qle_bool (fst (sort_pair a b)) x && Qle_bool x (snd (sort_pair a b)) = qbetween a b x.
Proof.
  apply eq_true_iff_eq. rewrite andb_true_iff, qbetween_iff, !Qle_bool_iff.
  pose proof (sort_pair_spec a b) as S. destruct (sort_pair a b) as [lo hi]. cbn [fst snd].
  destruct S as [L [[-> ->]|[-> ->]]]; lra.
Qed.

Lemma line_box_contains a b p :
  box_contains (line_box (a, b)) p = qbetween (fst a) (fst b) (fst p) && qbetween (snd a) (snd b) (snd p).
Proof.
  unfold line_box.
  rewrite <- (sort_pair_between (fst a) (fst b) (fst p)), <- (sort_pair_between (snd a) (snd b) (snd p)).
  destruct (sort_pair (fst a) (fst b)) as [x0 x1], (sort_pair (snd a) (snd b)) as [y0 y1].
  unfold box_contains; cbn [bminx bminy bmaxx bmaxy fst snd]. rewrite !andb_assoc. reflexivity.
Qed.

(* ================================================================ orientation *)
Lemma go_cp_cross p q s : go_cp p q s == cross p q s.
Proof. unfold go_cp, cross. ring. Qed.

Lemma orientation_cases p q s :
  (orientation p q s = LeftTurn /\ 0 < cross p q s) \/
  (orientation p q s = Collinear /\ cross p q s == 0) \/
  (orientation p q s = RightTurn /\ cross p q s < 0).
Proof.
  unfold orientation. rewrite <- !(go_cp_cross p q s). destruct (go_cp p q s ?= 0) eqn:E.
  - right; left. split; [reflexivity | apply Qeq_alt; exact E].
  - right; right. split; [reflexivity | apply Qlt_alt; exact E].
  - left. split; [reflexivity | apply Qgt_alt; exact E].
Qed.
Lemma orientation_left p q s : orientation p q s = LeftTurn <-> 0 < cross p q s.
Proof.
  destruct (orientation_cases p q s) as [[E H]|[[E H]|[E H]]]; rewrite E; split; intros K;
    try reflexivity; try discriminate; try exact H; lra.
Qed.
Lemma orientation_right p q s : orientation p q s = RightTurn <-> cross p q s < 0.
Proof.
  destruct (orientation_cases p q s) as [[E H]|[[E H]|[E H]]]; rewrite E; split; intros K;
    try reflexivity; try discriminate; try exact H; lra.
Qed.
Lemma orientation_collinear p q s : orientation p q s = Collinear <-> cross p q s == 0.
Proof.
  destruct (orientation_cases p q s) as [[E H]|[[E H]|[E H]]]; rewrite E; split; intros K;
    try reflexivity; try discriminate; try exact H; lra.
Qed.
Lemma turn_eqb_eq a b : turn_eqb a b = true <-> a = b.
Proof. destruct a, b; simpl; split; intros; try reflexivity; discriminate. Qed.
Lemma turn_eqb_neq a b : turn_eqb a b = false <-> a <> b.
Proof. destruct a, b; simpl; split; intros; try reflexivity; try discriminate; congruence. Qed.


(* ================================================================ intersectsXY, onSegment *)
Lemma intersects_xy_on_seg s p : intersects_xy s p = on_seg s p.
Proof.
  destruct s as [a b]. unfold intersects_xy, on_seg.
  rewrite line_box_contains.
  destruct (qbetween (fst a) (fst b) (fst p) && qbetween (snd a) (snd b) (snd p)); cbn [negb andb]; [|reflexivity].
  apply eq_true_iff_eq. rewrite !Qeq_bool_iff. unfold cross. split; intros H; lra.
Qed.

Lemma qmax2_spec a b : (a <= b /\ qmax2 a b = b) \/ (b < a /\ qmax2 a b = a).
Proof.
  unfold qmax2. destruct (qltb b a) eqn:E.
  - apply qltb_iff in E. right; auto.
  - apply qltb_false_iff in E. left; auto.
Qed.
Lemma qmin2_spec a b : (a < b /\ qmin2 a b = a) \/ (b <= a /\ qmin2 a b = b).
Proof.
  unfold qmin2. destruct (qltb a b) eqn:E.
  - apply qltb_iff in E. left; auto.
  - apply qltb_false_iff in E. right; auto.
Qed.

Lemma qbetween_minmax a b x : Qle_bool x (qmax2 a b) && Qle_bool (qmin2 a b) x = qbetween a b x.
Proof.
  apply eq_true_iff_eq. rewrite andb_true_iff, qbetween_iff, !Qle_bool_iff.
  destruct (qmax2_spec a b) as [[H1 ->]|[H1 ->]]; destruct (qmin2_spec a b) as [[H2 ->]|[H2 ->]]; lra.
Qed.
Lemma on_segment_between p q r :
  on_segment p q r = qbetween (fst p) (fst q) (fst r) && qbetween (snd p) (snd q) (snd r).
Proof. unfold on_segment. rewrite <- !qbetween_minmax, !andb_assoc. reflexivity. Qed.

(* ================================================================ intersectLine *)
Lemma ratio_01 x y :
  (0 < x /\ y <= 0) \/ (x == 0 /\ ~ y == 0) \/ (x < 0 /\ 0 <= y) ->
  ~ x - y == 0 /\ 0 <= x / (x - y) <= 1.
Proof.
  intros H.
  assert (Hd : ~ x - y == 0) by (destruct H as [[? ?]|[[? ?]|[? ?]]]; lra).
  split; [exact Hd|].
  assert (Ht : x / (x - y) * (x - y) == x) by (field; exact Hd).
  set (t := x / (x - y)) in *.
  destruct H as [[H1 H2]|[[H1 H2]|[H1 H2]]].
  - assert (0 < x - y) by lra. split; nra.
  - assert (t == 0).
    { assert (K : t * (x - y) == 0) by lra. apply Qmult_integral in K. destruct K; [assumption | contradiction]. }
    lra.
  - assert (x - y < 0) by lra. split; nra.
Qed.

Lemma turns_differ_cases p q s s' :
  orientation p q s <> orientation p q s' ->
  let x := cross p q s in let y := cross p q s' in
  (0 < x /\ y <= 0) \/ (x == 0 /\ ~ y == 0) \/ (x < 0 /\ 0 <= y).
Proof.
  intros H. cbv zeta.
  destruct (orientation_cases p q s) as [[E1 H1]|[[E1 H1]|[E1 H1]]];
  destruct (orientation_cases p q s') as [[E2 H2]|[[E2 H2]|[E2 H2]]];
  try (exfalso; apply H; congruence); first [left; lra | right; left; lra | right; right; lra].
Qed.

Lemma on_seg_of_between a b p :
  on_segment a b p = true -> cross a b p == 0 -> on_seg (a, b) p = true.
Proof.
  intros H Hc. rewrite on_segment_between in H. unfold on_seg. rewrite H. simpl.
  apply Qeq_bool_iff. exact Hc.
Qed.
Lemma on_segment_of_on_seg a b p : on_seg (a, b) p = true -> on_segment a b p = true.
Proof.
  unfold on_seg. rewrite on_segment_between. rewrite andb_true_iff. tauto.
Qed.

Lemma il_sound a b c d :
  ~ pt_eq a b -> ~ pt_eq c d ->
  intersect_line_empty (a, b) (c, d) = false ->
  exists p, on_seg (a, b) p = true /\ on_seg (c, d) p = true.
Proof.
  intros Hab Hcd H. unfold intersect_line_empty in H.
  destruct (negb (turn_eqb (orientation a b c) (orientation a b d)) &&
            negb (turn_eqb (orientation c d a) (orientation c d b))) eqn:EA.
  - (* proper / touching configuration: the supporting lines cross inside both segments *)
    clear H. apply andb_true_iff in EA. destruct EA as [E12 E34].
    apply negb_true_iff, turn_eqb_neq in E12. apply negb_true_iff, turn_eqb_neq in E34.
    apply seg_seg_nonempty_iff. unfold seg_seg.
    apply pt_eqb_false_iff in Hab. apply pt_eqb_false_iff in Hcd. rewrite Hab, Hcd. cbv zeta.
    pose proof (turns_differ_cases _ _ _ _ E34) as S34. cbv zeta in S34.
    pose proof (turns_differ_cases _ _ _ _ E12) as S12. cbv zeta in S12.
    destruct (ratio_01 _ _ S34) as [Hden [T0 T1]].
    destruct (ratio_01 _ _ S12) as [Hden' [U0 U1]].
    assert (Eden : Qeq_bool (cross c d a - cross c d b) 0 = false) by (apply Qeq_bool_false_iff; exact Hden).
    rewrite Eden.
    assert (Euu : - cross a b c / (cross c d a - cross c d b) == cross a b c / (cross a b c - cross a b d)).
    { assert (K : cross c d a - cross c d b == - (cross a b c - cross a b d)) by (unfold cross; ring).
      rewrite K. field. exact Hden'. }
    rewrite Euu.
    apply Qle_bool_iff in T0, T1, U0, U1. rewrite T0, T1, U0, U1. simpl. discriminate.
  - destruct (turn_eqb (orientation a b c) Collinear && turn_eqb (orientation a b d) Collinear) eqn:EB;
      [|discriminate].
    apply andb_true_iff in EB. destruct EB as [E1 E2].
    apply turn_eqb_eq, orientation_collinear in E1. apply turn_eqb_eq, orientation_collinear in E2.
    destruct (collinear_swap c d a b Hab E1 E2) as [E3 E4].
    destruct (on_segment a b c) eqn:S1.
    { exists c. split; [apply on_seg_of_between; assumption | apply on_seg_left]. }
    destruct (on_segment a b d) eqn:S2.
    { exists d. split; [apply on_seg_of_between; assumption | apply on_seg_right]. }
    destruct (on_segment c d a) eqn:S3.
    { exists a. split; [apply on_seg_left | apply on_seg_of_between; assumption]. }
    destruct (on_segment c d b) eqn:S4.
    { exists b. split; [apply on_seg_right | apply on_seg_of_between; assumption]. }
    simpl in H. discriminate.
Qed.

Lemma same_turn_collinear a b c d p u :
  seg_param c d p u -> cross a b p == 0 -> orientation a b c = orientation a b d ->
  cross a b c == 0 /\ cross a b d == 0.
Proof.
  intros [[U0 U1] [Hx Hy]] Cp E. pose proof (cross_along a b c d p u Hx Hy) as A. rewrite Cp in A.
  destruct (orientation_cases a b c) as [[E1 H1]|[[E1 H1]|[E1 H1]]];
  destruct (orientation_cases a b d) as [[E2 H2]|[[E2 H2]|[E2 H2]]];
    try (rewrite E1, E2 in E; discriminate); try (split; assumption); exfalso; nra.
Qed.

Lemma lower_end_on a b c d p :
  cross a b c == 0 -> cross a b d == 0 -> on_seg (a, b) p = true -> on_seg (c, d) p = true ->
  pt_le (pt_min a b) (pt_min c d) -> on_segment a b c = true \/ on_segment a b d = true.
Proof.
  intros D1 D2 Hs Ht L. destruct (on_seg_lex a b p Hs) as [_ L2]. destruct (on_seg_lex c d p Ht) as [L3 _].
  assert (Hon : on_seg (a, b) (pt_min c d) = true).
  { apply collinear_between_on_seg.
    - destruct (pt_min_cases c d) as [[-> _]|[-> _]]; assumption.
    - exact L.
    - eapply pt_le_trans; [exact L3 | exact L2]. }
  apply on_segment_of_on_seg in Hon. destruct (pt_min_cases c d) as [[E _]|[E _]]; rewrite E in Hon; auto.
Qed.

Lemma il_complete a b c d p :
  ~ pt_eq a b -> ~ pt_eq c d ->
  on_seg (a, b) p = true -> on_seg (c, d) p = true ->
  intersect_line_empty (a, b) (c, d) = false.
Proof.
  intros Hab Hcd Hs Ht. unfold intersect_line_empty.
  destruct (negb (turn_eqb (orientation a b c) (orientation a b d)) &&
            negb (turn_eqb (orientation c d a) (orientation c d b))) eqn:EA; [reflexivity|].
  pose proof (on_seg_cross a b p Hs) as Cp'. pose proof (on_seg_cross c d p Ht) as Cp.
  destruct (proj1 (on_seg_iff a b p) Hs) as [t St]. destruct (proj1 (on_seg_iff c d p) Ht) as [u Su].
  (* all four cross products vanish *)
  assert (Hall : cross a b c == 0 /\ cross a b d == 0).
  { apply andb_false_iff in EA. destruct EA as [E|E]; apply negb_false_iff, turn_eqb_eq in E.
    - exact (same_turn_collinear a b c d p u Su Cp' E).
    - destruct (same_turn_collinear c d a b p t St Cp E) as [H3 H4]. apply (collinear_swap a b c d Hcd H3 H4). }
  destruct Hall as [D1 D2].
  destruct (collinear_swap c d a b Hab D1 D2) as [D3 D4].
  assert (O1 : turn_eqb (orientation a b c) Collinear = true) by (apply turn_eqb_eq, orientation_collinear; exact D1).
  assert (O2 : turn_eqb (orientation a b d) Collinear = true) by (apply turn_eqb_eq, orientation_collinear; exact D2).
  rewrite O1, O2. cbn [andb].
  (* the lexicographically larger of the two lower ends lies on both segments *)
  destruct (pt_le_total (pt_min a b) (pt_min c d)) as [L|L].
  - destruct (lower_end_on a b c d p D1 D2 Hs Ht L) as [K|K]; rewrite K; cbn [negb andb];
      rewrite ?andb_false_r; reflexivity.
  - destruct (lower_end_on c d a b p D3 D4 Ht Hs L) as [K|K]; rewrite K; cbn [negb andb];
      rewrite ?andb_false_r; reflexivity.
Qed.

(* a common point puts the two boxes in overlap *)
Lemma box_overlap_common s t p :
  on_seg s p = true -> on_seg t p = true -> box_overlap (line_box s) (line_box t) = true.
Proof.
  destruct s as [a b], t as [c d]. intros Hs Ht.
  assert (Bs : box_contains (line_box (a, b)) p = true).
  { rewrite line_box_contains. unfold on_seg in Hs. apply andb_true_iff in Hs. tauto. }
  assert (Bt : box_contains (line_box (c, d)) p = true).
  { rewrite line_box_contains. unfold on_seg in Ht. apply andb_true_iff in Ht. tauto. }
  unfold box_contains in Bs, Bt. unfold box_overlap.
  rewrite !andb_true_iff, !Qle_bool_iff in *. lra.
Qed.

Definition nondeg (s : seg) : Prop := ~ pt_eq (fst s) (snd s).

Lemma pair_test_iff s t :
  nondeg s -> nondeg t ->
  (box_overlap (line_box s) (line_box t) && negb (intersect_line_empty s t) = true <->
   exists p, on_seg s p = true /\ on_seg t p = true).
Proof.
  destruct s as [a b], t as [c d]. unfold nondeg; cbn [fst snd]. intros Hs Ht. split.
  - rewrite andb_true_iff, negb_true_iff. intros [_ H]. apply il_sound; assumption.
  - intros [p [H1 H2]]. rewrite andb_true_iff, negb_true_iff. split.
    + eapply box_overlap_common; eauto.
    + eapply il_complete; eauto.
Qed.

Lemma existsb_swap {A B} (f : A -> B -> bool) l1 l2 :
  existsb (fun x => existsb (fun y => f x y) l2) l1 = existsb (fun y => existsb (fun x => f x y) l1) l2.
Proof.
  apply eq_true_iff_eq. rewrite !existsb_exists. split.
  - intros [x [Hx H]]. apply existsb_exists in H. destruct H as [y [Hy H]].
    exists y. split; [exact Hy|]. apply existsb_exists. eauto.
  - intros [y [Hy H]]. apply existsb_exists in H. destruct H as [x [Hx H]].
    exists x. split; [exact Hx|]. apply existsb_exists. eauto.
Qed.

Lemma pairs_test_iff l1 l2 :
  Forall nondeg l1 -> Forall nondeg l2 ->
  (existsb (fun s => existsb (fun t => box_overlap (line_box s) (line_box t) && negb (intersect_line_empty s t)) l2) l1 = true <->
   exists s t p, In s l1 /\ In t l2 /\ on_seg s p = true /\ on_seg t p = true).
Proof.
  intros F1 F2. rewrite Forall_forall in F1, F2. rewrite existsb_exists. split.
  - intros [s [Hs H]]. apply existsb_exists in H. destruct H as [t [Ht H]].
    apply pair_test_iff in H; auto. destruct H as [p [H1 H2]]. exists s, t, p. auto.
  - intros [s [t [p [Hs [Ht [H1 H2]]]]]]. exists s. split; [exact Hs|].
    apply existsb_exists. exists t. split; [exact Ht|]. apply pair_test_iff; auto. exists p; auto.
Qed.

(* the shorter list is the inner one; which one it is does not matter *)
Lemma hibl_iff l1 l2 :
  Forall nondeg l1 -> Forall nondeg l2 ->
  (has_intersection_between_lines l1 l2 = true <->
   exists s t p, In s l1 /\ In t l2 /\ on_seg s p = true /\ on_seg t p = true).
Proof.
  intros F1 F2. unfold has_intersection_between_lines.
  destruct (Nat.ltb (length l2) (length l1)); [exact (pairs_test_iff l1 l2 F1 F2)|].
  rewrite (pairs_test_iff l2 l1 F2 F1). split; intros [s [t [p [Hs [Ht [H1 H2]]]]]]; exists t, s, p; auto.
Qed.

Lemma hibl_sym l1 l2 :
  Forall nondeg l1 -> Forall nondeg l2 ->
  has_intersection_between_lines l1 l2 = has_intersection_between_lines l2 l1.
Proof.
  intros F1 F2. apply eq_true_iff_eq. rewrite !hibl_iff by assumption.
  split; intros [s [t [p [Hs [Ht [H1 H2]]]]]]; exists t, s, p; auto.
Qed.

(* ================================================================ lines of a vertex list *)
Definition nd_b (s : seg) : bool := negb (pt_eqb (fst s) (snd s)).
Lemma as_lines_filter vs : as_lines vs = filter nd_b (ring_edges vs).
Proof.
  induction vs as [|a r IH]; [reflexivity|].
  destruct r as [|b r']; [reflexivity|].
  change (as_lines (a :: b :: r')) with (if pt_eqb a b then as_lines (b :: r') else (a, b) :: as_lines (b :: r')).
  change (ring_edges (a :: b :: r')) with ((a, b) :: ring_edges (b :: r')).
  cbn [filter]. unfold nd_b at 1; cbn [fst snd]. rewrite IH.
  destruct (pt_eqb a b); reflexivity.
Qed.

Lemma as_lines_in vs s :
  In s (as_lines vs) <-> In s (ring_edges vs) /\ pt_eqb (fst s) (snd s) = false.
Proof. rewrite as_lines_filter, filter_In. unfold nd_b. rewrite negb_true_iff. reflexivity. Qed.

Lemma as_lines_nondeg vs : Forall nondeg (as_lines vs).
Proof.
  apply Forall_forall. intros s H. apply as_lines_in in H. destruct H as [_ H].
  apply pt_eqb_false_iff in H. exact H.
Qed.
Lemma ls_lines_nondeg l : Forall nondeg (ls_lines l).
Proof. apply as_lines_nondeg. Qed.
Lemma mls_lines_nondeg ls : Forall nondeg (mls_lines ls).
Proof.
  unfold mls_lines. apply Forall_forall. intros s H. apply in_flat_map in H. destruct H as [l [_ H]].
  pose proof (ls_lines_nondeg l) as F. rewrite Forall_forall in F. auto.
Qed.
Lemma poly_lines_nondeg y : Forall nondeg (poly_lines y).
Proof. apply mls_lines_nondeg. Qed.
Lemma mpoly_lines_nondeg ys : Forall nondeg (mpoly_lines ys).
Proof.
  unfold mpoly_lines. apply Forall_forall. intros s H. apply in_flat_map in H. destruct H as [y [_ H]].
  pose proof (poly_lines_nondeg y) as F. rewrite Forall_forall in F. auto.
Qed.

(* ================================================================ point against ring *)
Definition xorl (l : list bool) : bool := fold_right xorb false l.
Lemma fold_xor_xorl {A} (f : A -> bool) l acc :
  fold_left (fun acc e => xorb acc (f e)) l acc = xorb acc (xorl (map f l)).
Proof.
  revert acc. induction l as [|e l IH]; intros acc; simpl.
  - destruct acc; reflexivity.
  - rewrite IH. destruct acc, (f e), (xorl (map f l)); reflexivity.
Qed.

Definition go_crossing (p : pt) (ln : seg) : bool := fst (has_crossing p ln).
Definition go_on_line (p : pt) (ln : seg) : bool := snd (has_crossing p ln).
Definition parity_go (p : pt) (lns : list seg) : bool := xorl (map (go_crossing p) lns).

Lemma turn_right_b p q s : turn_eqb (orientation p q s) RightTurn = qltb (cross p q s) 0.
Proof.
  apply eq_true_iff_eq. rewrite turn_eqb_eq, orientation_right, qltb_iff. tauto.
Qed.
Lemma turn_collinear_b p q s : turn_eqb (orientation p q s) Collinear = Qeq_bool (cross p q s) 0.
Proof.
  apply eq_true_iff_eq. rewrite turn_eqb_eq, orientation_collinear, Qeq_bool_iff. tauto.
Qed.

Lemma cross_swap a b p : cross b a p == - cross a b p.
Proof. unfold cross. ring. Qed.

Lemma go_on_line_on_seg p s : go_on_line p s = on_seg s p.
Proof.
  destruct s as [a b]. unfold go_on_line, has_crossing.
  destruct (qltb (snd b) (snd a)); cbn [snd fst]; rewrite line_box_contains, turn_collinear_b; unfold on_seg.
  - f_equal. apply eq_true_iff_eq. rewrite !Qeq_bool_iff, cross_swap. split; lra.
  - reflexivity.
Qed.

Lemma relate_loop_spec p lns odd :
  relate_loop p lns odd =
  if existsb (fun ln => on_seg ln p) lns then SBoundary
  else if xorb odd (parity_go p lns) then SInterior else SExterior.
Proof.
  revert odd. induction lns as [|ln r IH]; intros odd.
  - simpl. unfold parity_go; simpl. rewrite xorb_false_r. reflexivity.
  - cbn [relate_loop existsb]. rewrite <- (go_on_line_on_seg p ln).
    unfold go_on_line. destruct (has_crossing p ln) as [cr onl] eqn:E. cbn [snd].
    destruct onl; [reflexivity|]. cbn [orb]. rewrite IH.
    unfold parity_go. cbn [map xorl fold_right]. unfold go_crossing at 2. rewrite E. cbn [fst].
    rewrite xorb_assoc. reflexivity.
Qed.

Lemma relate_point_to_ring_spec p vs :
  relate_point_to_ring p vs =
  if existsb (fun ln => on_seg ln p) (as_lines vs) then SBoundary
  else if parity_go p (as_lines vs) then SInterior else SExterior.
Proof. unfold relate_point_to_ring. rewrite relate_loop_spec, xorb_false_l. reflexivity. Qed.

(* ---- left ray (Go) against right ray (QKernel.edge_cross) ---- *)
Definition above (p v : pt) : bool := negb (Qle_bool (snd v) (snd p)).
Definition straddle (p : pt) (e : seg) : bool := xorb (above p (fst e)) (above p (snd e)).

Lemma straddle_collinear_on_seg a b p :
  snd a <= snd p -> snd p < snd b -> cross a b p == 0 -> on_seg (a, b) p = true.
Proof.
  destruct a as [ax ay], b as [bx by_], p as [px py]. unfold cross; cbn [fst snd]. intros H1 H2 Hc.
  apply on_seg_iff. exists ((py - ay) / (by_ - ay)). unfold seg_param; cbn [fst snd].
  assert (Hd : ~ by_ - ay == 0) by lra.
  assert (Ht : (py - ay) / (by_ - ay) * (by_ - ay) == py - ay) by (field; exact Hd).
  set (t := (py - ay) / (by_ - ay)) in *.
  split; [split; nra|]. split; [|lra].
  assert (K : (px - ax - t * (bx - ax)) * (by_ - ay) == 0) by nra.
  apply Qmult_integral in K. destruct K; [lra | contradiction].
Qed.

Lemma strict_side lo hi p :
  snd lo <= snd p -> snd p < snd hi -> on_seg (lo, hi) p = false ->
  xorb (qltb 0 (cross lo hi p)) (qltb (cross lo hi p) 0) = true.
Proof.
  intros Y1 Y2 Hon. destruct (Q_dec (cross lo hi p) 0) as [[H|H]|H].
  - rewrite (proj2 (qltb_false_iff 0 (cross lo hi p))), (proj2 (qltb_iff (cross lo hi p) 0)); [reflexivity | lra | lra].
  - rewrite (proj2 (qltb_iff 0 (cross lo hi p))), (proj2 (qltb_false_iff (cross lo hi p) 0)); [reflexivity | lra | lra].
  - rewrite (straddle_collinear_on_seg lo hi p Y1 Y2 H) in Hon. discriminate.
Qed.

Lemma edge_cross_go a b p :
  on_seg (a, b) p = false ->
  xorb (edge_cross a b p) (go_crossing p (a, b)) = straddle p (a, b).
Proof.
  intros Hon. unfold edge_cross, go_crossing, has_crossing, straddle, above. cbn [fst snd].
  destruct (Qle_bool (snd a) (snd p)) eqn:Ya; destruct (Qle_bool (snd b) (snd p)) eqn:Yb;
    destruct (qltb (snd b) (snd a)) eqn:Sw; cbn [fst snd Bool.eqb negb xorb];
    rewrite ?Ya, ?Yb; rewrite ?turn_right_b;
    rewrite ?Qle_bool_iff, ?Qle_bool_false_iff, ?qltb_iff, ?qltb_false_iff in *.
  - (* both not above *)
    assert (E : qltb (snd p) (snd a) = false) by (apply qltb_false_iff; exact Ya).
    rewrite E. rewrite andb_false_r. reflexivity.
  - assert (E : qltb (snd p) (snd b) = false) by (apply qltb_false_iff; exact Yb).
    rewrite E. rewrite andb_false_r. reflexivity.
  - (* a below-or-level, b above, but b.y < a.y: impossible *)
    exfalso. lra.
  - (* lower = a, upper = b *)
    assert (E : qltb (snd p) (snd b) = true) by (apply qltb_iff; exact Yb).
    rewrite E. cbn [andb]. pose proof (strict_side a b p Ya Yb Hon) as S.
    destruct (qltb 0 (cross a b p)), (qltb (cross a b p) 0); try discriminate S; reflexivity.
  - (* a above, b not above: lower = b, upper = a *)
    assert (E : qltb (snd p) (snd a) = true) by (apply qltb_iff; exact Ya).
    rewrite E. cbn [andb]. rewrite <- on_seg_sym in Hon. pose proof (strict_side b a p Yb Ya Hon) as S.
    destruct (qltb 0 (cross b a p)), (qltb (cross b a p) 0); try discriminate S; reflexivity.
  - exfalso. lra.
  - (* both above *)
    reflexivity.
  - reflexivity.
Qed.

Lemma above_proper p a b : pt_eq a b -> above p a = above p b.
Proof. intros [_ H]. unfold above. rewrite H. reflexivity. Qed.

(* along a vertex list the straddle bits telescope *)
Lemma straddle_telescope p a r :
  xorl (map (straddle p) (ring_edges (a :: r))) = xorb (above p a) (above p (last r a)).
Proof.
  revert a. induction r as [|b r IH]; intros a.
  - simpl. rewrite xorb_nilpotent. reflexivity.
  - change (ring_edges (a :: b :: r)) with ((a, b) :: ring_edges (b :: r)).
    cbn [map xorl fold_right]. fold (xorl (map (straddle p) (ring_edges (b :: r)))).
    rewrite IH. unfold straddle; cbn [fst snd].
    rewrite last_cons_default. destruct (above p a), (above p b), (above p (last r b)); reflexivity.
Qed.

Lemma straddle_closed p vs :
  pts_closed vs = true -> xorl (map (straddle p) (ring_edges vs)) = false.
Proof.
  destruct vs as [|a r]; [reflexivity|]. intros H. rewrite straddle_telescope.
  simpl in H. apply pt_eqb_iff in H. rewrite (above_proper p _ _ H). apply xorb_nilpotent.
Qed.

Lemma edge_cross_degenerate a b p : pt_eq a b -> edge_cross a b p = false.
Proof.
  intros [_ H]. unfold edge_cross. rewrite H.
  rewrite Bool.eqb_reflx. reflexivity.
Qed.
Lemma straddle_degenerate a b p : pt_eq a b -> straddle p (a, b) = false.
Proof.
  intros H. unfold straddle; cbn [fst snd]. rewrite (above_proper p a b H). apply xorb_nilpotent.
Qed.

Lemma parity_edges es p :
  on_edges es p = false ->
  xorb (xorl (map (fun e => edge_cross (fst e) (snd e) p) es)) (parity_go p (filter nd_b es))
  = xorl (map (straddle p) es).
Proof.
  unfold on_edges, parity_go. induction es as [|e es IH]; intros Hon; [reflexivity|].
  cbn [existsb] in Hon. apply orb_false_iff in Hon. destruct Hon as [He Hes].
  specialize (IH Hes). cbn [map xorl fold_right filter].
  fold (xorl (map (fun e0 => edge_cross (fst e0) (snd e0) p) es)).
  fold (xorl (map (straddle p) es)).
  destruct e as [a b]. unfold nd_b at 1; cbn [fst snd].
  destruct (pt_eqb a b) eqn:E; cbn [negb].
  - apply pt_eqb_iff in E. rewrite (edge_cross_degenerate a b p E), (straddle_degenerate a b p E).
    rewrite !xorb_false_l. exact IH.
  - cbn [map xorl fold_right].
    fold (xorl (map (go_crossing p) (filter nd_b es))).
    rewrite <- (edge_cross_go a b p He). rewrite <- IH.
    destruct (edge_cross a b p), (go_crossing p (a, b)),
      (xorl (map (fun e0 => edge_cross (fst e0) (snd e0) p) es)), (xorl (map (go_crossing p) (filter nd_b es)));
      reflexivity.
Qed.

(* the crossing parity of the Go code (ray towards -x, degenerate edges skipped) is the crossing
   parity of the reference semantics (ray towards +x) on a closed vertex list, away from the ring *)
Lemma parity_left_right vs p :
  pts_closed vs = true -> on_ring vs p = false ->
  parity_go p (as_lines vs) = pt_in_ring vs p.
Proof.
  intros Hc Hon. unfold pt_in_ring, edges_parity, on_ring in *.
  rewrite fold_xor_xorl, xorb_false_l.
  pose proof (parity_edges (ring_edges vs) p Hon) as H.
  rewrite (straddle_closed p vs Hc) in H. rewrite as_lines_filter.
  destruct (xorl (map (fun e => edge_cross (fst e) (snd e) p) (ring_edges vs))),
    (parity_go p (filter nd_b (ring_edges vs))); simpl in H; congruence.
Qed.

Lemma as_lines_on_edges vs p :
  existsb (fun ln => on_seg ln p) (as_lines vs) = true -> on_edges (ring_edges vs) p = true.
Proof.
  unfold on_edges. rewrite !existsb_exists. intros [s [H1 H2]]. exists s. split; [|exact H2].
  apply as_lines_in in H1. tauto.
Qed.

(* ---- hasIntersectionPointWithPolygon is sound for the closed region ---- *)
Lemma line_segs_ring_edges l p :
  on_edges (ring_edges (line_pts l)) p = true -> on_edges (line_segs l) p = true.
Proof.
  unfold line_segs, segs_of_pts. destruct (line_pts l) as [|a [|b r]]; simpl; auto; discriminate.
Qed.

Lemma ring_side_in l p :
  pts_closed (line_pts l) = true ->
  on_edges (line_segs l) p = false ->
  relate_point_to_ring p (line_pts l) = (if edges_parity (line_segs l) p then SInterior else SExterior).
Proof.
  intros Hc Hon. rewrite relate_point_to_ring_spec.
  assert (Hon' : on_ring (line_pts l) p = false).
  { unfold on_ring. destruct (on_edges (ring_edges (line_pts l)) p) eqn:E; [|reflexivity].
    apply line_segs_ring_edges in E. congruence. }
  destruct (existsb (fun ln => on_seg ln p) (as_lines (line_pts l))) eqn:E.
  { apply as_lines_on_edges in E. unfold on_ring in Hon'. congruence. }
  rewrite (parity_left_right _ _ Hc Hon'). unfold pt_in_ring.
  (* line_segs differs from ring_edges only on a one-vertex list, where both parities are false *)
  unfold line_segs, segs_of_pts. destruct (line_pts l) as [|a [|b r]]; try reflexivity.
  simpl. unfold edges_parity; simpl. rewrite (edge_cross_degenerate a a p); reflexivity.
Qed.

Lemma existsb_false_iff {A} (f : A -> bool) l : existsb f l = false <-> forall x, In x l -> f x = false.
Proof.
  rewrite <- not_true_iff_false, existsb_exists. split.
  - intros H x Hx. apply not_true_iff_false. intros E. apply H. eauto.
  - intros H [x [Hx E]]. rewrite (H x Hx) in E. discriminate.
Qed.

Lemma poly_boundary_true y p :
  poly_boundary y p = true <-> exists r, In r (poly_rings y) /\ on_edges (line_segs r) p = true.
Proof. unfold poly_boundary, rings_boundary, poly_ring_segs. rewrite existsb_map. apply existsb_exists. Qed.
Lemma poly_boundary_false y p :
  poly_boundary y p = false <-> forall r, In r (poly_rings y) -> on_edges (line_segs r) p = false.
Proof. unfold poly_boundary, rings_boundary, poly_ring_segs. rewrite existsb_map. apply existsb_false_iff. Qed.

Lemma in_poly_nil y p : poly_rings y = [] -> in_poly y p = false.
Proof. intros E. unfold in_poly, poly_boundary, poly_interior, poly_ring_segs. rewrite E. reflexivity. Qed.

Lemma in_poly_off y shell holes x :
  poly_rings y = shell :: holes -> (forall r, In r (poly_rings y) -> on_edges (line_segs r) x = false) ->
  in_poly y x = edges_parity (line_segs shell) x && forallb (fun h => negb (edges_parity (line_segs h) x)) holes.
Proof.
  intros Er Hoff. unfold in_poly. rewrite (proj2 (poly_boundary_false y x) Hoff).
  unfold poly_interior, poly_ring_segs. rewrite Er in *. cbn [orb map rings_interior].
  unfold ring_strict_in. rewrite (Hoff shell (or_introl eq_refl)). cbn [negb andb].
  f_equal. rewrite forallb_map. apply forallb_ext_in. intros h Hh. unfold ring_strict_out.
  rewrite (Hoff h (or_intror Hh)). reflexivity.
Qed.

Lemma ix_xy_polygon_sound xy y :
  poly_rings_closed y = true -> ix_xy_polygon xy y = true -> in_poly y xy = true.
Proof.
  unfold ix_xy_polygon, poly_rings_closed. destruct (poly_rings y) as [|shell holes] eqn:Er; [discriminate|].
  intros Hc H. rewrite forallb_forall in Hc.
  destruct (poly_boundary y xy) eqn:EB; [unfold in_poly; rewrite EB; reflexivity|].
  pose proof (proj1 (poly_boundary_false y xy) EB) as Off. rewrite (in_poly_off y shell holes xy Er Off). rewrite Er in Off.
  assert (Side : forall r, In r (shell :: holes) ->
            relate_point_to_ring xy (line_pts r) = if edges_parity (line_segs r) xy then SInterior else SExterior).
  { intros r Hr. apply ring_side_in; [apply Hc | apply Off]; exact Hr. }
  rewrite (Side shell (or_introl eq_refl)) in H.
  destruct (edges_parity (line_segs shell) xy); [|discriminate]. cbn [side_is_exterior andb] in *.
  rewrite forallb_forall in *. intros h Hh. specialize (H h Hh). rewrite (Side h (or_intror Hh)) in H.
  destruct (edges_parity (line_segs h) xy); [discriminate | reflexivity].
Qed.

(* ================================================================ membership helpers *)
Definition inMP (mp : list (pointT Q)) (w : pt) : bool := existsb (fun q => in_point q w) mp.
Definition inML (ls : list (lineT Q)) (w : pt) : bool := existsb (fun l => on_line l w) ls.
Definition inMY (ys : list (polyT Q)) (w : pt) : bool := existsb (fun y => in_poly y w) ys.

Lemma point_pts_xy q : point_pts q = match point_xy q with None => [] | Some a => [a] end.
Proof. unfold point_pts, point_xy. destruct (point_c q); reflexivity. Qed.

Lemma in_point_xy q a w : point_xy q = Some a -> in_point q w = pt_eqb w a.
Proof. intros H. unfold in_point. rewrite point_pts_xy, H. simpl. apply orb_false_r. Qed.
Lemma in_point_none q w : point_xy q = None -> in_point q w = false.
Proof. intros H. unfold in_point. rewrite point_pts_xy, H. reflexivity. Qed.
Lemma in_point_self q a : point_xy q = Some a -> in_point q a = true.
Proof. intros H. rewrite (in_point_xy q a a H). apply pt_eqb_iff. reflexivity. Qed.
Lemma in_point_inv q w : in_point q w = true -> exists a, point_xy q = Some a /\ pt_eq w a.
Proof.
  intros H. destruct (point_xy q) as [a|] eqn:E.
  - exists a. split; [reflexivity|]. rewrite (in_point_xy q a w E) in H. apply pt_eqb_iff. exact H.
  - rewrite (in_point_none q w E) in H. discriminate.
Qed.

Lemma inMP_intro mp p a : In p mp -> point_xy p = Some a -> inMP mp a = true.
Proof. intros Hp E. apply existsb_exists. exists p. split; [exact Hp | exact (in_point_self p a E)]. Qed.
Lemma inMP_inv mp w : inMP mp w = true -> exists p a, In p mp /\ point_xy p = Some a /\ pt_eq w a.
Proof.
  intros H. apply existsb_exists in H. destruct H as [p [Hp H]].
  destruct (in_point_inv p w H) as [a [E Ha]]. exists p, a. auto.
Qed.

Lemma pt_eqb_refl a : pt_eqb a a = true.
Proof. exact (QKernel.pt_eqb_refl a). Qed.

Lemma on_seg_pt_eq s p p' : pt_eq p p' -> on_seg s p = on_seg s p'.
Proof. destruct s as [a b]. intros H. apply on_seg_proper; [reflexivity | reflexivity | exact H]. Qed.
Lemma on_edges_eq es p q : pt_eq p q -> on_edges es p = on_edges es q.
Proof. intros E. apply existsb_ext_in. intros e _. apply on_seg_pt_eq, E. Qed.

Lemma ls_lines_on_line l s w : In s (ls_lines l) -> on_seg s w = true -> on_line l w = true.
Proof.
  intros Hs Hw. unfold on_line. apply line_segs_ring_edges. unfold on_edges. apply existsb_exists.
  exists s. split; [|exact Hw]. apply as_lines_in in Hs. tauto.
Qed.
Lemma mls_lines_inML ls s w : In s (mls_lines ls) -> on_seg s w = true -> inML ls w = true.
Proof.
  intros Hs Hw. apply in_flat_map in Hs. destruct Hs as [l [Hl Hs]].
  apply existsb_exists. exists l. split; [exact Hl|]. eapply ls_lines_on_line; eauto.
Qed.
Lemma poly_lines_in_poly y s w : In s (poly_lines y) -> on_seg s w = true -> in_poly y w = true.
Proof.
  intros Hs Hw. unfold in_poly. apply orb_true_iff. left.
  unfold poly_boundary, rings_boundary, poly_ring_segs.
  apply in_flat_map in Hs. destruct Hs as [r [Hr Hs]].
  apply existsb_exists. exists (line_segs r). split; [apply in_map; exact Hr|].
  apply (ls_lines_on_line r s w Hs Hw).
Qed.
Lemma mpoly_lines_inMY ys s w : In s (mpoly_lines ys) -> on_seg s w = true -> inMY ys w = true.
Proof.
  intros Hs Hw. apply in_flat_map in Hs. destruct Hs as [y [Hy Hs]].
  apply existsb_exists. exists y. split; [exact Hy|]. eapply poly_lines_in_poly; eauto.
Qed.

Lemma start_xy_on_line l w : start_xy l = Some w -> on_line l w = true.
Proof.
  unfold start_xy, on_line, line_segs, segs_of_pts. destruct (line_pts l) as [|a [|b r]]; intros H; inversion H; subst.
  - unfold on_edges. cbn [existsb]. rewrite on_seg_left. reflexivity.
  - change (ring_edges (w :: b :: r)) with ((w, b) :: ring_edges (b :: r)).
    unfold on_edges. cbn [existsb]. rewrite on_seg_left. reflexivity.
Qed.
Lemma start_exterior_in_poly y w : start_xy (exterior_ring y) = Some w -> in_poly y w = true.
Proof.
  unfold exterior_ring, in_poly, poly_boundary, poly_ring_segs, rings_boundary.
  destruct (poly_rings y) as [|r rs] eqn:E; intros H.
  - unfold start_xy in H. simpl in H. discriminate.
  - apply start_xy_on_line in H. unfold on_line in H. cbn [map existsb]. rewrite H. reflexivity.
Qed.

(* ================================================================ the six routines on multi-geometries: soundness *)
Lemma lines_xy_sound lns xy :
  existsb (fun ln => intersects_xy ln xy) lns = true -> exists s, In s lns /\ on_seg s xy = true.
Proof.
  intros H. apply existsb_exists in H. destruct H as [s [H1 H2]]. rewrite intersects_xy_on_seg in H2. eauto.
Qed.

Lemma ix_mpoint_mpoint_sound mp1 mp2 :
  ix_mpoint_mpoint mp1 mp2 = true -> exists w, inMP mp1 w = true /\ inMP mp2 w = true.
Proof.
  unfold ix_mpoint_mpoint. intros H. apply existsb_exists in H. destruct H as [q2 [Hq2 H]].
  destruct (point_xy q2) as [b|] eqn:Eb; [|discriminate].
  apply existsb_exists in H. destruct H as [q1 [Hq1 H]].
  destruct (point_xy q1) as [a|] eqn:Ea; [|discriminate].
  exists a. split; [exact (inMP_intro mp1 q1 a Hq1 Ea)|].
  apply existsb_exists. exists q2. split; [exact Hq2|]. rewrite (in_point_xy q2 b a Eb). exact H.
Qed.

Lemma ix_mpoint_mline_sound mp ls :
  ix_mpoint_mline mp ls = true -> exists w, inMP mp w = true /\ inML ls w = true.
Proof.
  unfold ix_mpoint_mline. intros H. apply existsb_exists in H. destruct H as [p [Hp H]].
  destruct (point_xy p) as [a|] eqn:Ea; [|discriminate].
  apply existsb_exists in H. destruct H as [l [Hl H]].
  apply lines_xy_sound in H. destruct H as [s [H1 H2]].
  exists a. split; [exact (inMP_intro mp p a Hp Ea)|].
  apply existsb_exists. exists l. split; [exact Hl | eapply ls_lines_on_line; eauto].
Qed.

Lemma ix_optxy_polygon_sound o y :
  poly_rings_closed y = true -> ix_optxy_polygon o y = true -> exists w, o = Some w /\ in_poly y w = true.
Proof.
  intros Hc H. destruct o as [xy|]; [|discriminate]. exists xy. split; [reflexivity|].
  apply ix_xy_polygon_sound; assumption.
Qed.

Lemma ix_optxy_mpoly_sound o ys :
  forallb poly_rings_closed ys = true -> ix_optxy_mpoly o ys = true ->
  exists w, o = Some w /\ inMY ys w = true.
Proof.
  unfold ix_optxy_mpoly. intros Hc H. apply existsb_exists in H. destruct H as [y [Hy H]].
  rewrite forallb_forall in Hc. apply ix_optxy_polygon_sound in H; [|auto]. destruct H as [w [H1 H2]].
  exists w. split; [exact H1|]. apply existsb_exists. eauto.
Qed.

Lemma ix_mpoint_mpoly_sound mp ys :
  forallb poly_rings_closed ys = true -> ix_mpoint_mpoly mp ys = true ->
  exists w, inMP mp w = true /\ inMY ys w = true.
Proof.
  unfold ix_mpoint_mpoly, ix_point_mpoly. intros Hc H. apply existsb_exists in H. destruct H as [p [Hp H]].
  apply ix_optxy_mpoly_sound in H; [|exact Hc]. destruct H as [w [H1 H2]].
  exists w. split; [exact (inMP_intro mp p w Hp H1) | exact H2].
Qed.

Lemma ix_mline_mline_sound ls1 ls2 :
  ix_mline_mline ls1 ls2 = true -> exists w, inML ls1 w = true /\ inML ls2 w = true.
Proof.
  unfold ix_mline_mline. intros H.
  apply hibl_iff in H; [|apply mls_lines_nondeg|apply mls_lines_nondeg].
  destruct H as [s [t [p [Hs [Ht [H1 H2]]]]]]. exists p. split; eapply mls_lines_inML; eauto.
Qed.

Lemma ix_mline_mpoly_sound ls ys :
  forallb poly_rings_closed ys = true -> ix_mline_mpoly ls ys = true ->
  exists w, inML ls w = true /\ inMY ys w = true.
Proof.
  unfold ix_mline_mpoly. intros Hc H.
  destruct (has_intersection_between_lines (mls_lines ls) (mpoly_lines ys)) eqn:E.
  - apply hibl_iff in E; [|apply mls_lines_nondeg|apply mpoly_lines_nondeg].
    destruct E as [s [t [p [Hs [Ht [H1 H2]]]]]]. exists p. split.
    + eapply mls_lines_inML; eauto.
    + eapply mpoly_lines_inMY; eauto.
  - apply existsb_exists in H. destruct H as [l [Hl H]].
    apply ix_optxy_mpoly_sound in H; [|exact Hc]. destruct H as [w [H1 H2]].
    exists w. split; [|exact H2]. apply existsb_exists. exists l. split; [exact Hl | apply start_xy_on_line; exact H1].
Qed.

Lemma ix_polygon_polygon_sound p1 p2 :
  poly_rings_closed p1 = true -> poly_rings_closed p2 = true -> ix_polygon_polygon p1 p2 = true ->
  exists w, in_poly p1 w = true /\ in_poly p2 w = true.
Proof.
  unfold ix_polygon_polygon. intros C1 C2 H.
  destruct (has_intersection_between_lines (poly_lines p1) (poly_lines p2)) eqn:E.
  - apply hibl_iff in E; [|apply poly_lines_nondeg|apply poly_lines_nondeg].
    destruct E as [s [t [p [Hs [Ht [H1 H2]]]]]]. exists p. split; eapply poly_lines_in_poly; eauto.
  - apply orb_true_iff in H. destruct H as [H|H].
    + apply ix_optxy_polygon_sound in H; [|exact C2]. destruct H as [w [H1 H2]].
      exists w. split; [apply start_exterior_in_poly; exact H1 | exact H2].
    + apply ix_optxy_polygon_sound in H; [|exact C1]. destruct H as [w [H1 H2]].
      exists w. split; [exact H2 | apply start_exterior_in_poly; exact H1].
Qed.

Lemma ix_mpoly_mpoly_sound ys1 ys2 :
  forallb poly_rings_closed ys1 = true -> forallb poly_rings_closed ys2 = true ->
  ix_mpoly_mpoly ys1 ys2 = true -> exists w, inMY ys1 w = true /\ inMY ys2 w = true.
Proof.
  unfold ix_mpoly_mpoly. intros C1 C2 H. apply existsb_exists in H. destruct H as [p1 [Hp1 H]].
  apply existsb_exists in H. destruct H as [p2 [Hp2 H]].
  rewrite forallb_forall in C1, C2.
  apply ix_polygon_polygon_sound in H; auto. destruct H as [w [H1 H2]].
  exists w. split; apply existsb_exists; eauto.
Qed.

(* ================================================================ completeness: puntal / lineal routines *)
Definition has_other (a : pt) (r : list pt) : bool := existsb (fun q => negb (pt_eqb a q)) r.

Lemma has_other_proper a b r : pt_eq a b -> has_other a r = has_other b r.
Proof.
  intros H. unfold has_other. apply existsb_ext_in. intros q _. rewrite (pt_eqb_proper a b q q H (reflexivity q)). reflexivity.
Qed.

Lemma as_lines_cons_incl a b r s : In s (as_lines (b :: r)) -> In s (as_lines (a :: b :: r)).
Proof.
  intros H. change (as_lines (a :: b :: r)) with (if pt_eqb a b then as_lines (b :: r) else (a, b) :: as_lines (b :: r)).
  destruct (pt_eqb a b); [exact H | right; exact H].
Qed.

Lemma vertex_on_nondeg a r :
  has_other a r = true -> exists s, In s (as_lines (a :: r)) /\ on_seg s a = true.
Proof.
  revert a. induction r as [|b r IH]; intros a H; [discriminate|].
  destruct (pt_eqb a b) eqn:E.
  - apply pt_eqb_iff in E.
    assert (Hb : has_other b r = true).
    { rewrite <- (has_other_proper a b r E). unfold has_other in *. cbn [existsb] in H.
      assert (E' : pt_eqb a b = true) by (apply pt_eqb_iff; exact E). rewrite E' in H. exact H. }
    destruct (IH b Hb) as [s [H1 H2]]. exists s. split; [apply as_lines_cons_incl; exact H1|].
    rewrite (on_seg_pt_eq s a b E). exact H2.
  - exists (a, b). split; [|apply on_seg_left].
    change (as_lines (a :: b :: r)) with (if pt_eqb a b then as_lines (b :: r) else (a, b) :: as_lines (b :: r)).
    rewrite E. left. reflexivity.
Qed.

Lemma all_same_edges b r w :
  has_other b r = false -> on_edges (ring_edges (b :: r)) w = true -> pt_eq w b.
Proof.
  revert b. induction r as [|c r IH]; intros b H Hon; [discriminate|].
  unfold has_other in H. cbn [existsb] in H. apply orb_false_iff in H. destruct H as [Hbc Hr].
  apply negb_false_iff, pt_eqb_iff in Hbc.
  change (ring_edges (b :: c :: r)) with ((b, c) :: ring_edges (c :: r)) in Hon.
  unfold on_edges in Hon. cbn [existsb] in Hon. apply orb_true_iff in Hon. destruct Hon as [Hon|Hon].
  - apply (on_seg_degenerate b c w Hbc Hon).
  - assert (Hc : has_other c r = false) by (rewrite <- (has_other_proper b c r Hbc); exact Hr).
    etransitivity; [apply (IH c Hc Hon) | symmetry; exact Hbc].
Qed.

Lemma nondeg_cover a r w :
  has_other a r = true -> on_edges (ring_edges (a :: r)) w = true ->
  exists s, In s (as_lines (a :: r)) /\ on_seg s w = true.
Proof.
  revert a. induction r as [|b r IH]; intros a H Hon; [discriminate|].
  change (ring_edges (a :: b :: r)) with ((a, b) :: ring_edges (b :: r)) in Hon.
  unfold on_edges in Hon. cbn [existsb] in Hon. apply orb_true_iff in Hon.
  assert (Hhead : pt_eqb a b = false -> In (a, b) (as_lines (a :: b :: r))).
  { intros E. change (as_lines (a :: b :: r)) with (if pt_eqb a b then as_lines (b :: r) else (a, b) :: as_lines (b :: r)).
    rewrite E. left. reflexivity. }
  assert (Hb_of_eq : pt_eq a b -> has_other b r = true).
  { intros E. rewrite <- (has_other_proper a b r E). unfold has_other in *. cbn [existsb] in H.
    assert (E' : pt_eqb a b = true) by (apply pt_eqb_iff; exact E). rewrite E' in H. exact H. }
  destruct Hon as [Hon|Hon].
  - destruct (pt_eqb a b) eqn:E.
    + apply pt_eqb_iff in E. pose proof (on_seg_degenerate a b w E Hon) as Ew.
      destruct (vertex_on_nondeg b r (Hb_of_eq E)) as [s [H1 H2]].
      exists s. split; [apply as_lines_cons_incl; exact H1|].
      rewrite (on_seg_pt_eq s w b); [exact H2 | etransitivity; [exact Ew | exact E]].
    + exists (a, b). split; [apply Hhead; reflexivity | exact Hon].
  - destruct (has_other b r) eqn:Hb.
    + destruct (IH b Hb Hon) as [s [H1 H2]]. exists s. split; [apply as_lines_cons_incl; exact H1 | exact H2].
    + pose proof (all_same_edges b r w Hb Hon) as Ew.
      destruct (pt_eqb a b) eqn:E.
      * apply pt_eqb_iff in E. pose proof (Hb_of_eq E) as X. discriminate.
      * exists (a, b). split; [apply Hhead; reflexivity|].
        rewrite (on_seg_pt_eq (a, b) w b Ew). apply on_seg_right.
Qed.

Lemma on_line_cover l w :
  pts_wf (line_pts l) = true -> on_line l w = true -> exists s, In s (ls_lines l) /\ on_seg s w = true.
Proof.
  unfold on_line, line_segs, segs_of_pts, ls_lines, pts_wf.
  destruct (line_pts l) as [|a [|b r]]; intros Hwf Hon; try discriminate.
  apply nondeg_cover; assumption.
Qed.

Lemma lines_xy_complete lns s xy :
  In s lns -> on_seg s xy = true -> existsb (fun ln => intersects_xy ln xy) lns = true.
Proof. intros H1 H2. apply existsb_exists. exists s. rewrite intersects_xy_on_seg. auto. Qed.

Definition ml_wf (ls : list (lineT Q)) : bool := forallb (fun l => pts_wf (line_pts l)) ls.

Lemma inML_cover ls w :
  ml_wf ls = true -> inML ls w = true -> exists s, In s (mls_lines ls) /\ on_seg s w = true.
Proof.
  unfold ml_wf, inML. intros Hwf H. apply existsb_exists in H. destruct H as [l [Hl H]].
  rewrite forallb_forall in Hwf. destruct (on_line_cover l w (Hwf l Hl) H) as [s [H1 H2]].
  exists s. split; [|exact H2]. apply in_flat_map. eauto.
Qed.

Lemma ix_mpoint_mpoint_complete mp1 mp2 w :
  inMP mp1 w = true -> inMP mp2 w = true -> ix_mpoint_mpoint mp1 mp2 = true.
Proof.
  intros H1 H2. apply inMP_inv in H1. apply inMP_inv in H2.
  destruct H1 as [q1 [a [Hq1 [Ea Ha]]]], H2 as [q2 [b [Hq2 [Eb Hb]]]].
  unfold ix_mpoint_mpoint. apply existsb_exists. exists q2. split; [exact Hq2|]. rewrite Eb.
  apply existsb_exists. exists q1. split; [exact Hq1|]. rewrite Ea.
  apply pt_eqb_iff. etransitivity; [symmetry; exact Ha | exact Hb].
Qed.

Lemma ix_mpoint_mline_complete mp ls w :
  ml_wf ls = true -> inMP mp w = true -> inML ls w = true -> ix_mpoint_mline mp ls = true.
Proof.
  intros Hwf Hp H. apply inMP_inv in Hp. destruct Hp as [p [a [Hp [Ea Ha]]]].
  destruct (inML_cover ls w Hwf H) as [s [H1 H2]]. apply in_flat_map in H1. destruct H1 as [l [Hl H1]].
  unfold ix_mpoint_mline. apply existsb_exists. exists p. split; [exact Hp|]. rewrite Ea.
  apply existsb_exists. exists l. split; [exact Hl|].
  apply (lines_xy_complete _ s); [exact H1|]. rewrite <- (on_seg_pt_eq s w a Ha). exact H2.
Qed.

Lemma ix_mline_mline_complete ls1 ls2 w :
  ml_wf ls1 = true -> ml_wf ls2 = true -> inML ls1 w = true -> inML ls2 w = true ->
  ix_mline_mline ls1 ls2 = true.
Proof.
  intros W1 W2 H1 H2. destruct (inML_cover ls1 w W1 H1) as [s [Hs Hsw]].
  destruct (inML_cover ls2 w W2 H2) as [t [Ht Htw]].
  unfold ix_mline_mline. apply hibl_iff; [apply mls_lines_nondeg | apply mls_lines_nondeg|].
  exists s, t, w. auto.
Qed.

(* ================================================================ symmetry of the routines *)
Lemma ix_point_point_sym p q : ix_point_point p q = ix_point_point q p.
Proof.
  unfold ix_point_point. destruct (point_xy p), (point_xy q); try reflexivity. apply pt_eqb_sym.
Qed.
Lemma ix_mline_mline_sym a b : ix_mline_mline a b = ix_mline_mline b a.
Proof. unfold ix_mline_mline. apply hibl_sym; apply mls_lines_nondeg. Qed.
Lemma ix_polygon_polygon_sym a b : ix_polygon_polygon a b = ix_polygon_polygon b a.
Proof.
  unfold ix_polygon_polygon. rewrite (hibl_sym (poly_lines a) (poly_lines b)) by apply poly_lines_nondeg.
  destruct (has_intersection_between_lines (poly_lines b) (poly_lines a)); [reflexivity|]. apply orb_comm.
Qed.
Lemma ix_mpoly_mpoly_sym a b : ix_mpoly_mpoly a b = ix_mpoly_mpoly b a.
Proof.
  unfold ix_mpoly_mpoly. rewrite existsb_swap. apply existsb_ext_in. intros y _.
  apply existsb_ext_in. intros x _. apply ix_polygon_polygon_sym.
Qed.
(* the routine is exact, and "share a point" is symmetric *)
Lemma ix_mpoint_mpoint_sym a b : ix_mpoint_mpoint a b = ix_mpoint_mpoint b a.
Proof.
  apply eq_true_iff_eq. split; intros H; apply ix_mpoint_mpoint_sound in H; destruct H as [w [H1 H2]];
    exact (ix_mpoint_mpoint_complete _ _ w H2 H1).
Qed.

Lemma ix_flat_sym g1 g2 : ix_flat g1 g2 = ix_flat g2 g1.
Proof.
  destruct g1 as [p|l|y|c mp|c ls|c ys|c gs]; destruct g2 as [p'|l'|y'|c' mp'|c' ls'|c' ys'|c' gs'];
    try reflexivity; unfold ix_flat, ix_flat_o; cbn [rank Nat.ltb Nat.leb ix_switch out_bool].
  - apply ix_point_point_sym.
  - apply ix_mline_mline_sym.
  - apply ix_polygon_polygon_sym.
  - apply ix_mpoint_mpoint_sym.
  - apply ix_mline_mline_sym.
  - apply ix_mpoly_mpoly_sym.
Qed.

(* ================================================================ collections: leaves *)
Lemma existsb_leaves (f h : geom -> bool) :
  (forall c gs, f (GColl c gs) = existsb f gs) ->
  (forall g, match g with GColl _ _ => True | _ => f g = h g end) ->
  forall g, f g = existsb h (leaves g).
Proof.
  intros Hf Hh g. generalize (Hh g). induction g using geomT_ind'; intros E;
    try (cbn [leaves existsb]; rewrite orb_false_r; exact E).
  rewrite Hf. cbn [leaves]. rewrite existsb_flat_map. apply existsb_ext_in.
  rewrite Forall_forall in H. intros x Hx. exact (H x Hx (Hh x)).
Qed.
Lemma flat_leaves {X} (f : geom -> list X) :
  (forall c gs, f (GColl c gs) = flat_map f gs) -> forall g, f g = flat_map f (leaves g).
Proof.
  intros Hf g. induction g using geomT_ind'; try (cbn [leaves flat_map]; rewrite app_nil_r; reflexivity).
  rewrite Hf. cbn [leaves]. rewrite flat_map_flat_map. apply flat_map_ext_in, Forall_forall, H.
Qed.

Lemma inG_leaves g w : inG g w = existsb (fun l => inG l w) (leaves g).
Proof. apply (existsb_leaves (fun g => inG g w)); [reflexivity | intros []; reflexivity || exact I]. Qed.

Lemma intersects_leaves a b :
  intersects a b = existsb (fun la => existsb (fun lb => ix_flat la lb) (leaves b)) (leaves a).
Proof.
  assert (L : forall l g, ix_leaf_geom l g = existsb (ix_flat l) (leaves g)).
  { intros l. apply existsb_leaves; [reflexivity | intros []; reflexivity || exact I]. }
  destruct a as [p|l|y|c mp|c ls|c ys|c gs]; unfold intersects;
    try (rewrite L; cbn [leaves existsb]; rewrite orb_false_r; reflexivity).
  rewrite (existsb_leaves (ix_coll_geom (GColl c gs)) (fun lb => ix_leaf_geom lb (GColl c gs)));
    [|reflexivity | intros []; reflexivity || exact I].
  rewrite existsb_swap. apply existsb_ext_in. intros lb _.
  rewrite L. apply existsb_ext_in. intros la _. apply ix_flat_sym.
Qed.

Lemma intersects_sym a b : intersects a b = intersects b a.
Proof.
  rewrite !intersects_leaves. rewrite existsb_swap. apply existsb_ext_in. intros lb _.
  apply existsb_ext_in. intros la _. apply ix_flat_sym.
Qed.

Lemma leaves_not_coll g l : In l (leaves g) -> forall c gs, l <> GColl c gs.
Proof.
  induction g using geomT_ind'; cbn [leaves]; intros Hl; try (destruct Hl as [<-|[]]; discriminate).
  apply in_flat_map in Hl. destruct Hl as [x [Hx Hl]]. rewrite Forall_forall in H. exact (H x Hx Hl).
Qed.

(* ================================================================ the dispatch *)
(* Intersects treats a Point, LineString or Polygon as the multi-geometry of that one member (for
   several type pairs the Go code converts, for the others the routine is the same test): the
   switch is six routines, on multi-points, multi-line-strings and multi-polygons. *)
Definition as_multi (g : geom) : geom :=
  match g with
  | GPoint p => GMPoint XY [p]
  | GLine l => GMLine XY [l]
  | GPoly y => GMPoly XY [y]
  | _ => g
  end.
Definition is_multi (g : geom) : Prop :=
  match g with GMPoint _ _ | GMLine _ _ | GMPoly _ _ => True | _ => False end.

Lemma ix_flat_as_multi g1 g2 : ix_flat g1 g2 = ix_flat (as_multi g1) (as_multi g2).
Proof.
  assert (Ord : forall g1 g2, (rank g1 <= rank g2)%nat -> ix_flat g1 g2 = ix_flat (as_multi g1) (as_multi g2)).
  { clear. intros [p|l|y|c mp|c ls|c ys|c gs] [p'|l'|y'|c' mp'|c' ls'|c' ys'|c' gs'] Hr;
      try reflexivity; try (exfalso; cbn [rank] in Hr; lia);
      unfold ix_flat, ix_flat_o; cbn [as_multi rank Nat.ltb Nat.leb ix_switch out_bool].
    - unfold ix_point_point, ix_mpoint_mpoint. cbn [existsb].
      destruct (point_xy p), (point_xy p'); rewrite ?orb_false_r; reflexivity.
    - unfold ix_point_line, ix_mpoint_mline. cbn [existsb].
      destruct (point_xy p); rewrite ?orb_false_r; reflexivity.
    - unfold ix_point_polygon, ix_mpoint_mpoly, ix_point_mpoly, ix_optxy_mpoly. cbn [existsb].
      rewrite !orb_false_r. reflexivity.
    - unfold ix_point_mpoint, ix_mpoint_mpoint. apply existsb_ext_in. intros q _.
      unfold ix_point_point. cbn [existsb]. destruct (point_xy p), (point_xy q); rewrite ?orb_false_r; reflexivity.
    - unfold ix_point_mline, ix_mpoint_mline, ix_point_line. cbn [existsb]. rewrite orb_false_r.
      destruct (point_xy p); [reflexivity | apply existsb_all_false; reflexivity].
    - unfold ix_mpoint_mpoly. cbn [existsb]. rewrite orb_false_r. reflexivity.
    - unfold ix_mpoly_mpoly. cbn [existsb]. rewrite !orb_false_r. reflexivity.
    - unfold ix_mpoint_polygon, ix_mpoint_mpoly. apply existsb_ext_in. intros q _.
      unfold ix_point_polygon, ix_point_mpoly, ix_optxy_mpoly. cbn [existsb]. rewrite orb_false_r. reflexivity. }
  destruct (Nat.le_ge_cases (rank g1) (rank g2)) as [H|H]; [exact (Ord g1 g2 H)|].
  rewrite (ix_flat_sym g1 g2), (ix_flat_sym (as_multi g1)). exact (Ord g2 g1 H).
Qed.

Lemma inG_as_multi g w : inG (as_multi g) w = inG g w.
Proof. destruct g; try reflexivity; cbn [as_multi inG existsb]; apply orb_false_r. Qed.
Lemma is_empty_as_multi g : is_empty (as_multi g) = is_empty g.
Proof. destruct g; try reflexivity; cbn [as_multi is_empty forallb]; apply andb_true_r. Qed.
Lemma g_polys_as_multi g : g_polys (as_multi g) = g_polys g.
Proof. destruct g; reflexivity. Qed.
Lemma g_lines_as_multi g : g_lines (as_multi g) = g_lines g.
Proof. destruct g; reflexivity. Qed.

Definition mleaves (g : geom) : list geom := map as_multi (leaves g).

Lemma mleaves_multi g l : In l (mleaves g) -> is_multi l.
Proof.
  intros H. apply in_map_iff in H. destruct H as [l0 [<- H]]. pose proof (leaves_not_coll g l0 H) as N.
  destruct l0; try exact I. exfalso. eapply N. reflexivity.
Qed.

Lemma intersects_iff a b :
  intersects a b = true <-> exists la lb, In la (mleaves a) /\ In lb (mleaves b) /\ ix_flat la lb = true.
Proof.
  rewrite intersects_leaves, existsb_exists. split.
  - intros [la [Hla H]]. apply existsb_exists in H. destruct H as [lb [Hlb H]].
    exists (as_multi la), (as_multi lb). rewrite <- ix_flat_as_multi.
    split; [apply in_map; exact Hla|]. split; [apply in_map; exact Hlb | exact H].
  - intros [la [lb [Hla [Hlb H]]]]. apply in_map_iff in Hla. apply in_map_iff in Hlb.
    destruct Hla as [la0 [<- Hla]], Hlb as [lb0 [<- Hlb]]. rewrite <- ix_flat_as_multi in H.
    exists la0. split; [exact Hla|]. apply existsb_exists. eauto.
Qed.
Lemma inG_iff g w : inG g w = true <-> exists l, In l (mleaves g) /\ inG l w = true.
Proof.
  rewrite inG_leaves, existsb_exists. split.
  - intros [l [Hl H]]. exists (as_multi l). rewrite inG_as_multi. split; [apply in_map; exact Hl | exact H].
  - intros [l [Hl H]]. apply in_map_iff in Hl. destruct Hl as [l0 [<- Hl]]. rewrite inG_as_multi in H. eauto.
Qed.

Definition common (a b : geom) : Prop := exists w, inG a w = true /\ inG b w = true.
Lemma common_sym a b : common a b -> common b a.
Proof. intros [w [H1 H2]]. exists w. auto. Qed.
Lemma common_iff a b :
  common a b <-> exists la lb, In la (mleaves a) /\ In lb (mleaves b) /\ common la lb.
Proof.
  split.
  - intros [w [H1 H2]]. apply inG_iff in H1. apply inG_iff in H2. destruct H1 as [la [Hla H1]], H2 as [lb [Hlb H2]].
    exists la, lb. split; [exact Hla|]. split; [exact Hlb|]. exists w. auto.
  - intros [la [lb [Hla [Hlb [w [H1 H2]]]]]]. exists w. split; apply inG_iff; eauto.
Qed.

Lemma in_mleaf {X} (f : geom -> list X) g l x :
  (forall c gs, f (GColl c gs) = flat_map f gs) -> (forall g, f (as_multi g) = f g) ->
  In l (mleaves g) -> In x (f l) -> In x (f g).
Proof.
  intros Hf Hm Hl Hx. apply in_map_iff in Hl. destruct Hl as [l0 [<- Hl]]. rewrite Hm in Hx.
  rewrite (flat_leaves f Hf g). apply in_flat_map. eauto.
Qed.
Lemma g_polys_mleaf g l y : In l (mleaves g) -> In y (g_polys l) -> In y (g_polys g).
Proof. apply in_mleaf; [reflexivity | exact g_polys_as_multi]. Qed.
Lemma g_lines_mleaf g l x : In l (mleaves g) -> In x (g_lines l) -> In x (g_lines g).
Proof. apply in_mleaf; [reflexivity | exact g_lines_as_multi]. Qed.

Lemma rings_closed_mleaf g l : rings_closed g = true -> In l (mleaves g) -> rings_closed l = true.
Proof.
  unfold rings_closed. rewrite !forallb_forall. intros H Hl y Hy. apply H. eapply g_polys_mleaf; eauto.
Qed.
Lemma lines_wf_mleaf g l : lines_wf g = true -> In l (mleaves g) -> lines_wf l = true.
Proof.
  unfold lines_wf. rewrite !forallb_forall. intros H Hl x Hx. apply H. eapply g_lines_mleaf; eauto.
Qed.
Lemma no_polys_mleaf g l : no_polys g = true -> In l (mleaves g) -> no_polys l = true.
Proof.
  unfold no_polys. intros H Hl. destruct (g_polys l) as [|y ys] eqn:E; [reflexivity|]. exfalso.
  pose proof (g_polys_mleaf g l y Hl) as X. rewrite E in X. specialize (X (or_introl eq_refl)).
  destruct (g_polys g); [destruct X | discriminate].
Qed.

Lemma ix_flat_sound g1 g2 :
  is_multi g1 -> is_multi g2 -> rings_closed g1 = true -> rings_closed g2 = true ->
  ix_flat g1 g2 = true -> common g1 g2.
Proof.
  destruct g1 as [p|l|y|c a|c a|c a|c gs], g2 as [p'|l'|y'|c' b|c' b|c' b|c' gs'];
    cbn [is_multi]; try contradiction; intros _ _ C1 C2 H.
  - exact (ix_mpoint_mpoint_sound a b H).
  - exact (ix_mpoint_mline_sound a b H).
  - exact (ix_mpoint_mpoly_sound a b C2 H).
  - apply common_sym. exact (ix_mpoint_mline_sound b a H).
  - exact (ix_mline_mline_sound a b H).
  - exact (ix_mline_mpoly_sound a b C2 H).
  - apply common_sym. exact (ix_mpoint_mpoly_sound b a C1 H).
  - apply common_sym. exact (ix_mline_mpoly_sound b a C1 H).
  - exact (ix_mpoly_mpoly_sound a b C1 C2 H).
Qed.

Lemma intersects_sound a b :
  rings_closed a = true -> rings_closed b = true -> intersects a b = true -> common a b.
Proof.
  intros Ca Cb H. apply intersects_iff in H. destruct H as [la [lb [Hla [Hlb H]]]].
  apply common_iff. exists la, lb. split; [exact Hla|]. split; [exact Hlb|].
  apply ix_flat_sound; eauto using mleaves_multi, rings_closed_mleaf.
Qed.

Lemma ix_flat_complete g1 g2 w :
  is_multi g1 -> is_multi g2 -> no_polys g1 = true -> no_polys g2 = true ->
  lines_wf g1 = true -> lines_wf g2 = true -> inG g1 w = true -> inG g2 w = true -> ix_flat g1 g2 = true.
Proof.
  destruct g1 as [p|l|y|c a|c a|c a|c gs], g2 as [p'|l'|y'|c' b|c' b|c' b|c' gs'];
    cbn [is_multi]; try contradiction; intros _ _ N1 N2 W1 W2 H1 H2;
    try (destruct a; discriminate); try (destruct b; discriminate).
  - exact (ix_mpoint_mpoint_complete a b w H1 H2).
  - exact (ix_mpoint_mline_complete a b w W2 H1 H2).
  - exact (ix_mpoint_mline_complete b a w W1 H2 H1).
  - exact (ix_mline_mline_complete a b w W1 W2 H1 H2).
Qed.

Lemma intersects_complete_of a b w :
  (forall la lb, In la (mleaves a) -> In lb (mleaves b) -> inG la w = true -> inG lb w = true -> ix_flat la lb = true) ->
  inG a w = true -> inG b w = true -> intersects a b = true.
Proof.
  intros K H1 H2. apply inG_iff in H1. apply inG_iff in H2. destruct H1 as [la [Hla H1]], H2 as [lb [Hlb H2]].
  apply intersects_iff. exists la, lb. auto.
Qed.

(* Intersects(a, b) = false implies the point sets are disjoint, for puntal / lineal operands *)
Lemma intersects_complete_lineal a b w :
  no_polys a = true -> no_polys b = true -> lines_wf a = true -> lines_wf b = true ->
  inG a w = true -> inG b w = true -> intersects a b = true.
Proof.
  intros N1 N2 W1 W2. apply intersects_complete_of. intros la lb Hla Hlb.
  apply ix_flat_complete; eauto using mleaves_multi, no_polys_mleaf, lines_wf_mleaf.
Qed.

(* ================================================================ empty operands *)
Lemma forallb_false_of {A} (f : A -> bool) l x : In x l -> f x = false -> forallb f l = false.
Proof.
  intros Hx Hf. destruct (forallb f l) eqn:E; [|reflexivity]. rewrite forallb_forall in E. rewrite (E x Hx) in Hf. discriminate.
Qed.

Lemma mpoint_nonempty mp p a : In p mp -> point_xy p = Some a -> forallb point_empty mp = false.
Proof.
  intros Hp E. apply (forallb_false_of _ _ p Hp). unfold point_xy in E. unfold point_empty.
  destruct (point_c p); [reflexivity | discriminate].
Qed.
Lemma ls_lines_nonempty l s : In s (ls_lines l) -> line_empty l = false.
Proof.
  unfold ls_lines, line_pts, line_empty. destruct (line_vs l); [intros []| reflexivity].
Qed.
Lemma mls_lines_nonempty ls s : In s (mls_lines ls) -> forallb line_empty ls = false.
Proof.
  intros H. apply in_flat_map in H. destruct H as [l [Hl H]].
  exact (forallb_false_of _ _ l Hl (ls_lines_nonempty l s H)).
Qed.
Lemma mline_start_nonempty ls l a : In l ls -> start_xy l = Some a -> forallb line_empty ls = false.
Proof.
  intros Hl E. apply (forallb_false_of _ _ l Hl). unfold start_xy, line_pts in E. unfold line_empty.
  destruct (line_vs l); [discriminate | reflexivity].
Qed.
Lemma poly_lines_nonempty y s : In s (poly_lines y) -> poly_empty y = false.
Proof.
  unfold poly_lines, poly_empty. destruct (poly_rings y); [intros [] | reflexivity].
Qed.
Lemma mpoly_lines_nonempty ys s : In s (mpoly_lines ys) -> forallb poly_empty ys = false.
Proof.
  intros H. apply in_flat_map in H. destruct H as [y [Hy H]].
  exact (forallb_false_of _ _ y Hy (poly_lines_nonempty y s H)).
Qed.
Lemma ix_optxy_polygon_nonempty o y : ix_optxy_polygon o y = true -> poly_empty y = false /\ exists a, o = Some a.
Proof.
  destruct o as [a|]; [|discriminate]. unfold ix_optxy_polygon, ix_xy_polygon, poly_empty.
  destruct (poly_rings y); [discriminate|]. intros _. split; [reflexivity | eauto].
Qed.
Lemma ix_optxy_mpoly_nonempty o ys : ix_optxy_mpoly o ys = true -> forallb poly_empty ys = false /\ exists a, o = Some a.
Proof.
  intros H. apply existsb_exists in H. destruct H as [y [Hy H]].
  apply ix_optxy_polygon_nonempty in H. destruct H as [N E]. split; [exact (forallb_false_of _ _ y Hy N) | exact E].
Qed.
Lemma hibl_nonempty l1 l2 : has_intersection_between_lines l1 l2 = true -> exists s t, In s l1 /\ In t l2.
Proof.
  unfold has_intersection_between_lines. destruct (Nat.ltb (length l2) (length l1)); intros H;
    apply existsb_exists in H; destruct H as [x [Hx H]]; apply existsb_exists in H; destruct H as [y [Hy _]]; eauto.
Qed.

Lemma ix_mpoint_mpoint_nonempty a b :
  ix_mpoint_mpoint a b = true -> forallb point_empty a = false /\ forallb point_empty b = false.
Proof.
  unfold ix_mpoint_mpoint. intros H. apply existsb_exists in H. destruct H as [q2 [Hq2 H]].
  destruct (point_xy q2) eqn:E2; [|discriminate]. apply existsb_exists in H. destruct H as [q1 [Hq1 H]].
  destruct (point_xy q1) eqn:E1; [|discriminate]. split; eapply mpoint_nonempty; eassumption.
Qed.
Lemma ix_mpoint_mline_nonempty a b :
  ix_mpoint_mline a b = true -> forallb point_empty a = false /\ forallb line_empty b = false.
Proof.
  unfold ix_mpoint_mline. intros H. apply existsb_exists in H. destruct H as [q [Hq H]].
  destruct (point_xy q) eqn:E; [|discriminate]. apply existsb_exists in H. destruct H as [l [Hl H]].
  apply existsb_exists in H. destruct H as [s [Hs _]].
  split; [eapply mpoint_nonempty; eassumption | exact (forallb_false_of _ _ l Hl (ls_lines_nonempty l s Hs))].
Qed.
Lemma ix_mpoint_mpoly_nonempty a b :
  ix_mpoint_mpoly a b = true -> forallb point_empty a = false /\ forallb poly_empty b = false.
Proof.
  unfold ix_mpoint_mpoly, ix_point_mpoly. intros H. apply existsb_exists in H. destruct H as [q [Hq H]].
  apply ix_optxy_mpoly_nonempty in H. destruct H as [N [x E]]. split; [eapply mpoint_nonempty; eassumption | exact N].
Qed.
Lemma ix_mline_mline_nonempty a b :
  ix_mline_mline a b = true -> forallb line_empty a = false /\ forallb line_empty b = false.
Proof.
  intros H. apply hibl_nonempty in H. destruct H as [s [t [Hs Ht]]]. split; eapply mls_lines_nonempty; eassumption.
Qed.
Lemma ix_mline_mpoly_nonempty a b :
  ix_mline_mpoly a b = true -> forallb line_empty a = false /\ forallb poly_empty b = false.
Proof.
  unfold ix_mline_mpoly. destruct (has_intersection_between_lines (mls_lines a) (mpoly_lines b)) eqn:E; intros H.
  - apply hibl_nonempty in E. destruct E as [s [t [Hs Ht]]].
    split; [eapply mls_lines_nonempty | eapply mpoly_lines_nonempty]; eassumption.
  - apply existsb_exists in H. destruct H as [l [Hl H]].
    apply ix_optxy_mpoly_nonempty in H. destruct H as [N [x E']]. split; [eapply mline_start_nonempty; eassumption | exact N].
Qed.
Lemma ix_polygon_polygon_nonempty y1 y2 : ix_polygon_polygon y1 y2 = true -> poly_empty y1 = false /\ poly_empty y2 = false.
Proof.
  assert (Ext : forall y a, start_xy (exterior_ring y) = Some a -> poly_empty y = false).
  { intros y a. unfold exterior_ring, start_xy, poly_empty. destruct (poly_rings y); [discriminate | reflexivity]. }
  unfold ix_polygon_polygon. destruct (has_intersection_between_lines (poly_lines y1) (poly_lines y2)) eqn:E; intros H.
  - apply hibl_nonempty in E. destruct E as [s [t [Hs Ht]]]. split; eapply poly_lines_nonempty; eassumption.
  - apply orb_true_iff in H. destruct H as [H|H]; apply ix_optxy_polygon_nonempty in H; destruct H as [N [a E']].
    + split; [exact (Ext y1 a E') | exact N].
    + split; [exact N | exact (Ext y2 a E')].
Qed.
Lemma ix_mpoly_mpoly_nonempty a b :
  ix_mpoly_mpoly a b = true -> forallb poly_empty a = false /\ forallb poly_empty b = false.
Proof.
  unfold ix_mpoly_mpoly. intros H. apply existsb_exists in H. destruct H as [y1 [Hy1 H]].
  apply existsb_exists in H. destruct H as [y2 [Hy2 H]]. apply ix_polygon_polygon_nonempty in H. destruct H as [N1 N2].
  split; eapply forallb_false_of; eassumption.
Qed.

Lemma ix_flat_nonempty g1 g2 : ix_flat g1 g2 = true -> is_empty g1 = false /\ is_empty g2 = false.
Proof.
  assert (M : forall g1 g2, is_multi g1 -> is_multi g2 -> ix_flat g1 g2 = true -> is_empty g1 = false /\ is_empty g2 = false).
  { clear. intros [p|l|y|c a|c a|c a|c gs] [p'|l'|y'|c' b|c' b|c' b|c' gs']; cbn [is_multi]; try contradiction; intros _ _ H.
    - exact (ix_mpoint_mpoint_nonempty a b H).
    - exact (ix_mpoint_mline_nonempty a b H).
    - exact (ix_mpoint_mpoly_nonempty a b H).
    - apply and_comm. exact (ix_mpoint_mline_nonempty b a H).
    - exact (ix_mline_mline_nonempty a b H).
    - exact (ix_mline_mpoly_nonempty a b H).
    - apply and_comm. exact (ix_mpoint_mpoly_nonempty b a H).
    - apply and_comm. exact (ix_mline_mpoly_nonempty b a H).
    - exact (ix_mpoly_mpoly_nonempty a b H). }
  rewrite ix_flat_as_multi, <- (is_empty_as_multi g1), <- (is_empty_as_multi g2).
  destruct g1, g2; try discriminate; apply M; exact I.
Qed.

Lemma is_empty_leaves g : is_empty g = forallb (@is_empty Q) (leaves g).
Proof.
  induction g using geomT_ind'; try (cbn [leaves forallb]; rewrite andb_true_r; reflexivity).
  cbn [is_empty leaves]. rewrite forallb_flat_map. apply forallb_ext_in, Forall_forall, H.
Qed.

Lemma intersects_nonempty a b : intersects a b = true -> is_empty a = false /\ is_empty b = false.
Proof.
  rewrite intersects_leaves. intros H. apply existsb_exists in H. destruct H as [la [Hla H]].
  apply existsb_exists in H. destruct H as [lb [Hlb H]]. apply ix_flat_nonempty in H. destruct H as [H1 H2].
  rewrite (is_empty_leaves a), (is_empty_leaves b). split; eapply forallb_false_of; eauto.
Qed.

Lemma intersects_empty a b : is_empty a = true \/ is_empty b = true -> intersects a b = false.
Proof.
  intros H. destruct (intersects a b) eqn:E; [|reflexivity]. apply intersects_nonempty in E.
  destruct E as [E1 E2]. destruct H as [H|H]; congruence.
Qed.

(* ================================================================ the final panic is unreachable *)
Lemma ix_flat_o_no_panic g1 g2 :
  (forall c gs, g1 <> GColl c gs) -> (forall c gs, g2 <> GColl c gs) -> ix_flat_o g1 g2 <> OPanic.
Proof.
  intros G1 G2.
  destruct g1 as [p|l|y|c mp|c ls|c ys|c gs]; try (exfalso; eapply G1; reflexivity);
  destruct g2 as [p'|l'|y'|c' mp'|c' ls'|c' ys'|c' gs']; try (exfalso; eapply G2; reflexivity);
  unfold ix_flat_o; cbn [rank Nat.ltb Nat.leb ix_switch]; discriminate.
Qed.

Lemma intersects_never_panics a b : intersects_panics a b = false.
Proof.
  unfold intersects_panics. destruct (existsb _ (leaves a)) eqn:E; [|reflexivity]. exfalso.
  apply existsb_exists in E. destruct E as [la [Hla E]]. apply existsb_exists in E. destruct E as [lb [Hlb E]].
  pose proof (ix_flat_o_no_panic la lb (leaves_not_coll a la Hla) (leaves_not_coll b lb Hlb)) as N.
  destruct (ix_flat_o la lb); [discriminate | congruence].
Qed.
