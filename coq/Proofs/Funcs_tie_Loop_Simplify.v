(* Translator tie (DESIGN.md A.8b, A.10), property C17: geom/alg_simplify.go:perpendicularDistance - the distance
   Ramer-Douglas-Peucker compares with the threshold - as re-read from the Go source into Gen/FuncsLoop.v on
   every run, against Model/TrSimplify.v:pd2 (the SQUARED distance the Simplify theorems are about).
   The Go function takes two square roots (XY.Length of b-a for the unit vector, XY.Length of the
   perpendicular component); the lemma is for EVERY root function sq with sq x * sq x == x on x >= 0 and
   says that the square of Go's result is pd2, for all points (a = b included: distance to a).
   An edited body (another projection, a dropped term, another degenerate-case test) makes this file
   fail to compile. *)
From Coq Require Import String ZArith QArith List Bool Lia Field Lqa.
From SF Require Import Base.FOps Base.FLoop Gen.FuncsLoop Proofs.Funcs_tie_lib Proofs.Funcs_tie_Loop_lib
  Base.GeomAST Model.TrCommon Model.TrSimplify.
Import ListNotations.
Open Scope Q_scope.

Definition gq (v : qv) : geom_XY Q := Mk_geom_XY (vx v) (vy v).

Lemma sum_sq_nonneg (x y : Q) : 0 <= x * x + y * y.
Proof. nra. Qed.

(* Lagrange's identity with the norm of (u, v) given as L*L *)
Lemma perp_alg (s t u v L : Q) : L * L == u * u + v * v -> ~ L == 0 ->
  (s - u * (1 / L) * (s * (u * (1 / L)) + t * (v * (1 / L)))) * (s - u * (1 / L) * (s * (u * (1 / L)) + t * (v * (1 / L))))
  + (t - v * (1 / L) * (s * (u * (1 / L)) + t * (v * (1 / L)))) * (t - v * (1 / L) * (s * (u * (1 / L)) + t * (v * (1 / L))))
  == (u * t - v * s) * (u * t - v * s) / (u * u + v * v).
Proof.
  intros H HL.
  assert (HN : ~ u * u + v * v == 0).
  { intro E. rewrite <- H in E. apply HL. nra. }
  assert (E : (s - u * (1 / L) * (s * (u * (1 / L)) + t * (v * (1 / L)))) * (s - u * (1 / L) * (s * (u * (1 / L)) + t * (v * (1 / L))))
            + (t - v * (1 / L) * (s * (u * (1 / L)) + t * (v * (1 / L)))) * (t - v * (1 / L) * (s * (u * (1 / L)) + t * (v * (1 / L))))
            == (u * t - v * s) * (u * t - v * s) / (u * u + v * v)
               + (s * u + t * v) * (s * u + t * v) * ((u * u + v * v) - L * L) * ((u * u + v * v) - L * L)
                 / (L * L * (L * L) * (u * u + v * v))).
  { field. split; assumption. }
  rewrite E. rewrite <- H.
  setoid_replace (L * L - L * L) with 0 by ring.
  field. exact HL.
Qed.

Section WithRoot.
  Variables (sq : Q -> Q) (hy : Q -> Q -> Q).
  Hypothesis hy_sq : forall x y, hy x y = sq (x * x + y * y).
  Hypothesis sq_sq : forall x, 0 <= x -> sq x * sq x == x.
  Local Notation rops := (qops_with sq hy).

  Lemma sq_zero_iff x : 0 <= x -> sq x == 0 -> x == 0.
  Proof. intros Hx E. rewrite <- (sq_sq x Hx). rewrite E. ring. Qed.

  Lemma tie_perpendicularDistance : forall p a b : qv,
    geom_perpendicularDistance rops (gq p) (gq a) (gq b) * geom_perpendicularDistance rops (gq p) (gq a) (gq b)
    == pd2 a b p.
  Proof.
    intros p a b. unfold geom_perpendicularDistance, pd2.
    change (geom_XY_eqb rops (gq a) (gq b)) with (xy_eqb a b).
    destruct (xy_eqb a b) eqn:Eab.
    - unfold geom_XY_Length, geom_XY_Sub, gq, d2. cbn. rewrite hy_sq. apply sq_sq. apply sum_sq_nonneg.
    - cbv zeta. unfold geom_XY_Length, geom_XY_Sub, geom_XY_Scale, geom_XY_Dot, gq, d2, cross3. cbn.
      rewrite !hy_sq.
      set (u := vx b - vx a). set (v := vy b - vy a). set (s := vx a - vx p). set (t := vy a - vy p).
      set (L := sq (u * u + v * v)).
      rewrite sq_sq by apply sum_sq_nonneg.
      assert (HLL : L * L == u * u + v * v) by (apply sq_sq; apply sum_sq_nonneg).
      assert (HL : ~ L == 0).
      { intro E. apply sq_zero_iff in E; [|apply sum_sq_nonneg].
        assert (Hu : u == 0) by nra. assert (Hv : v == 0) by nra.
        unfold xy_eqb in Eab. apply andb_false_iff in Eab.
        destruct Eab as [Eab|Eab]; apply not_true_iff_false in Eab; apply Eab; apply Qeq_bool_iff; unfold u, v in *; lra. }
      rewrite (perp_alg s t u v L HLL HL).
      unfold u, v, s, t. field.
      intro E. apply HL. fold u v in E. rewrite <- HLL in E. nra.
  Qed.
End WithRoot.
