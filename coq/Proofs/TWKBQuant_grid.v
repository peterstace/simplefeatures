(* Theorems about the quantisation layer (Model/TWKBQuant.v), in exact arithmetic.
   Model/TWKBQuant.v mirrors the Go code operation by operation: every float operation is the
   exact rational result followed by [rne], round-to-nearest-even to binary64, defined on integers.
   Here: (A) what rne computes, in Z: the scaled value lies in [2^52, 2^53), the mantissa is a
   nearest integer to it (half-ulp bound), hence (B) in Q: relative error <= 2^-53 for every
   result in the normal range; (C) math.Round is within 1/2 and is the unique integer strictly
   within 1/2; (1) quant_spec_lemma: the writer's integer is within 1/2 + 2^-53 |x 10^p| of x * 10^p;
   (2) quant_dequant_lemma: re-encoding a decoded value is stable for |k| < 2^40 and every admissible
   precision ("exactly g when g already lies on the grid"); (3) dequant_spec_lemma: the decoded double
   is k / 10^p up to one rounding. No floating-point library and no axioms are used. *)
From Coq Require Import NArith ZArith QArith Qpower Bool Lia Lqa Psatz.
From SF Require Import Base.Outcome Base.GeomAST Base.Varint Model.TWKB Model.TWKBQuant.

Local Open Scope Z_scope.

(* the result of rne before the overflow test *)
Definition rne_exp (n d : Z) : Z :=
  let e1 := Z.log2 n - Z.log2 d - 52 in
  let '(n1, d1) := scaled n d e1 in
  Z.max (if p52 <=? n1 / d1 then e1 else e1 - 1) (-1074).
Definition rne_core (n d : Z) : Z * Z :=
  let e := rne_exp n d in
  let '(n2, d2) := scaled n d e in
  let q := n2 / d2 in
  let r := n2 mod d2 in
  let q' := if (d2 <? 2 * r) || ((d2 =? 2 * r) && Z.odd q) then q + 1 else q in
  if q' =? p53 then (p52, e + 1) else (q', e).

Lemma rne_unfold n d :
  rne n d = let '(m, e') := rne_core n d in if 971 <? e' then None else Some (m, e').
Proof.
  unfold rne, rne_core, rne_exp. cbv zeta.
  destruct (scaled n d (Z.log2 n - Z.log2 d - 52)) as [n1 d1].
  destruct (scaled n d _) as [n2 d2]. reflexivity.
Qed.

(* n/d * 2^e as a fraction of integers; [scaled], [dy_mul] and [dy_div] are instances *)
Definition shift_frac (n d e : Z) : Z * Z :=
  if 0 <=? e then (n * 2 ^ e, d) else (n, d * 2 ^ (- e)).

Lemma shift_frac_pos n d e :
  0 < n -> 0 < d -> 0 < fst (shift_frac n d e) /\ 0 < snd (shift_frac n d e).
Proof.
  intros Hn Hd. unfold shift_frac. destruct (Z.leb_spec 0 e); cbn [fst snd].
  - assert (0 < 2 ^ e) by (apply Z.pow_pos_nonneg; lia). nia.
  - assert (0 < 2 ^ (- e)) by (apply Z.pow_pos_nonneg; lia). nia.
Qed.

Lemma scaled_shift n d e : scaled n d e = shift_frac n d (- e).
Proof.
  unfold scaled, shift_frac. destruct e; cbn [Z.opp Z.leb Z.compare].
  - rewrite !Z.mul_1_r. reflexivity.
  - reflexivity.
  - reflexivity.
Qed.

Lemma scaled_pos n d e : 0 < n -> 0 < d -> 0 < fst (scaled n d e) /\ 0 < snd (scaled n d e).
Proof. rewrite scaled_shift. apply shift_frac_pos. Qed.

(* lowering the exponent by one doubles the scaled value *)
Lemma scaled_double n d e :
  fst (scaled n d (e - 1)) * snd (scaled n d e) = 2 * fst (scaled n d e) * snd (scaled n d (e - 1)).
Proof.
  unfold scaled. destruct (Z.leb_spec 0 e), (Z.leb_spec 0 (e - 1)); cbn [fst snd]; try lia.
  - replace e with (Z.succ (e - 1)) at 1 by lia. rewrite Z.pow_succ_r by lia. ring.
  - assert (e = 0) by lia. subst e. change (2 ^ (- (0 - 1))) with 2. change (2 ^ 0) with 1. ring.
  - replace (- (e - 1)) with (Z.succ (- e)) by lia. rewrite Z.pow_succ_r by lia. ring.
Qed.


Lemma log2_gap n d k : 0 < n -> 0 < d -> 0 < k -> Z.log2 n = Z.log2 d + k ->
  2 ^ (k - 1) * d < n < 2 ^ (k + 1) * d.
Proof.
  intros Hn Hd Hk E. pose proof (Z.log2_spec n Hn) as [Hn1 Hn2]. pose proof (Z.log2_spec d Hd) as [Hd1 Hd2].
  pose proof (Z.log2_nonneg d) as H0. rewrite E in Hn1, Hn2. set (b := Z.log2 d) in *.
  replace (Z.succ (b + k)) with (k + 1 + b) in Hn2 by lia. replace (b + k) with (k - 1 + Z.succ b) in Hn1 by lia.
  rewrite Z.pow_add_r in Hn1, Hn2 by lia.
  assert (0 < 2 ^ (k - 1)) by (apply Z.pow_pos_nonneg; lia).
  assert (0 < 2 ^ (k + 1)) by (apply Z.pow_pos_nonneg; lia).
  split; nia.
Qed.

(* the first exponent guess puts the scaled value strictly between 2^51 and 2^53 *)
Lemma scaled_guess n d :
  0 < n -> 0 < d ->
  let e1 := Z.log2 n - Z.log2 d - 52 in
  2 ^ 51 * snd (scaled n d e1) < fst (scaled n d e1) < 2 ^ 53 * snd (scaled n d e1).
Proof.
  intros Hn Hd e1. destruct (scaled_pos n d e1 Hn Hd) as [H1 H2].
  apply (log2_gap _ _ 52 H1 H2); [lia|].
  unfold scaled. destruct (Z.leb_spec 0 e1); cbn [fst snd]; rewrite Z.log2_mul_pow2 by lia; unfold e1; lia.
Qed.

(* the test that rne makes on the quotient tells which of n1/d1 and its double n2/d2 lies in [2P, 4P) *)
Lemma exp_choice P n1 d1 n2 d2 :
  0 < d1 -> 0 < d2 -> n2 * d1 = 2 * n1 * d2 -> P * d1 < n1 < 4 * P * d1 ->
  if 2 * P <=? n1 / d1 then 2 * P * d1 <= n1 < 4 * P * d1 else 2 * P * d2 <= n2 < 4 * P * d2.
Proof.
  intros H1 H2 Hdbl Hg.
  pose proof (Z.mul_div_le n1 d1 H1). pose proof (Z.mul_succ_div_gt n1 d1 H1).
  destruct (Z.leb_spec (2 * P) (n1 / d1)).
  - nia.
  - assert (n1 < 2 * P * d1) by nia.
    split; [apply (Z.mul_le_mono_pos_r _ _ d1 H1)|apply (Z.mul_lt_mono_pos_r d1 _ _ H1)]; rewrite Hdbl; nia.
Qed.

(* [Z.log2 d <= Z.log2 n + 1000] keeps the result out of the subnormal range *)
Lemma rne_exp_normal n d :
  0 < n -> 0 < d -> Z.log2 d <= Z.log2 n + 1000 ->
  let e := rne_exp n d in
  -1074 < e /\ e <= Z.log2 n - Z.log2 d - 52 /\
  p52 * snd (scaled n d e) <= fst (scaled n d e) < p53 * snd (scaled n d e).
Proof.
  intros Hn Hd Hlog. unfold rne_exp. cbv zeta.
  set (e1 := Z.log2 n - Z.log2 d - 52).
  pose proof (exp_choice (2 ^ 51) _ _ _ _ (proj2 (scaled_pos n d e1 Hn Hd))
                (proj2 (scaled_pos n d (e1 - 1) Hn Hd)) (scaled_double n d e1) (scaled_guess n d Hn Hd)) as Hc.
  change (2 * 2 ^ 51) with p52 in Hc. change (4 * 2 ^ 51) with p53 in Hc.
  destruct (scaled n d e1) as [n1 d1] eqn:E1. cbn [fst snd] in Hc.
  destruct (p52 <=? n1 / d1); rewrite Z.max_l by lia; [rewrite E1|]; (split; [lia|split; [lia|exact Hc]]).
Qed.


Lemma nearest_spec q r d : 0 <= r < d ->
  let q' := if (d <? 2 * r) || ((d =? 2 * r) && Z.odd q) then q + 1 else q in
  2 * Z.abs (q' * d - (d * q + r)) <= d /\ q <= q' <= q + 1.
Proof.
  intros Hr. cbv zeta. destruct (Z.ltb_spec d (2 * r)); cbn [orb].
  - lia.
  - destruct (Z.eqb_spec d (2 * r)); cbn [andb]; [destruct (Z.odd q)|]; lia.
Qed.

(* what rne computes, in integers: the scaled value lies in [2^52, 2^53), q' is a nearest integer
   to it, and a carry to 2^53 is renormalised *)
Lemma rne_core_spec n d :
  0 < n -> 0 < d -> Z.log2 d <= Z.log2 n + 1000 ->
  let e := rne_exp n d in
  let n2 := fst (scaled n d e) in let d2 := snd (scaled n d e) in
  -1074 < e <= Z.log2 n - Z.log2 d - 52 /\ 0 < d2 /\ p52 * d2 <= n2 < p53 * d2 /\
  exists q', 2 * Z.abs (q' * d2 - n2) <= d2 /\ p52 <= q' <= p53 /\
             rne_core n d = (if q' =? p53 then (p52, e + 1) else (q', e)).
Proof.
  intros Hn Hd Hlog. cbv zeta.
  destruct (rne_exp_normal n d Hn Hd Hlog) as [He [Hup [Hb1 Hb2]]].
  pose proof (scaled_pos n d (rne_exp n d) Hn Hd) as [_ Hp2].
  split; [split; assumption|split; [exact Hp2|split; [split; assumption|]]].
  unfold rne_core. cbv zeta.
  destruct (scaled n d (rne_exp n d)) as [n2 d2]. cbn [fst snd] in *.
  destruct (nearest_spec (n2 / d2) (n2 mod d2) d2 (Z.mod_pos_bound n2 d2 Hp2)) as [Hr Hq].
  rewrite <- Z.div_mod in Hr by lia.
  pose proof (Z.div_le_lower_bound n2 d2 p52 Hp2 ltac:(lia)).
  pose proof (Z.div_lt_upper_bound n2 d2 p53 Hp2 ltac:(lia)).
  eexists. split; [exact Hr|split; [lia|reflexivity]].
Qed.

Lemma log2_lower n d : 0 < n -> d <= n * 2 ^ 1000 -> Z.log2 d <= Z.log2 n + 1000.
Proof. intros Hn H. apply Z.log2_le_mono in H. rewrite Z.log2_mul_pow2 in H; lia. Qed.

Local Open Scope Q_scope.

Definition tp (e : Z) : Q := (2 # 1) ^ e.
Definition dval (m e : Z) : Q := inject_Z m * tp e.
Definition qfrac (n d : Z) : Q := inject_Z n / inject_Z d.
Definition eps53 : Q := 1 # 9007199254740992.

Lemma tp_pos e : 0 < tp e.
Proof. unfold tp. apply Qpower_0_lt. reflexivity. Qed.
Lemma tp_nonneg_Z e : (0 <= e)%Z -> inject_Z (2 ^ e) == tp e.
Proof. intros H. unfold tp. rewrite Zpower_Qpower by exact H. reflexivity. Qed.
Lemma tp_neg e : tp (- e) == / tp e.
Proof. unfold tp. apply Qpower_opp. Qed.
Lemma tp_succ e : tp (e + 1) == 2 * tp e.
Proof. unfold tp. rewrite Qpower_plus by discriminate. change ((2#1)^1) with (2#1). ring. Qed.
Lemma tp_0 : tp 0 == 1. Proof. reflexivity. Qed.
Lemma tp_add a b : tp (a + b) == tp a * tp b.
Proof. unfold tp. apply Qpower_plus. discriminate. Qed.
Lemma tp_mono a b : (a <= b)%Z -> tp a <= tp b.
Proof. intros H. unfold tp. apply Qpower_le_compat_l; [exact H|]. discriminate. Qed.
Lemma tp_lt_inv a b : tp a < tp b -> (a < b)%Z.
Proof. unfold tp. intros H. apply (Qpower_lt_compat_l_inv (2 # 1)); [exact H|reflexivity]. Qed.
Lemma inject_pos z : (0 < z)%Z -> 0 < inject_Z z.
Proof. intros H. change 0 with (inject_Z 0). rewrite <- Zlt_Qlt. exact H. Qed.

Lemma inject_Z_bounds a z b : (a <= z <= b)%Z -> a # 1 <= inject_Z z <= b # 1.
Proof. change (a # 1) with (inject_Z a). change (b # 1) with (inject_Z b). rewrite <- !Zle_Qle. exact (fun H => H). Qed.

Lemma shift_frac_Q n d e : (0 < d)%Z ->
  qfrac (fst (shift_frac n d e)) (snd (shift_frac n d e)) == qfrac n d * tp e.
Proof.
  intros Hd. unfold shift_frac, qfrac. pose proof (tp_pos e) as Ht. pose proof (inject_pos d Hd) as HD.
  destruct (Z.leb_spec 0 e); cbn [fst snd]; rewrite inject_Z_mult, tp_nonneg_Z by lia.
  - field. lra.
  - rewrite tp_neg. field. split; lra.
Qed.

Lemma scaled_Q n d e : (0 < d)%Z ->
  qfrac n d == qfrac (fst (scaled n d e)) (snd (scaled n d e)) * tp e.
Proof.
  intros Hd. rewrite scaled_shift, shift_frac_Q, tp_neg by exact Hd. pose proof (tp_pos e). field. lra.
Qed.


Lemma near_Q q n d : (0 < d)%Z -> (2 * Z.abs (q * d - n) <= d)%Z ->
  - (1 # 2) <= inject_Z q - qfrac n d <= 1 # 2.
Proof.
  intros Hd H. pose proof (inject_pos d Hd) as HD.
  assert (E : inject_Z (q * d - n) == (inject_Z q - qfrac n d) * inject_Z d).
  { unfold qfrac, Z.sub. rewrite inject_Z_plus, inject_Z_mult, inject_Z_opp. field. lra. }
  assert (H1 : (- d <= 2 * (q * d - n))%Z) by lia. assert (H2 : (2 * (q * d - n) <= d)%Z) by lia.
  rewrite Zle_Qle in H1, H2. rewrite inject_Z_mult, E in H1, H2. rewrite inject_Z_opp in H1.
  change (inject_Z 2) with 2 in *. split; nra.
Qed.

(* relative error of one correctly rounded operation: 2^-53 *)
Lemma rne_core_Q n d m e :
  (0 < n)%Z -> (0 < d)%Z -> (d <= n * 2 ^ 1000)%Z -> rne_core n d = (m, e) ->
  - (qfrac n d * eps53) <= dval m e - qfrac n d <= qfrac n d * eps53 /\
  (p52 <= m < p53)%Z /\ tp 52 * tp e <= qfrac n d * (1 + eps53) /\ (-1074 < e)%Z.
Proof.
  intros Hn Hd Hnd Hc. apply (log2_lower n d Hn) in Hnd.
  destruct (rne_core_spec n d Hn Hd Hnd) as [[He0 _] [Hd2 [[Hb _] [q' [Hr [Hq Hcore]]]]]].
  pose proof (scaled_Q n d (rne_exp n d) Hd) as Hx.
  set (e0 := rne_exp n d) in *. set (n2 := fst (scaled n d e0)) in *. set (d2 := snd (scaled n d e0)) in *.
  pose proof (tp_pos e0) as HT. pose proof (tp_pos e) as HTe. pose proof (inject_pos d2 Hd2) as HD2.
  (* x = n2/d2 = t / 2^e0, 2^52 <= x, |q' - x| <= 1/2 *)
  assert (Hx52 : 4503599627370496 <= qfrac n2 d2).
  { apply Qle_shift_div_l; [exact HD2|]. change 4503599627370496 with (inject_Z p52).
    rewrite <- inject_Z_mult, <- Zle_Qle. exact Hb. }
  destruct (near_Q q' n2 d2 Hd2 Hr) as [Hlo Hup].
  (* the result is q' 2^e0, also after a carry *)
  assert (Hv : dval m e == inject_Z q' * tp e0 /\ (p52 <= m < p53)%Z /\ (e0 <= e)%Z).
  { rewrite Hc in Hcore. destruct (Z.eqb_spec q' p53) as [E|E]; inversion Hcore; subst.
    - split; [|split; [unfold p52, p53; lia|lia]].
      unfold dval. rewrite tp_succ. change (inject_Z p53) with (2 * inject_Z p52). ring.
    - split; [reflexivity|split; lia]. }
  destruct Hv as [Hv [Hm He]].
  assert (Herr : - (qfrac n d * eps53) <= dval m e - qfrac n d <= qfrac n d * eps53).
  { rewrite Hv, Hx. unfold eps53. split; nra. }
  split; [exact Herr|split; [exact Hm|split; [|lia]]].
  (* 2^52 2^e <= m 2^e <= t (1 + eps) *)
  assert (Hme : inject_Z p52 * tp e <= dval m e) by (apply Qmult_le_compat_r; [rewrite <- Zle_Qle; lia|lra]).
  change (inject_Z p52) with (tp 52) in Hme. unfold eps53 in *. lra.
Qed.

Lemma dval_pos m e : (0 < m)%Z -> 0 < dval m e.
Proof. intros H. unfold dval. pose proof (tp_pos e). pose proof (inject_pos m H). nra. Qed.


Definition is_frac (nd : Z * Z) (v : Q) : Prop :=
  (0 < fst nd)%Z /\ (0 < snd nd)%Z /\ qfrac (fst nd) (snd nd) == v.

Lemma is_frac_eq nd v w : is_frac nd v -> v == w -> is_frac nd w.
Proof. intros [Hn [Hd Hv]] E. split; [exact Hn|split; [exact Hd|rewrite Hv; exact E]]. Qed.

Lemma dy_mul_Q a b : (0 < fst a)%Z -> (0 < fst b)%Z ->
  is_frac (dy_mul a b) (dval (fst a) (snd a) * dval (fst b) (snd b)).
Proof.
  intros Ha Hb.
  assert (E : dy_mul a b = shift_frac (fst a * fst b) 1 (snd a + snd b)).
  { unfold dy_mul, shift_frac. cbv zeta. rewrite Z.mul_1_l. reflexivity. }
  rewrite E. split; [apply shift_frac_pos; lia|split; [apply shift_frac_pos; lia|]].
  rewrite shift_frac_Q by lia. unfold qfrac, dval. rewrite inject_Z_mult, tp_add. change (inject_Z 1) with 1. field.
Qed.

Lemma dy_div_Q a b : (0 < fst a)%Z -> (0 < fst b)%Z ->
  is_frac (dy_div a b) (dval (fst a) (snd a) / dval (fst b) (snd b)).
Proof.
  intros Ha Hb. change (dy_div a b) with (shift_frac (fst a) (fst b) (snd a - snd b)).
  split; [apply shift_frac_pos; assumption|split; [apply shift_frac_pos; assumption|]].
  rewrite shift_frac_Q by exact Hb. unfold qfrac, dval, Z.sub. rewrite tp_add, tp_neg.
  pose proof (tp_pos (snd b)). pose proof (inject_pos _ Hb). field. split; lra.
Qed.

(* math.Round on a positive dyadic: within 1/2, and the only integer strictly within 1/2 *)
Lemma rha_Q m e :
  - (1 # 2) <= inject_Z (round_half_away m e) - dval m e <= 1 # 2.
Proof.
  unfold round_half_away, dval. destruct (Z.leb_spec 0 e); cbv zeta.
  - rewrite inject_Z_mult, tp_nonneg_Z by assumption. split; lra.
  - assert (HD : (0 < 2 ^ (- e))%Z) by (apply Z.pow_pos_nonneg; lia).
    assert (E : inject_Z m * tp e == qfrac m (2 ^ (- e))).
    { unfold qfrac. rewrite tp_nonneg_Z by lia. rewrite tp_neg. pose proof (tp_pos e). field. lra. }
    rewrite E. apply near_Q; [exact HD|].
    pose proof (Z.div_mod m (2 ^ (- e)) ltac:(lia)). pose proof (Z.mod_pos_bound m (2 ^ (- e)) HD).
    destruct (Z.leb_spec (2 ^ (- e)) (2 * (m mod 2 ^ (- e)))); lia.
Qed.

Lemma inject_Z_near a b : inject_Z a - inject_Z b < 1 -> inject_Z b - inject_Z a < 1 -> a = b.
Proof.
  unfold Qminus. rewrite <- !inject_Z_opp, <- !inject_Z_plus. change 1 with (inject_Z 1).
  rewrite <- !Zlt_Qlt. lia.
Qed.

Lemma rha_unique m e K : (0 < m)%Z ->
  - (1 # 2) < dval m e - inject_Z K < 1 # 2 -> round_half_away m e = K.
Proof. intros Hm HK. pose proof (rha_Q m e). apply inject_Z_near; lra. Qed.

Definition scaleQ (p : Z) : Q := (10 # 1) ^ p.
Lemma scaleQ_pos p : 0 < scaleQ p.
Proof. unfold scaleQ. apply Qpower_0_lt. reflexivity. Qed.

Lemma pow10abs_pos p : (0 < fst (pow10abs p))%Z.
Proof. unfold pow10abs. cbn [fst]. apply Z.pow_pos_nonneg; lia. Qed.
Lemma pow10abs_Q p : dval (fst (pow10abs p)) (snd (pow10abs p)) == (10 # 1) ^ Z.abs p.
Proof.
  unfold pow10abs, dval. cbn [fst snd]. rewrite tp_0. rewrite Zpower_Qpower by lia.
  change (inject_Z 10) with (10 # 1). ring.
Qed.

(* a rational that is at least 2^-1000 is in the range where rne does not go subnormal *)
Lemma frac_lower n d : (0 < d)%Z -> tp (-1000) <= qfrac n d -> (d <= n * 2 ^ 1000)%Z.
Proof.
  intros Hd H. rewrite Zle_Qle, inject_Z_mult, tp_nonneg_Z by lia.
  pose proof (tp_pos 1000) as HT. pose proof (inject_pos d Hd) as HD. unfold qfrac in H.
  change (-1000)%Z with (- (1000))%Z in H. rewrite tp_neg in H.
  assert (G : / tp 1000 * (tp 1000 * inject_Z d) <= inject_Z n / inject_Z d * (tp 1000 * inject_Z d)).
  { apply Qmult_le_compat_r; [exact H|]. nra. }
  assert (E1 : / tp 1000 * (tp 1000 * inject_Z d) == inject_Z d) by (field; lra).
  assert (E2 : inject_Z n / inject_Z d * (tp 1000 * inject_Z d) == inject_Z n * tp 1000) by (field; lra).
  rewrite E1, E2 in G. exact G.
Qed.

(* the exact rational the writer rounds: x * 10^p, for both signs of p *)
Lemma quant_frac m e p : (0 < m)%Z ->
  is_frac (if (0 <=? p)%Z then dy_mul (m, e) (pow10abs p) else dy_div (m, e) (pow10abs p))
          (dval m e * scaleQ p).
Proof.
  intros Hm. pose proof (pow10abs_pos p) as HP. pose proof (pow10abs_Q p) as HQ.
  destruct (Z.leb_spec 0 p).
  - apply (is_frac_eq _ _ _ (dy_mul_Q (m, e) (pow10abs p) Hm HP)).
    rewrite HQ. cbn [fst snd]. unfold scaleQ. rewrite Z.abs_eq by lia. reflexivity.
  - apply (is_frac_eq _ _ _ (dy_div_Q (m, e) (pow10abs p) Hm HP)).
    rewrite HQ. cbn [fst snd]. unfold scaleQ.
    replace p with (- Z.abs p)%Z at 2 by lia. rewrite Qpower_opp. reflexivity.
Qed.

Lemma scaleQ_mono a b : (a <= b)%Z -> scaleQ a <= scaleQ b.
Proof. intros H. unfold scaleQ. apply Qpower_le_compat_l; [exact H|]. discriminate. Qed.

(* one correctly rounded operation on a rational in the normal range has relative error at most 2^-53 *)
Lemma rne_normal n d t L E :
  is_frac (n, d) t -> (-1000 <= L)%Z -> (E <= 1023)%Z -> tp L <= t -> t < tp E ->
  exists m e, rne n d = Some (m, e) /\ (p52 <= m < p53)%Z /\ (-1074 < e < E - 51)%Z /\
    - (t * eps53) <= dval m e - t <= t * eps53.
Proof.
  intros [Hn [Hd Hfr]] HL HE Hlo Hhi. cbn [fst snd] in *.
  assert (Hnd : (d <= n * 2 ^ 1000)%Z).
  { apply frac_lower; [exact Hd|]. rewrite Hfr. pose proof (tp_mono (-1000) L HL). lra. }
  rewrite rne_unfold. destruct (rne_core n d) as [m e] eqn:Ec.
  destruct (rne_core_Q n d m e Hn Hd Hnd Ec) as [Hv [Hm [He1 He2]]]. rewrite Hfr in Hv, He1.
  assert (Htp : tp (52 + e) < tp (E + 1)).
  { rewrite tp_add, tp_succ. pose proof (tp_pos L). unfold eps53 in He1. lra. }
  apply tp_lt_inv in Htp.
  destruct (Z.ltb_spec 971 e); [lia|]. exists m, e. split; [reflexivity|split; [exact Hm|split; [lia|exact Hv]]].
Qed.

(* What the writer's quantisation computes: math.Round(fl(x * 10^p)). The integer is within 1/2 of
   the rounded product, and the rounded product is within 2^-53 (relative) of x * 10^p. *)
Theorem quant_spec_lemma p bits s m e k :
  fdec bits = Some (s, m, e) -> (-970 <= e)%Z -> (-8 <= p <= 8)%Z -> quant p bits = Ok k ->
  let t := dval m e * scaleQ p in            (* |x| * 10^p *)
  let sk := inject_Z (if s then - k else k) in  (* |k| with x's sign removed *)
  - (1 # 2) - t * eps53 <= sk - t <= (1 # 2) + t * eps53.
Proof.
  intros Hf He Hp Hq. cbv zeta. unfold quant in Hq. rewrite Hf in Hq.
  assert (Hm0 : (0 <= m)%Z).
  { unfold fdec in Hf. cbv zeta in Hf. pose proof (Z.mod_pos_bound (Z.of_N bits) p52 eq_refl).
    destruct (_ =? 2047)%Z; [discriminate|]. destruct (_ =? 0)%Z; inversion Hf; lia. }
  destruct (Z.eqb_spec m 0) as [->|Hm].
  - inversion Hq; subst k. unfold dval.
    assert (E : (if s then - 0 else 0)%Z = 0%Z) by (destruct s; reflexivity).
    rewrite E. change (inject_Z 0) with 0. lra.
  - assert (Hmp : (0 < m)%Z) by lia.
    destruct (quant_frac m e p Hmp) as [Hn [Hd Hfr]].
    destruct (if (0 <=? p)%Z then dy_mul (m, e) (pow10abs p) else dy_div (m, e) (pow10abs p)) as [n d].
    cbn [fst snd] in *.
    assert (Hlow : tp (-1000) <= qfrac n d).
    { rewrite Hfr, (tp_add (-970) (-30)).
      pose proof (tp_pos (-970)). pose proof (tp_pos (-30)). apply Qmult_le_compat_nonneg; split; try lra.
      - assert (1 <= inject_Z m) by (change 1 with (inject_Z 1); rewrite <- Zle_Qle; lia).
        pose proof (tp_mono (-970) e He). unfold dval. nra.
      - assert (tp (-30) <= scaleQ (-8)) by discriminate. pose proof (scaleQ_mono (-8) p ltac:(lia)). lra. }
    pose proof (frac_lower n d Hd Hlow) as Hnd.
    rewrite rne_unfold in Hq. destruct (rne_core n d) as [m' e'] eqn:Ec.
    destruct (971 <? e')%Z; [discriminate|].
    destruct (rne_core_Q n d m' e' Hn Hd Hnd Ec) as [[Hv1 Hv2] _].
    destruct (in_i64b _); [|discriminate]. inversion Hq; subst k. clear Hq.
    pose proof (rha_Q m' e') as [Hr1 Hr2].
    rewrite Hfr in Hv1, Hv2.
    destruct s; rewrite ?Z.opp_involutive; split; lra.
Qed.

Lemma radix_split P q r : (0 <= r < P)%Z -> ((q * P + r) mod P = r /\ (q * P + r) / P = q)%Z.
Proof.
  intros Hr. rewrite Z.add_comm, Z.mod_add, Z.div_add, Z.mod_small, Z.div_small by lia. split; reflexivity.
Qed.

(* bit pattern of a normal double and back: sign, exponent and fraction are the digits of the
   pattern in the mixed radix (2, 2^11, 2^52) *)
Lemma fdec_fenc s m e :
  (p52 <= m < p53)%Z -> (-1074 < e <= 971)%Z -> fdec (fenc s m e) = Some (s, m, e).
Proof.
  intros Hm He. unfold fenc, fdec. cbv zeta.
  assert (H53 : p53 = (2 * p52)%Z) by reflexivity. assert (H52 : (0 < p52)%Z) by reflexivity.
  destruct (Z.ltb_spec m p52); [lia|].
  change 9223372036854775808%Z with (p52 * 2048)%Z.
  replace ((if s then p52 * 2048 else 0) + ((e + 1075) * p52 + (m - p52)))%Z
    with (((if s then 1 else 0) * 2048 + (e + 1075)) * p52 + (m - p52))%Z by (destruct s; ring).
  rewrite Z2N.id by (destruct s; nia).
  rewrite <- Z.div_div by lia.
  destruct (radix_split p52 ((if s then 1 else 0) * 2048 + (e + 1075)) (m - p52)) as [E1 E2]; [lia|].
  rewrite E1, E2.
  destruct (radix_split 2048 (if s then 1 else 0) (e + 1075)) as [E3 E4]; [lia|].
  rewrite E3, E4.
  destruct (Z.eqb_spec (e + 1075) 2047); [lia|]. destruct (Z.eqb_spec (e + 1075) 0); [lia|].
  destruct s; (f_equal; f_equal; [f_equal|]; lia).
Qed.

(* float64(K) is exact for 0 < K < 2^52 *)
Lemma rne_int K : (0 < K < p52)%Z ->
  exists mk ek, rne K 1 = Some (mk, ek) /\ dval mk ek == inject_Z K /\ (0 < mk)%Z.
Proof.
  intros HK.
  assert (Hnd : (Z.log2 1 <= Z.log2 K + 1000)%Z) by (pose proof (Z.log2_nonneg K); change (Z.log2 1) with 0%Z; lia).
  destruct (rne_core_spec K 1 ltac:(lia) ltac:(lia) Hnd) as [[He0 Hup] [_ [Hb [q' [Hr [Hq Hcore]]]]]].
  cbv zeta in *. set (e0 := rne_exp K 1) in *.
  assert (Hlog : (Z.log2 K < 52)%Z).
  { apply Z.log2_lt_pow2; [lia|]. unfold p52 in HK. change (2 ^ 52)%Z with 4503599627370496%Z. lia. }
  change (Z.log2 1) with 0%Z in Hup.
  assert (Hneg : (e0 < 0)%Z) by lia.
  unfold scaled in *. destruct (Z.leb_spec 0 e0); [lia|]. cbn [fst snd] in *.
  assert (HD : (0 < 2 ^ (- e0))%Z) by (apply Z.pow_pos_nonneg; lia).
  assert (Eq : q' = (K * 2 ^ (- e0))%Z) by lia.
  assert (Hnc : (q' =? p53)%Z = false) by (apply Z.eqb_neq; lia).
  rewrite Hnc in Hcore.
  exists q', e0. split; [|split].
  - rewrite rne_unfold, Hcore. destruct (Z.ltb_spec 971 e0); [lia|reflexivity].
  - subst q'. unfold dval. rewrite inject_Z_mult, tp_nonneg_Z by lia. rewrite tp_neg.
    pose proof (tp_pos e0). field. lra.
  - unfold p52 in *. lia.
Qed.

(* the exact rational the parser rounds: K / 10^p, for both signs of p *)
Lemma dequant_frac m e p : (0 < m)%Z ->
  is_frac (if (0 <=? p)%Z then dy_div (m, e) (pow10abs p) else dy_mul (m, e) (pow10abs p))
          (dval m e / scaleQ p).
Proof.
  intros Hm. pose proof (pow10abs_pos p) as HP. pose proof (pow10abs_Q p) as HQ.
  destruct (Z.leb_spec 0 p).
  - apply (is_frac_eq _ _ _ (dy_div_Q (m, e) (pow10abs p) Hm HP)).
    rewrite HQ. cbn [fst snd]. unfold scaleQ. rewrite Z.abs_eq by lia. reflexivity.
  - apply (is_frac_eq _ _ _ (dy_mul_Q (m, e) (pow10abs p) Hm HP)).
    rewrite HQ. cbn [fst snd]. unfold scaleQ.
    replace p with (- Z.abs p)%Z at 2 by lia. rewrite Qpower_opp.
    assert (0 < (10 # 1) ^ Z.abs p) by (apply Qpower_0_lt; reflexivity). field. lra.
Qed.

(* float64(k) is exact for |k| < 2^52 and the division (multiplication for p < 0) is correctly rounded *)
Lemma dequant_value p k : (-8 <= p <= 7)%Z -> (0 < Z.abs k < 2 ^ 51)%Z ->
  exists m e, dequant p k = fenc (k <? 0)%Z m e /\ (p52 <= m < p53)%Z /\ (-1074 < e < 27)%Z /\
    let t := inject_Z (Z.abs k) / scaleQ p in - (t * eps53) <= dval m e - t <= t * eps53.
Proof.
  intros Hp Hk. unfold dequant. destruct (Z.eqb_spec k 0) as [->|_]; [cbn in Hk; lia|].
  change (2 ^ 51)%Z with 2251799813685248%Z in Hk. set (K := Z.abs k) in *.
  destruct (rne_int K) as [mk [ek [Ek [Vk Hmk]]]]; [unfold p52; lia|]. rewrite Ek.
  pose proof (dequant_frac mk ek p Hmk) as Hfr.
  apply (is_frac_eq _ _ (inject_Z K / scaleQ p)) in Hfr; [|rewrite Vk; reflexivity].
  destruct (if (0 <=? p)%Z then dy_div (mk, ek) (pow10abs p) else dy_mul (mk, ek) (pow10abs p)) as [n d].
  pose proof (scaleQ_pos p) as HS.
  assert (HP1 : 1 # 100000000 <= scaleQ p) by exact (scaleQ_mono (-8) p ltac:(lia)).
  assert (HP7 : scaleQ p <= 10000000) by exact (scaleQ_mono p 7 ltac:(lia)).
  pose proof (inject_Z_bounds 1 K 2251799813685247 ltac:(lia)) as [HK1 HK51].
  set (t := inject_Z K / scaleQ p) in *.
  assert (Htlo : 1 # 10000000 <= t) by (apply Qle_shift_div_l; [exact HS|lra]).
  assert (Hthi : t <= 225179981368524700000000) by (apply Qle_shift_div_r; [exact HS|lra]).
  assert (T24 : tp (-24) == 1 # 16777216) by reflexivity.
  assert (T78 : tp 78 == 302231454903657293676544) by reflexivity.
  destruct (rne_normal n d t (-24) 78 Hfr) as [m [e [Er [Hm [He Hv]]]]]; [lia|lia|lra|lra|].
  rewrite Er. exists m, e. split; [reflexivity|split; [exact Hm|split; [lia|exact Hv]]].
Qed.

Lemma err_scale t y c e : 0 < c ->
  - (t * e) <= y - t <= t * e -> - (t * c * e) <= y * c - t * c <= t * c * e.
Proof. intros Hc [H1 H2]. split; nra. Qed.

(* Re-encoding a decoded value is stable for every |k| < 2^51: the two roundings move k 10^-p 10^p by
   less than k 2^-52 < 1/2, so math.Round returns k. *)
Theorem quant_dequant_wide p k :
  (-8 <= p <= 7)%Z -> (Z.abs k < 2 ^ 51)%Z -> quant p (dequant p k) = Ok k.
Proof.
  intros Hp Hk. destruct (Z.eqb_spec k 0) as [->|Hk0]; [reflexivity|].
  destruct (dequant_value p k Hp ltac:(lia)) as [my [ey [E [Hmy [Hey Hy]]]]]. cbv zeta in Hy.
  rewrite E. unfold quant. rewrite fdec_fenc by (try exact Hmy; lia).
  assert (Hmyp : (0 < my)%Z) by (unfold p52 in Hmy; lia).
  destruct (Z.eqb_spec my 0) as [E0|_]; [lia|].
  pose proof (quant_frac my ey p Hmyp) as Hfr.
  destruct (if (0 <=? p)%Z then dy_mul (my, ey) (pow10abs p) else dy_div (my, ey) (pow10abs p)) as [n d].
  (* w = y * 10^p is within K eps of K, z = fl(w) within w eps of w *)
  change (2 ^ 51)%Z with 2251799813685248%Z in Hk. set (K := Z.abs k) in *.
  pose proof (inject_Z_bounds 1 K 2251799813685247 ltac:(lia)) as [HK1 HK51].
  pose proof (scaleQ_pos p) as HS.
  apply (err_scale _ _ (scaleQ p) _ HS) in Hy.
  assert (EK : inject_Z K / scaleQ p * scaleQ p == inject_Z K) by (field; lra).
  rewrite EK in Hy. set (w := dval my ey * scaleQ p) in *. unfold eps53 in Hy.
  assert (T1 : tp (-1) == 1 # 2) by reflexivity. assert (T51 : tp 51 == 2251799813685248) by reflexivity.
  destruct (rne_normal n d w (-1) 51 Hfr) as [mz [ez [Er [Hmz [_ Hz]]]]]; [lia|lia|lra|lra|].
  rewrite Er.
  assert (Hrk : round_half_away mz ez = K).
  { apply rha_unique; [unfold p52 in Hmz; lia|]. unfold eps53 in Hz. split; lra. }
  rewrite Hrk.
  assert (Ek' : (if (k <? 0)%Z then (- K)%Z else K) = k) by (unfold K; destruct (Z.ltb_spec k 0); lia).
  rewrite Ek'.
  assert (Hin : in_i64b k = true) by (apply in_i64b_iff; unfold in_i64, two63; lia).
  rewrite Hin. reflexivity.
Qed.

(* Re-encoding a decoded value is stable: for |k| < 2^40 and every admissible precision the double
   that the parser produces for k (float64(k) / 10^p, or float64(k) * 10^-p for p < 0) is quantised
   back to exactly k. These doubles are the grid points as the implementation has them, so this is
   "exactly g when g already lies on the grid". *)
Theorem quant_dequant_lemma p k :
  (-8 <= p <= 7)%Z -> (Z.abs k < 2 ^ 40)%Z -> quant p (dequant p k) = Ok k.
Proof.
  intros Hp Hk. apply quant_dequant_wide; [exact Hp|]. apply (Z.lt_trans _ _ _ Hk). reflexivity.
Qed.

(* What the parser's conversion computes: the double for k is k / 10^p up to ONE rounding
   (relative 2^-53). *)
Theorem dequant_spec_lemma p k :
  (-8 <= p <= 7)%Z -> (0 < Z.abs k < 2 ^ 40)%Z ->
  exists m e, fdec (dequant p k) = Some ((k <? 0)%Z, m, e) /\
    let t := inject_Z (Z.abs k) / scaleQ p in
    - (t * eps53) <= dval m e - t <= t * eps53.
Proof.
  intros Hp [Hk0 Hk]. apply (Z.lt_trans _ _ (2 ^ 51)) in Hk; [|reflexivity].
  destruct (dequant_value p k Hp (conj Hk0 Hk)) as [m [e [E [Hm [He Hv]]]]].
  exists m, e. split; [rewrite E; apply fdec_fenc; [exact Hm|lia]|exact Hv].
Qed.
