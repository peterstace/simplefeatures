(* C02, last clause: "Disjoint is the negation of Intersects".  geom.Disjoint is decided from the DE-9IM
   matrix of the overlay (alg_relate.go), geom.Intersects by a separate pairwise algorithm
   (alg_intersects.go, Model/Intersects.v).  Both models are characterised over ALL points of Q^2
   (m_intersects_relate_iff by slab-witness sufficiency, intersects_exact by the
   leftmost-hit argument), so the two functions are each other's negation on every pair of operands
   that satisfies the (decidable) validity hypotheses of intersects_exact. *)
From Coq Require Import QArith List Bool.
From SF Require Import Base.GeomAST Base.QKernel Base.Planar Model.Relate Model.Intersects
  Proofs.Planar_slab_base Proofs.RelateMatch_proofs Proofs.Relate_slab_proofs
  Proofs.Intersects_proofs Proofs.Intersects_areal Proofs.Intersects_polypoly.
Import ListNotations.

Lemma rings_closed_of_bool (g : geom) : Intersects.rings_closed g = true -> Planar_slab_base.rings_closed g.
Proof.
  unfold Intersects.rings_closed, Intersects.poly_rings_closed, Planar_slab_base.rings_closed.
  intros H y Hy r Hr. rewrite forallb_forall in H. specialize (H y Hy).
  rewrite forallb_forall in H. exact (H r Hr).
Qed.

Lemma operand_ok_rings_closed (g : geom) : operand_ok g -> Planar_slab_base.rings_closed g.
Proof. intros [_ [C _]]. apply rings_closed_of_bool. exact C. Qed.

(* the matrix-level "intersects" flag of Relate's own matrix is the answer of the Intersects algorithm *)
Lemma m_intersects_relate_is_intersects (a b : geom) : operand_ok a -> operand_ok b ->
  m_intersects (relate a b) = intersects a b.
Proof.
  intros Ha Hb. apply eq_true_iff_eq.
  rewrite (m_intersects_relate_iff a b (operand_ok_rings_closed a Ha) (operand_ok_rings_closed b Hb)).
  symmetry. apply (intersects_exact a b Ha Hb).
Qed.

Lemma disjoint_is_not_intersects_lemma (a b : geom) : operand_ok a -> operand_ok b ->
  go_disjoint (enc_matrix (relate a b)) = RM (negb (intersects a b)).
Proof.
  intros Ha Hb. rewrite disjoint_iff_not_intersects_lemma, (m_intersects_relate_is_intersects a b Ha Hb). reflexivity.
Qed.

(* executable hypotheses *)
Lemma disjoint_is_not_intersects_exec (a b : geom) : operand_okb a = true -> operand_okb b = true ->
  go_disjoint (enc_matrix (relate a b)) = RM (negb (intersects a b)).
Proof. intros Ha Hb. apply disjoint_is_not_intersects_lemma; apply operand_okb_sound; assumption. Qed.

(* Disjoint is symmetric, through the symmetry of the Intersects algorithm (no transposition argument needed) *)
Lemma disjoint_sym_via_intersects (a b : geom) : operand_ok a -> operand_ok b ->
  go_disjoint (enc_matrix (relate a b)) = go_disjoint (enc_matrix (relate b a)).
Proof.
  intros Ha Hb. rewrite (disjoint_is_not_intersects_lemma a b Ha Hb), (disjoint_is_not_intersects_lemma b a Hb Ha).
  rewrite (Intersects_proofs.intersects_sym a b). reflexivity.
Qed.
