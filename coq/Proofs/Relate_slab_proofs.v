(* Property C02, layer (c): consequences of the sufficiency of the slab witnesses (Proofs/Planar_slab*.v)
   for the model's Relate and Disjoint. *)
From Coq Require Import QArith List Bool ZArith NArith Lia.
From SF Require Import Base.GeomAST Base.QKernel Base.Planar Proofs.Planar_proofs
  Proofs.Planar_slab_base Proofs.Planar_slab Proofs.Planar_slab_dim
  Model.RelatePatterns Model.Relate Proofs.RelateMatch_proofs Proofs.Relate_proofs.
Import ListNotations.
Local Close Scope Q_scope.
Local Open Scope nat_scope.
Local Open Scope list_scope.

Lemma relate_nonempty a b : is_empty a = false -> is_empty b = false -> relate a b = de9im_ref a b.
Proof. intros Ea Eb. unfold relate, relate_with. rewrite Ea, Eb. reflexivity. Qed.

Lemma inG_iff_IB g p : inG g p = true <-> (locate g p = Interior \/ locate g p = Boundary).
Proof. rewrite inG_locate. destruct (locate g p); split; intros H; try tauto; try congruence; destruct H; congruence. Qed.

Lemma isT_iff d : isT d = true <-> d <> DF.
Proof. destruct d; cbn; split; congruence. Qed.
Lemma m_intersects_iff m : m_intersects m = true <->
  exists la lb, (la = Interior \/ la = Boundary) /\ (lb = Interior \/ lb = Boundary) /\ mget m la lb <> DF.
Proof.
  unfold m_intersects. rewrite !orb_true_iff, !isT_iff. split.
  - intros [[[H|H]|H]|H]; [exists Interior, Interior | exists Interior, Boundary | exists Boundary, Interior | exists Boundary, Boundary];
      auto.
  - intros [la [lb [[->| ->] [[->| ->] H]]]]; cbn [mget] in H; tauto.
Qed.

(* the "intersects" flag of Relate's matrix says that the two point sets have a common point - for ALL
   pairs of geometries with closed rings, empty operands included *)
Lemma m_intersects_relate_iff a b : rings_closed a -> rings_closed b ->
  (m_intersects (relate a b) = true <-> exists p, inG a p = true /\ inG b p = true).
Proof.
  intros Ra Rb.
  assert (Emp : forall g p, is_empty g = true -> inG g p <> true).
  { intros g p E H. apply inG_locate in H. apply H, locate_empty, E. }
  destruct (is_empty a) eqn:Ea; [|destruct (is_empty b) eqn:Eb].
  - split; [|intros [p [H _]]; destruct (Emp a p Ea H)].
    unfold relate, relate_with, relate_empty_branch. rewrite Ea. simpl.
    destruct (is_empty b); [discriminate|]. destruct (dimension_ie b) as [|[|[|n]]]; discriminate.
  - split; [|intros [p [_ H]]; destruct (Emp b p Eb H)].
    unfold relate, relate_with, relate_empty_branch. rewrite Ea, Eb. simpl.
    destruct (dimension_ie a) as [|[|[|n]]]; discriminate.
  - rewrite (relate_nonempty a b Ea Eb), m_intersects_iff. split.
    + intros [la [lb [Ha [Hb N]]]]. apply (de9im_ref_sufficient a b la lb Ra Rb) in N. destruct N as [p [H1 H2]].
      exists p. split; apply inG_iff_IB; [rewrite H1; exact Ha | rewrite H2; exact Hb].
    + intros [p [Ha Hb]]. apply inG_iff_IB in Ha, Hb. exists (locate a p), (locate b p).
      split; [exact Ha|]. split; [exact Hb|]. apply (de9im_ref_sufficient a b _ _ Ra Rb). exists p. auto.
Qed.

(* Disjoint(a,b) of the model is true iff the two point sets have no common point *)
Lemma disjoint_iff_no_common_point_lemma a b : rings_closed a -> rings_closed b ->
  (go_disjoint (enc_matrix (relate a b)) = RM true <-> forall p, ~ (inG a p = true /\ inG b p = true)).
Proof.
  intros Ra Rb. rewrite disjoint_iff_not_intersects_lemma. pose proof (m_intersects_relate_iff a b Ra Rb) as I.
  destruct (m_intersects (relate a b)); simpl; split.
  - discriminate.
  - intros H. destruct (proj1 I eq_refl) as [p Hp]. destruct (H p Hp).
  - intros _ p Hp. assert (T : false = true) by (apply I; exists p; exact Hp). discriminate.
  - reflexivity.
Qed.
