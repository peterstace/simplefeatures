(* Lemmas about Model/RelateComplex.v (Go's extractIntersectionMatrix on the labelled overlay):
   the matrix depends only on the sets of location pairs of the vertices, half edges and faces (hence on
   no iteration order), is the max-by-dimension matrix, transposes when the operands are exchanged, the
   arbitrary incident half edge of vertexRecord.location does not matter when the incident edges agree,
   and - the main result - on an overlay that decomposes the plane into cells on which the operands
   do not change location and whose labels are SOUND (= the definitional locate at a witness of the
   cell) it equals the reference matrix de9im_ref (uses the sufficiency theorems of Planar_slab*.v). *)
From Coq Require Import QArith List Bool Arith Lia Permutation.
From SF Require Import Base.GeomAST Base.QKernel Base.Planar Proofs.Planar_proofs
  Proofs.Planar_slab_base Proofs.Planar_slab Proofs.Planar_slab_dim
  Model.SetOpSpec Model.OverlayComplex Proofs.OverlayComplex_proofs Model.RelateComplex.
Import ListNotations.
Local Close Scope Q_scope.

(* ---------------- the matrix as a function of the SETS of location pairs *)
Definition memb (la lb : loc) (l : list (loc * loc)) : bool :=
  existsb (fun c => loc_eqb (fst c) la && loc_eqb (snd c) lb) l.

Lemma mget_mset m a b d a' b' :
  mget (mset m a b d) a' b' = if loc_eqb a a' && loc_eqb b b' then d else mget m a' b'.
Proof. destruct a, b, a', b'; reflexivity. Qed.
Lemma mget_set_all d cells : forall m la lb,
  mget (set_all d cells m) la lb = if memb la lb cells then d else mget m la lb.
Proof.
  unfold set_all. induction cells as [|c cells IH]; intros m la lb; simpl; [reflexivity|].
  rewrite IH, mget_mset. destruct (memb la lb cells); destruct (loc_eqb (fst c) la && loc_eqb (snd c) lb); reflexivity.
Qed.
(* the entry is the highest dimension of a cell with that pair of locations *)
Lemma mget_matrix_of_cells vs es fs la lb :
  mget (matrix_of_cells vs es fs) la lb =
  if memb la lb fs then D2 else if memb la lb es then D1 else if memb la lb vs then D0 else DF.
Proof. unfold matrix_of_cells. rewrite !mget_set_all. destruct la, lb; reflexivity. Qed.

Lemma matrix_ext m m' : (forall la lb, mget m la lb = mget m' la lb) -> m = m'.
Proof.
  intros H. destruct m, m'.
  pose proof (H Interior Interior). pose proof (H Interior Boundary). pose proof (H Interior Exterior).
  pose proof (H Boundary Interior). pose proof (H Boundary Boundary). pose proof (H Boundary Exterior).
  pose proof (H Exterior Interior). pose proof (H Exterior Boundary). pose proof (H Exterior Exterior).
  simpl in *. congruence.
Qed.

Lemma memb_iff la lb l : memb la lb l = true <-> In (la, lb) l.
Proof.
  unfold memb. rewrite existsb_exists. split.
  - intros [[x y] [Hin H]]. simpl in H. apply andb_true_iff in H. destruct H as [H1 H2].
    apply loc_eqb_eq in H1, H2. subst. exact Hin.
  - intros H. exists (la, lb). split; [exact H|]. simpl. rewrite !(proj2 (loc_eqb_eq _ _) eq_refl). reflexivity.
Qed.
Lemma memb_perm la lb l l' : Permutation l l' -> memb la lb l = memb la lb l'.
Proof.
  intros P. apply eq_true_iff_eq. rewrite !memb_iff. split; apply Permutation_in; [exact P | symmetry; exact P].
Qed.

(* the order in which the cells are visited (Go ranges over maps) does not matter *)
Theorem matrix_of_cells_order_free vs vs' es es' fs fs' :
  Permutation vs vs' -> Permutation es es' -> Permutation fs fs' ->
  matrix_of_cells vs es fs = matrix_of_cells vs' es' fs'.
Proof.
  intros Pv Pe Pf. apply matrix_ext. intros la lb. rewrite !mget_matrix_of_cells.
  rewrite (memb_perm la lb _ _ Pv), (memb_perm la lb _ _ Pe), (memb_perm la lb _ _ Pf). reflexivity.
Qed.

(* it is the max-by-dimension matrix of the tagged cells (the formulation of Planar.de9im_of) *)
Definition tagged (vs es fs : list (loc * loc)) : list (loc * loc * dimv) :=
  map (fun c => (c, D0)) vs ++ map (fun c => (c, D1)) es ++ map (fun c => (c, D2)) fs.
Lemma entry_app T1 T2 la lb : entry (T1 ++ T2) la lb = dmax (entry T1 la lb) (entry T2 la lb).
Proof.
  unfold entry. rewrite filter_app, map_app. induction (map snd (filter _ T1)) as [|d l IH]; simpl.
  - destruct (fold_right dmax DF _); reflexivity.
  - rewrite IH. destruct d, (fold_right dmax DF l), (fold_right dmax DF (map snd (filter _ T2))); reflexivity.
Qed.
Lemma entry_const d l la lb :
  entry (map (fun c => (c, d)) l) la lb = if memb la lb l then d else DF.
Proof.
  unfold entry, memb. induction l as [|c l IH]; simpl; [reflexivity|].
  destruct (loc_eqb (fst c) la && loc_eqb (snd c) lb); simpl; [|exact IH].
  rewrite IH. destruct (existsb _ l); destruct d; try reflexivity; congruence.
Qed.
Theorem matrix_of_cells_is_max vs es fs : matrix_of_cells vs es fs = de9im_of (tagged vs es fs).
Proof.
  apply matrix_ext. intros la lb. rewrite mget_matrix_of_cells, mget_de9im_of. unfold tagged.
  rewrite !entry_app, !entry_const.
  destruct (memb la lb fs), (memb la lb es), (memb la lb vs); reflexivity.
Qed.

(* ---------------- operands exchanged *)
Definition swap_p (c : loc * loc) : loc * loc := (snd c, fst c).
Lemma memb_swap la lb l : memb la lb (map swap_p l) = memb lb la l.
Proof.
  unfold memb. rewrite existsb_map. apply existsb_ext_in. intros c _. simpl. apply andb_comm.
Qed.
Lemma mget_transpose m la lb : mget (transpose m) la lb = mget m lb la.
Proof. destruct la, lb; reflexivity. Qed.
Lemma matrix_of_cells_swap vs es fs :
  matrix_of_cells (map swap_p vs) (map swap_p es) (map swap_p fs) = transpose (matrix_of_cells vs es fs).
Proof.
  apply matrix_ext. intros la lb. rewrite mget_transpose, !mget_matrix_of_cells, !memb_swap. reflexivity.
Qed.

Lemma lab_get_swap l op : lab_get (lab_swap l) op = lab_get l (negb op).
Proof. destruct l, op; reflexivity. Qed.
Lemma get_f_swap c i : get_f (swap_c c) i = option_map swap_f (get_f c i).
Proof. unfold get_f, swap_c; simpl. rewrite nth_error_map. reflexivity. Qed.
Lemma edge_loc_swap c e op : edge_loc (swap_c c) (swap_e e) op = edge_loc c e (negb op).
Proof.
  unfold edge_loc. rewrite twin_face_in_swap. simpl. rewrite face_in_swap, !lab_get_swap. reflexivity.
Qed.
Lemma face_loc_swap f op : face_loc (swap_f f) op = face_loc f (negb op).
Proof. unfold face_loc. simpl. rewrite lab_get_swap. reflexivity. Qed.
Lemma incidents_swap c i : incidents (swap_c c) i = map swap_e (incidents c i).
Proof.
  unfold incidents, swap_c; simpl. induction (c_edges c) as [|e l IH]; simpl; [reflexivity|].
  destruct (Nat.eqb (e_origin e) i); simpl; rewrite IH; reflexivity.
Qed.
Lemma vertex_loc_swap c i l op :
  vertex_loc (swap_c c) i (snd l, fst l) op = vertex_loc c i l (negb op).
Proof.
  unfold vertex_loc. assert (E : op_loc (snd l, fst l) op = op_loc l (negb op)) by (destruct op; reflexivity).
  rewrite E. destruct (vl_boundary _); [reflexivity|]. destruct (vl_interior _); [reflexivity|].
  rewrite incidents_swap. destruct (incidents c i); simpl; [reflexivity|]. rewrite edge_loc_swap. reflexivity.
Qed.

Lemma all_some_map {A B} (f : A -> B) (l : list (option A)) :
  all_some (map (option_map f) l) = option_map (map f) (all_some l).
Proof.
  induction l as [|[x|] l IH]; simpl; try reflexivity. rewrite IH. destruct (all_some l); reflexivity.
Qed.

(* Relate(b,a) on the same overlay with the operands exchanged is the transposed matrix *)
Theorem matrix_of_complex_swap x :
  matrix_of_complex (swap_x x) = option_map transpose (matrix_of_complex x).
Proof.
  unfold matrix_of_complex.
  assert (Ev : vertex_cells (swap_x x) = option_map (map swap_p) (vertex_cells x)).
  { unfold vertex_cells, swap_x; simpl. rewrite indexed_from_map, map_map. rewrite <- all_some_map, map_map.
    f_equal. apply map_ext. intros [i l]. simpl. rewrite (vertex_loc_swap _ i l false), (vertex_loc_swap _ i l true). simpl.
    destruct (vertex_loc (x_c x) i l true), (vertex_loc (x_c x) i l false); reflexivity. }
  assert (Ee : edge_cells (swap_x x) = map swap_p (edge_cells x)).
  { unfold edge_cells, swap_x; simpl. rewrite !map_map. apply map_ext. intros e. rewrite !edge_loc_swap. reflexivity. }
  assert (Ef : face_cells (swap_x x) = map swap_p (face_cells x)).
  { unfold face_cells, swap_x; simpl. rewrite !map_map. apply map_ext. intros f. rewrite !face_loc_swap. reflexivity. }
  rewrite Ev, Ee, Ef. destruct (vertex_cells x); simpl; [|reflexivity]. rewrite matrix_of_cells_swap. reflexivity.
Qed.

(* the arbitrary choice of an incident half edge in vertexRecord.location does not matter when the
   incident half edges agree *)
Theorem pick_any_incident x i l op e :
  incidents_agree x = true -> nth_error (x_locs x) i = Some l ->
  vl_boundary (op_loc l op) = false -> vl_interior (op_loc l op) = false ->
  In e (incidents (x_c x) i) -> vertex_loc (x_c x) i l op = Some (edge_loc (x_c x) e op).
Proof.
  intros A Hn Hb Hi He. unfold vertex_loc. rewrite Hb, Hi.
  unfold incidents_agree in A. rewrite forallb_forall in A.
  assert (Hin : In (i, l) (indexed_from 0 (x_locs x))).
  { apply in_indexed_from. rewrite Nat.sub_0_r. split; [lia | exact Hn]. }
  specialize (A _ Hin). cbn [fst snd] in A. rewrite forallb_forall in A.
  assert (Ho : In op [false; true]) by (destruct op; simpl; auto). specialize (A op Ho).
  rewrite Hb, Hi in A. cbn [orb] in A.
  destruct (incidents (x_c x) i) as [|e0 r]; [destruct He|]. f_equal.
  destruct He as [<-|He]; [reflexivity|]. rewrite forallb_forall in A. specialize (A e He).
  apply loc_eqb_eq in A. symmetry. exact A.
Qed.

(* ---------------- correct labels give the reference matrix *)
Section Sound.
  Variables a b : geom.
  Hypothesis Ra : rings_closed a.
  Hypothesis Rb : rings_closed b.
  Let L := canon_segs (arr_segments a ++ arr_segments b).
  Let V := vertex_set L (canon_pts (arr_points a ++ arr_points b)).

  (* a cell decomposition of the plane: cells with a dimension, a label (the pair of locations the
     overlay computed), a witness point, and the set of points they consist of *)
  Variable cell : Type.
  Variable cells : list cell.
  Variable cdim : cell -> dimv.
  Variable clab : cell -> loc * loc.
  Variable wit : cell -> pt.
  Variable inC : cell -> pt -> Prop.

  (* the cells cover the plane *)
  Hypothesis H_cover : forall p, exists c, In c cells /\ inC c p.
  (* the operands do not change location inside a cell *)
  Hypothesis H_const : forall c p, In c cells -> inC c p ->
    locate a p = locate a (wit c) /\ locate b p = locate b (wit c).
  (* dimensions: a 0-cell consists of arrangement vertices, a 1-cell of points on segments (or vertices);
     the witness of a 1-cell is no vertex, the witness of a 2-cell lies on no segment and is no vertex *)
  Hypothesis H_dim : forall c, In c cells -> cdim c <> DF.
  Hypothesis H_pts0 : forall c p, In c cells -> cdim c = D0 -> inC c p -> is_vertex V p = true.
  Hypothesis H_pts1 : forall c p, In c cells -> cdim c = D1 -> inC c p -> on_some_seg L p = true \/ is_vertex V p = true.
  Hypothesis H_wit1 : forall c, In c cells -> cdim c = D1 -> is_vertex V (wit c) = false.
  Hypothesis H_wit2 : forall c, In c cells -> cdim c = D2 -> on_some_seg L (wit c) = false /\ is_vertex V (wit c) = false.
  (* LABELS SOUND: the label of every cell is the pair of definitional locations of its witness *)
  Hypothesis labels_sound : forall c, In c cells -> clab c = (locate a (wit c), locate b (wit c)).

  Definition labs_of (d : dimv) : list (loc * loc) :=
    map clab (filter (fun c => Nat.eqb (dim_rank (cdim c)) (dim_rank d)) cells).

  Lemma labs_of_in d la lb : In (la, lb) (labs_of d) <-> exists c, In c cells /\ cdim c = d /\ clab c = (la, lb).
  Proof.
    unfold labs_of. rewrite in_map_iff. split.
    - intros [c [E Hc]]. apply filter_In in Hc. destruct Hc as [Hc Hd]. apply Nat.eqb_eq in Hd.
      exists c. split; [exact Hc|]. split; [|exact E]. destruct (cdim c), d; simpl in Hd; congruence.
    - intros [c [Hc [Hd E]]]. exists c. split; [exact E|]. apply filter_In. split; [exact Hc|]. rewrite Hd. apply Nat.eqb_refl.
  Qed.

  (* the cell of a point carries the point's pair of locations *)
  Lemma cell_of_point p : exists c, In c cells /\ inC c p /\ clab c = (locate a p, locate b p).
  Proof.
    destruct (H_cover p) as [c [Hc Hp]]. exists c. split; [exact Hc|]. split; [exact Hp|].
    rewrite (labels_sound c Hc). destruct (H_const c p Hc Hp) as [-> ->]. reflexivity.
  Qed.

  (* each level of the matrix of the cells is compared with the characterisation, over all points of
     the plane, of the same level of the reference matrix *)
  Theorem sound_labels_give_reference :
    matrix_of_cells (labs_of D0) (labs_of D1) (labs_of D2) = de9im_ref a b.
  Proof.
    apply matrix_ext. intros la lb. rewrite mget_matrix_of_cells.
    pose proof (de9im_ref_sufficient a b la lb Ra Rb) as S0.
    pose proof (entry_ge_D1_iff a b Ra Rb la lb) as S1. pose proof (entry_D2_iff a b Ra Rb la lb) as S2.
    fold L in S1, S2. fold V in S1, S2.
    (* the witness of a cell with this label is a point with these locations *)
    assert (W : forall d, memb la lb (labs_of d) = true ->
                exists c, In c cells /\ cdim c = d /\ locate a (wit c) = la /\ locate b (wit c) = lb).
    { intros d H. apply memb_iff in H. apply labs_of_in in H. destruct H as [c [Hc [Hd El]]].
      rewrite (labels_sound c Hc) in El. injection El as E1 E2. exists c. auto. }
    (* conversely a point with these locations lies in a cell with this label *)
    assert (F : forall p, locate a p = la -> locate b p = lb ->
                exists c, In c cells /\ inC c p /\ cdim c <> DF /\ memb la lb (labs_of (cdim c)) = true).
    { intros p H1 H2. destruct (cell_of_point p) as [c [Hc [Hp El]]]. rewrite H1, H2 in El.
      exists c. split; [exact Hc|]. split; [exact Hp|]. split; [exact (H_dim c Hc)|].
      apply memb_iff, labs_of_in. exists c. auto. }
    assert (A2 : memb la lb (labs_of D2) = true <-> mget (de9im_ref a b) la lb = D2).
    { rewrite S2. split.
      - intros M. destruct (W D2 M) as [c [Hc [Hd [E1 E2]]]]. destruct (H_wit2 c Hc Hd). exists (wit c). auto.
      - intros [p [H1 [H2 [Fs Fv]]]]. destruct (F p H1 H2) as [c [Hc [Hp [Hd M]]]].
        destruct (cdim c) eqn:Ed; [congruence | | | exact M].
        + rewrite (H_pts0 c p Hc Ed Hp) in Fv. discriminate.
        + destruct (H_pts1 c p Hc Ed Hp); congruence. }
    assert (A1 : memb la lb (labs_of D1) = true \/ memb la lb (labs_of D2) = true <->
                 mget (de9im_ref a b) la lb = D1 \/ mget (de9im_ref a b) la lb = D2).
    { rewrite S1. split.
      - intros [M|M]; [destruct (W D1 M) as [c [Hc [Hd [E1 E2]]]] | destruct (W D2 M) as [c [Hc [Hd [E1 E2]]]]];
          exists (wit c); split; [exact E1 | | exact E1 |]; (split; [exact E2|]);
          [exact (H_wit1 c Hc Hd) | exact (proj2 (H_wit2 c Hc Hd))].
      - intros [p [H1 [H2 Fv]]]. destruct (F p H1 H2) as [c [Hc [Hp [Hd M]]]].
        destruct (cdim c) eqn:Ed; [congruence | | auto | auto].
        rewrite (H_pts0 c p Hc Ed Hp) in Fv. discriminate. }
    assert (A0 : memb la lb (labs_of D0) = true \/ memb la lb (labs_of D1) = true \/ memb la lb (labs_of D2) = true <->
                 mget (de9im_ref a b) la lb <> DF).
    { rewrite S0. split.
      - intros [M|[M|M]]; destruct (W _ M) as [c [_ [_ [E1 E2]]]]; exists (wit c); auto.
      - intros [p [H1 H2]]. destruct (F p H1 H2) as [c [_ [_ [Hd M]]]]. destruct (cdim c); [congruence | auto | auto | auto]. }
    destruct (memb la lb (labs_of D2)); [symmetry; apply A2; reflexivity|].
    destruct (memb la lb (labs_of D1)).
    { destruct (proj1 A1 (or_introl eq_refl)) as [E|E]; [symmetry; exact E | apply A2 in E; discriminate]. }
    destruct (memb la lb (labs_of D0)); destruct (mget (de9im_ref a b) la lb) eqn:E; try reflexivity; exfalso.
    1: apply (proj1 A0); auto.
    1: destruct (proj2 A1 (or_introl eq_refl)); discriminate.
    1: destruct (proj2 A1 (or_intror eq_refl)); discriminate.
    all: destruct (proj2 A0) as [K|[K|K]]; discriminate.
  Qed.
End Sound.
Print Assumptions sound_labels_give_reference.

(* ---------------- the cells of an overlay complex *)
Inductive ccell := CV (i : nat) | CE (i : nat) | CF (i : nat).
Definition ccell_dim (c : ccell) : dimv := match c with CV _ => D0 | CE _ => D1 | CF _ => D2 end.
Definition cells_of (nv ne nf : nat) : list ccell :=
  map CV (seq 0 nv) ++ map CE (seq 0 ne) ++ map CF (seq 0 nf).
Definition ccell_lab (vs es fs : list (loc * loc)) (c : ccell) : loc * loc :=
  match c with
  | CV i => nth i vs (Exterior, Exterior)
  | CE i => nth i es (Exterior, Exterior)
  | CF i => nth i fs (Exterior, Exterior)
  end.

Lemma map_nth_seq {A} (l : list A) d : map (fun i => nth i l d) (seq 0 (length l)) = l.
Proof.
  induction l as [|x l IH]; [reflexivity|]. simpl. f_equal. rewrite <- seq_shift, map_map. exact IH.
Qed.
Lemma filter_map_const {A B} (f : A -> B) (p : B -> bool) b l :
  (forall x, p (f x) = b) -> filter p (map f l) = if b then map f l else [].
Proof. intros H. induction l as [|x l IH]; simpl; [destruct b; reflexivity|]. rewrite H, IH. destruct b; reflexivity. Qed.

Lemma labs_of_cells vs es fs d :
  labs_of ccell (cells_of (length vs) (length es) (length fs)) ccell_dim (ccell_lab vs es fs) d =
  match d with D0 => vs | D1 => es | D2 => fs | DF => [] end.
Proof.
  unfold labs_of, cells_of. rewrite !filter_app.
  rewrite (filter_map_const CV _ (Nat.eqb 1 (dim_rank d))), (filter_map_const CE _ (Nat.eqb 2 (dim_rank d))),
    (filter_map_const CF _ (Nat.eqb 3 (dim_rank d))) by reflexivity.
  destruct d; cbn [dim_rank Nat.eqb app]; rewrite ?app_nil_r, ?map_map; try reflexivity; apply map_nth_seq.
Qed.

(* Go's extraction on an overlay whose cells decompose the plane and whose labels are sound returns
   the reference matrix - the whole of Relate for two non-empty operands, given the labelling *)
Theorem relate_of_sound_overlay (a b : geom) (x : xcomplex) (m : matrix) (vs : list (loc * loc))
        (wit : ccell -> pt) (inC : ccell -> pt -> Prop) :
  rings_closed a -> rings_closed b ->
  let L := canon_segs (arr_segments a ++ arr_segments b) in
  let V := vertex_set L (canon_pts (arr_points a ++ arr_points b)) in
  let cells := cells_of (length vs) (length (edge_cells x)) (length (face_cells x)) in
  let lab := ccell_lab vs (edge_cells x) (face_cells x) in
  vertex_cells x = Some vs ->
  matrix_of_complex x = Some m ->
  (forall p, exists c, In c cells /\ inC c p) ->
  (forall c p, In c cells -> inC c p -> locate a p = locate a (wit c) /\ locate b p = locate b (wit c)) ->
  (forall c p, In c cells -> ccell_dim c = D0 -> inC c p -> is_vertex V p = true) ->
  (forall c p, In c cells -> ccell_dim c = D1 -> inC c p -> on_some_seg L p = true \/ is_vertex V p = true) ->
  (forall c, In c cells -> ccell_dim c = D1 -> is_vertex V (wit c) = false) ->
  (forall c, In c cells -> ccell_dim c = D2 -> on_some_seg L (wit c) = false /\ is_vertex V (wit c) = false) ->
  (forall c, In c cells -> lab c = (locate a (wit c), locate b (wit c))) ->
  m = de9im_ref a b.
Proof.
  intros Ra Rb L V cells lab Ev Em Hcov Hconst H0 H1 Hw1 Hw2 Hlab.
  unfold matrix_of_complex in Em. rewrite Ev in Em. injection Em as <-.
  assert (Hd : forall c, In c cells -> ccell_dim c <> DF) by (intros [i|i|i] _; discriminate).
  pose proof (sound_labels_give_reference a b Ra Rb ccell cells ccell_dim lab wit inC Hcov Hconst Hd H0 H1 Hw1 Hw2 Hlab) as S.
  unfold cells, lab in S. rewrite !labs_of_cells in S. exact S.
Qed.
Print Assumptions relate_of_sound_overlay.
