(* Translator tie for function bodies (DESIGN.md A.8b), properties C10 / C01: the point order and
   equality of coq/Model/Canon.v (xy_ltb, xy_eqb) against the bodies of geom/xy.go (Less, ==), as
   re-read from the Go source into Gen/Funcs.v on every run.  Carrier: Z (the order-isomorphic
   integer keys of the ordinates).  An edited body in the Go source makes this file fail to compile. *)
From Coq Require Import ZArith Bool Lia.
From SF Require Import Base.FOps Gen.Funcs Proofs.Funcs_tie_lib Model.Canon.
Ltac ztie := intros; destruct_pairs; ztie0.

Definition gxy (p : xyT) : geom_XY Z := Mk_geom_XY (fst p) (snd p).
Lemma tie_xy_ltb : forall a b, geom_XY_Less zops (gxy a) (gxy b) = xy_ltb a b.
Proof. ztie. Qed.
Lemma tie_xy_eqb : forall a b, geom_XY_eqb zops (gxy a) (gxy b) = xy_eqb a b.
Proof. ztie. Qed.
