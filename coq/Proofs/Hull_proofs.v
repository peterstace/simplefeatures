(* Property C13 - proofs about Model/Hull.v, the part before the scan (Hull_chain.v) and the assembly
   (Hull_ring.v): the lexicographic order in both directions (s = 1 is xy.go:Less, s = -1 its converse);
   sorting (there is only one sorted permutation: whatever sort.Slice returns); removing adjacent duplicates. *)
From Coq Require Import ZArith List Bool Lia Permutation Sorting.Sorted.
From SF Require Import Base.GeomAST Model.Hull.
Import ListNotations.
Open Scope Z_scope.

Lemma pt_eqb_eq a b : pt_eqb a b = true <-> a = b.
Proof.
  destruct a as [ax ay], b as [bx b_y]; unfold pt_eqb; simpl.
  rewrite andb_true_iff, !Z.eqb_eq. split; [intros [-> ->]; reflexivity|intros H; inversion H; auto].
Qed.
Lemma pt_eqb_refl a : pt_eqb a a = true.
Proof. apply pt_eqb_eq; reflexivity. Qed.
Lemma pt_eqb_neq a b : pt_eqb a b = false <-> a <> b.
Proof. rewrite <- not_true_iff_false, pt_eqb_eq. tauto. Qed.
Lemma pt_eq_dec (a b : pt) : {a = b} + {a <> b}.
Proof. destruct (pt_eqb a b) eqn:E; [left; apply pt_eqb_eq; auto|right; apply pt_eqb_neq; auto]. Qed.

Lemma mem_In p l : mem p l = true <-> In p l.
Proof.
  unfold mem. rewrite existsb_exists. split.
  - intros [x [Hin E]]. apply pt_eqb_eq in E. subst; auto.
  - intros H. exists p. split; auto. apply pt_eqb_refl.
Qed.

Lemma insert_In x p l : In x (insert p l) <-> x = p \/ In x l.
Proof.
  induction l as [|y l IH]; simpl.
  - split; intros [H|H]; auto; contradiction.
  - destruct (pt_less p y); simpl; [split; intros [H|H]; auto|].
    rewrite IH. split; intros H; tauto.
Qed.
Lemma sort_In x l : In x (sort l) <-> In x l.
Proof.
  induction l as [|y l IH]; simpl; [tauto|].
  rewrite insert_In, IH. split; intros [H|H]; auto.
Qed.

Lemma last_In {A} (l : list A) d : l <> [] -> In (last l d) l.
Proof. destruct l as [|x l]; [congruence|]. intros _. rewrite last_cons_default. apply last_in. Qed.

(* The lexicographic order, in both directions: s = 1 is xy.go:Less, s = -1 its converse (the
   order in which the upper chain meets the points). *)

Definition lexpos (u : pt) : Prop := 0 < fst u \/ (fst u = 0 /\ 0 < snd u).
Definition dv (s : Z) (a b : pt) : pt := (s * (fst b - fst a), s * (snd b - snd a)).
Definition dlt (s : Z) (a b : pt) : Prop := lexpos (dv s a b).
Definition dle (s : Z) (a b : pt) : Prop := dlt s a b \/ a = b.
Definition sgn (s : Z) : Prop := s = 1 \/ s = -1.

Ltac dsgn H := destruct H as [-> | ->].
Ltac dpt := repeat match goal with p : pt |- _ => destruct p as [? ?] end.
Ltac ord_tac := unfold dle, dlt, dv, lexpos in *; cbn [fst snd] in *; lia.

Lemma dlt_irrefl s a : sgn s -> ~ dlt s a a.
Proof. intros Hs; dsgn Hs; dpt; ord_tac. Qed.
Lemma dlt_trans s a b c : sgn s -> dlt s a b -> dlt s b c -> dlt s a c.
Proof. intros Hs; dsgn Hs; dpt; ord_tac. Qed.
Lemma dlt_asym s a b : sgn s -> dlt s a b -> dlt s b a -> False.
Proof. intros Hs; dsgn Hs; dpt; ord_tac. Qed.
Lemma dlt_total s a b : sgn s -> dlt s a b \/ a = b \/ dlt s b a.
Proof.
  intros Hs. destruct a as [ax ay], b as [bx b_y].
  destruct (Z.lt_trichotomy ax bx) as [H|[H|H]]; destruct (Z.lt_trichotomy ay b_y) as [H'|[H'|H']];
    dsgn Hs; unfold dlt, dv, lexpos; cbn [fst snd]; subst; try (left; lia); try (right; right; lia);
    right; left; reflexivity.
Qed.
Lemma dle_refl s a : dle s a a.
Proof. right; reflexivity. Qed.
Lemma dle_trans s a b c : sgn s -> dle s a b -> dle s b c -> dle s a c.
Proof.
  intros Hs [H1| ->] [H2| ->]; try (left; assumption); [left; eapply dlt_trans; eauto|right; reflexivity].
Qed.
Lemma dle_antisym s a b : sgn s -> dle s a b -> dle s b a -> a = b.
Proof. intros Hs [H1| ->] [H2|H2]; auto. exfalso; eapply dlt_asym; eauto. Qed.
Lemma dlt_dle_trans s a b c : sgn s -> dlt s a b -> dle s b c -> dlt s a c.
Proof. intros Hs H1 [H2| ->]; auto. eapply dlt_trans; eauto. Qed.
Lemma dle_dlt_trans s a b c : sgn s -> dle s a b -> dlt s b c -> dlt s a c.
Proof. intros Hs [H1| ->] H2; auto. eapply dlt_trans; eauto. Qed.
Lemma dle_or_dlt s a b : sgn s -> dle s a b \/ dlt s b a.
Proof. intros Hs. destruct (dlt_total s a b Hs) as [H|[H|H]]; [left; left|left; right|right]; auto. Qed.
Lemma dlt_flip a b : dlt (-1) a b <-> dlt 1 b a.
Proof. dpt; ord_tac. Qed.
Lemma dle_flip a b : dle (-1) a b <-> dle 1 b a.
Proof. unfold dle. rewrite dlt_flip. split; intros [H|H]; auto. Qed.

Lemma pt_less_spec a b : pt_less a b = true <-> dlt 1 a b.
Proof.
  destruct a as [ax ay], b as [bx b_y]. unfold pt_less, dlt, dv, lexpos; cbn [fst snd].
  destruct (ax =? bx) eqn:E; cbn [negb].
  - apply Z.eqb_eq in E. rewrite Z.ltb_lt. lia.
  - apply Z.eqb_neq in E. rewrite Z.ltb_lt. lia.
Qed.
Lemma pt_less_false a b : pt_less a b = false <-> dle 1 b a.
Proof.
  split; intros H.
  - destruct (dle_or_dlt 1 b a (or_introl eq_refl)) as [H'|H']; auto.
    apply pt_less_spec in H'. congruence.
  - destruct (pt_less a b) eqn:E; auto. apply pt_less_spec in E.
    destruct H as [H| ->]; exfalso.
    + eapply dlt_asym; eauto. left; reflexivity.
    + eapply dlt_irrefl; eauto. left; reflexivity.
Qed.

(* Sorting: the result is a sorted permutation, and there is only one *)

Lemma insert_perm p l : Permutation (insert p l) (p :: l).
Proof.
  induction l as [|x l IH]; simpl; [reflexivity|].
  destruct (pt_less p x); [reflexivity|].
  rewrite IH. apply perm_swap.
Qed.
Lemma sort_perm l : Permutation (sort l) l.
Proof.
  induction l as [|x l IH]; simpl; [reflexivity|].
  rewrite insert_perm. constructor. exact IH.
Qed.

Lemma insert_sorted p l : StronglySorted (dle 1) l -> StronglySorted (dle 1) (insert p l).
Proof.
  induction l as [|x l IH]; intros Hs; simpl.
  - constructor; constructor.
  - inversion Hs as [|? ? Hs' Hall]; subst.
    destruct (pt_less p x) eqn:E.
    + apply pt_less_spec in E. constructor; [exact Hs|].
      constructor; [left; exact E|].
      eapply Forall_impl; [|exact Hall]. intros y Hy. eapply dle_trans; [left; reflexivity|left; exact E|exact Hy].
    + apply pt_less_false in E. constructor; [apply IH; exact Hs'|].
      apply Forall_forall. intros y Hy. apply insert_In in Hy. destruct Hy as [-> |Hy]; [exact E|].
      rewrite Forall_forall in Hall. apply Hall; exact Hy.
Qed.
Lemma sort_sorted l : StronglySorted (dle 1) (sort l).
Proof. induction l; simpl; [constructor|apply insert_sorted; assumption]. Qed.

(* a weakly sorted list is determined by its multiset *)
Lemma sorted_perm_unique s : sgn s -> forall l1 l2,
  StronglySorted (dle s) l1 -> StronglySorted (dle s) l2 -> Permutation l1 l2 -> l1 = l2.
Proof.
  intros Hs. induction l1 as [|a l1 IH]; intros l2 H1 H2 Hp.
  - apply Permutation_nil in Hp. auto.
  - destruct l2 as [|b l2]; [apply Permutation_sym, Permutation_nil in Hp; discriminate|].
    inversion H1 as [|? ? H1' A1]; inversion H2 as [|? ? H2' A2]; subst.
    rewrite Forall_forall in A1, A2.
    assert (a = b).
    { assert (Ia : In a (b :: l2)) by (eapply Permutation_in; [exact Hp|left; reflexivity]).
      assert (Ib : In b (a :: l1)) by (eapply Permutation_in; [apply Permutation_sym; exact Hp|left; reflexivity]).
      destruct Ia as [E|E]; [auto|]. destruct Ib as [E'|E']; [auto|].
      apply (dle_antisym s); auto. }
    subst b. f_equal. apply IH; auto. eapply Permutation_cons_inv; eauto.
Qed.

(* a strictly sorted list is weakly sorted and has no repetition, so it is determined by its set
   of elements *)
Lemma strict_sorted_weak s l : sgn s -> StronglySorted (dlt s) l -> StronglySorted (dle s) l /\ NoDup l.
Proof.
  intros Hs. induction 1 as [|a l _ [IH1 IH2] Hall]; split; constructor; auto.
  - eapply Forall_impl; [|exact Hall]. intros y Hy. left; exact Hy.
  - intros Hin. rewrite Forall_forall in Hall. apply (dlt_irrefl s a Hs), Hall, Hin.
Qed.

Lemma strict_sorted_unique s : sgn s -> forall l1 l2,
  StronglySorted (dlt s) l1 -> StronglySorted (dlt s) l2 ->
  (forall x, In x l1 <-> In x l2) -> l1 = l2.
Proof.
  intros Hs l1 l2 H1 H2 Hin.
  destruct (strict_sorted_weak s l1 Hs H1) as [W1 N1], (strict_sorted_weak s l2 Hs H2) as [W2 N2].
  apply (sorted_perm_unique s Hs); auto. apply NoDup_Permutation; assumption.
Qed.

(* sort.Slice may return any sorted permutation: there is exactly one *)
Lemma sort_unique l l' : Permutation l l' -> StronglySorted (dle 1) l' -> l' = sort l.
Proof.
  intros Hp Hs. apply (sorted_perm_unique 1); [left; reflexivity|exact Hs|apply sort_sorted|].
  rewrite <- Hp. symmetry. apply sort_perm.
Qed.
Lemma sort_perm_eq l l' : Permutation l l' -> sort l = sort l'.
Proof.
  intros Hp. apply (sorted_perm_unique 1); [left; reflexivity|apply sort_sorted|apply sort_sorted|].
  rewrite !sort_perm. exact Hp.
Qed.

Lemma sorted_snoc {A} (R : A -> A -> Prop) l a :
  StronglySorted R l -> Forall (fun y => R y a) l -> StronglySorted R (l ++ [a]).
Proof.
  induction 1 as [|z l Hs IH Hz]; intros Ha; cbn; [repeat constructor|].
  inversion Ha; subst. constructor; [apply IH; assumption|].
  apply Forall_app. split; [exact Hz|repeat constructor; assumption].
Qed.

Lemma sorted_rev_flip l : StronglySorted (dle 1) l -> StronglySorted (dle (-1)) (rev l).
Proof.
  induction 1 as [|a l Hs IH Hall]; cbn; [constructor|]. apply sorted_snoc; [exact IH|].
  apply Forall_rev. eapply Forall_impl; [|exact Hall]. intros y Hy. apply dle_flip, Hy.
Qed.

(* Removing adjacent duplicates *)

Fixpoint dedup (l : list pt) : list pt :=
  match l with
  | a :: ((b :: _) as t) => if pt_eqb a b then dedup t else a :: dedup t
  | _ => l
  end.

Lemma dedup_cons2 a b l : dedup (a :: b :: l) = if pt_eqb a b then dedup (b :: l) else a :: dedup (b :: l).
Proof. reflexivity. Qed.

Lemma dedup_In x l : In x (dedup l) <-> In x l.
Proof.
  induction l as [|a l IH]; [simpl; tauto|].
  destruct l as [|b l]; [simpl; tauto|].
  rewrite dedup_cons2.
  destruct (pt_eqb a b) eqn:E.
  - apply pt_eqb_eq in E. subst b. rewrite IH. simpl. tauto.
  - simpl In at 1. rewrite IH. simpl. tauto.
Qed.

Lemma dedup_sorted s l : sgn s -> StronglySorted (dle s) l -> StronglySorted (dlt s) (dedup l).
Proof.
  intros Hs. induction l as [|a l IH]; intros H; [constructor|].
  destruct l as [|b l]; [constructor; constructor|].
  rewrite dedup_cons2.
  inversion H as [|? ? H' Hall]; subst.
  destruct (pt_eqb a b) eqn:E; [apply IH; exact H'|].
  apply pt_eqb_neq in E. constructor; [apply IH; exact H'|].
  apply Forall_forall. intros y Hy. apply (proj1 (dedup_In _ _)) in Hy.
  inversion Hall as [|? ? Hab Hall']; subst.
  assert (Hlt : dlt s a b) by (destruct Hab as [Hab|Hab]; [exact Hab|contradiction]).
  destruct Hy as [<-|Hy]; [exact Hlt|].
  inversion H' as [|? ? _ Hb]; subst. rewrite Forall_forall in Hb.
  eapply dlt_dle_trans; eauto.
Qed.

Lemma dedup_hd l d : hd d (dedup l) = hd d l.
Proof.
  induction l as [|a l IH]; [reflexivity|].
  destruct l as [|b l]; [reflexivity|].
  rewrite dedup_cons2.
  destruct (pt_eqb a b) eqn:E; [|reflexivity].
  apply pt_eqb_eq in E. subst b. rewrite IH. reflexivity.
Qed.
