(* Translator tie for functions WITH LOOPS (DESIGN.md A.8b), property C14: the accumulation loops of
   coq/Model/Measure.v against the bodies of geom/type_polygon.go (signedAreaOfLinearRing,
   centroidOfRing, weightedCentroid, triangleArea2, centroid3) and geom/type_line_string.go
   (Length, sumCentroidAndLengthOfLineString with type_sequence.go:getLine), as re-read from the Go
   source into Gen/FuncsLoop.v on every run.  Carrier: Q.  Every lemma is for ALL sequences (lists
   of any length, Z / M / Type of the Coordinates arbitrary): the translated loop (a structural
   recursion over the index range with explicit lookups) is related to the model's recursion on the
   vertex list by an invariant on the suffix still to be visited.  An edited loop in the Go source
   (other bounds, another start index, a changed summand) makes this file fail to compile. *)
From Coq Require Import String ZArith QArith List Bool Lia.
From SF Require Import Base.FOps Base.FLoop Gen.FuncsLoop Proofs.Funcs_tie_lib Proofs.Funcs_tie_Loop_lib
  Base.GeomAST Model.Measure.
Import ListNotations.
Open Scope Q_scope.

(* geom.Coordinates / geom.XY -> the model's xy;  geom.LineString <- the list of its Coordinates *)
Definition cxy (c : geom_Coordinates Q) : xy := (geom_XY_X (geom_Coordinates_XY c), geom_XY_Y (geom_Coordinates_XY c)).
Definition mxy (p : geom_XY Q) : xy := (geom_XY_X p, geom_XY_Y p).
Definition gxy (p : xy) : geom_XY Q := Mk_geom_XY (fst p) (snd p).
Definition gls (cs : list (geom_Coordinates Q)) : geom_LineString Q := Mk_geom_LineString cs.
(* the transform argument: nil <-> None *)
Definition gtr (tr : option (xy -> xy)) : option (geom_XY Q -> geom_XY Q) :=
  option_map (fun f p => gxy (f (mxy p))) tr.
Definition gpt (tr : option (xy -> xy)) (c : geom_Coordinates Q) : geom_XY Q :=
  match gtr tr with Some f => f (geom_Coordinates_XY c) | None => geom_Coordinates_XY c end.
Lemma mxy_gpt tr c : mxy (gpt tr c) = apply_tr tr (cxy c).
Proof. destruct tr; [|reflexivity]. symmetry. apply surjective_pairing. Qed.

(* ---------------------------------------------------------------- Area *)
(* geom/type_polygon.go:signedAreaOfLinearRing, for every ring and every transform (nil or not) *)
Lemma tie_signedAreaOfLinearRing : forall tr cs,
  geom_signedAreaOfLinearRing qops (gls cs) (gtr tr)
  = Known (ring_area_xy (map (fun c => apply_tr tr (cxy c)) cs)).
Proof.
  intros tr cs. unfold geom_signedAreaOfLinearRing.
  cbn [gls geom_LineString_Coordinates geom_LineString_seq]. cbv zeta.
  assert (Hnth : forall e, (if negb (is_nil_func (gtr tr))
          then match gtr tr with
           | Some fn2 => Known (fn2 (geom_Coordinates_XY e))
           | None => Unknown "call of a nil func"%string
           end
          else Known (geom_Coordinates_XY e)) = Known (gpt tr e)).
  { intro e. unfold gpt. destruct (gtr tr); reflexivity. }
  destruct cs as [|c0 cs']; [reflexivity|].
  set (cs := c0 :: cs'). set (f := fun c => apply_tr tr (cxy c)).
  destruct (Z.eqb_spec (Z.of_nat (Datatypes.length cs)) 0) as [E|_]; [discriminate E|].
  change (lookup cs 0%Z) with (Some c0). cbv iota. rewrite Hnth.
  set (TOTAL := shoelace_loop 0 (f c0) (map f cs')).
  pairs_rule cs 0%Z
    (fun (l : list (geom_Coordinates Q)) '((pt1, sum) : geom_XY Q * Q) =>
       exists c r, l = c :: r /\ mxy pt1 = f c /\ shoelace_loop sum (f c) (map f r) = TOTAL)
    (fun res : loop_res (geom_XY Q * Q) Q => match res with LDone (_, sum) => sum = TOTAL | _ => False end).
  - loop_cond.
  - loop_fuel.
  - lia.
  - exists c0, cs'. split; [reflexivity|split; [apply mxy_gpt|reflexivity]].
  - intros i [pt1 sum] x c' r' _ Hl1 (c & r & E & Hp & Hl). injection E as <- <-.
    rewrite Hl1, Hnth.
    exists c', r'. split; [reflexivity|split; [apply mxy_gpt|]]. rewrite <- Hl. cbn [map shoelace_loop].
    unfold f in *. rewrite <- Hp, <- (mxy_gpt tr c'). reflexivity.
  - intros l [pt1 sum] HL (c & r & -> & Hp & Hl).
    destruct r; [exact Hl|cbn [Datatypes.length] in HL; lia].
  - destruct s as [p1 sm]. subst sm. reflexivity.
  - contradiction.
  - contradiction.
Qed.

(* ---------------------------------------------------------------- Centroid of a ring *)
(* geom/type_polygon.go:triangleArea2, centroid3 *)
Lemma tie_triangleArea2 : forall p1 p2 p3, geom_triangleArea2 qops (gxy p1) (gxy p2) (gxy p3) = tri_area2 p1 p2 p3.
Proof. reflexivity. Qed.
Lemma tie_centroid3 : forall p1 p2 p3, mxy (geom_centroid3 qops (gxy p1) (gxy p2) (gxy p3)) = centroid3 p1 p2 p3.
Proof. reflexivity. Qed.

Definition fan_from (base : xy) (a2 : Q) (c6 : xy) (l : list xy) : Q * xy :=
  match l with [] => (a2, c6) | p :: r => fan_loop base a2 c6 p r end.

(* geom/type_polygon.go:centroidOfRing: the empty ring panics (seq.GetXY(0)), every other ring
   yields the model's value *)
Lemma tie_centroidOfRing : forall cs,
  known_map mxy (geom_centroidOfRing qops (gls cs))
  = match cs with
    | [] => Unknown "index out of range"%string
    | _ => Known (centroid_of_ring_xy (map cxy cs))
    end.
Proof.
  intros cs. unfold geom_centroidOfRing.
  cbn [gls geom_LineString_Coordinates geom_LineString_seq]. cbv zeta.
  destruct cs as [|c0 cs']; [reflexivity|].
  set (cs := c0 :: cs'). change (lookup cs 0%Z) with (Some c0). cbv iota.
  set (base := cxy c0).
  set (TOTAL := fan base (map cxy cs')).
  pairs_rule cs 1%Z
    (fun (l : list (geom_Coordinates Q)) '((c6, a2) : geom_XY Q * Q) => fan_from base a2 (mxy c6) (map cxy l) = TOTAL)
    (fun res : loop_res (geom_XY Q * Q) (geom_XY Q) =>
       match res with LDone (c6, a2) => (a2, mxy c6) = TOTAL | _ => False end).
  - loop_cond.
  - loop_fuel.
  - lia.
  - change (suffix cs 1) with cs'. unfold TOTAL, fan. destruct cs'; reflexivity.
  - intros i [c6 a2] a b r Ha Hb Hinv. rewrite Ha, Hb, <- Hinv. reflexivity.
  - intros [|a [|b r]] [c6 a2] HL Hinv; [exact Hinv..|cbn in HL; lia].
  - destruct s as [c6 a2]. cbn [known_map]. f_equal. unfold centroid_of_ring_xy.
    change (map cxy cs) with (base :: map cxy cs'). cbv iota. fold TOTAL. rewrite <- HP. reflexivity.
  - contradiction.
  - contradiction.
Qed.

(* geom/type_polygon.go:weightedCentroid *)
Lemma tie_weightedCentroid : forall cs ringArea totalArea, cs <> [] ->
  known_map mxy (geom_weightedCentroid qops (gls cs) ringArea totalArea)
  = Known (xy_scale (centroid_of_ring_xy (map cxy cs)) (ringArea / totalArea)).
Proof.
  intros cs ra ta Hne. unfold geom_weightedCentroid.
  pose proof (tie_centroidOfRing cs) as H. destruct cs as [|c0 cs']; [contradiction|].
  destruct (geom_centroidOfRing qops (gls (c0 :: cs'))) as [v|m]; cbn [known_map] in H; [|discriminate].
  injection H as H. cbn [known_map]. f_equal.
  transitivity (xy_scale (mxy v) (ra / ta)); [reflexivity|]. f_equal. exact H.
Qed.

(* ---------------------------------------------------------------- Length *)
Section WithRoot.
  Variables (sq : Q -> Q) (hy : Q -> Q -> Q).
  Hypothesis hy_sq : forall x y, hy x y = sq (x * x + y * y).
  Local Notation rops := (qops_with sq hy).

  Definition len_from (sum : Q) (l : list xy) : Q :=
    match l with [] => sum | a :: r => length_loop sq sum a r end.

  (* geom/type_line_string.go:Length *)
  Lemma tie_LineString_Length : forall cs,
    geom_LineString_Length rops (gls cs) = Known (length_xy sq (map cxy cs)).
  Proof.
    intros cs. unfold geom_LineString_Length.
    cbn [gls geom_LineString_seq]. cbv zeta.
    set (TOTAL := length_xy sq (map cxy cs)).
    pairs_rule cs 0%Z
      (fun (l : list (geom_Coordinates Q)) (sum : Q) => len_from sum (map cxy l) = TOTAL)
      (fun res : loop_res Q Q => match res with LDone sum => sum = TOTAL | _ => False end).
    - loop_cond.
    - loop_fuel.
    - lia.
    - rewrite suffix_0. unfold TOTAL. destruct cs; reflexivity.
    - intros i sum a b r Ha Hb Hinv. rewrite Ha, Hb, <- Hinv.
      cbn [map len_from length_loop]. unfold geom_XY_Length, geom_XY_Sub, xy_len, xy_sub, cxy. cbn.
      rewrite hy_sq. reflexivity.
    - intros [|a [|b r]] sum HL Hinv; [exact Hinv..|cbn in HL; lia].
    - subst s. reflexivity.
    - contradiction.
    - contradiction.
  Qed.

  (* geom/type_sequence.go:getLine *)
  Lemma getLine_pos : forall cs i a b, (0 < i)%Z -> lookup cs (i - 1) = Some a -> lookup cs i = Some b ->
    geom_getLine rops cs i
    = Known (Mk_geom_line (geom_Coordinates_XY a) (geom_Coordinates_XY b), negb (xy_eqb (cxy a) (cxy b))).
  Proof.
    intros cs i a b Hi Ha Hb. unfold geom_getLine. destruct (Z.eqb_spec i 0); [lia|].
    rewrite Ha, Hb. reflexivity.
  Qed.

  (* geom/type_line_string.go:sumCentroidAndLengthOfLineString (with getLine, line.length, line.centroid) *)
  Lemma tie_sumCentroidAndLengthOfLineString : forall cs,
    known_map (fun '(s, l) => (mxy s, l)) (geom_sumCentroidAndLengthOfLineString rops (gls cs))
    = Known (sumcl_xy sq (map cxy cs)).
  Proof.
    intros cs. unfold geom_sumCentroidAndLengthOfLineString.
    cbn [gls geom_LineString_Coordinates geom_LineString_seq]. cbv zeta.
    set (TOTAL := sumcl_xy sq (map cxy cs)).
    lines_rule cs
      (fun (l : list (geom_Coordinates Q)) '((sumXY, sumLen) : geom_XY Q * Q) =>
         match map cxy l with
         | [] => (mxy sumXY, sumLen)
         | a :: rest => sumcl_loop sq (mxy sumXY) sumLen a rest
         end = TOTAL)
      (fun res : loop_res (geom_XY Q * Q) (geom_XY Q * Q) =>
         match res with LDone (sumXY, sumLen) => (mxy sumXY, sumLen) = TOTAL | _ => False end).
    - loop_cond.
    - loop_fuel.
    - intros []. reflexivity.
    - unfold TOTAL. destruct cs; reflexivity.
    - intros i [sumXY sumLen] a b r Hi Ha Hb Hinv. rewrite (getLine_pos cs i a b Hi Ha Hb).
      cbn [map sumcl_loop] in Hinv. destruct (xy_eqb (cxy a) (cxy b)); cbn [negb]; cbv iota beta.
      + exact Hinv.
      + rewrite <- Hinv.
        unfold geom_line_length, geom_XY_distanceTo, geom_XY_Length, geom_XY_Sub, geom_line_centroid,
          geom_XY_Add, geom_XY_Scale, xy_len, xy_sub, xy_add, xy_scale, mxy, cxy. cbn.
        rewrite hy_sq. reflexivity.
    - intros [|a [|b r]] [sumXY sumLen] HL Hinv; [exact Hinv..|cbn in HL; lia].
    - destruct s as [sumXY sumLen]. cbn [known_map]. f_equal. exact HP.
    - contradiction.
    - contradiction.
  Qed.
End WithRoot.
