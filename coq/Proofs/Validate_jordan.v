(* Property C03 - the Jordan-type facts the nested-ring probe rests on, proved without topology:
   (1) relate_lines_avoiding_segment: the end points of a segment that does not meet a closed ring
       are on the same side of it: the model's probe is the crossing parity of QKernel
       (relate_lines_closed_off), which is constant along such a segment
       (Intersects_areal.path_parity).
   (2) off_vertices_same_side: if a closed simple ring A and a closed ring B have at most one
       common point, all vertices of A that are off B lie on the same side of B (walk along A the
       way that avoids the touch point).
   (3) nested_probe_start_invariant_lemma_full: the probe of fixes/F3.patch gives the same answer
       for every vertex list with the same vertices (any start vertex, either direction). *)
From Coq Require Import QArith Qreduction List Bool ZArith Lia Lqa Arith Setoid Morphisms.
From SF Require Import Base.GeomAST Base.QKernel Base.Planar Model.Validate Model.ValidateSpec
  Proofs.Planar_proofs Proofs.Validate_kernel Proofs.Validate_proofs Proofs.Validate_sound Proofs.Validate_ogc.
From SF Require Model.Intersects Proofs.Intersects_proofs Proofs.Intersects_areal.
Import ListNotations.
Open Scope Q_scope.


Lemma ring_edges_cons2 (a b : pt) r : ring_edges (a :: b :: r) = (a, b) :: ring_edges (b :: r).
Proof. reflexivity. Qed.

Lemma on_edges_eq es p q : pt_eq p q -> on_edges es p = on_edges es q.
Proof. intros E. unfold on_edges. induction es as [|s r IH]; [reflexivity|]. cbn [existsb]. rewrite (on_seg_eq s p q E), IH. reflexivity. Qed.

(* geom/alg_point_in_ring.go is transcribed twice, in Model/Validate.v and in Model/Intersects.v
   (turns as a type of their own there); the two transcriptions compute the same thing *)
Definition side_of (s : Intersects.side) : side :=
  match s with Intersects.SInterior => SInterior | Intersects.SBoundary => SBoundary | Intersects.SExterior => SExterior end.

Lemma has_crossing_agree p s : has_crossing p s = Intersects.has_crossing p s.
Proof.
  destruct s as [a b]. unfold has_crossing, Intersects.has_crossing. rewrite Intersects_proofs.line_box_contains.
  unfold Intersects.orientation, orientation, qsgn, Intersects.go_cp.
  destruct (qltb (snd b) (snd a)); destruct (_ ?= 0); reflexivity.
Qed.

Lemma relate_lines_agree p ls : forall odd, relate_lines p ls odd = side_of (Intersects.relate_loop p ls odd).
Proof.
  induction ls as [|l r IH]; intros odd; cbn [relate_lines Intersects.relate_loop]; [destruct odd; reflexivity|].
  rewrite has_crossing_agree. destruct (Intersects.has_crossing p l) as [cr [|]]; [reflexivity | apply IH].
Qed.

Lemma relate_lines_boundary p ls : relate_lines p ls false = SBoundary <-> on_edges ls p = true.
Proof.
  rewrite relate_lines_agree, Intersects_proofs.relate_loop_spec. unfold on_edges.
  destruct (existsb (fun l => on_seg l p) ls); [tauto|]. destruct (xorb false _); split; discriminate.
Qed.

Lemma segs_ring_edges_on ps p : on_edges (ring_edges ps) p = true -> on_edges (segs_of_pts ps) p = true.
Proof. destruct ps as [|a [|b r]]; try discriminate. auto. Qed.

(* for a closed ring and a point off it, the model's probe is the crossing parity of QKernel *)
Lemma relate_lines_closed_off ps p :
  pts_closed ps = true -> on_edges (segs_of_pts ps) p = false ->
  relate_lines p (as_lines ps) false =
  if edges_parity (segs_of_pts ps) p then SInterior else SExterior.
Proof.
  intros Hc Hoff. pose proof (Intersects_proofs.ring_side_in (ring_line ps) p) as K.
  unfold line_segs, Intersects.relate_point_to_ring in K. rewrite line_pts_ring_line in K.
  change (as_lines ps) with (Intersects.as_lines ps). rewrite relate_lines_agree, (K Hc Hoff).
  destruct (edges_parity (segs_of_pts ps) p); reflexivity.
Qed.

(* the end points of a segment that does not meet a closed ring are on the same side of it *)
Theorem relate_lines_avoiding_segment ps u v :
  pts_closed ps = true ->
  (forall z, on_seg (u, v) z = true -> on_edges (segs_of_pts ps) z = false) ->
  relate_lines u (as_lines ps) false = relate_lines v (as_lines ps) false.
Proof.
  intros Hc Hav.
  rewrite (relate_lines_closed_off ps u Hc (Hav u (on_seg_left u v))),
          (relate_lines_closed_off ps v Hc (Hav v (on_seg_right u v))).
  rewrite (Intersects_areal.path_parity ps u v Hc); [reflexivity|].
  intros e He w [We Ww]. pose proof (Hav w Ww) as K. apply not_true_iff_false in K. apply K.
  apply existsb_exists. exists e. split; assumption.
Qed.


Lemma nth_error_ring_edges (A : list pt) : forall k x y,
  nth_error A k = Some x -> nth_error A (S k) = Some y -> nth_error (ring_edges A) k = Some (x, y).
Proof.
  induction A as [|a r IH]; intros k x y Hx Hy; [destruct k; discriminate|].
  destruct r as [|b r']; [destruct k; simpl in Hy; [discriminate | destruct k; discriminate]|].
  rewrite ring_edges_cons2. destruct k as [|k].
  - simpl in Hx, Hy. inversion Hx; inversion Hy; subst. reflexivity.
  - simpl in Hx. cbn [nth_error]. apply IH; [exact Hx | exact Hy].
Qed.
Lemma ring_edges_nth (A : list pt) : forall k e, nth_error (ring_edges A) k = Some e ->
  nth_error A k = Some (fst e) /\ nth_error A (S k) = Some (snd e).
Proof.
  induction A as [|a r IH]; intros k e H; [destruct k; discriminate|].
  destruct r as [|b r']; [destruct k; discriminate|].
  rewrite ring_edges_cons2 in H. destruct k as [|k]; [inversion H; split; reflexivity|]. exact (IH k e H).
Qed.
Lemma ring_edges_length (A : list pt) : length (ring_edges A) = (length A - 1)%nat.
Proof.
  induction A as [|a r IH]; [reflexivity|]. destruct r as [|b r']; [reflexivity|].
  rewrite ring_edges_cons2. cbn [length] in *. rewrite IH. lia.
Qed.

Section TouchingRings.
  Variables A B : list pt.
  Hypothesis HndA : as_lines A = ring_edges A.          (* no repeated consecutive vertices *)
  Hypothesis HndB : as_lines B = segs_of_pts B.
  Hypothesis HcA : is_closed A = true.
  Hypothesis HsA : Simple A.
  Hypothesis HcB : pts_closed B = true.
  (* the two rings have at most one common point *)
  Hypothesis Hone : forall p q, on_edges (ring_edges A) p = true -> on_edges (segs_of_pts B) p = true ->
                                on_edges (ring_edges A) q = true -> on_edges (segs_of_pts B) q = true -> pt_eq p q.

  Let esB := segs_of_pts B.
  Definition rel (v : pt) : side := relate_lines v (as_lines B) false.
  Definition good (e : seg) : Prop := forall z, on_seg e z = true -> on_edges esB z = false.

  Lemma rel_boundary v : rel v = SBoundary <-> on_edges esB v = true.
  Proof. unfold rel. rewrite relate_lines_boundary, HndB. reflexivity. Qed.
  Lemma rel_off v : rel v <> SBoundary -> on_edges esB v = false.
  Proof. intros N. apply not_true_iff_false. intros K. apply N, rel_boundary, K. Qed.
  Lemma good_rel u v : good (u, v) -> rel u = rel v.
  Proof. intros H. unfold rel. apply relate_lines_avoiding_segment; [exact HcB | exact H]. Qed.

  Lemma good_dec e : good e \/ exists z, on_seg e z = true /\ on_edges esB z = true.
  Proof.
    destruct (existsb (fun f => match seg_seg e f with SSEmpty => false | _ => true end) esB) eqn:E.
    - right. apply existsb_exists in E. destruct E as [f [Hf Hs]].
      destruct (proj1 (seg_seg_nonempty_iff e f)) as [z [Z1 Z2]]; [destruct (seg_seg e f); congruence|].
      exists z. split; [exact Z1|]. apply existsb_exists. eauto.
    - left. intros z Hz. apply not_true_iff_false. intros K. apply existsb_exists in K. destruct K as [f [Hf Hs]].
      assert (N : seg_seg e f <> SSEmpty) by (apply (seg_seg_complete e f z); assumption).
      apply not_true_iff_false in E. apply E. apply existsb_exists. exists f. split; [exact Hf|].
      destruct (seg_seg e f); congruence.
  Qed.

  Let n := length (ring_edges A).

  Lemma chain_rel : forall j i x y, (i <= j)%nat ->
    nth_error A i = Some x -> nth_error A j = Some y ->
    rel x = rel y
    \/ exists k e z, (i <= k < j)%nat /\ nth_error (ring_edges A) k = Some e /\ on_seg e z = true /\ on_edges esB z = true.
  Proof.
    induction j as [|j IH]; intros i x y Hij Hx Hy.
    - left. assert (i = 0)%nat by lia. subst. congruence.
    - destruct (Nat.eq_dec i (S j)) as [->|Hne]; [left; congruence|].
      destruct (nth_error A j) as [w|] eqn:Ew.
      2:{ apply nth_error_None in Ew. assert (S j < length A)%nat by (apply nth_error_Some; congruence). lia. }
      destruct (IH i x w ltac:(lia) Hx eq_refl) as [R|[k [e [z [Hk H]]]]]; [|right; exists k, e, z; split; [lia | exact H]].
      destruct (good_dec (w, y)) as [G|[z [Z1 Z2]]].
      + left. rewrite R. exact (good_rel w y G).
      + right. exists j, (w, y), z. split; [lia|]. split; [apply nth_error_ring_edges; [exact Ew | exact Hy] | auto].
  Qed.

  Lemma edge_on_ring k e z : nth_error (ring_edges A) k = Some e -> on_seg e z = true -> on_edges (ring_edges A) z = true.
  Proof. intros He Hz. apply existsb_exists. exists e. split; [eapply nth_error_In; exact He | exact Hz]. Qed.

  (* two edges of A that both meet B: what the simplicity of A says about their positions *)
  Lemma two_bad k1 k2 e1 e2 z1 z2 : (k1 < k2)%nat ->
    nth_error (ring_edges A) k1 = Some e1 -> nth_error (ring_edges A) k2 = Some e2 ->
    on_seg e1 z1 = true -> on_edges esB z1 = true -> on_seg e2 z2 = true -> on_edges esB z2 = true ->
    (k2 = S k1 /\ on_edges esB (snd e1) = true) \/ (k1 = 0%nat /\ S k2 = n /\ on_edges esB (fst e1) = true).
  Proof.
    intros Hk H1 H2 Z1 B1 Z2 B2.
    assert (E : pt_eq z2 z1) by (apply Hone; [exact (edge_on_ring k2 e2 z2 H2 Z2) | exact B2 | exact (edge_on_ring k1 e1 z1 H1 Z1) | exact B1]).
    assert (C : common e1 e2 z1) by (split; [exact Z1 | rewrite <- (on_seg_eq e2 z2 z1 E); exact Z2]).
    unfold Simple in HsA. cbv zeta in HsA. rewrite HndA in HsA.
    destruct (HsA k1 k2 e1 e2 Hk H1 H2 z1 C) as [[K1 K2]|[_ [K1 [K2 K3]]]].
    - left. split; [exact K1|]. rewrite <- (on_edges_eq esB z1 (snd e1) K2). exact B1.
    - right. split; [exact K1|]. split; [exact K2|]. rewrite <- (on_edges_eq esB z1 (fst e1) K3). exact B1.
  Qed.

  Lemma closing_vertices x0 xn : nth_error A 0 = Some x0 -> nth_error A n = Some xn -> pt_eq x0 xn.
  Proof.
    intros H0 Hn. unfold is_closed in HcA. destruct A as [|a r] eqn:EA; [discriminate|].
    simpl in H0. inversion H0; subst x0. apply pt_eqb_iff in HcA.
    assert (En : n = length r) by (unfold n; rewrite ring_edges_length; simpl; lia).
    rewrite En in Hn.
    assert (K : nth_error (a :: r) (length r) = Some (last (a :: r) a)).
    { pose proof (nth_error_last (a :: r) a) as K. replace (length (a :: r) - 1)%nat with (length r) in K by (simpl; lia). apply K. discriminate. }
    rewrite K in Hn. inversion Hn; subst. exact HcA.
  Qed.

  (* all vertices of A that are off B are on the same side of B *)
  Theorem off_vertices_same_side : forall i j x y, (i < j)%nat ->
    nth_error A i = Some x -> nth_error A j = Some y ->
    on_edges esB x = false -> on_edges esB y = false -> rel x = rel y.
  Proof.
    intros i j x y Hij Hx Hy Ox Oy.
    assert (Hjn : (j <= n)%nat).
    { unfold n. rewrite ring_edges_length. assert (j < length A)%nat by (apply nth_error_Some; congruence). lia. }
    destruct (chain_rel j i x y ltac:(lia) Hx Hy) as [R|[k1 [e1 [z1 [Hk1 [He1 [Z1 B1]]]]]]]; [exact R|].
    (* an edge between x and y meets B: then no edge outside does; go around the other way,
       y -> closing vertex = first vertex -> x *)
    destruct (ring_edges_nth A k1 e1 He1) as [F1 S1].
    destruct (nth_error A n) as [xn|] eqn:En.
    2:{ apply nth_error_None in En. unfold n in En. rewrite ring_edges_length in En.
        assert (j < length A)%nat by (apply nth_error_Some; congruence). lia. }
    destruct (nth_error A 0) as [x0|] eqn:E0.
    2:{ apply nth_error_None in E0. assert (i < length A)%nat by (apply nth_error_Some; congruence). lia. }
    destruct (chain_rel n j y xn Hjn Hy En) as [R1|[k [e [z [Hk [He [Z2 B2]]]]]]].
    2:{ exfalso. destruct (two_bad k1 k e1 e z1 z ltac:(lia) He1 He Z1 B1 Z2 B2) as [[K1 K2]|[K1 [K2 K3]]].
        - replace (S k1) with j in S1 by lia. congruence.
        - replace k1 with i in F1 by lia. congruence. }
    destruct (chain_rel i 0 x0 x ltac:(lia) E0 Hx) as [R3|[k [e [z [Hk [He [Z2 B2]]]]]]].
    2:{ exfalso. destruct (ring_edges_nth A k e He) as [F0 S0].
        destruct (two_bad k k1 e e1 z z1 ltac:(lia) He He1 Z2 B2 Z1 B1) as [[K1 K2]|[K1 [K2 K3]]].
        - replace (S k) with i in S0 by lia. congruence.
        - (* e is the first edge, e1 the last one: y is the closing vertex *)
          subst k. assert (j = n) by lia. subst j. rewrite En in Hy. rewrite E0 in F0. inversion Hy; inversion F0; subst.
          rewrite (on_edges_eq esB _ _ (closing_vertices _ _ E0 En)) in K3. congruence. }
    assert (Ec : pt_eq x0 xn) by (apply closing_vertices; assumption).
    assert (R2 : rel xn = rel x0).
    { apply good_rel. intros z Hz.
      assert (Ez : pt_eq z xn) by (apply (on_seg_degenerate xn x0 z); [symmetry; exact Ec | exact Hz]).
      rewrite (on_edges_eq esB z xn Ez). apply not_true_iff_false. intros K.
      apply rel_boundary in K. rewrite <- R1 in K. apply rel_boundary in K. congruence. }
    rewrite R1, R2, R3. reflexivity.
  Qed.
End TouchingRings.


Section ProbeInvariance.
  Variables A B : list pt.
  Hypothesis HndA : as_lines A = ring_edges A.
  Hypothesis HndB : as_lines B = segs_of_pts B.
  Hypothesis HcA : is_closed A = true.
  Hypothesis HsA : Simple A.
  Hypothesis HcB : pts_closed B = true.
  Hypothesis Hone : forall p q, on_edges (ring_edges A) p = true -> on_edges (segs_of_pts B) p = true ->
                                on_edges (ring_edges A) q = true -> on_edges (segs_of_pts B) q = true -> pt_eq p q.

  Lemma vertices_same_side p q : In p A -> In q A ->
    rel B p <> SBoundary -> rel B q <> SBoundary -> rel B p = rel B q.
  Proof.
    intros Hp Hq Np Nq.
    destruct (In_nth_error A p Hp) as [i Hi]. destruct (In_nth_error A q Hq) as [j Hj].
    pose proof (rel_off B HndB p Np) as Op. pose proof (rel_off B HndB q Nq) as Oq.
    destruct (lt_eq_lt_dec i j) as [[H|H]|H].
    - exact (off_vertices_same_side A B HndA HndB HcA HsA HcB Hone i j p q H Hi Hj Op Oq).
    - subst j. congruence.
    - symmetry. exact (off_vertices_same_side A B HndA HndB HcA HsA HcB Hone j i q p H Hj Hi Oq Op).
  Qed.

  (* the probe of fixes/F3.patch does not depend on the start vertex or the direction of the ring:
     any vertex list with the same vertices gives the same answer *)
  Theorem nested_probe_start_invariant_lemma_full vs' :
    (forall p, In p vs' <-> In p A) ->
    first_off_boundary vs' (as_lines B) = first_off_boundary A (as_lines B).
  Proof.
    intros Hperm.
    assert (Hoff : forall s, s <> SBoundary -> first_off_boundary A (as_lines B) = s ->
              first_off_boundary vs' (as_lines B) = s).
    { intros s Ns FA. destruct (first_off_in A (as_lines B) s FA Ns) as [p0 [Hp0 E0]].
      rewrite <- FA. apply (nested_probe_start_invariant_lemma A vs' (as_lines B) s Ns); [|exact Hperm|exists p0; auto].
      intros p Hp. destruct (relate_lines p (as_lines B) false) eqn:R; auto; right; rewrite <- R, <- E0;
        apply vertices_same_side; unfold rel; congruence. }
    destruct (first_off_boundary A (as_lines B)) eqn:FA; [apply Hoff; [discriminate | reflexivity] | | apply Hoff; [discriminate | reflexivity]].
    pose proof (first_off_all_boundary A (as_lines B) FA) as S.
    destruct (first_off_boundary vs' (as_lines B)) eqn:F'; [exfalso | reflexivity | exfalso];
      destruct (first_off_in vs' (as_lines B) _ F' ltac:(discriminate)) as [p0 [Hp0 E0]];
      rewrite (S p0 (proj1 (Hperm p0) Hp0)) in E0; discriminate.
  Qed.
End ProbeInvariance.
