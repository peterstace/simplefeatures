(* Proofs about the WKB model: decode (encode g ++ rest) = (g, rest) for every per-element
   byte-order choice, and what follows from it (re-encoding, injectivity of the encoding, Scan). *)
From Coq Require Import NArith List Bool Lia ZArith.
From Coq Require Import ZifyN ZifyNat ZifyBool.
From SF Require Import Base.Outcome Base.Bytes Base.GeomAST Model.WKB Proofs.CType_proofs.
Import ListNotations.
Local Open Scope N_scope.

Ltac Zify.zify_post_hook ::= Z.div_mod_to_equations.

(* [parses p bs x]: on any input that starts with bs the parser returns x, consumes exactly bs,
   and only increases the allocation counter. *)
Definition parses {A} (p : P A) (bs : list N) (x : A) : Prop :=
  forall r a, exists a', p (bs ++ r, a) = POk x (r, a').

Lemma parses_ret {A} (x : A) : parses (pret x) [] x.
Proof. intros r a. exists a. reflexivity. Qed.

Lemma parses_bind {A B} (p : P A) (f : A -> P B) b1 b2 x y :
  parses p b1 x -> parses (f x) b2 y -> parses (pbind p f) (b1 ++ b2) y.
Proof.
  intros H1 H2 r a. unfold pbind. rewrite <- app_assoc.
  destruct (H1 (b2 ++ r) a) as [a1 E1]. rewrite E1.
  destruct (H2 r a1) as [a2 E2]. exists a2. exact E2.
Qed.

Lemma parses_bind_nil {A B} (p : P A) (f : A -> P B) b x y :
  parses p [] x -> parses (f x) b y -> parses (pbind p f) b y.
Proof. intros H1 H2. change b with ([] ++ b). eapply parses_bind; eauto. Qed.

Lemma parses_bind_r {A B} (p : P A) (f : A -> P B) b x y :
  parses p b x -> parses (f x) [] y -> parses (pbind p f) b y.
Proof. intros H1 H2. rewrite <- (app_nil_r b). eapply parses_bind; eauto. Qed.

Lemma parses_rd_u k e n : n < 256 ^ N.of_nat k -> parses (rd_u k e) (put e k n) n.
Proof.
  intros H r a. exists a. unfold rd_u. cbn [fst snd].
  rewrite take_app by apply put_length. rewrite get_put by exact H. reflexivity.
Qed.

Lemma parses_u32 e n : n < two32 -> parses (rd_u 4 e) (put e 4 n) n.
Proof. exact (parses_rd_u 4 e n). Qed.
Lemma parses_u64 e n : n < two64 -> parses (rd_u 8 e) (put e 8 n) n.
Proof. exact (parses_rd_u 8 e n). Qed.

Lemma parses_header e t ct : parses rd_header (header e t ct) (e, t, ct).
Proof.
  intros r a. exists a. destruct e, t, ct; reflexivity.
Qed.

(* ---- vertices ---- *)
Lemma vtx_ok_eta ct (v : vtx N) :
  vtx_ok (N.eqb 0) ct v = true ->
  Build_vtx (vx v) (vy v) (if has_z ct then vz v else 0) (if has_m ct then vm v else 0) = v.
Proof.
  unfold vtx_ok. destruct v as [x y z m]; cbn [vx vy vz vm].
  destruct (has_z ct), (has_m ct); cbn [orb andb]; intros H; f_equal; lia.
Qed.

Ltac pstep :=
  first
    [ eapply parses_bind; [apply parses_u64; assumption|]
    | eapply parses_bind_nil; [apply parses_ret|]
    | apply parses_ret ].

Lemma parses_vtx e ct v :
  vtx_bits_ok v = true -> vtx_ok (N.eqb 0) ct v = true ->
  parses (rd_vtx e ct) (enc_floats e (vtx_floats ct v)) v.
Proof.
  intros Hb Hok. unfold vtx_bits_ok in Hb.
  apply andb_prop in Hb; destruct Hb as [Hb Hm]. apply andb_prop in Hb; destruct Hb as [Hb Hz].
  apply andb_prop in Hb; destruct Hb as [Hx Hy].
  apply N.ltb_lt in Hx, Hy, Hz, Hm.
  rewrite <- (vtx_ok_eta ct v Hok). clear Hok.
  destruct v as [x y z m]; cbn [vx vy vz vm] in *.
  unfold rd_vtx, enc_floats, vtx_floats; cbn [vx vy vz vm].
  destruct ct; cbn [has_z has_m flat_map app]; repeat pstep.
Qed.

(* ---- generic facts ---- *)
Lemma enc_floats_app e a b : enc_floats e (a ++ b) = enc_floats e a ++ enc_floats e b.
Proof. unfold enc_floats. apply flat_map_app. Qed.

Lemma enc_floats_length e fs : length (enc_floats e fs) = (8 * length fs)%nat.
Proof.
  induction fs as [|f fs IH]; [reflexivity|].
  unfold enc_floats in *. cbn [flat_map]. rewrite app_length, put_length, IH. cbn [length]. lia.
Qed.

Lemma vtx_floats_length ct (v : vtx N) : length (vtx_floats ct v) = dim ct.
Proof. destruct ct; reflexivity. Qed.

Lemma flat_vtx_length ct (vs : list (vtx N)) :
  length (flat_map (vtx_floats ct) vs) = (dim ct * length vs)%nat.
Proof.
  induction vs as [|v vs IH]; cbn [flat_map length]; [lia|].
  rewrite app_length, vtx_floats_length, IH. lia.
Qed.

(* ---- points ---- *)
Lemma is_nan_go_nan : is_nan go_nan = true. Proof. reflexivity. Qed.

Lemma parses_rd_point e ct c :
  point_wf (MkPoint ct c) = true -> point_ok (N.eqb 0) ct (MkPoint ct c) = true ->
  parses (rd_point e ct)
         (enc_floats e match c with Some v => vtx_floats ct v | None => repeat go_nan (dim ct) end)
         (MkPoint ct c).
Proof.
  unfold point_wf, point_ok, rd_point; cbn [point_c]. rewrite ct_eqb_refl. cbn [andb].
  destruct c as [v|]; intros Hwf Hok.
  - apply andb_prop in Hwf; destruct Hwf as [Hwf Hny]. apply andb_prop in Hwf; destruct Hwf as [Hb Hnx].
    eapply parses_bind_r; [apply parses_vtx; assumption|].
    apply negb_true_iff in Hnx, Hny. rewrite Hnx, Hny. apply parses_ret.
  - (* the empty point is read as the vertex with NaN in every ordinate its type uses *)
    set (v := Build_vtx go_nan go_nan (if has_z ct then go_nan else 0) (if has_m ct then go_nan else 0)).
    replace (repeat go_nan (dim ct)) with (vtx_floats ct v) by (destruct ct; reflexivity).
    eapply parses_bind_r; [apply parses_vtx; destruct ct; reflexivity|].
    cbn [v vx vy]. rewrite is_nan_go_nan. apply parses_ret.
Qed.

Lemma parses_point e ct p :
  point_wf p = true -> point_ok (N.eqb 0) ct p = true ->
  forall f, parses (rd_geom (S f)) (enc_point e p) (GPoint p).
Proof.
  destruct p as [c o]. intros Hwf Hok f.
  assert (c = ct) by (apply andb_prop in Hok; apply ct_eqb_eq, Hok). subst c.
  cbn [rd_geom]. unfold enc_point.
  eapply parses_bind; [apply parses_header|]. cbn beta iota.
  eapply parses_bind_r; [|apply parses_ret].
  destruct o; apply (parses_rd_point e ct _ Hwf Hok).
Qed.

(* ---- sequences ---- *)
Lemma parses_vtxs e ct vs :
  forallb vtx_bits_ok vs = true -> forallb (vtx_ok (N.eqb 0) ct) vs = true ->
  parses (rd_vtxs (length vs) e ct) (enc_floats e (flat_map (vtx_floats ct) vs)) vs.
Proof.
  induction vs as [|v vs IH]; cbn [forallb length rd_vtxs flat_map]; intros Hb Hok.
  - apply parses_ret.
  - apply andb_prop in Hb; destruct Hb as [Hb1 Hb2]. apply andb_prop in Hok; destruct Hok as [Ho1 Ho2].
    rewrite enc_floats_app.
    eapply parses_bind; [apply parses_vtx; assumption|].
    eapply parses_bind_r; [apply IH; assumption|]. apply parses_ret.
Qed.

Lemma parses_remaining {A} (f : nat -> P A) bs x :
  (forall len, (length bs <= len)%nat -> parses (f len) bs x) -> parses (pbind remaining f) bs x.
Proof. intros H r a. unfold pbind, remaining. apply H. cbn [fst]. rewrite app_length. lia. Qed.

Lemma parses_palloc k : parses (palloc k) [] tt.
Proof. intros r a. eexists. reflexivity. Qed.

Lemma parses_seq e ct l :
  line_wf l = true -> line_ok (N.eqb 0) ct l = true -> parses (rd_seq e ct) (enc_seq e l) l.
Proof.
  destruct l as [c vs]. unfold line_wf, line_ok; cbn [line_vs]. intros Hwf Hok.
  apply andb_prop in Hwf; destruct Hwf as [Hc Hb]. apply andb_prop in Hok; destruct Hok as [E Hok].
  apply ct_eqb_eq in E. subst c.
  unfold count_ok in Hc. apply N.ltb_lt in Hc.
  unfold rd_seq, enc_seq.
  eapply parses_bind; [apply parses_u32, Hc|]. cbv beta zeta.
  (* the length check passes: the ordinates are among the unread bytes *)
  apply parses_remaining. intros len Hlen. rewrite enc_floats_length, flat_vtx_length in Hlen.
  destruct (N.ltb_spec (N.of_nat len) (8 * (N.of_nat (length vs) * N.of_nat (dim ct)))) as [Hlt|_]; [exfalso; lia|].
  eapply parses_bind_nil; [apply parses_palloc|]. rewrite Nat2N.id.
  eapply parses_bind_r; [apply parses_vtxs; assumption|apply parses_ret].
Qed.

(* ---- loops over members ---- *)
(* [encs i l] writes member k of l, numbered from i, as [h k x]: the shape of enc_members, of the
   collection's own member loop and (h constant) of a polygon's rings.  Every member is at least
   a byte long, so the fuel of [loop] (the unread length) suffices. *)
Lemma loopN_members {A} (h : nat -> A -> list N) (encs : nat -> list A -> list N) (step : P A) :
  (forall i, encs i [] = []) -> (forall i x r, encs i (x :: r) = h i x ++ encs (S i) r) ->
  forall l, (forall i x, In x l -> parses step (h i x) x /\ (1 <= length (h i x))%nat) ->
  forall i, (length l <= length (encs i l))%nat /\
            forall fuel acc, (length l <= fuel)%nat ->
              parses (loopN fuel (N.of_nat (length l)) step acc) (encs i l) (rev acc ++ l).
Proof.
  intros Hnil Hcons. induction l as [|x l IH]; intros H i.
  - rewrite Hnil. split; [apply Nat.le_0_l|]. intros fuel acc _.
    destruct fuel; cbn [loopN length N.of_nat N.eqb]; rewrite app_nil_r; apply parses_ret.
  - destruct (H i x (or_introl eq_refl)) as [Hp Hl].
    destruct (IH (fun k y Hy => H k y (or_intror Hy)) (S i)) as [IHl IHp].
    rewrite Hcons. split; [rewrite app_length; cbn [length]; lia|].
    intros [|f] acc Hf; cbn [length] in *; [lia|]. cbn [loopN].
    destruct (N.eqb_spec (N.of_nat (S (length l))) 0) as [E|_]; [lia|].
    eapply parses_bind; [exact Hp|].
    replace (N.of_nat (S (length l)) - 1) with (N.of_nat (length l)) by lia.
    replace (rev acc ++ x :: l) with (rev (x :: acc) ++ l) by (cbn [rev]; rewrite <- app_assoc; reflexivity).
    apply IHp. lia.
Qed.

Lemma parses_members {A} (h : nat -> A -> list N) (encs : nat -> list A -> list N) (step : P A) :
  (forall i, encs i [] = []) -> (forall i x r, encs i (x :: r) = h i x ++ encs (S i) r) ->
  forall l, (forall i x, In x l -> parses step (h i x) x /\ (1 <= length (h i x))%nat) ->
  forall i, parses (loop (N.of_nat (length l)) step) (encs i l) l.
Proof.
  intros Hnil Hcons l H i r a. destruct (loopN_members h encs step Hnil Hcons l H i) as [Hlen Hp].
  unfold loop, pbind, remaining. cbn [fst]. apply (Hp _ []). rewrite app_length. lia.
Qed.

(* ---- constructors are the identity on consistent members ---- *)
Lemma is0_eq x : N.eqb 0 x = true -> x = 0.
Proof. intros H. symmetry. apply N.eqb_eq, H. Qed.


Lemma members_id {A} (f : A -> ctype) (force : ctype -> A -> A) (ok : A -> bool) ct l :
  (forall x, ok x = true -> force ct x = x /\ f x = ct) -> forallb ok l = true ->
  map (force ct) l = l /\ (l <> [] -> and_all f l = ct).
Proof.
  intros Hid H. split.
  - exact (map_id_ok ok _ l (fun x Hx => proj1 (Hid x Hx)) H).
  - intros Hne. apply and_all_same; [exact Hne|]. rewrite forallb_forall in H.
    intros x Hx. apply (Hid x (H x Hx)).
Qed.

Lemma force_point_id ct p : point_ok (N.eqb 0) ct p = true -> force_point 0 ct p = p /\ point_ct p = ct.
Proof. intros H. split; [exact (CType_proofs.force_point_id N 0 _ is0_eq ct p H) | exact (point_ok_ct N _ ct p H)]. Qed.

Lemma force_line_id ct l : line_ok (N.eqb 0) ct l = true -> force_line 0 ct l = l /\ line_ct l = ct.
Proof. intros H. split; [exact (CType_proofs.force_line_id N 0 _ is0_eq ct l H) | exact (line_ok_ct N _ ct l H)]. Qed.

Lemma force_poly_id ct p : poly_ok (N.eqb 0) ct p = true -> force_poly 0 ct p = p /\ poly_ct p = ct.
Proof. intros H. split; [exact (CType_proofs.force_poly_id N 0 _ is0_eq ct p H) | exact (poly_ok_ct N _ ct p H)]. Qed.

Lemma force_geom_id ct g : geom_ok (N.eqb 0) ct g = true -> force_geom 0 ct g = g /\ geom_ct g = ct.
Proof. intros H. split; [exact (CType_proofs.force_geom_id N 0 _ is0_eq ct g H) | exact (geom_ok_ct N _ ct g H)]. Qed.

Lemma new_polygon_id ct rs :
  rs <> [] -> forallb (line_ok (N.eqb 0) ct) rs = true -> new_polygon 0 rs = MkPoly ct rs.
Proof. exact (CType_proofs.new_polygon_id N 0 _ is0_eq ct rs). Qed.

Lemma new_multipoint_id ct ps :
  ps <> [] -> forallb (point_ok (N.eqb 0) ct) ps = true -> new_multipoint 0 ps = GMPoint ct ps.
Proof. exact (CType_proofs.new_multipoint_id N 0 _ is0_eq ct ps). Qed.

Lemma new_multiline_id ct ls :
  ls <> [] -> forallb (line_ok (N.eqb 0) ct) ls = true -> new_multiline 0 ls = GMLine ct ls.
Proof. exact (CType_proofs.new_multiline_id N 0 _ is0_eq ct ls). Qed.

Lemma new_multipoly_id ct ps :
  ps <> [] -> forallb (poly_ok (N.eqb 0) ct) ps = true -> new_multipoly 0 ps = GMPoly ct ps.
Proof. exact (CType_proofs.new_multipoly_id N 0 _ is0_eq ct ps). Qed.

Lemma new_collection_id ct gs :
  gs <> [] -> forallb (geom_ok (N.eqb 0) ct) gs = true -> new_collection 0 gs = GColl ct gs.
Proof. exact (CType_proofs.new_collection_id N 0 _ is0_eq ct gs). Qed.

(* ---- lines and polygons as geometries ---- *)
Lemma parses_line e ct l :
  line_wf l = true -> line_ok (N.eqb 0) ct l = true ->
  forall f, parses (rd_geom (S f)) (enc_line e l) (GLine l).
Proof.
  intros Hwf Hok f. cbn [rd_geom]. unfold enc_line. destruct (force_line_id ct l Hok) as [_ ->].
  eapply parses_bind; [apply parses_header|]. cbn beta iota.
  eapply parses_bind_r; [apply parses_seq; assumption|]. apply parses_ret.
Qed.

Lemma enc_seq_nonempty e l : (1 <= length (enc_seq e l))%nat.
Proof. destruct l as [ct vs]. unfold enc_seq. rewrite app_length, put_length. lia. Qed.

Lemma Forall2_map_l {A B} (R : B -> A -> Prop) (f : A -> B) l :
  Forall (fun x => R (f x) x) l -> Forall2 R (map f l) l.
Proof. induction 1; cbn [map]; constructor; auto. Qed.

Lemma parses_poly_body e ct rs :
  poly_wf (MkPoly ct rs) = true -> forallb (line_ok (N.eqb 0) ct) rs = true ->
  parses (rd_poly e ct) (put e 4 (N.of_nat (length rs)) ++ flat_map (enc_seq e) rs) (MkPoly ct rs).
Proof.
  unfold poly_wf; cbn [poly_rings]. intros Hwf Hok.
  apply andb_prop in Hwf; destruct Hwf as [Hc Hw]. unfold count_ok in Hc; apply N.ltb_lt in Hc.
  unfold rd_poly.
  eapply parses_bind; [apply parses_u32; exact Hc|].
  destruct rs as [|r rs'].
  - cbn [length N.of_nat N.eqb flat_map]. apply parses_ret.
  - destruct (N.eqb_spec (N.of_nat (length (r :: rs'))) 0) as [E|_]; [cbn [length] in E; lia|].
    eapply parses_bind_r.
    + rewrite forallb_forall in Hw, Hok.
      refine (parses_members (fun _ => enc_seq e) (fun _ => flat_map (enc_seq e)) _
                (fun _ => eq_refl) (fun _ _ _ => eq_refl) (r :: rs') _ 0%nat).
      intros i x Hx. split; [apply parses_seq; auto|apply enc_seq_nonempty].
    + rewrite (new_polygon_id ct (r :: rs')) by (congruence || assumption). apply parses_ret.
Qed.

Lemma parses_poly e ct p :
  poly_wf p = true -> poly_ok (N.eqb 0) ct p = true ->
  forall f, parses (rd_geom (S f)) (enc_poly e p) (GPoly p).
Proof.
  destruct p as [c rs]. unfold poly_ok. intros Hwf Hok f.
  apply andb_prop in Hok; destruct Hok as [E Hok]. apply ct_eqb_eq in E. subst c.
  cbn [rd_geom]. unfold enc_poly.
  eapply parses_bind; [apply parses_header|]. cbn beta iota.
  eapply parses_bind_r; [apply parses_poly_body; assumption|]. apply parses_ret.
Qed.

(* ---- members written with index-dependent byte order ---- *)
Lemma member_parses {A} (inner : P geom) (cast : geom -> outcome A) bs g a :
  parses inner bs g -> cast g = Ok a -> parses (member inner cast) bs a.
Proof.
  intros Hp Hc. unfold member.
  eapply parses_bind_r; [exact Hp|]. rewrite Hc. intros r al. exists al. reflexivity.
Qed.

Lemma header_length e t ct : length (header e t ct) = 5%nat.
Proof. unfold header. cbn [length]. rewrite put_length. reflexivity. Qed.

Lemma enc_at_nonempty bo path g : (1 <= length (enc_at bo path g))%nat.
Proof.
  destruct g as [[ct c]|l|[ct rs]|c ps|c ls|c ps|c gs]; cbn [enc_at enc_point enc_poly]; unfold enc_line;
    rewrite app_length, header_length; apply le_n_S, Nat.le_0_l.
Qed.

(* [mk] is the constructor the decoder applies, [mkc] the node it has to rebuild *)
Lemma parses_counted {A} e (encs : nat -> list A -> list N) (h : nat -> A -> list N) (step : P A)
      (mk mkc : list A -> geom) (xs : list A) :
  (forall i, encs i [] = []) -> (forall i x r, encs i (x :: r) = h i x ++ encs (S i) r) ->
  count_ok xs = true ->
  (forall i x, In x xs -> parses step (h i x) x /\ (1 <= length (h i x))%nat) ->
  (xs <> [] -> mk xs = mkc xs) ->
  parses (doP n <- rd_u 4 e;
          if n =? 0 then pret (mkc []) else doP ps <- loop n step; pret (mk ps))
         (put e 4 (N.of_nat (length xs)) ++ encs 0%nat xs) (mkc xs).
Proof.
  intros Hnil Hcons Hc H Hmk. unfold count_ok in Hc; apply N.ltb_lt in Hc.
  eapply parses_bind; [apply parses_u32; exact Hc|].
  destruct (N.eqb_spec (N.of_nat (length xs)) 0) as [E|Hn].
  - destruct xs; [|cbn [length] in E; lia]. rewrite Hnil. apply parses_ret.
  - eapply parses_bind_r; [apply (parses_members h encs); assumption|].
    rewrite Hmk by (intros ->; apply Hn; reflexivity). apply parses_ret.
Qed.

Lemma depth_in (g : geom) gs :
  In g gs -> (depth g <= fold_right (fun x acc => Nat.max (depth x) acc) 0 gs)%nat.
Proof.
  induction gs as [|x gs IH]; cbn [In fold_right]; [intros []|]. intros [->|H]; [lia|]. specialize (IH H). lia.
Qed.

(* ---- the round trip ---- *)
Lemma parses_geom bo : forall g ct,
  geom_ok (N.eqb 0) ct g = true -> geom_wf g = true ->
  forall fuel path, (depth g <= fuel)%nat -> parses (rd_geom fuel) (enc_at bo path g) g.
Proof.
  induction g as [p|l|p|c ps|c ls|c ps|c gs IH] using geomT_ind';
    intros ct Hok Hwf fuel path Hd; cbn [geom_ok geom_wf depth enc_at] in *;
    (destruct fuel as [|f]; [lia|]).
  1: exact (parses_point _ ct p Hwf Hok f).
  1: exact (parses_line _ ct l Hwf Hok f).
  1: exact (parses_poly _ ct p Hwf Hok f).

  all: apply andb_prop in Hok; destruct Hok as [Hc Hok]; apply ct_eqb_eq in Hc; subst c;
    apply andb_prop in Hwf; destruct Hwf as [Hcnt Hwf]; rewrite forallb_forall in Hok, Hwf;
    cbn [rd_geom]; (eapply parses_bind; [apply parses_header|]); cbn beta iota.
  1-3: destruct f as [|f']; [lia|].
  - apply (parses_counted _ (enc_members bo enc_point path) (fun i => enc_point (bo (i :: path))) _
             (new_multipoint 0) (GMPoint ct)); try reflexivity; [exact Hcnt| |].
    + intros i x Hx. split; [|apply (enc_at_nonempty bo (i :: path) (GPoint x))].
      eapply member_parses; [apply (parses_point _ ct); auto|reflexivity].
    + intros Hne. apply new_multipoint_id; [exact Hne|apply forallb_forall, Hok].
  - apply (parses_counted _ (enc_members bo enc_line path) (fun i => enc_line (bo (i :: path))) _
             (new_multiline 0) (GMLine ct)); try reflexivity; [exact Hcnt| |].
    + intros i x Hx. split; [|apply (enc_at_nonempty bo (i :: path) (GLine x))].
      eapply member_parses; [apply (parses_line _ ct); auto|reflexivity].
    + intros Hne. apply new_multiline_id; [exact Hne|apply forallb_forall, Hok].
  - apply (parses_counted _ (enc_members bo enc_poly path) (fun i => enc_poly (bo (i :: path))) _
             (new_multipoly 0) (GMPoly ct)); try reflexivity; [exact Hcnt| |].
    + intros i x Hx. split; [|apply (enc_at_nonempty bo (i :: path) (GPoly x))].
      eapply member_parses; [apply (parses_poly _ ct); auto|reflexivity].
    + intros Hne. apply new_multipoly_id; [exact Hne|apply forallb_forall, Hok].
  - apply (parses_counted _ _ (fun i => enc_at bo (i :: path)) _ (new_collection 0) (GColl ct));
      try reflexivity; [exact Hcnt| |].
    + intros i x Hx. split; [|apply enc_at_nonempty].
      rewrite Forall_forall in IH. eapply parses_bind_r.
      * apply (IH x Hx ct); auto. pose proof (depth_in x _ Hx). lia.
      * destruct (force_geom_id ct x (Hok x Hx)) as [_ ->]. rewrite ct_eqb_refl. apply parses_ret.
    + intros Hne. apply new_collection_id; [exact Hne|apply forallb_forall, Hok].
Qed.

(* ---- fuel: the decoder is started with more fuel than the nesting depth of any encoding ---- *)
Lemma enc_coll_members_depth bo path (gs : list geom) :
  (forall g, In g gs -> forall pth, (depth g <= length (enc_at bo pth g))%nat) ->
  forall i,
  (fold_right (fun x acc => Nat.max (depth x) acc) 0 gs <=
   length ((fix go (i : nat) (l : list geom) {struct l} : list N :=
              match l with [] => [] | x :: r => enc_at bo (i :: path) x ++ go (S i) r end) i gs))%nat.
Proof.
  induction gs as [|x gs IH]; intros H i; cbn [fold_right]; [lia|].
  rewrite app_length.
  pose proof (H x (or_introl eq_refl) (i :: path)).
  specialize (IH (fun g Hg => H g (or_intror Hg)) (S i)). lia.
Qed.

Lemma depth_le_enc bo : forall (g : geom) path, (depth g <= length (enc_at bo path g))%nat.
Proof.
  induction g as [p|l|p|c ps|c ls|c ps|c gs IH] using geomT_ind'; intros path; cbn [depth].
  1-3: apply enc_at_nonempty.
  1-3: cbn [enc_at]; rewrite !app_length, header_length, put_length; lia.
  - cbn [enc_at]. rewrite !app_length, header_length, put_length.
    rewrite Forall_forall in IH.
    pose proof (enc_coll_members_depth bo path gs (fun g Hg pth => IH g Hg pth) 0%nat). lia.
Qed.

Lemma wf_split (g : geom) : wf_wkb g = true -> geom_ok (N.eqb 0) (geom_ct g) g = true /\ geom_wf g = true.
Proof. unfold wf_wkb, consistent. intros H. apply andb_prop in H. exact H. Qed.

(* decode (encode g ++ rest) = (g, rest), for every per-element byte-order choice *)
Lemma wkb_roundtrip_lemma bo (g : geom) rest :
  wf_wkb g = true -> dec (enc_bo bo g ++ rest) = Ok (g, rest).
Proof.
  intros H. destruct (wf_split g H) as [Hok Hwf].
  unfold dec, dec_full, enc_bo.
  assert (Hd : (depth g <= S (length (enc_at bo [] g ++ rest)))%nat).
  { pose proof (depth_le_enc bo g []). rewrite app_length. lia. }
  destruct (parses_geom bo g (geom_ct g) Hok Hwf _ [] Hd rest 0) as [a' E].
  rewrite E. reflexivity.
Qed.

Lemma wkb_roundtrip_identity_lemma (g : geomT N) : wf_wkb g = true -> dec (enc g) = Ok (g, []).
Proof.
  intros H. pose proof (wkb_roundtrip_lemma (fun _ => LE) g [] H) as R.
  now rewrite app_nil_r in R.
Qed.

Lemma wkb_endian_independent_lemma bo (g : geom) rest :
  wf_wkb g = true -> dec (enc_bo bo g ++ rest) = dec (enc g ++ rest).
Proof. intros H. unfold enc. rewrite !wkb_roundtrip_lemma by exact H. reflexivity. Qed.

Lemma wkb_reencode_lemma (g g' : geom) r :
  wf_wkb g = true -> dec (enc g) = Ok (g', r) -> enc g' = enc g /\ r = [].
Proof.
  intros H E. rewrite <- (app_nil_r (enc g)) in E. unfold enc in E.
  rewrite wkb_roundtrip_lemma in E by exact H. inversion E; subst. split; reflexivity.
Qed.

(* two well-formed values with the same encoding (under any byte orders) are equal;
   more generally no encoding is a proper prefix of a different value's encoding *)
Lemma wkb_injective_lemma bo1 bo2 (g h : geom) r1 r2 :
  wf_wkb g = true -> wf_wkb h = true -> enc_bo bo1 g ++ r1 = enc_bo bo2 h ++ r2 -> g = h /\ r1 = r2.
Proof.
  intros Hg Hh E. pose proof (wkb_roundtrip_lemma bo1 g r1 Hg) as E1.
  rewrite E in E1. rewrite (wkb_roundtrip_lemma bo2 h r2 Hh) in E1. inversion E1; subst. auto.
Qed.

Lemma gtype_eqb_eq a b : gtype_eqb a b = true <-> a = b.
Proof. destruct a, b; simpl; split; intros; try reflexivity; discriminate. Qed.

Lemma scan_value_lemma t (g : geom) :
  wf_wkb g = true ->
  scan t (enc g) = if gtype_eqb (geom_type g) t then Ok g else Err EMemberType.
Proof.
  intros H. unfold scan. rewrite <- (app_nil_r (enc g)). unfold enc.
  rewrite wkb_roundtrip_lemma by exact H. reflexivity.
Qed.
