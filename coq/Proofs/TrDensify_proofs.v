(* Property C17 - lemmas about Densify (Model/TrDensify.v). *)
From Coq Require Import ZArith QArith Qround Qfield Lqa List Bool Lia.
From SF Require Import Base.Outcome Base.GeomAST Base.QKernel Model.TrCommon Model.TrForce Model.TrDensify Model.TrInterp
  Proofs.TrReverse_proofs Proofs.TrForce_proofs Proofs.TrSimplify_proofs.
Import ListNotations.

(* ---- lerp: every branch is a + t*(b-a) in exact arithmetic ---- *)

Lemma Qmaxq_r (b x : Q) : b <= x -> Qmaxq b x == x.
Proof.
  intros H. unfold Qmaxq. destruct (Qle_bool b x) eqn:E; [reflexivity|].
  apply Qle_bool_false_iff in E. lra.
Qed.
Lemma Qminq_r (b x : Q) : x <= b -> Qminq b x == x.
Proof.
  intros H. unfold Qminq. destruct (Qle_bool b x) eqn:E; [|reflexivity].
  apply Qle_bool_iff in E. lra.
Qed.

Theorem lerpQ_exact (a b t : Q) : lerpQ a b t == a + t * (b - a).
Proof.
  unfold lerpQ.
  destruct ((Qle_bool a 0 && Qle_bool 0 b) || (Qle_bool 0 a && Qle_bool b 0)); [ring|].
  destruct (Qeq_bool t 1) eqn:T1.
  - apply Qeq_bool_iff in T1. rewrite T1. ring.
  - destruct (Qle_bool t 1) eqn:LT, (Qle_bool b a) eqn:LB; simpl.
    + apply Qle_bool_iff in LT, LB. apply Qmaxq_r. nra.
    + apply Qle_bool_iff in LT. apply Qle_bool_false_iff in LB. apply Qminq_r. nra.
    + apply Qle_bool_false_iff in LT. apply Qle_bool_iff in LB. apply Qminq_r. nra.
    + apply Qle_bool_false_iff in LT, LB. apply Qmaxq_r. nra.
Qed.

(* p is the point of parameter s on the segment a -> b, in all four ordinates *)
Definition param_pt (a b : qv) (s : Q) (p : qv) : Prop :=
  vx p == vx a + s * (vx b - vx a) /\ vy p == vy a + s * (vy b - vy a)
  /\ vz p == vz a + s * (vz b - vz a) /\ vm p == vm a + s * (vm b - vm a).

Lemma interp_coords_param (a b : qv) (s : Q) : param_pt a b s (interp_coords a b s).
Proof. unfold param_pt, interp_coords; simpl. repeat split; apply lerpQ_exact. Qed.

Lemma param_pt_0 (a b : qv) : param_pt a b 0 a.
Proof. unfold param_pt. repeat split; ring. Qed.

(* ---- the inserted points, at the fractions j/k (shared with InterpolateEvenlySpacedPoints) ---- *)
Lemma fracs_length n1 j cnt : length (fracs n1 j cnt) = cnt.
Proof. revert j; induction cnt; intros; simpl; auto. Qed.

Lemma fracs_nth n1 : forall cnt j i q,
  nth_error (fracs n1 j cnt) i = Some q -> (i < cnt)%nat /\ q = inject_Z (Z.of_nat (j + i)) / inject_Z n1.
Proof.
  induction cnt as [|c IH]; intros j i q H; simpl in H.
  - destruct i; discriminate.
  - destruct i as [|i']; simpl in H.
    + inversion H; subst. split; [lia|]. now rewrite Nat.add_0_r.
    + apply IH in H as [H1 H2]. split; [lia|]. rewrite H2.
      replace (S j + i')%nat with (j + S i')%nat by lia. reflexivity.
Qed.

Lemma inserted_fracs c0 c1 k j cnt : inserted c0 c1 k j cnt = map (interp_coords c0 c1) (fracs k j cnt).
Proof. revert j; induction cnt; intros; simpl; [reflexivity | now rewrite IHcnt]. Qed.

Section DensProofs.
  Variable kf : qv -> qv -> Z.

  Lemma densify_seq_head b r : exists t, densify_seq kf (b :: r) = b :: t.
  Proof. destruct r; simpl; eauto. Qed.

  Lemma densify_seq_step a b r :
    densify_seq kf (a :: b :: r) =
    a :: inserted a b (kf a b) 1 (Z.to_nat (kf a b - 1)) ++ densify_seq kf (b :: r).
  Proof. reflexivity. Qed.

  (* ---- originals kept, in order ---- *)
  Theorem densify_keeps_originals_lemma (vs : list qv) : Subseq vs (densify_seq kf vs).
  Proof.
    induction vs as [|a r IH]; [constructor|].
    destruct r as [|b r']; [apply Subseq_refl|].
    rewrite densify_seq_step. constructor. now apply Subseq_app_l.
  Qed.

  (* ---- structure: between two consecutive originals a, b exactly kf a b - 1 points, the j-th at
     parameter j / kf a b ---- *)
  Definition on_seg (a b : qv) (k : Z) (ins : list qv) : Prop :=
    length ins = Z.to_nat (k - 1)
    /\ forall i p, nth_error ins i = Some p ->
         (0 < Z.of_nat (S i) < k)%Z /\ param_pt a b (inject_Z (Z.of_nat (S i)) / inject_Z k) p.

  Inductive DensRel : list qv -> list qv -> Prop :=
  | DR_nil : DensRel [] []
  | DR_one : forall a, DensRel [a] [a]
  | DR_step : forall a b r ins out,
      on_seg a b (kf a b) ins -> DensRel (b :: r) (b :: out) ->
      DensRel (a :: b :: r) (a :: ins ++ b :: out).

  Lemma inserted_on_seg a b k : on_seg a b k (inserted a b k 1 (Z.to_nat (k - 1))).
  Proof.
    rewrite inserted_fracs. split; [now rewrite map_length, fracs_length|].
    intros i p H. rewrite nth_error_map in H.
    destruct (nth_error (fracs k 1 (Z.to_nat (k - 1))) i) as [q|] eqn:E; [|discriminate].
    apply fracs_nth in E as [H1 ->]. injection H as <-. split; [lia|].
    change (1 + i)%nat with (S i). apply interp_coords_param.
  Qed.

  Theorem densify_rel (vs : list qv) : DensRel vs (densify_seq kf vs).
  Proof.
    induction vs as [|a r IH]; [constructor|].
    destruct r as [|b r']; [constructor|].
    rewrite densify_seq_step. destruct (densify_seq_head b r') as (t & E). rewrite E in *.
    constructor; auto. apply inserted_on_seg.
  Qed.

  (* ---- gaps ---- *)
  Variable d : Q.
  Hypothesis d_pos : 0 < d.
  Hypothesis kf_ok : forall a b, (0 <= kf a b)%Z /\ d2 a b <= inject_Z (kf a b) * inject_Z (kf a b) * (d * d).

  Definition gap_le (s : qv * qv) : Prop := d2 (fst s) (snd s) <= d * d.

  Lemma d2_param (a b p q : qv) (s u : Q) :
    param_pt a b s p -> param_pt a b u q -> d2 p q == (u - s) * (u - s) * d2 a b.
  Proof. intros (A & B & _) (C & D & _). unfold d2. rewrite A, B, C, D. ring. Qed.

  Lemma gap_param (a b p q : qv) (k j : Z) : (1 <= k)%Z ->
    d2 a b <= inject_Z k * inject_Z k * (d * d) ->
    param_pt a b (inject_Z (j - 1) / inject_Z k) p -> param_pt a b (inject_Z j / inject_Z k) q ->
    gap_le (p, q).
  Proof.
    intros K1 HL Hp Hq.
    assert (0 < inject_Z k) as KP by (change 0 with (inject_Z 0); rewrite <- Zlt_Qlt; lia).
    set (K := inject_Z k) in *.
    assert (0 < 1 / K) as U by (apply Qlt_shift_div_l; lra).
    assert (inject_Z j / K - inject_Z (j - 1) / K == 1 / K) as FS.
    { unfold Z.sub. rewrite inject_Z_plus, inject_Z_opp. change (inject_Z 1) with 1. field. lra. }
    unfold gap_le; simpl. rewrite (d2_param a b p q _ _ Hp Hq), FS.
    assert ((1 / K) * K == 1) as E by (field; lra).
    set (u := 1 / K) in *.
    assert (u * u * d2 a b <= u * u * (K * K * (d * d))) as M by (apply Qmult_le_l; nra).
    setoid_replace (u * u * (K * K * (d * d))) with ((u * K) * (u * K) * (d * d)) in M by ring.
    rewrite E in M. lra.
  Qed.

  Lemma chain_gap (a b : qv) (k : Z) : (1 <= k)%Z ->
    d2 a b <= inject_Z k * inject_Z k * (d * d) ->
    forall cnt j prev, (Z.of_nat j + Z.of_nat cnt = k)%Z ->
      param_pt a b (inject_Z (Z.of_nat j - 1) / inject_Z k) prev ->
      Forall gap_le (line_segs (prev :: inserted a b k j cnt ++ [b])).
  Proof.
    intros K1 HL. induction cnt as [|c IH]; intros j prev JK P.
    - constructor; [|constructor]. apply (gap_param a b prev b k (Z.of_nat j)); auto.
      replace (Z.of_nat j) with k by lia.
      assert (~ inject_Z k == 0) as NZ by (change 0 with (inject_Z 0); rewrite inject_Z_injective; lia).
      unfold param_pt. repeat split; field; exact NZ.
    - pose proof (interp_coords_param a b (inject_Z (Z.of_nat j) / inject_Z k)) as N.
      cbn [inserted]. set (nx := interp_coords a b (inject_Z (Z.of_nat j) / inject_Z k)) in *.
      change (line_segs (prev :: (nx :: inserted a b k (S j) c) ++ [b]))
        with ((prev, nx) :: line_segs (nx :: inserted a b k (S j) c ++ [b])).
      constructor.
      + apply (gap_param a b prev nx k (Z.of_nat j)); auto.
      + apply IH; [lia|]. replace (Z.of_nat (S j) - 1)%Z with (Z.of_nat j) by lia. exact N.
  Qed.

  Theorem densify_gap_lemma (vs : list qv) : Forall gap_le (line_segs (densify_seq kf vs)).
  Proof.
    induction vs as [|a r IH]; [constructor|].
    destruct r as [|b r']; [constructor|].
    rewrite densify_seq_step. destruct (densify_seq_head b r') as (t & E). rewrite E in *.
    change (a :: inserted a b (kf a b) 1 (Z.to_nat (kf a b - 1)) ++ b :: t)
      with ((a :: inserted a b (kf a b) 1 (Z.to_nat (kf a b - 1))) ++ b :: t).
    rewrite line_segs_app_cons. apply Forall_app. split; auto.
    destruct (kf_ok a b) as [K0 KL].
    destruct (Z.eq_dec (kf a b) 0) as [Z0|NZ].
    - rewrite Z0 in *. simpl. constructor; [|constructor]. unfold gap_le; simpl.
      change (inject_Z 0) with 0 in KL. nra.
    - simpl app. apply chain_gap; try lia; auto.
      change (Z.of_nat 1 - 1)%Z with 0%Z. unfold param_pt, Qdiv. repeat split; ring.
  Qed.
End DensProofs.

(* ---- the exact subdivision count: ceil(|ab| / d) without square roots ---- *)
Lemma inject_Z_sq (k : Z) : inject_Z (k * k) == inject_Z k * inject_Z k.
Proof. rewrite inject_Z_mult. reflexivity. Qed.

(* k = k_exact d a b is ceil(sqrt q) for q = |ab|^2 / d^2:  (k-1)^2 < q <= k^2, the left half for k >= 1 *)
Lemma k_exact_bracket (d : Q) (a b : qv) : 0 < d ->
  (0 <= k_exact d a b)%Z
  /\ d2 a b <= inject_Z (k_exact d a b) * inject_Z (k_exact d a b) * (d * d)
  /\ ((1 <= k_exact d a b)%Z ->
      inject_Z (k_exact d a b - 1) * inject_Z (k_exact d a b - 1) * (d * d) < d2 a b).
Proof.
  intros D. unfold k_exact. set (q := d2 a b / (d * d)). set (n := Qceiling q).
  assert (0 < d * d) as DD by nra.
  assert (d2 a b == q * (d * d)) as E by (unfold q; field; lra).
  pose proof (Qle_ceiling q) as C. pose proof (Qceiling_lt q) as C'. fold n in C, C'.
  split; [apply Z.sqrt_up_nonneg|]. rewrite E.
  destruct (Z_lt_le_dec 0 n) as [P|NP].
  - destruct (Z.sqrt_up_spec n P) as [L U]. set (k := Z.sqrt_up n) in *. split.
    + assert (inject_Z n <= inject_Z k * inject_Z k) by (rewrite <- inject_Z_mult, <- Zle_Qle; exact U).
      apply Qmult_le_compat_r; lra.
    + intros _. assert (inject_Z (k - 1) * inject_Z (k - 1) <= inject_Z (n - 1))
        by (rewrite <- inject_Z_mult, <- Zle_Qle; replace (k - 1)%Z with (Z.pred k) by lia; lia).
      apply Qmult_lt_compat_r; lra.
  - rewrite (Z.sqrt_up_eqn0 n NP). split; [|lia]. change (inject_Z 0) with 0.
    assert (inject_Z n <= 0) by (change 0 with (inject_Z 0); rewrite <- Zle_Qle; lia). nra.
Qed.

Theorem k_exact_ok (d : Q) (a b : qv) : 0 < d ->
  (0 <= k_exact d a b)%Z /\ d2 a b <= inject_Z (k_exact d a b) * inject_Z (k_exact d a b) * (d * d).
Proof. intros D. destruct (k_exact_bracket d a b D) as (K0 & KU & _). now split. Qed.

(* it is the least such count: one subdivision fewer would leave a gap longer than d *)
Theorem k_exact_minimal (d : Q) (a b : qv) : 0 < d -> (1 <= k_exact d a b)%Z ->
  inject_Z (k_exact d a b - 1) * inject_Z (k_exact d a b - 1) * (d * d) < d2 a b.
Proof. intros D. apply (k_exact_bracket d a b D). Qed.

(* a zero-length segment (repeated point) is not subdivided *)
Theorem k_exact_zero (d : Q) (a b : qv) : d2 a b == 0 -> k_exact d a b = 0%Z.
Proof.
  intros Z. unfold k_exact.
  assert (d2 a b / (d * d) == inject_Z 0) as E by (rewrite Z; unfold Qdiv; ring).
  rewrite (Qceiling_comp _ _ E), Qceiling_Z. reflexivity.
Qed.

Corollary densify_gap_exact (d : Q) (vs : list qv) : 0 < d ->
  Forall (fun s => d2 (fst s) (snd s) <= d * d) (line_segs (densify_seq (k_exact d) vs)).
Proof. intros D. apply (densify_gap_lemma (k_exact d) d). intros a b. now apply k_exact_ok. Qed.

(* ---- degenerate inputs, coordinates type ---- *)
Lemma densify_seq_nil kf : densify_seq kf [] = [].
Proof. reflexivity. Qed.
Lemma densify_seq_single kf a : densify_seq kf [a] = [a].
Proof. reflexivity. Qed.
Lemma dens_line_panic kf d l : d <= 0 -> dens_line kf d l = Panic POther.
Proof. intros H. unfold dens_line. apply Qle_bool_iff in H. now rewrite H. Qed.
Lemma dens_line_spec kf d l : 0 < d ->
  exists l', dens_line kf d l = Ok l' /\ line_ct l' = line_ct l /\ line_vs l' = densify_seq kf (line_vs l).
Proof.
  intros H. unfold dens_line. destruct (Qle_bool d 0) eqn:E.
  - apply Qle_bool_iff in E. lra.
  - destruct l; eauto.
Qed.
