(* Sufficiency of the slab-witness oracle, part 2: coverage and the corollaries.
   witness_cover        : every point of Q^2 is in the same cell as some witness of (L,P)
   witnesses_sufficient : ... hence has the same location as that witness w.r.t. every geometry contained
                          in the arrangement whose rings are closed
   inG_agree_everywhere / locate_agree_everywhere / pointwise_everywhere : what holds at all witnesses
                          holds at all points
   de9im_ref_sufficient : an entry of the reference matrix is set iff some point of the plane has that
                          pair of locations.
   Hypothesis used: rings_closed (every polygon ring is a closed vertex list) - true of every valid polygon.
   No validity of any other kind is needed (rings may self-intersect, members may overlap). *)
From Coq Require Import QArith Qreduction List Bool ZArith Lia Lqa Setoid Morphisms.
From SF Require Import Base.GeomAST Base.QKernel Base.Planar Proofs.Planar_proofs Proofs.Planar_slab_base.
Import ListNotations.
Open Scope Q_scope.


Section Cover.
  Variables (L : list seg) (P : list pt).
  Let V := vertex_set L P.
  Let xs := events V.

  Lemma vertex_event v : In v V -> exists x, In x xs /\ x == fst v.
  Proof. intros Hv. apply qsort_has. apply in_map. exact Hv. Qed.


  Lemma vertex_in_range x0 l v : xs = x0 :: l -> In v V -> x0 <= fst v <= last l x0.
  Proof.
    intros E Hv. destruct (vertex_event v Hv) as [x [Hx Ex]]. rewrite E in Hx.
    assert (S : qsorted (x0 :: l)) by (rewrite <- E; apply qsort_sorted).
    pose proof (qsorted_head_le x0 l x S Hx). pose proof (qsorted_last_ge x0 l x S Hx). lra.
  Qed.

  (* points to the left (right) of every vertex *)
  Lemma outer_same_cell p w :
    (forall v, In v V -> fst p < fst v /\ fst w < fst v) \/ (forall v, In v V -> fst v < fst p /\ fst v < fst w) ->
    same_cell L V p w.
  Proof.
    intros H. apply compare_same_cell.
    - intros v Hv. apply Qcompare_same_side. destruct H as [H|H]; [left | right]; exact (H v Hv).
    - intros v Hv E. destruct H as [H|H]; destruct (H v Hv); lra.
    - intros e He _ B. apply qbetween_iff in B. destruct (seg_end_vertex L P e He) as [Ha Hb].
      destruct H as [H|H]; destruct (H _ Ha), (H _ Hb); lra.
  Qed.
  Lemma left_same_cell p w : (forall v, In v V -> fst p < fst v /\ fst w < fst v) -> same_cell L V p w.
  Proof. intros H. apply outer_same_cell. left. exact H. Qed.
  Lemma right_same_cell p w : (forall v, In v V -> fst v < fst p /\ fst v < fst w) -> same_cell L V p w.
  Proof. intros H. apply outer_same_cell. right. exact H. Qed.

  (* ---- event lines *)
  Lemma event_cover x p : fst p == x ->
    exists w d, In (w, d) (event_witnesses L V x) /\ same_cell L V p w.
  Proof.
    intros Hp. unfold event_witnesses.
    edestruct (column_oracle (fun y => snd p ?= y) x (line_ordinates L V x)) as [w [d [Hin [Hx Hc]]]].
    - apply qsort_sorted.
    - intros y y' _ _ Lt Hy. exact (Qcompare_le_lt _ y y' Hy Lt).
    - exists w, d. split; [exact Hin|]. apply (event_same_cell L P x); [exact Hp | rewrite Hx; reflexivity | exact Hc].
  Qed.

  (* ---- open slabs *)
  Variables x0 x1 : Q.
  Hypothesis Hcons : In (x0, x1) (consec xs).
  Let xm := qmid x0 x1.

  Lemma xm_inside : x0 < xm < x1.
  Proof. exact (qmid_between x0 x1 (slab_lt L P x0 x1 Hcons)). Qed.

  Lemma xm_no_vertex v : In v V -> Qeq_bool (fst v) xm = false.
  Proof.
    intros Hv. apply Qeq_bool_false_iff. pose proof xm_inside. destruct (slab_no_vertex L P x0 x1 Hcons v Hv); lra.
  Qed.
  Lemma xm_vertex_ordinates : vertex_ordinates V xm = [].
  Proof. apply flat_map_nil. intros v Hv. rewrite (xm_no_vertex v Hv). reflexivity. Qed.

  (* the mid-line of a slab is an event line without vertices: the same heights, the same witnesses *)
  Lemma slab_heights_eq : slab_heights L xm = line_ordinates L V xm.
  Proof.
    unfold slab_heights, line_ordinates. rewrite xm_vertex_ordinates. cbn [app]. f_equal.
    apply flat_map_ext_in. intros e He. destruct (seg_vertical e); [reflexivity|].
    destruct (seg_end_vertex L P e He) as [Ha Hb]. apply xm_no_vertex in Ha, Hb.
    unfold qbetween. rewrite !qltb_le by (assumption || (rewrite Qeq_bool_comm; assumption)). reflexivity.
  Qed.
  Lemma slab_witnesses_eq : slab_witnesses L x0 x1 = event_witnesses L V xm.
  Proof.
    unfold slab_witnesses, event_witnesses. fold xm. rewrite slab_heights_eq, xm_vertex_ordinates. apply column_ext.
    - reflexivity.
    - intros y1 y2. unfold vertical_covers. rewrite existsb_all_false; [reflexivity|]. intros e He.
      rewrite (xm_no_vertex _ (proj1 (seg_end_vertex L P e He))), andb_false_r. reflexivity.
  Qed.

  Lemma heights_in y : In y (slab_heights L xm) -> exists e, In e L /\ spans x0 x1 e /\ y = seg_y_at e xm.
  Proof.
    rewrite slab_heights_eq. intros H. destruct (ordinate_inv L P xm y H) as [Hv|[e [He [NV [B E]]]]].
    - fold V in Hv. rewrite xm_vertex_ordinates in Hv. destruct Hv.
    - exists e. split; [exact He|]. split; [exact (between_spans L P x0 x1 Hcons e xm He xm_inside NV B) | exact E].
  Qed.
  Lemma heights_has e : In e L -> spans x0 x1 e -> exists y, In y (slab_heights L xm) /\ y == y_at e xm.
  Proof.
    intros He Se. rewrite slab_heights_eq.
    apply (ordinate_crossing L P xm e He); [apply Se | exact (spans_between L P x0 x1 Hcons e xm Se xm_inside)].
  Qed.

  Variable p : pt.
  Hypothesis Hp : x0 < fst p < x1.

  Definition over_xm (e : seg) : bool := negb (seg_vertical e) && qbetween (fst (fst e)) (fst (snd e)) xm.
  Lemma over_xm_spans e : In e L -> (over_xm e = true <-> spans x0 x1 e).
  Proof.
    intros He. unfold over_xm. rewrite andb_true_iff, negb_true_iff, seg_vertical_false. split.
    - intros [NV B]. exact (between_spans L P x0 x1 Hcons e xm He xm_inside NV B).
    - intros Se. split; [apply Se | exact (spans_between L P x0 x1 Hcons e xm Se xm_inside)].
  Qed.

  (* how p compares with the spanning segment(s) whose height at xm is y *)
  Definition oracle (y : Q) : comparison :=
    match find (fun e => over_xm e && Qeq_bool (seg_y_at e xm) y) L with
    | Some e => snd p ?= y_at e (fst p)
    | None => Eq
    end.

  Lemma oracle_spec e y : In e L -> spans x0 x1 e -> y == y_at e xm -> oracle y = (snd p ?= y_at e (fst p)).
  Proof.
    intros He Se Ey. unfold oracle.
    destruct (find (fun e => over_xm e && Qeq_bool (seg_y_at e xm) y) L) as [e'|] eqn:F.
    - apply find_some in F. destruct F as [He' F]. apply andb_true_iff in F. destruct F as [Sb Q].
      apply Qeq_bool_iff in Q. rewrite seg_y_at_eq in Q. apply (over_xm_spans e' He') in Sb.
      rewrite (order_eq L P x0 x1 Hcons e' e xm (fst p)); auto using xm_inside. lra.
    - exfalso. pose proof (find_none _ _ F e He) as N. cbn beta in N.
      rewrite (proj2 (over_xm_spans e He) Se) in N. cbn [andb] in N. apply Qeq_bool_false_iff in N.
      apply N. rewrite seg_y_at_eq. lra.
  Qed.

  Lemma oracle_mono : mono oracle (slab_heights L xm).
  Proof.
    intros y y' Hy Hy' Lt Hc.
    destruct (heights_in y Hy) as [e [He [Sb Ey]]]. destruct (heights_in y' Hy') as [e' [He' [Sb' Ey']]].
    assert (Ey2 : y == y_at e xm) by (rewrite Ey; apply seg_y_at_eq).
    assert (Ey2' : y' == y_at e' xm) by (rewrite Ey'; apply seg_y_at_eq).
    rewrite (oracle_spec e y He Sb Ey2) in Hc. rewrite (oracle_spec e' y' He' Sb' Ey2').
    apply (Qcompare_le_lt _ _ _ Hc), (order_lt L P x0 x1 Hcons e e' xm (fst p)); auto using xm_inside. lra.
  Qed.

  Lemma slab_cover : exists w d, In (w, d) (slab_witnesses L x0 x1) /\ same_cell L V p w.
  Proof.
    unfold slab_witnesses. fold xm.
    destruct (column_oracle oracle xm (slab_heights L xm) (fun _ => D1) (fun _ _ => D2)
                (qsort_sorted _) oracle_mono) as [w [d [Hin [Hx Hc]]]].
    exists w, d. split; [exact Hin|].
    apply (slab_same_cell L P x0 x1 Hcons p w Hp).
    - rewrite Hx. apply xm_inside.
    - intros e He Se. destruct (heights_has e He Se) as [y [Hy Ey]].
      rewrite <- (oracle_spec e y He Se Ey). rewrite (Hc y Hy). rewrite Hx, Ey. reflexivity.
  Qed.
End Cover.

(* ---- coverage: every point of the plane shares its cell with a witness *)
Theorem witness_cover L P p :
  exists w d, In (w, d) (witnesses L P) /\ same_cell L (vertex_set L P) p w.
Proof.
  unfold witnesses. pose proof (vertex_in_range L P) as Ev. cbv zeta in Ev.
  destruct (events (vertex_set L P)) as [|x0 l] eqn:Exs.
  - exists (0, 0), D2. split; [left; reflexivity|]. apply outer_same_cell. left.
    intros v Hv. destruct (vertex_event L P v Hv) as [x [Hx _]]. cbv zeta in Hx. rewrite Exs in Hx. destruct Hx.
  - specialize (Ev x0 l). pose proof (qsort_sorted (map fst (vertex_set L P))) as S. fold (events (vertex_set L P)) in S.
    rewrite Exs in S.
    destruct (qsorted_position x0 l (fst p) S) as [K|[K|[[x [Hx Ex]]|[a [b [Hc Hb]]]]]].
    + exists (Qred (x0 - 1), 0), D2. split; [left; reflexivity|]. apply left_same_cell.
      intros v Hv. destruct (Ev v eq_refl Hv). cbn [fst]. rewrite Qred_correct. split; lra.
    + exists (Qred (last (x0 :: l) x0 + 1), 0), D2. split; [right; left; reflexivity|]. apply right_same_cell.
      intros v Hv. destruct (Ev v eq_refl Hv). cbn [fst]. rewrite Qred_correct, last_cons_default. split; lra.
    + destruct (event_cover L P x p Ex) as [w [d [Hin Hs]]]. exists w, d. split; [|exact Hs].
      right. right. apply in_or_app. left. apply in_flat_map. exists x. split; [exact Hx | exact Hin].
    + rewrite <- Exs in Hc. destruct (slab_cover L P a b Hc p Hb) as [w [d [Hin Hs]]]. exists w, d. split; [|exact Hs].
      right. right. apply in_or_app. right. rewrite <- Exs. apply (slabs_between_in L _ a b (w, d) Hc Hin).
Qed.


(* S3, uniform form: every point of Q^2 has a witness with the same location with respect to EVERY
   geometry contained in the arrangement (closed rings) *)
Theorem witnesses_sufficient L P p :
  exists w d, In (w, d) (witnesses L P) /\
    forall g, covers_geom L P g -> rings_closed g -> locate g p = locate g w.
Proof.
  destruct (witness_cover L P p) as [w [d [Hin Hs]]]. exists w, d. split; [exact Hin|].
  intros g Hc Hr. apply (locate_same_cell L P g p w Hc Hr Hs).
Qed.

Lemma inG_of_locate g p w : locate g p = locate g w -> inG g p = inG g w.
Proof.
  intros E. apply eq_true_iff_eq. rewrite !inG_locate, E. tauto.
Qed.

(* agreement of two geometries at the witnesses of a common arrangement is agreement everywhere *)
Theorem inG_agree_everywhere L P g1 g2 :
  covers_geom L P g1 -> covers_geom L P g2 -> rings_closed g1 -> rings_closed g2 ->
  (forall w d, In (w, d) (witnesses L P) -> inG g1 w = inG g2 w) ->
  forall p, inG g1 p = inG g2 p.
Proof.
  intros C1 C2 R1 R2 H p. destruct (witnesses_sufficient L P p) as [w [d [Hin Hs]]].
  rewrite (inG_of_locate g1 p w (Hs g1 C1 R1)), (inG_of_locate g2 p w (Hs g2 C2 R2)). apply (H w d Hin).
Qed.
Theorem locate_agree_everywhere L P g1 g2 :
  covers_geom L P g1 -> covers_geom L P g2 -> rings_closed g1 -> rings_closed g2 ->
  (forall w d, In (w, d) (witnesses L P) -> locate g1 w = locate g2 w) ->
  forall p, locate g1 p = locate g2 p.
Proof.
  intros C1 C2 R1 R2 H p. destruct (witnesses_sufficient L P p) as [w [d [Hin Hs]]].
  rewrite (Hs g1 C1 R1), (Hs g2 C2 R2). apply (H w d Hin).
Qed.
(* a boolean combination of memberships that holds at every witness holds at every point *)
Theorem pointwise_everywhere L P (gs : list geom) (F : list bool -> bool) :
  (forall g, In g gs -> covers_geom L P g /\ rings_closed g) ->
  (forall w d, In (w, d) (witnesses L P) -> F (map (fun g => inG g w) gs) = true) ->
  forall p, F (map (fun g => inG g p) gs) = true.
Proof.
  intros C H p. destruct (witnesses_sufficient L P p) as [w [d [Hin Hs]]].
  rewrite (map_ext_in (fun g => inG g p) (fun g => inG g w)); [apply (H w d Hin)|].
  intros g Hg. apply inG_of_locate. destruct (C g Hg). apply Hs; assumption.
Qed.

(* the pair arrangement contains both operands *)
Lemma pair_covers a b :
  covers_geom (canon_segs (arr_segments a ++ arr_segments b)) (canon_pts (arr_points a ++ arr_points b)) a /\
  covers_geom (canon_segs (arr_segments a ++ arr_segments b)) (canon_pts (arr_points a ++ arr_points b)) b.
Proof.
  unfold covers_geom. repeat split; intros x Hx;
    first [apply arr_in_canon_segs | apply arr_in_canon_pts]; apply in_or_app; auto.
Qed.

(* S3 for the reference matrix: an entry is set iff some point of the plane has that pair of locations *)
Theorem de9im_ref_sufficient a b la lb :
  rings_closed a -> rings_closed b ->
  (mget (de9im_ref a b) la lb <> DF <-> exists p, locate a p = la /\ locate b p = lb).
Proof.
  intros Ra Rb. split.
  - intros H. destruct (de9im_ref_entry_witnessed a b la lb H) as [w [_ [H1 H2]]]. exists w. auto.
  - intros [p [H1 H2]]. destruct (pair_covers a b) as [Ca Cb].
    destruct (witnesses_sufficient (canon_segs (arr_segments a ++ arr_segments b)) (canon_pts (arr_points a ++ arr_points b)) p) as [w [d [Hin Hs]]].
    fold (pair_witnesses a b) in Hin.
    pose proof (de9im_ref_entry_ge a b w d Hin) as G.
    rewrite <- (Hs a Ca Ra), <- (Hs b Cb Rb), H1, H2 in G.
    pose proof (witness_dim_not_F _ _ w d Hin) as Nd.
    intros E. rewrite E in G. destruct d; simpl in G; try lia. congruence.
Qed.
Print Assumptions de9im_ref_sufficient.
Print Assumptions inG_agree_everywhere.
