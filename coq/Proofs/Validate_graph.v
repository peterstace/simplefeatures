(* Property C03 - the touch graph (geom/graph.go): hasCycle / dfsHasCycle report a cycle exactly
   when the undirected simple graph has a simple cycle, whatever order the adjacency maps are
   iterated in (the model fixes list order; the statement does not mention it).
   Main result: has_cycle_spec_lemma. *)
From Coq Require Import List Bool Arith Lia Permutation.
From SF Require Import Model.Validate.
Import ListNotations.


(* ------------------------------------------------------------------ undirected simple graphs *)
Definition Adj (g : graph) (u v : nat) : Prop := In (u, v) g \/ In (v, u) g.
Lemma Adj_sym g u v : Adj g u v -> Adj g v u.
Proof. unfold Adj. tauto. Qed.

Lemma nat_mem_iff x l : nat_mem x l = true <-> In x l.
Proof.
  unfold nat_mem. rewrite existsb_exists. split.
  - intros [y [H E]]. apply Nat.eqb_eq in E. subst. exact H.
  - intros H. exists x. split; auto. apply Nat.eqb_refl.
Qed.
Lemma nat_mem_false x l : nat_mem x l = false <-> ~ In x l.
Proof. rewrite <- nat_mem_iff. destruct (nat_mem x l); split; congruence. Qed.
Lemma nat_nodup_in x l : In x (nat_nodup l) <-> In x l.
Proof.
  induction l as [|y r IH]; simpl; [tauto|].
  destruct (nat_mem y r) eqn:E.
  - rewrite IH. split; auto. intros [<-|H]; auto. apply nat_mem_iff. exact E.
  - simpl. rewrite IH. tauto.
Qed.
Lemma nat_remove_in x y l : In x (nat_remove y l) <-> In x l /\ x <> y.
Proof.
  unfold nat_remove. rewrite filter_In, negb_true_iff, Nat.eqb_neq. intuition.
Qed.

Lemma g_adj_iff g u v : In v (g_adj g u) <-> Adj g u v.
Proof.
  unfold g_adj, Adj. rewrite nat_nodup_in, in_flat_map. split.
  - intros [[a b] [He H]]. simpl in H.
    destruct (Nat.eqb a u) eqn:E1.
    + apply Nat.eqb_eq in E1. destruct H as [<-|[]]. subst. left. exact He.
    + destruct (Nat.eqb b u) eqn:E2; [|destruct H].
      apply Nat.eqb_eq in E2. destruct H as [<-|[]]. subst. right. exact He.
  - intros [H|H].
    + exists (u, v). split; auto. simpl. rewrite Nat.eqb_refl. left; reflexivity.
    + exists (v, u). split; auto. simpl. destruct (Nat.eqb v u) eqn:E.
      * apply Nat.eqb_eq in E. left. symmetry. exact E.
      * rewrite Nat.eqb_refl. left; reflexivity.
Qed.
Lemma g_vertices_iff g v : In v (g_vertices g) <-> exists w, Adj g v w.
Proof.
  unfold g_vertices, Adj. rewrite nat_nodup_in, in_flat_map. split.
  - intros [[a b] [He [<-|[<-|[]]]]]; simpl; [exists b | exists a]; auto.
  - intros [w [H|H]]; [exists (v, w) | exists (w, v)]; simpl; auto.
Qed.

(* a path: consecutive vertices adjacent (listed end point first) *)
Fixpoint gpath (g : graph) (l : list nat) : Prop :=
  match l with
  | a :: ((b :: _) as r) => Adj g a b /\ gpath g r
  | _ => True
  end.
Lemma gpath_cons g a b r : gpath g (a :: b :: r) <-> Adj g a b /\ gpath g (b :: r).
Proof. simpl. tauto. Qed.
Lemma gpath_app_iff g l1 y l2 : gpath g (l1 ++ y :: l2) <-> gpath g (l1 ++ [y]) /\ gpath g (y :: l2).
Proof.
  induction l1 as [|a r IH]; [simpl; tauto|]. destruct r as [|b r'].
  - cbn [app]. rewrite !gpath_cons. simpl. tauto.
  - cbn [app] in *. rewrite !gpath_cons, IH. tauto.
Qed.
Lemma gpath_rev g l : gpath g l -> gpath g (rev l).
Proof.
  induction l as [|a r IH]; simpl; auto. destruct r as [|b r'].
  - simpl. auto.
  - intros [H1 H2]. specialize (IH H2). simpl in *.
    rewrite <- app_assoc. simpl. apply gpath_app_iff. split; [exact IH|]. split; [apply Adj_sym; exact H1 | exact I].
Qed.

(* a simple cycle: at least three distinct vertices, consecutive ones adjacent, last adjacent to first *)
Definition Cycle (g : graph) (c : list nat) : Prop :=
  3 <= length c /\ NoDup c /\ gpath g c /\ (exists a z, hd_error c = Some a /\ last c a = z /\ Adj g z a).
Definition no_self_loops (g : graph) : Prop := forall e, In e g -> fst e <> snd e.
Lemma Adj_irrefl g u : no_self_loops g -> ~ Adj g u u.
Proof. intros H [K|K]; apply H in K; simpl in K; congruence. Qed.

Definition pred_of (l : list nat) : option nat := match l with _ :: p :: _ => Some p | _ => None end.

(* ---- the loop over the neighbours ---- *)
Lemma opt_nat_eqb_iff o j : opt_nat_eqb o j = true <-> o = Some j.
Proof.
  destruct o as [k|]; simpl; [|split; discriminate]. rewrite Nat.eqb_eq. split; congruence.
Qed.

Lemma dfs_nbs_false rec parent vis nbs unv unv' :
  dfs_nbs rec parent vis nbs unv = (false, unv') ->
  forall nb, In nb nbs -> parent <> Some nb ->
    nat_mem nb vis = false /\ exists u u', rec nb u = (false, u').
Proof.
  revert unv. induction nbs as [|n r IH]; intros unv H nb Hin Hp; [destruct Hin|].
  simpl in H. destruct (opt_nat_eqb parent n) eqn:E1.
  - apply opt_nat_eqb_iff in E1. destruct Hin as [<-|Hin]; [congruence|]. eapply IH; eauto.
  - destruct (nat_mem n vis) eqn:E2; [discriminate|].
    destruct (rec n unv) as [b u2] eqn:E3. destruct b; [discriminate|].
    destruct Hin as [<-|Hin]; [split; eauto | eapply IH; eauto].
Qed.

Lemma dfs_nbs_true rec parent vis nbs unv unv' :
  dfs_nbs rec parent vis nbs unv = (true, unv') ->
  exists nb, In nb nbs /\ parent <> Some nb /\
    (nat_mem nb vis = true \/ (nat_mem nb vis = false /\ exists u u', rec nb u = (true, u'))).
Proof.
  revert unv. induction nbs as [|n r IH]; intros unv H; [discriminate|].
  simpl in H. destruct (opt_nat_eqb parent n) eqn:E1.
  - destruct (IH _ H) as [nb [Hin K]]. exists nb. split; [right; exact Hin | exact K].
  - assert (Hp : parent <> Some n) by (intros K; apply opt_nat_eqb_iff in K; congruence).
    destruct (nat_mem n vis) eqn:E2.
    + exists n. split; [left; reflexivity|]. split; auto.
    + destruct (rec n unv) as [b u2] eqn:E3. destruct b.
      * exists n. split; [left; reflexivity|]. split; auto. right. split; eauto.
      * destruct (IH _ H) as [nb [Hin K]]. exists nb. split; [right; exact Hin | exact K].
Qed.

(* something leaves the unvisited set only through a recursive call *)
Lemma dfs_nbs_removed rec parent vis nbs u1 b u2 x :
  dfs_nbs rec parent vis nbs u1 = (b, u2) -> In x u1 -> ~ In x u2 ->
  exists nb ua b' ub, In nb nbs /\ nat_mem nb vis = false /\ rec nb ua = (b', ub) /\ In x ua /\ ~ In x ub.
Proof.
  revert u1. induction nbs as [|n r IH]; intros u1 H Hx Hnx.
  - simpl in H. inversion H; subst. contradiction.
  - simpl in H. destruct (opt_nat_eqb parent n).
    + destruct (IH _ H Hx Hnx) as [nb [ua [b' [ub [K1 K2]]]]]. exists nb, ua, b', ub. split; [right; exact K1 | exact K2].
    + destruct (nat_mem n vis) eqn:E2.
      * inversion H; subst. contradiction.
      * destruct (rec n u1) as [b1 u3] eqn:E3.
        destruct (in_dec Nat.eq_dec x u3) as [Hin3|Hn3].
        -- destruct b1.
           ++ inversion H; subst. contradiction.
           ++ destruct (IH _ H Hin3 Hnx) as [nb [ua [b' [ub [K1 K2]]]]]. exists nb, ua, b', ub. split; [right; exact K1 | exact K2].
        -- exists n, u1, b1, u3. split; [left; reflexivity|]. auto.
Qed.


Lemma dfs_S g f parent v visited unv :
  dfs g (S f) parent v visited unv =
  dfs_nbs (fun nb u => dfs g f (Some v) nb (v :: visited) u) parent (v :: visited) (g_adj g v) (nat_remove v unv).
Proof. reflexivity. Qed.

(* ---- soundness: a reported cycle exists ---- *)
Lemma in_split_first (x : nat) l : In x l -> exists l1 l2, l = l1 ++ x :: l2.
Proof. apply in_split. Qed.

Lemma NoDup_app_l {A} (l1 l2 : list A) : NoDup (l1 ++ l2) -> NoDup l1.
Proof. induction l1 as [|a r IH]; simpl; intros H; [constructor|]. inversion H; subst. constructor; auto. intros K. apply H2. apply in_or_app; auto. Qed.

Lemma dfs_sound g (Hns : no_self_loops g) f : forall parent v visited unv unv',
  parent = hd_error visited -> NoDup (v :: visited) -> gpath g (v :: visited) ->
  dfs g f parent v visited unv = (true, unv') -> exists c, Cycle g c.
Proof.
  induction f as [|f IH]; intros parent v visited unv unv' Hp Hnd Hpath H; [discriminate|].
  rewrite dfs_S in H. apply dfs_nbs_true in H.
  destruct H as [nb [Hin [Hnp [Hm|[Hm [u [u' Hrec]]]]]]].
  - (* a neighbour on the path other than the parent *)
    apply g_adj_iff in Hin. apply nat_mem_iff in Hm.
    destruct Hm as [<-|Hm]; [exfalso; exact (Adj_irrefl g v Hns Hin)|].
    destruct (in_split nb visited Hm) as [l1 [l2 E]].
    destruct l1 as [|p l1'].
    { subst visited. simpl in Hp. congruence. }
    exists (v :: (p :: l1') ++ [nb]). unfold Cycle.
    assert (Efull : v :: visited = (v :: (p :: l1') ++ [nb]) ++ l2).
    { rewrite E. simpl. rewrite <- app_assoc. reflexivity. }
    split; [simpl; rewrite app_length; simpl; lia|].
    split; [apply (NoDup_app_l _ l2); rewrite <- Efull; exact Hnd|].
    split; [rewrite E in Hpath; exact (proj1 (proj1 (gpath_app_iff g (v :: p :: l1') nb l2) Hpath))|].
    exists v, nb. split; [reflexivity|]. split.
    + change (v :: (p :: l1') ++ [nb]) with ((v :: p :: l1') ++ [nb]). apply last_last.
    + apply Adj_sym. exact Hin.
  - apply g_adj_iff in Hin. apply nat_mem_false in Hm.
    apply (IH (Some v) nb (v :: visited) u u'); auto.
    + constructor; auto.
    + rewrite gpath_cons. split; [apply Adj_sym; exact Hin | exact Hpath].
Qed.

(* ---- completeness: after a search that reports nothing, no simple path from the start vertex
   ends in a vertex with an edge back into the path (other than to its predecessor) ---- *)
Lemma dfs_complete g f : forall parent v visited unv unv',
  parent = hd_error visited ->
  dfs g f parent v visited unv = (false, unv') ->
  forall q, length q < f -> NoDup (q ++ v :: visited) -> gpath g (q ++ v :: visited) ->
  forall e w, hd_error (q ++ v :: visited) = Some e -> Adj g e w ->
              pred_of (q ++ v :: visited) <> Some w -> ~ In w (q ++ v :: visited).
Proof.
  induction f as [|f IH]; intros parent v visited unv unv' Hp H q Hlen Hnd Hpath e w He Hadj Hpred; [lia|].
  rewrite dfs_S in H.
  destruct q as [|q1 q' _] using rev_ind.
  - (* the end point is v itself *)
    simpl in *. inversion He; subst e.
    assert (Hw : In w (g_adj g v)) by (apply g_adj_iff; exact Hadj).
    assert (Hnp : parent <> Some w).
    { rewrite Hp. destruct visited; simpl in *; congruence. }
    destruct (dfs_nbs_false _ _ _ _ _ _ H w Hw Hnp) as [Hm _].
    apply nat_mem_false in Hm. exact Hm.
  - (* the path continues through q1, a neighbour of v into which the search descended *)
    rewrite <- app_assoc in *. simpl in *.
    assert (Hq1 : Adj g q1 v).
    { apply (proj1 (gpath_app_iff g q' q1 (v :: visited))) in Hpath. rewrite gpath_cons in Hpath. tauto. }
    assert (Hq1in : In q1 (g_adj g v)) by (apply g_adj_iff; apply Adj_sym; exact Hq1).
    assert (Hq1nv : ~ In q1 (v :: visited)).
    { apply NoDup_remove_2 in Hnd. intros K. apply Hnd. apply in_or_app. right. exact K. }
    assert (Hnp : parent <> Some q1).
    { rewrite Hp. destruct visited as [|p r]; simpl; [congruence|]. intros K. inversion K; subst. apply Hq1nv. right; left; reflexivity. }
    destruct (dfs_nbs_false _ _ _ _ _ _ H q1 Hq1in Hnp) as [_ [u [u' Hrec]]].
    assert (Hlen' : length q' < f) by (rewrite app_length in Hlen; simpl in Hlen; lia).
    exact (IH (Some v) q1 (v :: visited) u u' eq_refl Hrec q' Hlen' Hnd Hpath e w He Hadj Hpred).
Qed.


(* ---- whatever leaves the unvisited set is the end point of a simple path from the start vertex ---- *)
Lemma dfs_removed g f : forall parent v visited u1 b u2 x,
  NoDup (v :: visited) -> gpath g (v :: visited) ->
  dfs g f parent v visited u1 = (b, u2) -> In x u1 -> ~ In x u2 ->
  exists q, NoDup (q ++ v :: visited) /\ gpath g (q ++ v :: visited) /\ hd_error (q ++ v :: visited) = Some x.
Proof.
  induction f as [|f IH]; intros parent v visited u1 b u2 x Hnd Hpath H Hx Hnx.
  - simpl in H. inversion H; subst. contradiction.
  - rewrite dfs_S in H.
    destruct (Nat.eq_dec x v) as [->|Hxv].
    + exists []. simpl. auto.
    + assert (Hx' : In x (nat_remove v u1)) by (apply nat_remove_in; auto).
      destruct (dfs_nbs_removed _ _ _ _ _ _ _ _ H Hx' Hnx) as [nb [ua [b' [ub [Hin [Hm [Hrec [Ha Hb]]]]]]]].
      apply g_adj_iff in Hin. apply nat_mem_false in Hm.
      assert (Hnd' : NoDup (nb :: v :: visited)) by (constructor; auto).
      assert (Hpath' : gpath g (nb :: v :: visited)) by (rewrite gpath_cons; split; [apply Adj_sym; exact Hin | exact Hpath]).
      destruct (IH (Some v) nb (v :: visited) ua b' ub x Hnd' Hpath' Hrec Ha Hb) as [q [Q1 [Q2 Q3]]].
      exists (q ++ [nb]). rewrite <- app_assoc. simpl. auto.
Qed.

(* the unvisited set only shrinks *)
Lemma dfs_nbs_mono rec p vis nbs :
  (forall nb u b u', rec nb u = (b, u') -> forall y, In y u' -> In y u) ->
  forall ua b ub, dfs_nbs rec p vis nbs ua = (b, ub) -> forall y, In y ub -> In y ua.
Proof.
  intros Hrec. induction nbs as [|n r IH]; intros ua b ub H y Hy.
  - simpl in H. inversion H; subst. exact Hy.
  - simpl in H. destruct (opt_nat_eqb p n); [eapply IH; eauto|].
    destruct (nat_mem n vis); [inversion H; subst; exact Hy|].
    destruct (rec n ua) as [b1 u3] eqn:E. destruct b1.
    + inversion H; subst. eapply Hrec; eauto.
    + eapply Hrec; eauto.
Qed.
Lemma dfs_mono g f : forall p w vis ua b ub, dfs g f p w vis ua = (b, ub) -> forall y, In y ub -> In y ua.
Proof.
  induction f as [|f IH]; intros p w vis ua b ub H y Hy.
  - simpl in H. inversion H; subst. exact Hy.
  - rewrite dfs_S in H.
    assert (K : In y (nat_remove w ua)).
    { eapply dfs_nbs_mono; [|exact H|exact Hy]. intros nb u b0 u' E. eapply IH. exact E. }
    apply nat_remove_in in K. tauto.
Qed.
Lemma dfs_removes_root g f parent v visited u1 b u2 : dfs g (S f) parent v visited u1 = (b, u2) -> ~ In v u2.
Proof.
  rewrite dfs_S. intros H Hin.
  assert (K : In v (nat_remove v u1)).
  { eapply dfs_nbs_mono; [|exact H|exact Hin]. intros nb u b0 u' E. eapply dfs_mono. exact E. }
  apply nat_remove_in in K. tauto.
Qed.

(* ---- the outer loop of hasCycle ---- *)
Lemma cycle_loop_false g f todo : forall unv x,
  cycle_loop g (S f) todo unv = false -> In x todo -> In x unv ->
  exists r u1 u2, dfs g (S f) None r [] u1 = (false, u2) /\ In x u1 /\ ~ In x u2.
Proof.
  induction todo as [|v t IH]; intros unv x H Hin Hx; [destruct Hin|].
  cbn [cycle_loop] in H. destruct (nat_mem v unv) eqn:Em.
  - destruct (dfs g (S f) None v [] unv) as [b unv'] eqn:Ed. destruct b; [discriminate|].
    destruct (in_dec Nat.eq_dec x unv') as [Hx'|Hx'].
    + assert (x <> v). { intros E; subst x. exact (dfs_removes_root _ _ _ _ _ _ _ _ Ed Hx'). }
      destruct Hin as [->|Hin]; [congruence|]. exact (IH unv' x H Hin Hx').
    + exists v, unv, unv'. auto.
  - apply nat_mem_false in Em. destruct Hin as [->|Hin]; [contradiction|]. exact (IH unv x H Hin Hx).
Qed.
Lemma cycle_loop_true g f todo : forall unv,
  cycle_loop g f todo unv = true -> exists r u1 u2, dfs g f None r [] u1 = (true, u2).
Proof.
  induction todo as [|v t IH]; intros unv H; [discriminate|].
  cbn [cycle_loop] in H. destruct (nat_mem v unv).
  - destruct (dfs g f None v [] unv) as [b unv'] eqn:Ed. destruct b; [eauto|]. eapply IH; eauto.
  - eapply IH; eauto.
Qed.

(* ---- cycles can be started anywhere ---- *)
Lemma cycle_rot1 g a r : Cycle g (a :: r) -> Cycle g (r ++ [a]).
Proof.
  unfold Cycle. intros [Hlen [Hnd [Hpath [a' [z [Ha [Hz Hadj]]]]]]].
  simpl in Ha. inversion Ha; subst a'.
  destruct r as [|b r']; [simpl in Hlen; lia|].
  split; [rewrite app_length; simpl in *; lia|].
  split; [eapply Permutation_NoDup; [apply Permutation_cons_append | exact Hnd]|].
  rewrite gpath_cons in Hpath. destruct Hpath as [Hab Hp].
  split.
  - destruct (@exists_last nat (b :: r')) as [l1 [z' E]]; [discriminate|].
    assert (Ez : z' = z).
    { rewrite <- Hz. change (last (a :: b :: r') a) with (last (b :: r') a). rewrite E. symmetry. apply last_last. }
    subst z'. rewrite E. rewrite <- app_assoc. simpl.
    apply gpath_app_iff. split; [rewrite <- E; exact Hp | split; [exact Hadj | exact I]].
  - exists b, a. split; [reflexivity|]. split; [apply last_last | exact Hab].
Qed.

Lemma cycle_rot g l1 : forall y l2, Cycle g (l1 ++ y :: l2) ->
  exists c2, Cycle g (y :: c2) /\ (forall z, In z (y :: c2) <-> In z (l1 ++ y :: l2)).
Proof.
  induction l1 as [|a l1' IH]; intros y l2 H.
  - exists l2. split; [exact H | tauto].
  - change ((a :: l1') ++ y :: l2) with (a :: (l1' ++ y :: l2)) in H.
    apply cycle_rot1 in H. rewrite <- app_assoc in H. change ((y :: l2) ++ [a]) with (y :: (l2 ++ [a])) in H.
    destruct (IH y (l2 ++ [a]) H) as [c2 [C1 C2]]. exists c2. split; [exact C1|].
    intros z. rewrite C2. rewrite !in_app_iff. simpl. rewrite in_app_iff. simpl. tauto.
Qed.

(* the vertex of a path that belongs to c and is closest to the start of the search *)
Lemma last_in (c l : list nat) : (exists x, In x l /\ In x c) ->
  exists l1 y l2, l = l1 ++ y :: l2 /\ In y c /\ (forall z, In z l2 -> ~ In z c).
Proof.
  induction l as [|a r IH]; intros [x [Hx Hc]]; [destruct Hx|].
  destruct (Exists_dec (fun z => In z c) r (fun z => in_dec Nat.eq_dec z c)) as [E|E].
  - apply Exists_exists in E. destruct (IH E) as [l1 [y [l2 [E1 [E2 E3]]]]].
    exists (a :: l1), y, l2. subst r. auto.
  - exists [], a, r. split; [reflexivity|]. split.
    + destruct Hx as [->|Hx]; [exact Hc|]. exfalso. apply E. apply Exists_exists. eauto.
    + intros z Hz Hzc. apply E. apply Exists_exists. eauto.
Qed.


Lemma NoDup_app_intro {A} (l1 l2 : list A) :
  NoDup l1 -> NoDup l2 -> (forall x, In x l1 -> ~ In x l2) -> NoDup (l1 ++ l2).
Proof.
  induction l1 as [|a r IH]; simpl; intros H1 H2 H3; [exact H2|].
  inversion H1; subst. constructor.
  - intros K. apply in_app_or in K. destruct K as [K|K]; [contradiction|]. exact (H3 a (or_introl eq_refl) K).
  - apply IH; auto.
Qed.

Lemma NoDup_app_r {A} (l1 l2 : list A) : NoDup (l1 ++ l2) -> NoDup l2.
Proof. induction l1 as [|a r IH]; simpl; intros H; [exact H|]. inversion H; subst. apply IH. assumption. Qed.

Lemma gpath_has_neighbour g l : gpath g l -> 2 <= length l -> forall x, In x l -> exists w, Adj g x w.
Proof.
  induction l as [|a r IH]; intros Hp Hlen x Hx; [destruct Hx|].
  destruct r as [|b r']; [simpl in Hlen; lia|].
  rewrite gpath_cons in Hp. destruct Hp as [Hab Hp].
  destruct Hx as [<-|Hx]; [eauto|].
  destruct r' as [|c r''].
  - destruct Hx as [<-|[]]. exists a. apply Adj_sym. exact Hab.
  - apply IH; auto. simpl. lia.
Qed.

Lemma suffix_last {A} (l1 s q : list A) r : l1 ++ s = q ++ [r] -> s <> [] -> exists q0, s = q0 ++ [r].
Proof.
  intros E Hs. destruct (@exists_last A s Hs) as [s' [z Es]]. subst s.
  rewrite app_assoc in E. apply app_inj_tail in E. destruct E as [_ ->]. eauto.
Qed.

(* graph.go:hasCycle is correct: it reports a cycle iff the graph has a simple cycle *)
Theorem has_cycle_spec_lemma g : no_self_loops g -> (has_cycle g = true <-> exists c, Cycle g c).
Proof.
  intros Hns. unfold has_cycle. set (vs := g_vertices g). split.
  - intros H. apply cycle_loop_true in H. destruct H as [r [u1 [u2 H]]].
    apply (dfs_sound g Hns (S (length vs)) None r [] u1 u2); auto.
    + constructor; [simpl; tauto | constructor].
    + simpl. auto.
  - intros [c Hc]. destruct (cycle_loop g (S (length vs)) vs vs) eqn:El; [reflexivity|]. exfalso.
    pose proof Hc as [Hlen [Hnd [Hpath _]]].
    destruct c as [|x c']; [simpl in Hlen; lia|].
    assert (Hallv : forall z, In z (x :: c') -> In z vs).
    { intros z Hz. apply g_vertices_iff. apply (gpath_has_neighbour g (x :: c')); auto. lia. }
    assert (Hxv : In x vs) by (apply Hallv; left; reflexivity).
    destruct (cycle_loop_false g _ vs vs x El Hxv Hxv) as [r [u1 [u2 [Hd [Hx1 Hx2]]]]].
    assert (Hnd1 : NoDup [r]) by (constructor; [simpl; tauto | constructor]).
    destruct (dfs_removed g _ None r [] u1 false u2 x Hnd1 I Hd Hx1 Hx2) as [q [Q1 [Q2 Q3]]].
    (* the vertex of the search path on the cycle that is closest to the root *)
    destruct (last_in (x :: c') (q ++ [r])) as [l1 [y [l2 [E1 [E2 E3]]]]].
    { exists x. split; [|left; reflexivity]. destruct (q ++ [r]); simpl in Q3; inversion Q3. left; reflexivity. }
    destruct (in_split y (x :: c') E2) as [m1 [m2 Em]].
    rewrite Em in Hc. destruct (cycle_rot g m1 y m2 Hc) as [c2 [Hc2 Hmem]]. rewrite <- Em in Hmem.
    destruct Hc2 as [Hlen2 [Hnd2 [Hpath2 [a0 [z [Ha0 [Hz Hadj]]]]]]].
    simpl in Ha0. inversion Ha0; subst a0.
    (* c2 = c2'' ++ [e2; e] *)
    destruct (@exists_last nat c2) as [c2' [e Ec2]]; [intros K; subst c2; simpl in Hlen2; lia|].
    destruct (@exists_last nat c2') as [c2'' [e2 Ec2']]; [intros K; subst c2' c2; simpl in Hlen2; lia|].
    assert (Ez : z = e).
    { rewrite <- Hz. rewrite Ec2. change (y :: c2' ++ [e]) with ((y :: c2') ++ [e]). apply last_last. }
    subst z.
    destruct (suffix_last l1 (y :: l2) q r (eq_sym E1)) as [q0 Eq0]; [discriminate|].
    (* the path continued around the cycle *)
    set (q' := rev c2 ++ q0).
    assert (Efull : q' ++ [r] = rev c2 ++ y :: l2) by (unfold q'; rewrite <- app_assoc, <- Eq0; reflexivity).
    assert (Hsuf_nd : NoDup (y :: l2)) by (rewrite E1 in Q1; apply NoDup_app_r in Q1; exact Q1).
    assert (Hsuf_p : gpath g (y :: l2)) by (rewrite E1 in Q2; exact (proj2 (proj1 (gpath_app_iff g l1 y l2) Q2))).
    assert (NDfull : NoDup (q' ++ [r])).
    { rewrite Efull. apply NoDup_app_intro; auto.
      - apply NoDup_rev. inversion Hnd2; auto.
      - intros w Hw Hw2. apply in_rev in Hw.
        assert (Hwc : In w (x :: c')) by (apply Hmem; right; exact Hw).
        destruct Hw2 as [<-|Hw2]; [inversion Hnd2; contradiction | exact (E3 w Hw2 Hwc)]. }
    assert (Pfull : gpath g (q' ++ [r])).
    { rewrite Efull. apply gpath_app_iff. split; [|exact Hsuf_p].
      change (rev c2 ++ [y]) with (rev (y :: c2)). apply gpath_rev. exact Hpath2. }
    assert (Hhd : hd_error (q' ++ [r]) = Some e).
    { rewrite Efull, Ec2, rev_app_distr. reflexivity. }
    assert (Hpred : pred_of (q' ++ [r]) <> Some y).
    { rewrite Efull, Ec2, Ec2', !rev_app_distr. simpl. intros K. inversion K; subst e2.
      inversion Hnd2 as [|? ? Hny _]. apply Hny. rewrite Ec2, Ec2'. apply in_or_app. left. apply in_or_app. right. left; reflexivity. }
    assert (Hlenq : length q' < S (length vs)).
    { assert (length (q' ++ [r]) <= length vs).
      { apply NoDup_incl_length; [exact NDfull|]. intros w Hw. apply g_vertices_iff.
        apply (gpath_has_neighbour g (q' ++ [r])); auto.
        rewrite Efull, app_length, rev_length. simpl. subst c2. rewrite app_length. simpl. lia. }
      rewrite app_length in H. simpl in H. lia. }
    rewrite Ez in Hadj.
    apply (dfs_complete g _ None r [] u1 u2 eq_refl Hd q' Hlenq NDfull Pfull e y Hhd Hadj Hpred).
    rewrite Efull. apply in_or_app. right. left; reflexivity.
Qed.
