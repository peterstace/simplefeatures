(* Lemmas for property C20: Intersects and Distance (Model/Intersects.v, Model/Distance.v, the
   transcription of geom/alg_intersects.go and geom/alg_distance.go) do not see empty members. *)
From Coq Require Import List Bool Arith Lia QArith.
From SF Require Import Base.GeomAST Base.QKernel Base.Planar Model.Empty Proofs.Empty_proofs Proofs.Empty_obs_proofs.
From SF Require Import Model.Intersects Model.Distance Proofs.Intersects_proofs Proofs.Distance_proofs.
From SF Require Proofs.Relate_proofs.
Import ListNotations.

Notation geom := (geomT Q).

Lemma existsb_const_false {A} (l : list A) : existsb (fun _ => false) l = false.
Proof. induction l; simpl; auto. Qed.

Lemma pxy_none (q : pointT Q) : point_empty q = true -> point_xy q = None.
Proof. intros K. unfold point_xy. rewrite (point_empty_c q K). reflexivity. Qed.
Lemma ls_lines_none (l : lineT Q) : line_empty l = true -> ls_lines l = [].
Proof. intros K. unfold ls_lines, line_pts. rewrite (line_empty_vs l K). reflexivity. Qed.
Lemma start_xy_none (l : lineT Q) : line_empty l = true -> start_xy l = None.
Proof. intros K. unfold start_xy, line_pts. rewrite (line_empty_vs l K). reflexivity. Qed.
Lemma optxy_poly_none o (y : polyT Q) : poly_empty y = true -> ix_optxy_polygon o y = false.
Proof.
  intros K. unfold ix_optxy_polygon, ix_xy_polygon. rewrite (poly_empty_rings y K). destruct o; reflexivity.
Qed.
Lemma poly_lines_none (y : polyT Q) : poly_empty y = true -> poly_lines y = [].
Proof. intros K. unfold poly_lines. rewrite (poly_empty_rings y K). reflexivity. Qed.
Lemma optxy_mpoly_none ys : ix_optxy_mpoly None ys = false.
Proof. unfold ix_optxy_mpoly. simpl. apply existsb_const_false. Qed.

(* one lemma per routine and operand that can be a Multi; for the symmetric routines the second
   operand follows from the first *)
Lemma P1 p mp : ix_point_mpoint p (keep_points mp) = ix_point_mpoint p mp.
Proof.
  apply existsb_keep. intros q K. unfold ix_point_point. rewrite (pxy_none q K). destruct (point_xy p); reflexivity.
Qed.
Lemma P2 p ls : ix_point_mline p (keep_lines ls) = ix_point_mline p ls.
Proof.
  apply existsb_keep. intros l K. unfold ix_point_line. rewrite (ls_lines_none l K). destruct (point_xy p); reflexivity.
Qed.
Lemma P3 o ys : ix_optxy_mpoly o (keep_polys ys) = ix_optxy_mpoly o ys.
Proof. apply existsb_keep. intros y K. apply optxy_poly_none. exact K. Qed.
Lemma P4a mp ls : ix_mpoint_mline (keep_points mp) ls = ix_mpoint_mline mp ls.
Proof. apply existsb_keep. intros q K. rewrite (pxy_none q K). reflexivity. Qed.
Lemma P4b mp ls : ix_mpoint_mline mp (keep_lines ls) = ix_mpoint_mline mp ls.
Proof.
  apply existsb_ext_in. intros q _. destruct (point_xy q); [|reflexivity].
  apply existsb_keep. intros l K. rewrite (ls_lines_none l K). reflexivity.
Qed.
Lemma P5a ls : mls_lines (keep_lines ls) = mls_lines ls.
Proof. apply flat_map_keep, ls_lines_none. Qed.
Lemma P5b ys : mpoly_lines (keep_polys ys) = mpoly_lines ys.
Proof. apply flat_map_keep, poly_lines_none. Qed.
Lemma P6a ls ys : ix_mline_mpoly (keep_lines ls) ys = ix_mline_mpoly ls ys.
Proof.
  unfold ix_mline_mpoly. rewrite P5a. destruct (has_intersection_between_lines _ _); [reflexivity|].
  apply existsb_keep. intros l K. rewrite (start_xy_none l K). apply optxy_mpoly_none.
Qed.
Lemma P6b ls ys : ix_mline_mpoly ls (keep_polys ys) = ix_mline_mpoly ls ys.
Proof.
  unfold ix_mline_mpoly. rewrite P5b. destruct (has_intersection_between_lines _ _); [reflexivity|].
  apply existsb_ext_in. intros l _. apply P3.
Qed.
Lemma P7b mp1 mp2 : ix_mpoint_mpoint mp1 (keep_points mp2) = ix_mpoint_mpoint mp1 mp2.
Proof. apply existsb_keep. intros q K. rewrite (pxy_none q K). reflexivity. Qed.
Lemma P7a mp1 mp2 : ix_mpoint_mpoint (keep_points mp1) mp2 = ix_mpoint_mpoint mp1 mp2.
Proof. rewrite ix_mpoint_mpoint_sym, P7b. apply ix_mpoint_mpoint_sym. Qed.
Lemma P8 mp y : ix_mpoint_polygon (keep_points mp) y = ix_mpoint_polygon mp y.
Proof. apply existsb_keep. intros q K. unfold ix_point_polygon. rewrite (pxy_none q K). reflexivity. Qed.
Lemma P9a mp ys : ix_mpoint_mpoly (keep_points mp) ys = ix_mpoint_mpoly mp ys.
Proof.
  apply existsb_keep. intros q K. unfold ix_point_mpoly. rewrite (pxy_none q K). apply optxy_mpoly_none.
Qed.
Lemma P9b mp ys : ix_mpoint_mpoly mp (keep_polys ys) = ix_mpoint_mpoly mp ys.
Proof. apply existsb_ext_in. intros q _. apply P3. Qed.

Lemma hibl_nil_l l : has_intersection_between_lines [] l = false.
Proof.
  unfold has_intersection_between_lines. destruct (Nat.ltb (length l) (length (@nil seg))) eqn:E.
  - reflexivity.
  - induction l; simpl; auto.
Qed.
Lemma polypoly_none_l y1 y2 : poly_empty y1 = true -> ix_polygon_polygon y1 y2 = false.
Proof.
  intros K. unfold ix_polygon_polygon. rewrite (poly_lines_none y1 K), hibl_nil_l.
  rewrite (optxy_poly_none _ y1 K), orb_false_r.
  unfold exterior_ring. rewrite (poly_empty_rings y1 K). reflexivity.
Qed.
Lemma P10a ys1 ys2 : ix_mpoly_mpoly (keep_polys ys1) ys2 = ix_mpoly_mpoly ys1 ys2.
Proof.
  apply existsb_keep. intros y K. rewrite <- (existsb_const_false ys2).
  apply existsb_ext_in. intros y2 _. apply polypoly_none_l. exact K.
Qed.
Lemma P10b ys1 ys2 : ix_mpoly_mpoly ys1 (keep_polys ys2) = ix_mpoly_mpoly ys1 ys2.
Proof. rewrite ix_mpoly_mpoly_sym, P10a. apply ix_mpoly_mpoly_sym. Qed.

#[local] Hint Rewrite P1 P2 P3 P4a P4b P5a P6a P6b P7a P7b P8 P9a P9b P10a P10b : ix_keep.

Lemma switch_strip (l m : geom) :
  ix_switch (strip_empties l) m = ix_switch l m /\ ix_switch l (strip_empties m) = ix_switch l m.
Proof.
  (* only a Multi operand changes *)
  split.
  - destruct l; try reflexivity; destruct m; cbn [ix_switch strip_empties];
      unfold ix_mline_mline; autorewrite with ix_keep; reflexivity.
  - destruct m; try reflexivity; destruct l; cbn [ix_switch strip_empties];
      unfold ix_point_mpoly, ix_mline_mline; autorewrite with ix_keep; reflexivity.
Qed.
Lemma rank_strip (g : geom) : rank (strip_empties g) = rank g.
Proof. destruct g; reflexivity. Qed.

Lemma ix_flat_strip_l (l m : geom) : ix_flat (strip_empties l) m = ix_flat l m.
Proof.
  unfold ix_flat, ix_flat_o. rewrite rank_strip. destruct (switch_strip l m) as [Sl _], (switch_strip m l) as [_ Sr].
  rewrite Sl, Sr. reflexivity.
Qed.

Lemma empty_leaves_strip (x : geom) : is_empty x = true -> flat_map strip_member (Intersects.leaves x) = [].
Proof.
  intros E. apply flat_map_nil. intros l Hl. unfold strip_member.
  rewrite is_empty_leaves in E. rewrite forallb_forall in E. rewrite (E l Hl). reflexivity.
Qed.

Lemma leaves_strip_members_of (gs : list geom) :
  Forall (fun x => is_empty x = false -> Intersects.leaves (strip_empties x) = flat_map strip_member (Intersects.leaves x)) gs ->
  flat_map Intersects.leaves (flat_map strip_member gs) = flat_map strip_member (flat_map Intersects.leaves gs).
Proof.
  induction 1 as [|x r Hx Hr IH]; simpl; [reflexivity|]. unfold strip_member at 1.
  destruct (is_empty x) eqn:Ex; simpl; rewrite ?flat_map_app, ?app_nil_r; unfold Planar.geom in *.
  - rewrite (empty_leaves_strip x Ex). exact IH.
  - rewrite (Hx eq_refl), IH. reflexivity.
Qed.
Lemma leaves_strip_member (x : geom) :
  is_empty x = false -> Intersects.leaves (strip_empties x) = flat_map strip_member (Intersects.leaves x).
Proof.
  induction x using geomT_ind'; intros E; try (simpl; unfold strip_member; rewrite E; reflexivity).
  apply (leaves_strip_members_of gs H).
Qed.
Lemma leaves_strip_members (gs : list geom) :
  flat_map Intersects.leaves (flat_map strip_member gs) = flat_map strip_member (flat_map Intersects.leaves gs).
Proof. apply leaves_strip_members_of, Forall_forall. intros x _. apply leaves_strip_member. Qed.
Lemma leaves_strip (a : geom) :
  Intersects.leaves (strip_empties a) =
  match a with GColl _ gs => flat_map strip_member (flat_map Intersects.leaves gs) | _ => [strip_empties a] end.
Proof. destruct a; try reflexivity. apply leaves_strip_members. Qed.

Lemma intersects_strip_l (a b : geom) : intersects (strip_empties a) b = intersects a b.
Proof.
  rewrite !intersects_leaves, leaves_strip.
  set (f := fun la => existsb (fun lb => ix_flat la lb) (Intersects.leaves b)).
  assert (Fs : forall l, f (strip_empties l) = f l).
  { intros l. unfold f. apply existsb_ext_in. intros lb _. apply ix_flat_strip_l. }
  assert (Fe : forall l, is_empty l = true -> f l = false).
  { intros l E. unfold f. destruct (existsb _ _) eqn:X; [|reflexivity].
    apply existsb_exists in X. destruct X as [lb [_ X]]. apply ix_flat_nonempty in X. destruct X; congruence. }
  destruct a as [p|l|y|c mp|c ls|c ys|c gs];
    try (cbn [Intersects.leaves existsb]; rewrite Fs; reflexivity).
  cbn [Intersects.leaves].
  apply existsb_strip; [exact Fe | apply Forall_forall; intros l _; apply Fs].
Qed.
Lemma intersects_strip_r (a b : geom) : intersects a (strip_empties b) = intersects a b.
Proof. rewrite (intersects_sym a (strip_empties b)), intersects_strip_l. apply intersects_sym. Qed.

Lemma ins_intersects (a b : geom) p q : intersects (insert_empties a p) (insert_empties b q) = intersects a b.
Proof.
  apply (obs2_factors_through_parts_lemma Q eq intersects); try congruence.
  - apply intersects_strip_l.
  - apply intersects_strip_r.
Qed.

(* part_xys is Planar.g_points under another name *)
Lemma empty_part_xys (g : geom) : is_empty g = true -> part_xys g = [].
Proof. intros E. exact (proj1 (Relate_proofs.empty_parts g E)). Qed.
Lemma strip_part_xys (g : geom) : part_xys (strip_empties g) = part_xys g.
Proof. exact (strip_g_points g). Qed.
Lemma part_lines_flat (g : geom) :
  (is_empty g = true -> part_lines g = []) /\ part_lines (strip_empties g) = part_lines g.
Proof.
  apply (flat_obs Q _ part_lines (fun _ => []) ls_lines poly_lines); auto using ls_lines_none, poly_lines_none.
  intros [| | |c ps| | |]; try reflexivity. symmetry. apply flat_map_nil. reflexivity.
Qed.

(* Leibniz equality: the parts lists are the same lists, so the search visits the same pairs *)
Lemma dist2_strip_l (a b : geom) : dist2 (strip_empties a) b = dist2 a b.
Proof.
  unfold dist2. rewrite intersects_strip_l, strip_part_xys, (proj2 (part_lines_flat a)). reflexivity.
Qed.
Lemma dist2_strip_r (a b : geom) : dist2 a (strip_empties b) = dist2 a b.
Proof.
  unfold dist2. rewrite intersects_strip_r, strip_part_xys, (proj2 (part_lines_flat b)). reflexivity.
Qed.

Lemma ins_dist2 (a b : geom) p q : dist2 (insert_empties a p) (insert_empties b q) = dist2 a b.
Proof.
  apply (obs2_factors_through_parts_lemma Q eq dist2); try congruence.
  - apply dist2_strip_l.
  - apply dist2_strip_r.
Qed.

(* neutral answers *)
Lemma search_all_nil_l xs ls : search_all [] [] xs ls = None.
Proof. reflexivity. Qed.
Lemma search_all_nil_r xs ls : search_all xs ls [] [] = None.
Proof.
  unfold search_all.
  assert (G2 : forall (l : list pt) m, fold_left (fun m xy => scan_xy xy [] [] m) l m = m).
  { induction l; simpl; auto. }
  assert (G : forall (l : list seg) m, fold_left (fun m ln => scan_line ln [] [] m) l m = m).
  { induction l; simpl; auto. }
  rewrite G2, G. reflexivity.
Qed.
Lemma empty_dist2 (a b : geom) : is_empty a = true \/ is_empty b = true -> dist2 a b = None.
Proof.
  intros H. unfold dist2. rewrite (intersects_empty a b H).
  destruct H as [E|E]; rewrite (empty_part_xys _ E), (proj1 (part_lines_flat _) E);
    match goal with |- (if ?c then _ else _) = _ => destruct c end;
    rewrite ?search_all_nil_l, ?search_all_nil_r; reflexivity.
Qed.
