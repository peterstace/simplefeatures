(* Property C14 - scale equivariance of the measure model (Model/Measure.v):
   multiplying every X and Y by c multiplies Area by c^2, Length by c and Centroid by c.
   [scale c] is the vertex map p -> c p + 0 of Measure_proofs (section Affine), with length factor c. *)
From Coq Require Import QArith Qabs ZArith List Bool Lia Lqa Setoid Morphisms.
From SF Require Import Base.GeomAST Model.Measure Model.MeasureScale Proofs.Measure_proofs.
Import ListNotations.
Open Scope Q_scope.

Section Scale.
  Variable c : Q.

  Lemma scale_fx : forall p, fst (scale c p) == c * fst p + fst xy0.
  Proof. intros. cbn. ring. Qed.
  Lemma scale_fy : forall p, snd (scale c p) == c * snd p + snd xy0.
  Proof. intros. cbn. ring. Qed.

  Lemma geom_area_scale : forall s g, geom_area s None (geom_tr (scale c) g) == c * c * geom_area s None g.
  Proof.
    intros s g. apply (geom_area_aff c xy0 (scale c) scale_fx scale_fy). left. split; reflexivity.
  Qed.

  Variables sq sq' : Q -> Q.
  Hypothesis sq'_proper : respects_eq sq'.
  Hypothesis sq_hom : sqrt_homogeneous c sq sq'.

  Lemma xy_len_scale : forall p q, xy_len sq' (xy_sub (scale c p) (scale c q)) == c * xy_len sq (xy_sub p q).
  Proof.
    intros p q. unfold xy_len, xy_sub, scale, xy_scale. cbn [fst snd].
    etransitivity; [|apply sq_hom]. apply sq'_proper. ring.
  Qed.

  Lemma geom_length_scale : forall g, geom_length sq' (geom_tr (scale c) g) == c * geom_length sq g.
  Proof. exact (geom_length_aff c (scale c) sq sq' xy_len_scale). Qed.

  Hypothesis c_nz : ~ c == 0.

  Lemma geom_centroid_scale : forall g,
    oxy_eq (geom_centroid sq' (geom_tr (scale c) g)) (oscale c (geom_centroid sq g)).
  Proof.
    intros g.
    assert (K := geom_centroid_aff c c xy0 (scale c) sq sq' scale_fx scale_fy xy_len_scale c_nz c_nz g
                   (or_introl (conj (Qeq_refl 0) (Qeq_refl 0)))).
    destruct (geom_centroid sq g) as [p|], (geom_centroid sq' (geom_tr (scale c) g)) as [p'|];
      cbn [oaff oscale option_map oxy_eq] in *; try exact K.
    unfold xy_eq, aff, scale, xy_scale in *. cbn [fst snd xy0] in *. destruct K as [K1 K2]. rewrite K1, K2. split; ring.
  Qed.
End Scale.

(* the hypothesis of the Length / Centroid laws is satisfiable for every root function and every
   non-zero factor *)
Lemma sqrt_homogeneous_witness : forall (c : Q) (sq : Q -> Q), respects_eq sq -> ~ c == 0 ->
  let sq' := fun y => c * sq (y / (c * c)) in respects_eq sq' /\ sqrt_homogeneous c sq sq'.
Proof.
  intros c sq Hp Hc sq'. split.
  - intros a b Hab. unfold sq'. apply Qmult_comp; [reflexivity|]. apply Hp. rewrite Hab. reflexivity.
  - intros x. unfold sq'. apply Qmult_comp; [reflexivity|]. apply Hp. field. assumption.
Qed.
