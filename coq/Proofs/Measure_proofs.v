(* Property C14 - lemmas about the measure model (Model/Measure.v). *)
From Coq Require Import QArith Qabs ZArith List Bool Lia Lqa Setoid Morphisms Permutation.
From SF Require Import Base.GeomAST Model.Measure.
Import ListNotations.
Open Scope Q_scope.

(* ------------------------------------------------------------------------------------------ *)
(* Sums over consecutive pairs                                                                 *)
(* ------------------------------------------------------------------------------------------ *)

(* sum of e over the consecutive pairs of p0 :: l *)
Fixpoint pairsum (e : xy -> xy -> Q) (p0 : xy) (l : list xy) : Q :=
  match l with
  | [] => 0
  | p :: r => e p0 p + pairsum e p r
  end.
Definition psum (e : xy -> xy -> Q) (L : list xy) : Q :=
  match L with [] => 0 | p :: r => pairsum e p r end.
(* cyclic sum over the closed ring of the cycle l *)
Definition cyc (e : xy -> xy -> Q) (l : list xy) : Q := psum e (close l).

Lemma pairsum_app : forall e a b p0,
  pairsum e p0 (a ++ b) == pairsum e p0 a + pairsum e (last a p0) b.
Proof.
  intros e a; induction a as [|x a IH]; intros b p0; cbn [pairsum app].
  - cbn [last]. ring.
  - rewrite IH. rewrite last_cons_default. ring.
Qed.

(* telescoping: two edge functions that differ by a potential difference *)
Lemma pairsum_telescope : forall (e1 e2 : xy -> xy -> Q) (H : xy -> Q),
  (forall p q, e1 p q == e2 p q + H q - H p) ->
  forall l p0, pairsum e1 p0 l == pairsum e2 p0 l + H (last l p0) - H p0.
Proof.
  intros e1 e2 H He l; induction l as [|p r IH]; intros p0.
  - simpl. ring.
  - cbn [pairsum]. rewrite last_cons_default, IH, He. ring.
Qed.

Lemma pairsum_ext : forall (e1 e2 : xy -> xy -> Q), (forall p q, e1 p q == e2 p q) ->
  forall l p0, pairsum e1 p0 l == pairsum e2 p0 l.
Proof.
  intros e1 e2 He l; induction l as [|p r IH]; intros p0; simpl; [reflexivity|].
  rewrite IH, He. reflexivity.
Qed.

Lemma pairsum_map : forall (e : xy -> xy -> Q) (f : xy -> xy) l p0,
  pairsum e (f p0) (map f l) = pairsum (fun a b => e (f a) (f b)) p0 l.
Proof.
  intros e f l; induction l as [|p r IH]; intros p0; simpl; [reflexivity|].
  rewrite IH. reflexivity.
Qed.

Lemma pairsum_scale : forall (e : xy -> xy -> Q) (c : Q) l p0,
  pairsum (fun a b => c * e a b) p0 l == c * pairsum e p0 l.
Proof.
  intros e c l; induction l as [|p r IH]; intros p0; simpl; [ring|].
  rewrite IH. ring.
Qed.

Lemma pairsum_plus : forall (e1 e2 : xy -> xy -> Q) l p0,
  pairsum (fun a b => e1 a b + e2 a b) p0 l == pairsum e1 p0 l + pairsum e2 p0 l.
Proof.
  intros e1 e2 l; induction l as [|p r IH]; intros p0; simpl; [ring|].
  rewrite IH. ring.
Qed.

Lemma psum_map_lin : forall (e e' : xy -> xy -> Q) (f : xy -> xy) k,
  (forall p q, e' (f p) (f q) == k * e p q) -> forall L, psum e' (map f L) == k * psum e L.
Proof.
  intros e e' f k He [|p r]; cbn [map psum]; [ring|].
  rewrite pairsum_map, <- pairsum_scale. apply pairsum_ext, He.
Qed.

Lemma psum_map_affine : forall (e d e' : xy -> xy -> Q) (f : xy -> xy) k j,
  (forall p q, e' (f p) (f q) == k * e p q + j * d p q) ->
  forall L, psum e' (map f L) == k * psum e L + j * psum d L.
Proof.
  intros e d e' f k j He [|p r]; cbn [map psum]; [ring|].
  rewrite pairsum_map, <- !pairsum_scale, <- pairsum_plus. apply pairsum_ext, He.
Qed.

Lemma psum_snoc : forall e L x,
  psum e (L ++ [x]) == psum e L + match L with [] => 0 | y :: _ => e (last L y) x end.
Proof.
  intros e L x. destruct L as [|y L]; cbn [psum app pairsum]; [ring|].
  rewrite pairsum_app. cbn [pairsum]. rewrite last_cons_default. ring.
Qed.

(* the cyclic sum does not depend on where the cycle is cut *)
Lemma cyc_app_comm : forall e a b, cyc e (a ++ b) == cyc e (b ++ a).
Proof.
  intros e a b. unfold cyc.
  destruct a as [|a0 a']; [rewrite app_nil_r; reflexivity|].
  destruct b as [|b0 b']; [rewrite app_nil_r; reflexivity|].
  cbn [close app psum].
  rewrite <- !app_assoc. cbn [app].
  rewrite (pairsum_app e a' (b0 :: b' ++ [a0]) a0).
  rewrite (pairsum_app e b' (a0 :: a' ++ [b0]) b0).
  cbn [pairsum].
  rewrite (pairsum_app e b' [a0]), (pairsum_app e a' [b0]). cbn [pairsum]. ring.
Qed.

Lemma cyc_rot : forall e k l, cyc e (rot k l) == cyc e l.
Proof.
  intros e k l. unfold rot. rewrite cyc_app_comm, firstn_skipn. reflexivity.
Qed.

Lemma psum_rev_flip : forall e L, psum e (rev L) == psum (fun a b => e b a) L.
Proof.
  intros e L; induction L as [|p r IH]; [cbn; ring|].
  cbn [rev]. rewrite psum_snoc, IH.
  destruct r as [|q r']; [cbn; ring|].
  cbn [rev]. destruct (rev r' ++ [q]) eqn:E.
  - destruct (rev r'); discriminate.
  - rewrite <- E, last_last. cbn [psum pairsum]. ring.
Qed.

Lemma psum_ext : forall e1 e2, (forall p q, e1 p q == e2 p q) -> forall L, psum e1 L == psum e2 L.
Proof. intros e1 e2 He [|p r]; cbn [psum]; [reflexivity|]. apply pairsum_ext, He. Qed.

(* reversal of the vertex list negates the sum of an antisymmetric edge function *)
Lemma psum_rev : forall e, (forall a b, e a b == - e b a) ->
  forall L, psum e (rev L) == - psum e L.
Proof.
  intros e He L. rewrite psum_rev_flip, (psum_ext _ (fun a b => -1 * e a b)) by (intros; rewrite He; ring).
  destruct L; cbn [psum]; [ring|]. rewrite pairsum_scale. ring.
Qed.

Lemma psum_rev_sym : forall e, (forall a b, e a b == e b a) -> forall L, psum e (rev L) == psum e L.
Proof. intros e He L. rewrite psum_rev_flip. apply psum_ext. intros; symmetry; apply He. Qed.

(* ------------------------------------------------------------------------------------------ *)
(* Ring area                                                                                   *)
(* ------------------------------------------------------------------------------------------ *)
Definition e_shoe (a b : xy) : Q := (fst b + fst a) * (snd b - snd a).
Definition e_cross (a b : xy) : Q := fst a * snd b - fst b * snd a.

Lemma shoelace_loop_pairsum : forall l s p, shoelace_loop s p l == s + pairsum e_shoe p l.
Proof.
  induction l as [|q r IH]; intros s p; cbn [shoelace_loop pairsum]; [ring|].
  rewrite IH. unfold e_shoe. ring.
Qed.

Lemma ring_area_psum : forall L, ring_area_xy L == psum e_shoe L / 2.
Proof.
  intros [|p r]; cbn [ring_area_xy psum]; [unfold Qdiv; ring|].
  rewrite shoelace_loop_pairsum. apply Qdiv_comp; [ring|reflexivity].
Qed.

Lemma cross_sum_pairsum : forall l p, cross_sum p l = pairsum e_cross p l.
Proof. induction l as [|q r IH]; intros p; cbn [cross_sum pairsum]; [reflexivity|]. rewrite IH. reflexivity. Qed.

Lemma cross_area_psum : forall L, cross_area_xy L == psum e_cross L / 2.
Proof. intros [|p r]; cbn [cross_area_xy psum]; [unfold Qdiv; ring|]. rewrite cross_sum_pairsum. reflexivity. Qed.

Lemma area_rotate_lemma : forall k l, ring_area_xy (close (rot k l)) == ring_area_xy (close l).
Proof.
  intros k l. rewrite !ring_area_psum. apply Qdiv_comp; [|reflexivity].
  apply (cyc_rot e_shoe k l).
Qed.

Lemma area_reverse_lemma : forall L, ring_area_xy (rev L) == - ring_area_xy L.
Proof.
  intros L. rewrite !ring_area_psum, psum_rev.
  - unfold Qdiv. ring.
  - intros a b. unfold e_shoe. ring.
Qed.

Lemma xy_eqb_true : forall a b, xy_eqb a b = true -> fst a == fst b /\ snd a == snd b.
Proof.
  intros a b H. unfold xy_eqb in H. apply andb_true_iff in H. destruct H as [H1 H2].
  split; apply Qeq_bool_iff; assumption.
Qed.

(* general form: the two shoelace forms differ by a boundary term that vanishes on closed rings *)
Lemma shoelace_vs_cross : forall p r,
  ring_area_xy (p :: r) == cross_area_xy (p :: r)
     + (fst (last r p) * snd (last r p) - fst p * snd p) / 2.
Proof.
  intros p r. rewrite ring_area_psum, cross_area_psum. cbn [psum].
  rewrite (pairsum_telescope e_shoe e_cross (fun q => fst q * snd q)).
  - unfold Qdiv. ring.
  - intros a b. unfold e_shoe, e_cross. ring.
Qed.

Lemma shoelace_eq_cross_lemma : forall L, ring_closedb L = true -> ring_area_xy L == cross_area_xy L.
Proof.
  intros [|p r] H; [reflexivity|].
  rewrite shoelace_vs_cross. unfold ring_closedb in H. rewrite last_cons_default in H.
  apply xy_eqb_true in H. destruct H as [Hx Hy]. rewrite <- Hx, <- Hy. unfold Qdiv. ring.
Qed.

(* sanity anchors *)
Lemma triangle_area_lemma : forall a b : Q,
  ring_area_xy [(0, 0); (a, 0); (0, b); (0, 0)] == a * b / 2.
Proof. intros a b. cbn [ring_area_xy shoelace_loop fst snd]. field. Qed.

Lemma rectangle_area_lemma : forall x y w h : Q,
  ring_area_xy [(x, y); (x + w, y); (x + w, y + h); (x, y + h); (x, y)] == w * h.
Proof. intros. cbn [ring_area_xy shoelace_loop fst snd]. field. Qed.

(* ------------------------------------------------------------------------------------------ *)
(* Order-free sums and the accumulator loops                                                   *)
(* ------------------------------------------------------------------------------------------ *)
Lemma fold_left_qsum_gen : forall (A : Type) (F : Q -> A -> Q) (f : A -> Q),
  (forall a x, F a x == a + f x) ->
  forall l s, fold_left F l s == s + qsum (map f l).
Proof.
  intros A F f HF l; induction l as [|x l IH]; intros s; cbn [fold_left map qsum fold_right].
  - ring.
  - rewrite IH, HF. fold (qsum (map f l)). ring.
Qed.

Lemma fold_left_qsum : forall (A : Type) (f : A -> Q) l s,
  fold_left (fun a x => a + f x) l s == s + qsum (map f l).
Proof. intros. apply fold_left_qsum_gen. intros; reflexivity. Qed.

Lemma fold_left_Qplus : forall l s, fold_left Qplus l s == s + qsum l.
Proof.
  intros l s. rewrite (fold_left_qsum_gen Q Qplus (fun x => x)); [|intros; reflexivity].
  rewrite map_id. reflexivity.
Qed.

Lemma qsum_cons : forall x l, qsum (x :: l) = x + qsum l.
Proof. reflexivity. Qed.

Lemma qsum_app : forall a b, qsum (a ++ b) == qsum a + qsum b.
Proof.
  induction a as [|x a IH]; intros b; cbn [app]; [cbn; ring|].
  rewrite !qsum_cons, IH. ring.
Qed.

Lemma qsum_perm : forall a b, Permutation a b -> qsum a == qsum b.
Proof.
  induction 1; try reflexivity.
  - rewrite !qsum_cons, IHPermutation. reflexivity.
  - rewrite !qsum_cons. ring.
  - rewrite IHPermutation1. assumption.
Qed.

Lemma qsum_map_ext : forall (A : Type) (f g : A -> Q) l,
  Forall (fun x => f x == g x) l -> qsum (map f l) == qsum (map g l).
Proof.
  induction 1; cbn [map]; [reflexivity|]. rewrite !qsum_cons, H, IHForall. reflexivity.
Qed.

Lemma qsum_map_ext_in : forall (A : Type) (f g : A -> Q) l,
  (forall x, In x l -> f x == g x) -> qsum (map f l) == qsum (map g l).
Proof. intros. apply qsum_map_ext, Forall_forall. assumption. Qed.

Lemma qsum_map_ext_all : forall (A : Type) (f g : A -> Q) l,
  (forall x, f x == g x) -> qsum (map f l) == qsum (map g l).
Proof. intros. apply qsum_map_ext_in. auto. Qed.

Lemma qsum_map_opp : forall (A : Type) (f : A -> Q) l,
  qsum (map (fun x => - f x) l) == - qsum (map f l).
Proof.
  induction l as [|x l IH]; cbn [map]; [cbn; ring|]. rewrite !qsum_cons, IH. ring.
Qed.

Lemma qsum_map_scale : forall (A : Type) (f : A -> Q) (c : Q) l,
  qsum (map (fun x => f x * c) l) == qsum (map f l) * c.
Proof.
  induction l as [|x l IH]; cbn [map]; [cbn; ring|]. rewrite !qsum_cons, IH. ring.
Qed.

Lemma qsum_map_plus : forall (A : Type) (f g : A -> Q) l,
  qsum (map (fun x => f x + g x) l) == qsum (map f l) + qsum (map g l).
Proof.
  induction l as [|x l IH]; cbn [map]; [cbn; ring|]. rewrite !qsum_cons, IH. ring.
Qed.

(* ------------------------------------------------------------------------------------------ *)
(* Polygon / geometry area in order-free form                                                  *)
(* ------------------------------------------------------------------------------------------ *)
Definition shell_term (s : bool) (tr : option (xy -> xy)) (l : lineT Q) : Q :=
  if s then ring_area tr l else Qabs (ring_area tr l).
Definition hole_term (s : bool) (tr : option (xy -> xy)) (l : lineT Q) : Q :=
  if s then ring_area tr l else - Qabs (ring_area tr l).

Lemma poly_area_spec : forall s tr ct sh hs,
  poly_area s tr (MkPoly ct (sh :: hs)) == shell_term s tr sh + qsum (map (hole_term s tr) hs).
Proof.
  intros s tr ct sh hs. unfold poly_area. cbn [poly_rings].
  rewrite (fold_left_qsum_gen _ _ (hole_term s tr)).
  - unfold shell_term. destruct s; reflexivity.
  - intros a x. unfold hole_term. destruct s; cbn zeta; ring.
Qed.

Lemma poly_area_empty : forall s tr ct, poly_area s tr (MkPoly ct []) = 0.
Proof. reflexivity. Qed.

Lemma mpoly_area_spec : forall s tr ps, mpoly_area s tr ps == qsum (map (poly_area s tr) ps).
Proof. intros. unfold mpoly_area. rewrite fold_left_qsum. ring. Qed.

Lemma coll_area_spec : forall s tr ct gs,
  geom_area s tr (GColl ct gs) == qsum (map (geom_area s tr) gs).
Proof.
  intros. cbn [geom_area].
  rewrite (fold_left_qsum _ (geom_area s tr)). ring.
Qed.

Lemma line_xys_rev : forall l, line_xys (line_rev l) = rev (line_xys l).
Proof. intros [ct vs]. unfold line_xys. cbn [line_rev line_vs]. apply map_rev. Qed.

Lemma ring_area_rev : forall tr l, ring_area tr (line_rev l) == - ring_area tr l.
Proof.
  intros tr l. unfold ring_area. rewrite line_xys_rev, map_rev. apply area_reverse_lemma.
Qed.

Lemma Qabs_opp_eq : forall a b, a == - b -> Qabs a == Qabs b.
Proof. intros a b H. rewrite H. apply Qabs_opp. Qed.

(* additivity over members, in every order *)
Lemma area_members_mpoly : forall s tr ct ps,
  geom_area s tr (GMPoly ct ps) == qsum (map (fun p => geom_area s tr (GPoly p)) ps).
Proof. intros. cbn [geom_area]. apply mpoly_area_spec. Qed.

Lemma area_coll_app : forall s tr ct a b,
  geom_area s tr (GColl ct (a ++ b)) == geom_area s tr (GColl ct a) + geom_area s tr (GColl ct b).
Proof. intros. rewrite !coll_area_spec, map_app. apply qsum_app. Qed.

Lemma area_coll_perm : forall s tr ct ct' gs gs', Permutation gs gs' ->
  geom_area s tr (GColl ct gs) == geom_area s tr (GColl ct' gs').
Proof. intros. rewrite !coll_area_spec. apply qsum_perm, Permutation_map. assumption. Qed.

Lemma area_mpoly_perm : forall s tr ct ct' ps ps', Permutation ps ps' ->
  geom_area s tr (GMPoly ct ps) == geom_area s tr (GMPoly ct' ps').
Proof. intros. cbn [geom_area]. rewrite !mpoly_area_spec. apply qsum_perm, Permutation_map. assumption. Qed.

Lemma area_holes_perm : forall s tr ct ct' sh hs hs', Permutation hs hs' ->
  poly_area s tr (MkPoly ct (sh :: hs)) == poly_area s tr (MkPoly ct' (sh :: hs')).
Proof.
  intros. rewrite !poly_area_spec. apply Qplus_comp; [reflexivity|].
  apply qsum_perm, Permutation_map. assumption.
Qed.

(* ------------------------------------------------------------------------------------------ *)
(* Transform option                                                                            *)
(* ------------------------------------------------------------------------------------------ *)
Lemma map_apply_tr_none : forall l, map (apply_tr None) l = l.
Proof. intros. unfold apply_tr. apply map_id. Qed.

Lemma ring_area_none : forall l, ring_area None l = ring_area_xy (line_xys l).
Proof. intros. unfold ring_area. rewrite map_apply_tr_none. reflexivity. Qed.

Lemma vxy_vtx_tr : forall f v, vxy (vtx_tr f v) = f (vxy v).
Proof. intros f v. unfold vtx_tr, vxy. cbn [vx vy]. destruct (f (vx v, vy v)); reflexivity. Qed.

Lemma line_xys_tr : forall f l, line_xys (line_tr f l) = map f (line_xys l).
Proof.
  intros f [ct vs]. unfold line_xys. cbn [line_tr line_vs]. rewrite !map_map.
  apply map_ext. intros; apply vxy_vtx_tr.
Qed.

Lemma ring_area_tr : forall f l, ring_area None (line_tr f l) = ring_area (Some f) l.
Proof. intros. rewrite ring_area_none, line_xys_tr. reflexivity. Qed.

(* ------------------------------------------------------------------------------------------ *)
(* The triangle fan: link between Centroid's weights and Area, convex rings                    *)
(* ------------------------------------------------------------------------------------------ *)
Definition e_tri (b p q : xy) : Q := tri_area2 b p q.
Definition e_c6x (b p q : xy) : Q := (fst b + fst p + fst q) * tri_area2 b p q.
Definition e_c6y (b p q : xy) : Q := (snd b + snd p + snd q) * tri_area2 b p q.
Definition e_cx (p q : xy) : Q := (fst p + fst q) * e_cross p q.
Definition e_cy (p q : xy) : Q := (snd p + snd q) * e_cross p q.

Lemma fan_loop_spec : forall b r s c p,
  fst (fan_loop b s c p r) == s + pairsum (e_tri b) p r /\
  fst (snd (fan_loop b s c p r)) == fst c + pairsum (e_c6x b) p r /\
  snd (snd (fan_loop b s c p r)) == snd c + pairsum (e_c6y b) p r.
Proof.
  intros b r; induction r as [|q r IH]; intros s c p; cbn [fan_loop pairsum fst snd].
  - repeat split; ring.
  - destruct (IH (s + tri_area2 b p q) (xy_add c (xy_scale (centroid3 b p q) (tri_area2 b p q))) q)
      as [H1 [H2 H3]].
    rewrite H1, H2, H3.
    set (P1 := pairsum (e_tri b) q r). set (P2 := pairsum (e_c6x b) q r). set (P3 := pairsum (e_c6y b) q r).
    unfold e_tri, e_c6x, e_c6y.
    cbv beta iota delta [fst snd xy_add xy_scale centroid3].
    repeat split; ring.
Qed.

Lemma fan_spec : forall b tl,
  fst (fan b tl) == psum (e_tri b) tl /\
  fst (snd (fan b tl)) == psum (e_c6x b) tl /\
  snd (snd (fan b tl)) == psum (e_c6y b) tl.
Proof.
  intros b [|p r]; cbn [fan psum].
  - cbn. repeat split; reflexivity.
  - destruct (fan_loop_spec b r 0 xy0 p) as [H1 [H2 H3]]. rewrite H1, H2, H3. cbn [xy0 fst snd].
    repeat split; ring.
Qed.

(* on a ring that returns to its base vertex, the fan sums are the cyclic cross-product sums *)
Lemma fan_closed_sums : forall b tl, last tl b = b ->
  psum (e_tri b) tl == pairsum e_cross b tl /\
  psum (e_c6x b) tl == pairsum e_cx b tl /\
  psum (e_c6y b) tl == pairsum e_cy b tl.
Proof.
  intros b [|p r] Hl; cbn [psum pairsum]; [repeat split; reflexivity|].
  rewrite last_cons_default in Hl.
  rewrite (pairsum_telescope (e_tri b) e_cross (fun q => - e_cross b q)).
  2:{ intros x y. unfold e_tri, tri_area2, e_cross. ring. }
  rewrite (pairsum_telescope (e_c6x b) e_cx
             (fun q => - fst b * fst q * snd q + snd b * fst q * fst q - fst b * e_cross b q)).
  2:{ intros x y. unfold e_c6x, tri_area2, e_cx, e_cross. ring. }
  rewrite (pairsum_telescope (e_c6y b) e_cy
             (fun q => snd b * snd q * fst q - fst b * snd q * snd q - snd b * e_cross b q)).
  2:{ intros x y. unfold e_c6y, tri_area2, e_cy, e_cross. ring. }
  rewrite Hl. unfold e_cx, e_cy, e_cross. repeat split; ring.
Qed.

Lemma close_cons : forall b m, close (b :: m) = b :: (m ++ [b]).
Proof. reflexivity. Qed.

Lemma fan_eq_shoelace_lemma : forall b m,
  fst (fan b (m ++ [b])) == 2 * ring_area_xy (close (b :: m)).
Proof.
  intros b m. destruct (fan_spec b (m ++ [b])) as [H _]. rewrite H.
  destruct (fan_closed_sums b (m ++ [b]) (last_last m b b)) as [H1 _]. rewrite H1.
  rewrite shoelace_eq_cross_lemma.
  - rewrite cross_area_psum, close_cons. cbn [psum]. field.
  - rewrite close_cons. unfold ring_closedb. rewrite last_cons_default, last_last.
    unfold xy_eqb. rewrite !Qeq_bool_refl. reflexivity.
Qed.

(* closed-form of the ring centroid on closed rings: the classical sums *)
Lemma ring_centroid_cyc : forall l,
  xy_eq (centroid_of_ring_xy (close l))
        (cyc e_cx l * (1 / 3 / cyc e_cross l), cyc e_cy l * (1 / 3 / cyc e_cross l)).
Proof.
  intros [|b m]; unfold xy_eq; cbn [fst snd].
  - cbn. split; ring.
  - rewrite close_cons. unfold cyc. rewrite close_cons. cbn [centroid_of_ring_xy psum].
    destruct (fan b (m ++ [b])) as [a2 c6] eqn:E.
    destruct (fan_spec b (m ++ [b])) as [H1 [H2 H3]]. rewrite E in H1, H2, H3. cbn [fst snd] in H1, H2, H3.
    destruct (fan_closed_sums b (m ++ [b]) (last_last m b b)) as [G1 [G2 G3]].
    unfold xy_scale. cbn [fst snd]. rewrite H1, H2, H3, G1, G2, G3. split; reflexivity.
Qed.

Lemma xy_eq_refl : forall a, xy_eq a a.
Proof. intros; split; reflexivity. Qed.
Lemma xy_eq_sym : forall a b, xy_eq a b -> xy_eq b a.
Proof. intros a b [H1 H2]; split; symmetry; assumption. Qed.
Lemma xy_eq_trans : forall a b c, xy_eq a b -> xy_eq b c -> xy_eq a c.
Proof. intros a b c [H1 H2] [H3 H4]; split; etransitivity; eassumption. Qed.

Lemma centroid_ring_rotate_lemma : forall k l,
  xy_eq (centroid_of_ring_xy (close (rot k l))) (centroid_of_ring_xy (close l)).
Proof.
  intros k l. eapply xy_eq_trans; [apply ring_centroid_cyc|].
  apply xy_eq_sym. eapply xy_eq_trans; [apply ring_centroid_cyc|].
  unfold xy_eq. cbn [fst snd]. rewrite !cyc_rot. split; reflexivity.
Qed.

Definition rev_cycle (l : list xy) : list xy := match l with [] => [] | b :: m => b :: rev m end.
Lemma close_rev : forall l, rev (close l) = close (rev_cycle l).
Proof.
  intros [|b m]; [reflexivity|]. rewrite close_cons. cbn [rev_cycle]. rewrite close_cons.
  cbn [rev]. rewrite rev_app_distr. reflexivity.
Qed.

Lemma cyc_rev_cycle : forall e, (forall a b, e a b == - e b a) ->
  forall l, cyc e (rev_cycle l) == - cyc e l.
Proof. intros e He l. unfold cyc. rewrite <- close_rev. apply psum_rev, He. Qed.

Lemma Qinv_opp : forall a, / (- a) == - / a.
Proof.
  intros [n d]. destruct n; unfold Qinv, Qopp, Qeq; cbn; reflexivity.
Qed.

Lemma centroid_ring_reverse_lemma : forall l,
  xy_eq (centroid_of_ring_xy (rev (close l))) (centroid_of_ring_xy (close l)).
Proof.
  intros l. rewrite close_rev. eapply xy_eq_trans; [apply ring_centroid_cyc|].
  apply xy_eq_sym. eapply xy_eq_trans; [apply ring_centroid_cyc|].
  unfold xy_eq. cbn [fst snd].
  rewrite !cyc_rev_cycle by (intros a b; unfold e_cx, e_cy, e_cross; ring).
  unfold Qdiv. rewrite Qinv_opp. split; ring.
Qed.

(* ------------------------------------------------------------------------------------------ *)
(* Convex rings: the signed area is a sum of non-negative triangle areas                       *)
(* ------------------------------------------------------------------------------------------ *)
Fixpoint all_pairs (P : xy -> xy -> Prop) (p0 : xy) (l : list xy) : Prop :=
  match l with
  | [] => True
  | p :: r => P p0 p /\ all_pairs P p r
  end.

Lemma fan_tris_from_sum : forall b r p,
  qsum (fan_tris_from b p r) == pairsum (e_tri b) p r / 2.
Proof.
  intros b r; induction r as [|q r IH]; intros p; cbn [fan_tris_from pairsum].
  - cbn. unfold Qdiv. ring.
  - rewrite qsum_cons, IH. unfold e_tri, Qdiv. ring.
Qed.

Lemma tri_area2_degenerate : forall b x, tri_area2 b x b == 0.
Proof. intros. unfold tri_area2. ring. Qed.

(* shoelace area of the closed ring = sum of the fan triangle areas, for every ring *)
Lemma area_eq_fan_sum : forall l, ring_area_xy (close l) == qsum (fan_tris l).
Proof.
  intros [|b m]; [reflexivity|].
  assert (H := fan_eq_shoelace_lemma b m).
  destruct (fan_spec b (m ++ [b])) as [H1 _]. rewrite H1 in H.
  assert (E : ring_area_xy (close (b :: m)) == psum (e_tri b) (m ++ [b]) / 2).
  { rewrite H. field. }
  rewrite E. clear H H1 E.
  destruct m as [|p r]; [cbn; unfold Qdiv; ring|].
  cbn [fan_tris app psum]. rewrite fan_tris_from_sum, pairsum_app. cbn [pairsum].
  unfold e_tri at 2. rewrite tri_area2_degenerate. unfold Qdiv. ring.
Qed.

Lemma all_pairs_nth : forall (P : xy -> xy -> Prop) r p,
  (forall i, (S i < length (p :: r))%nat -> P (nth i (p :: r) xy0) (nth (S i) (p :: r) xy0)) ->
  all_pairs P p r.
Proof.
  intros P r; induction r as [|q r IH]; intros p H; cbn [all_pairs]; [exact I|].
  split.
  - apply (H 0%nat). cbn [length]. lia.
  - apply IH. intros i Hi. apply (H (S i)). cbn [length] in *. lia.
Qed.

Lemma fan_tris_from_forall : forall (R : Q -> Prop) b r p,
  all_pairs (fun x y => R (tri_area2 b x y / 2)) p r -> Forall R (fan_tris_from b p r).
Proof.
  intros R b r; induction r as [|q r IH]; intros p H; cbn [fan_tris_from]; [constructor|].
  destruct H as [H1 H2]. constructor; [exact H1|]. apply IH, H2.
Qed.

Lemma half_nonneg : forall a, 0 <= a -> 0 <= a / 2.
Proof. intros a H. unfold Qdiv. apply Qmult_le_0_compat; [assumption|]. discriminate. Qed.
Lemma half_pos : forall a, 0 < a -> 0 < a / 2.
Proof. intros a H. unfold Qdiv. apply Qmult_lt_0_compat; [assumption|]. reflexivity. Qed.

Lemma fan_tris_forall : forall (R : Q -> Prop) l,
  (forall i j k, (i < j)%nat -> (j < k)%nat -> (k < length l)%nat ->
                 R (tri_area2 (nth i l xy0) (nth j l xy0) (nth k l xy0) / 2)) ->
  Forall R (fan_tris l).
Proof.
  intros R [|b [|p r]] H; cbn [fan_tris]; try constructor.
  apply fan_tris_from_forall. apply all_pairs_nth. intros i Hi.
  change (nth i (p :: r) xy0) with (nth (S i) (b :: p :: r) xy0).
  change (nth (S i) (p :: r) xy0) with (nth (S (S i)) (b :: p :: r) xy0).
  change b with (nth 0 (b :: p :: r) xy0) at 1.
  apply H; cbn [length] in *; lia.
Qed.

Lemma convex_fan_nonneg : forall l, convex_ccw l -> Forall (fun a => 0 <= a) (fan_tris l).
Proof. intros l H. apply fan_tris_forall. intros i j k Hi Hj Hk. apply half_nonneg, H; assumption. Qed.

Lemma strictly_convex_fan_pos : forall l, strictly_convex_ccw l -> Forall (fun a => 0 < a) (fan_tris l).
Proof. intros l H. apply fan_tris_forall. intros i j k Hi Hj Hk. apply half_pos, H; assumption. Qed.

Lemma qsum_nonneg : forall l, Forall (fun a => 0 <= a) l -> 0 <= qsum l.
Proof.
  induction 1; [cbn; apply Qle_refl|]. rewrite qsum_cons.
  replace 0 with (0 + 0) by reflexivity. apply Qplus_le_compat; assumption.
Qed.

Lemma qsum_pos : forall l, l <> [] -> Forall (fun a => 0 < a) l -> 0 < qsum l.
Proof.
  intros l Hne H. induction H; [congruence|]. rewrite qsum_cons.
  destruct l as [|y l].
  - cbn. rewrite Qplus_0_r. assumption.
  - assert (0 < qsum (y :: l)) by (apply IHForall; discriminate).
    replace 0 with (0 + 0) by reflexivity. apply Qplus_lt_le_compat; [assumption|]. apply Qlt_le_weak; assumption.
Qed.

Lemma signed_area_ccw_nonneg_lemma : forall l, convex_ccw l ->
  ring_area_xy (close l) == qsum (fan_tris l) /\
  Forall (fun a => 0 <= a) (fan_tris l) /\
  0 <= ring_area_xy (close l).
Proof.
  intros l H. split; [apply area_eq_fan_sum|]. split; [apply convex_fan_nonneg, H|].
  rewrite area_eq_fan_sum. apply qsum_nonneg, convex_fan_nonneg, H.
Qed.

Lemma signed_area_ccw_pos_lemma : forall l, strictly_convex_ccw l -> (3 <= length l)%nat ->
  0 < ring_area_xy (close l).
Proof.
  intros l H Hn. rewrite area_eq_fan_sum. apply qsum_pos; [|apply strictly_convex_fan_pos, H].
  destruct l as [|b [|p [|q r]]]; cbn [length] in Hn; try lia. cbn. discriminate.
Qed.

(* ------------------------------------------------------------------------------------------ *)
(* Points up to ==, and lists related element by element                                       *)
(* ------------------------------------------------------------------------------------------ *)
Lemma xy_add_eq : forall a a' b b', xy_eq a a' -> xy_eq b b' -> xy_eq (xy_add a b) (xy_add a' b').
Proof. intros a a' b b' [H1 H2] [H3 H4]. unfold xy_eq, xy_add. cbn [fst snd]. rewrite H1, H2, H3, H4. split; reflexivity. Qed.
Lemma xy_scale_eq : forall a a' s s', xy_eq a a' -> s == s' -> xy_eq (xy_scale a s) (xy_scale a' s').
Proof. intros a a' s s' [H1 H2] H3. unfold xy_eq, xy_scale. cbn [fst snd]. rewrite H1, H2, H3. split; reflexivity. Qed.
Lemma oxy_eq_refl : forall a, oxy_eq a a.
Proof. intros [a|]; cbn; [apply xy_eq_refl|exact I]. Qed.
Lemma oxy_eq_sym : forall a b, oxy_eq a b -> oxy_eq b a.
Proof. intros [a|] [b|]; cbn; auto using xy_eq_sym. Qed.
Lemma oxy_eq_trans : forall a b c, oxy_eq a b -> oxy_eq b c -> oxy_eq a c.
Proof. intros [a|] [b|] [c|]; cbn; try tauto. apply xy_eq_trans. Qed.

Lemma Qeq_bool_eq : forall a a' b b', a == a' -> b == b' -> Qeq_bool a b = Qeq_bool a' b'.
Proof. intros a a' b b' Ha Hb. apply eq_true_iff_eq. rewrite !Qeq_bool_iff, Ha, Hb. reflexivity. Qed.

Lemma Forall2_length : forall (A B : Type) (R : A -> B -> Prop) l l', Forall2 R l l' -> length l = length l'.
Proof. induction 1; cbn; congruence. Qed.

Lemma Forall2_impl' : forall (A B : Type) (R S : A -> B -> Prop) l l',
  (forall a b, R a b -> S a b) -> Forall2 R l l' -> Forall2 S l l'.
Proof. induction 2; constructor; auto. Qed.

Lemma Forall2_Forall_impl : forall (A B : Type) (R S : A -> B -> Prop) (P : A -> Prop) l l',
  (forall x y, R x y -> P x -> S x y) -> Forall2 R l l' -> Forall P l -> Forall2 S l l'.
Proof.
  intros A B R S P l l' HS H. induction H; intros HP; [constructor|]. inversion HP; subst. constructor; auto.
Qed.

Lemma Forall2_flat_map : forall (A B C D : Type) (S : C -> D -> Prop) (f : A -> list C) (g : B -> list D) l l',
  Forall2 (fun x y => Forall2 S (f x) (g y)) l l' -> Forall2 S (flat_map f l) (flat_map g l').
Proof. induction 1; cbn [flat_map]; [constructor|]. apply Forall2_app; assumption. Qed.

Lemma Forall2_refl' : forall (A : Type) (R : A -> A -> Prop) l, (forall x, R x x) -> Forall2 R l l.
Proof. induction l; constructor; auto. Qed.
Lemma Forall2_map_r_Forall : forall (A B : Type) (R : A -> B -> Prop) (f : A -> B) l,
  Forall (fun x => R x (f x)) l -> Forall2 R l (map f l).
Proof. induction 1; cbn [map]; constructor; auto. Qed.
Lemma Forall2_map_graph : forall (A B : Type) (R : A -> B -> Prop) (f : A -> B) l,
  (forall x, R x (f x)) -> Forall2 R l (map f l).
Proof. intros A B R f l H. apply Forall2_map_r_Forall, Forall_forall. intros x _. apply H. Qed.

Lemma forallb_Forall2 : forall (A B : Type) (f : A -> bool) (g : B -> bool) (R : A -> B -> Prop) l l',
  (forall a b, R a b -> f a = g b) -> Forall2 R l l' -> forallb f l = forallb g l'.
Proof. intros A B f g R l l' Hfg H. induction H; cbn [forallb]; [reflexivity|]. rewrite (Hfg _ _ H), IHForall2. reflexivity. Qed.

Lemma map_Forall2 : forall (A B C : Type) (f : A -> C) (g : B -> C) l l',
  Forall2 (fun x y => f x = g y) l l' -> map f l = map g l'.
Proof. induction 1; cbn [map]; congruence. Qed.

Definition is_leaf (g : geomT Q) : Prop := match g with GColl _ _ => False | _ => True end.

Lemma leaves_are_leaves : forall g, Forall is_leaf (leaves g).
Proof.
  intros g. induction g using geomT_ind'; cbn [leaves]; try (constructor; [exact I|constructor]).
  apply Forall_flat_map. exact H.
Qed.

Lemma qsum_rel_lin : forall (A B : Type) (n : A -> Q) (n' : B -> Q) k l l',
  Forall2 (fun x y => n' y == k * n x) l l' -> qsum (map n' l') == k * qsum (map n l).
Proof. induction 1; cbn [map]; [cbn; ring|]. rewrite !qsum_cons, H, IHForall2. ring. Qed.

(* ------------------------------------------------------------------------------------------ *)
(* Lines: length and length-weighted centroid sums as sums over consecutive pairs              *)
(* ------------------------------------------------------------------------------------------ *)
Lemma xy_eqb_sym : forall a b, xy_eqb a b = xy_eqb b a.
Proof.
  intros a b. unfold xy_eqb.
  f_equal; apply eq_true_iff_eq; rewrite !Qeq_bool_iff; split; intros H; symmetry; exact H.
Qed.

Section Lines.
  Variable sq : Q -> Q.
  Hypothesis sq_proper : forall a b, a == b -> sq a == sq b.

  Definition e_len (a b : xy) : Q := xy_len sq (xy_sub a b).
  Definition e_sl (a b : xy) : Q := if xy_eqb a b then 0 else xy_len sq (xy_sub b a).
  Definition e_sx (a b : xy) : Q :=
    if xy_eqb a b then 0 else (1 # 2) * (fst a + fst b) * xy_len sq (xy_sub b a).
  Definition e_sy (a b : xy) : Q :=
    if xy_eqb a b then 0 else (1 # 2) * (snd a + snd b) * xy_len sq (xy_sub b a).

  Lemma length_loop_pairsum : forall r s a, length_loop sq s a r == s + pairsum e_len a r.
  Proof.
    induction r as [|b r IH]; intros s a; cbn [length_loop pairsum]; [ring|].
    rewrite IH. unfold e_len. ring.
  Qed.
  Lemma length_xy_psum : forall L, length_xy sq L == psum e_len L.
  Proof. intros [|a r]; cbn [length_xy psum]; [reflexivity|]. rewrite length_loop_pairsum. ring. Qed.

  Lemma xy_len_swap : forall a b, xy_len sq (xy_sub a b) == xy_len sq (xy_sub b a).
  Proof. intros a b. unfold xy_len, xy_sub. cbn [fst snd]. apply sq_proper. ring. Qed.

  Lemma length_xy_rev : forall L, length_xy sq (rev L) == length_xy sq L.
  Proof.
    intros L. rewrite !length_xy_psum. apply psum_rev_sym. intros a b. unfold e_len. apply xy_len_swap.
  Qed.

  Lemma length_xy_app : forall a b x, length_xy sq (a ++ x :: b) == length_xy sq (a ++ [x]) + length_xy sq (x :: b).
  Proof.
    intros a b x. rewrite !length_xy_psum. destruct a as [|y a]; cbn [app psum pairsum]; [ring|].
    rewrite !pairsum_app. cbn [pairsum]. ring.
  Qed.

  Lemma sumcl_loop_pairsum : forall r c n a,
    fst (fst (sumcl_loop sq c n a r)) == fst c + pairsum e_sx a r /\
    snd (fst (sumcl_loop sq c n a r)) == snd c + pairsum e_sy a r /\
    snd (sumcl_loop sq c n a r) == n + pairsum e_sl a r.
  Proof.
    induction r as [|b r IH]; intros c n a; cbn [sumcl_loop pairsum].
    - cbn [fst snd]. repeat split; ring.
    - unfold e_sx at 1, e_sy at 1, e_sl at 1. destruct (xy_eqb a b).
      + destruct (IH c n b) as [H1 [H2 H3]]. rewrite H1, H2, H3. repeat split; ring.
      + cbv zeta.
        match goal with |- context [sumcl_loop sq ?c' ?n' b r] => destruct (IH c' n' b) as [H1 [H2 H3]] end.
        rewrite H1, H2, H3. unfold xy_add, xy_scale. cbn [fst snd]. repeat split; ring.
  Qed.

  Lemma sumcl_xy_psum : forall L,
    fst (fst (sumcl_xy sq L)) == psum e_sx L /\
    snd (fst (sumcl_xy sq L)) == psum e_sy L /\
    snd (sumcl_xy sq L) == psum e_sl L.
  Proof.
    intros [|a r]; cbn [sumcl_xy psum].
    - cbn. repeat split; reflexivity.
    - destruct (sumcl_loop_pairsum r xy0 0 a) as [H1 [H2 H3]]. rewrite H1, H2, H3. cbn [xy0 fst snd].
      repeat split; ring.
  Qed.

  Lemma sumcl_xy_rev : forall L,
    fst (fst (sumcl_xy sq (rev L))) == fst (fst (sumcl_xy sq L)) /\
    snd (fst (sumcl_xy sq (rev L))) == snd (fst (sumcl_xy sq L)) /\
    snd (sumcl_xy sq (rev L)) == snd (sumcl_xy sq L).
  Proof.
    intros L. destruct (sumcl_xy_psum (rev L)) as [H1 [H2 H3]], (sumcl_xy_psum L) as [G1 [G2 G3]].
    rewrite H1, H2, H3, G1, G2, G3.
    repeat split; apply psum_rev_sym; intros a b; unfold e_sx, e_sy, e_sl;
      rewrite (xy_eqb_sym b a); destruct (xy_eqb a b); try reflexivity;
      rewrite (xy_len_swap a b); ring.
  Qed.

  Lemma line_rev_empty : forall l, line_empty (line_rev l) = line_empty l.
  Proof.
    intros [ct vs]. unfold line_empty. cbn [line_rev line_vs].
    destruct vs as [|v vs]; [reflexivity|]. cbn [rev]. destruct (rev vs); reflexivity.
  Qed.

End Lines.

(* ------------------------------------------------------------------------------------------ *)
(* Weighted sums in order-free form: multipolygon and collection centroids                     *)
(* ------------------------------------------------------------------------------------------ *)
Lemma fold_left_xy_qsum : forall (A : Type) (F : xy -> A -> xy) (fx fy : A -> Q),
  (forall w a, fst (F w a) == fst w + fx a /\ snd (F w a) == snd w + fy a) ->
  forall l w, fst (fold_left F l w) == fst w + qsum (map fx l) /\
              snd (fold_left F l w) == snd w + qsum (map fy l).
Proof.
  intros A F fx fy HF l; induction l as [|a l IH]; intros w; cbn [fold_left map].
  - cbn. split; ring.
  - destruct (IH (F w a)) as [H1 H2]. destruct (HF w a) as [G1 G2].
    rewrite H1, H2, G1, G2, !qsum_cons. split; ring.
Qed.

Lemma fold_left_sums3 : forall (S A : Type) (p1 p2 p3 : S -> Q) (F : S -> A -> S) (f1 f2 f3 : A -> Q),
  (forall s x, p1 (F s x) == p1 s + f1 x /\ p2 (F s x) == p2 s + f2 x /\ p3 (F s x) == p3 s + f3 x) ->
  forall l s, p1 (fold_left F l s) == p1 s + qsum (map f1 l) /\
              p2 (fold_left F l s) == p2 s + qsum (map f2 l) /\
              p3 (fold_left F l s) == p3 s + qsum (map f3 l).
Proof.
  intros S A p1 p2 p3 F f1 f2 f3 HF l; induction l as [|x l IH]; intros s; cbn [fold_left map].
  - cbn. repeat split; ring.
  - destruct (IH (F s x)) as [H1 [H2 H3]], (HF s x) as [G1 [G2 G3]].
    rewrite H1, H2, H3, G1, G2, G3, !qsum_cons. repeat split; ring.
Qed.

Lemma combine_map_r : forall (A B : Type) (f : A -> B) l, combine l (map f l) = map (fun x => (x, f x)) l.
Proof. induction l as [|x l IH]; cbn [map combine]; [reflexivity|]. rewrite IH. reflexivity. Qed.

Lemma wsum_div : forall (A : Type) (c w : A -> Q) (T : Q) l,
  qsum (map (fun x => c x * (w x / T)) l) == qsum (map (fun x => w x * c x) l) / T.
Proof.
  intros. unfold Qdiv. rewrite <- qsum_map_scale. apply qsum_map_ext_all. intros; ring.
Qed.

(* polygon: rings weighted by +|shell| and -|hole| *)
Definition ring_w (first : bool) (r : lineT Q) : Q :=
  if first then Qabs (ring_area None r) else - Qabs (ring_area None r).

Lemma poly_centroid_spec : forall ct sh hs,
  let S := ring_w true sh + qsum (map (ring_w false) hs) in
  exists c, poly_centroid (MkPoly ct (sh :: hs)) = Some c /\
    fst c == (ring_w true sh * fst (centroid_of_ring sh)
              + qsum (map (fun h => ring_w false h * fst (centroid_of_ring h)) hs)) / S /\
    snd c == (ring_w true sh * snd (centroid_of_ring sh)
              + qsum (map (fun h => ring_w false h * snd (centroid_of_ring h)) hs)) / S /\
    poly_area false None (MkPoly ct (sh :: hs)) == S.
Proof.
  intros ct sh hs S. unfold poly_centroid. cbn [poly_rings]. cbv zeta.
  eexists. split; [reflexivity|].
  rewrite combine_map_r.
  set (T := fold_left Qplus (map (fun h => - Qabs (ring_area None h)) hs) (Qabs (ring_area None sh))).
  assert (HT : T == S).
  { unfold T, S, ring_w. rewrite fold_left_Qplus. reflexivity. }
  match goal with |- context [fold_left ?F (map ?g hs) ?w0] =>
    destruct (fold_left_xy_qsum _ F
                (fun ha => fst (centroid_of_ring (fst ha)) * (snd ha / T))
                (fun ha => snd (centroid_of_ring (fst ha)) * (snd ha / T))
                (fun w a => conj (Qeq_refl _) (Qeq_refl _)) (map g hs) w0) as [H1 H2] end.
  rewrite H1, H2, !map_map. cbn [fst snd]. unfold weighted_centroid, xy_scale. cbn [fst snd].
  split; [|split].
  - rewrite (wsum_div _ (fun x => fst (centroid_of_ring x)) (fun x => - Qabs (ring_area None x)) T hs).
    rewrite <- HT. unfold ring_w, Qdiv. ring.
  - rewrite (wsum_div _ (fun x => snd (centroid_of_ring x)) (fun x => - Qabs (ring_area None x)) T hs).
    rewrite <- HT. unfold ring_w, Qdiv. ring.
  - rewrite poly_area_spec. unfold S, shell_term, hole_term, ring_w. reflexivity.
Qed.

(* a centroid accumulated member by member with the weights A x / total: the weighted mean of the
   members' centroids (multipolygons, areal collections) *)
Lemma weighted_mean_spec : forall (X : Type) (C : X -> option xy) (A : X -> Q) l,
  let T := qsum (map A l) in
  let w := fold_left (fun w pa => match C (fst pa) with
                                   | Some c => xy_add w (xy_scale c (snd pa / fold_left Qplus (map A l) 0))
                                   | None => w
                                   end) (combine l (map A l)) xy0 in
  fst w == qsum (map (fun x => A x * ocx (C x)) l) / T /\
  snd w == qsum (map (fun x => A x * ocy (C x)) l) / T.
Proof.
  intros X C A l T. cbv zeta. rewrite combine_map_r.
  set (T' := fold_left Qplus (map A l) 0).
  assert (HT : T' == T) by (unfold T', T; rewrite fold_left_Qplus; ring).
  match goal with |- context [fold_left ?F (map ?g l) xy0] =>
    destruct (fold_left_xy_qsum _ F (fun xa => ocx (C (fst xa)) * (snd xa / T'))
                (fun xa => ocy (C (fst xa)) * (snd xa / T'))) with (l := map g l) (w := xy0) as [H1 H2] end.
  { intros w x. destruct (C (fst x)); cbn [ocx ocy xy_add xy_scale fst snd]; split; ring. }
  rewrite H1, H2, !map_map. cbn [fst snd xy0]. rewrite <- HT.
  rewrite (wsum_div _ (fun x => ocx (C x)) A T' l), (wsum_div _ (fun x => ocy (C x)) A T' l).
  split; ring.
Qed.

Lemma mpoly_centroid_spec : forall ps, forallb (@poly_empty Q) ps = false ->
  let T := qsum (map (poly_area false None) ps) in
  exists c, mpoly_centroid ps = Some c /\
    fst c == qsum (map (fun p => poly_area false None p * ocx (poly_centroid p)) ps) / T /\
    snd c == qsum (map (fun p => poly_area false None p * ocy (poly_centroid p)) ps) / T.
Proof.
  intros ps He T. unfold mpoly_centroid. rewrite He. eexists. split; [reflexivity|].
  apply (weighted_mean_spec _ (@poly_centroid) (poly_area false None) ps).
Qed.

Lemma coll_areal_spec : forall sq lv,
  let T := qsum (map (geom_area false None) lv) in
  fst (coll_areal_centroid sq lv) ==
    qsum (map (fun g => geom_area false None g * ocx (leaf_centroid sq g)) lv) / T /\
  snd (coll_areal_centroid sq lv) ==
    qsum (map (fun g => geom_area false None g * ocy (leaf_centroid sq g)) lv) / T.
Proof. intros sq lv. apply (weighted_mean_spec _ (leaf_centroid sq) (geom_area false None) lv). Qed.

(* ---- the dimension rule ---- *)

Lemma qsum_filter_in : forall (A : Type) (f : A -> bool) (h : A -> Q) l,
  (forall x, In x l -> f x = false -> h x == 0) -> qsum (map h (filter f l)) == qsum (map h l).
Proof.
  intros A f h l H. induction l as [|x l IH]; cbn [filter map]; [reflexivity|].
  assert (IH' := IH (fun y Hy => H y (or_intror Hy))).
  destruct (f x) eqn:E; cbn [map]; rewrite !qsum_cons, IH'; [reflexivity|].
  rewrite (H x (or_introl eq_refl) E). ring.
Qed.

Lemma qsum_filter : forall (A : Type) (f : A -> bool) (h : A -> Q) l,
  (forall x, f x = false -> h x == 0) -> qsum (map h (filter f l)) == qsum (map h l).
Proof. intros A f h l H. apply qsum_filter_in. intros x _. apply H. Qed.

Lemma qsum_zero : forall (A : Type) (h : A -> Q) l, (forall x, In x l -> h x == 0) -> qsum (map h l) == 0.
Proof.
  induction l as [|x l IH]; intros H; cbn [map]; [reflexivity|].
  rewrite qsum_cons, (H x (or_introl eq_refl)), IH; [ring|]. intros; apply H; right; assumption.
Qed.

Lemma poly_empty_area : forall s tr p, poly_empty p = true -> poly_area s tr p = 0.
Proof. intros s tr [ct [|r rs]] H; [reflexivity|discriminate]. Qed.

Lemma leaf_not_areal_or_empty_area : forall g, is_leaf g ->
  (is_areal g && negb (is_empty g))%bool = false -> geom_area false None g == 0.
Proof.
  intros g Hl H. destruct g; cbn [is_areal is_empty andb negb geom_area] in *; try reflexivity.
  - destruct (poly_empty p) eqn:E; [|discriminate]. rewrite poly_empty_area by assumption. reflexivity.
  - destruct (forallb (@poly_empty Q) ps) eqn:E; [|discriminate].
    rewrite mpoly_area_spec. apply qsum_zero. intros x Hx. rewrite forallb_forall in E.
    rewrite poly_empty_area; [reflexivity|]. apply E, Hx.
  - destruct Hl.
Qed.

(* areal members dominate: lineal and puntal leaves and empty areal leaves contribute nothing *)
Lemma areal_dominates_lemma : forall sq lv, Forall is_leaf lv ->
  xy_eq (coll_areal_centroid sq lv)
        (coll_areal_centroid sq (filter (fun g => is_areal g && negb (is_empty g))%bool lv)).
Proof.
  intros sq lv Hl.
  set (f := fun g : geomT Q => (is_areal g && negb (is_empty g))%bool).
  destruct (coll_areal_spec sq lv) as [H1 H2], (coll_areal_spec sq (filter f lv)) as [G1 G2].
  assert (Z0 : forall x, In x lv -> f x = false -> geom_area false None x == 0).
  { intros x Hx E. apply leaf_not_areal_or_empty_area; [|exact E]. rewrite Forall_forall in Hl. apply Hl, Hx. }
  unfold xy_eq. rewrite H1, H2, G1, G2.
  rewrite !qsum_filter_in by (intros x Hx E; rewrite (Z0 x Hx E); ring).
  split; reflexivity.
Qed.

Lemma fold_left_filter : forall (A S : Type) (F : S -> A -> S) (keep : A -> bool),
  (forall s x, keep x = false -> F s x = s) -> forall l s, fold_left F l s = fold_left F (filter keep l) s.
Proof.
  intros A S F keep H l; induction l as [|x l IH]; intros s; cbn [filter fold_left]; [reflexivity|].
  destruct (keep x) eqn:E; cbn [fold_left]; [|rewrite (H s x E)]; apply IH.
Qed.

Lemma lineal_only_lemma : forall sq lv,
  coll_linear_centroid sq lv = coll_linear_centroid sq (filter is_lineal lv).
Proof.
  intros sq lv. unfold coll_linear_centroid.
  rewrite (fold_left_filter _ _ _ is_lineal); [reflexivity|]. intros s [] E; try discriminate E; reflexivity.
Qed.

Lemma puntal_only_lemma : forall lv,
  coll_point_centroid lv = coll_point_centroid (filter is_puntal lv).
Proof.
  intros lv. unfold coll_point_centroid.
  rewrite (fold_left_filter _ _ _ is_puntal); [reflexivity|]. intros s [] E; try discriminate E; reflexivity.
Qed.

(* the dimension that selects the rule: the largest dimension of a non-empty leaf *)

Lemma fold_max_spec : forall (A : Type) (f : A -> nat) l d,
  fold_left (fun d x => Nat.max d (f x)) l d = Nat.max d (list_max (map f l)).
Proof.
  induction l as [|x l IH]; intros d; cbn [fold_left map list_max fold_right]; [lia|].
  rewrite IH. fold (list_max (map f l)). lia.
Qed.

Lemma is_empty_leaves : forall g, is_empty g = forallb (@is_empty Q) (leaves g).
Proof.
  induction g using geomT_ind'; cbn [leaves is_empty forallb]; try (rewrite andb_true_r; reflexivity).
  induction H as [|x l Hx Hl IH]; cbn [forallb flat_map]; [reflexivity|].
  rewrite forallb_app, <- Hx, IH. reflexivity.
Qed.

Lemma hdim_leaves : forall g, hdim g = list_max (map leaf_dim (leaves g)).
Proof.
  induction g using geomT_ind'.
  1-6: unfold leaf_dim; cbn [leaves map list_max fold_right hdim is_areal is_lineal];
       match goal with |- context [is_empty ?x] => destruct (is_empty x) end; reflexivity.
  cbn [hdim leaves]. destruct (is_empty (GColl ct gs)) eqn:E.
  - rewrite is_empty_leaves in E. cbn [leaves] in E. symmetry.
    assert (G : forall l, forallb (@is_empty Q) l = true -> list_max (map leaf_dim l) = 0%nat).
    { induction l as [|x l IH]; cbn [forallb map]; intros Hf; [reflexivity|].
      apply andb_true_iff in Hf. destruct Hf as [Hx Hl]. cbn [list_max fold_right]. fold (list_max (map leaf_dim l)).
      rewrite (IH Hl). unfold leaf_dim. rewrite Hx. reflexivity. }
    apply G, E.
  - rewrite fold_max_spec. cbn [Nat.max].
    clear E. induction H as [|x l Hx Hl IH]; cbn [map flat_map]; [reflexivity|].
    rewrite map_app, list_max_app. cbn [list_max fold_right]. fold (list_max (map hdim l)).
    rewrite Hx, IH. reflexivity.
Qed.

(* ---- order-free forms of the point and linear collection centroids ---- *)

Lemma points_sum_spec : forall ps a,
  fst (fst (points_sum ps a)) == fst (fst a) + qsum (map pcx ps) /\
  snd (fst (points_sum ps a)) == snd (fst a) + qsum (map pcy ps) /\
  inject_Z (snd (points_sum ps a)) == inject_Z (snd a) + qsum (map (fun p => inject_Z (pcn p)) ps).
Proof.
  intros ps. apply (fold_left_sums3 _ _ (fun s => fst (fst s)) (fun s => snd (fst s)) (fun s => inject_Z (snd s))).
  intros s p. unfold pcx, pcy, pcn. destruct (point_xy p); cbn [fst snd xy_add ocx ocy]; rewrite ?inject_Z_plus;
    repeat split; ring.
Qed.

Lemma inject_Z_zsum : forall (A : Type) (f : A -> Z) l, inject_Z (zsum (map f l)) == qsum (map (fun x => inject_Z (f x)) l).
Proof.
  induction l as [|x l IH]; cbn [map zsum fold_right]; [reflexivity|].
  fold (zsum (map f l)). rewrite inject_Z_plus, IH, qsum_cons. reflexivity.
Qed.

Lemma coll_point_spec : forall lv,
  let N := zsum (map gpn lv) in
  fst (coll_point_centroid lv) == qsum (map gpx lv) * (1 / inject_Z N) /\
  snd (coll_point_centroid lv) == qsum (map gpy lv) * (1 / inject_Z N).
Proof.
  intros lv N. unfold coll_point_centroid.
  set (F := fun (sn : xy * Z) (g : geomT Q) => match g with
              | GPoint p => points_sum [p] sn | GMPoint _ ps => points_sum ps sn | _ => sn end).
  destruct (fold_left_sums3 (xy * Z) _ (fun s => fst (fst s)) (fun s => snd (fst s)) (fun s => inject_Z (snd s)) F
              gpx gpy (fun g => inject_Z (gpn g))) with (l := lv) (s := (xy0, 0%Z)) as [H1 [H2 H3]].
  { intros s g. unfold F. destruct g; cbn [gpx gpy gpn]; try (repeat split; ring).
    - destruct (points_sum_spec [p] s) as [K1 [K2 K3]]. rewrite K1, K2, K3. cbn. repeat split; ring.
    - rewrite inject_Z_zsum. apply points_sum_spec. }
  destruct (fold_left F lv (xy0, 0%Z)) as [s n]. cbn [fst snd xy0] in H1, H2, H3. change (inject_Z 0) with 0 in H3.
  unfold xy_scale, N. cbn [fst snd]. rewrite inject_Z_zsum, H1, H2, H3, !Qplus_0_l. split; reflexivity.
Qed.

Lemma lin_step_spec : forall sq a l,
  fst (lin_step sq a l) == fst a + lw sq l /\
  fst (snd (lin_step sq a l)) == fst (snd a) + lcx sq l /\
  snd (snd (lin_step sq a l)) == snd (snd a) + lcy sq l.
Proof.
  intros sq a l. unfold lin_step, lw, lcx, lcy. destruct (line_centroid sq l); cbn [fst snd xy_add xy_scale];
    repeat split; ring.
Qed.

Lemma lin_fold_spec : forall sq ls a,
  fst (fold_left (lin_step sq) ls a) == fst a + qsum (map (lw sq) ls) /\
  fst (snd (fold_left (lin_step sq) ls a)) == fst (snd a) + qsum (map (lcx sq) ls) /\
  snd (snd (fold_left (lin_step sq) ls a)) == snd (snd a) + qsum (map (lcy sq) ls).
Proof.
  intros sq. apply (fold_left_sums3 _ _ fst (fun s => fst (snd s)) (fun s => snd (snd s))), lin_step_spec.
Qed.

Lemma coll_linear_spec : forall sq lv,
  let L := qsum (map (glw sq) lv) in
  fst (coll_linear_centroid sq lv) == qsum (map (glx sq) lv) * (1 / L) /\
  snd (coll_linear_centroid sq lv) == qsum (map (gly sq) lv) * (1 / L).
Proof.
  intros sq lv L. unfold coll_linear_centroid.
  set (F := fun (acc : Q * xy) (g : geomT Q) => match g with
              | GLine l => lin_step sq acc l | GMLine _ ls => fold_left (lin_step sq) ls acc | _ => acc end).
  destruct (fold_left_sums3 (Q * xy) _ (@fst Q xy) (fun s => fst (snd s)) (fun s => snd (snd s)) F (glw sq) (glx sq) (gly sq))
    with (l := lv) (s := (0, xy0)) as [H1 [H2 H3]].
  { intros a g. unfold F. destruct g; cbn [glw glx gly]; try (repeat split; ring).
    - apply lin_step_spec.
    - apply lin_fold_spec. }
  cbn [fst snd xy0] in H1, H2, H3. destruct (fold_left F lv (0, xy0)) as [n s].
  unfold xy_scale. cbn [fst snd] in *. rewrite H1, H2, H3. unfold L. split; apply Qmult_comp; try ring;
    apply Qdiv_comp; try reflexivity; ring.
Qed.

(* ---- member reordering ---- *)
Lemma forallb_perm : forall (A : Type) (f : A -> bool) l l', Permutation l l' -> forallb f l = forallb f l'.
Proof.
  induction 1; cbn [forallb]; try reflexivity.
  - rewrite IHPermutation; reflexivity.
  - destruct (f x), (f y); reflexivity.
  - congruence.
Qed.

Lemma zsum_perm : forall a b, Permutation a b -> zsum a = zsum b.
Proof.
  induction 1; try reflexivity.
  - cbn [zsum fold_right]. fold (zsum l) (zsum l'). lia.
  - cbn [zsum fold_right]. lia.
  - congruence.
Qed.

Lemma list_max_perm : forall a b, Permutation a b -> list_max a = list_max b.
Proof.
  induction 1; try reflexivity.
  - cbn [list_max fold_right]. fold (list_max l) (list_max l'). lia.
  - cbn [list_max fold_right]. lia.
  - congruence.
Qed.

Lemma mpoly_centroid_perm : forall ps ps', Permutation ps ps' ->
  oxy_eq (mpoly_centroid ps) (mpoly_centroid ps').
Proof.
  intros ps ps' HP. destruct (forallb (@poly_empty Q) ps) eqn:E.
  - unfold mpoly_centroid. rewrite <- (forallb_perm _ _ _ _ HP), E. exact I.
  - assert (E' := E). rewrite (forallb_perm _ _ _ _ HP) in E'.
    destruct (mpoly_centroid_spec ps E) as [c [Hc [H1 H2]]], (mpoly_centroid_spec ps' E') as [c' [Hc' [G1 G2]]].
    rewrite Hc, Hc'. cbn [oxy_eq]. unfold xy_eq. rewrite H1, H2, G1, G2.
    split; apply Qdiv_comp; apply qsum_perm, Permutation_map; assumption.
Qed.

Lemma poly_centroid_holes_perm : forall ct ct' sh hs hs', Permutation hs hs' ->
  oxy_eq (poly_centroid (MkPoly ct (sh :: hs))) (poly_centroid (MkPoly ct' (sh :: hs'))).
Proof.
  intros ct ct' sh hs hs' HP.
  destruct (poly_centroid_spec ct sh hs) as [c [Hc [H1 [H2 _]]]], (poly_centroid_spec ct' sh hs') as [c' [Hc' [G1 [G2 _]]]].
  rewrite Hc, Hc'. cbn [oxy_eq]. unfold xy_eq. rewrite H1, H2, G1, G2.
  split; apply Qdiv_comp; apply Qplus_comp; try reflexivity; apply qsum_perm, Permutation_map; assumption.
Qed.

Lemma leaves_perm : forall gs gs', Permutation gs gs' -> Permutation (flat_map leaves gs) (flat_map leaves gs').
Proof.
  induction 1; cbn [flat_map]; try reflexivity.
  - apply Permutation_app_head; assumption.
  - rewrite !app_assoc. apply Permutation_app_tail, Permutation_app_comm.
  - etransitivity; eassumption.
Qed.

Lemma coll_centroid_perm : forall sq ct ct' gs gs', Permutation gs gs' ->
  oxy_eq (coll_centroid sq ct gs) (coll_centroid sq ct' gs').
Proof.
  intros sq ct ct' gs gs' HP. unfold coll_centroid.
  rewrite (forallb_perm _ _ _ _ HP). destruct (forallb (@is_empty Q) gs'); [exact I|].
  assert (HL := leaves_perm gs gs' HP).
  rewrite !hdim_leaves. cbn [leaves].
  rewrite (list_max_perm _ _ (Permutation_map leaf_dim HL)).
  destruct (list_max (map leaf_dim (flat_map leaves gs'))) as [|[|k]]; cbn [oxy_eq]; unfold xy_eq.
  - destruct (coll_point_spec (flat_map leaves gs)) as [H1 H2], (coll_point_spec (flat_map leaves gs')) as [G1 G2].
    rewrite H1, H2, G1, G2. rewrite (zsum_perm _ _ (Permutation_map gpn HL)).
    split; apply Qmult_comp; try reflexivity; apply qsum_perm, Permutation_map; assumption.
  - destruct (coll_linear_spec sq (flat_map leaves gs)) as [H1 H2], (coll_linear_spec sq (flat_map leaves gs')) as [G1 G2].
    rewrite H1, H2, G1, G2.
    split; apply Qmult_comp; try (apply Qdiv_comp; [reflexivity|]); apply qsum_perm, Permutation_map; assumption.
  - destruct (coll_areal_spec sq (flat_map leaves gs)) as [H1 H2], (coll_areal_spec sq (flat_map leaves gs')) as [G1 G2].
    rewrite H1, H2, G1, G2.
    split; apply Qdiv_comp; apply qsum_perm, Permutation_map; assumption.
Qed.

(* ------------------------------------------------------------------------------------------ *)
(* Length at geometry level                                                                    *)
(* ------------------------------------------------------------------------------------------ *)
Section LengthGeom.
  Variable sq : Q -> Q.
  Hypothesis sq_proper : forall a b, a == b -> sq a == sq b.

  Lemma geom_length_coll : forall ct gs, geom_length sq (GColl ct gs) == qsum (map (geom_length sq) gs).
  Proof.
    intros ct gs. cbn [geom_length]. destruct (is_empty (GColl ct gs)) eqn:E.
    - symmetry. apply qsum_zero. intros x Hx. cbn [is_empty] in E. rewrite forallb_forall in E.
      destruct x; cbn [geom_length]; rewrite (E _ Hx); reflexivity.
    - rewrite (fold_left_qsum _ (geom_length sq)). ring.
  Qed.

  Lemma line_length_empty : forall l, line_empty l = true -> line_length sq l = 0.
  Proof. intros [ct [|v vs]] H; [reflexivity|discriminate]. Qed.

  Lemma geom_length_mline : forall ct ls, geom_length sq (GMLine ct ls) == qsum (map (line_length sq) ls).
  Proof.
    intros ct ls. cbn [geom_length]. destruct (is_empty (GMLine ct ls)) eqn:E.
    - symmetry. apply qsum_zero. intros x Hx. cbn [is_empty] in E. rewrite forallb_forall in E.
      rewrite (line_length_empty x (E _ Hx)). reflexivity.
    - unfold mline_length. rewrite fold_left_qsum. ring.
  Qed.

  Lemma geom_length_line : forall l, geom_length sq (GLine l) == line_length sq l.
  Proof.
    intros l. cbn [geom_length is_empty]. destruct (line_empty l) eqn:E; [|reflexivity].
    rewrite (line_length_empty l E). reflexivity.
  Qed.

  Lemma length_nonareal : forall g, is_lineal g = false -> is_leaf g -> geom_length sq g == 0.
  Proof.
    intros g H Hl. destruct g; cbn [is_lineal] in H; try discriminate; cbn [geom_length];
      try (match goal with |- context [is_empty ?x] => destruct (is_empty x) end; reflexivity).
    destruct Hl.
  Qed.
  Lemma length_coll_app : forall ct a b,
    geom_length sq (GColl ct (a ++ b)) == geom_length sq (GColl ct a) + geom_length sq (GColl ct b).
  Proof. intros. rewrite !geom_length_coll, map_app. apply qsum_app. Qed.

  Lemma length_coll_perm : forall ct ct' gs gs', Permutation gs gs' ->
    geom_length sq (GColl ct gs) == geom_length sq (GColl ct' gs').
  Proof. intros. rewrite !geom_length_coll. apply qsum_perm, Permutation_map. assumption. Qed.

End LengthGeom.

Lemma mline_fold_spec : forall sq ls acc,
  let F := fun (acc : xy * Q) l => let '(c, n) := sum_centroid_length sq l in (xy_add (fst acc) c, snd acc + n) in
  fst (fst (fold_left F ls acc)) == fst (fst acc) + qsum (map (fun l => fst (fst (sum_centroid_length sq l))) ls) /\
  snd (fst (fold_left F ls acc)) == snd (fst acc) + qsum (map (fun l => snd (fst (sum_centroid_length sq l))) ls) /\
  snd (fold_left F ls acc) == snd acc + qsum (map (fun l => snd (sum_centroid_length sq l)) ls).
Proof.
  intros sq ls acc F. apply (fold_left_sums3 _ _ (fun s => fst (fst s)) (fun s => snd (fst s)) snd).
  intros s l. unfold F. destruct (sum_centroid_length sq l) as [c n]. cbn [fst snd xy_add]. repeat split; ring.
Qed.

(* ------------------------------------------------------------------------------------------ *)
(* Geometries of the same shape whose points, lines and polygon rings correspond               *)
(* ------------------------------------------------------------------------------------------ *)
Section Shape.
  Variables (RP : pointT Q -> pointT Q -> Prop) (RL RR : lineT Q -> lineT Q -> Prop).

  Definition poly_rel (p p' : polyT Q) : Prop := Forall2 RR (poly_rings p) (poly_rings p').

  Fixpoint geom_rel (g g' : geomT Q) : Prop :=
    match g, g' with
    | GPoint p, GPoint p' => RP p p'
    | GLine l, GLine l' => RL l l'
    | GPoly p, GPoly p' => poly_rel p p'
    | GMPoint _ ps, GMPoint _ ps' => Forall2 RP ps ps'
    | GMLine _ ls, GMLine _ ls' => Forall2 RL ls ls'
    | GMPoly _ ps, GMPoly _ ps' => Forall2 poly_rel ps ps'
    | GColl _ gs, GColl _ gs' =>
        (fix go (l l' : list (geomT Q)) : Prop :=
           match l, l' with
           | [], [] => True
           | x :: r, y :: r' => geom_rel x y /\ go r r'
           | _, _ => False
           end) gs gs'
    | _, _ => False
    end.

  Lemma geom_rel_coll : forall ct ct' gs gs',
    geom_rel (GColl ct gs) (GColl ct' gs') <-> Forall2 geom_rel gs gs'.
  Proof.
    intros ct ct' gs. cbn [geom_rel]. induction gs as [|x r IH]; intros [|y r']; split; intros H;
      try (constructor; fail); try (exact I); try (inversion H; fail); try (destruct H; fail).
    - destruct H as [H1 H2]. constructor; [assumption|]. apply IH, H2.
    - inversion H; subst. split; [assumption|]. apply IH. assumption.
  Qed.

  Lemma geom_rel_ind' : forall P : geomT Q -> geomT Q -> Prop,
    (forall p p', RP p p' -> P (GPoint p) (GPoint p')) ->
    (forall l l', RL l l' -> P (GLine l) (GLine l')) ->
    (forall p p', poly_rel p p' -> P (GPoly p) (GPoly p')) ->
    (forall ct ct' ps ps', Forall2 RP ps ps' -> P (GMPoint ct ps) (GMPoint ct' ps')) ->
    (forall ct ct' ls ls', Forall2 RL ls ls' -> P (GMLine ct ls) (GMLine ct' ls')) ->
    (forall ct ct' ps ps', Forall2 poly_rel ps ps' -> P (GMPoly ct ps) (GMPoly ct' ps')) ->
    (forall ct ct' gs gs', Forall2 geom_rel gs gs' -> Forall2 P gs gs' -> P (GColl ct gs) (GColl ct' gs')) ->
    forall g g', geom_rel g g' -> P g g'.
  Proof.
    intros P HP HL HY HMP HML HMY HC g.
    induction g using geomT_ind'; intros g' Hg; destruct g'; cbn [geom_rel] in Hg; try contradiction; auto.
    apply (proj1 (geom_rel_coll ct ct0 gs gs0)) in Hg. apply HC; [assumption|].
    eapply Forall2_Forall_impl; [|exact Hg|exact H]. intros x y Hxy K. exact (K y Hxy).
  Qed.

  Lemma geom_rel_leaves : forall g g', geom_rel g g' -> Forall2 geom_rel (leaves g) (leaves g').
  Proof.
    apply geom_rel_ind'; intros; cbn [leaves]; try (constructor; [assumption|constructor]).
    apply Forall2_flat_map. assumption.
  Qed.

  Lemma geom_rel_class : forall g g', geom_rel g g' -> is_areal g = is_areal g' /\ is_lineal g = is_lineal g'.
  Proof. apply geom_rel_ind'; intros; split; reflexivity. Qed.

  Lemma poly_rel_empty : forall p p', poly_rel p p' -> poly_empty p = poly_empty p'.
  Proof. intros [ct rs] [ct' rs'] H. unfold poly_rel in H. cbn in H. destruct H; reflexivity. Qed.

  Hypothesis RP_empty : forall p p', RP p p' -> point_empty p = point_empty p'.
  Hypothesis RL_empty : forall l l', RL l l' -> line_empty l = line_empty l'.

  Lemma geom_rel_empty : forall g g', geom_rel g g' -> is_empty g = is_empty g'.
  Proof.
    apply geom_rel_ind'; intros; cbn [is_empty]; auto using poly_rel_empty.
    1-4: eapply forallb_Forall2; [|eassumption]; auto using poly_rel_empty.
  Qed.

  Lemma geom_rel_hdim : forall g g', geom_rel g g' -> hdim g = hdim g'.
  Proof.
    intros g g' H. rewrite !hdim_leaves. f_equal. apply map_Forall2.
    eapply Forall2_impl'; [|apply geom_rel_leaves, H]. intros x y Hxy. unfold leaf_dim.
    destruct (geom_rel_class x y Hxy) as [Ea El]. rewrite (geom_rel_empty x y Hxy), Ea, El. reflexivity.
  Qed.
End Shape.

Lemma geom_rel_impl : forall (RP RP' : pointT Q -> pointT Q -> Prop) (RL RL' RR RR' : lineT Q -> lineT Q -> Prop)
    (C : lineT Q -> Prop),
  (forall p p', RP p p' -> RP' p p') -> (forall l l', RL l l' -> RL' l l') ->
  (forall r r', RR r r' -> C r -> RR' r r') ->
  forall g g', geom_rel RP RL RR g g' -> Forall C (geom_rings g) -> geom_rel RP' RL' RR' g g'.
Proof.
  intros RP RP' RL RL' RR RR' C HP HL HR.
  assert (HY : forall p p', poly_rel RR p p' -> Forall C (poly_rings p) -> poly_rel RR' p p').
  { intros p p'. apply Forall2_Forall_impl, HR. }
  apply (geom_rel_ind' RP RL RR (fun g g' => Forall C (geom_rings g) -> geom_rel RP' RL' RR' g g'));
    cbn [geom_rings].
  - intros p p' H _. exact (HP p p' H).
  - intros l l' H _. exact (HL l l' H).
  - exact HY.
  - intros ct ct' ps ps' H _. exact (Forall2_impl' _ _ _ _ ps ps' HP H).
  - intros ct ct' ls ls' H _. exact (Forall2_impl' _ _ _ _ ls ls' HL H).
  - intros ct ct' ps ps' H G. apply Forall_flat_map in G. exact (Forall2_Forall_impl _ _ _ _ _ ps ps' HY H G).
  - intros ct ct' gs gs' _ H G. apply Forall_flat_map in G. apply geom_rel_coll.
    exact (Forall2_Forall_impl _ _ _ _ _ gs gs' (fun x y K => K) H G).
Qed.

Lemma geom_closed_rings : forall (P : Prop) g, P \/ geom_closed g = true ->
  Forall (fun r => P \/ ring_closedb (line_xys r) = true) (geom_rings g).
Proof.
  intros P g [G|G]; [apply Forall_forall; intros; left; exact G|].
  apply (Forall_impl _ (fun r (Hr : ring_closedb (line_xys r) = true) => or_intror Hr)). revert G.
  induction g using geomT_ind'; cbn [geom_closed geom_rings]; intros G; try constructor.
  - apply Forall_forall, forallb_forall, G.
  - apply Forall_flat_map, Forall_forall. intros p Hp. rewrite forallb_forall in G.
    apply Forall_forall, forallb_forall, (G p Hp).
  - apply Forall_flat_map. rewrite Forall_forall in *. rewrite forallb_forall in G. intros x Hx. apply (H x Hx), G, Hx.
Qed.

Lemma poly_area_rel : forall (RR : lineT Q -> lineT Q -> Prop) k s tr tr',
  (forall r r', RR r r' -> shell_term s tr' r' == k * shell_term s tr r) ->
  forall p p', poly_rel RR p p' -> poly_area s tr' p' == k * poly_area s tr p.
Proof.
  intros RR k s tr tr' HR [ct rs] [ct' rs'] H. unfold poly_rel in H. cbn [poly_rings] in H.
  destruct H as [|sh sh' hs hs' Hsh Hhs]; [rewrite !poly_area_empty; ring|].
  rewrite !poly_area_spec, (qsum_rel_lin _ _ (hole_term s tr) (hole_term s tr') k hs hs'), (HR _ _ Hsh); [ring|].
  eapply Forall2_impl'; [|exact Hhs]. intros h h' Hh. apply HR in Hh. unfold hole_term, shell_term in *.
  destruct s; rewrite Hh; ring.
Qed.

Lemma geom_area_rel : forall RP RL (RR : lineT Q -> lineT Q -> Prop) k s tr tr',
  (forall r r', RR r r' -> shell_term s tr' r' == k * shell_term s tr r) ->
  forall g g', geom_rel RP RL RR g g' -> geom_area s tr' g' == k * geom_area s tr g.
Proof.
  intros RP RL RR k s tr tr' HR. apply (geom_rel_ind' RP RL RR); intros; try (cbn [geom_area]; ring).
  - apply (poly_area_rel RR); assumption.
  - cbn [geom_area]. rewrite !mpoly_area_spec. apply qsum_rel_lin.
    eapply Forall2_impl'; [|eassumption]. apply (poly_area_rel RR), HR.
  - rewrite !coll_area_spec. apply qsum_rel_lin. assumption.
Qed.

Lemma geom_length_rel : forall RP (RL : lineT Q -> lineT Q -> Prop) RR lam sq sq',
  (forall l l', RL l l' -> line_length sq' l' == lam * line_length sq l) ->
  forall g g', geom_rel RP RL RR g g' -> geom_length sq' g' == lam * geom_length sq g.
Proof.
  intros RP RL RR lam sq sq' HL. apply (geom_rel_ind' RP RL RR); intros;
    try (rewrite !length_nonareal by (reflexivity || exact I); ring).
  - rewrite !geom_length_line. apply HL. assumption.
  - rewrite !geom_length_mline. apply qsum_rel_lin. eapply Forall2_impl'; [exact HL|assumption].
  - rewrite !geom_length_coll. apply qsum_rel_lin. assumption.
Qed.

Lemma poly_rel_map : forall (RR : lineT Q -> lineT Q -> Prop) (fr : lineT Q -> lineT Q) ct ct' rs,
  (forall r, RR r (fr r)) -> poly_rel RR (MkPoly ct rs) (MkPoly ct' (map fr rs)).
Proof. intros RR fr ct ct' rs H. apply Forall2_map_graph, H. Qed.

Lemma geom_rel_refl : forall (RP : pointT Q -> pointT Q -> Prop) (RL RR : lineT Q -> lineT Q -> Prop),
  (forall p, RP p p) -> (forall l, RL l l) -> (forall r, RR r r) -> forall g, geom_rel RP RL RR g g.
Proof.
  intros RP RL RR HP HL HR. induction g using geomT_ind'.
  1-6: cbn [geom_rel]; unfold poly_rel; auto using Forall2_refl'.
  apply geom_rel_coll. induction H; constructor; auto.
Qed.

Lemma geom_rev_graph : forall g,
  geom_rel (fun p p' => p' = p) (fun l l' => l' = line_rev l) (fun r r' => r' = line_rev r) g (geom_rev g).
Proof.
  induction g using geomT_ind'; cbn [geom_rev].
  1-6: cbn [geom_rel].
  - reflexivity.
  - reflexivity.
  - destruct p. apply (poly_rel_map _ line_rev). reflexivity.
  - apply Forall2_refl'. reflexivity.
  - apply Forall2_map_graph. reflexivity.
  - apply Forall2_map_graph. intros [c rs]. apply (poly_rel_map _ line_rev). reflexivity.
  - apply geom_rel_coll, Forall2_map_r_Forall, H.
Qed.

Lemma geom_tr_graph : forall f g,
  geom_rel (fun p p' => p' = point_tr f p) (fun l l' => l' = line_tr f l) (fun r r' => r' = line_tr f r) g (geom_tr f g).
Proof.
  intros f. induction g using geomT_ind'; cbn [geom_tr].
  1-6: cbn [geom_rel].
  - reflexivity.
  - reflexivity.
  - destruct p. apply (poly_rel_map _ (line_tr f)). reflexivity.
  - apply Forall2_map_graph. reflexivity.
  - apply Forall2_map_graph. reflexivity.
  - apply Forall2_map_graph. intros [c rs]. apply (poly_rel_map _ (line_tr f)). reflexivity.
  - apply geom_rel_coll, Forall2_map_r_Forall, H.
Qed.

Lemma geom_2d_graph : forall g,
  geom_rel (fun p p' => p' = point_2d p) (fun l l' => l' = line_2d l) (fun r r' => r' = line_2d r) g (geom_2d g).
Proof.
  induction g using geomT_ind'; cbn [geom_2d].
  1-6: cbn [geom_rel].
  - reflexivity.
  - reflexivity.
  - destruct p. apply (poly_rel_map _ line_2d). reflexivity.
  - apply Forall2_map_graph. reflexivity.
  - apply Forall2_map_graph. reflexivity.
  - apply Forall2_map_graph. intros [c rs]. apply (poly_rel_map _ line_2d). reflexivity.
  - apply geom_rel_coll, Forall2_map_r_Forall, H.
Qed.

Lemma rings_related_graph : forall R g g', rings_related R g g' ->
  geom_rel (fun p p' => p' = p) (fun l l' => l' = l) R g g'.
Proof.
  intros R g. induction g using geomT_ind'; intros g' Hr; destruct g'; cbn [rings_related] in Hr; try contradiction;
    subst; try exact Hr; try (apply Forall2_refl'; reflexivity); try reflexivity.
  apply geom_rel_coll. revert gs0 Hr. induction H as [|x r Hx Hf IH]; intros [|y r'] Hr; try contradiction; constructor.
  - apply Hx, Hr.
  - apply IH, Hr.
Qed.

Lemma vxy_2d : forall v, vxy (vtx_2d v) = vxy v.
Proof. reflexivity. Qed.
Lemma line_xys_2d : forall l, line_xys (line_2d l) = line_xys l.
Proof. intros [ct vs]. unfold line_xys. cbn [line_2d line_vs]. rewrite map_map. reflexivity. Qed.
Lemma point_xy_2d : forall p, point_xy (point_2d p) = point_xy p.
Proof. intros [ct [v|]]; reflexivity. Qed.

(* forceOrientation keeps or reverses each ring *)
Lemma force_orientation_rings : forall cw ct rs, exists rs',
  force_orientation cw (MkPoly ct rs) = MkPoly ct rs' /\
  Forall2 (fun r r' => r' = r \/ r' = line_rev r) rs rs'.
Proof.
  intros cw ct rs. unfold force_orientation.
  set (F := fun (st : bool * list (lineT Q)) (ring : lineT Q) =>
              let '(first, acc) := st in
              let alreadyCW := negb (Qle_bool 0 (ring_area None ring)) in
              let keep := Bool.eqb first (Bool.eqb alreadyCW cw) in
              (false, acc ++ [if keep then ring else line_rev ring])).
  assert (G : forall rs first acc, exists tl,
             snd (fold_left F rs (first, acc)) = acc ++ tl /\
             Forall2 (fun r r' => r' = r \/ r' = line_rev r) rs tl).
  { induction rs0 as [|r rs0 IH]; intros first acc; cbn [fold_left].
    - exists []. rewrite app_nil_r. split; [reflexivity|constructor].
    - unfold F at 2. cbv zeta.
      match goal with |- context [fold_left F rs0 (false, acc ++ [?x])] =>
        destruct (IH false (acc ++ [x])) as [tl [E1 E2]]; exists (x :: tl) end.
      split; [rewrite E1, <- app_assoc; reflexivity|].
      constructor; [|assumption]. destruct (Bool.eqb first _); [left|right]; reflexivity. }
  destruct (G rs true []) as [tl [E1 E2]]. exists tl. cbn [app] in E1. rewrite E1. split; [reflexivity|assumption].
Qed.

Lemma geom_force_graph : forall cw g,
  geom_rel (fun p p' => p' = p) (fun l l' => l' = l) (fun r r' => r' = r \/ r' = line_rev r)
           g (geom_force_orientation cw g).
Proof.
  intros cw.
  assert (HY : forall p, poly_rel (fun r r' => r' = r \/ r' = line_rev r) p (force_orientation cw p)).
  { intros [ct rs]. destruct (force_orientation_rings cw ct rs) as [rs' [E F2]]. rewrite E. exact F2. }
  induction g using geomT_ind'; cbn [geom_force_orientation].
  1-6: cbn [geom_rel].
  - reflexivity.
  - reflexivity.
  - apply HY.
  - apply Forall2_refl'. reflexivity.
  - apply Forall2_refl'. reflexivity.
  - apply Forall2_map_graph, HY.
  - apply geom_rel_coll, Forall2_map_r_Forall, H.
Qed.

Lemma geom_area_rel1 : forall RP RL (RR : lineT Q -> lineT Q -> Prop) s tr tr',
  (forall r r', RR r r' -> ring_area tr' r' == ring_area tr r) ->
  forall g g', geom_rel RP RL RR g g' -> geom_area s tr' g' == geom_area s tr g.
Proof.
  intros RP RL RR s tr tr' HR g g' H. rewrite <- (Qmult_1_l (geom_area s tr g)).
  apply (geom_area_rel RP RL RR 1 s tr tr'); [|exact H].
  intros r r' Hr. unfold shell_term. destruct s; rewrite (HR r r' Hr); ring.
Qed.

Lemma area_reverse_unsigned_lemma : forall tr g,
  geom_area false tr (geom_rev g) == geom_area false tr g.
Proof.
  intros tr g. rewrite <- (Qmult_1_l (geom_area false tr g)).
  apply (geom_area_rel _ _ _ 1 false tr tr) with (2 := geom_rev_graph g).
  intros r r' ->. unfold shell_term. rewrite (Qabs_opp_eq _ _ (ring_area_rev tr r)). ring.
Qed.

Lemma area_reverse_signed_lemma : forall tr g,
  geom_area true tr (geom_rev g) == - geom_area true tr g.
Proof.
  intros tr g. setoid_replace (- geom_area true tr g) with (-(1) * geom_area true tr g) by ring.
  apply (geom_area_rel _ _ _ (-(1)) true tr tr) with (2 := geom_rev_graph g).
  intros r r' ->. unfold shell_term. rewrite ring_area_rev. ring.
Qed.

Lemma area_transform_option_lemma : forall s f g,
  geom_area s (Some f) g == geom_area s None (geom_tr f g).
Proof.
  intros s f g. symmetry. apply (geom_area_rel1 _ _ _ s (Some f) None) with (2 := geom_tr_graph f g).
  intros r r' ->. rewrite ring_area_tr. reflexivity.
Qed.

Lemma area_2d : forall s tr g, geom_area s tr g == geom_area s tr (geom_2d g).
Proof.
  intros s tr g. symmetry. apply (geom_area_rel1 _ _ _ s tr tr) with (2 := geom_2d_graph g).
  intros r r' ->. unfold ring_area. rewrite line_xys_2d. reflexivity.
Qed.

Lemma area_rings_related : forall (R : lineT Q -> lineT Q -> Prop) s tr,
  (forall r r', R r r' -> ring_area tr r == ring_area tr r') ->
  forall g g', rings_related R g g' -> geom_area s tr g == geom_area s tr g'.
Proof.
  intros R s tr HR g g' H. symmetry. apply (geom_area_rel1 _ _ R s tr tr) with (2 := rings_related_graph R g g' H).
  intros r r' Hr. symmetry. apply HR, Hr.
Qed.

Lemma ring_rotated_area : forall r r', ring_rotated r r' -> ring_area None r == ring_area None r'.
Proof. intros r r' [l [k [H1 H2]]]. rewrite !ring_area_none, H1, H2, area_rotate_lemma. reflexivity. Qed.

Lemma length_rev_lemma : forall sq, (forall a b, a == b -> sq a == sq b) ->
  forall g, geom_length sq (geom_rev g) == geom_length sq g.
Proof.
  intros sq Hsq g. rewrite <- (Qmult_1_l (geom_length sq g)).
  apply (geom_length_rel _ _ _ 1 sq sq) with (2 := geom_rev_graph g).
  intros l l' ->. unfold line_length. rewrite line_xys_rev, (length_xy_rev sq Hsq). ring.
Qed.

Lemma length_rings_related : forall sq (R : lineT Q -> lineT Q -> Prop) g g',
  rings_related R g g' -> geom_length sq g == geom_length sq g'.
Proof.
  intros sq R g g' H. symmetry. rewrite <- (Qmult_1_l (geom_length sq g)).
  apply (geom_length_rel _ _ _ 1 sq sq) with (2 := rings_related_graph R g g' H).
  intros l l' ->. ring.
Qed.

Lemma ring_fan2_cycle : forall l, ring_fan2 (close l) == 2 * ring_area_xy (close l).
Proof.
  intros [|b m]; [cbn; ring|]. rewrite close_cons at 1. cbn [ring_fan2]. apply fan_eq_shoelace_lemma.
Qed.

Lemma shifted_refl0 : forall o, shifted (0, 0) o o.
Proof. intros [c|]; cbn; [|exact I]. unfold xy_eq, xy_add. cbn [fst snd]. split; ring. Qed.

Lemma centroid_of_ring_tr : forall f r, centroid_of_ring (line_tr f r) = centroid_of_ring_xy (map f (line_xys r)).
Proof. intros. unfold centroid_of_ring. rewrite line_xys_tr. reflexivity. Qed.

Lemma point_xy_tr : forall f p, point_xy (point_tr f p) = option_map f (point_xy p).
Proof. intros f [ct [v|]]; cbn; [rewrite <- vxy_vtx_tr; reflexivity|reflexivity]. Qed.

Lemma poly_tr_empty : forall f p, poly_empty (poly_tr f p) = poly_empty p.
Proof. intros f [ct [|r rs]]; reflexivity. Qed.
Lemma line_tr_empty : forall f l, line_empty (line_tr f l) = line_empty l.
Proof. intros f [ct [|v vs]]; reflexivity. Qed.
Lemma point_tr_empty : forall f p, point_empty (point_tr f p) = point_empty p.
Proof. intros f [ct [v|]]; reflexivity. Qed.

Lemma geom_tr_empty : forall f g, is_empty (geom_tr f g) = is_empty g.
Proof.
  intros f g. symmetry. apply (geom_rel_empty _ _ _) with (3 := geom_tr_graph f g).
  - intros p p' ->. symmetry. apply point_tr_empty.
  - intros l l' ->. symmetry. apply line_tr_empty.
Qed.

Lemma geom_tr_leaves : forall f g, leaves (geom_tr f g) = map (geom_tr f) (leaves g).
Proof.
  intros f g. induction g using geomT_ind'; cbn [geom_tr leaves map]; try reflexivity.
  induction H as [|x l Hx Hl IH]; cbn [map flat_map]; [reflexivity|]. rewrite map_app, Hx, IH. reflexivity.
Qed.

Lemma leaf_dim_tr : forall f g, leaf_dim (geom_tr f g) = leaf_dim g.
Proof. intros f g. unfold leaf_dim. rewrite geom_tr_empty. destruct g; reflexivity. Qed.

Lemma geom_tr_hdim : forall f g, hdim (geom_tr f g) = hdim g.
Proof.
  intros f g. rewrite !hdim_leaves, geom_tr_leaves, map_map.
  f_equal. apply map_ext. intros; apply leaf_dim_tr.
Qed.

(* ------------------------------------------------------------------------------------------ *)
(* Images under p -> a p + t: Area is multiplied by a^2, Length by the factor lam of the       *)
(* segment lengths, and Centroid moves with the map                                            *)
(* ------------------------------------------------------------------------------------------ *)
Lemma Qmult_1_div : forall x y, x * (1 / y) == x / y.
Proof. intros. unfold Qdiv. ring. Qed.

Lemma Qeq_bool_scale : forall k, ~ k == 0 -> forall n, Qeq_bool (k * n) 0 = Qeq_bool n 0.
Proof.
  intros k k_nz n. apply eq_true_iff_eq. rewrite !Qeq_bool_iff. split; intros E; [|rewrite E; ring].
  apply Qmult_integral in E. tauto.
Qed.

Lemma poly_centroid_none_area : forall p, poly_centroid p = None -> poly_area false None p = 0.
Proof. intros [ct [|r rs]] H; [reflexivity|discriminate]. Qed.

Lemma leaf_none_area : forall sq g, is_leaf g -> leaf_centroid sq g = None -> geom_area false None g == 0.
Proof.
  intros sq g Hl H. apply (leaf_not_areal_or_empty_area g Hl).
  destruct g; cbn [is_areal is_empty andb negb leaf_centroid] in *; try reflexivity.
  - destruct p as [ct [|r rs]]; [reflexivity|discriminate H].
  - unfold mpoly_centroid in H. destruct (forallb (@poly_empty Q) ps); [reflexivity|discriminate H].
Qed.

Lemma Zeqb0_inject : forall n, (n =? 0)%Z = true <-> inject_Z n == 0.
Proof. intros n. rewrite Z.eqb_eq. symmetry. apply (inject_Z_injective n 0). Qed.

Lemma one_nz : ~ 1 == 0.
Proof. intros K. discriminate K. Qed.
Lemma square_nz : forall a, ~ a == 0 -> ~ a * a == 0.
Proof. intros a Ha K. apply Qmult_integral in K. tauto. Qed.

Section Image.
  Variables (a lam : Q) (t : xy) (sq sq' : Q -> Q).
  Definition tfree : Prop := fst t == 0 /\ snd t == 0.
  Definition aff (p : xy) : xy := (a * fst p + fst t, a * snd p + snd t).
  Definition oaff (o o' : option xy) : Prop :=
    match o, o' with Some c, Some c' => xy_eq c' (aff c) | None, None => True | _, _ => False end.

  (* a weight W with the weighted ordinate sums X, Y, and the same three of the image: every level of
     the centroid computation has  W' = m W,  (X', Y') = m (a (X, Y) + W t)  for its own factor m *)
  Definition moves (m W X Y W' X' Y' : Q) : Prop :=
    W' == m * W /\ X' == m * (a * X + fst t * W) /\ Y' == m * (a * Y + snd t * W).

  Lemma moves_plus : forall m W X Y W' X' Y' V P R V' P' R',
    moves m W X Y W' X' Y' -> moves m V P R V' P' R' ->
    moves m (W + V) (X + P) (Y + R) (W' + V') (X' + P') (Y' + R').
  Proof.
    intros m W X Y W' X' Y' V P R V' P' R' [H1 [H2 H3]] [I1 [I2 I3]]. unfold moves.
    rewrite H1, H2, H3, I1, I2, I3. repeat split; ring.
  Qed.

  Lemma moves_qsum : forall (A B : Type) m (w x y : A -> Q) (w' x' y' : B -> Q) l l',
    Forall2 (fun u v => moves m (w u) (x u) (y u) (w' v) (x' v) (y' v)) l l' ->
    moves m (qsum (map w l)) (qsum (map x l)) (qsum (map y l))
            (qsum (map w' l')) (qsum (map x' l')) (qsum (map y' l')).
  Proof.
    induction 1 as [|u v l l' Huv _ IH]; cbn [map]; [unfold moves; cbn; repeat split; ring|].
    rewrite !qsum_cons. apply moves_plus; assumption.
  Qed.

  Lemma moves_psum : forall m (f : xy -> xy) (w x y w' x' y' : xy -> xy -> Q),
    (forall p q, moves m (w p q) (x p q) (y p q) (w' (f p) (f q)) (x' (f p) (f q)) (y' (f p) (f q))) ->
    forall L, moves m (psum w L) (psum x L) (psum y L) (psum w' (map f L)) (psum x' (map f L)) (psum y' (map f L)).
  Proof.
    intros m f w x y w' x' y' He L. split; [|split].
    - apply psum_map_lin. intros p q. apply He.
    - rewrite (psum_map_affine x w x' f (m * a) (m * fst t)); [ring|].
      intros p q. rewrite (proj1 (proj2 (He p q))). ring.
    - rewrite (psum_map_affine y w y' f (m * a) (m * snd t)); [ring|].
      intros p q. rewrite (proj2 (proj2 (He p q))). ring.
  Qed.

  (* the quotient moves with the map.  If W == 0 nothing may be added: then both sides are x / 0 = 0 *)
  Lemma moves_mean : forall m W X Y W' X' Y', ~ m == 0 -> tfree \/ ~ W == 0 -> moves m W X Y W' X' Y' ->
    X' / W' == a * (X / W) + fst t /\ Y' / W' == a * (Y / W) + snd t.
  Proof.
    intros m W X Y W' X' Y' Hm G [H1 [H2 H3]]. rewrite H1, H2, H3. destruct (Qeq_dec W 0) as [E|E].
    - destruct G as [[Gx Gy]|G]; [|contradiction]. rewrite E, Gx, Gy. setoid_replace (m * 0) with 0 by ring.
      unfold Qdiv. change (/ 0) with 0. split; ring.
    - split; field; split; assumption.
  Qed.

  Definition member_moves (m w : Q) (o : option xy) (w' : Q) (o' : option xy) : Prop :=
    moves m w (w * ocx o) (w * ocy o) w' (w' * ocx o') (w' * ocy o').

  Lemma moves_term : forall m w w' o o', oaff o o' -> w' == m * w -> (o = None -> w == 0) -> member_moves m w o w' o'.
  Proof.
    intros m w w' [c|] [c'|] H Ew Hn; cbn [oaff] in H; try contradiction; unfold member_moves, moves; cbn [ocx ocy].
    - destruct H as [Hx Hy]. cbn [aff fst snd] in Hx, Hy. rewrite Ew, Hx, Hy. repeat split; ring.
    - rewrite Ew, (Hn eq_refl). repeat split; ring.
  Qed.

  Definition ring_rel (r r' : lineT Q) : Prop :=
    (tfree \/ ring_closedb (line_xys r) = true -> Qabs (ring_area None r') == a * a * Qabs (ring_area None r)) /\
    (tfree \/ ~ ring_fan2 (line_xys r) == 0 -> xy_eq (centroid_of_ring r') (aff (centroid_of_ring r))).
  Definition point_rel (p p' : pointT Q) : Prop := oaff (point_xy p) (point_xy p').
  Definition line_rel (l l' : lineT Q) : Prop :=
    line_empty l = line_empty l' /\ line_length sq' l' == lam * line_length sq l /\
    moves lam (snd (sum_centroid_length sq l)) (fst (fst (sum_centroid_length sq l))) (snd (fst (sum_centroid_length sq l)))
              (snd (sum_centroid_length sq' l')) (fst (fst (sum_centroid_length sq' l'))) (snd (fst (sum_centroid_length sq' l'))).
  Definition grel : geomT Q -> geomT Q -> Prop := geom_rel point_rel line_rel ring_rel.

  Lemma point_rel_empty : forall p p', point_rel p p' -> point_empty p = point_empty p'.
  Proof.
    intros [ct c] [ct' c'] H. unfold point_rel, point_xy, point_empty in *. cbn [point_c] in *.
    destruct c, c'; cbn in H; tauto || reflexivity.
  Qed.
  Lemma line_rel_empty : forall l l', line_rel l l' -> line_empty l = line_empty l'.
  Proof. intros l l' [H _]. exact H. Qed.

  Lemma grel_area : forall g g', grel g g' -> tfree \/ geom_closed g = true ->
    geom_area false None g' == a * a * geom_area false None g.
  Proof.
    intros g g' H G.
    apply (geom_area_rel point_rel line_rel (fun r r' => Qabs (ring_area None r') == a * a * Qabs (ring_area None r)));
      [auto|].
    apply (geom_rel_impl _ _ _ _ ring_rel _ _ (fun _ _ K => K) (fun _ _ K => K) (fun r r' Hr Gr => proj1 Hr Gr)
             g g' H (geom_closed_rings _ g G)).
  Qed.

  Lemma grel_length : forall g g', grel g g' -> geom_length sq' g' == lam * geom_length sq g.
  Proof. apply geom_length_rel. intros l l' H. apply H. Qed.

  (* Area and Length above hold for every a and lam; a centroid is a quotient, and keeps its emptiness
     only if the divisor stays non-zero *)
  Hypothesis a_nz : ~ a == 0.
  Hypothesis lam_nz : ~ lam == 0.

  Lemma pc_rel : forall p p', point_rel p p' ->
    moves 1 (inject_Z (pcn p)) (pcx p) (pcy p) (inject_Z (pcn p')) (pcx p') (pcy p').
  Proof.
    intros p p' H. unfold point_rel in H. unfold moves, pcx, pcy, pcn.
    destruct (point_xy p) as [c|], (point_xy p') as [c'|]; cbn [oaff ocx ocy] in *; try contradiction.
    - destruct H as [Hx Hy]. cbn [aff fst snd] in Hx, Hy. rewrite Hx, Hy. repeat split; ring.
    - repeat split; ring.
  Qed.

  Lemma points_rel : forall ps ps', Forall2 point_rel ps ps' ->
    moves 1 (qsum (map (fun p => inject_Z (pcn p)) ps)) (qsum (map pcx ps)) (qsum (map pcy ps))
            (qsum (map (fun p => inject_Z (pcn p)) ps')) (qsum (map pcx ps')) (qsum (map pcy ps')).
  Proof. intros ps ps' H. apply moves_qsum. exact (Forall2_impl' _ _ _ _ ps ps' pc_rel H). Qed.

  Lemma gp_rel : forall g g', grel g g' ->
    moves 1 (inject_Z (gpn g)) (gpx g) (gpy g) (inject_Z (gpn g')) (gpx g') (gpy g').
  Proof.
    apply (geom_rel_ind' point_rel line_rel ring_rel); intros; cbn [gpx gpy gpn]; try (unfold moves; repeat split; ring).
    - apply pc_rel. assumption.
    - unfold moves. rewrite !inject_Z_zsum. apply points_rel. assumption.
  Qed.

  Lemma ratio_aff : forall m (M M' : xy) (W W' : Q) (b b' : bool), ~ m == 0 ->
    moves m W (fst M) (snd M) W' (fst M') (snd M') -> (b = true <-> W == 0) -> (b' = true <-> W' == 0) ->
    oaff (if b then None else Some (xy_scale M (1 / W))) (if b' then None else Some (xy_scale M' (1 / W'))).
  Proof.
    intros m M M' W W' b b' Hm H Hb Hb'.
    assert (E : W' == 0 <-> W == 0).
    { rewrite (proj1 H). split; intros K; [apply Qmult_integral in K; tauto|rewrite K; ring]. }
    destruct b, b'; cbn [oaff].
    - exact I.
    - discriminate (proj2 Hb' (proj2 E (proj1 Hb eq_refl))).
    - discriminate (proj2 Hb (proj1 E (proj1 Hb' eq_refl))).
    - assert (Hn : ~ W == 0) by (intros K; discriminate (proj2 Hb K)).
      unfold xy_eq, xy_scale, aff. cbn [fst snd]. rewrite !Qmult_1_div.
      exact (moves_mean m _ _ _ _ _ _ Hm (or_intror Hn) H).
  Qed.

  Lemma mpoint_centroid_rel : forall ps ps', Forall2 point_rel ps ps' ->
    oaff (mpoint_centroid ps) (mpoint_centroid ps').
  Proof.
    intros ps ps' H. unfold mpoint_centroid.
    destruct (points_sum_spec ps (xy0, 0%Z)) as [H1 [H2 H3]], (points_sum_spec ps' (xy0, 0%Z)) as [G1 [G2 G3]].
    destruct (points_sum ps (xy0, 0%Z)) as [s n], (points_sum ps' (xy0, 0%Z)) as [s' n'].
    cbn [fst snd xy0] in *. change (inject_Z 0) with 0 in *.
    apply (ratio_aff 1 s s' (inject_Z n) (inject_Z n') _ _ one_nz); [|apply Zeqb0_inject..].
    unfold moves. rewrite H1, H2, H3, G1, G2, G3, !Qplus_0_l. apply points_rel, H.
  Qed.

  Lemma line_centroid_rel : forall l l', line_rel l l' -> oaff (line_centroid sq l) (line_centroid sq' l').
  Proof.
    intros l l' [_ [_ H]]. unfold line_centroid.
    destruct (sum_centroid_length sq l) as [M W], (sum_centroid_length sq' l') as [M' W']. exact (ratio_aff lam M M' W W' _ _ lam_nz H (Qeq_bool_iff W 0) (Qeq_bool_iff W' 0)).
  Qed.

  Lemma mline_centroid_rel : forall ls ls', Forall2 line_rel ls ls' ->
    oaff (mline_centroid sq ls) (mline_centroid sq' ls').
  Proof.
    intros ls ls' H. unfold mline_centroid.
    destruct (mline_fold_spec sq ls (xy0, 0)) as [G1 [G2 G3]], (mline_fold_spec sq' ls' (xy0, 0)) as [H1 [H2 H3]].
    cbv zeta in *.
    destruct (fold_left _ ls (xy0, 0)) as [M W], (fold_left _ ls' (xy0, 0)) as [M' W']. cbn [fst snd xy0] in *.
    apply (ratio_aff lam M M' W W' _ _ lam_nz); [|apply Qeq_bool_iff..].
    unfold moves. rewrite G1, G2, G3, H1, H2, H3, !Qplus_0_l. apply moves_qsum.
    eapply Forall2_impl'; [|exact H]. intros l l' K. apply K.
  Qed.

  Lemma lw_rel : forall l l', line_rel l l' ->
    moves lam (lw sq l) (lcx sq l) (lcy sq l) (lw sq' l') (lcx sq' l') (lcy sq' l').
  Proof.
    intros l l' H. assert (K := line_centroid_rel l l' H). destruct H as [_ [Hlen _]]. unfold moves, lw, lcx, lcy.
    destruct (line_centroid sq l) as [c|], (line_centroid sq' l') as [c'|]; cbn [oaff] in K; try contradiction.
    - destruct K as [K1 K2]. cbn [aff fst snd] in K1, K2. rewrite K1, K2, Hlen. repeat split; ring.
    - repeat split; ring.
  Qed.

  Lemma gl_rel : forall g g', grel g g' ->
    moves lam (glw sq g) (glx sq g) (gly sq g) (glw sq' g') (glx sq' g') (gly sq' g').
  Proof.
    apply (geom_rel_ind' point_rel line_rel ring_rel); intros; cbn [glw glx gly]; try (unfold moves; repeat split; ring).
    - apply lw_rel. assumption.
    - apply moves_qsum. eapply Forall2_impl'; [|eassumption]. apply lw_rel.
  Qed.

  Lemma ring_terms : forall b r r', ring_rel r r' ->
    (tfree \/ ring_closedb (line_xys r) = true) /\ (tfree \/ ~ ring_fan2 (line_xys r) == 0) ->
    member_moves (a * a) (ring_w b r) (Some (centroid_of_ring r)) (ring_w b r') (Some (centroid_of_ring r')).
  Proof.
    intros b r r' [Ha Hc] [G1 G2]. apply moves_term; [exact (Hc G2)| |discriminate].
    unfold ring_w. destruct b; rewrite (Ha G1); ring.
  Qed.

  Lemma poly_rel_facts : forall p p', poly_rel ring_rel p p' -> tfree \/ poly_nondegenerate p ->
    poly_area false None p' == a * a * poly_area false None p /\ oaff (poly_centroid p) (poly_centroid p').
  Proof.
    intros [ct rs] [ct' rs'] H G. unfold poly_rel in H. cbn [poly_rings] in H.
    assert (GR : Forall (fun r => (tfree \/ ring_closedb (line_xys r) = true) /\ (tfree \/ ~ ring_fan2 (line_xys r) == 0)) rs).
    { destruct G as [G|[G1 [G2 _]]]; apply Forall_forall; intros r Hr; [split; left; exact G|split; right].
      - unfold poly_closed in G1. rewrite forallb_forall in G1. apply G1, Hr.
      - rewrite Forall_forall in G2. apply G2, Hr. }
    assert (T := Forall2_Forall_impl _ _ _ _ _ rs rs' (fun r r' Hr Gr b => ring_terms b r r' Hr Gr) H GR).
    destruct T as [|sh sh' hs hs' Tsh Ths]; [split; [rewrite !poly_area_empty; ring|exact I]|].
    destruct (poly_centroid_spec ct sh hs) as [c [Ec [H1 [H2 H3]]]].
    destruct (poly_centroid_spec ct' sh' hs') as [c' [Ec' [G1 [G2 G3]]]]. cbv zeta in *.
    eassert (M : moves (a * a) _ _ _ _ _ _).
    { apply moves_plus; [exact (Tsh true)|]. apply moves_qsum.
      eapply Forall2_impl'; [|exact Ths]. intros h h' K. exact (K false). }
    split; [rewrite G3, H3; apply M|].
    rewrite Ec, Ec'. cbn [oaff]. unfold xy_eq, aff. cbn [fst snd]. rewrite G1, G2, H1, H2.
    apply (moves_mean (a * a) _ _ _ _ _ _ (square_nz a a_nz)); [|exact M].
    destruct G as [G|[_ [_ [G|G]]]]; [left; exact G|discriminate G|right; rewrite <- H3; exact G].
  Qed.

  Lemma poly_terms : forall p p', poly_rel ring_rel p p' -> tfree \/ poly_nondegenerate p ->
    member_moves (a * a) (poly_area false None p) (poly_centroid p) (poly_area false None p') (poly_centroid p').
  Proof.
    intros p p' H G. destruct (poly_rel_facts p p' H G) as [Ha Hc]. apply (moves_term _ _ _ _ _ Hc Ha).
    intros E. rewrite (poly_centroid_none_area p E). reflexivity.
  Qed.

  Lemma mpoly_rel_facts : forall ps ps', Forall2 (poly_rel ring_rel) ps ps' ->
    tfree \/ (Forall poly_nondegenerate ps /\
              (forallb (@poly_empty Q) ps = true \/ ~ mpoly_area false None ps == 0)) ->
    mpoly_area false None ps' == a * a * mpoly_area false None ps /\ oaff (mpoly_centroid ps) (mpoly_centroid ps').
  Proof.
    intros ps ps' H G.
    assert (He := forallb_Forall2 _ _ _ _ _ ps ps' (poly_rel_empty ring_rel) H).
    eassert (M : moves (a * a) _ _ _ _ _ _).
    { apply moves_qsum. eapply Forall2_Forall_impl; [exact poly_terms|exact H|].
      destruct G as [G|[G _]]; [apply Forall_forall; intros; left; exact G|].
      exact (Forall_impl _ (fun p Gp => or_intror Gp) G). }
    split; [rewrite !mpoly_area_spec; apply M|].
    destruct (forallb (@poly_empty Q) ps) eqn:E.
    - unfold mpoly_centroid. rewrite <- He, E. exact I.
    - destruct (mpoly_centroid_spec ps E) as [c [Ec [H1 H2]]].
      destruct (mpoly_centroid_spec ps' (eq_sym He)) as [c' [Ec' [G1 G2]]].
      rewrite Ec, Ec'. cbn [oaff]. cbv zeta in *. unfold xy_eq, aff. cbn [fst snd]. rewrite G1, G2, H1, H2.
      apply (moves_mean (a * a) _ _ _ _ _ _ (square_nz a a_nz)); [|exact M].
      destruct G as [G|[_ [G|G]]]; [left; exact G|congruence|right; rewrite <- mpoly_area_spec; exact G].
  Qed.

  Lemma leaf_rel_facts : forall x y, grel x y -> is_leaf x -> tfree \/ leaf_nondegenerate x ->
    geom_area false None y == a * a * geom_area false None x /\ oaff (leaf_centroid sq x) (leaf_centroid sq' y).
  Proof.
    apply (geom_rel_ind' point_rel line_rel ring_rel (fun x y => is_leaf x -> tfree \/ leaf_nondegenerate x ->
             geom_area false None y == a * a * geom_area false None x /\ oaff (leaf_centroid sq x) (leaf_centroid sq' y))).
    - intros p p' H _ _. split; [cbn [geom_area]; ring|exact H].
    - intros l l' H _ _. split; [cbn [geom_area]; ring|exact (line_centroid_rel l l' H)].
    - intros p p' H _ G. exact (poly_rel_facts p p' H G).
    - intros ct ct' ps ps' H _ _. split; [cbn [geom_area]; ring|exact (mpoint_centroid_rel ps ps' H)].
    - intros ct ct' ls ls' H _ _. split; [cbn [geom_area]; ring|exact (mline_centroid_rel ls ls' H)].
    - intros ct ct' ps ps' H _ G. exact (mpoly_rel_facts ps ps' H G).
    - intros ct ct' gs gs' _ _ [].
  Qed.

  Lemma leaf_terms : forall x y, grel x y -> is_leaf x /\ (tfree \/ leaf_nondegenerate x) ->
    member_moves (a * a) (geom_area false None x) (leaf_centroid sq x) (geom_area false None y) (leaf_centroid sq' y).
  Proof.
    intros x y H [Hl G]. destruct (leaf_rel_facts x y H Hl G) as [Ha Hc].
    apply (moves_term _ _ _ _ _ Hc Ha), (leaf_none_area sq x Hl).
  Qed.

  Theorem grel_centroid : forall g g', grel g g' -> tfree \/ centroid_defined sq g ->
    oaff (geom_centroid sq g) (geom_centroid sq' g').
  Proof.
    apply (geom_rel_ind' point_rel line_rel ring_rel (fun g g' => tfree \/ centroid_defined sq g ->
             oaff (geom_centroid sq g) (geom_centroid sq' g'))).
    1-6: intros; match goal with |- oaff (geom_centroid sq ?x) (geom_centroid sq' ?y) =>
           apply (leaf_rel_facts x y); [assumption|exact I|assumption] end.
    intros ct ct' gs gs' Hs _ G. apply geom_rel_coll with (ct := ct) (ct' := ct') in Hs.
    assert (Ee := geom_rel_empty _ _ _ point_rel_empty line_rel_empty _ _ Hs).
    assert (Eh := geom_rel_hdim _ _ _ point_rel_empty line_rel_empty _ _ Hs).
    assert (HL := geom_rel_leaves _ _ _ _ _ Hs).
    cbn [centroid_defined is_empty leaves] in *. cbn [geom_centroid]. unfold coll_centroid. rewrite <- Ee, <- Eh.
    destruct (forallb (@is_empty Q) gs) eqn:E; [exact I|].
    assert (GD : tfree \/ ~ coll_divisor sq (GColl ct gs) == 0).
    { destruct G as [G|[_ [G|G]]]; [left; exact G|congruence|right; exact G]. }
    assert (GL : Forall (fun x => is_leaf x /\ (tfree \/ leaf_nondegenerate x)) (flat_map leaves gs)).
    { apply Forall_and; [exact (leaves_are_leaves (GColl ct gs))|].
      destruct G as [G|[G _]]; [apply Forall_forall; intros; left; exact G|].
      exact (Forall_impl _ (fun x Gx => or_intror Gx) G). }
    unfold coll_divisor in GD. cbn [leaves] in GD.
    set (lv := flat_map leaves gs) in *. set (lv' := flat_map leaves gs') in *.
    destruct (hdim (GColl ct gs)) as [|[|k]]; cbn [oaff]; unfold xy_eq, aff; cbn [fst snd].
    - destruct (coll_point_spec lv) as [H1 H2], (coll_point_spec lv') as [G1 G2]. cbv zeta in *.
      rewrite H1, H2, G1, G2, !Qmult_1_div, !inject_Z_zsum. rewrite inject_Z_zsum in GD.
      apply (moves_mean 1 _ _ _ _ _ _ one_nz GD), moves_qsum. exact (Forall2_impl' _ _ _ _ lv lv' gp_rel HL).
    - destruct (coll_linear_spec sq lv) as [H1 H2], (coll_linear_spec sq' lv') as [G1 G2]. cbv zeta in *.
      rewrite H1, H2, G1, G2, !Qmult_1_div.
      apply (moves_mean lam _ _ _ _ _ _ lam_nz GD), moves_qsum. exact (Forall2_impl' _ _ _ _ lv lv' gl_rel HL).
    - destruct (coll_areal_spec sq lv) as [H1 H2], (coll_areal_spec sq' lv') as [G1 G2]. cbv zeta in *.
      rewrite H1, H2, G1, G2.
      apply (moves_mean (a * a) _ _ _ _ _ _ (square_nz a a_nz) GD), moves_qsum. exact (Forall2_Forall_impl _ _ _ _ _ lv lv' leaf_terms HL GL).
  Qed.
End Image.

Section Affine.
  Variables (a lam : Q) (t : xy) (f : xy -> xy) (sq sq' : Q -> Q).
  Hypothesis fx : forall p, fst (f p) == a * fst p + fst t.
  Hypothesis fy : forall p, snd (f p) == a * snd p + snd t.
  Hypothesis f_len : forall p q, xy_len sq' (xy_sub (f p) (f q)) == lam * xy_len sq (xy_sub p q).

  Lemma ring_area_aff : forall p r,
    ring_area_xy (map f (p :: r)) == a * a * ring_area_xy (p :: r) + a * fst t * (snd (last r p) - snd p).
  Proof.
    intros p r. rewrite !ring_area_psum. cbn [map psum]. rewrite pairsum_map.
    rewrite (pairsum_telescope _ (fun x y => a * a * e_shoe x y) (fun q => 2 * a * fst t * snd q)).
    - rewrite pairsum_scale. field.
    - intros x y. unfold e_shoe. rewrite !fx, !fy. ring.
  Qed.

  Lemma ring_area_aff_closed : forall r, tfree t \/ ring_closedb (line_xys r) = true ->
    ring_area None (line_tr f r) == a * a * ring_area None r.
  Proof.
    intros r G. rewrite !ring_area_none, line_xys_tr. destruct (line_xys r) as [|p L]; [cbn; ring|].
    rewrite ring_area_aff. destruct G as [[G _]|G]; [rewrite G; ring|].
    unfold ring_closedb in G. rewrite last_cons_default in G. apply xy_eqb_true in G. destruct G as [_ Gy].
    rewrite <- Gy. ring.
  Qed.

  Lemma Qabs_sq : forall x, Qabs (a * a * x) == a * a * Qabs x.
  Proof.
    intros x. rewrite Qabs_Qmult. apply Qmult_comp; [|reflexivity].
    apply Qabs_pos. destruct (Qlt_le_dec a 0) as [H|H].
    - setoid_replace (a * a) with ((- a) * (- a)) by ring. apply Qmult_le_0_compat; lra.
    - apply Qmult_le_0_compat; assumption.
  Qed.

  Lemma geom_area_aff : forall s g, tfree t \/ geom_closed g = true ->
    geom_area s None (geom_tr f g) == a * a * geom_area s None g.
  Proof.
    intros s g G.
    apply (geom_area_rel (fun _ _ => True) (fun _ _ => True)
             (fun r r' => shell_term s None r' == a * a * shell_term s None r)); [auto|].
    apply (geom_rel_impl _ _ _ _ _ _ _ (fun _ _ _ => I) (fun _ _ _ => I)) with (2 := geom_tr_graph f g)
                                                                               (3 := geom_closed_rings _ g G).
    intros r r' -> Gr. unfold shell_term. destruct s; rewrite (ring_area_aff_closed r Gr), ?Qabs_sq; reflexivity.
  Qed.

  Lemma length_xy_aff : forall L, length_xy sq' (map f L) == lam * length_xy sq L.
  Proof. intros L. rewrite !length_xy_psum. apply psum_map_lin. intros p q. unfold e_len. apply f_len. Qed.

  Lemma geom_length_aff : forall g, geom_length sq' (geom_tr f g) == lam * geom_length sq g.
  Proof.
    intros g. apply (geom_length_rel _ _ _ lam sq sq') with (2 := geom_tr_graph f g).
    intros l l' ->. unfold line_length. rewrite line_xys_tr. apply length_xy_aff.
  Qed.

  Hypothesis a_nz : ~ a == 0.
  Hypothesis lam_nz : ~ lam == 0.

  Lemma tri_area2_aff : forall b p q, tri_area2 (f b) (f p) (f q) == a * a * tri_area2 b p q.
  Proof. intros. unfold tri_area2. rewrite !fx, !fy. ring. Qed.

  Lemma ring_centroid_aff : forall L, tfree t \/ ~ ring_fan2 L == 0 ->
    xy_eq (centroid_of_ring_xy (map f L)) (aff a t (centroid_of_ring_xy L)).
  Proof.
    intros [|b tl] G.
    - destruct G as [[Gx Gy]|G]; [|exfalso; apply G; reflexivity]. unfold xy_eq, aff. cbn. rewrite Gx, Gy. split; ring.
    - cbn [map centroid_of_ring_xy ring_fan2] in *.
      destruct (fan_spec (f b) (map f tl)) as [H1 [H2 H3]], (fan_spec b tl) as [G1 [G2 G3]].
      destruct (fan (f b) (map f tl)) as [a2' c6'], (fan b tl) as [a2 c6]. cbn [fst snd] in *.
      assert (M : moves a t (a * a) a2 (fst c6 / 3) (snd c6 / 3) a2' (fst c6' / 3) (snd c6' / 3)).
      { unfold moves. rewrite H1, H2, H3, G1, G2, G3. split; [|split].
        - apply psum_map_lin. intros p q. unfold e_tri. apply tri_area2_aff.
        - rewrite (psum_map_affine (e_c6x b) (e_tri b) _ f (a * a * a) (3 * fst t * (a * a))); [field|].
          intros p q. unfold e_c6x, e_tri. rewrite tri_area2_aff, !fx. ring.
        - rewrite (psum_map_affine (e_c6y b) (e_tri b) _ f (a * a * a) (3 * snd t * (a * a))); [field|].
          intros p q. unfold e_c6y, e_tri. rewrite tri_area2_aff, !fy. ring. }
      destruct (moves_mean a t (a * a) _ _ _ _ _ _ (square_nz a a_nz) G M) as [Cx Cy].
      unfold xy_eq, xy_scale, aff. cbn [fst snd]. split.
      + transitivity (fst c6' / 3 / a2'); [unfold Qdiv; ring|]. rewrite Cx. unfold Qdiv. ring.
      + transitivity (snd c6' / 3 / a2'); [unfold Qdiv; ring|]. rewrite Cy. unfold Qdiv. ring.
  Qed.

  Lemma xy_eqb_aff : forall p q, xy_eqb (f p) (f q) = xy_eqb p q.
  Proof.
    assert (E : forall x y tau, Qeq_bool (a * x + tau) (a * y + tau) = Qeq_bool x y).
    { intros x y tau. apply eq_true_iff_eq. rewrite !Qeq_bool_iff. split; intros H; [|rewrite H; reflexivity].
      apply (Qmult_inj_l x y a a_nz). lra. }
    intros p q. unfold xy_eqb.
    rewrite (Qeq_bool_eq _ _ _ _ (fx p) (fx q)), (Qeq_bool_eq _ _ _ _ (fy p) (fy q)), !E. reflexivity.
  Qed.

  Lemma sumcl_xy_aff : forall L,
    moves a t lam (snd (sumcl_xy sq L)) (fst (fst (sumcl_xy sq L))) (snd (fst (sumcl_xy sq L)))
      (snd (sumcl_xy sq' (map f L))) (fst (fst (sumcl_xy sq' (map f L)))) (snd (fst (sumcl_xy sq' (map f L)))).
  Proof.
    intros L. destruct (sumcl_xy_psum sq' (map f L)) as [H1 [H2 H3]], (sumcl_xy_psum sq L) as [G1 [G2 G3]].
    unfold moves. rewrite H1, H2, H3, G1, G2, G3.
    apply (moves_psum a t lam f (e_sl sq) (e_sx sq) (e_sy sq) (e_sl sq') (e_sx sq') (e_sy sq')).
    intros p q. unfold moves, e_sx, e_sy, e_sl.
    rewrite xy_eqb_aff. destruct (xy_eqb p q); [repeat split; ring|]. rewrite f_len, !fx, !fy. repeat split; ring.
  Qed.

  Lemma geom_tr_rel : forall g, grel a lam t sq sq' g (geom_tr f g).
  Proof.
    intros g. apply (geom_rel_impl _ _ _ _ _ _ (fun _ => True)) with (4 := geom_tr_graph f g);
      [| | |apply Forall_forall; intros; exact I].
    - intros p p' ->. unfold point_rel. rewrite point_xy_tr. destruct (point_xy p); [split; [apply fx|apply fy]|exact I].
    - intros l l' ->. unfold line_rel, line_length, sum_centroid_length. rewrite line_xys_tr, line_tr_empty.
      split; [reflexivity|]. split; [apply length_xy_aff|apply sumcl_xy_aff].
    - intros r r' -> _. split; intros G.
      + rewrite (ring_area_aff_closed r G). apply Qabs_sq.
      + rewrite centroid_of_ring_tr. apply ring_centroid_aff, G.
  Qed.

  Theorem geom_centroid_aff : forall g, tfree t \/ centroid_defined sq g ->
    oaff a t (geom_centroid sq g) (geom_centroid sq' (geom_tr f g)).
  Proof. intros g. apply (grel_centroid a lam t sq sq' a_nz lam_nz), geom_tr_rel. Qed.
End Affine.

Lemma translate_fx : forall t p, fst (translate t p) == 1 * fst p + fst t.
Proof. intros. unfold translate, xy_add. cbn [fst]. ring. Qed.
Lemma translate_fy : forall t p, snd (translate t p) == 1 * snd p + snd t.
Proof. intros. unfold translate, xy_add. cbn [snd]. ring. Qed.
Lemma translate_len : forall sq, (forall a b, a == b -> sq a == sq b) -> forall t p q,
  xy_len sq (xy_sub (translate t p) (translate t q)) == 1 * xy_len sq (xy_sub p q).
Proof.
  intros sq Hsq t p q. rewrite Qmult_1_l. unfold xy_len, xy_sub, translate, xy_add. cbn [fst snd]. apply Hsq. ring.
Qed.

Lemma area_translate_general : forall t p r,
  ring_area_xy (map (translate t) (p :: r)) ==
  ring_area_xy (p :: r) + fst t * (snd (last r p) - snd p).
Proof. intros t p r. rewrite (ring_area_aff 1 t (translate t) (translate_fx t) (translate_fy t)). ring. Qed.

Lemma area_translate_lemma : forall s t g, geom_closed g = true ->
  geom_area s None (geom_tr (translate t) g) == geom_area s None g.
Proof.
  intros s t g H. rewrite (geom_area_aff 1 t (translate t) (translate_fx t) (translate_fy t) s g (or_intror H)). ring.
Qed.

Lemma length_translate_lemma : forall sq, (forall a b, a == b -> sq a == sq b) -> forall t g,
  geom_length sq (geom_tr (translate t) g) == geom_length sq g.
Proof. intros sq Hsq t g. rewrite (geom_length_aff 1 (translate t) sq sq (translate_len sq Hsq t)). ring. Qed.

Lemma centroid_translate_lemma : forall sq, (forall a b, a == b -> sq a == sq b) -> forall t g,
  centroid_defined sq g -> shifted t (geom_centroid sq g) (geom_centroid sq (geom_tr (translate t) g)).
Proof.
  intros sq Hsq t g H.
  assert (K := geom_centroid_aff 1 1 t (translate t) sq sq (translate_fx t) (translate_fy t) (translate_len sq Hsq t)
                 (one_nz) (one_nz) g (or_intror H)).
  destruct (geom_centroid sq g) as [c|], (geom_centroid sq (geom_tr (translate t) g)) as [c'|]; cbn [oaff shifted] in *;
    try exact K.
  unfold xy_eq, aff, xy_add in *. cbn [fst snd] in *. destruct K as [K1 K2]. rewrite K1, K2. split; ring.
Qed.

(* ------------------------------------------------------------------------------------------ *)
(* Measure-equivalence (a = 1, t = 0, lam = 1): Reverse, ForceCW/CCW, ring rotation, Z/M removal *)
(* ------------------------------------------------------------------------------------------ *)
Definition ring_sim : lineT Q -> lineT Q -> Prop := ring_rel 1 xy0.
Definition geom_sim (sq : Q -> Q) : geomT Q -> geomT Q -> Prop := grel 1 1 xy0 sq sq.

Lemma tfree0 : tfree xy0.
Proof. split; reflexivity. Qed.

Lemma oaff_id : forall o o', oaff 1 xy0 o o' -> oxy_eq o' o.
Proof.
  intros [c|] [c'|] H; cbn [oaff oxy_eq] in *; try exact H.
  destruct H as [Hx Hy]. cbn [aff fst snd xy0] in *. unfold xy_eq. rewrite Hx, Hy. split; ring.
Qed.

Lemma geom_sim_measures : forall sq g g', geom_sim sq g g' ->
  geom_area false None g == geom_area false None g' /\
  geom_length sq g == geom_length sq g' /\
  oxy_eq (geom_centroid sq g) (geom_centroid sq g').
Proof.
  intros sq g g' H. split; [|split].
  - rewrite (grel_area 1 1 xy0 sq sq g g' H (or_introl tfree0)). ring.
  - rewrite (grel_length 1 1 xy0 sq sq g g' H). ring.
  - apply oxy_eq_sym, oaff_id, (grel_centroid 1 1 xy0 sq sq one_nz one_nz g g' H (or_introl tfree0)).
Qed.

Lemma ring_sim_intro : forall r r', Qabs (ring_area None r) == Qabs (ring_area None r') ->
  xy_eq (centroid_of_ring r) (centroid_of_ring r') -> ring_sim r r'.
Proof.
  intros r r' Ha [Hx Hy]. split; intros _; [rewrite Ha; ring|].
  unfold xy_eq, aff. cbn [fst snd xy0]. rewrite Hx, Hy. split; ring.
Qed.

Lemma ring_sim_rev : forall r, is_cycle (line_xys r) -> ring_sim r (line_rev r).
Proof.
  intros r [l Hl]. apply ring_sim_intro.
  - symmetry. apply Qabs_opp_eq. apply ring_area_rev.
  - unfold centroid_of_ring. rewrite line_xys_rev, Hl. apply xy_eq_sym, centroid_ring_reverse_lemma.
Qed.

Lemma ring_sim_rotated : forall r r', ring_rotated r r' -> ring_sim r r'.
Proof.
  intros r r' [l [k [H1 H2]]]. apply ring_sim_intro.
  - rewrite !ring_area_none, H1, H2. rewrite area_rotate_lemma. reflexivity.
  - unfold centroid_of_ring. rewrite H1, H2. apply xy_eq_sym, centroid_ring_rotate_lemma.
Qed.

Lemma point_sim_of_xy : forall p p', point_xy p' = point_xy p -> point_rel 1 xy0 p p'.
Proof.
  intros p p' H. unfold point_rel. rewrite H. destruct (point_xy p) as [c|]; [|exact I].
  unfold oaff, xy_eq, aff. cbn [fst snd xy0]. split; ring.
Qed.

Lemma line_sim_of_xys : forall sq l l', line_xys l' = line_xys l -> line_rel 1 1 xy0 sq sq l l'.
Proof.
  intros sq l l' H. unfold line_rel, moves, line_length, sum_centroid_length. rewrite H. cbn [fst snd xy0].
  split; [|repeat split; ring].
  destruct l as [ct vs], l' as [ct' vs']. unfold line_xys, line_empty in *. cbn [line_vs] in *.
  destruct vs, vs'; try reflexivity; discriminate.
Qed.

Lemma point_sim_refl : forall p, point_rel 1 xy0 p p.
Proof. intros p. apply point_sim_of_xy. reflexivity. Qed.
Lemma line_sim_refl : forall sq l, line_rel 1 1 xy0 sq sq l l.
Proof. intros sq l. apply line_sim_of_xys. reflexivity. Qed.
Lemma ring_sim_refl : forall r, ring_sim r r.
Proof. intros r. apply ring_sim_intro; [reflexivity|apply xy_eq_refl]. Qed.

Lemma line_sim_rev : forall sq, (forall a b, a == b -> sq a == sq b) -> forall l, line_rel 1 1 xy0 sq sq l (line_rev l).
Proof.
  intros sq Hsq l. unfold line_rel, moves, line_length, sum_centroid_length.
  rewrite line_rev_empty, line_xys_rev, (length_xy_rev sq Hsq).
  destruct (sumcl_xy_rev sq Hsq (line_xys l)) as [H1 [H2 H3]]. rewrite H1, H2, H3. cbn [fst snd xy0].
  repeat split; ring.
Qed.

Lemma geom_sim_rev : forall sq, (forall a b, a == b -> sq a == sq b) ->
  forall g, rings_are_cycles g -> geom_sim sq g (geom_rev g).
Proof.
  intros sq Hsq g Hc. apply (geom_rel_impl _ _ _ _ _ _ _) with (4 := geom_rev_graph g) (5 := Hc).
  - intros p p' ->. apply point_sim_refl.
  - intros l l' ->. apply line_sim_rev, Hsq.
  - intros r r' ->. apply ring_sim_rev.
Qed.

Lemma geom_sim_force : forall sq cw g, rings_are_cycles g -> geom_sim sq g (geom_force cw g).
Proof.
  intros sq cw g Hc. unfold geom_force. destruct (geom_oriented cw g).
  - apply geom_rel_refl; [apply point_sim_refl|apply line_sim_refl|apply ring_sim_refl].
  - apply (geom_rel_impl _ _ _ _ _ _ _) with (4 := geom_force_graph cw g) (5 := Hc).
    + intros p p' ->. apply point_sim_refl.
    + intros l l' ->. apply line_sim_refl.
    + intros r r' [->| ->] Hr; [apply ring_sim_refl|apply ring_sim_rev, Hr].
Qed.

Lemma rings_related_sim : forall sq (R : lineT Q -> lineT Q -> Prop), (forall r r', R r r' -> ring_sim r r') ->
  forall g g', rings_related R g g' -> geom_sim sq g g'.
Proof.
  intros sq R HR g g' H.
  apply (geom_rel_impl _ _ _ _ _ _ (fun _ => True)) with (4 := rings_related_graph R g g' H);
    [| | |apply Forall_forall; intros; exact I].
  - intros p p' ->. apply point_sim_refl.
  - intros l l' ->. apply line_sim_refl.
  - intros r r' Hr _. apply HR, Hr.
Qed.

Lemma geom_sim_2d : forall sq g, geom_sim sq g (geom_2d g).
Proof.
  intros sq g. apply (geom_rel_impl _ _ _ _ _ _ (fun _ => True)) with (4 := geom_2d_graph g);
    [| | |apply Forall_forall; intros; exact I].
  - intros p p' ->. apply point_sim_of_xy, point_xy_2d.
  - intros l l' ->. apply line_sim_of_xys, line_xys_2d.
  - intros r r' -> _. unfold ring_sim. apply ring_sim_intro; unfold ring_area, centroid_of_ring; rewrite line_xys_2d.
    + reflexivity.
    + apply xy_eq_refl.
Qed.

(* ------------------------------------------------------------------------------------------ *)
(* Scaling the square root by a constant: Length scales, Centroid does not change              *)
(* (what lets the correspondence driver run the lineal formulas with 2^80 * sqrt)              *)
(* ------------------------------------------------------------------------------------------ *)
Section SqScale.
  Variable sq : Q -> Q.
  Variable k : Q.
  Hypothesis k_nz : ~ k == 0.
  Definition sqk (q : Q) : Q := k * sq q.

  Lemma sqk_rel : forall g, grel 1 k xy0 sq sqk g g.
  Proof.
    assert (Hx : forall p : xy, fst p == 1 * fst p + fst xy0) by (intros; cbn; ring).
    assert (Hy : forall p : xy, snd p == 1 * snd p + snd xy0) by (intros; cbn; ring).
    assert (Hl : forall p q, xy_len sqk (xy_sub p q) == k * xy_len sq (xy_sub p q)) by reflexivity.
    apply geom_rel_refl.
    - apply point_sim_refl.
    - intros l. unfold line_rel, line_length, sum_centroid_length. set (L := line_xys l).
      assert (K1 := length_xy_aff k (fun p => p) sq sqk Hl L).
      assert (K2 := sumcl_xy_aff 1 k xy0 (fun p => p) sq sqk Hx Hy Hl one_nz L). rewrite map_id in K1, K2.
      split; [reflexivity|]. split; assumption.
    - apply ring_sim_refl.
  Qed.

  Lemma geom_length_sqk : forall g, geom_length sqk g == k * geom_length sq g.
  Proof. intros g. apply (grel_length 1 k xy0 sq sqk), sqk_rel. Qed.

  Lemma geom_centroid_sqk : forall g, oxy_eq (geom_centroid sqk g) (geom_centroid sq g).
  Proof.
    intros g. apply oaff_id, (grel_centroid 1 k xy0 sq sqk one_nz k_nz g g (sqk_rel g)). left. exact tfree0.
  Qed.
End SqScale.
