(* Property C09, second part: (1) the witness oracle [share_witness] is a verified decision procedure
   for "the two point sets share a point" (by the sufficiency theorem of Proofs/Planar_slab.v);
   (2) completeness of Intersects when one operand is areal and the other is not: a path that
   meets no ring edge keeps its crossing parity (staircase argument on top of the exact
   segment-segment distance), so the StartPoint probe decides. *)
From Coq Require Import QArith Qabs Qround Qreduction List Bool ZArith Lia Lqa Setoid Morphisms.
From SF Require Import Base.GeomAST Base.QKernel Base.Planar Proofs.Planar_proofs
  Proofs.Planar_slab_base Proofs.Planar_slab
  Model.Intersects Model.Distance Proofs.Intersects_proofs Proofs.Distance_proofs Proofs.Distance_lower.
Import ListNotations.
Open Scope Q_scope.

(* the boolean hypothesis of Model/Intersects.v is the Prop of Planar_slab_base *)
Lemma rings_closed_prop g : Intersects.rings_closed g = true -> Planar_slab_base.rings_closed g.
Proof.
  unfold Intersects.rings_closed, Planar_slab_base.rings_closed, poly_rings_closed.
  rewrite forallb_forall. intros H y Hy r Hr. specialize (H y Hy). rewrite forallb_forall in H. exact (H r Hr).
Qed.

(* ================================================================ (1) the oracle is exact *)
Theorem share_witness_iff a b :
  Intersects.rings_closed a = true -> Intersects.rings_closed b = true ->
  (share_witness a b = true <-> exists p, inG a p = true /\ inG b p = true).
Proof.
  intros Ca Cb. unfold share_witness. split.
  - intros H. apply existsb_exists in H. destruct H as [w [_ H]]. apply andb_true_iff in H. exists (fst w). exact H.
  - intros [p [Ha Hb]]. unfold pair_witnesses.
    destruct (witnesses_sufficient (canon_segs (arr_segments a ++ arr_segments b)) (canon_pts (arr_points a ++ arr_points b)) p)
      as [w [d [Hin Hloc]]].
    destruct (pair_covers a b) as [Cova Covb].
    pose proof (inG_of_locate a p w (Hloc a Cova (rings_closed_prop a Ca))) as Ea.
    pose proof (inG_of_locate b p w (Hloc b Covb (rings_closed_prop b Cb))) as Eb.
    apply existsb_exists. exists (w, d). split; [exact Hin|]. cbn [fst]. rewrite <- Ea, <- Eb, Ha, Hb. reflexivity.
Qed.

(* ================================================================ (2) paths that avoid a ring *)
Definition avoids (es : list seg) (s : seg) : Prop :=
  forall e, In e es -> forall w, ~ (on_seg e w = true /\ on_seg s w = true).

Lemma il_empty_of_avoid a b u v :
  ~ pt_eq a b -> ~ pt_eq u v -> (forall w, ~ (on_seg (a, b) w = true /\ on_seg (u, v) w = true)) ->
  intersect_line_empty (a, b) (u, v) = true.
Proof.
  intros Hab Huv H. destruct (intersect_line_empty (a, b) (u, v)) eqn:E; [reflexivity|].
  destruct (il_sound a b u v Hab Huv E) as [w Hw]. exfalso. exact (H w Hw).
Qed.

Lemma il_empty_turns a b c d :
  intersect_line_empty (a, b) (c, d) = true ->
  orientation a b c = orientation a b d \/ orientation c d a = orientation c d b.
Proof.
  unfold intersect_line_empty.
  destruct (turn_eqb (orientation a b c) (orientation a b d)) eqn:E1; [left; apply turn_eqb_eq; exact E1|].
  destruct (turn_eqb (orientation c d a) (orientation c d b)) eqn:E2; [right; apply turn_eqb_eq; exact E2|].
  simpl. discriminate.
Qed.

Lemma same_turn_pos a b u v : orientation a b u = orientation a b v -> qltb 0 (cross a b u) = qltb 0 (cross a b v).
Proof.
  intros H. apply eq_true_iff_eq. rewrite !qltb_iff.
  destruct (orientation_cases a b u) as [[E1 H1]|[[E1 H1]|[E1 H1]]];
  destruct (orientation_cases a b v) as [[E2 H2]|[[E2 H2]|[E2 H2]]];
  try (rewrite E1, E2 in H; discriminate); split; intros; lra.
Qed.

Lemma edge_cross_pt_eq a b p p' : pt_eq p p' -> edge_cross a b p = edge_cross a b p'.
Proof.
  intros H. unfold edge_cross. rewrite (cross_proper a a (reflexivity a) b b (reflexivity b) p p' H).
  rewrite (cross_proper b b (reflexivity b) a a (reflexivity a) p p' H).
  destruct H as [_ H2]. cbv zeta.
  rewrite (Qle_bool_proper _ _ (reflexivity (snd a)) _ _ H2), (Qle_bool_proper _ _ (reflexivity (snd b)) _ _ H2). reflexivity.
Qed.

Lemma cross_sign_horizontal a b u v :
  ~ pt_eq a b -> ~ pt_eq u v -> snd u == snd v -> snd a <= snd u -> snd u < snd b ->
  (forall w, ~ (on_seg (a, b) w = true /\ on_seg (u, v) w = true)) ->
  qltb 0 (cross a b u) = qltb 0 (cross a b v).
Proof.
  intros Eab Euv Hy Ya Yb Hav.
  assert (Hx : ~ fst u == fst v) by (intros E; apply Euv; split; assumption).
  destruct (il_empty_turns _ _ _ _ (il_empty_of_avoid a b u v Eab Euv Hav)) as [T|T]; [apply same_turn_pos; exact T|].
  exfalso.
  destruct (orientation_cases u v a) as [[E1 H1]|[[E1 H1]|[E1 H1]]];
  destruct (orientation_cases u v b) as [[E2 H2]|[[E2 H2]|[E2 H2]]];
    try (rewrite E1, E2 in T; discriminate);
    unfold cross in H1, H2; destruct (Q_dec (fst u) (fst v)) as [[K|K]|K]; try contradiction; nra.
Qed.

(* a horizontal segment that does not meet the edge: same crossing bit at both ends *)
Lemma edge_cross_horizontal a b u v :
  snd u == snd v -> (forall w, ~ (on_seg (a, b) w = true /\ on_seg (u, v) w = true)) ->
  edge_cross a b u = edge_cross a b v.
Proof.
  intros Hy Hav.
  destruct (pt_eqb a b) eqn:Eab.
  { apply pt_eqb_iff in Eab. rewrite !(edge_cross_degenerate a b) by exact Eab. reflexivity. }
  destruct (pt_eqb u v) eqn:Euv.
  { apply pt_eqb_iff in Euv. apply edge_cross_pt_eq. exact Euv. }
  apply pt_eqb_false_iff in Eab. apply pt_eqb_false_iff in Euv.
  unfold edge_cross. cbv zeta.
  rewrite <- (Qle_bool_proper _ _ (reflexivity (snd a)) _ _ Hy), <- (Qle_bool_proper _ _ (reflexivity (snd b)) _ _ Hy).
  destruct (Qle_bool (snd a) (snd u)) eqn:Ya; destruct (Qle_bool (snd b) (snd u)) eqn:Yb; cbn [Bool.eqb]; try reflexivity.
  - apply Qle_bool_iff in Ya. apply Qle_bool_false_iff in Yb. apply cross_sign_horizontal; assumption.
  - apply Qle_bool_false_iff in Ya. apply Qle_bool_iff in Yb. apply cross_sign_horizontal; try assumption.
    + intros E. apply Eab. symmetry. exact E.
    + intros w. rewrite on_seg_sym. apply Hav.
Qed.

(* exchanging the coordinates turns the vertical-ray crossing into the horizontal-ray crossing *)
Definition swap (p : pt) : pt := (snd p, fst p).
Lemma vcross_swap a b p : Planar_slab_base.vcross a b p = edge_cross (swap a) (swap b) (swap p).
Proof.
  unfold Planar_slab_base.vcross, edge_cross, swap; cbn [fst snd].
  destruct (Qle_bool (fst a) (fst p)), (Qle_bool (fst b) (fst p)); cbn [Bool.eqb]; try reflexivity;
    apply eq_true_iff_eq; rewrite !qltb_iff; unfold cross; cbn [fst snd]; split; lra.
Qed.
Lemma on_seg_swap a b w : on_seg (swap a, swap b) (swap w) = on_seg (a, b) w.
Proof.
  unfold on_seg, swap; cbn [fst snd]. rewrite (andb_comm (qbetween (snd a) (snd b) (snd w))). f_equal.
  apply eq_true_iff_eq. rewrite !Qeq_bool_iff. unfold cross; cbn [fst snd]. split; lra.
Qed.

(* a vertical segment that does not meet the edge: same vertical-ray crossing bit at both ends *)
Lemma vcross_vertical_seg a b u v :
  fst u == fst v -> (forall w, ~ (on_seg (a, b) w = true /\ on_seg (u, v) w = true)) ->
  Planar_slab_base.vcross a b u = Planar_slab_base.vcross a b v.
Proof.
  intros Hx Hav. rewrite !vcross_swap. apply edge_cross_horizontal; [exact Hx|].
  intros [x y] [H1 H2]. apply (Hav (y, x)).
  split; [exact (eq_trans (eq_sym (on_seg_swap a b (y, x))) H1) | exact (eq_trans (eq_sym (on_seg_swap u v (y, x))) H2)].
Qed.

Lemma edges_parity_horizontal es u v :
  snd u == snd v -> avoids es (u, v) -> edges_parity es u = edges_parity es v.
Proof.
  intros Hy Hav. unfold edges_parity. apply fold_xor_ext. intros [a b] He. cbn [fst snd].
  apply edge_cross_horizontal; [exact Hy | exact (Hav (a, b) He)].
Qed.
Lemma vparity_vertical es u v :
  fst u == fst v -> avoids es (u, v) -> vparity es u = vparity es v.
Proof.
  intros Hx Hav. unfold vparity. apply fold_xor_ext. intros [a b] He. cbn [fst snd].
  apply vcross_vertical_seg; [exact Hx | exact (Hav (a, b) He)].
Qed.

Lemma avoids_all_off R P x : (forall s, In s P -> avoids R s) -> on_edges P x = true -> on_edges R x = false.
Proof.
  unfold on_edges. intros Hav Hon. apply existsb_exists in Hon. destruct Hon as [s [Hs Hsx]].
  apply existsb_false_iff. intros e He. destruct (on_seg e x) eqn:E; [|reflexivity].
  exfalso. apply (Hav s Hs e He x). auto.
Qed.

Lemma avoids_off es u v : avoids es (u, v) -> on_edges es u = false /\ on_edges es v = false.
Proof.
  intros H. split; apply (avoids_all_off es [(u, v)]); try (intros s [<-|[]]; exact H);
    unfold on_edges; cbn [existsb]; [rewrite on_seg_left | rewrite on_seg_right]; reflexivity.
Qed.

(* for a closed ring both axis-parallel moves keep the (horizontal-ray) parity *)
Lemma ring_parity_vertical ps u v :
  pts_closed ps = true -> fst u == fst v -> avoids (segs_of_pts ps) (u, v) ->
  edges_parity (segs_of_pts ps) u = edges_parity (segs_of_pts ps) v.
Proof.
  intros C Hx Hav. destruct (avoids_off _ u v Hav) as [Ou Ov].
  rewrite (closed_ring_parity ps u C Ou), (closed_ring_parity ps v C Ov). apply vparity_vertical; assumption.
Qed.

Lemma edges_parity_pt_eq es p p' : pt_eq p p' -> edges_parity es p = edges_parity es p'.
Proof. intros H. unfold edges_parity. apply fold_xor_ext. intros e _. apply edge_cross_pt_eq. exact H. Qed.

(* ---- a positive clearance between the ring and a segment that avoids it ---- *)
Lemma Qmin_pos a b : 0 < a -> 0 < b -> exists m, 0 < m /\ m <= a /\ m <= b.
Proof. intros Ha Hb. destruct (Qlt_le_dec a b); [exists a | exists b]; repeat split; lra. Qed.

Lemma clearance es u v :
  ~ pt_eq u v -> avoids es (u, v) ->
  exists mu, 0 < mu /\ forall e, In e es -> forall z q, on_seg e z = true -> on_seg (u, v) q = true -> mu <= d2_xy z q.
Proof.
  intros Huv. induction es as [|[a b] es IH]; intros Hav.
  - exists 1. split; [lra|]. intros e [].
  - assert (Hav' : avoids es (u, v)) by (intros e He; apply Hav; right; exact He).
    destruct (IH Hav') as [mu' [Hmu' Hle']].
    assert (Hab : forall w, ~ (on_seg (a, b) w = true /\ on_seg (u, v) w = true)) by (apply Hav; left; reflexivity).
    assert (Ex : exists m, 0 < m /\ forall z q, on_seg (a, b) z = true -> on_seg (u, v) q = true -> m <= d2_xy z q).
    { destruct (pt_eqb a b) eqn:Eab.
      - apply pt_eqb_iff in Eab. exists (d2_xy_line a (u, v)). split.
        + pose proof (d2_xy_line_nonneg a (u, v)) as N.
          destruct (Qeq_dec (d2_xy_line a (u, v)) 0) as [Z|Z]; [|lra]. exfalso.
          apply (Hab a). split; [apply on_seg_left | apply d2_xy_line_zero; assumption].
        + intros z q Hz Hq. pose proof (on_seg_degenerate a b z Eab Hz) as Ez.
          rewrite (d2_xy_proper z a q q Ez); [|reflexivity]. apply d2_xy_line_le; assumption.
      - apply pt_eqb_false_iff in Eab. exists (d2_line_line (a, b) (u, v)). split.
        + pose proof (d2_line_line_nonneg (a, b) (u, v)) as N.
          destruct (Qeq_dec (d2_line_line (a, b) (u, v)) 0) as [Z|Z]; [|lra]. exfalso.
          destruct (d2_line_line_zero (a, b) (u, v) Eab Huv Z) as [w Hw]. exact (Hab w Hw).
        + intros z q Hz Hq. apply seg_seg_d2_lower; assumption. }
    destruct Ex as [m [Hm Hle]]. destruct (Qmin_pos mu' m Hmu' Hm) as [mu [H0 [H1 H2]]].
    exists mu. split; [exact H0|]. intros e [<-|He] z q Hz Hq.
    + eapply Qle_trans; [exact H2 | apply Hle; assumption].
    + eapply Qle_trans; [exact H1 | apply (Hle' e He); assumption].
Qed.

Lemma pick_steps L2 mu : 0 <= L2 -> 0 < mu ->
  exists n : nat, (0 < n)%nat /\ L2 < mu * inject_Z (Z.of_nat n) * inject_Z (Z.of_nat n).
Proof.
  intros HL Hmu. set (c := Qceiling (L2 / mu)). exists (S (Z.to_nat c)). split; [lia|].
  assert (Hc : L2 / mu <= inject_Z c) by apply Qle_ceiling.
  assert (HN : inject_Z c + 1 <= inject_Z (Z.of_nat (S (Z.to_nat c)))).
  { change 1 with (inject_Z 1). rewrite <- (inject_Z_plus c 1). rewrite <- Zle_Qle. lia. }
  set (N := inject_Z (Z.of_nat (S (Z.to_nat c)))) in *.
  assert (Hd : ~ mu == 0) by lra.
  assert (E : L2 / mu * mu == L2) by (field; exact Hd).
  set (x := L2 / mu) in *.
  assert (0 <= x).
  { destruct (Qlt_le_dec x 0) as [K|K]; [|exact K]. exfalso. nra. }
  assert (N1 : 1 <= N) by lra.
  assert (A1 : x * mu < N * mu) by (apply Qmult_lt_compat_r; lra).
  assert (A2 : 0 <= (N * mu) * (N - 1)) by (apply Qmult_le_0_compat; nra).
  assert (A3 : mu * N * N == N * mu + (N * mu) * (N - 1)) by ring.
  lra.
Qed.

Lemma pt_at_0 u v : pt_eq (pt_at u v 0) u.
Proof. split; cbn [pt_at fst snd]; ring. Qed.
Lemma pt_at_1 u v t : t == 1 -> pt_eq (pt_at u v t) v.
Proof. intros H. split; cbn [pt_at fst snd]; rewrite H; ring. Qed.

Lemma sq_between x d : 0 <= x <= d \/ d <= x <= 0 -> x * x <= d * d.
Proof. intros [[A B]|[A B]]; nra. Qed.

(* one stair: along u..v from t to t + delta on the segment, first horizontally, then vertically;
   every point of the coordinate box of the step is closer to the segment than the ring is *)
Lemma stair_step ps u v mu t delta :
  pts_closed ps = true ->
  (forall e, In e (segs_of_pts ps) -> forall z q, on_seg e z = true -> on_seg (u, v) q = true -> mu <= d2_xy z q) ->
  0 <= t -> 0 <= delta -> t + delta <= 1 ->
  ((fst v - fst u) * (fst v - fst u) + (snd v - snd u) * (snd v - snd u)) * delta * delta < mu ->
  edges_parity (segs_of_pts ps) (pt_at u v t) = edges_parity (segs_of_pts ps) (pt_at u v (t + delta)).
Proof.
  intros C Hclear Ht Hd Htd Hsmall.
  set (zk := pt_at u v t). set (zk1 := pt_at u v (t + delta)). set (c := (fst zk1, snd zk)).
  assert (Hq : on_seg (u, v) zk = true) by (apply pt_at_on_seg; lra).
  set (ex := fst zk1 - fst zk). set (ey := snd zk1 - snd zk).
  assert (EL : ex * ex + ey * ey == ((fst v - fst u) * (fst v - fst u) + (snd v - snd u) * (snd v - snd u)) * delta * delta)
    by (unfold ex, ey, zk1, zk, pt_at; cbn [fst snd]; ring).
  assert (Near : forall e w, In e (segs_of_pts ps) -> on_seg e w = true ->
            (fst w - fst zk) * (fst w - fst zk) <= ex * ex -> (snd w - snd zk) * (snd w - snd zk) <= ey * ey -> False).
  { intros e w He Hw Bx By. pose proof (Hclear e He w zk Hw Hq) as Hmu. rewrite d2_xy_expand in Hmu. lra. }
  pose proof (sq_nonneg ex) as Sx. pose proof (sq_nonneg ey) as Sy.
  transitivity (edges_parity (segs_of_pts ps) c).
  - apply edges_parity_horizontal; [reflexivity|]. intros e He w [Hwe Hws]. apply (Near e w He Hwe);
      unfold on_seg, c in Hws; cbn [fst snd] in Hws; rewrite !andb_true_iff, !qbetween_iff in Hws; destruct Hws as [[Hx Hy] _].
    + apply sq_between. unfold ex. destruct Hx as [Hx|Hx]; [left | right]; lra.
    + assert (E : snd w - snd zk == 0) by (destruct Hy; lra). rewrite E. lra.
  - apply ring_parity_vertical; [exact C | reflexivity|]. intros e He w [Hwe Hws]. apply (Near e w He Hwe);
      unfold on_seg, c in Hws; cbn [fst snd] in Hws; rewrite !andb_true_iff, !qbetween_iff in Hws; destruct Hws as [[Hx Hy] _].
    + assert (E : fst w - fst zk == ex) by (unfold ex; destruct Hx; lra). rewrite E. lra.
    + apply sq_between. unfold ey. destruct Hy as [Hy|Hy]; [left | right]; lra.
Qed.

(* a segment that meets no edge of a closed ring has the same crossing parity at both ends *)
Theorem path_parity ps u v :
  pts_closed ps = true -> avoids (segs_of_pts ps) (u, v) ->
  edges_parity (segs_of_pts ps) u = edges_parity (segs_of_pts ps) v.
Proof.
  intros C Hav. destruct (pt_eqb u v) eqn:Euv.
  { apply pt_eqb_iff in Euv. apply edges_parity_pt_eq. exact Euv. }
  apply pt_eqb_false_iff in Euv.
  destruct (clearance _ u v Euv Hav) as [mu [Hmu Hclear]].
  set (L2 := (fst v - fst u) * (fst v - fst u) + (snd v - snd u) * (snd v - snd u)).
  assert (HL : 0 <= L2) by (unfold L2; pose proof (sq_nonneg (fst v - fst u)); pose proof (sq_nonneg (snd v - snd u)); lra).
  destruct (pick_steps L2 mu HL Hmu) as [n [Hn HN]].
  set (N := inject_Z (Z.of_nat n)) in *.
  assert (N1 : 1 <= N) by (unfold N; change 1 with (inject_Z 1); rewrite <- Zle_Qle; lia).
  assert (Nd : ~ N == 0) by lra.
  set (delta := / N).
  assert (ND : N * delta == 1) by (unfold delta; field; exact Nd).
  assert (D0 : 0 < delta) by (unfold delta; apply Qinv_lt_0_compat; lra).
  assert (Hsmall : L2 * delta * delta < mu).
  { assert (E : mu * N * N * (delta * delta) == mu * ((N * delta) * (N * delta))) by ring.
    rewrite ND in E. assert (0 < delta * delta) by nra.
    assert (L2 * (delta * delta) < mu * N * N * (delta * delta)) by (apply Qmult_lt_compat_r; assumption). lra. }
  assert (Main : forall k, (k <= n)%nat ->
            edges_parity (segs_of_pts ps) u = edges_parity (segs_of_pts ps) (pt_at u v (inject_Z (Z.of_nat k) * delta))).
  { induction k as [|k IH]; intros Hk.
    - apply edges_parity_pt_eq. split; cbn [pt_at fst snd Z.of_nat]; change (inject_Z 0) with 0; ring.
    - rewrite (IH ltac:(lia)).
      assert (ES : inject_Z (Z.of_nat (S k)) == inject_Z (Z.of_nat k) + 1).
      { rewrite Nat2Z.inj_succ. unfold Z.succ. rewrite inject_Z_plus. reflexivity. }
      assert (Kn : inject_Z (Z.of_nat (S k)) <= N) by (unfold N; rewrite <- Zle_Qle; lia).
      assert (K0 : 0 <= inject_Z (Z.of_nat k)) by (change 0 with (inject_Z 0); rewrite <- Zle_Qle; lia).
      rewrite (stair_step ps u v mu (inject_Z (Z.of_nat k) * delta) delta C Hclear); try lra; try exact Hsmall.
      + apply edges_parity_pt_eq. split; cbn [pt_at fst snd]; rewrite ES; ring.
      + nra.
      + assert (inject_Z (Z.of_nat k) * delta + delta == inject_Z (Z.of_nat (S k)) * delta) by (rewrite ES; ring).
        assert (inject_Z (Z.of_nat (S k)) * delta <= N * delta) by (apply Qmult_le_compat_r; lra). lra. }
  rewrite (Main n (le_n n)). apply edges_parity_pt_eq. apply pt_at_1. exact ND.
Qed.

(* ================================================================ rings: the side test, exactly *)
Definition ring_wf (r : lineT Q) : bool :=
  match line_pts r with [] => false | a :: rest => existsb (fun q => negb (pt_eqb a q)) rest end.
Definition poly_rings_wf (y : polyT Q) : bool := forallb ring_wf (poly_rings y).

Lemma ring_wf_pts r : ring_wf r = true -> pts_wf (line_pts r) = true /\ line_segs r = ring_edges (line_pts r).
Proof.
  unfold ring_wf, pts_wf, line_segs, segs_of_pts. destruct (line_pts r) as [|a [|b rest]]; try discriminate.
  intros H. split; [exact H | reflexivity].
Qed.

Lemma ring_side_spec r p :
  pts_closed (line_pts r) = true -> ring_wf r = true ->
  relate_point_to_ring p (line_pts r) =
  if on_edges (line_segs r) p then SBoundary
  else if edges_parity (line_segs r) p then SInterior else SExterior.
Proof.
  intros C W. destruct (on_edges (line_segs r) p) eqn:E.
  - rewrite relate_point_to_ring_spec.
    destruct (ring_wf_pts r W) as [Wf _].
    destruct (on_line_cover r p Wf E) as [s [Hs Hp]].
    assert (X : existsb (fun ln => on_seg ln p) (as_lines (line_pts r)) = true).
    { apply existsb_exists. exists s. split; [exact Hs | exact Hp]. }
    rewrite X. reflexivity.
  - apply ring_side_in; assumption.
Qed.

(* ================================================================ point against polygon: complete *)
(* rings properly nested, as OGC validity demands: holes lie in the closed shell, the shell does
   not enter a hole, a hole does not enter another hole *)
Definition strictly_in (r : lineT Q) (p : pt) : Prop := on_edges (line_segs r) p = false /\ edges_parity (line_segs r) p = true.
Definition strictly_out (r : lineT Q) (p : pt) : Prop := on_edges (line_segs r) p = false /\ edges_parity (line_segs r) p = false.
Definition poly_nest_ok (y : polyT Q) : Prop :=
  match poly_rings y with
  | [] => True
  | shell :: holes =>
      (forall h p, In h holes -> on_edges (line_segs h) p = true -> ~ strictly_out shell p) /\
      (forall h p, In h holes -> on_edges (line_segs shell) p = true -> ~ strictly_in h p) /\
      (forall h h' p, In h holes -> In h' holes -> on_edges (line_segs h) p = true -> ~ strictly_in h' p)
  end.

Lemma in_poly_shell y shell holes w :
  poly_rings y = shell :: holes -> poly_nest_ok y -> in_poly y w = true ->
  on_edges (line_segs shell) w = true \/ (on_edges (line_segs shell) w = false /\ edges_parity (line_segs shell) w = true).
Proof.
  intros Er N H. destruct (on_edges (line_segs shell) w) eqn:Es; [left; reflexivity|]. right. split; [reflexivity|].
  destruct (poly_boundary y w) eqn:B.
  - apply poly_boundary_true in B. destruct B as [r [Hr On]]. rewrite Er in Hr. destruct Hr as [<-|Hh]; [congruence|].
    unfold poly_nest_ok in N. rewrite Er in N. destruct N as [V1 _].
    destruct (edges_parity (line_segs shell) w) eqn:P; [reflexivity|]. exfalso. apply (V1 r w Hh On). split; assumption.
  - rewrite (in_poly_off y shell holes w Er (proj1 (poly_boundary_false y w) B)) in H. apply andb_true_iff in H. tauto.
Qed.

Lemma in_poly_not_in_hole y shell holes w h :
  poly_rings y = shell :: holes -> poly_nest_ok y -> in_poly y w = true -> In h holes -> ~ strictly_in h w.
Proof.
  intros Er N H Hh [So Sp]. destruct (poly_boundary y w) eqn:B.
  - apply poly_boundary_true in B. destruct B as [r [Hr On]]. rewrite Er in Hr.
    unfold poly_nest_ok in N. rewrite Er in N. destruct N as [_ [V2 V3]].
    destruct Hr as [<-|Hr]; [apply (V2 h w Hh On) | apply (V3 r h w Hr Hh On)]; split; assumption.
  - rewrite (in_poly_off y shell holes w Er (proj1 (poly_boundary_false y w) B)) in H. apply andb_true_iff in H.
    destruct H as [_ H]. rewrite forallb_forall in H. specialize (H h Hh). rewrite Sp in H. discriminate.
Qed.

Lemma ix_xy_polygon_complete p y :
  poly_rings_closed y = true -> poly_rings_wf y = true -> poly_nest_ok y ->
  in_poly y p = true -> ix_xy_polygon p y = true.
Proof.
  unfold poly_rings_closed, poly_rings_wf, ix_xy_polygon. intros C W N H.
  destruct (poly_rings y) as [|shell holes] eqn:Er; [rewrite (in_poly_nil y p Er) in H; discriminate|].
  rewrite forallb_forall in C, W.
  assert (Side := fun r Hr => ring_side_spec r p (C r Hr) (W r Hr)).
  assert (Holes : forallb (fun h => negb (side_is_interior (relate_point_to_ring p (line_pts h)))) holes = true).
  { apply forallb_forall. intros h Hh. rewrite (Side h (or_intror Hh)).
    pose proof (in_poly_not_in_hole y shell holes p h Er N H Hh) as K. unfold strictly_in in K.
    destruct (on_edges (line_segs h) p); [reflexivity|].
    destruct (edges_parity (line_segs h) p); [exfalso; apply K; auto | reflexivity]. }
  rewrite (Side shell (or_introl eq_refl)).
  destruct (in_poly_shell y shell holes p Er N H) as [On|[Off Par]]; [rewrite On | rewrite Off, Par]; exact Holes.
Qed.

(* off the boundary no nesting hypothesis is needed *)
Lemma ix_xy_polygon_complete_off p y :
  poly_rings_closed y = true -> poly_rings_wf y = true ->
  poly_boundary y p = false -> in_poly y p = true -> ix_xy_polygon p y = true.
Proof.
  unfold poly_rings_closed, poly_rings_wf, ix_xy_polygon. intros C W B H.
  destruct (poly_rings y) as [|shell holes] eqn:Er; [rewrite (in_poly_nil y p Er) in H; discriminate|].
  pose proof (proj1 (poly_boundary_false y p) B) as Off.
  rewrite (in_poly_off y shell holes p Er Off) in H. apply andb_true_iff in H. destruct H as [Hs Hh].
  rewrite forallb_forall in C, W, Hh. rewrite Er in Off.
  assert (Side : forall r, In r (shell :: holes) ->
            relate_point_to_ring p (line_pts r) = if edges_parity (line_segs r) p then SInterior else SExterior).
  { intros r Hr. rewrite (ring_side_spec r p (C r Hr) (W r Hr)), (Off r Hr). reflexivity. }
  rewrite (Side shell (or_introl eq_refl)), Hs. cbn [side_is_exterior].
  apply forallb_forall. intros h Hh'. rewrite (Side h (or_intror Hh')). specialize (Hh h Hh').
  destruct (edges_parity (line_segs h) p); [discriminate | reflexivity].
Qed.

(* ================================================================ line string against polygon: complete *)
Lemma on_seg_sub a b w z : on_seg (a, b) w = true -> on_seg (a, w) z = true -> on_seg (a, b) z = true.
Proof.
  intros Hw Hz. apply on_seg_iff in Hw. apply on_seg_iff in Hz. apply on_seg_iff.
  destruct Hw as [t [[T0 T1] [Hx Hy]]]. destruct Hz as [s [[S0 S1] [Hx' Hy']]].
  exists (s * t). unfold seg_param. split; [split; nra|]. split.
  - rewrite Hx', Hx. ring.
  - rewrite Hy', Hy. ring.
Qed.

Lemma avoids_sub R a b w : avoids R (a, b) -> on_seg (a, b) w = true -> avoids R (a, w).
Proof.
  intros H Hw e He z [H1 H2]. apply (H e He z). split; [exact H1 | eapply on_seg_sub; eauto].
Qed.

(* walking along a vertex list whose edges all avoid the ring keeps the parity *)
Lemma walk_parity R a rest w :
  (forall u v, avoids R (u, v) -> edges_parity R u = edges_parity R v) ->
  (forall e, In e (ring_edges (a :: rest)) -> avoids R e) ->
  on_edges (ring_edges (a :: rest)) w = true ->
  edges_parity R a = edges_parity R w.
Proof.
  intros K. revert a. induction rest as [|b rest IH]; intros a Hav Hon; [discriminate|].
  change (ring_edges (a :: b :: rest)) with ((a, b) :: ring_edges (b :: rest)) in *.
  unfold on_edges in Hon. cbn [existsb] in Hon. apply orb_true_iff in Hon.
  assert (Hab : avoids R (a, b)) by (apply Hav; left; reflexivity).
  destruct Hon as [Hon|Hon].
  - apply K. eapply avoids_sub; eauto.
  - rewrite (K a b Hab). apply IH; [|exact Hon]. intros e He. apply Hav. right. exact He.
Qed.

Lemma walk_off R a rest w :
  (forall e, In e (ring_edges (a :: rest)) -> avoids R e) -> on_edges (ring_edges (a :: rest)) w = true ->
  on_edges R w = false /\ (rest <> [] -> on_edges R a = false).
Proof.
  intros Hav Hon. split; [exact (avoids_all_off _ _ w Hav Hon)|]. intros Hne. apply (avoids_all_off _ _ a Hav).
  destruct rest as [|b rest]; [congruence|]. change (ring_edges (a :: b :: rest)) with ((a, b) :: ring_edges (b :: rest)).
  unfold on_edges. cbn [existsb]. rewrite on_seg_left. reflexivity.
Qed.

(* membership in a polygon from the ring-wise data *)
Lemma in_poly_by_rings y p q :
  (forall r, In r (poly_rings y) -> on_edges (line_segs r) p = false /\ on_edges (line_segs r) q = false /\
                                   edges_parity (line_segs r) p = edges_parity (line_segs r) q) ->
  in_poly y p = in_poly y q /\ poly_boundary y p = false.
Proof.
  intros H. split; [|apply poly_boundary_false; intros r Hr; apply (H r Hr)].
  destruct (poly_rings y) as [|shell holes] eqn:Er; [rewrite !in_poly_nil by exact Er; reflexivity|].
  rewrite (in_poly_off y shell holes p Er), (in_poly_off y shell holes q Er);
    try (intros r Hr; rewrite Er in Hr; apply (H r Hr)).
  f_equal; [apply (H shell (or_introl eq_refl))|].
  apply forallb_ext_in. intros h Hh. f_equal. apply (H h (or_intror Hh)).
Qed.

Lemma ring_in_poly_lines y r s : In r (poly_rings y) -> In s (ls_lines r) -> In s (poly_lines y).
Proof. intros Hr Hs. unfold poly_lines, mls_lines. apply in_flat_map. eauto. Qed.

Lemma ix_mline_mpoly_complete ls ys w :
  ml_wf ls = true -> forallb poly_rings_closed ys = true -> forallb poly_rings_wf ys = true ->
  inML ls w = true -> inMY ys w = true -> ix_mline_mpoly ls ys = true.
Proof.
  intros Wl Cy Wy Hl Hy. unfold ix_mline_mpoly.
  destruct (has_intersection_between_lines (mls_lines ls) (mpoly_lines ys)) eqn:E; [reflexivity|].
  apply existsb_exists in Hl. destruct Hl as [l [Hl Hlw]]. apply existsb_exists in Hy. destruct Hy as [y [Hy Hyw]].
  unfold ml_wf in Wl. rewrite forallb_forall in Wl, Cy, Wy.
  pose proof (Wl l Hl) as Wfl. pose proof (Cy y Hy) as Cyy. pose proof (Wy y Hy) as Wyy.
  unfold poly_rings_closed in Cyy. unfold poly_rings_wf in Wyy. rewrite forallb_forall in Cyy, Wyy.
  (* no point of l is on a ring of y *)
  assert (NoMeet : forall r z, In r (poly_rings y) -> on_line l z = true -> on_edges (line_segs r) z = true -> False).
  { intros r z Hr H1 H2.
    destruct (on_line_cover l z Wfl H1) as [s [Hs Hsz]].
    destruct (ring_wf_pts r (Wyy r Hr)) as [Wr _].
    destruct (on_line_cover r z Wr H2) as [t [Ht Htz]].
    assert (X : has_intersection_between_lines (mls_lines ls) (mpoly_lines ys) = true).
    { apply hibl_iff; [apply mls_lines_nondeg | apply mpoly_lines_nondeg|].
      exists s, t, z. split; [apply in_flat_map; eauto|]. split; [|auto].
      apply in_flat_map. exists y. split; [exact Hy | eapply ring_in_poly_lines; eauto]. }
    congruence. }
  unfold pts_wf in Wfl. destruct (line_pts l) as [|a rest] eqn:Epts;
    [exfalso; unfold on_line, line_segs in Hlw; rewrite Epts in Hlw; discriminate|].
  assert (Hrest : rest <> []) by (destruct rest; [discriminate | congruence]).
  assert (Esegs : line_segs l = ring_edges (a :: rest)).
  { unfold line_segs, segs_of_pts. rewrite Epts. destruct rest as [|b rest']; [congruence | reflexivity]. }
  assert (Hon : on_edges (ring_edges (a :: rest)) w = true) by (rewrite <- Esegs; exact Hlw).
  assert (Hav : forall r, In r (poly_rings y) -> forall e, In e (ring_edges (a :: rest)) -> avoids (line_segs r) e).
  { intros r Hr e He f Hf z [H1 H2]. apply (NoMeet r z Hr).
    - unfold on_line, on_edges. rewrite Esegs. apply existsb_exists. exists e. auto.
    - unfold on_edges. apply existsb_exists. exists f. auto. }
  assert (Rings : forall r, In r (poly_rings y) ->
            on_edges (line_segs r) a = false /\ on_edges (line_segs r) w = false /\
            edges_parity (line_segs r) a = edges_parity (line_segs r) w).
  { intros r Hr. destruct (walk_off (line_segs r) a rest w (Hav r Hr) Hon) as [O1 O2].
    split; [apply O2; exact Hrest|]. split; [exact O1|].
    apply (walk_parity (line_segs r) a rest w); [|apply Hav; exact Hr | exact Hon].
    intros u v Huv. apply (path_parity (line_pts r) u v (Cyy r Hr) Huv). }
  destruct (in_poly_by_rings y a w Rings) as [Ein Bnd].
  apply existsb_exists. exists l. split; [exact Hl|].
  unfold start_xy. rewrite Epts. unfold ix_optxy_mpoly. apply existsb_exists. exists y. split; [exact Hy|].
  cbn [ix_optxy_polygon]. apply ix_xy_polygon_complete_off.
  - unfold poly_rings_closed. apply forallb_forall. exact Cyy.
  - unfold poly_rings_wf. apply forallb_forall. exact Wyy.
  - exact Bnd.
  - rewrite Ein. exact Hyw.
Qed.

(* ================================================================ the dispatch: one operand without areal parts *)
Definition polys_wf (g : geom) : bool := forallb poly_rings_wf (g_polys g).
Definition polys_nest_ok (g : geom) : Prop := forall y, In y (g_polys g) -> poly_nest_ok y.
(* everything the completeness theorem asks of an operand (all true of OGC-valid geometries) *)
Definition operand_ok (g : geom) : Prop :=
  lines_wf g = true /\ Intersects.rings_closed g = true /\ polys_wf g = true /\ polys_nest_ok g.

Lemma in_poly_pt_eq y w a : pt_eq w a -> in_poly y w = in_poly y a.
Proof.
  intros Ha. unfold in_poly, poly_boundary, poly_interior, rings_boundary, rings_interior.
  assert (On : forall es, on_edges es w = on_edges es a) by (intros es; apply on_edges_eq, Ha).
  assert (Par : forall es, edges_parity es w = edges_parity es a) by (intros es; apply edges_parity_pt_eq; exact Ha).
  f_equal.
  - apply existsb_ext_in. intros es _. apply On.
  - destruct (poly_ring_segs y) as [|sh hs]; [reflexivity|]. f_equal.
    + unfold ring_strict_in. rewrite On, Par. reflexivity.
    + apply forallb_ext_in. intros es _. unfold ring_strict_out. rewrite On, Par. reflexivity.
Qed.

Lemma ix_mpoint_mpoly_complete mp ys w :
  forallb poly_rings_closed ys = true -> forallb poly_rings_wf ys = true -> (forall y, In y ys -> poly_nest_ok y) ->
  inMP mp w = true -> inMY ys w = true -> ix_mpoint_mpoly mp ys = true.
Proof.
  intros C W N Hp Hy. apply inMP_inv in Hp. destruct Hp as [q [a [Hq [Ea Ha]]]].
  apply existsb_exists in Hy. destruct Hy as [y [Hy Hyw]].
  rewrite forallb_forall in C, W.
  unfold ix_mpoint_mpoly. apply existsb_exists. exists q. split; [exact Hq|].
  unfold ix_point_mpoly, ix_optxy_mpoly. apply existsb_exists. exists y. split; [exact Hy|].
  rewrite Ea. apply ix_xy_polygon_complete; auto. rewrite <- (in_poly_pt_eq y w a Ha). exact Hyw.
Qed.

Lemma ix_flat_complete_mixed g1 g2 w :
  is_multi g1 -> is_multi g2 -> operand_ok g1 -> operand_ok g2 -> (no_polys g1 = true \/ no_polys g2 = true) ->
  inG g1 w = true -> inG g2 w = true -> ix_flat g1 g2 = true.
Proof.
  intros M1 M2 [W1 [C1 [F1 N1]]] [W2 [C2 [F2 N2]]] Hno H1 H2.
  destruct g1 as [p|l|y|c a|c a|c a|c gs], g2 as [p'|l'|y'|c' b|c' b|c' b|c' gs'];
    cbn [is_multi] in M1, M2; try contradiction;
    try (apply (ix_flat_complete _ _ w); trivial; fail).
  - exact (ix_mpoint_mpoly_complete a b w C2 F2 N2 H1 H2).
  - exact (ix_mline_mpoly_complete a b w W1 C2 F2 H1 H2).
  - exact (ix_mpoint_mpoly_complete b a w C1 F1 N1 H2 H1).
  - exact (ix_mline_mpoly_complete b a w W2 C1 F1 H2 H1).
  - destruct Hno as [N|N]; [destruct a | destruct b]; discriminate.
Qed.

Lemma operand_ok_mleaf g l : operand_ok g -> In l (mleaves g) -> operand_ok l.
Proof.
  intros [W [C [F N]]] Hl. split; [eapply lines_wf_mleaf; eauto|]. split; [eapply rings_closed_mleaf; eauto|]. split.
  - unfold polys_wf in *. rewrite forallb_forall in *. intros y Hy. apply F. eapply g_polys_mleaf; eauto.
  - intros y Hy. apply N. eapply g_polys_mleaf; eauto.
Qed.

(* Intersects(a, b) = false implies the point sets are disjoint whenever at least one operand has
   no areal part (the other may be any polygon, multipolygon or collection) *)
Theorem intersects_complete_one_sided a b w :
  operand_ok a -> operand_ok b -> (no_polys a = true \/ no_polys b = true) ->
  inG a w = true -> inG b w = true -> intersects a b = true.
Proof.
  intros Oa Ob Hno. apply intersects_complete_of. intros la lb Hla Hlb.
  apply ix_flat_complete_mixed; eauto using mleaves_multi, operand_ok_mleaf.
  destruct Hno as [N|N]; [left | right]; eapply no_polys_mleaf; eauto.
Qed.

(* with the verified oracle: on this class of operands the model IS the decision procedure *)
Corollary intersects_eq_oracle_one_sided a b :
  operand_ok a -> operand_ok b -> (no_polys a = true \/ no_polys b = true) ->
  intersects a b = share_witness a b.
Proof.
  intros Oa Ob Hno. pose proof Oa as [_ [Ca _]]. pose proof Ob as [_ [Cb _]].
  apply eq_true_iff_eq. rewrite (share_witness_iff a b Ca Cb). split.
  - apply intersects_sound; assumption.
  - intros [p [H1 H2]]. eapply intersects_complete_one_sided; eauto.
Qed.

(* Distance = 0 exactly when Intersects, same class of operands *)
Theorem distance_zero_iff_intersects_one_sided a b :
  operand_ok a -> operand_ok b -> (no_polys a = true \/ no_polys b = true) ->
  ((exists d, dist2 a b = Some d /\ d == 0) <-> intersects a b = true).
Proof.
  intros Oa Ob Hno. apply distance_zero_iff_of. intros w. apply intersects_complete_one_sided; assumption.
Qed.

(* ---- the same, pointwise: the common point lies on a puntal or lineal member of one operand ---- *)
Definition in_lower (g : geom) (w : pt) : bool :=
  existsb (fun l => on_line l w) (g_lines g) || existsb (pt_eqb w) (g_points g).

Lemma in_lower_leaf g w :
  in_lower g w = true -> exists l, In l (mleaves g) /\ no_polys l = true /\ inG l w = true.
Proof.
  unfold in_lower. rewrite (flat_leaves g_lines (fun _ _ => eq_refl) g), (flat_leaves g_points (fun _ _ => eq_refl) g).
  rewrite !existsb_flat_map. intros H.
  assert (Ex : exists l0, In l0 (leaves g) /\
            existsb (fun l => on_line l w) (g_lines l0) || existsb (pt_eqb w) (g_points l0) = true).
  { apply orb_true_iff in H. destruct H as [H|H]; apply existsb_exists in H; destruct H as [l0 [Hl H]];
      exists l0; (split; [exact Hl|]); rewrite H; [reflexivity | apply orb_true_r]. }
  destruct Ex as [l0 [Hl H0]]. exists (as_multi l0). split; [apply in_map; exact Hl|].
  unfold no_polys. rewrite g_polys_as_multi, inG_as_multi. pose proof (leaves_not_coll g l0 Hl) as N.
  destruct l0 as [p|l|y|c ps|c ls|c ys|c gs]; cbn [g_lines g_points g_polys inG existsb orb] in *; try discriminate.
  - split; [reflexivity | exact H0].
  - rewrite !orb_false_r in H0. split; [reflexivity | exact H0].
  - rewrite existsb_flat_map in H0. split; [reflexivity | exact H0].
  - rewrite orb_false_r in H0. split; [reflexivity | exact H0].
  - exfalso. eapply N. reflexivity.
Qed.

Theorem intersects_complete_lower a b w :
  operand_ok a -> operand_ok b -> (in_lower a w = true \/ in_lower b w = true) ->
  inG a w = true -> inG b w = true -> intersects a b = true.
Proof.
  intros Oa Ob Hlow H1 H2. apply intersects_iff.
  apply inG_iff in H1. apply inG_iff in H2. destruct H1 as [la [Hla H1]], H2 as [lb [Hlb H2]].
  destruct Hlow as [Hl|Hl]; apply in_lower_leaf in Hl; destruct Hl as [l [Hl [Nl Il]]].
  - exists l, lb. split; [exact Hl|]. split; [exact Hlb|].
    apply (ix_flat_complete_mixed l lb w); eauto using mleaves_multi, operand_ok_mleaf.
  - exists la, l. split; [exact Hla|]. split; [exact Hl|].
    apply (ix_flat_complete_mixed la l w); eauto using mleaves_multi, operand_ok_mleaf.
Qed.
