(* Property C03 - the segment kernel as written in Go (geom/line.go:intersectLine,
   geom/alg_orientation.go) against the point-set meaning of closed segments (QKernel.on_seg).
   Main result: intersect_line_spec. *)
From Coq Require Import QArith Qreduction List Bool ZArith Lia Lqa Arith Setoid Morphisms.
From SF Require Import Base.QKernel Model.Validate.
Import ListNotations.
Open Scope Q_scope.

(* ------------------------------------------------------------------ the kernel as written in Go *)
Lemma orientation_orient p q s : orientation p q s = orient p q s.
Proof. unfold orientation, orient. apply qsgn_proper. unfold cross. ring. Qed.

Lemma cmp_eqb_eq a b : cmp_eqb a b = true <-> a = b.
Proof. destruct a, b; simpl; split; intros; congruence. Qed.
Lemma is_eq_iff c : is_eq c = true <-> c = Eq.
Proof. destruct c; simpl; split; intros; congruence. Qed.
Lemma is_lt_iff c : is_lt c = true <-> c = Lt.
Proof. destruct c; simpl; split; intros; congruence. Qed.

Lemma is_eq_qsgn c : is_eq (qsgn c) = Qeq_bool c 0.
Proof. apply eq_true_iff_eq. unfold qsgn. rewrite is_eq_iff, Qeq_bool_iff, <- Qeq_alt. reflexivity. Qed.

Definition common (s t : seg) (p : pt) : Prop := on_seg s p = true /\ on_seg t p = true.


Lemma cramer_zero ux uy vx vy wx wy :
  ~ ux * vy - uy * vx == 0 -> ux * wy - uy * wx == 0 -> vx * wy - vy * wx == 0 -> wx == 0 /\ wy == 0.
Proof.
  intros N H1 H2.
  assert (Kx : (ux * vy - uy * vx) * wx == 0).
  { transitivity (vx * (ux * wy - uy * wx) - ux * (vx * wy - vy * wx)); [ring|]. rewrite H1, H2. ring. }
  assert (Ky : (ux * vy - uy * vx) * wy == 0).
  { transitivity (vy * (ux * wy - uy * wx) - uy * (vx * wy - vy * wx)); [ring|]. rewrite H1, H2. ring. }
  apply Qmult_integral in Kx. apply Qmult_integral in Ky. tauto.
Qed.

(* two non-parallel lines have at most one common point *)
Lemma lines_meet_once a b c d p q :
  ~ cross a b d - cross a b c == 0 ->
  cross a b p == 0 -> cross a b q == 0 -> cross c d p == 0 -> cross c d q == 0 -> pt_eq p q.
Proof.
  destruct a as [ax ay], b as [bx by_], c as [cx cy], d as [dx dy], p as [px py], q as [qx qy].
  unfold cross, pt_eq; simpl. intros HD H1 H2 H3 H4.
  destruct (cramer_zero (bx - ax) (by_ - ay) (dx - cx) (dy - cy) (qx - px) (qy - py)) as [Ex Ey];
    [intros E; apply HD; rewrite <- E; ring | lra | lra | split; lra].
Qed.

Lemma qsgn_cases q : (qsgn q = Gt /\ 0 < q) \/ (qsgn q = Eq /\ q == 0) \/ (qsgn q = Lt /\ q < 0).
Proof.
  unfold qsgn. destruct (q ?= 0) eqn:E.
  - right; left. split; [reflexivity | apply Qeq_alt; exact E].
  - right; right. split; [reflexivity | apply Qlt_alt; exact E].
  - left. split; [reflexivity | apply Qgt_alt; exact E].
Qed.

Lemma div_range x D t : t * D == x ->
  ((0 < D /\ 0 <= x /\ x <= D) \/ (D < 0 /\ D <= x /\ x <= 0)) -> 0 <= t /\ t <= 1.
Proof. intros H [[H1 [H2 H3]]|[H1 [H2 H3]]]; split; nra. Qed.

(* x and y have different signs (as classes Lt / Eq / Gt): x / (x - y) is a parameter in [0,1] *)
Lemma param_range x y : qsgn x <> qsgn y -> ~ x - y == 0 /\ 0 <= x / (x - y) /\ x / (x - y) <= 1.
Proof.
  intros H.
  assert (HD : ~ x - y == 0).
  { intros E. apply H. assert (x == y) by lra. rewrite H0. reflexivity. }
  split; [exact HD|].
  assert (Ht : x / (x - y) * (x - y) == x) by (field; exact HD).
  apply (div_range x (x - y)); [exact Ht|].
  destruct (qsgn_cases x) as [[Ex Hx]|[[Ex Hx]|[Ex Hx]]]; destruct (qsgn_cases y) as [[Ey Hy]|[[Ey Hy]|[Ey Hy]]];
    try (exfalso; apply H; congruence); first [left; lra | right; lra].
Qed.

Lemma on_seg_eq s p q : pt_eq p q -> on_seg s p = on_seg s q.
Proof. destruct s as [a b]. intros H. apply on_seg_proper; try reflexivity; exact H. Qed.

Lemma common_eq s t p q : pt_eq p q -> common s t p -> common s t q.
Proof. intros E [H1 H2]. split; [rewrite <- (on_seg_eq s p q E) | rewrite <- (on_seg_eq t p q E)]; assumption. Qed.

(* case "o1 <> o2 && o3 <> o4" of intersectLine: the segments meet in exactly one point *)
Lemma crossing_case a b c d :
  ~ pt_eq a b -> ~ pt_eq c d ->
  qsgn (cross a b c) <> qsgn (cross a b d) -> qsgn (cross c d a) <> qsgn (cross c d b) ->
  let M := lerp a b (cross c d a / (cross c d a - cross c d b)) in
  common (a, b) (c, d) M /\
  (forall p, cross a b p == 0 -> cross c d p == 0 -> pt_eq p M).
Proof.
  intros Hab Hcd H12 H34 M.
  destruct (param_range _ _ H34) as [HD [T0 T1]].
  destruct (param_range _ _ H12) as [HD' [U0 U1]].
  assert (Hss : seg_seg (a, b) (c, d) = SSPoint M).
  { unfold seg_seg. rewrite (proj2 (pt_eqb_false_iff _ _) Hab), (proj2 (pt_eqb_false_iff _ _) Hcd). cbv zeta.
    assert (E : Qeq_bool (cross c d a - cross c d b) 0 = false) by (apply Qeq_bool_false_iff; exact HD).
    rewrite E.
    assert (Eu : - cross a b c / (cross c d a - cross c d b) == cross a b c / (cross a b c - cross a b d)).
    { rewrite den_identity. field. split; [exact HD'|]. intros K. apply HD'. lra. }
    apply Qle_bool_iff in T0, T1. rewrite T0, T1. simpl.
    rewrite Eu. apply Qle_bool_iff in U0, U1. rewrite U0, U1. reflexivity. }
  assert (Hc : common (a, b) (c, d) M).
  { apply seg_seg_sound. rewrite Hss. simpl. auto. }
  split; [exact Hc|].
  intros p H1 H2. destruct Hc as [C1 C2].
  apply (lines_meet_once a b c d).
  - rewrite <- den_identity. exact HD.
  - exact H1.
  - apply on_seg_cross; exact C1.
  - exact H2.
  - apply on_seg_cross; exact C2.
Qed.

(* the point computed by the general branch of intersectLine is the meeting point *)
Lemma go_point_eq a b c d :
  let e := (snd c - snd d) * (fst a - fst c) + (fst d - fst c) * (snd a - snd c) in
  let f := (fst d - fst c) * (snd a - snd b) - (fst a - fst b) * (snd d - snd c) in
  ~ cross c d a - cross c d b == 0 ->
  pt_eq (Qred ((fst b - fst a) * (e / f) + fst a), Qred ((snd b - snd a) * (e / f) + snd a))
        (lerp a b (cross c d a / (cross c d a - cross c d b))).
Proof.
  intros e f HD.
  assert (Ee : e == cross c d a) by (unfold e, cross; ring).
  assert (Ef : f == cross c d a - cross c d b) by (unfold f, cross; ring).
  unfold pt_eq, lerp; cbn [fst snd]. rewrite !Qred_correct. rewrite Ee, Ef. split; ring.
Qed.


Lemma xy_gt_lex best p : xy_gt best p = true <-> ~ pt_le p best.
Proof. unfold xy_gt, pt_le. rewrite orb_true_iff, andb_true_iff, !qltb_iff, Qeq_bool_iff. lra. Qed.
Lemma xy_less_lex p best : xy_less p best = true <-> ~ pt_le best p.
Proof.
  unfold xy_less, pt_le.
  destruct (Qeq_bool (fst p) (fst best)) eqn:E; [apply Qeq_bool_iff in E | apply Qeq_bool_false_iff in E]; rewrite qltb_iff; lra.
Qed.

(* ---- points of one line, ordered by a coordinate ---- *)
Definition lkey (a b p : pt) : Q := if Qeq_bool (fst a) (fst b) then snd p else fst p.

Section Line.
  Variables a b : pt.
  Hypothesis Hab : ~ pt_eq a b.
  Definition OnL (p : pt) : Prop := cross a b p == 0.

  Lemma vertical_x p : fst a == fst b -> OnL p -> fst p == fst a.
  Proof.
    unfold OnL, cross, pt_eq in *. destruct a as [ax ay], b as [bx by_], p as [px py]. cbn [fst snd] in *.
    intros E H.
    assert (Z0 : (bx - ax) * (py - ay) == 0) by (setoid_replace (bx - ax) with 0 by lra; ring).
    assert (K : (by_ - ay) * (px - ax) == 0) by lra.
    apply Qmult_integral in K. destruct K as [K|K]; [|lra].
    exfalso. apply Hab. split; lra.
  Qed.
  Lemma nonvertical_y p q : ~ fst a == fst b -> OnL p -> OnL q -> fst p == fst q -> snd p == snd q.
  Proof.
    unfold OnL, cross in *. destruct a as [ax ay], b as [bx by_], p as [px py], q as [qx qy]. cbn [fst snd] in *.
    intros N H1 H2 E.
    assert (K : (bx - ax) * (py - qy) == 0).
    { transitivity (((bx - ax) * (py - ay) - (by_ - ay) * (px - ax)) - ((bx - ax) * (qy - ay) - (by_ - ay) * (qx - ax))
                    + (by_ - ay) * (px - qx)); [ring|]. rewrite H1, H2, E. ring. }
    apply Qmult_integral in K. destruct K as [K|K]; lra.
  Qed.

  Lemma lkey_eq p q : OnL p -> OnL q -> (pt_eq p q <-> lkey a b p == lkey a b q).
  Proof.
    intros Hp Hq. unfold lkey. destruct (Qeq_bool (fst a) (fst b)) eqn:E.
    - apply Qeq_bool_iff in E. split; [intros [_ H]; exact H|].
      intros H. split; [|exact H]. rewrite (vertical_x p E Hp), (vertical_x q E Hq). reflexivity.
    - apply Qeq_bool_false_iff in E. split; [intros [H _]; exact H|].
      intros H. split; [exact H|]. apply nonvertical_y; assumption.
  Qed.


  Lemma pt_le_key x y : OnL x -> OnL y -> (pt_le x y <-> lkey a b x <= lkey a b y).
  Proof.
    intros Hx Hy. unfold pt_le, lkey. destruct (Qeq_bool (fst a) (fst b)) eqn:E.
    - apply Qeq_bool_iff in E. pose proof (vertical_x _ E Hx). pose proof (vertical_x _ E Hy). lra.
    - apply Qeq_bool_false_iff in E. split; [lra|]. intros K.
      destruct (Qlt_le_dec (fst x) (fst y)) as [L|L]; [left; exact L|]. right.
      assert (F : fst x == fst y) by lra. pose proof (nonvertical_y x y E Hx Hy F). lra.
  Qed.
  Lemma xy_gt_key best p : OnL best -> OnL p -> xy_gt best p = qltb (lkey a b best) (lkey a b p).
  Proof. intros Hb Hp. apply eq_true_iff_eq. rewrite xy_gt_lex, qltb_iff, (pt_le_key p best Hp Hb). lra. Qed.
  Lemma xy_less_key p best : OnL best -> OnL p -> xy_less p best = qltb (lkey a b p) (lkey a b best).
  Proof. intros Hb Hp. apply eq_true_iff_eq. rewrite xy_less_lex, qltb_iff, (pt_le_key best p Hb Hp). lra. Qed.

  (* three points of the line are collinear *)
  Lemma three_on_line p q r : OnL p -> OnL q -> OnL r -> cross p q r == 0.
  Proof.
    unfold OnL, cross, pt_eq in *.
    destruct a as [ax ay], b as [bx by_], p as [px py], q as [qx qy], r as [rx ry].
    cbn [fst snd] in *. intros H1 H2 H3.
    apply (parallel_zero (bx - ax) (by_ - ay)); [intros [E1 E2]; apply Hab; split; lra | lra | lra].
  Qed.

  (* membership in a segment of the line is betweenness of keys *)
  Lemma lkey_on_seg p q r : OnL p -> OnL q -> OnL r ->
    (on_seg (p, q) r = true <->
     (lkey a b p <= lkey a b r /\ lkey a b r <= lkey a b q) \/ (lkey a b q <= lkey a b r /\ lkey a b r <= lkey a b p)).
  Proof.
    intros Hp Hq Hr. split.
    - intros H. destruct (on_seg_lex p q r H) as [L1 L2].
      destruct (pt_min_cases p q) as [[E1 _]|[E1 _]]; destruct (pt_max_cases p q) as [[E2 _]|[E2 _]];
        rewrite E1 in L1; rewrite E2 in L2; apply pt_le_key in L1, L2; try assumption; lra.
    - intros [[H1 H2]|[H1 H2]]; apply pt_le_key in H1, H2; try assumption;
        apply collinear_between_on_seg; try (apply three_on_line; assumption).
      + exact (pt_le_trans _ _ _ (pt_min_le_l p q) H1).
      + exact (pt_le_trans _ _ _ H2 (pt_max_ge_r p q)).
      + exact (pt_le_trans _ _ _ (pt_min_le_r p q) H1).
      + exact (pt_le_trans _ _ _ H2 (pt_max_ge_l p q)).
  Qed.

  Lemma bb_on_seg p q r : OnL p -> OnL q -> OnL r -> on_segment_bb p q r = on_seg (p, q) r.
  Proof.
    intros Hp Hq Hr. unfold on_seg, on_segment_bb.
    assert (E : Qeq_bool (cross p q r) 0 = true) by (apply Qeq_bool_iff; apply three_on_line; assumption).
    rewrite E. rewrite andb_true_r. reflexivity.
  Qed.
End Line.

Lemma qltb_spec x y : BoolSpec (x < y) (y <= x) (qltb x y).
Proof. destruct (qltb x y) eqn:E; constructor; [apply qltb_iff | apply qltb_false_iff]; exact E. Qed.

(* the comparison of keys that the goal branches on first, as an inequality *)
Ltac key_cases :=
  match goal with |- context [if qltb ?x ?y then _ else _] => destruct (qltb_spec x y) end.

Definition btw (x y z : Q) : Prop := (x <= z /\ z <= y) \/ (y <= z /\ z <= x).

(* In terms of keys the two segments are intervals.  Of four numbers that are the ends of two
   overlapping intervals the two that remain when a greatest and then a least is removed are the
   ends of the common part. *)
Lemma collinear_case a b c d :
  ~ pt_eq a b -> cross a b c == 0 -> cross a b d == 0 ->
  match collinear_intersection a b c d with
  | ILEmpty => forall p, ~ common (a, b) (c, d) p
  | ILSome x y => common (a, b) (c, d) x /\ common (a, b) (c, d) y
                  /\ (pt_eq x y -> forall p, common (a, b) (c, d) p -> pt_eq p x)
  end.
Proof.
  intros Hab Lc Ld. change (OnL a b c) in Lc. change (OnL a b d) in Ld.
  pose proof (cross_self_l a b : OnL a b a) as La. pose proof (cross_self_r a b : OnL a b b) as Lb.
  assert (Kcommon : forall p, common (a, b) (c, d) p <->
            OnL a b p /\ btw (lkey a b a) (lkey a b b) (lkey a b p) /\ btw (lkey a b c) (lkey a b d) (lkey a b p)).
  { intros p. split.
    - intros [P1 P2]. pose proof (on_seg_cross a b p P1 : OnL a b p) as Lp.
      split; [exact Lp|]. split; apply (lkey_on_seg a b Hab); assumption.
    - intros [Lp [P1 P2]]. split; apply (lkey_on_seg a b Hab); assumption. }
  assert (Kpair : forall x y, OnL a b x -> OnL a b y ->
            (forall k, btw (lkey a b a) (lkey a b b) k /\ btw (lkey a b c) (lkey a b d) k <->
                       btw (lkey a b x) (lkey a b y) k) ->
            common (a, b) (c, d) x /\ common (a, b) (c, d) y
            /\ (pt_eq x y -> forall p, common (a, b) (c, d) p -> pt_eq p x)).
  { intros x y Lx Ly K. split; [|split].
    - apply Kcommon. split; [exact Lx|]. apply K. unfold btw. lra.
    - apply Kcommon. split; [exact Ly|]. apply K. unfold btw. lra.
    - intros Exy p Hp. apply Kcommon in Hp. destruct Hp as [Lp Hp]. apply K in Hp.
      apply (lkey_eq a b Hab) in Exy; [|assumption..]. apply (lkey_eq a b Hab); [assumption..|].
      unfold btw in Hp. lra. }
  unfold collinear_intersection.
  rewrite !(bb_on_seg a b Hab) by assumption. rewrite <- !negb_orb.
  destruct (on_seg (a, b) c || on_seg (a, b) d || on_seg (c, d) a || on_seg (c, d) b) eqn:E; cbn [negb].
  - rewrite !orb_true_iff, !(lkey_on_seg a b Hab) in E by assumption.
    cbn [rightmost_then_highest_index rth_from]. rewrite !(xy_gt_key a b Hab) by assumption.
    repeat key_cases.
    all: cbn [remove_nth leftmost_then_lowest_index ltl_from]; rewrite !(xy_less_key a b Hab) by assumption.
    all: repeat key_cases.
    all: cbn [remove_nth]; apply Kpair; [assumption..|].
    all: intros k; unfold btw; lra.
  - rewrite !orb_false_iff, <- !not_true_iff_false, !(lkey_on_seg a b Hab) in E by assumption.
    intros p Hp. apply Kcommon in Hp. unfold btw in Hp. lra.
Qed.

Lemma same_side_no_common a b c d p :
  (0 < cross a b c /\ 0 < cross a b d) \/ (cross a b c < 0 /\ cross a b d < 0) ->
  on_seg (a, b) p = true -> on_seg (c, d) p = true -> False.
Proof.
  intros H S1 S2. apply on_seg_cross in S1. apply on_seg_iff in S2.
  destruct S2 as [u [[U0 U1] [Hx Hy]]].
  pose proof (cross_along a b c d p u Hx Hy) as K. rewrite S1 in K.
  destruct H as [[X Y]|[X Y]]; nra.
Qed.

Lemma qsgn_eq_cases x y : qsgn x = qsgn y ->
  (x == 0 /\ y == 0) \/ (0 < x /\ 0 < y) \/ (x < 0 /\ y < 0).
Proof.
  intros H. destruct (qsgn_cases x) as [[Ex Hx]|[[Ex Hx]|[Ex Hx]]]; destruct (qsgn_cases y) as [[Ey Hy]|[[Ey Hy]|[Ey Hy]]];
    try congruence; auto.
Qed.

Definition il_spec (s t : seg) (r : il) : Prop :=
  match r with
  | ILEmpty => forall p, ~ common s t p
  | ILSome x y => common s t x /\ common s t y /\ (pt_eq x y -> forall p, common s t p -> pt_eq p x)
  end.

(* geom/line.go:intersectLine computes the intersection of the two closed segments: empty iff they
   have no common point; both reported points are common points; when the two reported points
   coincide it is the only common point *)
Theorem intersect_line_spec a b c d :
  ~ pt_eq a b -> ~ pt_eq c d -> il_spec (a, b) (c, d) (intersect_line (a, b) (c, d)).
Proof.
  intros Hab Hcd. unfold intersect_line. rewrite !orientation_orient. unfold orient.
  set (d1 := cross a b c). set (d2 := cross a b d). set (d3 := cross c d a). set (d4 := cross c d b).
  rewrite !is_eq_qsgn.
  destruct (negb (cmp_eqb (qsgn d1) (qsgn d2)) && negb (cmp_eqb (qsgn d3) (qsgn d4))) eqn:EA.
  - (* the segments cross or touch in one point *)
    apply andb_true_iff in EA. destruct EA as [E12 E34].
    apply negb_true_iff in E12, E34.
    assert (H12 : qsgn d1 <> qsgn d2) by (intros K; apply cmp_eqb_eq in K; congruence).
    assert (H34 : qsgn d3 <> qsgn d4) by (intros K; apply cmp_eqb_eq in K; congruence).
    destruct (crossing_case a b c d Hab Hcd H12 H34) as [CM UM].
    set (M := lerp a b (cross c d a / (cross c d a - cross c d b))) in *.
    assert (Hpt : forall x, pt_eq x M -> il_spec (a, b) (c, d) (ILSome x x)).
    { intros x Ex. assert (Cx : common (a, b) (c, d) x) by (apply (common_eq _ _ M x); [symmetry; exact Ex | exact CM]).
      simpl. split; [exact Cx|]. split; [exact Cx|]. intros _ p [P1 P2].
      rewrite Ex. apply UM; apply on_seg_cross; assumption. }
    destruct (Qeq_bool d1 0) eqn:Z1.
    { apply Hpt. apply UM; [apply Qeq_bool_iff; exact Z1 | apply cross_self_l]. }
    destruct (Qeq_bool d2 0) eqn:Z2.
    { apply Hpt. apply UM; [apply Qeq_bool_iff; exact Z2 | apply cross_self_r]. }
    destruct (Qeq_bool d3 0) eqn:Z3.
    { apply Hpt. apply UM; [apply cross_self_l | apply Qeq_bool_iff; exact Z3]. }
    destruct (Qeq_bool d4 0) eqn:Z4.
    { apply Hpt. apply UM; [apply cross_self_r | apply Qeq_bool_iff; exact Z4]. }
    apply Hpt. apply go_point_eq.
    destruct (param_range _ _ H34) as [HD _]. exact HD.
  - destruct (Qeq_bool d1 0 && Qeq_bool d2 0) eqn:EB.
    + (* four collinear end points *)
      apply andb_true_iff in EB. destruct EB as [E1 E2]. apply Qeq_bool_iff in E1, E2.
      exact (collinear_case a b c d Hab E1 E2).
    + (* no common point *)
      simpl. intros p [P1 P2].
      destruct (cmp_eqb (qsgn d1) (qsgn d2)) eqn:E12.
      * apply cmp_eqb_eq in E12. destruct (qsgn_eq_cases _ _ E12) as [[X Y]|S].
        -- apply Qeq_bool_iff in X, Y. rewrite X, Y in EB. discriminate.
        -- exact (same_side_no_common a b c d p S P1 P2).
      * destruct (cmp_eqb (qsgn d3) (qsgn d4)) eqn:E34; [|simpl in EA; discriminate].
        apply cmp_eqb_eq in E34. destruct (qsgn_eq_cases _ _ E34) as [[X Y]|S].
        -- (* a, b on the line c d: then c, d on the line a b *)
           destruct (collinear_swap a b c d Hcd X Y) as [K1 K2].
           apply Qeq_bool_iff in K1, K2. fold d1 in K1. fold d2 in K2. rewrite K1, K2 in EB. discriminate.
        -- exact (same_side_no_common c d a b p S P2 P1).
Qed.


Definition il_pt (r : il) : bool := match r with ILSome a b => pt_eqb a b | ILEmpty => false end.
Definition il_ls (r : il) : bool := match r with ILSome a b => negb (pt_eqb a b) | ILEmpty => false end.

Lemma common_sym s t p : common s t p -> common t s p.
Proof. intros [H1 H2]. split; assumption. Qed.

Lemma il_kind_sym s t : ~ pt_eq (fst s) (snd s) -> ~ pt_eq (fst t) (snd t) ->
  il_pt (intersect_line s t) = il_pt (intersect_line t s) /\ il_ls (intersect_line s t) = il_ls (intersect_line t s).
Proof.
  destruct s as [a b], t as [c d]. cbn [fst snd]. intros Ns Nt.
  pose proof (intersect_line_spec a b c d Ns Nt) as S1. pose proof (intersect_line_spec c d a b Nt Ns) as S2.
  destruct (intersect_line (a, b) (c, d)) as [|x y]; destruct (intersect_line (c, d) (a, b)) as [|x' y']; cbn [il_spec] in S1, S2; cbn [il_pt il_ls].
  - split; reflexivity.
  - exfalso. destruct S2 as [C _]. exact (S1 x' (common_sym _ _ _ C)).
  - exfalso. destruct S1 as [C _]. exact (S2 x (common_sym _ _ _ C)).
  - destruct S1 as [Cx [Cy U1]]. destruct S2 as [Cx' [Cy' U2]].
    assert (E : pt_eqb x y = pt_eqb x' y').
    { apply eq_true_iff_eq. rewrite !pt_eqb_iff. split; intros E.
      - rewrite (U1 E x' (common_sym _ _ _ Cx')), (U1 E y' (common_sym _ _ _ Cy')). reflexivity.
      - rewrite (U2 E x (common_sym _ _ _ Cx)), (U2 E y (common_sym _ _ _ Cy)). reflexivity. }
    rewrite E. split; reflexivity.
Qed.
