(* Property C11 - proofs about rescaled populations (Model/RTreeScale.v):
   (A) the order-generalised statements prio_ok_rel / nearest_ok_rel coincide with prio_ok /
       nearest_ok for the exact order and are monotone in the order, so the statement evaluated with
       "true distance OR rounded float64 key" is implied by the property's statement;
   (B) every modelled function commutes with scaling all boxes by a positive factor. *)
From Coq Require Import ZArith List Bool Arith Lia Permutation.
From SF Require Import Base.GeomAST Base.Outcome Model.RTree Model.RTreeHeap Model.RTreeScale Proofs.RTree_proofs
     Proofs.RTree_qp_proofs Proofs.RTree_prio_proofs.
Import ListNotations.
Open Scope Z_scope.

Lemma sorted_by_pairwise f l : sorted_by f l = pairwise (fun x y => f x <=? f y) l.
Proof.
  apply eq_true_iff_eq. induction l as [|x r IH].
  - simpl. tauto.
  - rewrite sorted_by_cons. cbn [pairwise]. rewrite andb_true_iff. rewrite IH. tauto.
Qed.

Lemma prio_ok_rel_exact_lemma q items cb visits ret :
  prio_ok_rel (le_dist q) items cb visits ret = prio_ok items q cb visits ret.
Proof.
  unfold prio_ok_rel, prio_ok. destruct (ms_diff items visits) as [rest|]; [|reflexivity].
  rewrite (sorted_by_pairwise (fun it => sqdist (ibox it) q)). reflexivity.
Qed.

Lemma nearest_ok_rel_exact_lemma q items r :
  nearest_ok_rel (le_dist q) items r = nearest_ok items q r.
Proof. reflexivity. Qed.

Section Weaken.
  Variables le le' : item -> item -> bool.
  Hypothesis Hle : forall x y, le x y = true -> le' x y = true.

  Lemma forallb_weaken x l : forallb (le x) l = true -> forallb (le' x) l = true.
  Proof. rewrite !forallb_forall. intros H y Hy. apply Hle, H, Hy. Qed.

  Lemma pairwise_weaken l : pairwise le l = true -> pairwise le' l = true.
  Proof.
    induction l as [|x r IH]; [reflexivity|]. cbn [pairwise]. rewrite !andb_true_iff.
    intros [H1 H2]. split; [apply forallb_weaken; exact H1|apply IH; exact H2].
  Qed.

  Lemma prio_ok_rel_weaken_lemma items cb visits ret :
    prio_ok_rel le items cb visits ret = true -> prio_ok_rel le' items cb visits ret = true.
  Proof.
    unfold prio_ok_rel. destruct (ms_diff items visits) as [rest|]; [|discriminate].
    rewrite !andb_true_iff. intros [[H1 H2] H3]. split; [split|exact H3].
    - apply pairwise_weaken; exact H1.
    - rewrite forallb_forall in *. intros v Hv. apply forallb_weaken. apply H2, Hv.
  Qed.

  Lemma nearest_ok_rel_weaken_lemma items r :
    nearest_ok_rel le items r = true -> nearest_ok_rel le' items r = true.
  Proof.
    destruct r as [x|]; [|exact (fun H => H)]. unfold nearest_ok_rel. rewrite !andb_true_iff.
    intros [H1 H2]. split; [exact H1|apply forallb_weaken; exact H2].
  Qed.
End Weaken.

Lemma le_dist_le_or q other x y : le_dist q x y = true -> le_or q other x y = true.
Proof. intros H. unfold le_or. rewrite H. apply orb_true_r. Qed.

Lemma prio_ok_implies_rounded_lemma q other items cb visits ret :
  prio_ok items q cb visits ret = true -> prio_ok_rel (le_or q other) items cb visits ret = true.
Proof. rewrite <- prio_ok_rel_exact_lemma. apply prio_ok_rel_weaken_lemma, le_dist_le_or. Qed.

Lemma nearest_ok_implies_rounded_lemma q other items r :
  nearest_ok items q r = true -> nearest_ok_rel (le_or q other) items r = true.
Proof. rewrite <- nearest_ok_rel_exact_lemma. apply nearest_ok_rel_weaken_lemma, le_dist_le_or. Qed.

(* Every modelled function is a composition of list operations, of [bind] / [match] on partial
   results and of comparisons of ordinates; the first commute with [map], the second with [omap] /
   [option_map] (the four lemmas below), the third are invariant under a positive factor. *)
Lemma forallb_map_ext {A B} (f : B -> bool) (g : A -> bool) (h : A -> B) l :
  (forall x, In x l -> f (h x) = g x) -> forallb f (map h l) = forallb g l.
Proof. intros E. rewrite forallb_map. apply forallb_ext_in, E. Qed.
Lemma existsb_map_ext {A B} (f : B -> bool) (g : A -> bool) (h : A -> B) l :
  (forall x, In x l -> f (h x) = g x) -> existsb f (map h l) = existsb g l.
Proof. intros E. rewrite existsb_map. apply existsb_ext_in, E. Qed.
Lemma flat_map_map_comm {A A' B B'} (f : A -> list B) (f' : A' -> list B') (g : A -> A') (h : B -> B') l :
  (forall x, In x l -> f' (g x) = map h (f x)) -> flat_map f' (map g l) = map h (flat_map f l).
Proof.
  intros H. rewrite !flat_map_concat_map, concat_map, !map_map. f_equal. apply map_ext_in. exact H.
Qed.
Lemma bind_omap {A A' B B'} (a : A -> A') (g : B -> B') m m' (k : A -> outcome B) (k' : A' -> outcome B') :
  m' = omap a m -> (forall x, k' (a x) = omap g (k x)) -> bind m' k' = omap g (bind m k).
Proof. intros -> H. destruct m; [apply H|reflexivity|reflexivity]. Qed.
Lemma match_option_map {A A' B B'} (a : A -> A') (g : B -> B') m m' (k : A -> option B) (k' : A' -> option B') :
  m' = option_map a m -> (forall x, k' (a x) = option_map g (k x)) ->
  match m' with Some x => k' x | None => None end
  = option_map g (match m with Some x => k x | None => None end).
Proof. intros -> H. destruct m; [apply H|reflexivity]. Qed.

(* The queue operations look at entries only through comparisons of their keys: they commute with
   every map of entries that preserves these comparisons. *)
Section HeapMap.
  Variables (o o' : box) (g : entry -> entry).
  Hypothesis Hg : forall a b, (dkey o' (g a) <? dkey o' (g b)) = (dkey o a <? dkey o b).

  Lemma q_less_map l i j : q_less o' (map g l) i j = q_less o l i j.
  Proof.
    unfold q_less. rewrite !nth_error_map.
    destruct (nth_error l i), (nth_error l j); cbn [option_map]; try reflexivity. rewrite Hg. reflexivity.
  Qed.
  Lemma q_swap_map l i j : q_swap (map g l) i j = option_map (map g) (q_swap l i j).
  Proof.
    unfold q_swap. rewrite !nth_error_map. destruct (nth_error l i), (nth_error l j); cbn [option_map]; try reflexivity.
    rewrite eupd_lupd, !lupd_map. reflexivity.
  Qed.
  Lemma up_loop_map fuel : forall l j, up_loop o' fuel (map g l) j = option_map (map g) (up_loop o fuel l j).
  Proof.
    induction fuel as [|f IH]; intros l j; [reflexivity|]. cbn [up_loop].
    destruct (_ =? j)%nat; [reflexivity|]. rewrite q_less_map.
    destruct (q_less o l j _) as [[|]|]; try reflexivity.
    apply (match_option_map (map g)); [apply q_swap_map|intros l'; apply IH].
  Qed.
  Lemma down_loop_map fuel : forall l i n,
    down_loop o' fuel (map g l) i n = option_map (map g) (down_loop o fuel l i n).
  Proof.
    induction fuel as [|f IH]; intros l i n; [reflexivity|]. cbn [down_loop].
    destruct (n <=? _)%nat; [reflexivity|]. rewrite q_less_map.
    destruct (if (_ <? n)%nat then _ else _) as [c|]; [|reflexivity]. rewrite q_less_map.
    destruct (q_less o l _ i) as [[|]|]; try reflexivity.
    apply (match_option_map (map g)); [apply q_swap_map|intros l'; apply IH].
  Qed.
  Lemma heap_push_map l x : heap_push o' (map g l) (g x) = option_map (map g) (heap_push o l x).
  Proof.
    unfold heap_push, heap_up. change (map g l ++ [g x]) with (map g l ++ map g [x]).
    rewrite <- map_app, map_length. apply up_loop_map.
  Qed.
  Definition map_pop (r : entry * list entry) : entry * list entry := (g (fst r), map g (snd r)).
  Lemma heap_pop_go_map l : heap_pop_go o' (map g l) = option_map map_pop (heap_pop_go o l).
  Proof.
    unfold heap_pop_go, heap_down. rewrite map_length.
    apply (match_option_map (map g)); [apply q_swap_map|intros l1].
    apply (match_option_map (map g)); [apply down_loop_map|intros l2].
    rewrite nth_error_map, firstn_map. destruct (nth_error l2 _); reflexivity.
  Qed.
  Lemma enqueue_map n : forall l, enqueue o' (map g l) (map g n) = option_map (map g) (enqueue o l n).
  Proof.
    induction n as [|e r IH]; intros l; [reflexivity|]. cbn [map enqueue].
    apply (match_option_map (map g)); [apply heap_push_map|intros l'; apply IH].
  Qed.
End HeapMap.

(* Likewise quickPartition and splitBulkItems2Ways look at items only through comparisons of their
   keys and through itemsAreHorizontal. *)
Section SliceMap.
  Variable g : item -> item.
  Hypothesis Hg : forall h a b, (key h (g a) <? key h (g b)) = (key h a <? key h b).

  Lemma less_map l i j h : less (map g l) i j h = less l i j h.
  Proof.
    unfold less. rewrite !nth_error_map. destruct (nth_error l i), (nth_error l j); cbn [option_map]; try reflexivity.
    rewrite Hg. reflexivity.
  Qed.
  Lemma swap_map l i j : swap (map g l) i j = omap (map g) (swap l i j).
  Proof.
    unfold swap. rewrite !nth_error_map. destruct (nth_error l i), (nth_error l j); cbn [option_map]; try reflexivity.
    rewrite upd_lupd, !lupd_map. reflexivity.
  Qed.
  Lemma cswap_map l i j h : cswap (map g l) i j h = omap (map g) (cswap l i j h).
  Proof.
    unfold cswap. rewrite less_map. destruct (less l i j h) as [[|]| |]; try reflexivity. apply swap_map.
  Qed.
  Definition map_lj (r : list item * nat) : list item * nat := (map g (fst r), snd r).
  Lemma part_loop_map n : forall l i j right h,
    part_loop n (map g l) i j right h = omap map_lj (part_loop n l i j right h).
  Proof.
    induction n as [|n IH]; intros l i j right h; [reflexivity|]. cbn [part_loop]. rewrite less_map.
    destruct (less l i right h) as [[|]| |]; try reflexivity; cbn [bind]; [|apply IH].
    apply (bind_omap (map g)); [apply swap_map|intros l'; apply IH].
  Qed.

  Section Body.
    Variables rec rec' : list item -> nat -> nat -> nat -> Z -> outcome (list item).
    Hypothesis Hrec : forall l lf rg k st, rec' (map g l) lf rg k st = omap (map g) (rec l lf rg k st).
    Lemma qp_body_map l left right k h st :
      qp_body rec' (map g l) left right k h st = omap (map g) (qp_body rec l left right k h st).
    Proof.
      unfold qp_body. cbv zeta.
      apply (bind_omap (map g)); [destruct (_ =? right)%nat; [reflexivity|apply swap_map]|intros l1].
      apply (bind_omap map_lj); [apply part_loop_map|intros [l2 j]]. cbn [map_lj fst snd].
      apply (bind_omap (map g)); [apply swap_map|intros l3].
      destruct (j - left <? k)%nat; [apply Hrec|]. destruct (k <? j - left)%nat; [apply Hrec|reflexivity].
    Qed.
  End Body.

  Lemma qp_loop_map fuel : forall l left right k h st,
    qp_loop fuel (map g l) left right k h st = omap (map g) (qp_loop fuel l left right k h st).
  Proof.
    induction fuel as [|f IH]; intros l left right k h st; [reflexivity|]. cbn [qp_loop].
    destruct (right - left)%nat as [|[|[|d]]].
    - apply qp_body_map. intros. apply IH.
    - apply cswap_map.
    - apply (bind_omap (map g)); [apply cswap_map|intros l1]. rewrite less_map.
      destruct (less l1 (left + 2) (left + 1) h) as [[|]| |]; try reflexivity. cbn [bind].
      apply (bind_omap (map g)); [apply swap_map|intros l2; apply cswap_map].
    - apply qp_body_map. intros. apply IH.
  Qed.

  Hypothesis Hh : forall l, items_are_horizontal (map g l) = items_are_horizontal l.
  Definition map_pair (r : list item * list item) : list item * list item := (map g (fst r), map g (snd r)).
  Lemma split2_map l : split2 (map g l) = omap map_pair (split2 l).
  Proof.
    unfold split2. rewrite Hh. destruct (items_are_horizontal l) as [h| |]; try reflexivity.
    cbn [bind]. rewrite map_length.
    apply (bind_omap (map g)); [unfold quick_partition; rewrite map_length; apply qp_loop_map|intros l'].
    unfold map_pair. cbn [omap bind fst snd]. rewrite firstn_map, skipn_map. reflexivity.
  Qed.
End SliceMap.


Section Scale.
  Variable s : Z.
  Hypothesis Hs : 0 < s.

  Lemma mul_ltb a b : (s * a <? s * b) = (a <? b).
  Proof. apply eq_true_iff_eq. rewrite !Z.ltb_lt. symmetry. apply Z.mul_lt_mono_pos_l, Hs. Qed.
  Lemma mul_leb a b : (s * a <=? s * b) = (a <=? b).
  Proof. rewrite !Z.leb_antisym, mul_ltb. reflexivity. Qed.
  Lemma mul_eqb a b : (s * a =? s * b) = (a =? b).
  Proof. apply eq_true_iff_eq. rewrite !Z.eqb_eq. apply Z.mul_cancel_l. lia. Qed.

  Lemma fmin_scale a b : fmin (s * a) (s * b) = s * fmin a b.
  Proof. rewrite !fmin_spec. apply Z.mul_min_distr_nonneg_l. lia. Qed.
  Lemma fmax_scale a b : fmax (s * a) (s * b) = s * fmax a b.
  Proof. rewrite !fmax_spec. apply Z.mul_max_distr_nonneg_l. lia. Qed.

  Lemma overlap_scale a b : overlap (scale_box s a) (scale_box s b) = overlap a b.
  Proof. unfold overlap, scale_box. cbn [minx miny maxx maxy]. rewrite !Z.geb_leb, !mul_leb. reflexivity. Qed.

  Lemma combine_scale a b : combine (scale_box s a) (scale_box s b) = scale_box s (combine a b).
  Proof.
    unfold combine, scale_box. cbn [minx miny maxx maxy]. rewrite !fmin_scale, !fmax_scale. reflexivity.
  Qed.

  Lemma sqdist_scale a b : sqdist (scale_box s a) (scale_box s b) = s * s * sqdist a b.
  Proof.
    assert (E : forall x, fmax 0 (s * x) = s * fmax 0 x) by (intros x; rewrite <- fmax_scale, Z.mul_0_r; reflexivity).
    unfold sqdist, scale_box. cbn [minx miny maxx maxy].
    rewrite <- !Z.mul_sub_distr_l, !fmax_scale, !E. ring.
  Qed.
  Lemma sqdist_scale_leb a b c d :
    (sqdist (scale_box s a) (scale_box s b) <=? sqdist (scale_box s c) (scale_box s d))
    = (sqdist a b <=? sqdist c d).
  Proof. rewrite !sqdist_scale, <- !Z.mul_assoc, !mul_leb. reflexivity. Qed.
  Lemma sqdist_scale_ltb a b c d :
    (sqdist (scale_box s a) (scale_box s b) <? sqdist (scale_box s c) (scale_box s d))
    = (sqdist a b <? sqdist c d).
  Proof. rewrite !sqdist_scale, <- !Z.mul_assoc, !mul_ltb. reflexivity. Qed.

  Lemma box_eqb_scale a b : box_eqb (scale_box s a) (scale_box s b) = box_eqb a b.
  Proof. unfold box_eqb, scale_box. cbn [minx miny maxx maxy]. rewrite !mul_eqb. reflexivity. Qed.
  Lemma item_eqb_scale a b : item_eqb (scale_item s a) (scale_item s b) = item_eqb a b.
  Proof. unfold item_eqb, scale_item. cbn [ibox iid]. rewrite box_eqb_scale. reflexivity. Qed.
  Lemma inside_scale a b : inside (scale_box s a) (scale_box s b) = inside a b.
  Proof. unfold inside, scale_box. cbn [minx miny maxx maxy]. rewrite !mul_leb. reflexivity. Qed.

  Lemma ebox_scale e : ebox (scale_entry s e) = scale_box s (ebox e).
  Proof. destruct e; reflexivity. Qed.
  Lemma is_leaf_scale e : is_leaf (scale_entry s e) = is_leaf e.
  Proof. destruct e; reflexivity. Qed.

  Lemma fold_combine_scale {A A'} (bx : A -> box) (bx' : A' -> box) (g : A -> A') :
    (forall x, bx' (g x) = scale_box s (bx x)) -> forall r b0,
    fold_left (fun b x => combine b (bx' x)) (map g r) (scale_box s b0)
    = scale_box s (fold_left (fun b x => combine b (bx x)) r b0).
  Proof.
    intros H. induction r as [|x r IH]; intros b0; [reflexivity|].
    cbn [map fold_left]. rewrite H, combine_scale. apply IH.
  Qed.
  Lemma calc_bound_scale n : calc_bound (scale_node s n) = scale_box s (calc_bound n).
  Proof.
    destruct n as [|e r]; [unfold scale_box; cbn; rewrite Z.mul_0_r; reflexivity|].
    unfold scale_node. cbn [map calc_bound]. rewrite ebox_scale. apply fold_combine_scale, ebox_scale.
  Qed.

  Lemma node_shape_scale n : node_shape (scale_node s n) = node_shape n.
  Proof.
    unfold node_shape, scale_node. rewrite map_length. f_equal.
    f_equal; apply forallb_map_ext; intros e _; rewrite is_leaf_scale; reflexivity.
  Qed.

  Lemma entry_inv_scale e : entry_inv (scale_entry s e) = entry_inv e.
  Proof.
    induction e as [b id|b n IH] using entry_ind'; [reflexivity|].
    cbn [scale_entry entry_inv]. fold (scale_node s n).
    rewrite calc_bound_scale, box_eqb_scale, node_shape_scale. f_equal.
    apply forallb_map_ext, Forall_forall, IH.
  Qed.

  Lemma leaves_scale e : leaves (scale_entry s e) = map (scale_item s) (leaves e).
  Proof.
    induction e as [b id|b n IH] using entry_ind'; [reflexivity|].
    apply flat_map_map_comm, Forall_forall, IH.
  Qed.
  Lemma leaves_node_scale n : leaves_node (scale_node s n) = map (scale_item s) (leaves_node n).
  Proof. apply flat_map_map_comm. intros e _. apply leaves_scale. Qed.
  Lemma tree_leaves_scale t : tree_leaves (scale_tree s t) = map (scale_item s) (tree_leaves t).
  Proof.
    unfold tree_leaves, scale_tree. cbn [root]. destruct (root t) as [n|]; [|reflexivity].
    cbn [option_map]. apply leaves_node_scale.
  Qed.

  Lemma node_inv_scale n : node_inv (scale_node s n) = node_inv n.
  Proof.
    unfold node_inv. rewrite node_shape_scale. f_equal.
    apply forallb_map_ext. intros e _. apply entry_inv_scale.
  Qed.
  Lemma tree_inv_scale_lemma t : tree_inv (scale_tree s t) = tree_inv t.
  Proof.
    unfold tree_inv, scale_tree. cbn [root tcount]. destruct (root t) as [n|]; [|reflexivity].
    cbn [option_map]. rewrite node_inv_scale, leaves_node_scale, map_length. reflexivity.
  Qed.

  Lemma count_scale_lemma t : count (scale_tree s t) = count t.
  Proof. reflexivity. Qed.
  Lemma extent_scale_lemma t : extent (scale_tree s t) = option_map (scale_box s) (extent t).
  Proof.
    unfold extent, scale_tree. cbn [root]. destruct (root t) as [n|]; [|reflexivity].
    cbn [option_map]. fold (scale_node s n). unfold scale_node at 1. rewrite map_length.
    destruct (length n =? 0)%nat; [reflexivity|]. cbn [option_map]. rewrite calc_bound_scale. reflexivity.
  Qed.

  Definition scale_vis {A} (r : list item * A) : list item * A :=
    (map (scale_item s) (fst r), snd r).

  Lemma run_scale cb l : forall k, run cb k (map (scale_item s) l) = scale_vis (run cb k l).
  Proof.
    induction l as [|x r IH]; intros k; [reflexivity|]. cbn [map run]. cbn [scale_item iid].
    destruct (err_of (cb k (iid x))); [reflexivity|]. rewrite IH.
    destruct (run cb (S k) r) as [v res]. reflexivity.
  Qed.
  Lemma hits_scale q e : hits (scale_box s q) (scale_entry s e) = map (scale_item s) (hits q e).
  Proof.
    induction e as [b id|b n IH] using entry_ind'; cbn [scale_entry hits]; rewrite overlap_scale;
      destruct (overlap b q); try reflexivity.
    apply flat_map_map_comm, Forall_forall, IH.
  Qed.

  Lemma range_search_scale_lemma q cb t :
    range_search (scale_box s q) cb (scale_tree s t)
    = (map (scale_item s) (fst (range_search q cb t)), snd (range_search q cb t)).
  Proof.
    unfold range_search, scale_tree. cbn [root]. destruct (root t) as [n|]; [|reflexivity].
    cbn [option_map]. rewrite !rs_node_run. unfold scale_node.
    rewrite (flat_map_map_comm (hits q) _ _ (scale_item s)) by (intros e _; apply hits_scale).
    rewrite run_scale. destruct (run cb 0 (flat_map (hits q) n)) as [v r]. reflexivity.
  Qed.

  Lemma remove1_scale x l :
    remove1 (scale_item s x) (map (scale_item s) l) = option_map (map (scale_item s)) (remove1 x l).
  Proof.
    induction l as [|y r IH]; [reflexivity|]. cbn [map remove1]. rewrite item_eqb_scale.
    destruct (item_eqb x y); [reflexivity|]. rewrite IH. destruct (remove1 x r); reflexivity.
  Qed.
  Lemma ms_diff_scale v : forall l,
    ms_diff (map (scale_item s) l) (map (scale_item s) v) = option_map (map (scale_item s)) (ms_diff l v).
  Proof.
    induction v as [|x v IH]; intros l; [reflexivity|]. cbn [map ms_diff]. rewrite remove1_scale.
    destruct (remove1 x l) as [l'|]; [|reflexivity]. cbn [option_map]. apply IH.
  Qed.
  Lemma first_stop_scale cb v : forall i,
    first_stop cb i (map (scale_item s) v) = first_stop cb i v.
  Proof.
    induction v as [|x v IH]; intros i; [reflexivity|]. cbn [map first_stop]. cbn [scale_item iid].
    destruct (cb i (iid x)); try reflexivity. apply IH.
  Qed.
  Lemma filter_overlap_scale q l :
    filter (fun it => overlap (ibox it) (scale_box s q)) (map (scale_item s) l)
    = map (scale_item s) (filter (fun it => overlap (ibox it) q) l).
  Proof.
    induction l as [|x r IH]; [reflexivity|]. cbn [map filter]. cbn [scale_item ibox].
    rewrite overlap_scale. destruct (overlap (ibox x) q); cbn [map]; rewrite IH; reflexivity.
  Qed.

  Lemma range_ok_scale_lemma items q cb v ret :
    range_ok (map (scale_item s) items) (scale_box s q) cb (map (scale_item s) v) ret
    = range_ok items q cb v ret.
  Proof.
    unfold range_ok. rewrite filter_overlap_scale, ms_diff_scale, first_stop_scale.
    destruct (ms_diff (filter (fun it => overlap (ibox it) q) items) v) as [rest|]; [|reflexivity].
    cbn [option_map]. rewrite !map_length. reflexivity.
  Qed.

  Lemma sorted_by_scale q v :
    sorted_by (fun it => sqdist (ibox it) (scale_box s q)) (map (scale_item s) v)
    = sorted_by (fun it => sqdist (ibox it) q) v.
  Proof.
    induction v as [|x r IH]; [reflexivity|]. destruct r as [|y r']; [reflexivity|].
    change (map (scale_item s) (x :: y :: r')) with (scale_item s x :: scale_item s y :: map (scale_item s) r').
    change (sorted_by ?f (?a :: ?b :: ?c)) with ((f a <=? f b) && sorted_by f (b :: c)).
    cbn [scale_item ibox]. rewrite sqdist_scale_leb. f_equal. exact IH.
  Qed.

  Lemma prio_ok_scale_lemma items q cb v ret :
    prio_ok (map (scale_item s) items) (scale_box s q) cb (map (scale_item s) v) ret
    = prio_ok items q cb v ret.
  Proof.
    unfold prio_ok. rewrite ms_diff_scale, first_stop_scale, sorted_by_scale.
    destruct (ms_diff items v) as [rest|]; [|reflexivity]. cbn [option_map].
    rewrite !map_length. f_equal. f_equal.
    apply forallb_map_ext. intros x _. apply forallb_map_ext. intros u _. apply sqdist_scale_leb.
  Qed.

  Lemma nearest_ok_scale_lemma items q r :
    nearest_ok (map (scale_item s) items) (scale_box s q) (option_map (scale_item s) r)
    = nearest_ok items q r.
  Proof.
    destruct r as [x|]; cbn [option_map nearest_ok]; [|rewrite map_length; reflexivity].
    f_equal.
    - apply existsb_map_ext. intros y _. apply item_eqb_scale.
    - apply forallb_map_ext. intros y _. apply sqdist_scale_leb.
  Qed.

  Lemma extent_ok_scale_lemma items r :
    extent_ok (map (scale_item s) items) (option_map (scale_box s) r) = extent_ok items r.
  Proof.
    destruct r as [b|]; cbn [option_map extent_ok]; rewrite map_length; [|reflexivity].
    repeat apply (f_equal2 andb); [reflexivity|apply forallb_map_ext; intros it _; apply inside_scale|..];
      apply existsb_map_ext; intros it _; apply mul_eqb.
  Qed.

  Lemma dkey_scale_ltb q a b :
    (dkey (scale_box s q) (scale_entry s a) <? dkey (scale_box s q) (scale_entry s b)) = (dkey q a <? dkey q b).
  Proof. unfold dkey. rewrite !ebox_scale. apply sqdist_scale_ltb. Qed.

  Lemma psh_loop_scale q cb fuel : forall queue k,
    psh_loop (scale_box s q) cb fuel (map (scale_entry s) queue) k
    = option_map scale_vis (psh_loop q cb fuel queue k).
  Proof.
    induction fuel as [|f IH]; intros queue k; [reflexivity|]. cbn [psh_loop]. rewrite map_length.
    destruct (length queue =? 0)%nat; [reflexivity|].
    apply (match_option_map (map_pop (scale_entry s))); [apply heap_pop_go_map, dkey_scale_ltb|].
    intros [[b id|b n] rest]; cbn [map_pop scale_entry fst snd].
    - destruct (err_of (cb k id)); [reflexivity|]. rewrite IH.
      destruct (psh_loop q cb f rest (S k)) as [[v r]|]; reflexivity.
    - apply (match_option_map (map (scale_entry s))); [apply enqueue_map, dkey_scale_ltb|intros queue'; apply IH].
  Qed.
  Lemma nsize_scale_if n : Forall (fun e => esize (scale_entry s e) = esize e) n -> nsize (scale_node s n) = nsize n.
  Proof. induction 1 as [|e r He _ IH]; [reflexivity|]. cbn [scale_node map]. rewrite !nsize_cons, He. f_equal. exact IH. Qed.
  Lemma esize_scale e : esize (scale_entry s e) = esize e.
  Proof.
    induction e as [b id|b n IH] using entry_ind'; [reflexivity|]. cbn [scale_entry esize]. f_equal.
    apply nsize_scale_if, IH.
  Qed.

  Lemma priority_search_heap_scale_lemma q cb t :
    priority_search_heap (scale_box s q) cb (scale_tree s t) = option_map scale_vis (priority_search_heap q cb t).
  Proof.
    unfold priority_search_heap, scale_tree. cbn [root]. destruct (root t) as [n|]; [|reflexivity].
    cbn [option_map]. rewrite nsize_scale_if by (apply Forall_forall; intros e _; apply esize_scale).
    apply (match_option_map (map (scale_entry s))); [apply (enqueue_map q _ _ (dkey_scale_ltb q) n [])|intros queue].
    rewrite psh_loop_scale. destruct (psh_loop q cb (S (nsize n)) queue 0) as [[v r]|]; reflexivity.
  Qed.
  Lemma fold_last_scale v : forall (a : option item),
    fold_left (fun _ x => Some x) (map (scale_item s) v) (option_map (scale_item s) a)
    = option_map (scale_item s) (fold_left (fun _ x => Some x) v a).
  Proof.
    induction v as [|x r IH]; intros a; [reflexivity|]. cbn [map fold_left]. apply (IH (Some x)).
  Qed.
  Lemma nearest_heap_scale_lemma q t :
    nearest_heap (scale_tree s t) (scale_box s q) = option_map (option_map (scale_item s)) (nearest_heap t q).
  Proof.
    unfold nearest_heap. rewrite priority_search_heap_scale_lemma.
    destruct (priority_search_heap q (fun _ _ => Stop) t) as [[v r]|]; [|reflexivity].
    cbn [option_map scale_vis fst snd]. f_equal. apply (fold_last_scale v None).
  Qed.

  Lemma key_scale_ltb h a b : (key h (scale_item s a) <? key h (scale_item s b)) = (key h a <? key h b).
  Proof.
    rewrite <- (mul_ltb (key h a)). unfold key, scale_item, scale_box. cbn [ibox minx miny maxx maxy].
    destruct h; rewrite <- !Z.mul_add_distr_l; reflexivity.
  Qed.
  Lemma items_are_horizontal_scale l :
    items_are_horizontal (map (scale_item s) l) = items_are_horizontal l.
  Proof.
    destruct l as [|it r]; [reflexivity|]. cbn [map items_are_horizontal]. cbn [scale_item ibox].
    rewrite (fold_combine_scale ibox) by reflexivity. unfold scale_box. cbn [minx miny maxx maxy].
    rewrite <- !Z.mul_sub_distr_l, !Z.gtb_ltb, mul_ltb. reflexivity.
  Qed.
  Lemma split2_scale l : split2 (map (scale_item s) l) = omap (map_pair (scale_item s)) (split2 l).
  Proof. apply split2_map; [exact key_scale_ltb|exact items_are_horizontal_scale]. Qed.

  Section Node.
    Variables rec rec' : list item -> outcome node.
    Hypothesis Hrec : forall p, rec' (map (scale_item s) p) = omap (scale_node s) (rec p).
    Lemma bulk_node_scale parts :
      bulk_node rec' (map (map (scale_item s)) parts) = omap (scale_node s) (bulk_node rec parts).
    Proof.
      induction parts as [|p ps IH]; [reflexivity|]. cbn [map bulk_node].
      apply (bind_omap (scale_node s)); [apply Hrec|intros c].
      apply (bind_omap (scale_node s)); [apply IH|intros r].
      cbn [omap bind scale_node map scale_entry]. fold (scale_node s c). rewrite calc_bound_scale. reflexivity.
    Qed.
  End Node.

  Lemma bulk_insert_scale fuel : forall items,
    bulk_insert fuel (map (scale_item s) items) = omap (scale_node s) (bulk_insert fuel items).
  Proof.
    induction fuel as [|f IH]; intros items; [reflexivity|]. cbn [bulk_insert]. rewrite map_length.
    destruct (length items =? 0)%nat; [reflexivity|].
    destruct (length items <=? 4)%nat.
    { cbn [omap bind]. unfold scale_node. rewrite !map_map. reflexivity. }
    destruct (length items <=? 8)%nat.
    - apply (bind_omap (map_pair (scale_item s))); [apply split2_scale|intros [a b]].
      apply (bulk_node_scale _ _ IH [a; b]).
    - apply (bind_omap (map_pair (scale_item s))); [apply split2_scale|intros [h1 h2]]. cbn [map_pair fst snd].
      apply (bind_omap (map_pair (scale_item s))); [apply split2_scale|intros [q1 q2]].
      apply (bind_omap (map_pair (scale_item s))); [apply split2_scale|intros [q3 q4]].
      apply (bulk_node_scale _ _ IH [q1; q2; q3; q4]).
  Qed.

  Lemma bulk_load_scale_lemma items :
    bulk_load (map (scale_item s) items) = omap (scale_tree s) (bulk_load items).
  Proof.
    unfold bulk_load. rewrite map_length. destruct (length items =? 0)%nat; [reflexivity|].
    rewrite bulk_insert_scale. destruct (bulk_insert (length items) items) as [r| |]; reflexivity.
  Qed.
End Scale.
