(* Property C03 - MultiPolygon: soundness of the FAST case of checkMultiPolygonConstraints for
   members without holes: boundaries without a common point and start vertices outside one
   another => no point of Q^2 is interior to both members.  Uses the planar lemmas of property C09
   (Proofs/Intersects_polypoly.v: ring_uniform, uniform_outside, exterior_disjoint).
   NOT PROVED: members with holes, and the slow case (boundaries meeting at points; the midpoint
   probes of validatePolyNotInsidePoly skip intersection-free segments). *)
From Coq Require Import QArith Qreduction List Bool ZArith Lia Lqa Arith Setoid Morphisms.
From SF Require Import Base.GeomAST Base.QKernel Base.Planar Base.Planar_C03 Model.Validate Model.ValidateSpec
  Proofs.Planar_proofs Proofs.Planar_slab_base Proofs.Validate_kernel Proofs.Validate_proofs Proofs.Validate_graph
  Proofs.Validate_sound Proofs.Validate_jordan Proofs.Validate_ogc Proofs.Validate_repr Proofs.Validate_sound_all
  Proofs.Intersects_areal Proofs.Intersects_polypoly.
Import ListNotations.
Open Scope Q_scope.


Lemma boundary_inter_none b1 b2 : boundary_inter b1 b2 = (false, false) ->
  forall la lb, In la b1 -> In lb b2 -> intersect_line la lb = ILEmpty.
Proof.
  rewrite boundary_inter_exists. intros H la lb Ha Hb. apply pair_equal_spec in H. destruct H as [H1 H2].
  pose proof (existsb2_false (fun la lb => il_pt (intersect_line la lb)) _ _ H1 la lb Ha Hb) as K1.
  pose proof (existsb2_false (fun la lb => il_ls (intersect_line la lb)) _ _ H2 la lb Ha Hb) as K2.
  cbv beta in K1, K2. destruct (intersect_line la lb) as [|x y]; [reflexivity|]. cbn [il_pt il_ls] in K1, K2. rewrite K1 in K2. discriminate.
Qed.

Lemma ring_wf_of_has2 ps : has_2_distinct ps = true -> ring_wf (ring_line ps) = true.
Proof.
  unfold ring_wf. rewrite line_pts_ring_line. destruct ps as [|a r]; [discriminate|]. simpl.
  intros H. apply existsb_exists in H. destruct H as [q [Hq K]]. apply existsb_exists. exists q. split; [exact Hq|].
  rewrite pt_eqb_sym. exact K.
Qed.

Lemma probe_outside (A B : list pt) a ra :
  A = a :: ra -> as_lines B = ring_edges B ->
  has_2_distinct A = true -> has_2_distinct B = true -> pts_closed B = true ->
  no_meet (segs_of_pts A) (segs_of_pts B) ->
  relate_lines a (as_lines B) false = SExterior ->
  outside (segs_of_pts A) (segs_of_pts B).
Proof.
  intros -> NB HA HB CB NM E1.
  pose proof (has2_len _ HA) as LA. pose proof (nodup_segs B (has2_len _ HB) NB) as SB.
  set (EA := segs_of_pts (a :: ra)) in *. set (EB := segs_of_pts B) in *.
  assert (Oa : on_edges EA a = true) by (apply segs_ring_edges_on; apply vertex_on_ring_edges; [exact LA | left; reflexivity]).
  assert (Oab : on_edges EB a = false).
  { apply not_true_iff_false. intros K. apply existsb_exists in Oa. apply existsb_exists in K.
    destruct Oa as [e [He H1]], K as [f [Hf H2]]. apply (NM e f a He Hf). auto. }
  assert (Pa : edges_parity EB a = false).
  { rewrite (relate_lines_closed_off B a CB Oab) in E1. fold EB in E1. destruct (edges_parity EB a); [discriminate | reflexivity]. }
  apply (uniform_outside EA EB a); [|exact Oa|exact Pa].
  assert (EAl : line_segs (ring_line (a :: ra)) = EA) by (unfold line_segs; rewrite line_pts_ring_line; reflexivity).
  assert (EBl : line_segs (ring_line B) = EB) by (unfold line_segs; rewrite line_pts_ring_line; reflexivity).
  rewrite <- EAl, <- EBl.
  apply ring_uniform; [apply ring_wf_of_has2; exact HA | rewrite line_pts_ring_line; exact CB | rewrite EAl, EBl; exact NM].
Qed.

(* two closed rings without holes whose boundaries are disjoint and whose start vertices are
   outside one another (the fast case of checkMultiPolygonConstraints) have no common interior point *)
Theorem multipolygon_fast_case_sound_lemma (A B : list pt) :
  as_lines A = ring_edges A -> as_lines B = ring_edges B ->
  has_2_distinct A = true -> has_2_distinct B = true -> pts_closed A = true -> pts_closed B = true ->
  boundary_inter (poly_lines [A]) (poly_lines [B]) = (false, false) ->
  mpoly_pair [A] [B] = None ->
  forall q, ~ (locate (g_poly [A]) q = Interior /\ locate (g_poly [B]) q = Interior).
Proof.
  intros NA NB HA HB CA CB Hbi Hv q [IA IB].
  assert (LA : (2 <= length A)%nat) by (apply has2_len; exact HA). assert (LB : (2 <= length B)%nat) by (apply has2_len; exact HB).
  pose proof (nodup_segs A LA NA) as SA. pose proof (nodup_segs B LB NB) as SB.
  assert (PA : poly_lines [A] = segs_of_pts A) by (unfold poly_lines; simpl; rewrite app_nil_r; exact SA).
  assert (PB : poly_lines [B] = segs_of_pts B) by (unfold poly_lines; simpl; rewrite app_nil_r; exact SB).
  set (EA := segs_of_pts A) in *. set (EB := segs_of_pts B) in *.
  (* the boundaries do not meet *)
  assert (NM : no_meet EA EB).
  { intros e f w He Hf [H1 H2]. rewrite PA, PB in Hbi.
    pose proof (boundary_inter_none EA EB Hbi e f He Hf) as K.
    assert (Ne : nondeg e) by (apply (as_lines_nondegenerate A e); rewrite SA; exact He).
    assert (Nf : nondeg f) by (apply (as_lines_nondegenerate B f); rewrite SB; exact Hf).
    destruct e as [a b], f as [c d]. pose proof (intersect_line_spec a b c d Ne Nf) as Sp. rewrite K in Sp. simpl in Sp.
    apply (Sp w). split; assumption. }
  (* the probes of the fast case *)
  unfold mpoly_pair in Hv. rewrite Hbi in Hv. cbn [negb] in Hv.
  destruct A as [|a ra]; [simpl in LA; lia|]. destruct B as [|b rb]; [simpl in LB; lia|].
  destruct (side_eqb (relate_lines a (poly_lines [b :: rb]) false) SExterior) eqn:E1; [|discriminate]. cbn [negb] in Hv.
  destruct (side_eqb (relate_lines b (poly_lines [a :: ra]) false) SExterior) eqn:E2; [|discriminate].
  assert (OAB : outside EA EB).
  { apply (probe_outside (a :: ra) (b :: rb) a ra eq_refl NB HA HB CB NM).
    rewrite PB, <- SB in E1. destruct (relate_lines a (as_lines (b :: rb)) false); try discriminate. reflexivity. }
  assert (OBA : outside EB EA).
  { apply (probe_outside (b :: rb) (a :: ra) b rb eq_refl NA HB HA CA (no_meet_sym _ _ NM)).
    rewrite PA, <- SA in E2. destruct (relate_lines b (as_lines (a :: ra)) false); try discriminate. reflexivity. }
  assert (KA : keeps EA) by (intros u v Hav; exact (path_parity (a :: ra) u v CA Hav)).
  assert (KB : keeps EB) by (intros u v Hav; exact (path_parity (b :: rb) u v CB Hav)).
  (* interior of a one-ring polygon = off the ring and odd parity *)
  assert (QA : edges_parity EA q = true).
  { rewrite locate_one_ring in IA. fold EA in IA. destruct (on_edges EA q); [discriminate|]. destruct (edges_parity EA q); [reflexivity | discriminate]. }
  assert (QB : edges_parity EB q = true).
  { rewrite locate_one_ring in IB. fold EB in IB. destruct (on_edges EB q); [discriminate|]. destruct (edges_parity EB q); [reflexivity | discriminate]. }
  exact (exterior_disjoint EA EB q KA KB NM OAB OBA QA QB).
Qed.
