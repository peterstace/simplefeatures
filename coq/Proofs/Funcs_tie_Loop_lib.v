(* Shared lemmas of the translator tie for functions with loops (Proofs/Funcs_tie_Loop_*.v,
   DESIGN.md A.8b): the list lookup of coq/Base/FLoop.v against [skipn] (the suffix of the sequence
   a loop has still to visit), and an invariant rule for [for_loop] / [range_loop]: a tie lemma
   about a translated loop is proved for ALL lists by giving the invariant that relates the
   accumulator variables after i iterations to the hand-written model's recursive function on the
   remaining suffix. *)
From Coq Require Import String ZArith List Lia Bool.
From SF Require Import Base.FOps Base.FLoop.
Import ListNotations.
Open Scope Z_scope.

(* ---------------------------------------------------------------- lookup *)
Lemma lookup_nat {A} (l : list A) (k : nat) : lookup l (Z.of_nat k) = nth_error l k.
Proof. unfold lookup. destruct (Z.ltb_spec (Z.of_nat k) 0); [lia|]. now rewrite Nat2Z.id. Qed.
Lemma lookup_neg {A} (l : list A) i : i < 0 -> lookup l i = None.
Proof. intro H. unfold lookup. destruct (Z.ltb_spec i 0); [reflexivity|lia]. Qed.
Lemma lookup_ge {A} (l : list A) i : Z.of_nat (length l) <= i -> lookup l i = None.
Proof.
  intro H. unfold lookup. destruct (Z.ltb_spec i 0); [reflexivity|].
  apply nth_error_None. lia.
Qed.
Lemma lookup_lt {A} (l : list A) i : 0 <= i < Z.of_nat (length l) -> exists x, lookup l i = Some x.
Proof.
  intro H. unfold lookup. destruct (Z.ltb_spec i 0); [lia|].
  destruct (nth_error l (Z.to_nat i)) eqn:E; [eauto|]. apply nth_error_None in E. lia.
Qed.
Lemma lookup_map {A B} (f : A -> B) l i : lookup (map f l) i = option_map f (lookup l i).
Proof. unfold lookup. destruct (i <? 0); [reflexivity|]. apply nth_error_map. Qed.
Lemma lookup_0 {A} (x : A) l : lookup (x :: l) 0 = Some x.
Proof. reflexivity. Qed.

(* the suffix from position i on *)
Definition suffix {A} (l : list A) (i : Z) : list A := skipn (Z.to_nat i) l.
Lemma suffix_0 {A} (l : list A) : suffix l 0 = l.
Proof. reflexivity. Qed.
Lemma suffix_lookup {A} (l : list A) i x :
  lookup l i = Some x -> suffix l i = x :: suffix l (i + 1).
Proof.
  unfold lookup, suffix. destruct (Z.ltb_spec i 0); [discriminate|]. intro E.
  replace (Z.to_nat (i + 1)) with (S (Z.to_nat i)) by lia.
  revert l E. generalize (Z.to_nat i) as k. induction k; intros [|y l] E; try discriminate.
  - injection E as ->. reflexivity.
  - cbn in E. cbn [skipn]. now apply IHk.
Qed.
Lemma suffix_cons_lookup {A} (l : list A) i x r : 0 <= i -> suffix l i = x :: r -> lookup l i = Some x /\ suffix l (i + 1) = r.
Proof.
  intros Hi. unfold lookup, suffix. destruct (Z.ltb_spec i 0); [lia|].
  replace (Z.to_nat (i + 1)) with (S (Z.to_nat i)) by lia.
  revert l. generalize (Z.to_nat i) as k. induction k; intros [|y l] E; try discriminate.
  - injection E as -> ->. split; reflexivity.
  - cbn [skipn] in E. cbn. now apply IHk.
Qed.
Lemma suffix_nil_ge {A} (l : list A) i : Z.of_nat (length l) <= i -> suffix l i = [].
Proof. intro H. unfold suffix. apply skipn_all2. lia. Qed.
Lemma suffix_length {A} (l : list A) i : 0 <= i -> Z.of_nat (length (suffix l i)) = Z.max 0 (Z.of_nat (length l) - i).
Proof. intro H. unfold suffix. rewrite skipn_length. lia. Qed.
Lemma suffix_nil_inv {A} (l : list A) i : 0 <= i -> suffix l i = [] -> Z.of_nat (length l) <= i.
Proof. intros Hi E. pose proof (suffix_length l i Hi) as H. rewrite E in H. cbn in H. lia. Qed.
Lemma suffix_single_inv {A} (l : list A) i x : 0 <= i -> suffix l i = [x] -> Z.of_nat (length l) = i + 1.
Proof. intros Hi E. pose proof (suffix_length l i Hi) as H. rewrite E in H. cbn in H. lia. Qed.
Lemma suffix_cons_lt {A} (l : list A) i x r : 0 <= i -> suffix l i = x :: r -> i < Z.of_nat (length l).
Proof. intros Hi E. pose proof (suffix_length l i Hi) as H. rewrite E in H. cbn [length] in H. lia. Qed.
Lemma suffix_cons2_lt {A} (l : list A) i x y r : 0 <= i -> suffix l i = x :: y :: r -> i + 1 < Z.of_nat (length l).
Proof. intros Hi E. pose proof (suffix_length l i Hi) as H. rewrite E in H. cbn [length] in H. lia. Qed.

Lemma list_set_app {A} (pre : list A) x r v :
  list_set (pre ++ x :: r) (Z.of_nat (length pre)) v = Some (pre ++ v :: r).
Proof.
  unfold list_set. destruct (Z.ltb_spec (Z.of_nat (length pre)) 0) as [H|H]; [lia|].
  rewrite Nat2Z.id. clear H. induction pre as [|p pre IH]; [reflexivity|].
  cbn [app length list_set_nat]. now rewrite IH.
Qed.

(* ---------------------------------------------------------------- the invariant rule *)
(* for i := a; i < b; i++: [Inv i s] holds of the state before the iteration with index i *)
Lemma for_loop_rule {S R} (cond : Z -> bool) (body : Z -> S -> step S R) (a b : Z)
      (Inv : Z -> S -> Prop) (Post : loop_res S R -> Prop) (fuel : nat) (s0 : S) :
  (forall i, cond i = (i <? b)) ->
  (Z.to_nat (b - a) <= fuel)%nat ->
  Inv a s0 ->
  (forall i s, a <= i < b -> Inv i s ->
     match body i s with
     | SNext s' => Inv (i + 1) s'
     | SBreak s' => Post (LDone s')
     | SReturn r => Post (LRet r)
     | SFail m => Post (LErr m)
     end) ->
  (forall s, Inv (Z.max a b) s -> Post (LDone s)) ->
  Post (for_loop cond body 1 fuel a s0).
Proof.
  intros Hc Hf H0 Hstep Hend.
  assert (G : forall fuel i s, a <= i <= Z.max a b -> (Z.to_nat (b - i) <= fuel)%nat -> Inv i s ->
              Post (for_loop cond body 1 fuel i s)).
  { clear fuel Hf s0 H0. induction fuel as [|k IH]; intros i s Hai Hf Hi; cbn [for_loop]; rewrite Hc.
    - destruct (Z.ltb_spec i b); [lia|]. apply Hend. replace (Z.max a b) with i by lia. exact Hi.
    - destruct (Z.ltb_spec i b) as [Hlt|Hge].
      + specialize (Hstep i s (conj (proj1 Hai) Hlt) Hi). destruct (body i s); try exact Hstep.
        apply IH; [lia|lia|exact Hstep].
      + apply Hend. replace (Z.max a b) with i by lia. exact Hi. }
  apply G; [lia|exact Hf|exact H0].
Qed.

(* for i, x := range l *)
Lemma range_loop_rule {A S R} (body : Z -> A -> S -> step S R) (l : list A)
      (Inv : list A -> S -> Prop) (Post : loop_res S R -> Prop) (s0 : S) :
  Inv l s0 ->
  (forall i x r s, Inv (x :: r) s ->
     match body i x s with
     | SNext s' => Inv r s'
     | SBreak s' => Post (LDone s')
     | SReturn v => Post (LRet v)
     | SFail m => Post (LErr m)
     end) ->
  (forall s, Inv [] s -> Post (LDone s)) ->
  forall i0, Post (range_loop body l i0 s0).
Proof.
  intros H0 Hstep Hend. revert s0 H0. induction l as [|x r IH]; intros s0 H0 i0; cbn [range_loop].
  - now apply Hend.
  - specialize (Hstep i0 x r s0 H0). destruct (body i0 x s0); try exact Hstep. now apply IH.
Qed.

(* [ga] and [gs] take the elements and the state of the model to those of the translated body *)
Lemma range_loop_fold_tie {A' A S' S R} (ga : A' -> A) (gs : S' -> S) (body : Z -> A -> S -> step S R)
      (f : S' -> A' -> S') :
  (forall i x s, body i (ga x) (gs s) = SNext (gs (f s x))) ->
  forall l i s, range_loop body (map ga l) i (gs s) = LDone (gs (fold_left f l s)).
Proof.
  intros H. induction l as [|x r IH]; intros i s; cbn [map range_loop fold_left]; [reflexivity|].
  rewrite H. apply IH.
Qed.
Lemma range_loop_fold {A S R} (g : S -> A -> S) l i s :
  range_loop (R:=R) (fun _ x s => SNext (g s x)) l i s = LDone (fold_left g l s).
Proof.
  rewrite <- (map_id l) at 1. exact (range_loop_fold_tie (fun x => x) (fun s => s) _ g (fun _ _ _ => eq_refl) l i s).
Qed.

(* a comparison of the loop header rewritten into the form  i <? b  *)
Lemma ltb_add1 i n : (i + 1 <? n) = (i <? n - 1).
Proof. destruct (Z.ltb_spec (i + 1) n), (Z.ltb_spec i (n - 1)); (reflexivity || lia). Qed.

(* the elements a loop body reads at i and i + 1 *)
Lemma suffix_one {A} (l : list A) i : 0 <= i < Z.of_nat (length l) ->
  exists x r, suffix l i = x :: r /\ lookup l i = Some x /\ suffix l (i + 1) = r.
Proof.
  intros Hi. destruct (lookup_lt l i Hi) as [x Hx]. exists x, (suffix l (i + 1)).
  split; [now apply suffix_lookup|split; [exact Hx|reflexivity]].
Qed.
Lemma suffix_two {A} (l : list A) i : 0 <= i -> i + 1 < Z.of_nat (length l) ->
  exists x y r, suffix l i = x :: y :: r /\ lookup l i = Some x /\ lookup l (i + 1) = Some y /\
                suffix l (i + 1) = y :: r.
Proof.
  intros H0 H1. destruct (suffix_one l i ltac:(lia)) as (x & r & Hs & Hx & Hr).
  destruct (suffix_one l (i + 1) ltac:(lia)) as (y & r' & Hs' & Hy & Hr').
  exists x, y, r'. rewrite Hs, <- Hr, Hs'. repeat split; assumption.
Qed.

(* [for_loop_rule] for an index loop that reads cs[i] and cs[i+1], with the invariant stated on
   the suffix still to be visited *)
Lemma for_loop_pairs_rule {A S R} (cs : list A) (cond : Z -> bool) (body : Z -> S -> step S R) (a : Z)
      (Inv : list A -> S -> Prop) (Post : loop_res S R -> Prop) (fuel : nat) (s0 : S) :
  (forall i, cond i = (i <? Z.of_nat (length cs) - 1)) ->
  (Z.to_nat (Z.of_nat (length cs) - 1 - a) <= fuel)%nat ->
  0 <= a ->
  Inv (suffix cs a) s0 ->
  (forall i s x y r, lookup cs i = Some x -> lookup cs (i + 1) = Some y -> Inv (x :: y :: r) s ->
     match body i s with
     | SNext s' => Inv (y :: r) s'
     | SBreak s' => Post (LDone s')
     | SReturn v => Post (LRet v)
     | SFail m => Post (LErr m)
     end) ->
  (forall l s, (length l <= 1)%nat -> Inv l s -> Post (LDone s)) ->
  Post (for_loop cond body 1 fuel a s0).
Proof.
  intros Hc Hf Ha H0 Hstep Hend.
  apply (for_loop_rule cond body a (Z.of_nat (length cs) - 1) (fun i s => Inv (suffix cs i) s) Post); try assumption.
  - intros i s Hi Hinv. destruct (suffix_two cs i ltac:(lia) ltac:(lia)) as (x & y & r & Hs & Hx & Hy & Hs1).
    rewrite Hs in Hinv. rewrite Hs1. exact (Hstep i s x y r Hx Hy Hinv).
  - intros s Hinv. refine (Hend _ s _ Hinv).
    apply Nat2Z.inj_le. rewrite suffix_length by lia. lia.
Qed.

(* the loops over the lines of a sequence (for i in [0, len cs): ln, ok := getLine(cs, i); ...):
   iteration 0 yields no line, iteration i > 0 reads cs[i-1] and cs[i] *)
Lemma for_loop_lines_rule {A S R} (cs : list A) (cond : Z -> bool) (body : Z -> S -> step S R)
      (Inv : list A -> S -> Prop) (Post : loop_res S R -> Prop) (fuel : nat) (s0 : S) :
  (forall i, cond i = (i <? Z.of_nat (length cs))) ->
  (Z.to_nat (Z.of_nat (length cs) - 0) <= fuel)%nat ->
  (forall s, body 0 s = SNext s) ->
  Inv cs s0 ->
  (forall i s x y r, 0 < i -> lookup cs (i - 1) = Some x -> lookup cs i = Some y -> Inv (x :: y :: r) s ->
     match body i s with
     | SNext s' => Inv (y :: r) s'
     | SBreak s' => Post (LDone s')
     | SReturn v => Post (LRet v)
     | SFail m => Post (LErr m)
     end) ->
  (forall l s, (length l <= 1)%nat -> Inv l s -> Post (LDone s)) ->
  Post (for_loop cond body 1 fuel 0 s0).
Proof.
  intros Hc Hf Hb0 H0 Hstep Hend.
  apply (for_loop_rule cond body 0 (Z.of_nat (length cs)) (fun i s => Inv (suffix cs (Z.max 0 (i - 1))) s) Post);
    try assumption.
  - intros i s Hi Hinv. destruct (Z.eq_dec i 0) as [->|Hne]; [rewrite Hb0; exact Hinv|].
    rewrite Z.max_r in Hinv by lia.
    destruct (suffix_two cs (i - 1) ltac:(lia) ltac:(lia)) as (x & y & r & Hs & Hx & Hy & Hs1).
    replace (i - 1 + 1) with i in * by lia. rewrite Hs in Hinv.
    replace (Z.max 0 (i + 1 - 1)) with i by lia. rewrite Hs1. exact (Hstep i s x y r ltac:(lia) Hx Hy Hinv).
  - intros s Hinv. refine (Hend _ s _ Hinv). apply Nat2Z.inj_le. rewrite suffix_length by lia. lia.
Qed.

(* the result of a translated function that can panic, mapped to the model's representation *)
Definition known_map {A B} (f : A -> B) (p : partial A) : partial B :=
  match p with Known v => Known (f v) | Unknown m => Unknown m end.

(* a rule applied to the loop occurring in the goal: the loop is then replaced by its three
   possible outcomes, each with the postcondition as a hypothesis *)
Ltac for_post Post rule :=
  match goal with |- context [for_loop ?cnd ?bdy 1%Z ?fu ?a0 ?st] =>
    let HP := fresh "HP" in
    assert (HP : Post (for_loop cnd bdy 1%Z fu a0 st));
    [ rule cnd bdy | destruct (for_loop cnd bdy 1%Z fu a0 st); cbv beta iota in HP ]
  end.
Ltac loop_rule a b Inv Post := for_post Post ltac:(fun cnd bdy => apply (for_loop_rule cnd bdy a b Inv Post)).
Ltac pairs_rule cs a Inv Post := for_post Post ltac:(fun cnd bdy => apply (for_loop_pairs_rule cs cnd bdy a Inv Post)).
Ltac lines_rule cs Inv Post := for_post Post ltac:(fun cnd bdy => apply (for_loop_lines_rule cs cnd bdy Inv Post)).
Ltac range_rule Inv Post :=
  match goal with |- context [range_loop ?bdy ?l ?i0 ?st] =>
    let HP := fresh "HP" in
    assert (HP : Post (range_loop bdy l i0 st));
    [ apply (range_loop_rule bdy l Inv Post)
    | destruct (range_loop bdy l i0 st); cbv beta iota in HP ]
  end.

(* the first two premises of [for_loop_rule]: the loop condition in the form  i <? b  (written
   i < b or i+1 < b+1 in the Go source) and the fuel computed by the translation covering b - a *)
Ltac loop_cond := intro; first [reflexivity | apply ltb_add1].
Ltac loop_fuel := first [apply le_n | apply Nat.eq_le_incl; f_equal; lia | lia].
