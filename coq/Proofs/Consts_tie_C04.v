(* Second tie to the source (DESIGN.md 2.5) for coq/Model/WKB.v (properties C04, C08, C16, C18):
   the WKB type-code table, the x1000 coordinates-type rule of the writer, the two switches of the
   reader and the byte-order byte, as re-read from geom/wkb_marshal.go and geom/wkb_parser.go into
   Gen/Consts.v on every run, are the ones the model computes with.  A changed table in the Go
   source makes this file fail to compile. *)
From Coq Require Import NArith ZArith List String Bool Lia.
From SF Require Import Gen.Consts Proofs.Consts_tie_lib Base.Outcome Base.Bytes Base.GeomAST Model.WKB.
Import ListNotations.
Open Scope string_scope.

(* geom/wkb_marshal.go:writeGeomType  [...]uint32{7, 1, 2, 3, 4, 5, 6}[geomType] *)
Example tie_wkb_codes : Consts.wkb_type_codes = map WKB.gcode all_gtypes.
Proof. vm_compute. reflexivity. Qed.

(* geom/wkb_marshal.go:writeByteOrder + writeGeomType: the byte-order byte, then
   uint32(ctype)*1000 + table[geomType] in that order; for every type, coordinates type and order *)
Definition order_byte (e : endian) : option N :=
  option_map Z.to_N
    (assoc_s (match e with LE => "LittleEndian" | BE => "else" end) Consts.wkb_write_byte_order).
Definition header_from_consts (e : endian) (t : gtype) (c : ctype) : option (list N) :=
  match order_byte e, Consts.wkb_ctype_multiplier,
        assoc_s (go_gtype_name t) Consts.geom_gtype_consts,
        assoc_s (go_ctype_name c) Consts.geom_ctype_consts with
  | Some b, Some k, Some ti, Some cz =>
      match nth_error Consts.wkb_type_codes (Z.to_nat ti) with
      | Some code => Some (b :: put e 4 (Z.to_N cz * Z.to_N k + code)%N)
      | None => None
      end
  | _, _, _, _ => None
  end.
Definition triples : list (endian * gtype * ctype) :=
  flat_map (fun e => flat_map (fun t => map (fun c => (e, t, c)) all_ctypes) all_gtypes) [LE; BE].
Example tie_wkb_header :
  map (fun x => let '(e, t, c) := x in header_from_consts e t c) triples =
  map (fun x => let '(e, t, c) := x in Some (WKB.header e t c)) triples.
Proof. vm_compute. reflexivity. Qed.

(* geom/wkb_parser.go:parseGeomAndCoordType  switch geomCode % 1000 {case 1: TypePoint ...} and
   switch geomCode / 1000 {case 0: DimXY ...}: the model's reader agrees with the two extracted
   switches on every geometry code 0 .. 5999 (beyond every listed case), in both byte orders *)
Definition expect_header (code : N) : option (gtype * ctype) :=
  match Consts.wkb_parse_type_modulus, Consts.wkb_parse_ctype_divisor with
  | Some m, Some d =>
      match assoc_z (Z.of_N code mod m) Consts.wkb_parse_type_cases,
            assoc_z (Z.of_N code / d) Consts.wkb_parse_ctype_cases with
      | Some tn, Some cn =>
          match gtype_of_go_name tn, ctype_of_go_name cn with
          | Some t, Some c => Some (t, c)
          | _, _ => None            (* a name the model does not know: no expectation can be met *)
          end
      | _, _ => None
      end
  | _, _ => None
  end.
Definition model_header (e : endian) (code : N) : option (gtype * ctype) :=
  match WKB.rd_header (WKB.bo_byte e :: put e 4 code, 0%N) with
  | POk (e', t, c) _ => match e, e' with LE, LE | BE, BE => Some (t, c) | _, _ => None end
  | _ => None
  end.
Definition hdr_eqb (a b : option (gtype * ctype)) : bool :=
  match a, b with
  | None, None => true
  | Some (t, c), Some (t', c') => gtype_eqb t t' && ct_eqb c c'
  | _, _ => false
  end.
(* every name in the extracted switches is one the model knows (so that [None] above means
   "the Go reader rejects the code") *)
Example tie_wkb_parse_names :
  forallb (fun kv => match gtype_of_go_name (snd kv) with Some _ => true | None => false end)
          Consts.wkb_parse_type_cases &&
  forallb (fun kv => match ctype_of_go_name (snd kv) with Some _ => true | None => false end)
          Consts.wkb_parse_ctype_cases &&
  negb (Nat.eqb (List.length Consts.wkb_parse_type_cases) 0) &&
  negb (Nat.eqb (List.length Consts.wkb_parse_ctype_cases) 0) = true.
Proof. vm_compute. reflexivity. Qed.

(* Both sides depend on the code only through code mod 1000 and code / 1000: the model's reader by
   model_header_switches, the extracted switches by expect_header_split.  So the two switches are compared
   each on its own range (switches_agree), not on every code in both byte orders. *)
Definition pair_up {A B} (a : option A) (b : option B) : option (A * B) :=
  match a, b with Some x, Some y => Some (x, y) | _, _ => None end.
Definition model_gtype (r : N) : option gtype :=
  match r with
  | 1 => Some TPoint | 2 => Some TLine | 3 => Some TPoly | 4 => Some TMPoint
  | 5 => Some TMLine | 6 => Some TMPoly | 7 => Some TColl | _ => None
  end%N.
Lemma model_header_switches e code : (code < 4294967296)%N ->
  model_header e code = pair_up (model_gtype (code mod 1000)) (ct_of_code (code / 1000)).
Proof.
  intros H.
  assert (T : take 4 (put e 4 code) = Some (put e 4 code, [])).
  { rewrite <- (app_nil_r (put e 4 code)) at 1. apply take_app, put_length. }
  assert (G : get e (put e 4 code) = code) by (apply get_put; exact H).
  unfold model_header, rd_header, pbind, rd_byte, rd_u.
  destruct e; cbn [fst snd bo_byte N.eqb Pos.eqb pret]; rewrite T, G.
  all: generalize (code mod 1000)%N (ct_of_code (code / 1000)); intros r oc.
  all: destruct r as [|p]; [destruct oc; reflexivity|];
    do 3 (destruct p as [p|p|]; try (destruct oc; reflexivity)).
Qed.

Definition expect_gtype (r : N) : option gtype :=
  match assoc_z (Z.of_N r) Consts.wkb_parse_type_cases with Some tn => gtype_of_go_name tn | None => None end.
Definition expect_ctype (q : N) : option ctype :=
  match assoc_z (Z.of_N q) Consts.wkb_parse_ctype_cases with Some cn => ctype_of_go_name cn | None => None end.
Definition oeqb {A} (eqb : A -> A -> bool) (a b : option A) : bool :=
  match a, b with Some x, Some y => eqb x y | None, None => true | _, _ => false end.
Lemma switches_agree :
  forallb (fun r => oeqb gtype_eqb (expect_gtype r) (model_gtype r)) (uptoN 1000) &&
  forallb (fun q => oeqb ct_eqb (expect_ctype q) (ct_of_code q)) (uptoN 6) = true.
Proof. vm_compute. reflexivity. Qed.

Lemma hdr_eqb_pair a a' b b' :
  oeqb gtype_eqb a a' = true -> oeqb ct_eqb b b' = true -> hdr_eqb (pair_up a b) (pair_up a' b') = true.
Proof. destruct a, a', b, b'; cbn; intros Ha Hb; try discriminate; try reflexivity. rewrite Ha. exact Hb. Qed.
Lemma expect_header_split code :
  expect_header code = pair_up (expect_gtype (code mod 1000)) (expect_ctype (code / 1000)).
Proof.
  unfold expect_header, expect_gtype, expect_ctype.
  change Consts.wkb_parse_type_modulus with (Some (Z.of_N 1000)).
  change Consts.wkb_parse_ctype_divisor with (Some (Z.of_N 1000)). cbv iota beta.
  rewrite <- N2Z.inj_mod, <- N2Z.inj_div.
  destruct (assoc_z _ Consts.wkb_parse_type_cases) as [tn|], (assoc_z _ Consts.wkb_parse_ctype_cases) as [cn|];
    try reflexivity; destruct (gtype_of_go_name tn); reflexivity.
Qed.

Example tie_wkb_parse_header :
  forallb (fun code => hdr_eqb (expect_header code) (model_header LE code) &&
                       hdr_eqb (expect_header code) (model_header BE code)) (uptoN 6000) = true.
Proof.
  destruct (andb_prop _ _ switches_agree) as [HT HC].
  apply forallb_uptoN. intros code Hc.
  rewrite !model_header_switches by (eapply N.lt_trans; [exact Hc | reflexivity]).
  rewrite expect_header_split, andb_diag.
  apply hdr_eqb_pair.
  - apply (uptoN_forallb _ _ HT). apply N.mod_lt. discriminate.
  - apply (uptoN_forallb _ _ HC). apply N.div_lt_upper_bound; [discriminate | exact Hc].
Qed.

(* geom/wkb_parser.go:parseByteOrder  switch b {case 0: big endian; case 1: little endian;
   default: error}: for every first byte 0 .. 255 *)
Definition expect_order (b : N) : option endian :=
  match assoc_z (Z.of_N b) Consts.wkb_parse_byte_order_cases with
  | Some "BigEndian" => Some BE
  | Some "LittleEndian" => Some LE
  | _ => None
  end.
Definition model_order (b : N) : option endian :=
  match expect_order b with
  | Some e =>    (* payload written in the expected order: POINT, code 1 *)
      match WKB.rd_header (b :: put e 4 1%N, 0%N) with POk (e', _, _) _ => Some e' | _ => None end
  | None =>
      match WKB.rd_header (b :: put LE 4 1%N, 0%N), WKB.rd_header (b :: put BE 4 1%N, 0%N) with
      | PErr EByteOrder _, PErr EByteOrder _ => None
      | _, _ => Some LE    (* accepted although Go rejects it: differs from [None] *)
      end
  end.
Definition endian_oeqb (a b : option endian) : bool :=
  match a, b with
  | None, None | Some LE, Some LE | Some BE, Some BE => true
  | _, _ => false
  end.
Example tie_wkb_byte_order :
  negb (Nat.eqb (List.length Consts.wkb_parse_byte_order_cases) 0) &&
  forallb (fun b => endian_oeqb (expect_order b) (model_order b)) (uptoN 256) = true.
Proof. vm_compute. reflexivity. Qed.
