(* Lemmas for property C01 (Model/SetOpSpec.v): the glue of geom/alg_set_op.go and of the final
   switch of geom/dcel_extract_geometry.go, the Boolean algebra of the reference semantics, the
   area functional, and the link between the incidence-annotated witnesses and Planar.witnesses.
   That agreement at every witness implies agreement at every point of Q^2 is proved in
   Proofs/SetOpSpec_suff_proofs.v for union and intersection of geometries with closed rings
   (judge_everywhere_lemma), for difference and symmetric difference only in closure form and off the
   skeleton; nothing is said about the float re-noding of the overlay engine. *)
From Coq Require Import QArith Qreduction Qabs List Bool ZArith NArith Lia Lqa Permutation.
From SF Require Import Base.GeomAST Base.Outcome Base.QKernel Base.Planar Proofs.Planar_proofs Proofs.Planar_slab_base
  Model.SetOpSpec.
Import ListNotations.
Open Scope Q_scope.

Lemma forallb_existsb_false {A} (e f : A -> bool) l :
  forallb e l = true -> (forall x, In x l -> e x = true -> f x = false) -> existsb f l = false.
Proof.
  rewrite forallb_forall. intros He Hf. apply not_true_is_false. intros H.
  apply existsb_exists in H as (x & Hx & Fx). rewrite (Hf x Hx (He x Hx)) in Fx. discriminate.
Qed.
Lemma existsb_map_ext {A B} (f : B -> bool) (g : A -> bool) (h : A -> B) l :
  (forall x, In x l -> f (h x) = g x) -> existsb f (map h l) = existsb g l.
Proof. intros E. rewrite existsb_map. apply existsb_ext_in, E. Qed.
Lemma forallb_map_ext {A B} (f : B -> bool) (g : A -> bool) (h : A -> B) l :
  (forall x, In x l -> f (h x) = g x) -> forallb f (map h l) = forallb g l.
Proof. intros E. rewrite forallb_map. apply forallb_ext_in, E. Qed.

Lemma point_empty_no_points q p : point_empty q = true -> in_point q p = false.
Proof. destruct q as [ct [v|]]; simpl; try discriminate. reflexivity. Qed.
Lemma line_empty_no_points l p : line_empty l = true -> on_line l p = false.
Proof. destruct l as [ct [|v vs]]; simpl; try discriminate. reflexivity. Qed.
Lemma poly_empty_no_points y p : poly_empty y = true -> in_poly y p = false.
Proof. destruct y as [ct [|r rs]]; simpl; try discriminate. reflexivity. Qed.

(* an empty geometry (Go's IsEmpty) has no points *)
Theorem empty_no_points_lemma (g : geom) p : is_empty g = true -> inG g p = false.
Proof.
  induction g using geomT_ind'; simpl; intros He.
  - apply point_empty_no_points; assumption.
  - apply line_empty_no_points; assumption.
  - apply poly_empty_no_points; assumption.
  - apply (forallb_existsb_false _ _ _ He). intros x _. apply point_empty_no_points.
  - apply (forallb_existsb_false _ _ _ He). intros x _. apply line_empty_no_points.
  - apply (forallb_existsb_false _ _ _ He). intros x _. apply poly_empty_no_points.
  - rewrite Forall_forall in H. exact (forallb_existsb_false _ _ _ He H).
Qed.

(* ForceCoordinatesType keeps X and Y: the point set is unchanged *)
Lemma vpt_force old new (v : vtx Q) : vpt (force_vtx 0 old new v) = vpt v.
Proof. reflexivity. Qed.
Lemma line_pts_force ct l : line_pts (force_line 0 ct l) = line_pts l.
Proof.
  destruct l as [old vs]. unfold line_pts. simpl. rewrite map_map. apply map_ext. intros; apply vpt_force.
Qed.
Lemma on_line_force ct l p : on_line (force_line 0 ct l) p = on_line l p.
Proof. unfold on_line, line_segs. rewrite line_pts_force. reflexivity. Qed.
Lemma in_point_force ct q p : in_point (force_point 0 ct q) p = in_point q p.
Proof. destruct q as [old [v|]]; reflexivity. Qed.
Lemma poly_ring_segs_force ct y : poly_ring_segs (force_poly 0 ct y) = poly_ring_segs y.
Proof.
  destruct y as [old rs]. unfold poly_ring_segs. simpl. rewrite map_map. apply map_ext.
  intros l. unfold line_segs. rewrite line_pts_force. reflexivity.
Qed.
Lemma in_poly_force ct y p : in_poly (force_poly 0 ct y) p = in_poly y p.
Proof. unfold in_poly, poly_boundary, poly_interior. rewrite poly_ring_segs_force. reflexivity. Qed.

Theorem inG_force_lemma ct (g : geom) p : inG (force_geom 0 ct g) p = inG g p.
Proof.
  induction g using geomT_ind'; simpl.
  - apply in_point_force.
  - apply on_line_force.
  - apply in_poly_force.
  - apply existsb_map_ext. intros; apply in_point_force.
  - apply existsb_map_ext. intros; apply on_line_force.
  - apply existsb_map_ext. intros; apply in_poly_force.
  - rewrite Forall_forall in H. apply existsb_map_ext, H.
Qed.

Lemma new_collection_eq (gs : list geom) :
  exists ct, new_collection 0 gs = GColl ct (map (force_geom 0 ct) gs).
Proof. destruct gs; eexists; reflexivity. Qed.

Lemma inG_new_collection gs p : inG (new_collection 0 gs) p = existsb (fun g => inG g p) gs.
Proof.
  destruct (new_collection_eq gs) as [ct ->]. apply existsb_map_ext. intros; apply inG_force_lemma.
Qed.
Lemma inG_new_multipoly ys p : inG (new_multipoly 0 ys) p = existsb (fun y => in_poly y p) ys.
Proof. destruct ys; [reflexivity|]. apply existsb_map_ext. intros; apply in_poly_force. Qed.
Lemma inG_new_multiline ls p : inG (new_multiline 0 ls) p = existsb (fun l => on_line l p) ls.
Proof. destruct ls; [reflexivity|]. apply existsb_map_ext. intros; apply on_line_force. Qed.
Lemma inG_new_multipoint qs p : inG (new_multipoint 0 qs) p = existsb (fun q => in_point q p) qs.
Proof. destruct qs; [reflexivity|]. apply existsb_map_ext. intros; apply in_point_force. Qed.

Section DispatchLemmas.
  Variable engine : geom -> setop -> geom -> outcome geom.

  (* the dispatch of the four binary operations, as one table *)
  Theorem dispatch_spec_lemma o a b :
    run engine o a b =
    match dispatch o (g_empty a) (g_empty b) with
    | DEmpty => Ok empty_geom
    | DUnaryA => unary_union engine a
    | DUnaryB => unary_union engine b
    | DEngine => engine a o b
    end.
  Proof.
    destruct o; unfold run, union, intersection, difference, sym_difference, dispatch;
      destruct (g_empty a), (g_empty b); reflexivity.
  Qed.

  (* the contract of the engine for union, at a point *)
  Definition engine_union_ok : Prop :=
    forall a b r, engine a OpUnion b = Ok r -> forall p, inG r p = inG a p || inG b p.

  Lemma unary_union_pointwise :
    engine_union_ok -> forall g r, unary_union engine g = Ok r -> forall p, inG r p = inG g p.
  Proof.
    intros C g r H p. unfold unary_union in H. rewrite (C _ _ _ H p). simpl. apply orb_false_r.
  Qed.

  (* with an empty operand every operation returns the plain Boolean combination of the
     memberships (the non-empty operand is a closed set, so no closure is involved) *)
  Theorem dispatch_pointwise_lemma :
    engine_union_ok ->
    forall o a b r, g_empty a || g_empty b = true -> run engine o a b = Ok r ->
    forall p, inG r p = op_bool o (inG a p) (inG b p).
  Proof.
    intros C o a b r He Hr p. rewrite dispatch_spec_lemma in Hr. unfold g_empty in *.
    assert (E : inG r p = match dispatch o (is_empty a) (is_empty b) with
                          | DEmpty => false | DUnaryA => inG a p | DUnaryB => inG b p | DEngine => inG r p
                          end).
    { destruct (dispatch o (is_empty a) (is_empty b)).
      - injection Hr as <-. reflexivity.
      - apply (unary_union_pointwise C _ _ Hr).
      - apply (unary_union_pointwise C _ _ Hr).
      - reflexivity. }
    rewrite E.
    destruct (is_empty a) eqn:Ea, (is_empty b) eqn:Eb; try discriminate He;
      rewrite ?(empty_no_points_lemma a p Ea), ?(empty_no_points_lemma b p Eb);
      destruct o, (inG a p), (inG b p); reflexivity.
  Qed.

  Theorem union_many_pointwise_lemma :
    engine_union_ok -> forall gs r, union_many engine gs = Ok r ->
    forall p, inG r p = existsb (fun g => inG g p) gs.
  Proof.
    intros C gs r H p. unfold union_many in H.
    rewrite (unary_union_pointwise C _ _ H p). apply inG_new_collection.
  Qed.
End DispatchLemmas.

Definition nonempty {A} (l : list A) : bool := match l with [] => false | _ => true end.
(* number of dimensions present *)
Definition dims_present (A : list (polyT Q)) (L : list (lineT Q)) (P : list (pointT Q)) : nat :=
  ((if nonempty A then 1 else 0) + (if nonempty L then 1 else 0) + (if nonempty P then 1 else 0))%nat.

Lemma geom_type_new_multipoly ys : geom_type (new_multipoly 0 ys) = TMPoly.
Proof. destruct ys; reflexivity. Qed.
Lemma geom_type_new_multiline ys : geom_type (new_multiline 0 ys) = TMLine.
Proof. destruct ys; reflexivity. Qed.
Lemma geom_type_new_multipoint ys : geom_type (new_multipoint 0 ys) = TMPoint.
Proof. destruct ys; reflexivity. Qed.
Lemma geom_type_new_collection ys : geom_type (new_collection 0 ys) = TColl.
Proof. destruct ys; reflexivity. Qed.

(* the default branch of the switch: no or several dimensions present *)
Lemma assemble_mixed A L P :
  dims_present A L P <> 1%nat ->
  assemble A L P = new_collection 0 (map GPoly A ++ map GLine L ++ map GPoint P).
Proof. destruct A, L, P; try reflexivity; intros H; exfalso; apply H; reflexivity. Qed.

(* with one dimension present: the single type for one member, the Multi type for more *)
Theorem assemble_single_multi_lemma A L P :
  dims_present A L P = 1%nat ->
  geom_type (assemble A L P) =
    match A, L, P with
    | [_], _, _ => TPoly | _ :: _ :: _, _, _ => TMPoly
    | [], [_], _ => TLine | [], _ :: _ :: _, _ => TMLine
    | [], [], [_] => TPoint | [], [], _ => TMPoint
    end.
Proof.
  destruct A as [|a [|a' A]]; destruct L as [|l [|l' L]]; destruct P as [|q [|q' P]]; try discriminate;
    intros _; unfold assemble;
    rewrite ?geom_type_new_multipoly, ?geom_type_new_multiline, ?geom_type_new_multipoint; reflexivity.
Qed.

(* GeometryCollection iff the number of dimensions present is not one *)
Theorem assemble_collection_iff_lemma A L P :
  geom_type (assemble A L P) = TColl <-> dims_present A L P <> 1%nat.
Proof.
  destruct (Nat.eq_dec (dims_present A L P) 1) as [E|E].
  - rewrite (assemble_single_multi_lemma A L P E). split; [|contradiction].
    destruct A as [|? [|]], L as [|? [|]], P as [|? [|]]; discriminate.
  - rewrite (assemble_mixed A L P E), geom_type_new_collection. split; auto.
Qed.

Definition members (g : geom) : list geom := match g with GColl _ gs => gs | _ => [] end.

Lemma map_repeat {A B} (f : A -> B) k l : (forall x, f x = k) -> map f l = repeat k (length l).
Proof. intros E. induction l; simpl; f_equal; auto. Qed.

Lemma geom_type_force ct (g : geom) : geom_type (force_geom 0 ct g) = geom_type g.
Proof. destruct g; reflexivity. Qed.
Lemma members_new_collection gs : map geom_type (members (new_collection 0 gs)) = map geom_type gs.
Proof.
  destruct (new_collection_eq gs) as [ct ->]. cbn [members]. rewrite map_map.
  apply map_ext. intros; apply geom_type_force.
Qed.

(* order of the members of a mixed result: areals, then lineals, then points *)
Theorem assemble_order_lemma A L P :
  dims_present A L P <> 1%nat ->
  map geom_type (members (assemble A L P)) =
  repeat TPoly (length A) ++ repeat TLine (length L) ++ repeat TPoint (length P).
Proof.
  intros H. rewrite (assemble_mixed A L P H), members_new_collection, !map_app, !map_map.
  f_equal; [|f_equal]; apply map_repeat; reflexivity.
Qed.

(* the point set of the assembled value is the union of the members' point sets *)
Theorem assemble_pointset_lemma A L P p :
  inG (assemble A L P) p =
  existsb (fun y => in_poly y p) A || existsb (fun l => on_line l p) L || existsb (fun q => in_point q p) P.
Proof.
  assert (C : inG (new_collection 0 (map GPoly A ++ map GLine L ++ map GPoint P)) p =
              existsb (fun y => in_poly y p) A || existsb (fun l => on_line l p) L || existsb (fun q => in_point q p) P).
  { rewrite inG_new_collection, !existsb_app, !existsb_map. simpl. rewrite orb_assoc. reflexivity. }
  destruct A as [|a [|a' A]]; destruct L as [|l [|l' L]]; destruct P as [|q [|q' P]];
    try exact C;
    unfold assemble; rewrite ?inG_new_multipoly, ?inG_new_multiline, ?inG_new_multipoint;
    simpl; rewrite ?orb_false_r; reflexivity.
Qed.

(* canonical shape *)
Lemma poly_empty_force ct y : poly_empty (force_poly 0 ct y) = poly_empty y.
Proof. destruct y as [o [|r rs]]; reflexivity. Qed.
Lemma line_empty_force ct y : line_empty (force_line 0 ct y) = line_empty y.
Proof. destruct y as [o [|r rs]]; reflexivity. Qed.
Lemma point_empty_force ct y : point_empty (force_point 0 ct y) = point_empty y.
Proof. destruct y as [o [v|]]; reflexivity. Qed.
Lemma member_rank_force ct (g : geom) : member_rank (force_geom 0 ct g) = member_rank g.
Proof. destruct g; reflexivity. Qed.
Lemma is_empty_force ct (g : geom) : is_empty (force_geom 0 ct g) = is_empty g.
Proof.
  induction g using geomT_ind'; simpl.
  - apply point_empty_force. - apply line_empty_force. - apply poly_empty_force.
  - apply forallb_map_ext. intros; apply point_empty_force.
  - apply forallb_map_ext. intros; apply line_empty_force.
  - apply forallb_map_ext. intros; apply poly_empty_force.
  - rewrite Forall_forall in H. apply forallb_map_ext, H.
Qed.

Lemma ranks_sorted_cons a l : ranks_sorted (a :: l) = Nat.leb a (hd a l) && ranks_sorted l.
Proof. destruct l; simpl; [rewrite Nat.leb_refl|]; reflexivity. Qed.
Lemma ranks_sorted_repeat_app k n l :
  ranks_sorted l = true -> Nat.leb k (hd k l) = true -> ranks_sorted (repeat k n ++ l) = true.
Proof.
  intros Hl Hk. induction n as [|n IH]; [exact Hl|]. cbn [repeat app].
  rewrite ranks_sorted_cons, IH, andb_true_r. destruct n; [exact Hk|apply Nat.leb_refl].
Qed.
Lemma forallb_repeat {A} (f : A -> bool) k n : f k = true -> forallb f (repeat k n) = true.
Proof. intros H. induction n; simpl; rewrite ?H; auto. Qed.
Lemma last_app_repeat {A} (l : list A) k n d : last (l ++ repeat k (S n)) d = k.
Proof. cbn [repeat]. rewrite repeat_cons, app_assoc. apply last_last. Qed.

Definition all_nonempty (A : list (polyT Q)) (L : list (lineT Q)) (P : list (pointT Q)) : bool :=
  forallb (fun y => negb (poly_empty y)) A && forallb (fun l => negb (line_empty l)) L
  && forallb (fun q => negb (point_empty q)) P.

Lemma ranks_ends a l p :
  ((if Nat.eqb a 0 then 0 else 1) + (if Nat.eqb l 0 then 0 else 1) + (if Nat.eqb p 0 then 0 else 1) <> 1)%nat ->
  let R := repeat 0%nat a ++ repeat 1%nat l ++ repeat 2%nat p in
  R = [] \/ Nat.eqb (hd 0%nat R) (last R 0%nat) = false.
Proof.
  intros H R. subst R.
  destruct a as [|a], l as [|l], p as [|p]; simpl in H; try (exfalso; apply H; reflexivity).
  - left; reflexivity.
  - right. rewrite app_assoc, last_app_repeat. reflexivity.
  - right. rewrite app_assoc, last_app_repeat. reflexivity.
  - right. simpl (repeat 2%nat 0). rewrite app_nil_r, last_app_repeat. reflexivity.
  - right. rewrite app_assoc, last_app_repeat. reflexivity.
Qed.

Lemma shape_ok_coll ct (gs : list geom) :
  gs = [] \/
  (forallb (fun k => Nat.leb k 2) (map member_rank gs) = true /\ ranks_sorted (map member_rank gs) = true /\
   forallb (fun g => negb (is_empty g)) gs = true /\
   Nat.eqb (hd 0%nat (map member_rank gs)) (last (map member_rank gs) 0%nat) = false) ->
  shape_ok (GColl ct gs) = true.
Proof.
  intros [->|(H1 & H2 & H3 & H4)]; [reflexivity|].
  destruct gs as [|g gs]; [reflexivity|]. cbn [shape_ok]. rewrite H1, H2, H3, H4. reflexivity.
Qed.

Lemma shape_ok_mixed A L P :
  all_nonempty A L P = true -> dims_present A L P <> 1%nat ->
  shape_ok (new_collection 0 (map GPoly A ++ map GLine L ++ map GPoint P)) = true.
Proof.
  unfold all_nonempty. rewrite !andb_true_iff. intros [[HA HL] HP] Hd.
  set (gs := map GPoly A ++ map GLine L ++ map GPoint P).
  assert (Erk : map member_rank gs =
                repeat 0%nat (length A) ++ repeat 1%nat (length L) ++ repeat 2%nat (length P)).
  { unfold gs. rewrite !map_app, !map_map. f_equal; [|f_equal]; apply map_repeat; reflexivity. }
  destruct (new_collection_eq gs) as [ct ->]. apply shape_ok_coll.
  rewrite map_map, (map_ext _ _ (member_rank_force ct)), Erk.
  destruct (ranks_ends (length A) (length L) (length P)) as [E|E].
  { destruct A, L, P; exact Hd. }
  - left. rewrite <- Erk in E. apply map_eq_nil in E. rewrite E. reflexivity.
  - right. split; [|split; [|split; [|exact E]]].
    + rewrite !forallb_app, !forallb_repeat by reflexivity. reflexivity.
    + apply ranks_sorted_repeat_app; [|reflexivity].
      apply ranks_sorted_repeat_app; [|destruct (length P); reflexivity].
      rewrite <- (app_nil_r (repeat _ _)). apply ranks_sorted_repeat_app; reflexivity.
    + rewrite (forallb_map_ext _ (fun g => negb (is_empty g))) by (intros; rewrite is_empty_force; reflexivity).
      unfold gs. rewrite !forallb_app, !forallb_map. simpl. rewrite HA, HL, HP. reflexivity.
Qed.

(* every value assembled from non-empty members has the canonical shape *)
Theorem assemble_shape_ok_lemma A L P :
  all_nonempty A L P = true -> shape_ok (assemble A L P) = true.
Proof.
  intros H. destruct (Nat.eq_dec (dims_present A L P) 1) as [E|E].
  2:{ rewrite (assemble_mixed A L P E). apply shape_ok_mixed; assumption. }
  unfold all_nonempty in H. rewrite !andb_true_iff in H. destruct H as [[HA HL] HP].
  destruct A as [|a [|a' A]], L as [|l [|l' L]], P as [|q [|q' P]]; try discriminate E; unfold assemble.
  - simpl in *. rewrite andb_true_r in HP. exact HP.
  - unfold new_multipoint. cbn [shape_ok]. rewrite map_length, <- HP.
    apply forallb_map_ext. intros; rewrite point_empty_force; reflexivity.
  - simpl in *. rewrite andb_true_r in HL. exact HL.
  - unfold new_multiline. cbn [shape_ok]. rewrite map_length, <- HL.
    apply forallb_map_ext. intros; rewrite line_empty_force; reflexivity.
  - simpl in *. rewrite andb_true_r in HA. exact HA.
  - unfold new_multipoly. cbn [shape_ok]. rewrite map_length, <- HA.
    apply forallb_map_ext. intros; rewrite poly_empty_force; reflexivity.
Qed.

Lemma in_closure_existsb X w : in_closure X w = existsb X (wpt w :: wnb w).
Proof. reflexivity. Qed.
Lemma in_closure_ext X Y w : (forall p, X p = Y p) -> in_closure X w = in_closure Y w.
Proof. intros E. rewrite !in_closure_existsb. apply existsb_ext_in. intros; apply E. Qed.
Lemma existsb_orb {A} (f g : A -> bool) l : existsb (fun x => f x || g x) l = existsb f l || existsb g l.
Proof.
  induction l as [|x l IH]; simpl; auto. rewrite IH.
  destruct (f x), (g x), (existsb f l), (existsb g l); reflexivity.
Qed.
(* closure distributes over union *)
Lemma in_closure_union X Y w :
  in_closure (fun p => X p || Y p) w = in_closure X w || in_closure Y w.
Proof. rewrite !in_closure_existsb. apply existsb_orb. Qed.
Lemma existsb_false {A} (l : list A) : existsb (fun _ => false) l = false.
Proof. induction l; simpl; auto. Qed.
Lemma in_closure_empty w : in_closure (fun _ => false) w = false.
Proof. rewrite in_closure_existsb. apply existsb_false. Qed.
(* a set is contained in its closure; closure is monotone *)
Lemma in_closure_extensive X w : X (wpt w) = true -> in_closure X w = true.
Proof. intros H. unfold in_closure. rewrite H. reflexivity. Qed.
Lemma in_closure_mono X Y w :
  (forall p, X p = true -> Y p = true) -> in_closure X w = true -> in_closure Y w = true.
Proof.
  intros M. rewrite !in_closure_existsb, !existsb_exists. intros (q & Hq & Hx). exists q. auto.
Qed.

Lemma raw_comm_lemma o a b p : o <> OpDiff -> raw o a b p = raw o b a p.
Proof.
  intros H. unfold raw, raw_f. destruct o; simpl; try (exfalso; apply H; reflexivity).
  - apply orb_comm. - apply andb_comm. - apply xorb_comm.
Qed.
Theorem expected_comm_lemma o a b w : o <> OpDiff -> expected o a b w = expected o b a w.
Proof.
  intros H. unfold expected, expected_f. destruct o; try (exfalso; apply H; reflexivity).
  - apply (raw_comm_lemma OpUnion); assumption.
  - apply (raw_comm_lemma OpInter); assumption.
  - apply in_closure_ext. intros p. apply (raw_comm_lemma OpSym). assumption.
Qed.

Theorem expected_idem_lemma a w :
  expected OpUnion a a w = inG a (wpt w) /\ expected OpInter a a w = inG a (wpt w) /\
  expected OpDiff a a w = false /\ expected OpSym a a w = false.
Proof.
  unfold expected, expected_f, raw_f. simpl. repeat split.
  - apply orb_diag. - apply andb_diag.
  - rewrite <- (in_closure_empty w). apply in_closure_ext. intros p. apply andb_negb_r.
  - rewrite <- (in_closure_empty w). apply in_closure_ext. intros p. apply xorb_nilpotent.
Qed.

(* a = (a \ b) u (a n b), and the two parts are disjoint, at every point *)
Theorem expected_partition_lemma a b p :
  inG a p = raw OpDiff a b p || raw OpInter a b p /\ raw OpDiff a b p && raw OpInter a b p = false.
Proof. unfold raw, raw_f. simpl. destruct (inG a p), (inG b p); split; reflexivity. Qed.
(* the same on closures: cl(a) = cl(a \ b) u cl(a n b) at every witness *)
Theorem expected_partition_closure_lemma a b w :
  in_closure (inG a) w = expected OpDiff a b w || in_closure (raw OpInter a b) w.
Proof.
  unfold expected, expected_f. rewrite <- in_closure_union. apply in_closure_ext.
  intros p. apply (proj1 (expected_partition_lemma a b p)).
Qed.
(* symmetric difference = (a \ b) u (b \ a), pointwise and on closures *)
Theorem expected_symdiff_lemma a b w :
  (forall p, raw OpSym a b p = raw OpDiff a b p || raw OpDiff b a p) /\
  expected OpSym a b w = expected OpDiff a b w || expected OpDiff b a w.
Proof.
  assert (E : forall p, raw OpSym a b p = raw OpDiff a b p || raw OpDiff b a p).
  { intros p. unfold raw, raw_f. simpl. destruct (inG a p), (inG b p); reflexivity. }
  split; auto. unfold expected, expected_f. rewrite <- in_closure_union. apply in_closure_ext. exact E.
Qed.
(* De Morgan-style consequences *)
Theorem expected_de_morgan_lemma a b p :
  negb (raw OpUnion a b p) = negb (inG a p) && negb (inG b p) /\
  negb (raw OpInter a b p) = negb (inG a p) || negb (inG b p) /\
  raw OpDiff a b p = inG a p && negb (raw OpInter a b p) /\
  raw OpUnion a b p = raw OpSym a b p || raw OpInter a b p /\
  raw OpSym a b p = raw OpUnion a b p && negb (raw OpInter a b p).
Proof. unfold raw, raw_f. simpl. destruct (inG a p), (inG b p); repeat split; reflexivity. Qed.

(* inclusion-exclusion on the membership functions *)
Definition ind (b : bool) : Q := if b then 1 else 0.
Theorem inclusion_exclusion_pointwise_lemma a b p :
  ind (raw OpUnion a b p) + ind (raw OpInter a b p) == ind (inG a p) + ind (inG b p).
Proof. unfold raw, raw_f. simpl. destruct (inG a p), (inG b p); reflexivity. Qed.

Lemma if_ind (b : bool) x : (if b then x else 0) == ind b * x.
Proof. destruct b; unfold ind; ring. Qed.
Lemma cells_area_balance cells (f g h k : pt -> bool) :
  (forall p, ind (f p) + ind (g p) == ind (h p) + ind (k p)) ->
  cells_area cells f + cells_area cells g == cells_area cells h + cells_area cells k.
Proof.
  intros E. induction cells as [|c cells IH]; simpl; [reflexivity|]. rewrite !if_ind.
  transitivity ((ind (f (fst c)) + ind (g (fst c))) * snd c + (cells_area cells f + cells_area cells g)); [ring|].
  rewrite E, IH. ring.
Qed.
Lemma cells_area_false cells : cells_area cells (fun _ => false) == 0.
Proof. induction cells; simpl; [reflexivity|]. rewrite IHcells. ring. Qed.
Lemma cells_area_ext cells f g : (forall p, f p = g p) -> cells_area cells f == cells_area cells g.
Proof. intros E. induction cells; simpl; [reflexivity|]. rewrite E, IHcells. reflexivity. Qed.
Lemma cells_area_partition cells (f h k : pt -> bool) :
  (forall p, f p = h p || k p /\ h p && k p = false) ->
  cells_area cells f == cells_area cells h + cells_area cells k.
Proof.
  intros E. rewrite <- (Qplus_0_r (cells_area cells f)), <- (cells_area_false cells).
  apply cells_area_balance. intros p. destruct (E p) as [-> D].
  destruct (h p), (k p); try discriminate D; reflexivity.
Qed.

(* inclusion-exclusion of exact areas: area(a u b) + area(a n b) = area(a) + area(b), on every
   arrangement *)
Theorem area_inclusion_exclusion_lemma L P a b :
  area_of L P (raw OpUnion a b) + area_of L P (raw OpInter a b) == area_of L P (inG a) + area_of L P (inG b).
Proof. unfold area_of. apply cells_area_balance. intros p. apply inclusion_exclusion_pointwise_lemma. Qed.
(* area(a) = area(a \ b) + area(a n b) *)
Theorem area_partition_lemma L P a b :
  area_of L P (inG a) == area_of L P (raw OpDiff a b) + area_of L P (raw OpInter a b).
Proof. unfold area_of. apply cells_area_partition. intros p. apply expected_partition_lemma. Qed.
(* area(a xor b) = area(a \ b) + area(b \ a) = area(a u b) - area(a n b) *)
Theorem area_symdiff_lemma L P a b :
  area_of L P (raw OpSym a b) == area_of L P (raw OpDiff a b) + area_of L P (raw OpDiff b a) /\
  area_of L P (raw OpSym a b) + area_of L P (raw OpInter a b) == area_of L P (raw OpUnion a b).
Proof.
  unfold area_of. split; [|symmetry]; apply cells_area_partition; intros p;
    unfold raw, raw_f; simpl; destruct (inG a p), (inG b p); split; reflexivity.
Qed.
(* idempotence and commutativity of the areas follow from the pointwise laws *)
Theorem area_comm_lemma L P o a b : o <> OpDiff -> area_of L P (raw o a b) == area_of L P (raw o b a).
Proof. intros H. unfold area_of. apply cells_area_ext. intros p. apply raw_comm_lemma. assumption. Qed.

(* induction along consecutive pairs, the recursion scheme of col_adj, gaps_between, slabs_between,
   events_nb, slab_cells and kdedup *)
Lemma consec_ind {A} (P : list A -> Prop) :
  P [] -> (forall x, P [x]) -> (forall x y r, P (y :: r) -> P (x :: y :: r)) -> forall l, P l.
Proof.
  intros H0 H1 H2. induction l as [|x l IH]; [exact H0|]. destruct l as [|y r]; [apply H1|apply H2, IH].
Qed.

Lemma slabs_between_cons2 L x0 x1 r :
  slabs_between L (x0 :: x1 :: r) = slab_witnesses L x0 x1 ++ slabs_between L (x1 :: r).
Proof. reflexivity. Qed.
Lemma slabs_between_nb_cons2 L x0 x1 r :
  slabs_between_nb L (x0 :: x1 :: r) = slab_witnesses_nb L x0 x1 ++ slabs_between_nb L (x1 :: r).
Proof. reflexivity. Qed.
Lemma events_nb_cons2 L V left wr x x2 r :
  events_nb L V left wr (x :: x2 :: r) =
  event_witnesses_nb L V x (fun y => left y ++ slab_incident L (qmid x x2) x y)
  ++ events_nb L V (slab_incident L (qmid x x2) x2) wr (x2 :: r).
Proof. reflexivity. Qed.
Lemma slab_cells_cons2 L x0 x1 r :
  slab_cells L (x0 :: x1 :: r) =
  gap_cells (qmid x0 x1) (x1 - x0) (slab_heights L (qmid x0 x1)) ++ slab_cells L (x1 :: r).
Proof. reflexivity. Qed.

(* the incidence-annotated list is Planar's witness list (same points, same dimension tags, same order) *)
Lemma col_adj_strip (x : Q) (at_y : Q -> dimv) below ys :
  map (fun e : Q * (pt * pt) => ((x, fst e), at_y (fst e))) (col_adj x below ys) = map (fun y => ((x, y), at_y y)) ys.
Proof.
  revert below. induction ys as [|y|y y2 r IH] using consec_ind; intros below; [reflexivity..|].
  cbn [col_adj map fst]. f_equal. apply IH.
Qed.
Lemma column_nb_strip x ys at_y mid extra :
  map strip (column_nb x ys at_y mid extra) = column x ys at_y mid.
Proof.
  unfold column_nb, column. destruct ys as [|y1 r]; [reflexivity|].
  cbn [map strip fst]. f_equal. f_equal. rewrite map_app, !map_map. f_equal.
  - apply (col_adj_strip x at_y).
  - erewrite map_ext; [apply map_id|]. intros [p d]. reflexivity.
Qed.
Lemma slab_witnesses_nb_strip L x0 x1 : map strip (slab_witnesses_nb L x0 x1) = slab_witnesses L x0 x1.
Proof. apply column_nb_strip. Qed.
Lemma event_witnesses_nb_strip L V x extra : map strip (event_witnesses_nb L V x extra) = event_witnesses L V x.
Proof. apply column_nb_strip. Qed.
Lemma slabs_between_nb_strip L xs : map strip (slabs_between_nb L xs) = slabs_between L xs.
Proof.
  induction xs as [|x0|x0 x1 r IH] using consec_ind; [reflexivity..|].
  rewrite slabs_between_nb_cons2, slabs_between_cons2, map_app, slab_witnesses_nb_strip, IH. reflexivity.
Qed.
Lemma events_nb_strip L V left wr xs :
  map strip (events_nb L V left wr xs) = flat_map (event_witnesses L V) xs.
Proof.
  revert left. induction xs as [|x|x x2 r IH] using consec_ind; intros left.
  - reflexivity.
  - simpl. rewrite event_witnesses_nb_strip, app_nil_r. reflexivity.
  - rewrite events_nb_cons2, map_app, event_witnesses_nb_strip, IH. reflexivity.
Qed.
Theorem witnesses_nb_strip_lemma L P : map strip (witnesses_nb L P) = witnesses L P.
Proof.
  unfold witnesses_nb, wits_of, witnesses.
  destruct (events (vertex_set L P)) as [|x0 r] eqn:E; [reflexivity|].
  cbn [map strip fst]. f_equal. f_equal.
  rewrite map_app, events_nb_strip, slabs_between_nb_strip. reflexivity.
Qed.

Lemma in_witnesses_nb L P w : In w (witnesses_nb L P) -> In (wpt w, wdim w) (witnesses L P).
Proof.
  intros H. rewrite <- witnesses_nb_strip_lemma. apply in_map_iff. exists w. split; auto.
  destruct w as [[p d] nb]. reflexivity.
Qed.
(* kernel fact cited from Planar_proofs / QKernel: every dimension-0 witness is a vertex of the
   arrangement, i.e. a segment end, an isolated point, or a point lying on both segments that define it *)
Theorem witness_vertex_lemma L P w :
  In w (witnesses_nb L P) -> wdim w = D0 ->
  exists v, pt_eq v (wpt w) /\
    ((exists s, In s L /\ (v = fst s \/ v = snd s)) \/
     (exists s t, In s L /\ In t L /\ on_seg s v = true /\ on_seg t v = true) \/ In v P).
Proof.
  intros Hin Hd. apply in_witnesses_nb in Hin. rewrite Hd in Hin.
  destruct (witness_dim0_is_vertex L P (wpt w) Hin) as (v & Hv & Heq).
  exists v. split; [exact Heq|]. apply vertex_set_spec in Hv.
  destruct Hv as [H|[(s & t & Hs & Ht & _ & H)|H]]; [left; exact H|right; left; exists s, t; auto|right; right; exact H].
Qed.

Lemma mem_p_prep g p : mem_p (prep g) p = inG g p.
Proof.
  rewrite inG_flat. unfold mem_p, areal_p, lineal_p, prep. cbn [pg_polys pg_lines pg_points].
  rewrite !existsb_map. reflexivity.
Qed.
(* the executable form of the closed-rings hypothesis (evaluated by the driver on operands and results) *)
Lemma rings_closed_b_sound g : rings_closed_b g = true -> rings_closed g.
Proof.
  unfold rings_closed_b, rings_closed. rewrite forallb_forall. intros H y Hy r Hr.
  specialize (H y Hy). rewrite forallb_forall in H. apply H. exact Hr.
Qed.

Lemma agrees_iff W fr e : agrees W fr e = true <-> forall w, In w W -> fr (wpt w) = e w.
Proof.
  unfold agrees. rewrite forallb_forall. split; intros H w Hw; specialize (H w Hw).
  - apply eqb_prop. exact H.
  - rewrite H. apply eqb_reflx.
Qed.
Lemma disagreements_nil_iff W fr e : disagreements W fr e = [] <-> agrees W fr e = true.
Proof.
  unfold disagreements, agrees. induction W as [|w W IH]; simpl; [tauto|].
  destruct (eqb (fr (wpt w)) (e w)); simpl.
  - exact IH.
  - split; discriminate.
Qed.
Lemma arrange_wits gs : ar_wits (arrange gs) = ctx_witnesses gs.
Proof. reflexivity. Qed.

Lemma judge_with_sound gs r e X :
  v_agree (judge_with (arrange gs) r e X) = true ->
  forall w, In w (ctx_witnesses gs) -> inG r (wpt w) = e w.
Proof.
  unfold judge_with. cbn [v_agree]. rewrite arrange_wits. intros H w Hw.
  destruct (disagreements (ctx_witnesses gs) (mem_p (prep r)) e) eqn:E; [|discriminate].
  apply disagreements_nil_iff in E. rewrite agrees_iff in E. rewrite <- mem_p_prep. exact (E w Hw).
Qed.

(* what a passing judgement means: at every vertex, edge piece and face witness of the exact
   arrangement of the operands and the result, the result's definitional membership is the
   expected one (closure form for difference and symmetric difference) *)
Theorem judge_sound_lemma o a b r :
  v_agree (judge o a b r) = true ->
  forall w, In w (ctx_witnesses [a; b; r]) -> inG r (wpt w) = expected o a b w.
Proof. exact (judge_with_sound [a; b; r] r (expected o a b) (raw o a b)). Qed.
Theorem judge_many_sound_lemma gs r :
  v_agree (judge_many gs r) = true ->
  forall w, In w (ctx_witnesses (r :: gs)) -> inG r (wpt w) = existsb (fun g => inG g (wpt w)) gs.
Proof. exact (judge_with_sound (r :: gs) r (expected_many gs) _). Qed.

(* exact point-set comparison of two outputs is an equivalence-like relation: reflexive, symmetric *)
Lemma same_set_refl g : same_set g g = true.
Proof. unfold same_set. apply forallb_forall. intros w _. apply eqb_reflx. Qed.

Lemma ksort_pair_swap {A B} (key : A -> list Z) (f : B -> A) (F : geom -> list B) g h :
  (forall x y, key x = key y -> x = y) ->
  ksort key (map f (flat_map F [g; h])) = ksort key (map f (flat_map F [h; g])).
Proof.
  intros Hk. apply ksort_perm; [exact Hk|].
  apply Permutation_map. simpl. rewrite !app_nil_r. apply Permutation_app_comm.
Qed.
(* the arrangement on which two outputs are compared does not depend on their order *)
Lemma ctx_witnesses_swap g h : ctx_witnesses [g; h] = ctx_witnesses [h; g].
Proof.
  unfold ctx_witnesses, ctx_segs, ctx_pts.
  rewrite (ksort_pair_swap seg_key _ _ g h seg_key_inj), (ksort_pair_swap pt_key _ _ g h pt_key_inj).
  reflexivity.
Qed.
Theorem same_set_sym_lemma g h : same_set g h = same_set h g.
Proof.
  unfold same_set. rewrite ctx_witnesses_swap. apply forallb_ext_in. intros w _.
  destruct (inG g (wpt w)), (inG h (wpt w)); reflexivity.
Qed.
