(* Property C11 - proofs about bulk loading (rtree/bulk.go) of the R-tree model. *)
From Coq Require Import ZArith List Bool Arith Lia Permutation FinFun.
From SF Require Import Base.Outcome Model.RTree Proofs.RTree_proofs Proofs.RTree_qp_proofs.
Import ListNotations.
Open Scope nat_scope.

Lemma div2_bounds n : 2 * Nat.div2 n <= n <= 2 * Nat.div2 n + 1.
Proof.
  pose proof (Nat.div2_odd n) as H. destruct (Nat.odd n); simpl in H; lia.
Qed.

Lemma split2_ok l :
  2 <= length l ->
  exists a b, split2 l = Ok (a, b) /\ Permutation (a ++ b) l /\
              length a = Nat.div2 (length l) /\ length b = length l - Nat.div2 (length l).
Proof.
  intros H. unfold split2. destruct l as [|x r]; [simpl in H; lia|].
  cbn [items_are_horizontal bind].
  set (hz := (maxx _ - minx _ >? maxy _ - miny _)%Z). clearbody hz.
  pose proof (div2_bounds (length (x :: r))) as Hd.
  destruct (quick_partition_total_lemma (x :: r) (Nat.div2 (length (x :: r))) hz) as (l' & -> & P); [lia|].
  cbn [bind]. eexists _, _. split; [reflexivity|].
  assert (Hl : length l' = length (x :: r)) by (apply Permutation_length; exact P).
  rewrite firstn_skipn. split; [exact P|]. rewrite firstn_length, skipn_length. lia.
Qed.

Lemma leaves_node_app a b : leaves_node (a ++ b) = leaves_node a ++ leaves_node b.
Proof. unfold leaves_node. apply flat_map_app. Qed.

Definition built (rec : list item -> outcome node) (p : list item) : Prop :=
  exists c, rec p = Ok c /\ node_inv c = true /\ Permutation (leaves_node c) p.

Lemma bulk_node_ok rec parts :
  Forall (built rec) parts ->
  exists n, bulk_node rec parts = Ok n /\ length n = length parts /\
            forallb (fun e => negb (is_leaf e)) n = true /\ forallb entry_inv n = true /\
            Permutation (leaves_node n) (concat parts).
Proof.
  induction 1 as [|p ps (c & Hc & Hinv & Hperm) _ (n & Hn & Hlen & Hnl & Hei & Hp)]; simpl.
  - exists []. repeat split; auto.
  - rewrite Hc, Hn. simpl. eexists. split; [reflexivity|]. simpl. rewrite Hlen, Hnl, Hei.
    repeat split; auto.
    + rewrite !andb_true_r. unfold node_inv in Hinv. rewrite andb_true_iff in Hinv. destruct Hinv as [H1 H2].
      rewrite H1, H2, !andb_true_r. apply box_eqb_eq. reflexivity.
    + change (leaves_node (EBranch (calc_bound c) c :: n)) with (leaves_node c ++ leaves_node n).
      apply Permutation_app; assumption.
Qed.

Lemma leaf_node_ok items :
  1 <= length items <= 4 ->
  node_inv (map (fun it => ELeaf (ibox it) (iid it)) items) = true /\
  leaves_node (map (fun it => ELeaf (ibox it) (iid it)) items) = items.
Proof.
  intros H. split.
  - assert (Hl : forall f : entry -> bool, (forall b id, f (ELeaf b id) = true) ->
                   forallb f (map (fun it => ELeaf (ibox it) (iid it)) items) = true).
    { intros f Hf. apply forallb_forall. intros e He. apply in_map_iff in He. destruct He as (it & <- & _). apply Hf. }
    unfold node_inv, node_shape. rewrite map_length, (Hl is_leaf), (Hl entry_inv) by reflexivity.
    rewrite orb_true_l, !andb_true_r. apply andb_true_iff. split; apply Nat.leb_le; lia.
  - clear H. unfold leaves_node. induction items as [|[b i] r IH]; simpl; [reflexivity|]. f_equal. exact IH.
Qed.

Lemma branch_node_inv n :
  1 <= length n <= 4 -> forallb (fun e => negb (is_leaf e)) n = true -> forallb entry_inv n = true ->
  node_inv n = true.
Proof.
  intros H H1 H2. unfold node_inv, node_shape. rewrite H1, H2, orb_true_r, !andb_true_r.
  apply andb_true_iff. split; apply Nat.leb_le; lia.
Qed.

Lemma bulk_insert_ok : forall fuel items,
  1 <= length items <= fuel ->
  exists n, bulk_insert fuel items = Ok n /\ node_inv n = true /\ Permutation (leaves_node n) items.
Proof.
  induction fuel as [|f IH]; intros items H; [lia|]. cbn [bulk_insert].
  destruct (Nat.eqb_spec (length items) 0) as [|_]; [lia|].
  destruct (Nat.leb_spec (length items) 4) as [H4|H4].
  - destruct (leaf_node_ok items) as [H1 H2]; [lia|]. eexists. split; [reflexivity|]. split; [exact H1|].
    rewrite H2. reflexivity.
  - pose proof (div2_bounds (length items)) as Hd.
    destruct (split2_ok items) as (a & b & -> & Pab & La & Lb); [lia|]. cbn [bind].
    destruct (Nat.leb_spec (length items) 8) as [H8|H8].
    + destruct (bulk_node_ok (bulk_insert f) [a; b]) as (n & -> & Hlen & Hnl & Hei & Hp).
      { repeat constructor; apply IH; lia. }
      exists n. split; [reflexivity|]. split; [apply branch_node_inv; auto; simpl in Hlen; lia|].
      rewrite Hp. simpl. rewrite app_nil_r. exact Pab.
    + pose proof (div2_bounds (length a)) as Hda. pose proof (div2_bounds (length b)) as Hdb.
      destruct (split2_ok a) as (q1 & q2 & -> & P12 & L1 & L2); [lia|]. cbn [bind].
      destruct (split2_ok b) as (q3 & q4 & -> & P34 & L3 & L4); [lia|]. cbn [bind].
      destruct (bulk_node_ok (bulk_insert f) [q1; q2; q3; q4]) as (n & -> & Hlen & Hnl & Hei & Hp).
      { repeat constructor; apply IH; lia. }
      exists n. split; [reflexivity|]. split; [apply branch_node_inv; auto; simpl in Hlen; lia|].
      rewrite Hp. simpl. rewrite app_nil_r, <- Pab, <- P12, <- P34, <- !app_assoc. reflexivity.
Qed.

(* BulkLoad: no panic, the fuel suffices, the tree satisfies the invariant, its leaves are a
   permutation of the input, Count is the number of items *)
Lemma bulk_load_ok_lemma items :
  exists t, bulk_load items = Ok t /\ tree_inv t = true /\
            Permutation (tree_leaves t) items /\ count t = length items.
Proof.
  unfold bulk_load. destruct (Nat.eqb_spec (length items) 0) as [H0|H0].
  - destruct items; [|discriminate]. exists (MkTree None 0). auto.
  - destruct (bulk_insert_ok (length items) items) as (n & -> & Hinv & P); [lia|]. cbn [bind].
    eexists. split; [reflexivity|]. unfold tree_inv, tree_leaves, count; cbn [root tcount].
    rewrite Hinv. repeat split; auto. simpl. apply Nat.eqb_eq. apply Permutation_length. exact P.
Qed.

Open Scope Z_scope.
Section Attained.
  (* p is one of the four sides of a box; combine picks it from one of its arguments *)
  Variable p : box -> Z.
  Hypothesis p_combine : forall a b, p (combine a b) = p a \/ p (combine a b) = p b.

  Lemma fold_combine_attained (r : list entry) : forall b0,
    p (fold_left (fun b e' => combine b (ebox e')) r b0) = p b0 \/
    exists e, In e r /\ p (ebox e) = p (fold_left (fun b e' => combine b (ebox e')) r b0).
  Proof.
    induction r as [|x r IH]; intros b0; simpl; [auto|].
    destruct (IH (combine b0 (ebox x))) as [H|(e & He & H)].
    - destruct (p_combine b0 (ebox x)) as [H'|H']; [left; congruence|].
      right. exists x. split; [auto|congruence].
    - right. exists e. auto.
  Qed.
  Lemma calc_bound_attained n : n <> [] -> exists e, In e n /\ p (ebox e) = p (calc_bound n).
  Proof.
    destruct n as [|x r]; [congruence|]. intros _. simpl.
    destruct (fold_combine_attained r (ebox x)) as [H|(e & He & H)]; [exists x|exists e]; auto.
  Qed.
  Lemma entry_attained e :
    entry_inv e = true -> exists it, In it (leaves e) /\ p (ibox it) = p (ebox e).
  Proof.
    induction e as [b id|b n IH] using entry_ind'; intros Hinv.
    - exists (MkItem b id). simpl. auto.
    - apply entry_inv_branch in Hinv. destruct Hinv as (-> & Hs & Hall).
      assert (Hne : n <> []).
      { unfold node_shape in Hs. destruct n; [discriminate|congruence]. }
      destruct (calc_bound_attained n Hne) as (e & He & Hp).
      rewrite Forall_forall in IH, Hall. destruct (IH e He (Hall e He)) as (it & Hit & Hpi).
      exists it. split; [simpl; apply in_flat_map; eauto|]. simpl. congruence.
  Qed.
End Attained.

Lemma minx_combine a b : minx (combine a b) = minx a \/ minx (combine a b) = minx b.
Proof. simpl. rewrite fmin_spec. lia. Qed.
Lemma miny_combine a b : miny (combine a b) = miny a \/ miny (combine a b) = miny b.
Proof. simpl. rewrite fmin_spec. lia. Qed.
Lemma maxx_combine a b : maxx (combine a b) = maxx a \/ maxx (combine a b) = maxx b.
Proof. simpl. rewrite fmax_spec. lia. Qed.
Lemma maxy_combine a b : maxy (combine a b) = maxy a \/ maxy (combine a b) = maxy b.
Proof. simpl. rewrite fmax_spec. lia. Qed.

(* Extent of a tree under the invariant is the exact bounding box of its records *)
Lemma extent_tree_inv t items :
  tree_inv t = true -> Permutation (tree_leaves t) items -> extent_ok items (extent t) = true.
Proof.
  unfold tree_inv, tree_leaves, extent. destruct (root t) as [n|].
  2: { intros _ P. apply Permutation_nil in P. subst. reflexivity. }
  rewrite andb_true_iff. intros [Hinv _] P. pose proof (node_inv_forall _ Hinv) as Hall.
  rewrite Forall_forall in Hall.
  assert (Hne : n <> []) by (intros ->; discriminate).
  assert ((length n =? 0)%nat = false) as -> by (destruct n; [congruence|reflexivity]).
  assert (Hatt : forall p : box -> Z, (forall a b, p (combine a b) = p a \/ p (combine a b) = p b) ->
                   existsb (fun it => p (ibox it) =? p (calc_bound n)) items = true).
  { intros p Hp. destruct (calc_bound_attained p Hp n Hne) as (e & He & Hpe).
    destruct (entry_attained p Hp e (Hall e He)) as (it & Hit & Hpi). apply existsb_exists. exists it.
    split; [apply (Permutation_in _ P), in_flat_map; eauto|apply Z.eqb_eq; congruence]. }
  cbn [extent_ok].
  rewrite (Hatt minx minx_combine), (Hatt miny miny_combine), (Hatt maxx maxx_combine),
          (Hatt maxy maxy_combine), !andb_true_r.
  apply andb_true_iff. split.
  - destruct items; [|reflexivity]. discriminate (Hatt minx minx_combine).
  - apply forallb_forall. intros it Hit.
    apply (Permutation_in _ (Permutation_sym P)), in_flat_map in Hit. destruct Hit as (e & He & Hit).
    eapply inside_trans; [apply (leaves_inside e (Hall e He) it Hit)|apply calc_bound_contains; exact He].
Qed.

(* Count is the number of loaded items, Extent their exact bounding box (None iff nothing loaded) *)
Lemma count_extent_spec_lemma items :
  exists t, bulk_load items = Ok t /\
            count_ok items (count t) = true /\ extent_ok items (extent t) = true.
Proof.
  destruct (bulk_load_ok_lemma items) as (t & Ht & Hinv & P & Hc). exists t. split; [exact Ht|]. split.
  - unfold count_ok. apply Nat.eqb_eq. exact Hc.
  - apply extent_tree_inv; assumption.
Qed.

(* end to end: bulk load, then range search *)
Lemma bulk_range_search_lemma items q cb :
  exists t, bulk_load items = Ok t /\
            range_ok items q cb (fst (range_search q cb t)) (snd (range_search q cb t)) = true.
Proof.
  destruct (bulk_load_ok_lemma items) as (t & Ht & Hinv & P & _). exists t. split; [exact Ht|].
  apply range_ok_iff. eapply range_okP_perm; [exact P|]. apply range_search_okP. exact Hinv.
Qed.
