(* Translator tie for function bodies (DESIGN.md A.8b), property C09: the vector operations and the
   envelope functions of coq/Model/Distance.v against the bodies of geom/xy.go (Sub, Dot, Cross,
   distanceSquaredTo, lengthSq) and geom/type_envelope.go (Distance, ExpandToIncludeXY), as re-read
   from the Go source into Gen/Funcs.v on every run.  Carrier: Q.  An edited body in the Go source
   makes this file fail to compile. *)
From Coq Require Import ZArith QArith Bool.
From SF Require Import Base.FOps Gen.Funcs Proofs.Funcs_tie_lib Base.QKernel Model.Intersects Model.Distance
  Proofs.Funcs_tie_Intersects.
Open Scope Q_scope.

Definition mpt (p : geom_XY Q) : pt := (geom_XY_X p, geom_XY_Y p).

(* geom/xy.go:Sub, Dot, Cross *)
Lemma tie_vsub : forall p q, mpt (geom_XY_Sub qops (gpt p) (gpt q)) = vsub p q.
Proof. reflexivity. Qed.
Lemma tie_vdot : forall u v, geom_XY_Dot qops (gpt u) (gpt v) = vdot u v.
Proof. reflexivity. Qed.
Lemma tie_vcross : forall u v, geom_XY_Cross qops (gpt u) (gpt v) = vcross u v.
Proof. reflexivity. Qed.
(* geom/xy.go:distanceSquaredTo  w.distanceSquaredTo(o) = (o - w).(o - w);  lengthSq *)
Lemma tie_d2_xy : forall w o, geom_XY_distanceSquaredTo qops (gpt w) (gpt o) = d2_xy o w.
Proof. reflexivity. Qed.
Lemma tie_lengthSq : forall w, geom_XY_lengthSq qops (gpt w) = vdot w w.
Proof. reflexivity. Qed.

(* geom/type_envelope.go:Distance on two non-empty envelopes: math.Hypot(dx, dy) of the two gaps
   whose squares the model adds up ([box_d2]); for any operation [hy] standing for math.Hypot *)
Definition gap_x (e o : box) : Q := qmax2 0 (qmax2 (bminx o - bmaxx e) (bminx e - bmaxx o)).
Definition gap_y (e o : box) : Q := qmax2 0 (qmax2 (bminy o - bmaxy e) (bminy e - bmaxy o)).
Lemma box_d2_gaps : forall e o, box_d2 e o = gap_x e o * gap_x e o + gap_y e o * gap_y e o.
Proof. reflexivity. Qed.
Lemma tie_envelope_distance : forall sq hy e o,
  geom_Envelope_Distance (qops_with sq hy) (genv e) (genv o) = (hy (gap_x e o) (gap_y e o), true).
Proof. reflexivity. Qed.

(* geom/type_envelope.go:ExpandToIncludeXY on a non-empty envelope *)
Lemma tie_box_add : forall e p, geom_Envelope_ExpandToIncludeXY qops (genv e) (gpt p) = genv (box_add e p).
Proof. reflexivity. Qed.
