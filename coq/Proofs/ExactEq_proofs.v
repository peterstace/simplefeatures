(* Lemmas for property C18 (ExactEquals). Statements are in Props/C18.v. *)
From Coq Require Import NArith ZArith QArith List Bool Lia Permutation Lqa Psatz.
From SF Require Import Base.GeomAST Base.Bytes Base.Outcome Model.WKB Model.ExactEq Proofs.WKB_proofs.
Import ListNotations.
Local Close Scope Q_scope.
Local Open Scope nat_scope.

(* ------------------------------------------------------------------ lists *)
Lemma all2_true_iff {A B} (eqm : A -> B -> bool) l1 l2 :
  all2 eqm l1 l2 = true <-> Forall2 (fun a b => eqm a b = true) l1 l2.
Proof.
  revert l2; induction l1 as [|a r IH]; intros [|b s]; simpl; split; intros H;
    try constructor; try discriminate; try (inversion H; fail).
  - apply andb_true_iff in H; tauto.
  - apply IH. apply andb_true_iff in H; tauto.
  - inversion H; subst. apply andb_true_iff; split; [assumption | apply IH; assumption].
Qed.

Lemma Forall2_length' {A B} (R : A -> B -> Prop) l1 l2 : Forall2 R l1 l2 -> length l1 = length l2.
Proof. induction 1; simpl; congruence. Qed.

Lemma Forall2_nth_iff {A B} (R : A -> B -> Prop) l1 l2 :
  Forall2 R l1 l2 <->
  length l1 = length l2 /\
  forall i a b, nth_error l1 i = Some a -> nth_error l2 i = Some b -> R a b.
Proof.
  split.
  - induction 1; split; simpl; auto.
    + intros [|i] ? ?; discriminate.
    + destruct IHForall2; congruence.
    + destruct IHForall2 as [_ IH]. intros [|i] a b; simpl.
      * intros [= <-] [= <-]; assumption.
      * apply IH.
  - revert l2; induction l1 as [|a r IH]; intros [|b s] [Hl Hn]; simpl in *; try discriminate.
    + constructor.
    + constructor.
      * apply (Hn 0); reflexivity.
      * apply IH; split; [congruence|]. intros i; apply (Hn (S i)).
Qed.

Lemma Forall2_perm_l {A B} (R : A -> B -> Prop) l l' m :
  Permutation l l' -> Forall2 R l m -> exists m', Permutation m m' /\ Forall2 R l' m'.
Proof.
  intros P; revert m; induction P; intros m H.
  - inversion H; subst. exists []; split; constructor.
  - inversion H; subst. destruct (IHP _ H4) as [m' [P' F']].
    exists (y :: m'); split; [apply perm_skip; assumption | constructor; assumption].
  - inversion H; subst. inversion H4; subst.
    exists (y1 :: y0 :: l'0); split; [apply perm_swap | repeat constructor; assumption].
  - destruct (IHP1 _ H) as [m1 [P1' F1]]. destruct (IHP2 _ F1) as [m2 [P2' F2]].
    exists m2; split; [eapply perm_trans; eassumption | assumption].
Qed.

Lemma Forall2_impl_in {A B} (R S : A -> B -> Prop) l m :
  (forall a b, In a l -> In b m -> R a b -> S a b) -> Forall2 R l m -> Forall2 S l m.
Proof.
  intros H F; induction F; constructor.
  - apply H; simpl; auto.
  - apply IHF. intros; apply H; simpl; auto.
Qed.

Lemma Forall2_refl_in {A} (R : A -> A -> Prop) l : (forall a, In a l -> R a a) -> Forall2 R l l.
Proof. induction l; constructor; auto using in_eq, in_cons. Qed.

Lemma Forall2_flip {A B} (R : A -> B -> Prop) (S : B -> A -> Prop) l m :
  (forall a b, In a l -> R a b -> S b a) -> Forall2 R l m -> Forall2 S m l.
Proof.
  intros H F; induction F; constructor.
  - apply H; simpl; auto.
  - apply IHF. intros; apply H; simpl; auto.
Qed.

(* ------------------------------------------------------------------ validPermutation *)
Section VP.
  Context {A B : Type}.
  Variable eqm : A -> B -> bool.

  (* the loop body of validPermutation:recurse as a top-level function *)
  Section Try.
    Variables (a : A) (r : list A) (choices : list B).
    Fixpoint vp_try (i : nat) (cs : list B) : bool :=
      match cs with
      | [] => false
      | c :: cs' => (eqm a c && valid_permutation eqm r (swap_remove i choices)) || vp_try (S i) cs'
      end.
  End Try.

  Lemma vp_unfold a r c cs :
    valid_permutation eqm (a :: r) (c :: cs) = vp_try a r (c :: cs) 0 (c :: cs).
  Proof. reflexivity. Qed.

  Lemma vp_try_true a r choices i cs :
    vp_try a r choices i cs = true <->
    exists j c, nth_error cs j = Some c /\ eqm a c = true /\
                valid_permutation eqm r (swap_remove (i + j) choices) = true.
  Proof.
    revert i; induction cs as [|c cs IH]; intros i; simpl.
    - split; [discriminate|]. intros [[|j] [c [H _]]]; discriminate.
    - rewrite orb_true_iff, andb_true_iff, IH. split.
      + intros [[H1 H2]|[j [c' [H1 [H2 H3]]]]].
        * exists 0, c. rewrite Nat.add_0_r. auto.
        * exists (S j), c'. rewrite Nat.add_succ_r. auto.
      + intros [[|j] [c' [H1 [H2 H3]]]]; simpl in H1.
        * injection H1 as <-. rewrite Nat.add_0_r in H3. auto.
        * right. exists j, c'. rewrite Nat.add_succ_r in H3. auto.
  Qed.

  Lemma swap_remove_perm (l : list B) i c :
    nth_error l i = Some c -> Permutation l (c :: swap_remove i l).
  Proof.
    intros Hn. destruct (exists_last (l := l)) as [init [lastx ->]]; [intros ->; destruct i; discriminate|].
    unfold swap_remove. rewrite rev_unit, removelast_last.
    destruct (Nat.eqb_spec i (length init)) as [->|Hne].
    - rewrite nth_error_app2, Nat.sub_diag in Hn by lia.
      injection Hn as <-. apply Permutation_sym, Permutation_cons_append.
    - assert (Hi : i < length (init ++ [lastx])) by (apply nth_error_Some; congruence).
      rewrite app_length in Hi. simpl in Hi. rewrite nth_error_app1 in Hn by lia.
      apply nth_error_split in Hn. destruct Hn as (f & sk & -> & <-).
      rewrite firstn_app, Nat.sub_diag, firstn_all, skipn_app, skipn_all2 by lia.
      replace (S (length f) - length f) with 1 by lia. simpl. rewrite app_nil_r, <- app_assoc.
      apply Permutation_sym, Permutation_cons_app, Permutation_app_head, (Permutation_cons_append sk lastx).
  Qed.

  (* soundness and completeness of the backtracking search: it answers true exactly when the
     second list can be rearranged so that corresponding members are equal.  At each level the
     candidates left after removing the chosen one are a permutation of the unmatched members. *)
  Lemma vp_spec l1 : forall l2,
    length l1 = length l2 ->
    (valid_permutation eqm l1 l2 = true <->
     exists p, Permutation l2 p /\ Forall2 (fun a b => eqm a b = true) l1 p).
  Proof.
    induction l1 as [|a r IH]; intros [|c cs] Hl; try discriminate.
    - split; [exists []; split; constructor | reflexivity].
    - rewrite vp_unfold, vp_try_true. cbn [Nat.add].
      assert (L : forall j c', nth_error (c :: cs) j = Some c' -> length r = length (swap_remove j (c :: cs))).
      { intros j c' Hn. apply swap_remove_perm, Permutation_length in Hn. simpl in *. lia. }
      split.
      + intros (j & c' & Hn & He & Hv). apply IH in Hv; [|eapply L, Hn]. destruct Hv as (p & Pp & Fp).
        exists (c' :: p). split; [|constructor; assumption].
        rewrite (swap_remove_perm _ _ _ Hn). apply perm_skip, Pp.
      + intros (p & P & F). inversion F as [|? c' ? p' He F']; subst.
        destruct (In_nth_error (c :: cs) c') as [j Hn];
          [eapply Permutation_in; [symmetry; exact P | left; reflexivity]|].
        exists j, c'. repeat split; auto. apply IH; [eapply L, Hn|]. exists p'. split; [|assumption].
        apply Permutation_cons_inv with (a := c'). rewrite <- (swap_remove_perm _ _ _ Hn). exact P.
  Qed.

  Lemma vp_sound l1 choices :
    length l1 = length choices -> valid_permutation eqm l1 choices = true ->
    exists p, Permutation choices p /\ Forall2 (fun a b => eqm a b = true) l1 p.
  Proof. intros L. apply vp_spec, L. Qed.

  Lemma vp_complete l1 choices p :
    Permutation choices p -> Forall2 (fun a b => eqm a b = true) l1 p ->
    valid_permutation eqm l1 choices = true.
  Proof.
    intros P F. apply vp_spec; [|eauto]. rewrite (Forall2_length' _ _ _ F). symmetry. apply Permutation_length, P.
  Qed.
End VP.

(* ------------------------------------------------------------------ generic facts *)
Lemma Forall2_map_eq {A B C} (R : A -> B -> Prop) (f : A -> C) (g : B -> C) l1 l2 :
  (forall a b, In a l1 -> In b l2 -> (R a b <-> f a = g b)) ->
  (Forall2 R l1 l2 <-> map f l1 = map g l2).
Proof.
  revert l2; induction l1 as [|a r IH]; intros [|b s] H; simpl.
  - split; constructor.
  - split; [inversion 1 | discriminate].
  - split; [inversion 1 | discriminate].
  - assert (H1 : R a b <-> f a = g b) by (apply H; simpl; auto).
    assert (H2 : Forall2 R r s <-> map f r = map g s) by (apply IH; intros; apply H; simpl; auto).
    split.
    + inversion 1; subst. f_equal; [apply H1 | apply H2]; assumption.
    + intros [= E1 E2]. constructor; [apply H1 | apply H2]; assumption.
Qed.

Lemma all2_map_eq {A B C} (eqm : A -> B -> bool) (f : A -> C) (g : B -> C) l1 l2 :
  (forall a b, In a l1 -> In b l2 -> (eqm a b = true <-> f a = g b)) ->
  (all2 eqm l1 l2 = true <-> map f l1 = map g l2).
Proof. rewrite all2_true_iff. apply Forall2_map_eq. Qed.

Lemma all2_length {A B} (eqm : A -> B -> bool) l1 l2 :
  all2 eqm l1 l2 = true -> length l1 = length l2.
Proof. intros H; apply all2_true_iff in H. eapply Forall2_length'; eassumption. Qed.

Section Gen.
  Variable F : Type.
  Variable feq : F -> F -> bool.
  Variable xy_eq : vtx F -> vtx F -> bool.
  Variable simple : lineT F -> bool.

  Notation ceq := (coord_eq feq xy_eq).
  Notation SC := (same_curve feq xy_eq).


  Lemma coord_eq_iff c a c' b :
    ceq c a c' b = true <->
    c = c' /\ xy_eq a b = true /\
    (has_z c = true -> feq (vz a) (vz b) = true) /\ (has_m c = true -> feq (vm a) (vm b) = true).
  Proof.
    unfold coord_eq. rewrite !andb_true_iff, ct_eqb_eq.
    destruct (has_z c), (has_m c); simpl; intuition discriminate.
  Qed.

  Lemma coord_eq_ct cta a ctb b : ceq cta a ctb b = true -> cta = ctb.
  Proof. rewrite coord_eq_iff. tauto. Qed.

  Lemma same_curve_spec ct1 ct2 c1 c2 n m1 m2 :
    SC ct1 ct2 c1 c2 n m1 m2 = true <->
    forall i, i < n -> exists a b, nth_error c1 (m1 i) = Some a /\ nth_error c2 (m2 i) = Some b /\
                                   ceq ct1 a ct2 b = true.
  Proof.
    unfold same_curve. rewrite forallb_forall. split.
    - intros H i Hi. specialize (H i). rewrite in_seq in H. specialize (H ltac:(lia)).
      destruct (nth_error c1 (m1 i)) as [a|]; [|discriminate].
      destruct (nth_error c2 (m2 i)) as [b|]; [|discriminate].
      exists a, b; auto.
    - intros H i Hi. apply in_seq in Hi. destruct (H i ltac:(lia)) as [a [b [-> [-> E]]]]. exact E.
  Qed.

  (* the comparison of two sequences under two index maps, as a statement about lists *)
  Lemma same_curve_lists ct1 ct2 c1 c2 n m1 m2 d1 d2 :
    length d1 = n -> length d2 = n ->
    (forall i, i < n -> nth_error d1 i = nth_error c1 (m1 i)) ->
    (forall i, i < n -> nth_error d2 i = nth_error c2 (m2 i)) ->
    (SC ct1 ct2 c1 c2 n m1 m2 = true <-> Forall2 (fun a b => ceq ct1 a ct2 b = true) d1 d2).
  Proof.
    intros L1 L2 H1 H2. rewrite same_curve_spec, Forall2_nth_iff. split.
    - intros H; split; [congruence|]. intros i a b Ha Hb.
      assert (Hi : i < n) by (rewrite <- L1; apply nth_error_Some; congruence).
      destruct (H i Hi) as [a' [b' [Ea [Eb E]]]]. rewrite H1 in Ha by assumption. rewrite H2 in Hb by assumption.
      congruence.
    - intros [_ H] i Hi.
      destruct (nth_error d1 i) as [a|] eqn:Ea; [|apply nth_error_None in Ea; lia].
      destruct (nth_error d2 i) as [b|] eqn:Eb; [|apply nth_error_None in Eb; lia].
      exists a, b. rewrite <- H1, <- H2 by assumption. eauto.
  Qed.

  Lemma same_curve_id ct1 ct2 c1 c2 :
    length c1 = length c2 ->
    (SC ct1 ct2 c1 c2 (length c1) (fun i => i) (fun i => i) = true <->
     Forall2 (fun a b => ceq ct1 a ct2 b = true) c1 c2).
  Proof. intros L. apply same_curve_lists; auto. Qed.

  Lemma nth_error_rev {A} (l : list A) i :
    i < length l -> nth_error (rev l) i = nth_error l (length l - i - 1).
  Proof.
    intros Hi. destruct l as [|d t] eqn:E; [simpl in Hi; lia|]. rewrite <- E in *.
    assert (L : length l = length (d :: t)) by (rewrite E; reflexivity).
    rewrite (nth_error_nth' (rev l) d) by (rewrite rev_length; assumption).
    rewrite (nth_error_nth' l d) by lia.
    f_equal. rewrite rev_nth by assumption. f_equal. lia.
  Qed.

  Lemma same_curve_rev ct1 ct2 c1 c2 :
    length c1 = length c2 ->
    (SC ct1 ct2 c1 c2 (length c1) (fun i => i) (fun i => length c1 - i - 1) = true <->
     Forall2 (fun a b => ceq ct1 a ct2 b = true) c1 (rev c2)).
  Proof.
    intros L. apply same_curve_lists; auto.
    - rewrite rev_length; auto.
    - intros i Hi. rewrite nth_error_rev by lia. rewrite L. reflexivity.
  Qed.

  (* lineStringsEq in positive form *)
  Definition are_rings (l1 l2 : lineT F) : bool :=
    is_ring feq simple l1 && is_ring feq simple l2 && ends_eq feq xy_eq l1 && ends_eq feq xy_eq l2.

  Lemma line_eq_iff io l1 l2 :
    line_eq feq xy_eq simple io l1 l2 = true <->
    length (line_vs l1) = length (line_vs l2) /\ line_ct l1 = line_ct l2 /\
    let n := length (line_vs l1) in
    let S := SC (line_ct l1) (line_ct l2) (line_vs l1) (line_vs l2) n in
    (S (fun i => i) (fun i => i) = true \/
     (io = true /\
      (S (fun i => i) (fun i => n - i - 1) = true \/
       (are_rings l1 l2 = true /\
        exists o, 1 <= o < n /\
                  (S (fun i => i) (fun i => (i + o) mod (n - 1)) = true \/
                   S (fun i => n - i - 1) (fun i => (i + o) mod (n - 1)) = true))))).
  Proof.
    unfold line_eq, are_rings.
    destruct (Nat.eqb_spec (length (line_vs l1)) (length (line_vs l2))) as [L|L]; simpl;
      [|split; [discriminate | intros [? _]; contradiction]].
    destruct (ct_eqb (line_ct l1) (line_ct l2)) eqn:C; simpl;
      [|split; [discriminate | intros [_ [E _]]; apply ct_eqb_eq in E; congruence]].
    apply ct_eqb_eq in C.
    set (n := length (line_vs l1)).
    set (S := SC (line_ct l1) (line_ct l2) (line_vs l1) (line_vs l2) n).
    destruct (S (fun i => i) (fun i => i)) eqn:E1; simpl.
    { split; auto. }
    destruct io; simpl.
    2:{ split; [discriminate|]. intros [_ [_ [H|[H _]]]]; discriminate. }
    destruct (S (fun i => i) (fun i => n - i - 1)) eqn:E2; simpl.
    { split; auto. intros _. repeat split; auto. }
    destruct (is_ring feq simple l1 && is_ring feq simple l2 && ends_eq feq xy_eq l1 && ends_eq feq xy_eq l2) eqn:R; simpl.
    - rewrite existsb_exists. split.
      + intros [o [Ho H]]. apply in_seq in Ho. repeat split; auto. right. split; auto. right. split; auto.
        exists o. split; [lia|]. apply orb_true_iff in H. exact H.
      + intros [_ [_ [H|[_ [H|[_ [o [Ho H]]]]]]]]; try discriminate.
        exists o. split; [apply in_seq; lia|]. apply orb_true_iff. exact H.
    - split; [discriminate|]. intros [_ [_ [H|[_ [H|[H _]]]]]]; discriminate.
  Qed.

  Lemma line_eq_plain l1 l2 :
    line_eq feq xy_eq simple false l1 l2 = true <->
    line_ct l1 = line_ct l2 /\
    Forall2 (fun a b => ceq (line_ct l1) a (line_ct l2) b = true) (line_vs l1) (line_vs l2).
  Proof.
    rewrite line_eq_iff. split.
    - intros [L [C [H|[H _]]]]; [|discriminate]. split; auto. apply same_curve_id; assumption.
    - intros [C H]. pose proof (Forall2_length' _ _ _ H) as L. repeat split; auto.
      left. apply same_curve_id; assumption.
  Qed.
End Gen.

(* ------------------------------------------------------------------ induction over an accepted pair *)
Lemma members_eq_iff {A B} io (e : A -> B -> bool) c1 l c2 m :
  (length l =? length m) && ct_eqb c1 c2 && structure_eq io e l m = true <->
  length l = length m /\ c1 = c2 /\ structure_eq io e l m = true.
Proof. rewrite !andb_true_iff, Nat.eqb_eq, ct_eqb_eq. tauto. Qed.

Lemma members_eq_intro {A B} io (e : A -> B -> bool) c l m :
  length l = length m -> structure_eq io e l m = true ->
  (length l =? length m) && ct_eqb c c && structure_eq io e l m = true.
Proof. intros L H. apply members_eq_iff. auto. Qed.

(* every property of accepted pairs is proved from these seven cases *)
Lemma geom_eq_ind {F} feq xy_eq simple io (Q : geomT F -> geomT F -> Prop) :
  (forall p q, point_eq feq xy_eq p q = true -> Q (GPoint p) (GPoint q)) ->
  (forall l k, line_eq feq xy_eq simple io l k = true -> Q (GLine l) (GLine k)) ->
  (forall p q, poly_eq feq xy_eq simple io p q = true -> Q (GPoly p) (GPoly q)) ->
  (forall ct ps qs, length ps = length qs ->
     structure_eq io (mpoint_member_eq feq xy_eq) ps qs = true -> Q (GMPoint ct ps) (GMPoint ct qs)) ->
  (forall ct ls ks, length ls = length ks ->
     structure_eq io (line_eq feq xy_eq simple io) ls ks = true -> Q (GMLine ct ls) (GMLine ct ks)) ->
  (forall ct ps qs, length ps = length qs ->
     structure_eq io (poly_eq feq xy_eq simple io) ps qs = true -> Q (GMPoly ct ps) (GMPoly ct qs)) ->
  (forall ct gs hs, length gs = length hs ->
     structure_eq io (geom_eq feq xy_eq simple io) gs hs = true ->
     (forall g h, In g gs -> geom_eq feq xy_eq simple io g h = true -> Q g h) ->
     Q (GColl ct gs) (GColl ct hs)) ->
  forall g h, geom_eq feq xy_eq simple io g h = true -> Q g h.
Proof.
  intros Hp Hl Hy Hmp Hml Hmy Hc.
  induction g as [p|l|p|ct ps|ct ls|ct ps|ct gs IH] using geomT_ind';
    intros [q|k|q|ct' qs|ct' ks|ct' qs|ct' hs]; simpl; try discriminate; auto;
    rewrite members_eq_iff; intros [L [<- H]]; auto.
  rewrite Forall_forall in IH. apply Hc; auto.
Qed.

(* ------------------------------------------------------------------ no options: structural identity *)
Lemma vtx_nf_iff {F} ok c (v : vtx F) :
  vtx_nf ok c v = true <->
  ok (vx v) = true /\ ok (vy v) = true /\
  (has_z c = true -> ok (vz v) = true) /\ (has_m c = true -> ok (vm v) = true).
Proof.
  unfold vtx_nf. rewrite !andb_true_iff. destruct (has_z c), (has_m c); simpl; intuition discriminate.
Qed.

Lemma norm_vtx_eq_iff {F} nz zero c (a b : vtx F) :
  norm_vtx nz zero c a = norm_vtx nz zero c b <->
  nz (vx a) = nz (vx b) /\ nz (vy a) = nz (vy b) /\
  (has_z c = true -> nz (vz a) = nz (vz b)) /\ (has_m c = true -> nz (vm a) = nz (vm b)).
Proof.
  unfold norm_vtx. destruct (has_z c), (has_m c);
    (split; [intros [= ]; auto | intros (-> & -> & Z & M); f_equal; auto]);
    repeat split; auto; discriminate.
Qed.

Section Plain.
  Variable F : Type.
  Variable feq : F -> F -> bool.
  Variable simple : lineT F -> bool.
  Variable nz : F -> F.
  Variable zero : F.
  Variable ok : F -> bool.
  Hypothesis feq_spec : forall a b, ok a = true -> ok b = true -> (feq a b = true <-> nz a = nz b).
  (* the test on unused fields plays no part: only the coordinate types of the nodes are read *)
  Variable z : F -> bool.

  Notation xy := (xy_exact feq).
  Notation ceq := (coord_eq feq xy).
  Notation nv := (norm_vtx nz zero).
  Notation gok := (geom_ok z).

  Lemma coord_eq_norm ct a b :
    vtx_nf ok ct a = true -> vtx_nf ok ct b = true ->
    (ceq ct a ct b = true <-> nv ct a = nv ct b).
  Proof.
    rewrite !vtx_nf_iff, coord_eq_iff, norm_vtx_eq_iff. unfold xy_exact. rewrite andb_true_iff.
    intros (ax & ay & az & am) (bx & by_ & bz & bm).
    split; [intros (_ & [X Y] & Z & M) | intros (X & Y & Z & M)];
      repeat split; try intros Hc; apply feq_spec; auto.
  Qed.

  Lemma line_plain_norm l1 l2 :
    line_nf ok l1 = true -> line_nf ok l2 = true ->
    (line_eq feq xy simple false l1 l2 = true <-> norm_line nz zero l1 = norm_line nz zero l2).
  Proof.
    destruct l1 as [ct1 c1], l2 as [ct2 c2]. unfold line_nf; simpl. rewrite !forallb_forall.
    intros N1 N2. rewrite line_eq_plain. simpl. split.
    - intros [-> H]. f_equal. revert H. apply Forall2_map_eq.
      intros a b Ha Hb. apply coord_eq_norm; auto.
    - intros [= -> E]. split; auto. revert E. apply Forall2_map_eq.
      intros a b Ha Hb. apply coord_eq_norm; auto.
  Qed.

  Lemma point_plain_norm p1 p2 :
    point_nf ok p1 = true -> point_nf ok p2 = true ->
    (point_eq feq xy p1 p2 = true <-> norm_point nz zero p1 = norm_point nz zero p2).
  Proof.
    destruct p1 as [ct1 [a|]], p2 as [ct2 [b|]]; unfold point_nf, point_eq; simpl; intros N1 N2.
    - split.
      + intros H. pose proof (coord_eq_ct _ _ _ _ _ _ _ H) as ->. apply coord_eq_norm in H; auto. congruence.
      + intros E. assert (ct1 = ct2) by congruence. subst ct1. apply coord_eq_norm; auto.
        unfold norm_vtx in *. congruence.
    - split; discriminate.
    - split; discriminate.
    - rewrite ct_eqb_eq. split; [intros ->; reflexivity | intros [= ->]; reflexivity].
  Qed.

  Lemma mpoint_member_plain_norm p1 p2 :
    point_ct p1 = point_ct p2 ->
    point_nf ok p1 = true -> point_nf ok p2 = true ->
    (mpoint_member_eq feq xy p1 p2 = true <-> norm_point nz zero p1 = norm_point nz zero p2).
  Proof.
    destruct p1 as [ct1 [a|]], p2 as [ct2 [b|]]; unfold point_nf, mpoint_member_eq; simpl; intros -> N1 N2.
    - rewrite coord_eq_norm by auto. unfold norm_vtx. split; [congruence | intros E; congruence].
    - split; discriminate.
    - split; discriminate.
    - split; reflexivity.
  Qed.


  Lemma ring_facts c p r :
    poly_ok z c p = true -> poly_nf ok p = true -> In r (poly_rings p) ->
    line_nf ok r = true /\ line_vs r <> [] /\ line_ct r = c.
  Proof.
    destruct p as [ct rs]. unfold poly_ok, poly_nf. simpl. rewrite andb_true_iff, !forallb_forall.
    intros [_ K] N Hr. specialize (N r Hr). specialize (K r Hr). destruct r as [rc rv].
    unfold ring_nf in N. simpl in *. apply andb_true_iff in N, K. rewrite ct_eqb_eq in K.
    repeat split; try tauto. destruct rv; [destruct N|]; discriminate.
  Qed.

  Lemma poly_plain_norm c1 c2 p1 p2 :
    poly_ok z c1 p1 = true -> poly_ok z c2 p2 = true ->
    poly_nf ok p1 = true -> poly_nf ok p2 = true ->
    (poly_eq feq xy simple false p1 p2 = true <-> norm_poly nz zero p1 = norm_poly nz zero p2).
  Proof.
    intros K1 K2 N1 N2. pose proof (ring_facts c1 p1) as RN1. pose proof (ring_facts c2 p2) as RN2.
    specialize (fun r => RN1 r K1 N1). specialize (fun r => RN2 r K2 N2).
    destruct p1 as [ct1 rs1], p2 as [ct2 rs2]. unfold poly_ok in K1, K2. simpl in *.
    apply andb_true_iff in K1, K2. destruct K1 as [C1 _], K2 as [C2 _]. apply ct_eqb_eq in C1, C2. subst c1 c2.
    unfold poly_eq, structure_eq. rewrite !andb_true_iff.
    destruct rs1 as [|e1 h1], rs2 as [|e2 h2]; cbn [int_rings poly_rings ext_ring length map Nat.eqb all2].
    - rewrite line_eq_plain. simpl. split.
      + intros [[_ [-> _]] _]. reflexivity.
      + intros [= ->]. repeat split; auto.
    - split; [|discriminate]. intros [[_ H] _]. apply line_eq_plain in H. simpl in H. destruct H as [_ H].
      destruct (RN2 e2 (or_introl eq_refl)) as [_ [NE _]]. inversion H. congruence.
    - split; [|discriminate]. intros [[_ H] _]. apply line_eq_plain in H. simpl in H. destruct H as [_ H].
      destruct (RN1 e1 (or_introl eq_refl)) as [_ [NE _]]. inversion H. congruence.
    - destruct (RN1 e1 (or_introl eq_refl)) as [Ne1 [_ Ce1]].
      destruct (RN2 e2 (or_introl eq_refl)) as [Ne2 [_ Ce2]].
      rewrite (line_plain_norm e1 e2 Ne1 Ne2).
      rewrite (all2_map_eq _ (norm_line nz zero) (norm_line nz zero))
        by (intros a b Ha Hb; apply line_plain_norm; [apply RN1 | apply RN2]; right; assumption).
      split.
      + intros [[_ E] H]. f_equal; [|congruence].
        apply (f_equal (@line_ct F)) in E. destruct e1, e2; simpl in *. congruence.
      + intros [= -> E H]. repeat split; auto.
        apply Nat.eqb_eq. apply (f_equal (@length _)) in H. rewrite !map_length in H. exact H.
  Qed.

  Lemma members_plain_norm {A} (e : A -> A -> bool) (f : A -> A) c1 l c2 m :
    (c1 = c2 -> forall a b, In a l -> In b m -> (e a b = true <-> f a = f b)) ->
    ((length l =? length m) && ct_eqb c1 c2 && all2 e l m = true <-> c1 = c2 /\ map f l = map f m).
  Proof.
    intros H. rewrite (members_eq_iff false). unfold structure_eq. split.
    - intros (_ & C & E). split; [exact C|]. revert E. apply all2_map_eq, H, C.
    - intros [C E]. repeat split; auto.
      + rewrite <- (map_length f l), E. apply map_length.
      + revert E. apply all2_map_eq, H, C.
  Qed.

  Lemma geom_plain_norm g : forall h c1 c2,
    gok c1 g = true -> gok c2 h = true ->
    geom_nf ok g = true -> geom_nf ok h = true ->
    (geom_eq feq xy simple false g h = true <-> norm_geom nz zero g = norm_geom nz zero h).
  Proof.
    induction g as [p|l|p|ct ps|ct ls|ct ps|ct gs IH] using geomT_ind';
      intros h c1 c2 K1 K2 N1 N2; destruct h as [q|k|q|ct' qs|ct' ks|ct' qs|ct' hs];
      try (simpl; split; discriminate); simpl in *.
    1: rewrite point_plain_norm by assumption; split; [congruence | intros [= E]; exact E].
    1: rewrite line_plain_norm by assumption; split; [congruence | intros [= E]; exact E].
    1: rewrite (poly_plain_norm c1 c2) by assumption; split; [congruence | intros [= E]; exact E].
    all: apply andb_true_iff in K1, K2; destruct K1 as [C1 K1], K2 as [C2 K2];
      rewrite forallb_forall in K1, K2, N1, N2.
    1: rewrite (members_plain_norm _ (norm_point nz zero)).
    3: rewrite (members_plain_norm _ (norm_line nz zero)).
    5: rewrite (members_plain_norm _ (norm_poly nz zero)).
    7: rewrite (members_plain_norm _ (norm_geom nz zero)).
    1,3,5,7: split; [intros [-> ->]; reflexivity | intros [= -> ->]; auto].
    all: intros C a b Ha Hb.
    - apply mpoint_member_plain_norm; auto. specialize (K1 a Ha). specialize (K2 b Hb).
      destruct a, b. simpl in *. rewrite andb_true_iff, ct_eqb_eq in *. destruct K1, K2. congruence.
    - apply line_plain_norm; auto.
    - apply (poly_plain_norm c1 c2); auto.
    - rewrite Forall_forall in IH. apply (IH a Ha b c1 c2); auto.
  Qed.
End Plain.

(* ------------------------------------------------------------------ bit patterns *)
Local Open Scope N_scope.

Lemma is_nan_fast_eq b : is_nan_fast b = is_nan b.
Proof.
  unfold is_nan_fast, is_nan.
  change 2047 with (N.ones 11). change 4503599627370495 with (N.ones 52).
  rewrite !N.land_ones, N.shiftr_div_pow2. reflexivity.
Qed.

Lemma feq_bits_spec a b :
  negb (is_nan_fast a) = true -> negb (is_nan_fast b) = true ->
  (feq_bits a b = true <-> nz_bits a = nz_bits b).
Proof.
  intros Ha Hb. unfold feq_bits, nz_bits, is_zero_bits.
  destruct (N.eqb_spec a b) as [->|Hab].
  - rewrite Hb. tauto.
  - rewrite andb_true_iff, !orb_true_iff, !N.eqb_eq.
    destruct (N.eqb_spec a sign_bit) as [Ha'|Ha'], (N.eqb_spec b sign_bit) as [Hb'|Hb'];
      unfold sign_bit in *; lia.
Qed.

Lemma feq_bits_sym a b : feq_bits a b = feq_bits b a.
Proof.
  unfold feq_bits. rewrite (N.eqb_sym b a). destruct (N.eqb_spec a b) as [->|]; [reflexivity|].
  apply andb_comm.
Qed.

Lemma nz_not_nan x : negb (is_nan x) = true -> negb (is_nan (nz_bits x)) = true.
Proof. unfold nz_bits. destruct (x =? sign_bit); auto. Qed.

Lemma nz_lt x : x <? two64 = true -> nz_bits x <? two64 = true.
Proof. unfold nz_bits. destruct (x =? sign_bit); auto. Qed.

Lemma forallb_map_impl {A B} (p : A -> bool) (q : B -> bool) (f : A -> B) l :
  (forall x, In x l -> p x = true -> q (f x) = true) -> forallb p l = true -> forallb q (map f l) = true.
Proof.
  rewrite !forallb_forall. intros H K y Hy. apply in_map_iff in Hy. destruct Hy as [x [<- Hx]]. auto.
Qed.

Section WfNorm.
  Notation nv := (norm_vtx nz_bits 0).

  Lemma vtx_ok_norm c v : vtx_ok (N.eqb 0) c (nv c v) = true.
  Proof. unfold vtx_ok, norm_vtx. destruct c; reflexivity. Qed.

  Lemma vtx_bits_ok_norm c v : vtx_bits_ok v = true -> vtx_bits_ok (nv c v) = true.
  Proof.
    unfold vtx_bits_ok, norm_vtx. rewrite !andb_true_iff. simpl. intros [[[X Y] Z] M].
    repeat split; try (apply nz_lt; assumption); destruct c; simpl; auto using nz_lt.
  Qed.

  Lemma point_ok_norm c p : point_ok (N.eqb 0) c p = true -> point_ok (N.eqb 0) c (norm_point nz_bits 0 p) = true.
  Proof.
    destruct p as [ct [v|]]; simpl; rewrite ?andb_true_iff; auto.
    intros [C _]. split; auto. apply ct_eqb_eq in C. subst. apply vtx_ok_norm.
  Qed.
  Lemma line_ok_norm c l : line_ok (N.eqb 0) c l = true -> line_ok (N.eqb 0) c (norm_line nz_bits 0 l) = true.
  Proof.
    destruct l as [ct vs]; simpl; rewrite !andb_true_iff. intros [C H]. split; auto.
    apply ct_eqb_eq in C. subst. revert H. apply forallb_map_impl. auto using vtx_ok_norm.
  Qed.
  Lemma poly_ok_norm c p : poly_ok (N.eqb 0) c p = true -> poly_ok (N.eqb 0) c (norm_poly nz_bits 0 p) = true.
  Proof.
    destruct p as [ct rs]; simpl; rewrite !andb_true_iff. intros [C H]. split; auto.
    revert H. apply forallb_map_impl. auto using line_ok_norm.
  Qed.
  Lemma geom_ok_norm g : forall c, geom_ok (N.eqb 0) c g = true -> geom_ok (N.eqb 0) c (nzg g) = true.
  Proof.
    unfold nzg. induction g as [p|l|p|ct ps|ct ls|ct ps|ct gs IH] using geomT_ind'; intros c; simpl;
      auto using point_ok_norm, line_ok_norm, poly_ok_norm;
      rewrite !andb_true_iff; intros [C H]; split; auto; revert H; apply forallb_map_impl;
      auto using point_ok_norm, line_ok_norm, poly_ok_norm.
    rewrite Forall_forall in IH. auto.
  Qed.

  Lemma count_ok_map {A B} (f : A -> B) l : count_ok (map f l) = count_ok l.
  Proof. unfold count_ok. rewrite map_length. reflexivity. Qed.

  Lemma point_wf_norm p : point_wf p = true -> point_wf (norm_point nz_bits 0 p) = true.
  Proof.
    destruct p as [ct [v|]]; unfold point_wf; simpl; auto. rewrite !andb_true_iff.
    intros [[B X] Y]. repeat split; auto using vtx_bits_ok_norm, nz_not_nan.
  Qed.
  Lemma line_wf_norm l : line_wf l = true -> line_wf (norm_line nz_bits 0 l) = true.
  Proof.
    destruct l as [ct vs]; unfold line_wf; simpl. rewrite count_ok_map, !andb_true_iff.
    intros [C H]; split; auto. revert H. apply forallb_map_impl. auto using vtx_bits_ok_norm.
  Qed.
  Lemma poly_wf_norm p : poly_wf p = true -> poly_wf (norm_poly nz_bits 0 p) = true.
  Proof.
    destruct p as [ct rs]; unfold poly_wf; simpl. rewrite count_ok_map, !andb_true_iff.
    intros [C H]; split; auto. revert H. apply forallb_map_impl. auto using line_wf_norm.
  Qed.
  Lemma geom_wf_norm g : geom_wf g = true -> geom_wf (nzg g) = true.
  Proof.
    unfold nzg. induction g as [p|l|p|ct ps|ct ls|ct ps|ct gs IH] using geomT_ind'; simpl;
      auto using point_wf_norm, line_wf_norm, poly_wf_norm;
      rewrite count_ok_map, !andb_true_iff; intros [C H]; split; auto; revert H; apply forallb_map_impl;
      auto using point_wf_norm, line_wf_norm, poly_wf_norm.
    rewrite Forall_forall in IH. auto.
  Qed.

  Lemma geom_ct_norm g : geom_ct (nzg g) = geom_ct g.
  Proof. destruct g as [[? ?]|[? ?]|[? ?]| | | | ]; reflexivity. Qed.

  Lemma wf_wkb_norm g : wf_wkb g = true -> wf_wkb (nzg g) = true.
  Proof.
    unfold wf_wkb, consistent. rewrite !andb_true_iff, geom_ct_norm. intros [K W].
    auto using geom_ok_norm, geom_wf_norm.
  Qed.
End WfNorm.

Lemma bytes_eqb_eq a : forall b, bytes_eqb a b = true <-> a = b.
Proof.
  induction a as [|x r IH]; intros [|y s]; simpl; try (split; [discriminate | discriminate]); try tauto.
  rewrite andb_true_iff, N.eqb_eq, IH. split; [intros [-> ->]; reflexivity | intros [= -> ->]; auto].
Qed.

(* Theorem 1 on bit patterns *)
Lemma ee_iff_norm_bits simple z g h :
  consistent z g = true -> consistent z h = true -> nan_free g = true -> nan_free h = true ->
  (exact_equals simple 0 false g h = true <-> nzg g = nzg h).
Proof.
  unfold exact_equals, nzg. change (xy_eq_bits 0) with (fun a b : vtx N => xy_exact feq_bits a b).
  apply (geom_plain_norm N feq_bits simple nz_bits 0 _ feq_bits_spec).
Qed.

Lemma ee_iff_wkb_lemma simple g h :
  wf_wkb g = true -> wf_wkb h = true -> nan_free g = true -> nan_free h = true ->
  (exact_equals simple 0 false g h = true <-> enc (nzg g) = enc (nzg h)).
Proof.
  intros Wg Wh Ng Nh.
  rewrite (ee_iff_norm_bits simple (N.eqb 0)) by (try apply wf_split; assumption). split.
  - intros ->. reflexivity.
  - intros E. pose proof (wkb_injective_lemma (fun _ => LE) (fun _ => LE) (nzg g) (nzg h) [] []
                            (wf_wkb_norm g Wg) (wf_wkb_norm h Wh)) as I.
    unfold enc in E. rewrite E in I. specialize (I eq_refl). tauto.
Qed.

Lemma ee_iff_wkb_equal_lemma simple g h :
  wf_wkb g = true -> wf_wkb h = true -> nan_free g = true -> nan_free h = true ->
  exact_equals simple 0 false g h = wkb_equal g h.
Proof.
  intros Wg Wh Ng Nh. apply eq_true_iff_eq. unfold wkb_equal. rewrite bytes_eqb_eq.
  apply ee_iff_wkb_lemma; assumption.
Qed.

Lemma ee_equivalence_lemma simple :
  (forall g, cts_agree g = true -> nan_free g = true -> exact_equals simple 0 false g g = true) /\
  (forall g h, cts_agree g = true -> cts_agree h = true -> nan_free g = true -> nan_free h = true ->
               exact_equals simple 0 false g h = true -> exact_equals simple 0 false h g = true) /\
  (forall g h k, cts_agree g = true -> cts_agree h = true -> cts_agree k = true ->
                 nan_free g = true -> nan_free h = true -> nan_free k = true ->
                 exact_equals simple 0 false g h = true -> exact_equals simple 0 false h k = true ->
                 exact_equals simple 0 false g k = true).
Proof.
  pose proof (ee_iff_norm_bits simple (fun _ => true)) as E.
  repeat split.
  - intros g C N. apply E; auto.
  - intros g h Cg Ch Ng Nh H. apply E; auto. symmetry. apply (E g h); auto.
  - intros g h k Cg Ch Ck Ng Nh Nk H1 H2. apply E; auto.
    apply (E g h) in H1; auto. apply (E h k) in H2; auto. congruence.
Qed.

(* ------------------------------------------------------------------ monotonicity *)
Local Close Scope N_scope.

Section Mono.
  Variable F : Type.
  Variables feq1 feq2 : F -> F -> bool.
  Variables xy1 xy2 : vtx F -> vtx F -> bool.
  Variables simple1 simple2 : lineT F -> bool.
  Variables io1 io2 : bool.
  Hypothesis Hf : forall a b, feq1 a b = true -> feq2 a b = true.
  Hypothesis Hx : forall a b, xy1 a b = true -> xy2 a b = true.
  Hypothesis Hio : io1 = true -> io2 = true.
  (* the simplicity oracle only matters under IgnoreOrder *)
  Hypothesis Hs : forall l, io1 = true -> simple1 l = true -> simple2 l = true.

  Lemma coord_eq_mono c a c' b : coord_eq feq1 xy1 c a c' b = true -> coord_eq feq2 xy2 c a c' b = true.
  Proof.
    rewrite !coord_eq_iff. intros (C & X & Z & M). auto 6.
  Qed.

  Lemma same_curve_mono c c' v w n m1 m2 :
    same_curve feq1 xy1 c c' v w n m1 m2 = true -> same_curve feq2 xy2 c c' v w n m1 m2 = true.
  Proof.
    rewrite !same_curve_spec. intros H i Hi. destruct (H i Hi) as [a [b [E1 [E2 E]]]].
    exists a, b. auto using coord_eq_mono.
  Qed.

  Lemma is_closed_mono l : is_closed feq1 l = true -> is_closed feq2 l = true.
  Proof. unfold is_closed. destruct (line_vs l); auto. rewrite !andb_true_iff. intros []; auto. Qed.

  Lemma ends_eq_mono l : ends_eq feq1 xy1 l = true -> ends_eq feq2 xy2 l = true.
  Proof. unfold ends_eq. destruct (line_vs l); auto using coord_eq_mono. Qed.

  Lemma are_rings_mono l k :
    io1 = true -> are_rings F feq1 xy1 simple1 l k = true -> are_rings F feq2 xy2 simple2 l k = true.
  Proof.
    intros I. unfold are_rings, is_ring. rewrite !andb_true_iff.
    intros [[[[C1 S1] [C2 S2]] E1] E2]. auto 10 using is_closed_mono, ends_eq_mono.
  Qed.

  Lemma line_eq_mono l k :
    line_eq feq1 xy1 simple1 io1 l k = true -> line_eq feq2 xy2 simple2 io2 l k = true.
  Proof.
    rewrite !line_eq_iff. intros [L [C H]]. repeat split; auto. cbv zeta in *.
    destruct H as [H|[I [H|[R [o [Ho [H|H]]]]]]].
    - left. apply same_curve_mono; assumption.
    - right. split; auto. left. apply same_curve_mono; assumption.
    - right. split; auto. right. split; [apply are_rings_mono; assumption|].
      exists o. split; auto. left. apply same_curve_mono; assumption.
    - right. split; auto. right. split; [apply are_rings_mono; assumption|].
      exists o. split; auto. right. apply same_curve_mono; assumption.
  Qed.

  Lemma point_eq_mono p q : point_eq feq1 xy1 p q = true -> point_eq feq2 xy2 p q = true.
  Proof. unfold point_eq. destruct (point_c p), (point_c q); auto using coord_eq_mono. Qed.
  Lemma mpoint_member_eq_mono p q : mpoint_member_eq feq1 xy1 p q = true -> mpoint_member_eq feq2 xy2 p q = true.
  Proof. unfold mpoint_member_eq. destruct (point_c p), (point_c q); auto using coord_eq_mono. Qed.

  Lemma structure_eq_mono {A B} (e1 e2 : A -> B -> bool) l m :
    length l = length m ->
    (forall a b, In a l -> e1 a b = true -> e2 a b = true) ->
    structure_eq io1 e1 l m = true -> structure_eq io2 e2 l m = true.
  Proof.
    intros L H. unfold structure_eq. destruct io1.
    - rewrite Hio by reflexivity. intros V. apply vp_sound in V; [|assumption].
      destruct V as [p [P Fp]]. eapply vp_complete; [exact P|].
      eapply Forall2_impl_in; [|exact Fp]. simpl. auto.
    - intros V. apply all2_true_iff in V.
      assert (V2 : Forall2 (fun a b => e2 a b = true) l m) by (eapply Forall2_impl_in; [|exact V]; simpl; auto).
      destruct io2.
      + eapply vp_complete; [apply Permutation_refl | exact V2].
      + apply all2_true_iff; exact V2.
  Qed.

  Lemma poly_eq_mono p q : poly_eq feq1 xy1 simple1 io1 p q = true -> poly_eq feq2 xy2 simple2 io2 p q = true.
  Proof.
    unfold poly_eq. rewrite !andb_true_iff. intros [[L E] H]. repeat split; auto using line_eq_mono.
    revert H. apply structure_eq_mono; [apply Nat.eqb_eq; assumption | auto using line_eq_mono].
  Qed.

  Lemma geom_eq_mono g h :
    geom_eq feq1 xy1 simple1 io1 g h = true -> geom_eq feq2 xy2 simple2 io2 g h = true.
  Proof.
    revert g h. apply geom_eq_ind; simpl; auto using point_eq_mono, line_eq_mono, poly_eq_mono;
      intros ct l m L H; intros; (apply members_eq_intro; [exact L|]); revert H;
      apply structure_eq_mono; auto using mpoint_member_eq_mono, line_eq_mono, poly_eq_mono.
  Qed.
End Mono.

(* ------------------------------------------------------------------ reflexivity, symmetry *)
Lemma all2_refl_in {A} (e : A -> A -> bool) l : (forall a, In a l -> e a a = true) -> all2 e l l = true.
Proof. intros H. apply all2_true_iff, Forall2_refl_in, H. Qed.

Lemma all2_sym_in {A B} (e : A -> B -> bool) (e' : B -> A -> bool) l : forall m,
  (forall a b, In a l -> e a b = true -> e' b a = true) -> all2 e l m = true -> all2 e' m l = true.
Proof. intros m H. rewrite !all2_true_iff. apply Forall2_flip, H. Qed.

Section Refl.
  Variable F : Type.
  Variable feq : F -> F -> bool.
  Variable xy_eq : vtx F -> vtx F -> bool.
  Variable simple : lineT F -> bool.
  Variable ok : F -> bool.
  Hypothesis Hf : forall a, ok a = true -> feq a a = true.
  Hypothesis Hx : forall a, ok (vx a) = true -> ok (vy a) = true -> xy_eq a a = true.

  Lemma coord_eq_refl ct a : vtx_nf ok ct a = true -> coord_eq feq xy_eq ct a ct a = true.
  Proof.
    rewrite vtx_nf_iff, coord_eq_iff. intros (X & Y & Z & M). auto 6.
  Qed.

  Lemma line_eq_refl l : line_nf ok l = true -> line_eq feq xy_eq simple false l l = true.
  Proof.
    unfold line_nf. rewrite forallb_forall. intros N. apply line_eq_plain. split; auto.
    apply Forall2_refl_in. intros a Ha. apply coord_eq_refl, N, Ha.
  Qed.

  Lemma point_eq_refl p : point_nf ok p = true -> point_eq feq xy_eq p p = true.
  Proof. destruct p as [ct [v|]]; unfold point_nf, point_eq; simpl; auto using coord_eq_refl, ct_eqb_refl. Qed.
  Lemma mpoint_member_eq_refl p : point_nf ok p = true -> mpoint_member_eq feq xy_eq p p = true.
  Proof. destruct p as [ct [v|]]; unfold point_nf, mpoint_member_eq; simpl; auto using coord_eq_refl. Qed.

  Lemma poly_eq_refl p : poly_nf ok p = true -> poly_eq feq xy_eq simple false p p = true.
  Proof.
    destruct p as [ct rs]. unfold poly_nf, poly_eq, structure_eq. simpl. rewrite forallb_forall. intros N.
    rewrite Nat.eqb_refl. simpl.
    assert (R : forall r, In r rs -> line_eq feq xy_eq simple false r r = true).
    { intros r Hr. apply line_eq_refl. specialize (N r Hr). unfold ring_nf in N. apply andb_true_iff in N. tauto. }
    destruct rs as [|e hs]; cbn [ext_ring int_rings poly_rings].
    - rewrite line_eq_refl by reflexivity. reflexivity.
    - rewrite R by (simpl; auto). simpl. apply all2_refl_in. intros; apply R; simpl; auto.
  Qed.

  Lemma geom_eq_refl_plain g : geom_nf ok g = true -> geom_eq feq xy_eq simple false g g = true.
  Proof.
    induction g as [p|l|p|ct ps|ct ls|ct ps|ct gs IH] using geomT_ind'; simpl;
      auto using point_eq_refl, line_eq_refl, poly_eq_refl;
      rewrite forallb_forall; intros N; rewrite Nat.eqb_refl, ct_eqb_refl; simpl;
      unfold structure_eq; apply all2_refl_in;
      auto using mpoint_member_eq_refl, line_eq_refl, poly_eq_refl.
    rewrite Forall_forall in IH. auto.
  Qed.

  Lemma geom_eq_refl io g : geom_nf ok g = true -> geom_eq feq xy_eq simple io g g = true.
  Proof.
    intros N. apply (geom_eq_mono F feq feq xy_eq xy_eq simple simple false io); auto; try discriminate.
    apply geom_eq_refl_plain; assumption.
  Qed.
End Refl.

Section SymPlain.
  Variable F : Type.
  Variable feq : F -> F -> bool.
  Variable xy_eq : vtx F -> vtx F -> bool.
  Variable simple : lineT F -> bool.
  Hypothesis Hf : forall a b, feq a b = true -> feq b a = true.
  Hypothesis Hx : forall a b, xy_eq a b = true -> xy_eq b a = true.

  Lemma coord_eq_sym c a c' b : coord_eq feq xy_eq c a c' b = true -> coord_eq feq xy_eq c' b c a = true.
  Proof.
    rewrite !coord_eq_iff. intros (<- & X & Z & M). auto 6.
  Qed.

  Lemma line_eq_sym_plain l k :
    line_eq feq xy_eq simple false l k = true -> line_eq feq xy_eq simple false k l = true.
  Proof.
    rewrite !line_eq_plain. intros [C H]. split; auto.
    revert H. apply Forall2_flip. intros; apply coord_eq_sym; assumption.
  Qed.

  Lemma point_eq_sym p q : point_eq feq xy_eq p q = true -> point_eq feq xy_eq q p = true.
  Proof.
    unfold point_eq. destruct (point_c p), (point_c q); auto using coord_eq_sym.
    rewrite !ct_eqb_eq; auto.
  Qed.
  Lemma mpoint_member_eq_sym p q : mpoint_member_eq feq xy_eq p q = true -> mpoint_member_eq feq xy_eq q p = true.
  Proof. unfold mpoint_member_eq. destruct (point_c p), (point_c q); auto using coord_eq_sym. Qed.

  Lemma poly_eq_sym_plain p q :
    poly_eq feq xy_eq simple false p q = true -> poly_eq feq xy_eq simple false q p = true.
  Proof.
    unfold poly_eq, structure_eq. rewrite !andb_true_iff, !Nat.eqb_eq. intros [[L E] H].
    repeat split; auto using line_eq_sym_plain.
    revert H. apply all2_sym_in. auto using line_eq_sym_plain.
  Qed.

  Lemma geom_eq_sym_plain g h :
    geom_eq feq xy_eq simple false g h = true -> geom_eq feq xy_eq simple false h g = true.
  Proof.
    revert g h. apply geom_eq_ind; simpl; auto using point_eq_sym, line_eq_sym_plain, poly_eq_sym_plain;
      intros ct l m L H; intros; (apply (members_eq_intro false); [auto|]); revert H;
      apply all2_sym_in; auto using mpoint_member_eq_sym, line_eq_sym_plain, poly_eq_sym_plain.
  Qed.
End SymPlain.

(* ------------------------------------------------------------------ rotation of a closed sequence *)
Section Rot.
  Variable F : Type.

  Lemma rot1_app (v0 : vtx F) t vl :
    rot1 ((v0 :: t) ++ [vl]) = match t with [] => [v0; v0] | v1 :: _ => t ++ [v0; v1] end.
  Proof. unfold rot1. rewrite removelast_last. reflexivity. Qed.

  Lemma rot1_nth (c : list (vtx F)) i :
    2 <= length c -> i < length c ->
    length (rot1 c) = length c /\ nth_error (rot1 c) i = nth_error c ((i + 1) mod (length c - 1)).
  Proof.
    intros Hn Hi. destruct (exists_last (l := c)) as [op [vl E]]; [intros ->; simpl in Hn; lia|].
    subst c. destruct op as [|v0 t]; [simpl in Hn; lia|].
    rewrite rot1_app. rewrite app_length in *. cbn [length] in *.
    replace (S (length t) + 1 - 1) with (S (length t)) by lia.
    destruct t as [|v1 t'].
    - simpl in *. split; auto. destruct i as [|[|i]]; simpl; try reflexivity. lia.
    - change (match v1 :: t' with [] => [v0; v0] | v2 :: _ => (v1 :: t') ++ [v0; v2] end)
        with ((v1 :: t') ++ [v0; v1]).
      remember (v1 :: t') as t eqn:Et.
      assert (H0 : nth_error t 0 = Some v1) by (subst; reflexivity).
      assert (Lt : 1 <= length t) by (subst; simpl; lia). clear Et t'.
      split.
      + rewrite !app_length. simpl. lia.
      + destruct (Nat.lt_ge_cases i (length t)) as [Hlt|Hge].
        * rewrite nth_error_app1 by lia.
          rewrite Nat.mod_small by lia. replace (i + 1) with (S i) by lia.
          change ((v0 :: t) ++ [vl]) with (v0 :: (t ++ [vl])). cbn [nth_error].
          rewrite nth_error_app1 by lia. reflexivity.
        * rewrite nth_error_app2 by lia.
          destruct (Nat.eq_dec i (length t)) as [->|Hne].
          -- rewrite Nat.sub_diag.
             replace (length t + 1) with (1 * S (length t)) by lia.
             rewrite Nat.mod_mul by lia. reflexivity.
          -- assert (i = S (length t)) by lia. subst i.
             replace (S (length t) - length t) with 1 by lia.
             replace (S (length t) + 1) with (1 + 1 * S (length t)) by lia.
             rewrite Nat.mod_add by lia. rewrite Nat.mod_small by lia.
             change ((v0 :: t) ++ [vl]) with (v0 :: (t ++ [vl])). cbn [nth_error].
             destruct t; [simpl in Lt; lia|]. simpl in *. congruence.
  Qed.

  Lemma rotk_nth (c : list (vtx F)) k :
    2 <= length c -> 1 <= k ->
    length (rotk k c) = length c /\
    forall i, i < length c -> nth_error (rotk k c) i = nth_error c ((i + k) mod (length c - 1)).
  Proof.
    intros Hn Hk. induction k as [|k IH]; [lia|].
    destruct k as [|k].
    - simpl. split; [apply (rot1_nth c 0); lia|]. intros i Hi. apply rot1_nth; assumption.
    - destruct IH as [L IH]; [lia|]. change (rotk (S (S k)) c) with (rot1 (rotk (S k) c)).
      split.
      + rewrite <- L. apply (rot1_nth _ 0); lia.
      + intros i Hi. destruct (rot1_nth (rotk (S k) c) i) as [_ E]; try lia.
        rewrite E, L. rewrite IH.
        * f_equal. rewrite Nat.add_mod_idemp_l by lia. f_equal. lia.
        * assert ((i + 1) mod (length c - 1) < length c - 1) by (apply Nat.mod_upper_bound; lia). lia.
  Qed.
End Rot.

(* ------------------------------------------------------------------ IgnoreOrder: nothing else *)
Section IOSound.
  Variable F : Type.
  Variable feq : F -> F -> bool.
  Variable simple : lineT F -> bool.
  Notation xy := (xy_exact feq).
  Notation ceq := (coord_eq feq xy).
  Notation OE := (OrderEquiv feq simple).
  Notation gok := (geom_ok (fun _ : F => true)).

  Lemma line_io_sound l1 l2 :
    line_eq feq xy simple true l1 l2 = true -> OE (GLine l1) (GLine l2).
  Proof.
    intros H. apply line_eq_iff in H. destruct H as [L [C H]]. cbv zeta in H.
    destruct l1 as [ct c1], l2 as [ct2 c2]. simpl in *. subst ct2.
    destruct H as [H|[_ [H|[R [o [Ho H]]]]]].
    - apply OE_plain. unfold plain_eq. simpl. apply line_eq_iff. simpl. auto.
    - apply same_curve_rev in H; [|assumption].
      eapply OE_trans; [|apply OE_sym, OE_reverse].
      apply OE_plain. unfold plain_eq. simpl. apply line_eq_plain. simpl. auto.
    - unfold are_rings in R. rewrite !andb_true_iff in R. destruct R as [[[R1 R2] E1] E2].
      destruct (rotk_nth F c2 o) as [Lr Nr]; try lia.
      assert (Nr' : forall i, i < length c1 -> nth_error (rotk o c2) i = nth_error c2 ((i + o) mod (length c1 - 1)))
        by (intros i Hi; rewrite Nr, L by lia; reflexivity).
      apply OE_sym.
      destruct H as [H|H]; [apply OE_ring with (k := o) (flip := false) | apply OE_ring with (k := o) (flip := true)];
        try (split; assumption); revert H; apply same_curve_lists; auto; try lia.
      + apply rev_length.
      + intros i Hi. apply nth_error_rev. assumption.
  Qed.

  Lemma line_eq_empty io l1 l2 :
    line_vs l1 = [] ->
    line_eq feq xy simple io l1 l2 = true -> line_eq feq xy simple false l1 l2 = true.
  Proof.
    intros E. rewrite !line_eq_iff. rewrite E. simpl. intros [L [C _]]. repeat split; auto.
  Qed.

  Lemma poly_io_sound c1 c2 p1 p2 :
    poly_ok (fun _ : F => true) c1 p1 = true -> poly_ok (fun _ : F => true) c2 p2 = true ->
    poly_eq feq xy simple true p1 p2 = true -> OE (GPoly p1) (GPoly p2).
  Proof.
    destruct p1 as [ct1 rs1], p2 as [ct2 rs2]. unfold poly_ok, poly_eq, structure_eq. simpl.
    rewrite !andb_true_iff, !forallb_forall, !Nat.eqb_eq. intros [C1 K1] [C2 K2] [[L E] H].
    apply ct_eqb_eq in C1, C2. subst c1 c2.
    destruct rs1 as [|e1 h1], rs2 as [|e2 h2]; cbn [int_rings poly_rings ext_ring length] in *.
    - apply line_eq_iff in E. simpl in E. destruct E as [_ [-> _]]. apply OE_in_poly. constructor.
    - destruct h2; [|discriminate]. apply OE_plain. unfold plain_eq. simpl. unfold poly_eq, structure_eq. cbn [int_rings poly_rings ext_ring length all2 Nat.eqb andb].
      rewrite (line_eq_empty true) by auto. reflexivity.
    - destruct h1; [|discriminate]. apply OE_plain. unfold plain_eq. simpl. unfold poly_eq, structure_eq. cbn [int_rings poly_rings ext_ring length all2 Nat.eqb andb].
      assert (line_vs e1 = []).
      { apply line_eq_iff in E. simpl in E. destruct E as [E _]. destruct (line_vs e1); [reflexivity|discriminate]. }
      rewrite (line_eq_empty true) by auto. reflexivity.
    - assert (ct1 = ct2).
      { apply line_eq_iff in E. destruct E as [_ [E _]].
        pose proof (K1 e1 (or_introl eq_refl)) as A. pose proof (K2 e2 (or_introl eq_refl)) as B.
        unfold line_ok in A, B. destruct e1, e2. simpl in *. apply andb_true_iff in A, B.
        destruct A as [A _], B as [B _]. apply ct_eqb_eq in A, B. congruence. }
      subst ct2. apply vp_sound in H; [|assumption]. destruct H as [p [P Fp]].
      eapply OE_trans.
      + apply OE_in_poly with (ss := e2 :: p). constructor.
        * apply line_io_sound; assumption.
        * revert Fp. apply Forall2_impl_in. intros; apply line_io_sound; assumption.
      + apply OE_perm_holes. apply Permutation_sym; assumption.
  Qed.

  (* a matching found by validPermutation: reorder the members, then move inside each *)
  Lemma members_io_sound {A} (e : A -> A -> bool) (w : A -> geomT F) (K : list A -> geomT F) l m :
    (forall l m, Permutation l m -> OE (K l) (K m)) ->
    (forall l m, Forall2 (fun a b => OE (w a) (w b)) l m -> OE (K l) (K m)) ->
    (forall a b, In a l -> In b m -> e a b = true -> OE (w a) (w b)) ->
    length l = length m -> structure_eq true e l m = true -> OE (K l) (K m).
  Proof.
    intros Hp Hi He L H. apply vp_sound in H; [|assumption]. destruct H as [p [Pm Fp]].
    eapply OE_trans; [|apply Hp, Permutation_sym; exact Pm]. apply Hi. revert Fp. apply Forall2_impl_in.
    intros a b Ha Hb. apply He; [exact Ha|]. eapply Permutation_in; [apply Permutation_sym; exact Pm | exact Hb].
  Qed.

  Lemma geom_io_sound g h :
    geom_eq feq xy simple true g h = true -> forall c1 c2, gok c1 g = true -> gok c2 h = true -> OE g h.
  Proof.
    revert g h.
    apply (geom_eq_ind _ _ _ _ (fun g h => forall c1 c2, gok c1 g = true -> gok c2 h = true -> OE g h)).
    - intros p q H _ _ _ _. apply OE_plain. exact H.
    - intros l k H _ _ _ _. apply line_io_sound. exact H.
    - intros p q H c1 c2 K1 K2. apply (poly_io_sound c1 c2); assumption.
    - intros ct ps qs L H _ _ _ _. apply vp_sound in H; [|assumption]. destruct H as [p [Pm Fp]].
      eapply OE_trans; [|apply OE_perm_mpoint, Permutation_sym; exact Pm].
      apply OE_plain. unfold plain_eq. simpl. apply (members_eq_iff false). repeat split.
      + eapply Forall2_length'; exact Fp.
      + apply all2_true_iff. exact Fp.
    - intros ct ls ks L H _ _ _ _. revert L H.
      apply (members_io_sound _ (fun l => GLine l) (GMLine ct)); auto using OE_perm_mline, OE_in_mline, line_io_sound.
    - intros ct ps qs L H c1 c2 K1 K2. simpl in K1, K2. rewrite andb_true_iff, forallb_forall in K1, K2. revert L H.
      apply (members_io_sound _ (fun p => GPoly p) (GMPoly ct)); auto using OE_perm_mpoly, OE_in_mpoly.
      intros a b Ha Hb. apply (poly_io_sound c1 c2); [apply K1 | apply K2]; assumption.
    - intros ct gs hs L H IH c1 c2 K1 K2. simpl in K1, K2. rewrite andb_true_iff, forallb_forall in K1, K2. revert L H.
      apply (members_io_sound _ (fun g => g) (GColl ct)); auto using OE_perm_coll, OE_in_coll.
      intros a b Ha Hb E. apply (IH a b Ha E c1 c2); [apply K1 | apply K2]; assumption.
  Qed.
End IOSound.

(* ------------------------------------------------------------------ ToleranceXY *)
Section Tol.
  Local Open Scope Q_scope.

  Lemma len_sq_gt_sym a b a' b' t :
    len_sq_gt (ext_sub a b) (ext_sub a' b') t = len_sq_gt (ext_sub b a) (ext_sub b' a') t.
  Proof.
    assert (E : forall x y, match ext_sub x y, ext_sub y x with
                            | ENaN, ENaN => True | EInf _, EInf _ => True
                            | EFin p, EFin q => p == - q | _, _ => False end).
    { intros [|s|p] [|s'|q]; simpl; auto; try (destruct s, s'; simpl; auto; fail). ring. }
    pose proof (E a b) as E1. pose proof (E a' b') as E2.
    destruct (ext_sub a b), (ext_sub b a); try contradiction;
      destruct (ext_sub a' b'), (ext_sub b' a'); try contradiction; simpl; auto.
    f_equal. apply eq_true_iff_eq. rewrite !Qle_bool_iff. rewrite E1, E2.
    split; intros; nra.
  Qed.

  Lemma xy_eq_bits_sym tol a b : xy_eq_bits tol a b = xy_eq_bits tol b a.
  Proof.
    unfold xy_eq_bits. destruct (is_zero_bits tol).
    - unfold xy_exact. rewrite (feq_bits_sym (vx a)), (feq_bits_sym (vy a)). reflexivity.
    - destruct (ext_of_bits tol); auto. f_equal. apply len_sq_gt_sym.
  Qed.

  Lemma xy_eq_bits_refl tol a :
    negb (is_nan_fast (vx a)) = true -> negb (is_nan_fast (vy a)) = true -> xy_eq_bits tol a a = true.
  Proof.
    intros X Y. unfold xy_eq_bits. destruct (is_zero_bits tol).
    - unfold xy_exact, feq_bits. rewrite !N.eqb_refl, X, Y. reflexivity.
    - destruct (ext_of_bits tol) as [| |t]; auto.
      assert (E : forall e, match ext_sub e e with ENaN => True | EInf _ => False | EFin p => p == 0 end).
      { intros [|s|p]; simpl; auto. destruct s; exact I. ring. }
      pose proof (E (ext_of_bits (vx a))) as E1. pose proof (E (ext_of_bits (vy a))) as E2.
      destruct (ext_sub (ext_of_bits (vx a)) (ext_of_bits (vx a))); try contradiction;
        destruct (ext_sub (ext_of_bits (vy a)) (ext_of_bits (vy a))); try contradiction; simpl; auto.
      rewrite negb_involutive. apply Qle_bool_iff. rewrite E1, E2. nra.
  Qed.

  (* a larger tolerance accepts more (both tolerances finite and non-zero) *)
  Lemma xy_eq_bits_mono tol1 tol2 t1 t2 a b :
    is_zero_bits tol1 = false -> is_zero_bits tol2 = false ->
    ext_of_bits tol1 = EFin t1 -> ext_of_bits tol2 = EFin t2 -> t1 * t1 <= t2 * t2 ->
    xy_eq_bits tol1 a b = true -> xy_eq_bits tol2 a b = true.
  Proof.
    intros Z1 Z2 E1 E2 Ht. unfold xy_eq_bits. rewrite Z1, Z2, E1, E2.
    destruct (ext_sub (ext_of_bits (vx a)) (ext_of_bits (vx b))), (ext_sub (ext_of_bits (vy a)) (ext_of_bits (vy b)));
      simpl; auto.
    rewrite !negb_involutive, !Qle_bool_iff. intros; lra.
  Qed.
End Tol.

Lemma ee_tol_refl_lemma simple tol io g :
  nan_free g = true -> exact_equals simple tol io g g = true.
Proof.
  intros Hn. unfold exact_equals.
  apply (geom_eq_refl N feq_bits (xy_eq_bits tol) simple (fun b => negb (is_nan_fast b))); auto.
  - intros a Ha. unfold feq_bits. rewrite N.eqb_refl. exact Ha.
  - intros a. apply xy_eq_bits_refl.
Qed.

Lemma ee_tol_sym_lemma simple tol g h :
  exact_equals simple tol false g h = exact_equals simple tol false h g.
Proof.
  apply eq_true_iff_eq. unfold exact_equals. split; apply geom_eq_sym_plain;
    intros a b; try (rewrite feq_bits_sym; auto); rewrite xy_eq_bits_sym; auto.
Qed.

Lemma ee_tol_mono_lemma simple tol1 tol2 t1 t2 io g h :
  is_zero_bits tol1 = false -> is_zero_bits tol2 = false ->
  ext_of_bits tol1 = EFin t1 -> ext_of_bits tol2 = EFin t2 -> (t1 * t1 <= t2 * t2)%Q ->
  exact_equals simple tol1 io g h = true -> exact_equals simple tol2 io g h = true.
Proof.
  intros Z1 Z2 E1 E2 Ht. unfold exact_equals. apply geom_eq_mono; auto.
  intros a b. eapply xy_eq_bits_mono; eassumption.
Qed.

Lemma ee_plain_implies_io_lemma F feq xy simple (g h : geomT F) :
  geom_eq feq xy simple false g h = true -> geom_eq feq xy simple true g h = true.
Proof. apply geom_eq_mono; auto; discriminate. Qed.

(* ------------------------------------------------------------------ IgnoreOrder: every listed move is accepted *)
Lemma Forall2_rev {A B} (R : A -> B -> Prop) l m : Forall2 R l m -> Forall2 R (rev l) (rev m).
Proof.
  induction 1; simpl; [constructor|]. apply Forall2_app; [assumption | repeat constructor; assumption].
Qed.

Section IOMoves.
  Variable F : Type.
  Variable feq : F -> F -> bool.
  Variable simple : lineT F -> bool.
  Variable ok : F -> bool.
  Hypothesis feq_refl : forall a, ok a = true -> feq a a = true.
  Notation xy := (xy_exact feq).
  Notation ceq := (coord_eq feq xy).
  Notation ee_io := (geom_eq feq xy simple true).

  Lemma xy_exact_refl a : ok (vx a) = true -> ok (vy a) = true -> xy a a = true.
  Proof. intros X Y. unfold xy_exact. rewrite !feq_refl; auto. Qed.

  Lemma io_refl g : geom_nf ok g = true -> ee_io g g = true.
  Proof. exact (geom_eq_refl F feq xy simple ok feq_refl xy_exact_refl true g). Qed.

  (* direction of a LineString *)
  Lemma io_accepts_reverse ct vs :
    line_nf ok (MkLine ct vs) = true ->
    ee_io (GLine (MkLine ct vs)) (GLine (MkLine ct (rev vs))) = true.
  Proof.
    unfold line_nf. simpl. rewrite forallb_forall. intros N. apply line_eq_iff. simpl. rewrite rev_length. repeat split; auto.
    right. split; auto. left. apply same_curve_rev; [rewrite rev_length; reflexivity|].
    rewrite rev_involutive. apply Forall2_refl_in. intros a Ha.
    apply (coord_eq_refl F feq xy ok feq_refl xy_exact_refl), N, Ha.
  Qed.

  Lemma rot1_length (c : list (vtx F)) : length (rot1 c) = length c.
  Proof.
    destruct (Nat.lt_ge_cases (length c) 2) as [H|H].
    - destruct c as [|a [|b c]]; simpl in H; try lia; reflexivity.
    - apply (rot1_nth F c 0); lia.
  Qed.
  Lemma rotk_length k (c : list (vtx F)) : length (rotk k c) = length c.
  Proof. induction k; simpl; auto. change (length (rot1 (rotk k c)) = length c). rewrite rot1_length. assumption. Qed.
  Lemma rotk_short k (c : list (vtx F)) : length c < 2 -> rotk k c = c.
  Proof.
    intros H. induction k; simpl; auto. change (rot1 (rotk k c) = c). rewrite IHk.
    destruct c as [|a [|b c]]; simpl in H; try lia; reflexivity.
  Qed.

  (* start vertex and direction of a ring *)
  Lemma io_accepts_ring_move ct vs ws k (flip : bool) :
    ring feq simple (MkLine ct vs) -> ring feq simple (MkLine ct ws) ->
    Forall2 (veq feq ct) (if flip then rev ws else ws) (rotk k vs) ->
    ee_io (GLine (MkLine ct ws)) (GLine (MkLine ct vs)) = true.
  Proof.
    intros [R1 E1] [R2 E2] H. unfold veq in H.
    assert (L : length ws = length vs).
    { apply Forall2_length' in H. rewrite rotk_length in H. destruct flip; [rewrite rev_length in H|]; exact H. }
    apply line_eq_iff. simpl. repeat split; auto.
    destruct (Nat.lt_ge_cases (length vs) 2) as [Hs|Hn]; [rewrite rotk_short in H by assumption|destruct k as [|k]].
    1,2: destruct flip;
      [ right; split; auto; left; apply same_curve_rev; auto;
        apply Forall2_rev in H; rewrite rev_involutive in H; exact H
      | left; apply same_curve_id; auto ].
    destruct (rotk_nth F vs (S k)) as [Lr Nr]; try lia.
    set (m := length vs - 1) in *. assert (Hm : 1 <= m) by (unfold m; lia).
    set (o := if (S k) mod m =? 0 then m else (S k) mod m).
    assert (Ho : 1 <= o < length ws).
    { unfold o. destruct (Nat.eqb_spec (S k mod m) 0); [unfold m in *; lia|].
      assert (S k mod m < m) by (apply Nat.mod_upper_bound; lia). unfold m in *. lia. }
    assert (Hmod : forall i, (i + o) mod m = (i + S k) mod m).
    { intros i. unfold o. destruct (Nat.eqb_spec (S k mod m) 0) as [E|E].
      - rewrite (Nat.add_mod i (S k)) by lia. rewrite E, Nat.add_0_r, Nat.mod_mod by lia.
        replace (i + m) with (i + 1 * m) by lia. apply Nat.mod_add; lia.
      - apply Nat.add_mod_idemp_r; lia. }
    right. split; auto. right. split.
    + unfold are_rings. rewrite R1, R2, E1, E2. reflexivity.
    + exists o. split; auto. rewrite L. fold m. destruct flip.
      * right. revert H. apply same_curve_lists; auto; try lia.
        -- rewrite rev_length; lia.
        -- intros i Hi. rewrite nth_error_rev by lia. rewrite L. reflexivity.
        -- intros i Hi. rewrite Nr by lia. fold m. rewrite Hmod. reflexivity.
      * left. revert H. apply same_curve_lists; auto; try lia.
        intros i Hi. rewrite Nr by lia. fold m. rewrite Hmod. reflexivity.
  Qed.

  (* member order *)
  Lemma structure_io_perm {A} (e : A -> A -> bool) l m :
    (forall a, In a l -> e a a = true) -> Permutation l m -> structure_eq true e l m = true.
  Proof.
    intros R P. unfold structure_eq. apply vp_complete with (p := l); [apply Permutation_sym; exact P|].
    apply Forall2_refl_in, R.
  Qed.
  (* the moves apply inside members *)
  Lemma structure_io_members {A B} (e : A -> B -> bool) l m :
    Forall2 (fun a b => e a b = true) l m -> structure_eq true e l m = true.
  Proof. intros H. unfold structure_eq. apply vp_complete with (p := m); [apply Permutation_refl | exact H]. Qed.

  Lemma io_accepts_perm {A} (nf : A -> bool) (e : A -> A -> bool) (R : forall a, nf a = true -> e a a = true) c l m :
    forallb nf l = true -> Permutation l m ->
    (length l =? length m) && ct_eqb c c && structure_eq true e l m = true.
  Proof.
    intros N Pm. rewrite forallb_forall in N. apply members_eq_intro; [apply Permutation_length, Pm|].
    apply structure_io_perm; auto.
  Qed.

  Lemma io_accepts_inside {A B} (e : A -> B -> bool) c l m :
    Forall2 (fun a b => e a b = true) l m ->
    (length l =? length m) && ct_eqb c c && structure_eq true e l m = true.
  Proof. intros H. apply members_eq_intro; [eapply Forall2_length', H | apply structure_io_members, H]. Qed.

  Lemma io_accepts_holes ct e hs ks :
    poly_nf ok (MkPoly ct (e :: hs)) = true -> Permutation hs ks ->
    ee_io (GPoly (MkPoly ct (e :: hs))) (GPoly (MkPoly ct (e :: ks))) = true.
  Proof.
    unfold poly_nf. simpl. rewrite andb_true_iff, forallb_forall. intros [Ne Nh] Pm.
    assert (R : forall a, ring_nf ok a = true -> line_eq feq xy simple true a a = true).
    { unfold ring_nf. intros a Na. apply andb_true_iff in Na. apply (io_refl (GLine a)), Na. }
    unfold poly_eq. cbn [int_rings poly_rings ext_ring].
    rewrite (Permutation_length Pm), Nat.eqb_refl, R by exact Ne. apply structure_io_perm; auto.
  Qed.

  Lemma io_accepts_inside_poly ct rs ss :
    Forall2 (fun l k => ee_io (GLine l) (GLine k) = true) rs ss ->
    ee_io (GPoly (MkPoly ct rs)) (GPoly (MkPoly ct ss)) = true.
  Proof.
    intros H. simpl. unfold poly_eq. inversion H as [|e1 e2 h1 h2 He Hh]; subst; cbn [int_rings poly_rings ext_ring length].
    - unfold line_eq. simpl. rewrite ct_eqb_refl. reflexivity.
    - simpl in He. rewrite He, (Forall2_length' _ _ _ Hh), Nat.eqb_refl. apply structure_io_members, Hh.
  Qed.
End IOMoves.

(* ------------------------------------------------------------------ tolerance: vertex lists correspond *)
Lemma Forall2_map_both {A B C D} (R : C -> D -> Prop) (f : A -> C) (g : B -> D) l m :
  Forall2 R (map f l) (map g m) <-> Forall2 (fun a b => R (f a) (g b)) l m.
Proof.
  revert m; induction l as [|a r IH]; intros [|b s]; simpl; split; intros H; try constructor;
    try (inversion H; fail); inversion H; subst; try assumption; apply IH; assumption.
Qed.

Lemma Forall2_app_split {A B} (R : A -> B -> Prop) x1 : forall x2 r1 r2,
  length x1 = length x2 -> Forall2 R (x1 ++ r1) (x2 ++ r2) -> Forall2 R x1 x2 /\ Forall2 R r1 r2.
Proof.
  induction x1 as [|a x1 IH]; intros [|b x2] r1 r2 L H; simpl in *; try discriminate.
  - split; [constructor | assumption].
  - inversion H; subst. destruct (IH x2 r1 r2) as [H1 H2]; [congruence | assumption |].
    split; [constructor; assumption | assumption].
Qed.

Section TolSpecProof.
  Variable F : Type.
  Variable feq : F -> F -> bool.
  Variable xy_eq : vtx F -> vtx F -> bool.
  Variable simple : lineT F -> bool.
  Notation ceq := (coord_eq feq xy_eq).
  Definition cv_rel (a b : ctype * vtx F) : Prop := ceq (fst a) (snd a) (fst b) (snd b) = true.
  Notation R := cv_rel.

  Lemma all2_flat_fwd {A B} (e : A -> B -> bool) cv cv' l : forall m,
    (forall a b, In a l -> e a b = true -> Forall2 R (cv a) (cv' b)) ->
    all2 e l m = true -> Forall2 R (flat_map cv l) (flat_map cv' m).
  Proof.
    induction l as [|a r IH]; intros [|b s] H; simpl; try discriminate; [constructor|].
    rewrite andb_true_iff. intros [E T]. apply Forall2_app; [apply H; simpl; auto|].
    apply IH; auto. intros; apply H; simpl; auto.
  Qed.

  Lemma line_cvs_iff l k :
    Forall2 R (line_cvs l) (line_cvs k) <->
    Forall2 (fun a b => ceq (line_ct l) a (line_ct k) b = true) (line_vs l) (line_vs k).
  Proof. unfold line_cvs. rewrite Forall2_map_both. reflexivity. Qed.

  Lemma line_cvs_fwd l k : line_eq feq xy_eq simple false l k = true -> Forall2 R (line_cvs l) (line_cvs k).
  Proof. rewrite line_eq_plain. intros [C H]. apply line_cvs_iff; assumption. Qed.

  Lemma point_cvs_fwd p q : point_eq feq xy_eq p q = true -> Forall2 R (point_cvs p) (point_cvs q).
  Proof.
    unfold point_eq, point_cvs. destruct (point_c p), (point_c q); try discriminate; repeat constructor. assumption.
  Qed.
  Lemma mpoint_cvs_fwd p q : mpoint_member_eq feq xy_eq p q = true -> Forall2 R (point_cvs p) (point_cvs q).
  Proof.
    unfold mpoint_member_eq, point_cvs. destruct (point_c p), (point_c q); try discriminate; repeat constructor. assumption.
  Qed.

  (* also for the polygon without rings, whose exterior ring is the empty line *)
  Lemma poly_cvs_split (p : polyT F) : poly_cvs p = line_cvs (ext_ring p) ++ flat_map line_cvs (int_rings p).
  Proof. destruct p as [ct [|e hs]]; reflexivity. Qed.

  Lemma poly_cvs_fwd p q : poly_eq feq xy_eq simple false p q = true -> Forall2 R (poly_cvs p) (poly_cvs q).
  Proof.
    unfold poly_eq, structure_eq. rewrite !andb_true_iff, !poly_cvs_split. intros [[_ E] H].
    apply Forall2_app; [apply line_cvs_fwd, E|]. revert H. apply all2_flat_fwd. intros; apply line_cvs_fwd; assumption.
  Qed.

  Lemma geom_cvs_fwd g h :
    geom_eq feq xy_eq simple false g h = true -> Forall2 R (geom_cvs g) (geom_cvs h).
  Proof.
    revert g h. apply geom_eq_ind; simpl; auto using point_cvs_fwd, line_cvs_fwd, poly_cvs_fwd;
      intros ct l m _ H; intros; revert H; apply all2_flat_fwd;
      auto using mpoint_cvs_fwd, line_cvs_fwd, poly_cvs_fwd.
  Qed.
End TolSpecProof.

Section TolSpecBwd.
  Variable F : Type.
  Variable feq : F -> F -> bool.
  Variable xy_eq : vtx F -> vtx F -> bool.
  Variable simple : lineT F -> bool.
  Notation ceq := (coord_eq feq xy_eq).
  Notation R := (cv_rel F feq xy_eq).
  Notation T2 := (fun _ _ : F => true).
  Notation TX := (fun _ _ : vtx F => true).
  Notation S0 := (fun _ : lineT F => false).
  Notation RT := (cv_rel F T2 TX).

  (* the structural comparison fixes where the vertex list splits between the members *)
  Lemma all2_flat_bwd {A B} (ss e : A -> B -> bool) cv cv' l : forall m,
    (forall a b, In a l -> ss a b = true -> Forall2 RT (cv a) (cv' b)) ->
    (forall a b, In a l -> ss a b = true -> Forall2 R (cv a) (cv' b) -> e a b = true) ->
    all2 ss l m = true -> Forall2 R (flat_map cv l) (flat_map cv' m) -> all2 e l m = true.
  Proof.
    induction l as [|a r IH]; intros [|b s] HL HE; simpl; try discriminate; auto.
    rewrite !andb_true_iff. intros [E T] H.
    apply Forall2_app_split in H; [|eapply Forall2_length', HL; simpl; auto]. destruct H as [H1 H2].
    split; [apply HE; simpl; auto|]. apply IH; auto; intros; [apply HL | apply HE]; simpl; auto.
  Qed.

  Lemma line_bwd l k :
    line_eq T2 TX S0 false l k = true -> Forall2 R (line_cvs l) (line_cvs k) ->
    line_eq feq xy_eq simple false l k = true.
  Proof.
    rewrite !line_eq_plain. intros [C _] H. split; auto. apply (line_cvs_iff F feq xy_eq); assumption.
  Qed.

  Lemma point_bwd p q :
    point_eq T2 TX p q = true -> Forall2 R (point_cvs p) (point_cvs q) -> point_eq feq xy_eq p q = true.
  Proof.
    unfold point_eq, point_cvs. destruct (point_c p), (point_c q); try discriminate; auto.
    intros _ H. inversion H; subst. assumption.
  Qed.
  Lemma mpoint_bwd p q :
    mpoint_member_eq T2 TX p q = true -> Forall2 R (point_cvs p) (point_cvs q) -> mpoint_member_eq feq xy_eq p q = true.
  Proof.
    unfold mpoint_member_eq, point_cvs. destruct (point_c p), (point_c q); try discriminate; auto.
    intros _ H. inversion H; subst. assumption.
  Qed.

  Lemma poly_bwd p q :
    poly_eq T2 TX S0 false p q = true -> Forall2 R (poly_cvs p) (poly_cvs q) ->
    poly_eq feq xy_eq simple false p q = true.
  Proof.
    unfold poly_eq, structure_eq. rewrite !andb_true_iff, !(poly_cvs_split F). intros [[L E] H] V.
    apply Forall2_app_split in V; [|eapply Forall2_length', (line_cvs_fwd F T2 TX S0), E]. destruct V as [V1 V2].
    repeat split; auto using line_bwd.
    revert H V2. apply all2_flat_bwd; auto using (line_cvs_fwd F T2 TX S0), line_bwd.
  Qed.

  Lemma geom_bwd g h :
    same_structure g h = true -> Forall2 R (geom_cvs g) (geom_cvs h) ->
    geom_eq feq xy_eq simple false g h = true.
  Proof.
    unfold same_structure. revert g h.
    apply (geom_eq_ind _ _ _ _ (fun g h => Forall2 R (geom_cvs g) (geom_cvs h) -> geom_eq feq xy_eq simple false g h = true));
      simpl; auto using point_bwd, line_bwd, poly_bwd; intros ct l m L H.
    4: intros IH.
    all: intros V; (apply (members_eq_intro false); [exact L|]); revert H V; apply all2_flat_bwd; intros a b Ha;
      [ first [apply mpoint_cvs_fwd | apply line_cvs_fwd | apply poly_cvs_fwd | apply geom_cvs_fwd]
      | first [apply mpoint_bwd | apply line_bwd | apply poly_bwd | apply IH, Ha] ].
  Qed.

  Lemma ee_tol_spec_generic g h :
    geom_eq feq xy_eq simple false g h = true <->
    same_structure g h = true /\ Forall2 R (geom_cvs g) (geom_cvs h).
  Proof.
    split.
    - intros H. split; [|apply (geom_cvs_fwd F feq xy_eq simple); assumption].
      unfold same_structure. revert H. apply geom_eq_mono; auto; discriminate.
    - intros [S V]. apply geom_bwd; assumption.
  Qed.
End TolSpecBwd.

Lemma ee_tol_spec_lemma simple tol g h : exact_equals simple tol false g h = tol_spec tol g h.
Proof.
  apply eq_true_iff_eq. unfold exact_equals, tol_spec. rewrite ee_tol_spec_generic.
  rewrite andb_true_iff, all2_true_iff. reflexivity.
Qed.

(* ------------------------------------------------------------------ vertices equal under one coordinate type *)
Section IOSym.
  Variable F : Type.
  Variable feq : F -> F -> bool.
  Variable simple : lineT F -> bool.
  Hypothesis feq_sym : forall a b, feq a b = true -> feq b a = true.
  Hypothesis feq_trans : forall a b c, feq a b = true -> feq b c = true -> feq a c = true.
  Notation xy := (xy_exact feq).
  Notation ceq := (coord_eq feq xy).
  Notation SC := (same_curve feq xy).

  Definition P (ct : ctype) (a b : vtx F) : Prop := ceq ct a ct b = true.

  Lemma xy_sym a b : xy a b = true -> xy b a = true.
  Proof. unfold xy_exact. rewrite !andb_true_iff. intros [X Y]; auto. Qed.

  Lemma P_sym ct a b : P ct a b -> P ct b a.
  Proof. apply (coord_eq_sym F feq xy feq_sym xy_sym). Qed.

  Lemma P_trans ct a b c : P ct a b -> P ct b c -> P ct a c.
  Proof.
    unfold P. rewrite !coord_eq_iff. unfold xy_exact. rewrite !andb_true_iff.
    intros (_ & [X1 Y1] & Z1 & M1) (_ & [X2 Y2] & Z2 & M2).
    repeat split; auto; try intros Hc; eapply feq_trans; eauto.
  Qed.

  Lemma same_curve_nth ct c1 c2 n m1 m2 d :
    (forall i, i < n -> m1 i < length c1) -> (forall i, i < n -> m2 i < length c2) ->
    (SC ct ct c1 c2 n m1 m2 = true <-> forall i, i < n -> P ct (nth (m1 i) c1 d) (nth (m2 i) c2 d)).
  Proof.
    intros B1 B2. rewrite same_curve_spec. split.
    - intros H i Hi. destruct (H i Hi) as [a [b [E1 [E2 E]]]].
      rewrite (nth_error_nth' c1 d) in E1 by auto. rewrite (nth_error_nth' c2 d) in E2 by auto.
      injection E1 as <-. injection E2 as <-. exact E.
    - intros H i Hi. exists (nth (m1 i) c1 d), (nth (m2 i) c2 d).
      rewrite (nth_error_nth' c1 d), (nth_error_nth' c2 d) by auto. repeat split; auto. apply H; assumption.
  Qed.

  Lemma last_is_nth (c : list (vtx F)) d : last c d = nth (length c - 1) c d.
  Proof.
    induction c as [|a [|b r] IH]; try reflexivity.
    change (last (a :: b :: r) d) with (last (b :: r) d). rewrite IH. simpl. rewrite Nat.sub_0_r. reflexivity.
  Qed.

  Lemma ends_eq_iff ct c d :
    ends_eq feq xy (MkLine ct c) = true <-> 1 <= length c /\ P ct (nth 0 c d) (nth (length c - 1) c d).
  Proof.
    unfold ends_eq. simpl. destruct c as [|v0 r]; [split; [discriminate | simpl; lia]|].
    rewrite (last_is_nth (v0 :: r) v0), (nth_indep (v0 :: r) v0 d) by (simpl; lia).
    split; [intros H; split; [simpl; lia | exact H] | tauto].
  Qed.
End IOSym.
