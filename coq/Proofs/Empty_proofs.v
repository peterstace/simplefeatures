(* Lemmas for property C20, carrier-generic part: insertion / stripping of empty members and the
   observables of Base/GeomAST.v and Model/Empty.v (is_empty, dimension_ie, control points).
   The instantiations for the models of other properties are in Proofs/Empty_obs_proofs.v. *)
From Coq Require Import List Bool Arith Lia.
From SF Require Import Base.GeomAST Model.Empty.
Import ListNotations.

Lemma insert_at_split {A} k (x : A) l : exists l1 l2, l = l1 ++ l2 /\ insert_at k x l = l1 ++ x :: l2.
Proof. exists (firstn k l), (skipn k l). split; [symmetry; apply firstn_skipn | reflexivity]. Qed.

(* a property of lists that an inserted inert element does not change *)
Lemma ins_list_inv {A B} (obs : list A -> B) (mk : emp -> A) :
  (forall e l1 l2, obs (l1 ++ mk e :: l2) = obs (l1 ++ l2)) ->
  forall here l, obs (ins_list mk here l) = obs l.
Proof.
  intros H here. unfold ins_list. induction here as [|[k e] r IH]; intros l; simpl; [reflexivity|].
  rewrite IH. destruct (insert_at_split k (mk e) l) as [l1 [l2 [-> ->]]]. apply H.
Qed.

Lemma ins_list_forallb {A} (f : A -> bool) mk here l :
  (forall e, f (mk e) = true) -> forallb f (ins_list mk here l) = forallb f l.
Proof.
  intros H. apply (ins_list_inv (forallb f)). intros e l1 l2. rewrite !forallb_app. simpl. rewrite H. reflexivity.
Qed.
Lemma ins_list_filter {A} (f : A -> bool) mk here l :
  (forall e, f (mk e) = false) -> filter f (ins_list mk here l) = filter f l.
Proof.
  intros H. apply (ins_list_inv (filter f)). intros e l1 l2. rewrite !filter_app. simpl. rewrite H. reflexivity.
Qed.
Lemma ins_list_flat_map {A B} (f : A -> list B) mk here l :
  (forall e, f (mk e) = []) -> flat_map f (ins_list mk here l) = flat_map f l.
Proof.
  intros H. apply (ins_list_inv (flat_map f)). intros e l1 l2. rewrite !flat_map_app. simpl. rewrite H. reflexivity.
Qed.
Lemma ins_list_length {A} (mk : emp -> A) here l : length (ins_list mk here l) = length here + length l.
Proof.
  unfold ins_list. revert l. induction here as [|[k e] r IH]; intros l; simpl; [reflexivity|].
  rewrite IH. destruct (insert_at_split k (mk e) l) as [l1 [l2 [-> ->]]]. rewrite !app_length. simpl. lia.
Qed.
Lemma ins_list_In {A} (mk : emp -> A) here l x : In x l -> In x (ins_list mk here l).
Proof.
  unfold ins_list. revert l. induction here as [|[k e] r IH]; intros l H; simpl; [exact H|].
  apply IH. destruct (insert_at_split k (mk e) l) as [l1 [l2 [E ->]]]. subst l.
  apply in_app_or in H. apply in_or_app. destruct H; [left | right; right]; assumption.
Qed.

Lemma forallb_repeat {A} (f : A -> bool) x n : f x = true -> forallb f (repeat x n) = true.
Proof. intros H. induction n; simpl; [reflexivity | rewrite H, IHn; reflexivity]. Qed.
Lemma filter_repeat_false {A} (f : A -> bool) x n : f x = false -> filter f (repeat x n) = [].
Proof. intros H. induction n; simpl; [reflexivity | rewrite H, IHn; reflexivity]. Qed.
Lemma forallb_via_map {A} (f : A -> bool) l : forallb f l = forallb (fun b => b) (map f l).
Proof. induction l; simpl; [reflexivity | rewrite IHl; reflexivity]. Qed.
Lemma filter_forallb_neg {A} (f : A -> bool) l : forallb f l = match filter (fun x => negb (f x)) l with [] => true | _ => false end.
Proof. induction l; simpl; [reflexivity|]. destruct (f a); simpl; [exact IHl | reflexivity]. Qed.
Lemma forallb_filter {A} (k : A -> bool) l : forallb k (filter k l) = true.
Proof. apply forallb_forall. intros x Hx. apply filter_In in Hx. apply Hx. Qed.
Lemma filter_id {A} (f : A -> bool) l : forallb f l = true -> filter f l = l.
Proof.
  induction l; simpl; intros H; [reflexivity|]. apply andb_true_iff in H. destruct H as [H1 H2].
  rewrite H1, IHl by exact H2. reflexivity.
Qed.

(* [keep l] is l without the members that e calls empty - what strip_empties leaves of the members of
   a Multi node.  A fold whose step is neutral on those members does not see the difference. *)
Section Keep.
  Context {A : Type} (e : A -> bool).
  Notation keep := (filter (fun a => negb (e a))).

  (* R is the equality of the fold's values; the two folds may differ in a parameter of the step
     (a total that is itself only R-equal) *)
  Lemma fold_left_keep_R {B} (R : B -> B -> Prop) (step' step : B -> A -> B) l :
    (forall x y z, R x y -> R y z -> R x z) -> (forall x y, R x y -> R y x) ->
    (forall a b b', R b b' -> R (step' b a) (step b' a)) ->
    (forall a b, e a = true -> R (step b a) b) ->
    forall b b', R b b' -> R (fold_left step' (keep l) b) (fold_left step l b').
  Proof.
    intros Tr Sym Mono H. induction l as [|a r IH]; intros b b' Hb; simpl; [exact Hb|].
    destruct (e a) eqn:K; simpl.
    - apply IH. apply Tr with b'; [exact Hb|]. apply Sym. apply H. exact K.
    - apply IH. apply Mono. exact Hb.
  Qed.
  Lemma fold_left_keep {B} (step : B -> A -> B) l :
    (forall a b, e a = true -> step b a = b) -> forall b, fold_left step (keep l) b = fold_left step l b.
  Proof. intros H b. apply (fold_left_keep_R eq step step); try congruence; auto. Qed.
  Lemma flat_map_keep {B} (f : A -> list B) l : (forall a, e a = true -> f a = []) -> flat_map f (keep l) = flat_map f l.
  Proof.
    intros H. induction l as [|a r IH]; simpl; [reflexivity|].
    destruct (e a) eqn:K; simpl; [rewrite (H a K); exact IH | rewrite IH; reflexivity].
  Qed.
  Lemma existsb_keep (f : A -> bool) l : (forall a, e a = true -> f a = false) -> existsb f (keep l) = existsb f l.
  Proof.
    intros H. induction l as [|a r IH]; simpl; [reflexivity|].
    destruct (e a) eqn:K; simpl; [rewrite (H a K); exact IH | rewrite IH; reflexivity].
  Qed.
  Lemma forallb_keep (f : A -> bool) l : (forall a, e a = true -> f a = true) -> forallb f (keep l) = forallb f l.
  Proof.
    intros H. induction l as [|a r IH]; simpl; [reflexivity|].
    destruct (e a) eqn:K; simpl; [rewrite (H a K); exact IH | rewrite IH; reflexivity].
  Qed.
  Lemma keep_all_empty l : forallb e (keep l) = forallb e l.
  Proof. apply forallb_keep. auto. Qed.
  Lemma keep_none l : forallb e l = true -> keep l = [].
  Proof. rewrite filter_forallb_neg. destruct (keep l); [reflexivity | discriminate]. Qed.
End Keep.

(* nested induction over shapes *)
Section EmpInd.
  Variable P : emp -> Prop.
  Hypothesis H1 : P EPt. Hypothesis H2 : P ELn. Hypothesis H3 : P EPg.
  Hypothesis H4 : forall n, P (EMPt n). Hypothesis H5 : forall n, P (EMLn n). Hypothesis H6 : forall n, P (EMPg n).
  Hypothesis H7 : forall ms, Forall P ms -> P (EGC ms).
  Fixpoint emp_ind' (e : emp) : P e :=
    match e with
    | EPt => H1 | ELn => H2 | EPg => H3 | EMPt n => H4 n | EMLn n => H5 n | EMPg n => H6 n
    | EGC ms => H7 ms ((fix go (l : list emp) : Forall P l :=
                          match l with [] => Forall_nil P | x :: r => Forall_cons x (emp_ind' x) (go r) end) ms)
    end.
End EmpInd.

Section Generic.
  Variable F : Type.
  Notation geom := (geomT F).
  Notation ins := (@insert_empties F).
  Notation strip := (@strip_empties F).

  Lemma point_empty_c (p : pointT F) : point_empty p = true -> point_c p = None.
  Proof. unfold point_empty. destruct (point_c p); [discriminate | reflexivity]. Qed.
  Lemma line_empty_vs (l : lineT F) : line_empty l = true -> line_vs l = [].
  Proof. unfold line_empty. destruct (line_vs l); [reflexivity | discriminate]. Qed.
  Lemma poly_empty_rings (y : polyT F) : poly_empty y = true -> poly_rings y = [].
  Proof. unfold poly_empty. destruct (poly_rings y); [reflexivity | discriminate]. Qed.

  Lemma emp_geom_ct ct e : geom_ct (@emp_geom F ct e) = ct.
  Proof. destruct e; reflexivity. Qed.
  (* every node of a typed empty carries the coordinates type *)
  Lemma emp_geom_ok (isz : F -> bool) ct e : geom_ok isz ct (@emp_geom F ct e) = true.
  Proof.
    induction e using emp_ind'; simpl; rewrite ?ct_eqb_refl; try reflexivity;
      try (simpl; apply forallb_repeat; simpl; rewrite ct_eqb_refl; reflexivity).
    simpl. induction H as [|x r Hx Hr IH]; simpl; [reflexivity | rewrite Hx, IH; reflexivity].
  Qed.

  Lemma zipk_map {B} (f : geom -> eplan -> geom) (phi : geom -> B) gs :
    Forall (fun x => forall k, phi (f x k) = phi x) gs ->
    forall ks, map phi (zipk f gs ks) = map phi gs.
  Proof.
    induction 1 as [|x r Hx Hr IH]; intros ks; simpl; [reflexivity|].
    destruct ks as [|k kr]; [reflexivity|]. simpl. rewrite Hx, IH. reflexivity.
  Qed.
  Lemma zipk_length (f : geom -> eplan -> geom) gs ks : length (zipk f gs ks) = length gs.
  Proof.
    revert ks. induction gs as [|x r IH]; intros ks; simpl; [reflexivity|].
    destruct ks; simpl; [reflexivity | rewrite IH; reflexivity].
  Qed.

  Lemma ins_members_forallb (f : geom -> bool) ct here kids gs :
    (forall e, f (emp_geom ct e) = true) -> Forall (fun x => forall k, f (ins x k) = f x) gs ->
    forallb f (ins_list (emp_geom ct) here (zipk ins gs kids)) = forallb f gs.
  Proof.
    intros He H. rewrite ins_list_forallb by exact He.
    rewrite (forallb_via_map _ (zipk _ _ _)), (forallb_via_map _ gs). f_equal. apply zipk_map. exact H.
  Qed.

  (* is_empty, the domains of the codecs and of ExactEquals ...: a condition that a Multi or
     collection node asks of each of its members *)
  Section Memberwise.
    Variables (f : geom -> bool) (fp : pointT F -> bool) (fl : lineT F -> bool) (fy : polyT F -> bool).
    Hypothesis f_eq : forall g, f g =
      match g with
      | GPoint p => fp p | GLine l => fl l | GPoly y => fy y
      | GMPoint _ ps => forallb fp ps | GMLine _ ls => forallb fl ls | GMPoly _ ys => forallb fy ys
      | GColl _ gs => forallb f gs
      end.
    Hypothesis fp_empty : forall ct, fp (empty_point ct) = true.
    Hypothesis fl_empty : forall ct, fl (empty_line ct) = true.
    Hypothesis fy_empty : forall ct, fy (empty_poly ct) = true.

    Lemma emp_geom_memberwise ct e : f (emp_geom ct e) = true.
    Proof.
      induction e using emp_ind'; rewrite f_eq; cbn [emp_geom]; auto using forallb_repeat.
      induction H as [|x r Hx Hr IH]; simpl; [reflexivity | rewrite Hx, IH; reflexivity].
    Qed.
    Lemma ins_memberwise g : forall p, f (ins g p) = f g.
    Proof.
      induction g using geomT_ind'; intros [here kids]; rewrite !f_eq; simpl; try reflexivity.
      - apply ins_list_forallb. intros _. apply fp_empty.
      - apply ins_list_forallb. intros _. apply fl_empty.
      - apply ins_list_forallb. intros _. apply fy_empty.
      - apply ins_members_forallb; [apply emp_geom_memberwise | exact H].
    Qed.
  End Memberwise.

  Lemma emp_geom_empty ct e : is_empty (@emp_geom F ct e) = true.
  Proof. apply (emp_geom_memberwise is_empty point_empty line_empty poly_empty); [intros []|..]; reflexivity. Qed.
  Lemma ins_is_empty g : forall p, is_empty (ins g p) = is_empty g.
  Proof. apply (ins_memberwise is_empty point_empty line_empty poly_empty); [intros []|..]; reflexivity. Qed.

  Definition strip_member (x : geom) : list geom := if is_empty x then [] else [strip x].

  Lemma strip_ins g : forall p, strip (ins g p) = strip g.
  Proof.
    induction g using geomT_ind'; intros [here kids]; simpl; try reflexivity.
    - f_equal. apply ins_list_filter. reflexivity.
    - f_equal. apply ins_list_filter. reflexivity.
    - f_equal. apply ins_list_filter. reflexivity.
    - f_equal. fold strip_member.
      rewrite ins_list_flat_map by (intros e; unfold strip_member; rewrite emp_geom_empty; reflexivity).
      rewrite !flat_map_concat_map. f_equal.
      apply zipk_map. eapply Forall_impl; [|exact H]. intros x Hx k. unfold strip_member.
      rewrite ins_is_empty, Hx. reflexivity.
  Qed.

  (* an observable that does not see the difference between g and its stripped form does not see
     inserted empty members, wherever they are inserted; R is the equality appropriate for the
     observable (Leibniz, Qeq, pointwise ...) *)
  Lemma obs_factors_through_parts_lemma {A} (R : A -> A -> Prop) (obs : geom -> A) :
    (forall x y, R x y -> R y x) -> (forall x y z, R x y -> R y z -> R x z) ->
    (forall g, R (obs (strip g)) (obs g)) ->
    forall g p, R (obs (ins g p)) (obs g).
  Proof.
    intros Sym Tr H g p. apply Tr with (obs (strip (ins g p))); [apply Sym, H|].
    rewrite strip_ins. apply H.
  Qed.
  Lemma obs2_factors_through_parts_lemma {A} (R : A -> A -> Prop) (obs : geom -> geom -> A) :
    (forall x y, R x y -> R y x) -> (forall x y z, R x y -> R y z -> R x z) ->
    (forall g h, R (obs (strip g) h) (obs g h)) -> (forall g h, R (obs g (strip h)) (obs g h)) ->
    forall g h p q, R (obs (ins g p) (ins h q)) (obs g h).
  Proof.
    intros Sym Tr H1 H2 g h p q.
    apply Tr with (obs g (ins h q)).
    - apply (obs_factors_through_parts_lemma R (fun x => obs x (ins h q)) Sym Tr); intros; apply H1.
    - apply (obs_factors_through_parts_lemma R (fun x => obs g x) Sym Tr); intros; apply H2.
  Qed.

  (* the counterpart of Keep for a collection node: the empty members go, the others are stripped *)
  Lemma fold_left_strip_R {B} (R : B -> B -> Prop) (step' step : B -> geom -> B) gs :
    (forall x y z, R x y -> R y z -> R x z) -> (forall x y, R x y -> R y x) ->
    (forall x b, is_empty x = true -> R (step b x) b) ->
    Forall (fun x => forall b b', R b b' -> R (step' b (strip x)) (step b' x)) gs ->
    forall b b', R b b' -> R (fold_left step' (flat_map strip_member gs) b) (fold_left step gs b').
  Proof.
    intros Tr Sym He. induction 1 as [|x r Hx Hr IH]; intros b b' Hb; simpl; [exact Hb|].
    unfold strip_member at 1. destruct (is_empty x) eqn:E; simpl.
    - apply IH. apply Tr with b'; [exact Hb|]. apply Sym. apply He. exact E.
    - apply IH. apply Hx. exact Hb.
  Qed.
  Lemma fold_left_strip {B} (step : B -> geom -> B) gs :
    (forall x b, is_empty x = true -> step b x = b) ->
    Forall (fun x => forall b, step b (strip x) = step b x) gs ->
    forall b, fold_left step (flat_map strip_member gs) b = fold_left step gs b.
  Proof.
    intros He H b. apply (fold_left_strip_R eq step step gs); try congruence; [exact He|].
    eapply Forall_impl; [|exact H]. intros x Hx c c' <-. apply Hx.
  Qed.
  Lemma flat_map_strip {B} (f : geom -> list B) gs :
    (forall x, is_empty x = true -> f x = []) -> Forall (fun x => f (strip x) = f x) gs ->
    flat_map f (flat_map strip_member gs) = flat_map f gs.
  Proof.
    intros He. induction 1 as [|x r Hx Hr IH]; simpl; [reflexivity|].
    unfold strip_member at 1. destruct (is_empty x) eqn:E; simpl.
    - rewrite (He x E). exact IH.
    - rewrite Hx, IH. reflexivity.
  Qed.
  Lemma forallb_strip (f : geom -> bool) gs :
    (forall x, is_empty x = true -> f x = true) -> Forall (fun x => f (strip x) = f x) gs ->
    forallb f (flat_map strip_member gs) = forallb f gs.
  Proof.
    intros He. induction 1 as [|x r Hx Hr IH]; simpl; [reflexivity|].
    unfold strip_member at 1. destruct (is_empty x) eqn:E; simpl.
    - rewrite (He x E). exact IH.
    - rewrite Hx, IH. reflexivity.
  Qed.

  Lemma strip_is_empty g : is_empty (strip g) = is_empty g.
  Proof.
    induction g using geomT_ind'; simpl; try reflexivity.
    - apply keep_all_empty.
    - apply keep_all_empty.
    - apply keep_all_empty.
    - apply forallb_strip; [auto | exact H].
  Qed.

  Lemma strip_members_all_empty gs : forallb (@is_empty F) (flat_map strip_member gs) = forallb (@is_empty F) gs.
  Proof. exact (strip_is_empty (GColl XY gs)). Qed.

  Lemma strip_no_empty_members g : no_empty_members (strip g) = true.
  Proof.
    induction g using geomT_ind'; simpl; try reflexivity.
    - apply forallb_filter.
    - apply forallb_filter.
    - apply forallb_filter.
    - induction H as [|x r Hx Hr IH]; simpl; [reflexivity|].
      destruct (is_empty x) eqn:E; simpl; [exact IH|]. rewrite strip_is_empty, E, Hx. simpl. exact IH.
  Qed.

  Lemma strip_fixpoint g : no_empty_members g = true -> strip g = g.
  Proof.
    induction g using geomT_ind'; simpl; intros N; try reflexivity.
    - f_equal. apply filter_id, N.
    - f_equal. apply filter_id, N.
    - f_equal. apply filter_id, N.
    - f_equal. induction H as [|x r Hx Hr IH]; simpl; [reflexivity|].
      simpl in N. apply andb_true_iff in N. destruct N as [N1 N2]. apply andb_true_iff in N1. destruct N1 as [E Nx].
      apply negb_true_iff in E. rewrite E. simpl. rewrite Hx by exact Nx. rewrite IH by exact N2. reflexivity.
  Qed.
  Lemma strip_idem g : strip (strip g) = strip g.
  Proof. apply strip_fixpoint, strip_no_empty_members. Qed.

  (* control points, input points of the hull, points and segments of the distance search ...: the
     concatenation over the members at the Multi and collection nodes of lists that are [] for
     empty Points, LineStrings and Polygons *)
  Section Flat.
    Variables (B : Type) (obs : geom -> list B)
      (fp : pointT F -> list B) (fl : lineT F -> list B) (fy : polyT F -> list B).
    Hypothesis obs_eq : forall g, obs g =
      match g with
      | GPoint p => fp p | GLine l => fl l | GPoly y => fy y
      | GMPoint _ ps => flat_map fp ps | GMLine _ ls => flat_map fl ls | GMPoly _ ys => flat_map fy ys
      | GColl _ gs => flat_map obs gs
      end.
    Hypothesis fp_empty : forall p, point_empty p = true -> fp p = [].
    Hypothesis fl_empty : forall l, line_empty l = true -> fl l = [].
    Hypothesis fy_empty : forall y, poly_empty y = true -> fy y = [].

    Lemma flat_obs_empty g : is_empty g = true -> obs g = [].
    Proof.
      induction g using geomT_ind'; rewrite obs_eq; simpl; intros E.
      - apply fp_empty, E.
      - apply fl_empty, E.
      - apply fy_empty, E.
      - rewrite <- (flat_map_keep point_empty) by exact fp_empty. rewrite keep_none by exact E. reflexivity.
      - rewrite <- (flat_map_keep line_empty) by exact fl_empty. rewrite keep_none by exact E. reflexivity.
      - rewrite <- (flat_map_keep poly_empty) by exact fy_empty. rewrite keep_none by exact E. reflexivity.
      - apply flat_map_nil. rewrite forallb_forall in E. rewrite Forall_forall in H. auto.
    Qed.
    Lemma flat_obs_strip g : obs (strip g) = obs g.
    Proof.
      induction g using geomT_ind'; simpl; try reflexivity; rewrite !obs_eq.
      - apply flat_map_keep, fp_empty.
      - apply flat_map_keep, fl_empty.
      - apply flat_map_keep, fy_empty.
      - apply flat_map_strip; [exact flat_obs_empty | exact H].
    Qed.
    Lemma flat_obs g : (is_empty g = true -> obs g = []) /\ obs (strip g) = obs g.
    Proof. split; [apply flat_obs_empty | apply flat_obs_strip]. Qed.
  End Flat.

  Lemma point_vs_empty (p : pointT F) : point_empty p = true -> point_vs p = [].
  Proof. intros E. unfold point_vs. rewrite (point_empty_c p E). reflexivity. Qed.
  Lemma poly_vs_empty (y : polyT F) : poly_empty y = true -> poly_vs y = [].
  Proof. intros E. unfold poly_vs. rewrite (poly_empty_rings y E). reflexivity. Qed.

  Lemma vs_flat (g : geom) : (is_empty g = true -> geom_vs g = []) /\ geom_vs (strip g) = geom_vs g.
  Proof.
    apply (flat_obs _ (@geom_vs F) (@point_vs F) (@line_vs F) (@poly_vs F)).
    - intros []; reflexivity.
    - exact point_vs_empty.
    - exact line_empty_vs.
    - exact poly_vs_empty.
  Qed.
  Lemma empty_vs (g : geom) : is_empty g = true -> geom_vs g = [].
  Proof. apply vs_flat. Qed.
  Lemma strip_vs (g : geom) : geom_vs (strip g) = geom_vs g.
  Proof. apply vs_flat. Qed.
  Lemma emp_geom_vs ct e : geom_vs (@emp_geom F ct e) = [].
  Proof. apply empty_vs, emp_geom_empty. Qed.

  Lemma empty_dimension_ie (g : geom) : is_empty g = true -> dimension_ie g = 0.
  Proof.
    induction g using geomT_ind'; intros E; try (simpl in *; rewrite E; reflexivity).
    simpl in *. induction H as [|x r Hx Hr IH]; simpl; [reflexivity|].
    apply andb_true_iff in E. destruct E as [E1 E2]. rewrite (Hx E1), (IH E2). reflexivity.
  Qed.
  Lemma strip_dimension_ie g : dimension_ie (strip g) = dimension_ie g.
  Proof.
    induction g using geomT_ind'; try reflexivity.
    - simpl. unfold keep_points. rewrite keep_all_empty. reflexivity.
    - simpl. unfold keep_lines. rewrite keep_all_empty. reflexivity.
    - simpl. unfold keep_polys. rewrite keep_all_empty. reflexivity.
    - simpl. induction H as [|x r Hx Hr IH]; simpl; [reflexivity|].
      destruct (is_empty x) eqn:E; simpl.
      + rewrite IH, (empty_dimension_ie x E). reflexivity.
      + rewrite Hx, IH. reflexivity.
  Qed.

  (* the dimension the pinned code used (members counted even when empty) is NOT transparent *)
  Lemma ins_dimension_not_transparent (v : vtx F) :
    let g := GColl XY [GPoint (MkPoint XY (Some v))] in
    dimension (ins g (EP [(1, EPg)] [])) <> dimension g.
  Proof. simpl. discriminate. Qed.

  Lemma ins_geom_ct g p : geom_ct (ins g p) = geom_ct g.
  Proof. destruct g, p; reflexivity. Qed.
  Lemma ins_geom_type g p : geom_type (ins g p) = geom_type g.
  Proof. destruct g, p; reflexivity. Qed.

  (* a member inserted at a node of another coordinates type would fail the check, but then the node does *)
  Lemma ins_geom_ok (isz : F -> bool) c g : forall p, geom_ok isz c (ins g p) = geom_ok isz c g.
  Proof.
    induction g using geomT_ind'; intros [here kids]; simpl; try reflexivity;
      (destruct (ct_eqb ct c) eqn:E; [apply ct_eqb_eq in E; subst c; simpl | reflexivity]).
    - apply ins_list_forallb. intros _. simpl. rewrite ct_eqb_refl. reflexivity.
    - apply ins_list_forallb. intros _. simpl. rewrite ct_eqb_refl. reflexivity.
    - apply ins_list_forallb. intros _. simpl. rewrite ct_eqb_refl. reflexivity.
    - apply ins_members_forallb; [intros e; apply emp_geom_ok | exact H].
  Qed.
  (* typed empties keep the "all nodes carry the same coordinates type" invariant (C16) *)
  Lemma ins_consistent (isz : F -> bool) g p : consistent isz (ins g p) = consistent isz g.
  Proof. unfold consistent. rewrite ins_geom_ct. apply ins_geom_ok. Qed.

  Lemma gnil_lemma {A} (obs : geom -> A) : lift obs GZero = lift obs (GVal (GColl XY [])).
  Proof. reflexivity. Qed.
  Lemma gnil_unfixed_refuted_lemma {A} (wkt : geom -> A) :
    append_wkt_unfixed wkt GZero <> append_wkt_unfixed wkt (GVal (GColl XY [])).
  Proof. discriminate. Qed.
  Lemma gnil_fixed_lemma {A} (wkt : geom -> A) :
    append_wkt_fixed wkt GZero = append_wkt_fixed wkt (GVal (GColl XY [])).
  Proof. reflexivity. Qed.
End Generic.

Arguments strip_member {F} _.
Arguments point_empty_c {F} _ _. Arguments line_empty_vs {F} _ _. Arguments poly_empty_rings {F} _ _.
