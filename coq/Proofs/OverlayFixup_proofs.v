(* Lemmas about Model/OverlayFixup.v (geom/dcel_fixup.go in the model): the radial order, the rotation
   system built by fixVertices, the faces of assignFaces, the flood fill, the labels. *)
From Coq Require Import List Bool Arith QArith Lia Lqa Permutation Sorted.
From SF Require Import Base.QKernel Model.SetOpSpec Model.OverlayComplex Model.OverlayRings
  Proofs.OverlayComplex_proofs Proofs.OverlayRings_proofs Model.OverlayFixup.
Import ListNotations.

(* ================================================================ (a) radialLess ================ *)
Section Radial.
Open Scope Q_scope.

(* the tests that radialLess and sector make on one rational are decided by its sign *)
Inductive sign_spec (x : Q) : bool -> bool -> bool -> bool -> Prop :=
| sign_neg : x < 0 -> sign_spec x true false false false
| sign_zero : x == 0 -> sign_spec x false true false true
| sign_pos : 0 < x -> sign_spec x false false true true.
Lemma signP x : sign_spec x (qltb x 0) (Qeq_bool x 0) (qltb 0 x) (Qle_bool 0 x).
Proof.
  rewrite <- (negb_involutive (Qle_bool 0 x)). fold (qltb x 0).
  destruct (Q_dec x 0) as [[H|H]|H].
  - rewrite (proj2 (qltb_iff x 0)), (proj2 (Qeq_bool_false_iff x 0)), (proj2 (qltb_false_iff 0 x)) by lra. apply sign_neg, H.
  - rewrite (proj2 (qltb_false_iff x 0)), (proj2 (Qeq_bool_false_iff x 0)), (proj2 (qltb_iff 0 x)) by lra. apply sign_pos, H.
  - rewrite (proj2 (qltb_false_iff x 0)), (proj2 (Qeq_bool_iff x 0)), (proj2 (qltb_false_iff 0 x)) by lra. apply sign_zero, H.
Qed.

(* the four sectors of a non-zero vector, with what the tests of radialLess on that vector alone answer there *)
Inductive dir_spec (a : pt) : nat -> bool -> bool -> bool -> bool -> Prop :=
| dir_down : fst a == 0 -> snd a < 0 -> dir_spec a 0 false true true false
| dir_right : 0 < fst a -> dir_spec a 1 false false true (Qle_bool 0 (snd a))
| dir_up : fst a == 0 -> 0 < snd a -> dir_spec a 2 false true true true
| dir_left : fst a < 0 -> dir_spec a 3 true false false (Qle_bool 0 (snd a)).
Lemma dirP a : pt_nonzero a = true ->
  dir_spec a (sector a) (qltb (fst a) 0) (Qeq_bool (fst a) 0) (Qle_bool 0 (fst a)) (Qle_bool 0 (snd a)).
Proof.
  unfold pt_nonzero, sector. destruct (signP (fst a)); [constructor; assumption| |constructor; assumption].
  destruct (signP (snd a)); [constructor; assumption|discriminate|constructor; assumption].
Qed.

(* In each pair of sectors the tests on the single vectors are decided and, once the sign of the cross product
   is known, so are all others, except the comparisons of lengths: on the y axis a.y < b.y stands for
   |a|^2 < |b|^2.  Signs of the cross product that cannot occur in a pair of sectors are refuted by nra. *)
Lemma radialLess_char_lemma a b :
  pt_nonzero a = true -> pt_nonzero b = true -> radialLess a b = radial_spec a b.
Proof.
  intros Ha Hb. unfold radialLess, radial_spec.
  destruct (dirP a Ha), (dirP b Hb); cbn [andb orb negb Nat.ltb Nat.leb Nat.eqb]; try reflexivity;
    destruct (signP (vcross a b)) as [D|D|D]; cbn [andb orb negb]; try reflexivity.
  all: destruct a as [ax ay], b as [bx by_]; unfold vcross, vlen2 in *; cbn [fst snd] in *.
  all: apply eq_iff_eq_true; rewrite ?qltb_iff; split; intros; nra.
Qed.

Definition inner (a b : pt) : Prop := 0 < vcross a b \/ (vcross a b == 0 /\ vlen2 a < vlen2 b).
Lemma radial_spec_iff a b : radial_spec a b = true <->
  (sector a < sector b)%nat \/ (sector a = sector b /\ inner a b).
Proof.
  unfold radial_spec, inner. rewrite orb_true_iff, andb_true_iff, orb_true_iff, andb_true_iff.
  rewrite Nat.ltb_lt, Nat.eqb_eq, !qltb_iff, Qeq_bool_iff. tauto.
Qed.
Lemma radialLess_sector a b : pt_nonzero a = true -> pt_nonzero b = true ->
  (radialLess a b = true <-> (sector a < sector b)%nat \/ (sector a = sector b /\ inner a b)).
Proof. intros Ha Hb. rewrite radialLess_char_lemma by assumption. apply radial_spec_iff. Qed.

Lemma radialLess_irrefl_lemma a : radialLess a a = false.
Proof.
  unfold radialLess. rewrite (proj2 (Qeq_bool_iff (vcross a a) 0)) by (unfold vcross; ring).
  destruct (signP (fst a)); cbn [andb orb negb]; try apply qltb_false_iff, Qle_refl.
  destruct (Qle_bool 0 (snd a) || Qle_bool 0 (snd a)); apply qltb_false_iff, Qle_refl.
Qed.

(* within a sector the angular order is transitive: in an open half plane by
   b.x det(a,c) = c.x det(a,b) + a.x det(b,c) with a.x, b.x, c.x of one sign; on the y axis det vanishes *)
Lemma inner_trans a b c :
  pt_nonzero a = true -> pt_nonzero b = true -> pt_nonzero c = true ->
  sector a = sector b -> sector b = sector c -> inner a b -> inner b c -> inner a c.
Proof.
  intros Ha Hb Hc. unfold inner, vcross, vlen2.
  assert (I : fst b * (fst a * snd c - snd a * fst c) ==
              fst c * (fst a * snd b - snd a * fst b) + fst a * (fst b * snd c - snd b * fst c)) by ring.
  destruct (dirP a Ha), (dirP b Hb); try discriminate 1; destruct (dirP c Hc); try discriminate 2;
    intros _ _ H12 H23; nra.
Qed.

Lemma radialLess_trans_lemma a b c :
  pt_nonzero a = true -> pt_nonzero b = true -> pt_nonzero c = true ->
  radialLess a b = true -> radialLess b c = true -> radialLess a c = true.
Proof.
  intros Ha Hb Hc. rewrite !radialLess_sector by assumption.
  intros [H1|(H1 & I1)] [H2|(H2 & I2)]; try (left; lia).
  right. split; [congruence|]. apply (inner_trans a b c); assumption.
Qed.

Lemma parallel_same_length ax ay bx by_ :
  ax * by_ - ay * bx == 0 -> ax * ax + ay * ay == bx * bx + by_ * by_ ->
  (ax == 0 /\ bx == 0 /\ 0 < ay * by_) \/ 0 < ax * bx -> ax == bx /\ ay == by_.
Proof.
  intros Hc Hl [(A & B & S)|S].
  - split; [lra|]. assert (E : (ay - by_) * (ay + by_) == 0) by nra.
    apply Qmult_integral in E as [E|E]; [lra|nra].
  - assert (Hp : ax * by_ == ay * bx) by lra.
    assert (Hp2 : (ax * by_) * (ax * by_) == (ay * bx) * (ay * bx)) by (rewrite Hp; reflexivity).
    assert (E0 : ax * ax * (ax * ax + ay * ay) == ax * ax * (bx * bx + by_ * by_)) by (rewrite Hl; reflexivity).
    assert (E1 : ax * ax * (bx * bx + by_ * by_) == bx * bx * (ax * ax + ay * ay)) by nra.
    assert (E2 : (ax - bx) * (ax + bx) * (ax * ax + ay * ay) == 0) by nra.
    assert (Hx : ax == bx).
    { apply Qmult_integral in E2 as [E2|E2]; [|nra]. apply Qmult_integral in E2 as [E2|E2]; [lra|nra]. }
    split; [exact Hx|]. assert (E3 : ax * (by_ - ay) == 0) by nra.
    apply Qmult_integral in E3 as [E3|E3]; [nra|lra].
Qed.

(* neither before the other: same sector, parallel, same length *)
Lemma radialLess_total_lemma a b :
  pt_nonzero a = true -> pt_nonzero b = true -> pt_eqb a b = false ->
  radialLess a b = true \/ radialLess b a = true.
Proof.
  intros Ha Hb Hne. rewrite !radialLess_sector by assumption. unfold inner.
  assert (N : vcross b a == - vcross a b) by (unfold vcross; ring).
  destruct (lt_eq_lt_dec (sector a) (sector b)) as [[S|S]|S]; [lia| |lia].
  destruct (Q_dec (vcross a b) 0) as [[D|D]|D].
  - right. right. split; [congruence|lra].
  - left. right. split; [exact S|lra].
  - destruct (Q_dec (vlen2 a) (vlen2 b)) as [[L|L]|L].
    + left. right. split; [exact S|lra].
    + right. right. split; [congruence|lra].
    + exfalso. apply pt_eqb_false_iff in Hne. apply Hne. unfold vcross, vlen2 in *.
      destruct (dirP a Ha), (dirP b Hb); try discriminate S; apply parallel_same_length; auto;
        (left; repeat split; [lra|lra|nra]) || (right; nra).
Qed.

Lemma radialLess_asym_lemma a b :
  pt_nonzero a = true -> pt_nonzero b = true -> radialLess a b = true -> radialLess b a = false.
Proof.
  intros Ha Hb H. destruct (radialLess b a) eqn:E; [|reflexivity].
  pose proof (radialLess_trans_lemma a b a Ha Hb Ha H E) as C. rewrite radialLess_irrefl_lemma in C. discriminate.
Qed.
End Radial.
Open Scope nat_scope.

(* ================================================================ sorting ======================= *)
Section Sorting.
  Variable less : nat -> nat -> bool.
  Definition lt_of (x y : nat) : Prop := less x y = true.

  Lemma insert_perm x l : Permutation (insert less x l) (x :: l).
  Proof.
    induction l as [|h t IH]; simpl; [apply Permutation_refl|].
    destruct (less x h); [apply Permutation_refl|].
    eapply Permutation_trans; [apply perm_skip; exact IH|apply perm_swap].
  Qed.
  Lemma isort_perm l : Permutation (isort less l) l.
  Proof.
    induction l as [|x r IH]; simpl; [constructor|].
    eapply Permutation_trans; [apply insert_perm|apply perm_skip; exact IH].
  Qed.

  (* the order hypotheses, on a domain D *)
  Variable D : nat -> Prop.
  Hypothesis Hirr : forall x, D x -> less x x = false.
  Hypothesis Htr : forall x y z, D x -> D y -> D z -> less x y = true -> less y z = true -> less x z = true.
  Hypothesis Htot : forall x y, D x -> D y -> x <> y -> less x y = true \/ less y x = true.

  Lemma insert_sorted x l :
    D x -> Forall D l -> ~ In x l -> StronglySorted lt_of l -> StronglySorted lt_of (insert less x l).
  Proof.
    intros Dx HD Hni Hs. induction Hs as [|h t Hst IH Hh]; simpl; [repeat constructor|].
    inversion HD as [|? ? Dh Dt]; subst.
    destruct (less x h) eqn:E; constructor.
    - constructor; assumption.
    - constructor; [exact E|]. rewrite Forall_forall in *. intros y Hy. apply (Htr x h y); auto. apply Hh, Hy.
    - apply IH; [exact Dt|]. intros Hin. apply Hni. right. exact Hin.
    - apply (Permutation_Forall (Permutation_sym (insert_perm x t))). constructor; [|exact Hh].
      destruct (Htot x h Dx Dh) as [H|H]; [intros ->; apply Hni; left; reflexivity|unfold lt_of; congruence|exact H].
  Qed.
  Lemma isort_sorted l : Forall D l -> NoDup l -> StronglySorted lt_of (isort less l).
  Proof.
    induction l as [|x r IH]; intros HD Hn; simpl; [constructor|].
    inversion HD; subst. inversion Hn as [|? ? Hni Hr]; subst. apply insert_sorted; auto.
    - apply (Permutation_Forall (Permutation_sym (isort_perm r))). assumption.
    - intros Hin. apply Hni, (Permutation_in _ (isort_perm r)), Hin.
  Qed.
  (* sort.Slice is deterministic under the hypotheses: a sorted permutation is unique *)
  Lemma sorted_unique_lemma l1 : forall l2,
    Permutation l1 l2 -> Forall D l1 -> StronglySorted lt_of l1 -> StronglySorted lt_of l2 -> l1 = l2.
  Proof.
    intros l2 Hp HD H1. revert l2 Hp. induction H1 as [|a r1 S1 IH F1]; intros l2 Hp H2.
    - apply Permutation_nil in Hp. subst. reflexivity.
    - destruct H2 as [|b r2 S2 F2]; [apply Permutation_sym, Permutation_nil in Hp; discriminate|].
      inversion HD as [|? ? Da Dr]; subst. rewrite Forall_forall in F1, F2, Dr.
      assert (E : a = b).
      { assert (Ha : In a (b :: r2)) by (apply (Permutation_in _ Hp); left; reflexivity).
        assert (Hb : In b (a :: r1)) by (apply (Permutation_in _ (Permutation_sym Hp)); left; reflexivity).
        destruct Ha as [Ha|Ha]; [auto|]. destruct Hb as [Hb|Hb]; [auto|].
        pose proof (Htr a b a Da (Dr b Hb) Da (F1 b Hb) (F2 a Ha)) as C. rewrite Hirr in C by exact Da. discriminate. }
      subst b. f_equal. apply IH; [apply Forall_forall, Dr|eapply Permutation_cons_inv, Hp|exact S2].
  Qed.
End Sorting.

(* ================================================================ cyclic pairs ================== *)
Lemma rotl_perm {A} (l : list A) : Permutation (rotl l) l.
Proof. destruct l as [|h t]; simpl; [constructor|]. apply Permutation_sym, Permutation_cons_append. Qed.
Lemma rotl_length {A} (l : list A) : length (rotl l) = length l.
Proof. apply Permutation_length, rotl_perm. Qed.
Lemma combine_fst {A B} (l : list A) : forall (l' : list B), length l = length l' -> map fst (combine l l') = l.
Proof. induction l as [|x r IH]; intros [|y r'] H; simpl in *; try discriminate; [reflexivity|]. f_equal. apply IH. lia. Qed.
Lemma combine_snd {A B} (l : list A) : forall (l' : list B), length l = length l' -> map snd (combine l l') = l'.
Proof. induction l as [|x r IH]; intros [|y r'] H; simpl in *; try discriminate; [reflexivity|]. f_equal. apply IH. lia. Qed.
Lemma cyc_pairs_fst l : map fst (cyc_pairs l) = l.
Proof. apply combine_fst. symmetry. apply rotl_length. Qed.
Lemma cyc_pairs_snd l : map snd (cyc_pairs l) = rotl l.
Proof. apply combine_snd. symmetry. apply rotl_length. Qed.

(* the Go indexing: the i-th pair is (incidents[i], incidents[(i+1) mod n]) *)
Lemma cyc_pairs_nth l i : i < length l ->
  nth i (cyc_pairs l) (0, 0) = (nth i l 0, nth ((i + 1) mod length l) l 0).
Proof.
  intros Hi. unfold cyc_pairs. rewrite combine_nth by (symmetry; apply rotl_length). f_equal.
  destruct l as [|h t]; [simpl in Hi; lia|]. cbn [rotl length] in *.
  destruct (Nat.eq_dec (i + 1) (S (length t))) as [E|E].
  - rewrite E, Nat.mod_same by lia. rewrite app_nth2 by lia. replace (i - length t) with 0 by lia. reflexivity.
  - rewrite Nat.mod_small by lia. rewrite app_nth1 by lia. replace (i + 1) with (S i) by lia. reflexivity.
Qed.

Lemma cyc_pairs_in l a b : In (a, b) (cyc_pairs l) ->
  exists i, i < length l /\ a = nth i l 0 /\ b = nth ((i + 1) mod length l) l 0.
Proof.
  intros Hin. destruct (In_nth _ _ (0, 0) Hin) as (i & Hi & E).
  assert (Hl : i < length l) by (rewrite <- (cyc_pairs_fst l), map_length; exact Hi).
  rewrite (cyc_pairs_nth l i Hl) in E. injection E as <- <-. exists i. auto.
Qed.

Lemma NoDup_map_inj {A B} (f : A -> B) l x y : NoDup (map f l) -> In x l -> In y l -> f x = f y -> x = y.
Proof.
  induction l as [|z r IH]; simpl; intros Hn Hx Hy E; [destruct Hx|]. inversion Hn as [|? ? Hz Hr]; subst.
  destruct Hx as [->|Hx], Hy as [->|Hy]; [reflexivity| | |apply IH; assumption]; exfalso; apply Hz.
  - rewrite E. apply in_map, Hy.
  - rewrite <- E. apply in_map, Hx.
Qed.

Lemma fold_left_inv {A B} (P : A -> Prop) (f : A -> B -> A) l : forall a,
  P a -> (forall a x, In x l -> P a -> P (f a x)) -> P (fold_left f l a).
Proof.
  induction l as [|x t IH]; intros a Ha H; simpl; [exact Ha|].
  apply IH; [apply H; [left; reflexivity|exact Ha]|]. intros b y Hy. apply H. right. exact Hy.
Qed.
(* a sequence of updates: when all updates of a key write the same value, that value is read back *)
Lemma fold_upd_other {A B} (key : B -> nat) (val : B -> A) (P : list B) : forall f0 k,
  (forall q, In q P -> key q <> k) -> fold_left (fun f q => upd f (key q) (val q)) P f0 k = f0 k.
Proof.
  intros f0 k H. apply (fold_left_inv (fun f => f k = f0 k)); [reflexivity|].
  intros f q Hq E. unfold upd. destruct (Nat.eqb_spec k (key q)) as [Ek|_]; [destruct (H q Hq (eq_sym Ek))|exact E].
Qed.
Lemma fold_upd_lookup {A B} (key : B -> nat) (val : B -> A) (P : list B) f0 p :
  In p P -> (forall q, In q P -> key q = key p -> val q = val p) ->
  fold_left (fun f q => upd f (key q) (val q)) P f0 (key p) = val p.
Proof.
  revert f0. induction P as [|q r IH] using rev_ind; intros f0 Hin Hf; [destruct Hin|].
  rewrite fold_left_app. simpl. unfold upd at 1.
  destruct (Nat.eqb (key p) (key q)) eqn:E.
  - apply Nat.eqb_eq in E. apply Hf; [apply in_or_app; right; left; reflexivity|auto].
  - apply Nat.eqb_neq in E. apply IH.
    + apply in_app_or in Hin as [Hin|[->|[]]]; [exact Hin|congruence].
    + intros q' Hq'. apply Hf. apply in_or_app. left. exact Hq'.
Qed.
Lemma fold_flat_map {A B C} (f : A -> B -> A) (g : C -> list B) (l : list C) : forall s,
  fold_left (fun s v => fold_left f (g v) s) l s = fold_left f (flat_map g l) s.
Proof. induction l as [|v r IH]; intros s; simpl; [reflexivity|]. rewrite fold_left_app. apply IH. Qed.

(* ================================================================ (b) fixVertices ============== *)
Lemma forallb_seq (f : nat -> bool) n : forallb f (seq 0 n) = true -> forall i, i < n -> f i = true.
Proof. intros H i Hi. apply (proj1 (forallb_forall f _) H), in_seq. lia. Qed.
Lemma l_next_fold pc P : forall s,
  l_next (fold_left (link_step pc) P s) = fold_left (fun f q => upd f (p_twin pc (snd q)) (fst q)) P (l_next s).
Proof. induction P as [|q r IH]; intros s; simpl; [reflexivity|]. rewrite IH. reflexivity. Qed.
Lemma l_prev_fold pc P : forall s,
  l_prev (fold_left (link_step pc) P s) = fold_left (fun f q => upd f (fst q) (p_twin pc (snd q))) P (l_prev s).
Proof. induction P as [|q r IH]; intros s; simpl; [reflexivity|]. rewrite IH. reflexivity. Qed.

Section FixVertices.
  Variable pc : precomplex.
  Hypothesis Hwf : pre_wf pc = true.

  Lemma wf_at i : i < pnE pc ->
    p_origin pc i < pnV pc /\ p_twin pc i < pnE pc /\ p_twin pc (p_twin pc i) = i /\ p_twin pc i <> i.
  Proof.
    intros Hi. pose proof (forallb_seq _ _ Hwf i Hi) as H. cbv beta in H.
    rewrite !andb_true_iff, !Nat.ltb_lt, Nat.eqb_eq, negb_true_iff, Nat.eqb_neq in H. tauto.
  Qed.
  Lemma twin_inj i j : i < pnE pc -> j < pnE pc -> p_twin pc i = p_twin pc j -> i = j.
  Proof.
    intros Hi Hj E. destruct (wf_at i Hi) as (_ & _ & Ei & _). destruct (wf_at j Hj) as (_ & _ & Ej & _).
    rewrite <- Ei, <- Ej, E. reflexivity.
  Qed.

  Lemma incidents_in v e : In e (incidents pc v) <-> e < pnE pc /\ p_origin pc e = v.
  Proof. unfold incidents. rewrite filter_In, in_seq, Nat.eqb_eq. lia. Qed.
  Lemma incidents_nodup v : NoDup (incidents pc v).
  Proof. apply NoDup_filter, seq_NoDup. Qed.
  Lemma sorted_incidents_perm v : Permutation (sorted_incidents pc v) (incidents pc v).
  Proof. unfold sorted_incidents. destruct (Nat.leb _ 2); [apply Permutation_refl|apply isort_perm]. Qed.
  Lemma sorted_in v e : In e (sorted_incidents pc v) <-> e < pnE pc /\ p_origin pc e = v.
  Proof.
    rewrite <- incidents_in. split; apply Permutation_in; [|apply Permutation_sym]; apply sorted_incidents_perm.
  Qed.
  Lemma sorted_nodup v : NoDup (sorted_incidents pc v).
  Proof. eapply Permutation_NoDup; [apply Permutation_sym, sorted_incidents_perm|apply incidents_nodup]. Qed.

  Definition all_pairs : list (nat * nat) :=
    flat_map (fun v => cyc_pairs (sorted_incidents pc v)) (seq 0 (pnV pc)).
  Lemma fixVertices_flat : fixVertices pc = fold_left (link_step pc) all_pairs (init_links pc).
  Proof. unfold fixVertices, fixVertex, all_pairs. apply fold_flat_map. Qed.
  Lemma all_pairs_in a b :
    In (a, b) all_pairs <-> exists v, v < pnV pc /\ In (a, b) (cyc_pairs (sorted_incidents pc v)).
  Proof.
    unfold all_pairs. rewrite in_flat_map. split; intros (v & Hv & Hin); exists v; rewrite in_seq in *; (split; [lia|exact Hin]).
  Qed.
  Lemma pair_members v a b : In (a, b) (cyc_pairs (sorted_incidents pc v)) ->
    (a < pnE pc /\ p_origin pc a = v) /\ (b < pnE pc /\ p_origin pc b = v).
  Proof.
    intros Hin. split; apply sorted_in.
    - eapply in_combine_l; exact Hin.
    - apply (Permutation_in _ (rotl_perm _)). eapply in_combine_r; exact Hin.
  Qed.
  Lemma pairs_fun_fst a b b' : In (a, b) all_pairs -> In (a, b') all_pairs -> b = b'.
  Proof.
    intros H1 H2. apply all_pairs_in in H1 as (v & Hv & H1), H2 as (w & Hw & H2).
    destruct (pair_members _ _ _ H1) as ((_ & E1) & _). destruct (pair_members _ _ _ H2) as ((_ & E2) & _).
    subst v. subst w. enough (E : (a, b) = (a, b')) by congruence.
    apply (NoDup_map_inj fst (cyc_pairs (sorted_incidents pc (p_origin pc a)))); [|assumption..|reflexivity].
    rewrite cyc_pairs_fst. apply sorted_nodup.
  Qed.
  Lemma pairs_fun_snd a a' b : In (a, b) all_pairs -> In (a', b) all_pairs -> a = a'.
  Proof.
    intros H1 H2. apply all_pairs_in in H1 as (v & Hv & H1), H2 as (w & Hw & H2).
    destruct (pair_members _ _ _ H1) as (_ & (_ & E1)). destruct (pair_members _ _ _ H2) as (_ & (_ & E2)).
    subst v. subst w. enough (E : (a, b) = (a', b)) by congruence.
    apply (NoDup_map_inj snd (cyc_pairs (sorted_incidents pc (p_origin pc b)))); [|assumption..|reflexivity].
    rewrite cyc_pairs_snd. eapply Permutation_NoDup; [apply Permutation_sym, rotl_perm|apply sorted_nodup].
  Qed.
  Lemma pairs_ex_fst e : e < pnE pc -> exists b, In (e, b) all_pairs.
  Proof.
    intros He. destruct (wf_at e He) as (Ho & _).
    assert (Hin : In e (map fst (cyc_pairs (sorted_incidents pc (p_origin pc e))))).
    { rewrite cyc_pairs_fst. apply sorted_in. auto. }
    apply in_map_iff in Hin as ([a b] & E & Hin). simpl in E. subst a.
    exists b. apply all_pairs_in. exists (p_origin pc e). auto.
  Qed.
  Lemma pairs_ex_snd e : e < pnE pc -> exists a, In (a, e) all_pairs.
  Proof.
    intros He. destruct (wf_at e He) as (Ho & _).
    assert (Hin : In e (map snd (cyc_pairs (sorted_incidents pc (p_origin pc e))))).
    { rewrite cyc_pairs_snd. apply (Permutation_in _ (Permutation_sym (rotl_perm _))). apply sorted_in. auto. }
    apply in_map_iff in Hin as ([a b] & E & Hin). simpl in E. subst b.
    exists a. apply all_pairs_in. exists (p_origin pc e). auto.
  Qed.
  Lemma pairs_range a b : In (a, b) all_pairs -> a < pnE pc /\ b < pnE pc /\ p_origin pc a = p_origin pc b.
  Proof.
    rewrite all_pairs_in. intros (v & Hv & H). destruct (pair_members _ _ _ H) as ((A1 & A2) & (B1 & B2)).
    repeat split; auto. congruence.
  Qed.

  (* the state fixVertices leaves: for every pair (ei, ej) of the loops, ei.prev = ej.twin and ej.twin.next = ei *)
  Lemma final_links a b : In (a, b) all_pairs ->
    l_prev (fixVertices pc) a = p_twin pc b /\ l_next (fixVertices pc) (p_twin pc b) = a.
  Proof.
    intros Hin. rewrite fixVertices_flat, l_prev_fold, l_next_fold. split.
    - apply (fold_upd_lookup (fun q : nat * nat => fst q) (fun q => p_twin pc (snd q)) all_pairs _ (a, b) Hin).
      intros [a' b'] Hq E. simpl in *. subst a'. f_equal. eapply pairs_fun_fst; eauto.
    - apply (fold_upd_lookup (fun q : nat * nat => p_twin pc (snd q)) (fun q => fst q) all_pairs _ (a, b) Hin).
      intros [a' b'] Hq E. simpl in *.
      destruct (pairs_range _ _ Hin) as (_ & Hb & _). destruct (pairs_range _ _ Hq) as (_ & Hb' & _).
      apply twin_inj in E; auto. subst b'. eapply pairs_fun_snd; eauto.
  Qed.

  Let nx := l_next (fixVertices pc).
  Let pv := l_prev (fixVertices pc).

  (* (next e, twin e) is a pair of the loop at the end vertex of e *)
  Lemma next_pair e : e < pnE pc -> In (nx e, p_twin pc e) all_pairs.
  Proof.
    intros He. destruct (wf_at e He) as (_ & Ht & Ett & _). destruct (pairs_ex_snd _ Ht) as (a & Hin).
    destruct (final_links _ _ Hin) as (_ & E). rewrite Ett in E. unfold nx. rewrite E. exact Hin.
  Qed.
  Lemma next_twin_pair e : e < pnE pc -> In (nx e, p_twin pc e) (cyc_pairs (sorted_incidents pc (p_origin pc (p_twin pc e)))).
  Proof.
    intros He. destruct (proj1 (all_pairs_in _ _) (next_pair e He)) as (v & Hv & Hin).
    destruct (pair_members _ _ _ Hin) as (_ & (_ & <-)). exact Hin.
  Qed.

  Lemma fix_range e : e < pnE pc -> nx e < pnE pc /\ pv e < pnE pc.
  Proof.
    intros He. split; [apply (pairs_range _ _ (next_pair e He))|].
    destruct (pairs_ex_fst _ He) as (b & Hin). destruct (final_links _ _ Hin) as (E & _). unfold pv. rewrite E.
    destruct (pairs_range _ _ Hin) as (_ & Hb & _). apply (wf_at b Hb).
  Qed.
  Lemma fix_next_prev e : e < pnE pc -> nx (pv e) = e.
  Proof.
    intros He. destruct (pairs_ex_fst _ He) as (b & Hin). destruct (final_links _ _ Hin) as (E1 & E2).
    unfold nx, pv. rewrite E1. exact E2.
  Qed.
  Lemma fix_prev_next e : e < pnE pc -> pv (nx e) = e.
  Proof.
    intros He. destruct (final_links _ _ (next_pair e He)) as (E & _). unfold pv, nx in *. rewrite E. apply (wf_at e He).
  Qed.
  Lemma fix_next_origin e : e < pnE pc -> p_origin pc (nx e) = p_origin pc (p_twin pc e).
  Proof. intros He. apply (pairs_range _ _ (next_pair e He)). Qed.
  Lemma fix_next_inj e e' : e < pnE pc -> e' < pnE pc -> nx e = nx e' -> e = e'.
  Proof. intros He He' E. rewrite <- (fix_prev_next e He), <- (fix_prev_next e' He'), E. reflexivity. Qed.
End FixVertices.

(* ---------------------------------------------------------------- the radial neighbour *)
Lemma ssorted_nth (R : nat -> nat -> Prop) l : StronglySorted R l ->
  forall i j, i < j -> j < length l -> R (nth i l 0) (nth j l 0).
Proof.
  induction 1 as [|h t Hs IH F]; intros i j Hij Hj; [simpl in Hj; lia|].
  destruct j as [|j]; [lia|]. simpl in Hj. destruct i as [|i]; simpl.
  - rewrite Forall_forall in F. apply F, nth_In. lia.
  - apply IH; lia.
Qed.

Section Radial2.
  Variable pc : precomplex.
  Hypothesis Hwf : pre_wf pc = true.
  Hypothesis Hdirs : pre_dirs_ok pc = true.

  Lemma dirs_at i : i < pnE pc ->
    pt_nonzero (p_dir pc i) = true /\
    (forall j, j < pnE pc -> i <> j -> p_origin pc i = p_origin pc j -> pt_eqb (p_dir pc i) (p_dir pc j) = false).
  Proof.
    intros Hi. pose proof (forallb_seq _ _ Hdirs i Hi) as H. cbv beta in H.
    rewrite !andb_true_iff in H. destruct H as ((H1 & _) & H3). split; [exact H1|].
    intros j Hj Hne Ho. pose proof (forallb_seq _ _ H3 j Hj) as H. cbv beta in H.
    apply Nat.eqb_neq in Hne. apply Nat.eqb_eq in Ho. rewrite Hne, Ho in H. apply negb_true_iff, H.
  Qed.
  Lemma edge_less_irrefl i : edge_less pc i i = false.
  Proof. apply radialLess_irrefl_lemma. Qed.
  Lemma edge_less_trans i j k : i < pnE pc -> j < pnE pc -> k < pnE pc ->
    edge_less pc i j = true -> edge_less pc j k = true -> edge_less pc i k = true.
  Proof. intros Hi Hj Hk. apply radialLess_trans_lemma; apply dirs_at; assumption. Qed.
  Lemma edge_less_asym i j : i < pnE pc -> j < pnE pc -> edge_less pc i j = true -> edge_less pc j i = false.
  Proof. intros Hi Hj. apply radialLess_asym_lemma; apply dirs_at; assumption. Qed.
  Lemma edge_less_total i j : i < pnE pc -> j < pnE pc -> i <> j -> p_origin pc i = p_origin pc j ->
    edge_less pc i j = true \/ edge_less pc j i = true.
  Proof.
    intros Hi Hj Hne Ho. apply radialLess_total_lemma; try (apply dirs_at; assumption).
  Qed.

  Lemma isort_incidents_sorted v : StronglySorted (lt_of (edge_less pc)) (isort (edge_less pc) (incidents pc v)).
  Proof.
    apply (isort_sorted (edge_less pc) (fun i => i < pnE pc /\ p_origin pc i = v)).
    - intros x y z (Hx & _) (Hy & _) (Hz & _). apply edge_less_trans; assumption.
    - intros x y (Hx & Ox) (Hy & Oy) Hne. apply edge_less_total; auto. congruence.
    - rewrite Forall_forall. intros x Hx. apply incidents_in in Hx. exact Hx.
    - apply incidents_nodup.
  Qed.
  (* the sorted incident list of a vertex of degree >= 3 is strictly increasing for radialLess *)
  Lemma sorted_incidents_sorted v : 3 <= length (sorted_incidents pc v) ->
    StronglySorted (lt_of (edge_less pc)) (sorted_incidents pc v).
  Proof.
    intros Hlen. unfold sorted_incidents in *. destruct (Nat.leb (length (incidents pc v)) 2) eqn:E.
    - apply Nat.leb_le in E. lia.
    - apply isort_incidents_sorted.
  Qed.

  Lemma edge_less_nth v i j : let l := sorted_incidents pc v in
    3 <= length l -> i < length l -> j < length l -> edge_less pc (nth i l 0) (nth j l 0) = (i <? j).
  Proof.
    intros l Hlen Hi Hj. pose proof (ssorted_nth _ _ (sorted_incidents_sorted v Hlen)) as Hs. fold l in Hs.
    assert (Hin : forall k, k < length l -> nth k l 0 < pnE pc) by (intros k Hk; apply (sorted_in pc v), nth_In, Hk).
    destruct (Nat.ltb_spec i j) as [H|H]; [apply Hs; assumption|].
    destruct (Nat.eq_dec i j) as [->|Hne]; [apply edge_less_irrefl|].
    apply edge_less_asym; [apply Hin, Hj|apply Hin, Hi|apply Hs; lia].
  Qed.

  Lemma next_twin_pos e : e < pnE pc -> let l := sorted_incidents pc (p_origin pc (p_twin pc e)) in
    exists i, i < length l /\ l_next (fixVertices pc) e = nth i l 0 /\
              p_twin pc e = nth (if Nat.eq_dec (i + 1) (length l) then 0 else i + 1) l 0.
  Proof.
    intros He l. destruct (cyc_pairs_in _ _ _ (next_twin_pair pc Hwf e He)) as (i & Hi & Ea & Ex). fold l in Hi, Ea, Ex.
    exists i. split; [exact Hi|]. split; [exact Ea|]. rewrite Ex.
    destruct (Nat.eq_dec (i + 1) (length l)) as [E|E]; [rewrite E, Nat.mod_same by lia|rewrite Nat.mod_small by lia]; reflexivity.
  Qed.

  Lemma fix_next_radial_lemma e z :
    e < pnE pc -> z < pnE pc -> p_origin pc z = p_origin pc (p_twin pc e) ->
    z <> l_next (fixVertices pc) e -> z <> p_twin pc e ->
    ccw_between (edge_less pc) (l_next (fixVertices pc) e) z (p_twin pc e) = false.
  Proof.
    intros He Hz Hoz. destruct (next_twin_pos e He) as (i & Hi & Ea & Ex).
    set (l := sorted_incidents pc (p_origin pc (p_twin pc e))) in *. rewrite Ea, Ex.
    set (j := if Nat.eq_dec (i + 1) (length l) then 0 else i + 1).
    assert (Hj : j = i + 1 /\ j < length l \/ j = 0 /\ i + 1 = length l)
      by (unfold j; destruct (Nat.eq_dec (i + 1) (length l)); lia).
    destruct (In_nth l z 0) as (k & Hk & <-); [apply sorted_in; auto|]. intros Hki Hkj.
    assert (k <> i /\ k <> j) as [Hi' Hj'] by (split; congruence).
    (* the three comparisons are those of the positions i, k, j with j = i + 1 or j = 0 < k < i *)
    assert (3 <= length l /\ j < length l) as [Hlen Hjl] by lia.
    unfold ccw_between, l in *. rewrite !edge_less_nth by assumption.
    destruct (Nat.ltb_spec i k), (Nat.ltb_spec k j), (Nat.ltb_spec j i); try reflexivity; lia.
  Qed.

  (* degree one: the next of e is its own twin exactly when e ends in a vertex of degree one *)
  Lemma fix_next_twin_degree1 e : e < pnE pc ->
    (l_next (fixVertices pc) e = p_twin pc e <->
     forall z, z < pnE pc -> p_origin pc z = p_origin pc (p_twin pc e) -> z = p_twin pc e).
  Proof.
    intros He. split.
    - destruct (next_twin_pos e He) as (i & Hi & Ea & Ex).
      set (l := sorted_incidents pc (p_origin pc (p_twin pc e))) in *.
      intros Eax z Hz Oz. destruct (In_nth l z 0) as (k & Hk & <-); [apply sorted_in; auto|].
      rewrite Ea, Ex in Eax. rewrite Ex.
      apply (proj1 (NoDup_nth l 0) (sorted_nodup pc _)) in Eax; [|lia|destruct (Nat.eq_dec (i + 1) (length l)); lia].
      destruct (Nat.eq_dec (i + 1) (length l)); [f_equal; lia|lia].
    - intros Hall. destruct (pair_members pc _ _ _ (next_twin_pair pc Hwf e He)) as ((Ha & Oa) & _). apply Hall; auto.
  Qed.
  (* sort.Slice is deterministic here: every sorted permutation of the incident edges is the model's list *)
  Lemma sort_deterministic_lemma v l :
    Permutation l (incidents pc v) -> StronglySorted (lt_of (edge_less pc)) l ->
    l = isort (edge_less pc) (incidents pc v).
  Proof.
    intros Hp Hs.
    assert (HD : Forall (fun i => i < pnE pc /\ p_origin pc i = v) (incidents pc v)).
    { rewrite Forall_forall. intros x Hx. apply incidents_in in Hx. exact Hx. }
    apply (sorted_unique_lemma (edge_less pc) (fun i => i < pnE pc /\ p_origin pc i = v)).
    - intros x _. apply edge_less_irrefl.
    - intros x y z (Hx & _) (Hy & _) (Hz & _). apply edge_less_trans; assumption.
    - eapply Permutation_trans; [exact Hp|apply Permutation_sym, isort_perm].
    - rewrite Forall_forall in *. intros x Hx. apply HD. apply (Permutation_in _ Hp). exact Hx.
    - exact Hs.
    - apply isort_incidents_sorted.
  Qed.
End Radial2.

(* ================================================================ (c) assignFaces: cycles ====== *)
Lemma iter_add {A} (f : A -> A) a b x : Nat.iter (a + b) f x = Nat.iter a f (Nat.iter b f x).
Proof. induction a as [|a IH]; simpl; [reflexivity|]. rewrite IH. reflexivity. Qed.
Lemma nodup_app_disj {A} (l1 l2 : list A) x : NoDup (l1 ++ l2) -> In x l1 -> In x l2 -> False.
Proof.
  induction l1 as [|h t IH]; simpl; intros Hn H1 H2; [destruct H1|]. inversion Hn as [|? ? Hh Ht]; subst.
  destruct H1 as [->|H1]; [apply Hh; apply in_or_app; right; exact H2|apply IH; auto].
Qed.
Lemma nodup_app_r {A} (l1 l2 : list A) : NoDup (l1 ++ l2) -> NoDup l2.
Proof. induction l1 as [|h t IH]; simpl; intros H; [exact H|]. inversion H; subst. apply IH. assumption. Qed.
Lemma concat_nodup_index {A} (ls : list (list A)) : forall j j' r r' e,
  NoDup (concat ls) -> nth_error ls j = Some r -> nth_error ls j' = Some r' -> In e r -> In e r' -> j = j'.
Proof.
  induction ls as [|r0 rest IH]; intros j j' r r' e Hn H1 H2 I1 I2; [destruct j; discriminate|].
  simpl in Hn. destruct j as [|j]; destruct j' as [|j']; simpl in H1, H2.
  - reflexivity.
  - inversion H1; subst. exfalso. apply (nodup_app_disj _ _ e Hn I1).
    apply in_concat. exists r'. split; [eapply nth_error_In; eauto|exact I2].
  - inversion H2; subst. exfalso. apply (nodup_app_disj _ _ e Hn I2).
    apply in_concat. exists r. split; [eapply nth_error_In; eauto|exact I1].
  - f_equal. apply (IH j j' r r' e); auto. eapply nodup_app_r; eauto.
Qed.

Section Cycles.
  Variable nx : nat -> nat.
  Variable n : nat.
  Hypothesis Hrange : forall e, e < n -> nx e < n.
  Hypothesis Hinj : forall e e', e < n -> e' < n -> nx e = nx e' -> e = e'.
  Let f := nsucc nx.

  (* the walk so far, newest first *)
  Inductive rpath (s : nat) : list nat -> Prop :=
  | rp_one : rpath s [s]
  | rp_cons x y l : rpath s (y :: l) -> x = nx y -> rpath s (x :: y :: l).
  Lemma rpath_pred s l : rpath s l -> forall y, In y l -> y <> s -> exists y', In y' (tl l) /\ y = nx y'.
  Proof.
    induction 1 as [|x y0 l Hp IH Ex]; intros y Hy Hne.
    - destruct Hy as [<-|[]]. congruence.
    - destruct Hy as [<-|Hy].
      + exists y0. split; [left; reflexivity|exact Ex].
      + destruct (IH y Hy Hne) as (y' & Hin & E). exists y'. split; [right; exact Hin|exact E].
  Qed.
  (* forEachEdgeInCycle terminates within n steps on a permutation of [0, n) *)
  Lemma walk_total s : forall fuel cur rest,
    rpath s (cur :: rest) -> NoDup (cur :: rest) -> (forall x, In x (cur :: rest) -> x < n) ->
    n <= fuel + length rest -> exists l, walk f s cur fuel = Some l.
  Proof.
    induction fuel as [|k IH]; intros cur rest Hp Hn Hlt Hf.
    - exfalso. assert (Hl : length (cur :: rest) <= length (seq 0 n)).
      { apply NoDup_incl_length; [exact Hn|]. intros x Hx. apply in_seq. specialize (Hlt x Hx). lia. }
      rewrite seq_length in Hl. simpl in Hl. lia.
    - simpl. change (f cur) with (Some (nx cur)). cbv beta iota. destruct (Nat.eqb (nx cur) s) eqn:E; [eexists; reflexivity|].
      apply Nat.eqb_neq in E.
      destruct (IH (nx cur) (cur :: rest)) as (l & Hl).
      + constructor; [exact Hp|reflexivity].
      + constructor; [|exact Hn]. intros Hin.
        destruct (rpath_pred s _ Hp (nx cur) Hin E) as (y' & Hy' & Ey). simpl in Hy'.
        assert (cur = y').
        { apply Hinj; [apply Hlt; left; reflexivity|apply Hlt; right; exact Hy'|exact Ey]. }
        subst y'. inversion Hn; subst. contradiction.
      + intros x [<-|Hx]; [apply Hrange; apply Hlt; left; reflexivity|apply Hlt; exact Hx].
      + simpl. lia.
      + rewrite Hl. eexists; reflexivity.
  Qed.
  Lemma cycle_total s : s < n -> exists l, walk f s s n = Some l.
  Proof.
    intros Hs. apply (walk_total s n s []).
    - constructor.
    - constructor; [intros []|constructor].
    - intros x [<-|[]]. exact Hs.
    - simpl. lia.
  Qed.
  Lemma collect_total : forall cands seen, (forall x, In x cands -> x < n) -> exists rings, collect f cands seen n = Some rings.
  Proof.
    induction cands as [|x r IH]; intros seen Hc; simpl; [eexists; reflexivity|].
    destruct (memb x seen).
    - apply IH. intros y Hy. apply Hc. right. exact Hy.
    - destruct (cycle_total x (Hc x (or_introl eq_refl))) as (ring & Hr). rewrite Hr.
      destruct (IH (ring ++ seen)) as (rs & Hrs); [intros y Hy; apply Hc; right; exact Hy|]. rewrite Hrs. eexists; reflexivity.
  Qed.
  Lemma find_cycles_total : exists cycles, find_cycles nx n = Some cycles.
  Proof. apply collect_total. intros x Hx. apply in_seq in Hx. lia. Qed.

  Lemma chain_iter s x l : chain f s x l ->
    (exists k, Nat.iter k nx x = s) /\ forall z, In z l -> exists k, Nat.iter k nx x = z.
  Proof.
    intros Hc. apply (chain_inv f (fun z => exists k, Nat.iter k nx x = z) s x l); [|exact Hc|exists 0; reflexivity].
    intros a b (k & <-) E. injection E as <-. exists (S k). reflexivity.
  Qed.
  Lemma chain_lt s x l : x < n -> chain f s x l -> forall z, In z l -> z < n.
  Proof.
    intros Hx Hc. apply (chain_inv f (fun z => z < n) s x l); [|exact Hc|exact Hx].
    intros a b Ha E. injection E as <-. apply Hrange, Ha.
  Qed.
  Lemma cycle_iter_in s l : chain f s s l -> forall z k, In z l -> In (Nat.iter k nx z) l.
  Proof.
    intros Hc z k Hz. induction k as [|k IH]; simpl; [exact Hz|].
    destruct (cycle_closed f s l Hc _ IH) as (y & Hy & Hin). unfold f, nsucc in Hy. inversion Hy; subst. exact Hin.
  Qed.
  Lemma cycle_connected s l : chain f s s l -> forall e e', In e l -> In e' l -> exists k, Nat.iter k nx e = e'.
  Proof.
    intros Hc e e' He He'.
    destruct (proj2 (chain_iter _ _ _ Hc) e' He') as (b & Hb).
    apply In_nth_error in He as (i & Hi).
    destruct (proj1 (chain_iter _ _ _ (chain_suffix f s s l Hc i e Hi))) as (c & Hcc).
    exists (b + c). rewrite iter_add, Hcc. exact Hb.
  Qed.

  (* what the cycle search returns *)
  Lemma find_cycles_spec cycles : find_cycles nx n = Some cycles ->
    (forall ring, In ring cycles -> exists s, chain f s s ring /\ s < n) /\
    (forall x, x < n -> exists ring, In ring cycles /\ In x ring) /\
    NoDup (concat cycles).
  Proof.
    intros H. destruct (collect_spec f n (seq 0 n) [] cycles H) as (A & B & C & _); [intros x y []|].
    repeat split.
    - intros ring Hr. destruct (A ring Hr) as (s & Hc & Hs). exists s. split; [exact Hc|]. apply in_seq in Hs. lia.
    - intros x Hx. destruct (B x) as [[]|Hr]; [apply in_seq; lia|exact Hr].
    - exact C.
  Qed.

End Cycles.

(* e.incident = f for the half edges of the cycle of f *)
Lemma assign_inner j r : forall g0 : nat -> nat,
  fold_left (fun inc e => upd inc e j) r g0 =
  fold_left (fun g (q : nat * nat) => upd g (fst q) (snd q)) (map (fun e => (e, j)) r) g0.
Proof. induction r as [|e t IH]; intros g0; simpl; [reflexivity|]. apply IH. Qed.
Lemma assign_flat_gen (L : list (nat * list nat)) : forall g0 : nat -> nat,
  fold_left (fun inc (jc : nat * list nat) => fold_left (fun inc e => upd inc e (fst jc)) (snd jc) inc) L g0 =
  fold_left (fun g (q : nat * nat) => upd g (fst q) (snd q))
            (flat_map (fun jc : nat * list nat => map (fun e => (e, fst jc)) (snd jc)) L) g0.
Proof.
  induction L as [|jc t IH]; intros g0; simpl; [reflexivity|]. rewrite fold_left_app, IH, assign_inner. reflexivity.
Qed.
Lemma assign_incident_at cycles j r e :
  NoDup (concat cycles) -> nth_error cycles j = Some r -> In e r -> assign_incident cycles e = j.
Proof.
  intros Hn Hj He. unfold assign_incident. rewrite assign_flat_gen.
  apply (fold_upd_lookup (fun q : nat * nat => fst q) (fun q => snd q) _ _ (e, j)).
  - apply in_flat_map. exists (j, r). split.
    + apply in_indexed_from. rewrite Nat.sub_0_r. split; [lia|exact Hj].
    + apply in_map_iff. exists e. auto.
  - intros [e' j'] Hq E. simpl in *. subst e'.
    apply in_flat_map in Hq as ([j2 r2] & Hix & Hin). apply in_map_iff in Hin as (e2 & E2 & Hin). simpl in *.
    inversion E2; subst. apply in_indexed_from in Hix as (_ & Hix). rewrite Nat.sub_0_r in Hix.
    apply (concat_nodup_index cycles j' j r2 r e); auto.
Qed.

(* ================================================================ (d) the flood fill =========== *)
Lemma filter_len_le {A} (p q : A -> bool) l : (forall x, p x = true -> q x = true) ->
  length (filter p l) <= length (filter q l).
Proof.
  intros H. induction l as [|a t IH]; simpl; [lia|]. destruct (p a) eqn:Ep.
  - rewrite (H a Ep). simpl. lia.
  - destruct (q a); simpl; lia.
Qed.
Lemma filter_len_lt {A} (p q : A -> bool) l a : (forall x, p x = true -> q x = true) ->
  In a l -> q a = true -> p a = false -> length (filter p l) < length (filter q l).
Proof.
  intros H. induction l as [|b t IH]; intros Hin Hq Hp; [destruct Hin|]. simpl. destruct Hin as [->|Hin].
  - rewrite Hp, Hq. simpl. pose proof (filter_len_le p q t H). lia.
  - specialize (IH Hin Hq Hp). destruct (p b) eqn:Ep; [rewrite (H b Ep); simpl; lia|destruct (q b); simpl; lia].
Qed.

Lemma filter_len_all {A} (p : A -> bool) l : length (filter p l) <= length l.
Proof. induction l as [|a t IH]; simpl; [lia|]. destruct (p a); simpl; lia. Qed.

Section Flood.
  Variable succs : nat -> list nat.
  Variable N : nat.
  Hypothesis Hsucc : forall f h, f < N -> In h (succs f) -> h < N.

  (* number of faces not yet visited *)
  Definition unvisited (V : list nat) : nat := length (filter (fun x => negb (memb x V)) (seq 0 N)).
  Lemma unvisited_le V : unvisited V <= N.
  Proof. unfold unvisited. rewrite <- (seq_length N 0) at 2. apply filter_len_all. Qed.
  Lemma unvisited_mono V V' : incl V V' -> unvisited V' <= unvisited V.
  Proof.
    intros H. apply filter_len_le. intros x Hx. apply negb_true_iff in Hx. apply negb_true_iff.
    apply memb_false. apply memb_false in Hx. intros Hin. apply Hx. apply H. exact Hin.
  Qed.
  Lemma unvisited_lt V f : f < N -> ~ In f V -> unvisited (f :: V) < unvisited V.
  Proof.
    intros Hf Hn. apply (filter_len_lt _ _ _ f).
    - intros x Hx. apply negb_true_iff in Hx. apply negb_true_iff. apply memb_false. apply memb_false in Hx.
      intros Hin. apply Hx. right. exact Hin.
    - apply in_seq. lia.
    - apply negb_true_iff. apply memb_false. exact Hn.
    - apply negb_false_iff. apply memb_In. left. reflexivity.
  Qed.

  (* what a call establishes: the visited set grows inside [0, N); labels only grow; every newly visited
     face is labelled, and all its successors are visited and labelled *)
  Definition post (V : list nat) (I : nat -> bool) (V' : list nat) (I' : nat -> bool) : Prop :=
    incl V V' /\ (forall x, In x V' -> x < N) /\ (forall x, I x = true -> I' x = true) /\
    (forall x, In x V' -> ~ In x V -> I' x = true /\ forall h, In h (succs x) -> In h V' /\ I' h = true) /\
    (forall x, I' x = true -> I x = true \/ In x V').
  Lemma post_refl V I : (forall x, In x V -> x < N) -> post V I V I.
  Proof. intros H. repeat split; auto using incl_refl; contradiction. Qed.
  Lemma post_trans V I V1 I1 V2 I2 : post V I V1 I1 -> post V1 I1 V2 I2 -> post V I V2 I2.
  Proof.
    intros (A1 & A2 & A3 & A4 & A5) (B1 & B2 & B3 & B4 & B5).
    refine (conj (incl_tran A1 B1) (conj B2 (conj (fun x H => B3 x (A3 x H)) (conj _ _)))).
    - intros x Hx Hn. destruct (in_dec Nat.eq_dec x V1) as [Hin|Hni]; [|exact (B4 x Hx Hni)].
      destruct (A4 x Hin Hn) as [L S]. split; [exact (B3 x L)|]. intros h Hh. destruct (S h Hh) as [S1 S2].
      split; [exact (B1 h S1) | exact (B3 h S2)].
    - intros x H. destruct (B5 x H) as [H1|H1]; [|right; exact H1]. destruct (A5 x H1) as [H2|H2]; [left; exact H2|right; apply B1; exact H2].
  Qed.

  (* labelling g before the call on g makes no difference afterwards: the call visits g *)
  Lemma post_upd V I g V1 I1 : post V (upd I g true) V1 I1 -> In g V1 -> post V I V1 I1.
  Proof.
    intros (A1 & A2 & A3 & A4 & A5) Hg. refine (conj A1 (conj A2 (conj _ (conj A4 _)))).
    - intros x Hx. apply A3. unfold upd. rewrite Hx. destruct (Nat.eqb x g); reflexivity.
    - intros x H. destruct (A5 x H) as [H1|H1]; [|right; exact H1]. unfold upd in H1.
      destruct (Nat.eqb x g) eqn:Ex; [apply Nat.eqb_eq in Ex; subst; right; exact Hg|left; exact H1].
  Qed.

  (* serves the loop over the successors of a face inside dfs and the loop over all faces around it;
     c may mention the labels, and is kept when they grow *)
  Lemma loop_post (step : fstate -> nat -> fstate) (c : (nat -> bool) -> nat -> Prop) k :
    (forall I I' x, (forall y, I y = true -> I' y = true) -> c I x -> c I' x) ->
    (forall V I x, x < N -> (forall y, In y V -> y < N) -> unvisited V < k ->
       post V I (fst (step (V, I) x)) (snd (step (V, I) x)) /\
       (c I x -> In x (fst (step (V, I) x)) /\ snd (step (V, I) x) x = true)) ->
    forall xs V I, (forall x, In x xs -> x < N) -> (forall y, In y V -> y < N) -> unvisited V < k ->
    post V I (fst (fold_left step xs (V, I))) (snd (fold_left step xs (V, I))) /\
    forall x, In x xs -> c I x -> In x (fst (fold_left step xs (V, I))) /\ snd (fold_left step xs (V, I)) x = true.
  Proof.
    intros Hc Hstep. induction xs as [|x t IH]; intros V I Hxs HV HU; cbn [fold_left].
    - split; [apply post_refl; exact HV | intros x []].
    - destruct (Hstep V I x (Hxs x (or_introl eq_refl)) HV HU) as [P1 F1].
      destruct (step (V, I) x) as [V1 I1]. cbn [fst snd] in P1, F1.
      pose proof P1 as (A1 & A2 & A3 & _).
      destruct (IH V1 I1 (fun y Hy => Hxs y (or_intror Hy)) A2) as [P2 F2]; [pose proof (unvisited_mono V V1 A1); lia|].
      split; [exact (post_trans _ _ _ _ _ _ P1 P2)|].
      destruct P2 as (B1 & _ & B3 & _).
      intros y [<-|Hy] Cy.
      + destruct (F1 Cy) as [G1 G2]. split; [apply B1, G1 | apply B3, G2].
      + apply F2; [exact Hy | apply (Hc I I1 y A3 Cy)].
  Qed.

  Lemma dfs_post : forall k f V I,
    f < N -> (forall x, In x V -> x < N) -> unvisited V < k -> I f = true ->
    post V I (fst (dfs succs k f (V, I))) (snd (dfs succs k f (V, I))) /\ In f (fst (dfs succs k f (V, I))).
  Proof.
    induction k as [|k IH]; intros f V I Hf HV HU HI; [lia|].
    simpl. destruct (memb f V) eqn:Em.
    - simpl. split; [apply post_refl; exact HV|apply memb_In; exact Em].
    - apply memb_false in Em.
      assert (HV' : forall x, In x (f :: V) -> x < N) by (intros x [<-|Hx]; auto).
      assert (HU' : unvisited (f :: V) < k) by (pose proof (unvisited_lt V f Hf Em); lia).
      destruct (loop_post (fun (st : fstate) g => dfs succs k g (fst st, upd (snd st) g true)) (fun _ _ => True) k
                  (fun _ _ _ _ t => t)) with (xs := succs f) (V := f :: V) (I := I) as (P & G);
        [|exact (fun g Hg => Hsucc f g Hf Hg)|exact HV'|exact HU'|].
      { intros V0 I0 g Hg HV0 HU0. cbn [fst snd].
        assert (Hgg : upd I0 g true g = true) by (unfold upd; rewrite Nat.eqb_refl; reflexivity).
        destruct (IH g V0 (upd I0 g true) Hg HV0 HU0 Hgg) as (P1 & In1).
        split; [apply (post_upd _ _ g _ _ P1 In1)|]. intros _. split; [exact In1|].
        destruct P1 as (_ & _ & A3 & _). apply A3, Hgg. }
      destruct (fold_left (fun (st : fstate) g => dfs succs k g (fst st, upd (snd st) g true)) (succs f) (f :: V, I)) as [V' I'] eqn:E.
      simpl in *. destruct P as (A1 & A2 & A3 & A4 & A5). split; [|apply A1; left; reflexivity].
      refine (conj (fun x Hx => A1 x (or_intror Hx)) (conj A2 (conj A3 (conj _ A5)))).
      intros x Hx Hn. destruct (Nat.eq_dec x f) as [->|Hne].
      + split; [exact (A3 f HI) | intros h Hh; exact (G h Hh Logic.I)].
      + apply (A4 x Hx). intros [E'|Hin]; [congruence|contradiction].
  Qed.

  (* soundness: labels stay inside every set that contains them at the start and is closed under succs *)
  Variable R : nat -> Prop.
  Hypothesis Rclosed : forall g h, R g -> In h (succs g) -> R h.
  Lemma dfs_sound : forall k f V I, (forall x, I x = true -> R x) -> R f ->
    forall x, snd (dfs succs k f (V, I)) x = true -> R x.
  Proof.
    induction k as [|k IH]; intros f V I HI Hf; simpl; [exact HI|].
    destruct (memb f V); [exact HI|].
    apply (fold_left_inv (fun st : fstate => forall x, snd st x = true -> R x)); [exact HI|].
    intros [V0 I0] g Hg HI0. apply IH; [|eapply Rclosed; eauto].
    intros z Hz. cbn [snd] in *. unfold upd in Hz. destruct (Nat.eqb_spec z g) as [E|_]; [rewrite E; eapply Rclosed; eauto|apply HI0, Hz].
  Qed.
End Flood.

(* the outer loop: for _, f := range d.faces { if f.inSet[operand] { dfs(f) } } *)
Inductive reach (succs : nat -> list nat) (seed : nat -> bool) : nat -> Prop :=
| reach_seed x : seed x = true -> reach succs seed x
| reach_step g h : reach succs seed g -> In h (succs g) -> reach succs seed h.

Section FloodTop.
  Variable succs : nat -> list nat.
  Variable N : nat.
  Hypothesis Hsucc : forall f h, f < N -> In h (succs f) -> h < N.
  Variable seed : nat -> bool.

  Lemma flood_sound : forall fs V I, (forall x, I x = true -> reach succs seed x) ->
    forall x, snd (fold_left (fun (st : fstate) f => if snd st f then dfs succs (S N) f st else st) fs (V, I)) x = true ->
              reach succs seed x.
  Proof.
    intros fs V I HI. apply (fold_left_inv (fun st : fstate => forall x, snd st x = true -> reach succs seed x)); [exact HI|].
    intros [V0 I0] f _ H0. cbn [snd] in *. destruct (I0 f) eqn:EI; [|exact H0].
    apply (dfs_sound succs (reach succs seed) (reach_step succs seed)); [exact H0|apply H0, EI].
  Qed.

  Hypothesis Hseed : forall x, seed x = true -> x < N.
  (* the flood fill computes the least set of faces that contains the seeds and is closed under succs *)
  Lemma flood_spec_lemma :
    let I := snd (flood succs N seed) in
    (forall x, seed x = true -> I x = true) /\
    (forall f h, I f = true -> In h (succs f) -> I h = true) /\
    (forall x, I x = true <-> reach succs seed x).
  Proof.
    unfold flood. pose proof (flood_sound (seq 0 N) [] seed (reach_seed succs seed)) as Snd.
    set (step := fun (st : fstate) f => if snd st f then dfs succs (S N) f st else st) in *.
    destruct (loop_post succs N step (fun I x => I x = true) (S N)) with (xs := seq 0 N) (V := @nil nat) (I := seed) as (P & F).
    - intros I I' x H Hx. apply H, Hx.
    - intros V I f Hf HV _. unfold step. cbn [snd]. destruct (I f) eqn:EI.
      + destruct (dfs_post succs N Hsucc (S N) f V I Hf HV) as [P F]; [pose proof (unvisited_le N V); lia | exact EI |].
        split; [exact P|]. intros _. split; [exact F|]. destruct P as (_ & _ & A3 & _). apply A3, EI.
      + split; [apply post_refl; exact HV | discriminate].
    - intros f Hf. apply in_seq in Hf. lia.
    - intros x [].
    - pose proof (unvisited_le N []). lia.
    - destruct (fold_left step (seq 0 N) ([], seed)) as [V I]. cbn [fst snd] in *. destruct P as (_ & _ & A3 & A4 & A5).
      assert (Hcl : forall f h, I f = true -> In h (succs f) -> I h = true).
      { intros f h Hf Hh. assert (Hin : In f V).
        { destruct (A5 f Hf) as [Hs|Hin]; [|exact Hin]. apply F; [|exact Hs]. apply in_seq. specialize (Hseed f Hs). lia. }
        exact (proj2 (proj2 (A4 f Hin (fun H => H)) h Hh)). }
      split; [exact A3|]. split; [exact Hcl|].
      intros x. split; [apply Snd|]. induction 1 as [x Hx|g h Hg IHg Hh]; [apply A3; exact Hx|eapply Hcl; eauto].
  Qed.
End FloodTop.

(* ---------------------------------------------------------------- the flood fill on the faces *)
Lemma lab_get_or a b op : lab_get (lab_or a b) op = lab_get a op || lab_get b op.
Proof. destruct op; reflexivity. Qed.
Lemma seed_fold_iff (srcF : nat -> lab) op cyc : forall acc,
  lab_get (fold_left (fun acc e => lab_or acc (srcF e)) cyc acc) op = true <->
  lab_get acc op = true \/ exists e, In e cyc /\ lab_get (srcF e) op = true.
Proof.
  induction cyc as [|a t IH]; intros acc; simpl.
  - split; [auto|intros [H|(e & [] & _)]; exact H].
  - rewrite IH, lab_get_or, orb_true_iff. split.
    + intros [[H|H]|(e & He & H)]; [left; exact H|right; exists a; auto|right; exists e; auto].
    + intros [H|(e & [<-|He] & H)]; [left; left; exact H|left; right; exact H|right; exists e; auto].
Qed.
Lemma seed_label_iff srcF cyc op :
  lab_get (seed_label srcF cyc) op = true <-> exists e, In e cyc /\ lab_get (srcF e) op = true.
Proof.
  unfold seed_label. rewrite seed_fold_iff. split; [intros [H|H]; [destruct op; discriminate|exact H]|auto].
Qed.

(* ================================================================ populateInSetLabels =========== *)
(* the label an edge gets: e.srcEdge || e.incident.inSet || e.twin.incident.inSet *)
Definition elab (pc : precomplex) (inc : nat -> nat) (fin : nat -> lab) (e : nat) : lab :=
  lab_or (p_srcEdge pc e) (lab_or (fin (inc e)) (fin (inc (p_twin pc e)))).

Section Populate.
  Variable pc : precomplex.
  Variables pv inc : nat -> nat.
  Variable fin : nat -> lab.
  Let L := elab pc inc fin.
  Definition pop (k : nat) : lstate :=
    fold_left (populate_step pc pv inc fin) (seq 0 k) (fun _ => (false, false), p_vsrc pc).
  Lemma pop_S k : pop (S k) = populate_step pc pv inc fin (pop k) k.
  Proof. unfold pop. rewrite seq_S, fold_left_app. reflexivity. Qed.
  Lemma pop_edges k x : fst (pop k) x = if Nat.ltb x k then L x else (false, false).
  Proof.
    induction k as [|k IH]; [reflexivity|]. rewrite pop_S. unfold populate_step. cbn [fst]. unfold upd. rewrite IH.
    destruct (Nat.eqb_spec x k), (Nat.ltb_spec x k), (Nat.ltb_spec x (S k)); try lia; subst; reflexivity.
  Qed.
  Lemma pop_verts k v op :
    lab_get (snd (pop k) v) op = true <->
    lab_get (p_vsrc pc v) op = true \/
    exists e, e < k /\ p_origin pc e = v /\ (lab_get (L e) op = true \/ (pv e <= e /\ lab_get (L (pv e)) op = true)).
  Proof.
    induction k as [|k IH].
    - simpl. split; [auto|intros [H|(e & He & _)]; [exact H|lia]].
    - rewrite pop_S. unfold populate_step. cbn [snd fst]. unfold upd at 1.
      (* the table read for e.prev is the table after this step *)
      assert (Hprev : lab_get (upd (fst (pop k)) k (L k) (pv k)) op = true <-> (pv k <= k /\ lab_get (L (pv k)) op = true)).
      { change (upd (fst (pop k)) k (L k)) with (fst (populate_step pc pv inc fin (pop k) k)). rewrite <- pop_S, pop_edges.
        destruct (Nat.ltb_spec (pv k) (S k)) as [Hlt|Hge]; [split; [intros H; split; [lia|exact H]|tauto]|].
        split; [destruct op; discriminate|lia]. }
      destruct (Nat.eqb v (p_origin pc k)) eqn:Ev.
      + apply Nat.eqb_eq in Ev. subst v.
        change (lab_or (p_srcEdge pc k) (lab_or (fin (inc k)) (fin (inc (p_twin pc k))))) with (L k).
        rewrite !lab_get_or, !orb_true_iff, IH, Hprev. split.
        * intros [[H|(e & He & Ho & H)]|H]; [left; exact H|right; exists e; split; [lia|auto]|].
          right. exists k. split; [lia|]. split; [reflexivity|exact H].
        * intros [H|(e & He & Ho & H)]; [left; left; exact H|].
          destruct (Nat.eq_dec e k) as [->|Hne]; [right; exact H|]. left. right. exists e. split; [lia|auto].
      + apply Nat.eqb_neq in Ev. rewrite IH. split.
        * intros [H|(e & He & Ho & H)]; [left; exact H|right; exists e; split; [lia|auto]].
        * intros [H|(e & He & Ho & H)]; [left; exact H|]. right. exists e. split; [|auto].
          destruct (Nat.eq_dec e k) as [->|Hne]; [congruence|lia].
  Qed.
End Populate.

(* with the rotation system of fixVertices and srcEdge flags shared by the two half edges of an edge, the
   vertex labels do not depend on the iteration order: a vertex is in the operand iff it is a source
   vertex of it or some half edge leaving it is labelled *)
Lemma elab_twin pc inc fin e op : pre_wf pc = true -> pre_src_sym pc = true -> e < pnE pc ->
  lab_get (elab pc inc fin (p_twin pc e)) op = lab_get (elab pc inc fin e) op.
Proof.
  intros Hwf Hsym He. unfold elab. destruct (wf_at pc Hwf e He) as (_ & _ & Ett & _).
  rewrite Ett, (proj1 (lab_eqb_eq _ _) (forallb_seq _ _ Hsym e He)), !lab_get_or. f_equal. apply orb_comm.
Qed.
Lemma populate_spec_lemma pc inc fin : pre_wf pc = true -> pre_src_sym pc = true ->
  let st := populateInSetLabels pc (l_prev (fixVertices pc)) inc fin in
  (forall e, e < pnE pc -> fst st e = elab pc inc fin e) /\
  (forall v op, lab_get (snd st v) op = true <->
     lab_get (p_vsrc pc v) op = true \/ exists e, e < pnE pc /\ p_origin pc e = v /\ lab_get (elab pc inc fin e) op = true).
Proof.
  intros Hwf Hsym st. unfold st, populateInSetLabels. fold (pop pc (l_prev (fixVertices pc)) inc fin (pnE pc)). split.
  - intros e He. rewrite pop_edges. apply Nat.ltb_lt in He. rewrite He. reflexivity.
  - intros v op. rewrite pop_verts. split.
    + intros [H|(e & He & Ho & [H|(_ & H)])]; [left; exact H|right; exists e; auto|].
      right. set (p := l_prev (fixVertices pc) e) in *.
      destruct (fix_range pc Hwf e He) as (_ & Hp). fold p in Hp.
      destruct (wf_at pc Hwf p Hp) as (_ & Ht & _).
      exists (p_twin pc p). split; [exact Ht|]. split.
      * rewrite <- Ho. rewrite <- (fix_next_origin pc Hwf p Hp). unfold p. rewrite (fix_next_prev pc Hwf e He). reflexivity.
      * rewrite elab_twin; assumption.
    + intros [H|(e & He & Ho & H)]; [left; exact H|right; exists e; auto].
Qed.

(* ================================================================ the assembled complex ========= *)
Lemma nth_error_seq s n i : i < n -> nth_error (seq s n) i = Some (s + i).
Proof.
  revert s i. induction n as [|n IH]; intros s i Hi; [lia|]. destruct i as [|i]; simpl; [f_equal; lia|].
  rewrite IH by lia. f_equal. lia.
Qed.
Lemma nth_error_map_seq {A} (f : nat -> A) n i : i < n -> nth_error (map f (seq 0 n)) i = Some (f i).
Proof. intros Hi. apply map_nth_error. apply (nth_error_seq 0 n i Hi). Qed.
Lemma nth_error_indexed {A} (l : list A) : forall k j,
  nth_error (indexed_from k l) j = option_map (fun x => (k + j, x)) (nth_error l j).
Proof.
  induction l as [|y r IH]; intros k [|j]; simpl; try reflexivity.
  - f_equal. f_equal. lia.
  - rewrite IH. destruct (nth_error r j); simpl; [f_equal; f_equal; lia | reflexivity].
Qed.
Lemma lab_le_iff a b : lab_le a b = true <-> forall op, lab_get a op = true -> lab_get b op = true.
Proof.
  destruct a as [a1 a2], b as [b1 b2]. unfold lab_le, lab_get. simpl. split.
  - intros H op. apply andb_true_iff in H as (H1 & H2). destruct op; intros E; subst; simpl in *; assumption.
  - intros H. pose proof (H true) as Ht. pose proof (H false) as Hf. simpl in *.
    destruct a1, a2; simpl; auto; try (rewrite Hf by reflexivity); try (rewrite Ht by reflexivity); reflexivity.
Qed.
Lemma touch_fold_iff c i (es : list hedgeR) (base : lab) op :
  lab_get (fold_right (fun e acc => if touches c i e then lab_or (e_in e) acc else acc) base es) op = true <->
  lab_get base op = true \/ exists e, In e es /\ touches c i e = true /\ lab_get (e_in e) op = true.
Proof.
  induction es as [|e t IH]; simpl.
  - split; [auto|intros [H|(e & [] & _)]; exact H].
  - destruct (touches c i e) eqn:Et.
    + rewrite lab_get_or, orb_true_iff, IH. split.
      * intros [H|[H|(e' & He' & H)]]; [right; exists e; auto|left; exact H|right; exists e'; auto].
      * intros [H|(e' & [<-|He'] & Ht & H)]; [right; left; exact H|left; exact H|right; right; exists e'; auto].
    + rewrite IH. split.
      * intros [H|(e' & He' & H)]; [left; exact H|right; exists e'; auto].
      * intros [H|(e' & [<-|He'] & Ht & H)]; [left; exact H|congruence|right; exists e'; auto].
Qed.

Lemma filter_map_comm {A B} (g : A -> B) (p : B -> bool) (l : list A) :
  filter p (map g l) = map g (filter (fun x => p (g x)) l).
Proof. induction l as [|a t IH]; simpl; [reflexivity|]. destruct (p (g a)); simpl; rewrite IH; reflexivity. Qed.

Section Faces.
  Variable pc : precomplex.
  Hypothesis Hwf : pre_wf pc = true.
  Let nx := l_next (fixVertices pc).
  Let n := pnE pc.
  Let Hrange : forall e, e < n -> nx e < n := fun e He => proj1 (fix_range pc Hwf e He).
  Let Hinj : forall e e', e < n -> e' < n -> nx e = nx e' -> e = e' := fix_next_inj pc Hwf.

  Lemma assignFaces_total : exists fo, assignFaces pc nx = Some fo.
  Proof.
    unfold assignFaces. destruct (find_cycles_total nx n Hrange Hinj) as (cycles & Hc). fold n. rewrite Hc. eexists; reflexivity.
  Qed.
  Lemma assignFaces_cycles fo : assignFaces pc nx = Some fo ->
    find_cycles nx n = Some (fo_cycles fo) /\ fo_incident fo = assign_incident (fo_cycles fo).
  Proof.
    unfold assignFaces. fold n. destruct (find_cycles nx n) as [cycles|]; [|discriminate]. intros H. inversion H; subst. simpl. auto.
  Qed.

  Variable fo : faces_out.
  Hypothesis Hfo : assignFaces pc nx = Some fo.

  (* every half edge lies on the cycle of its face, and that face is one of the faces *)
  Lemma incident_on_cycle e : e < n ->
    exists ring, nth_error (fo_cycles fo) (fo_incident fo e) = Some ring /\ In e ring.
  Proof.
    intros He. destruct (assignFaces_cycles fo Hfo) as (Hc & Hi).
    destruct (find_cycles_spec nx n _ Hc) as (A & B & C).
    destruct (B e He) as (ring & Hr & Hin). apply In_nth_error in Hr as (j & Hj).
    exists ring. rewrite Hi, (assign_incident_at _ j ring e C Hj Hin). auto.
  Qed.
  Lemma incident_range e : e < n -> fo_incident fo e < length (fo_cycles fo).
  Proof. intros He. destruct (incident_on_cycle e He) as (ring & Hr & _). apply nth_error_Some. congruence. Qed.
  Lemma incident_iff j ring e : nth_error (fo_cycles fo) j = Some ring -> e < n -> (fo_incident fo e = j <-> In e ring).
  Proof.
    intros Hj He. destruct (assignFaces_cycles fo Hfo) as (Hc & Hi).
    destruct (find_cycles_spec nx n _ Hc) as (A & B & C). split.
    - intros E. destruct (incident_on_cycle e He) as (r & Hr & Hin). rewrite E, Hj in Hr. inversion Hr; subst. exact Hin.
    - intros Hin. rewrite Hi. apply (assign_incident_at _ j ring e C Hj Hin).
  Qed.
  Lemma cycle_is_chain j ring : nth_error (fo_cycles fo) j = Some ring -> exists s, chain (nsucc nx) s s ring /\ s < n.
  Proof.
    intros Hj. destruct (assignFaces_cycles fo Hfo) as (Hc & _).
    destruct (find_cycles_spec nx n _ Hc) as (A & _). apply A. eapply nth_error_In; eauto.
  Qed.
  (* two half edges have the same face exactly when they are on the same next-cycle *)
  Lemma same_face_iff e e' : e < n -> e' < n ->
    (fo_incident fo e = fo_incident fo e' <-> exists k, Nat.iter k nx e = e').
  Proof.
    intros He He'. destruct (incident_on_cycle e He) as (ring & Hr & Hin).
    destruct (cycle_is_chain _ _ Hr) as (s & Hc & Hs). split.
    - intros E. symmetry in E. apply (incident_iff _ _ e' Hr He') in E.
      apply (cycle_connected nx s ring Hc e e' Hin E).
    - intros (k & <-). symmetry. apply (incident_iff _ _ _ Hr He'). apply (cycle_iter_in nx s ring Hc). exact Hin.
  Qed.
  (* no face without half edges: the first half edge of the cycle of face j (f.cycle) has face j *)
  Lemma face_has_edge j : j < length (fo_cycles fo) ->
    exists ring, nth_error (fo_cycles fo) j = Some ring /\ hd 0 ring < n /\ fo_incident fo (hd 0 ring) = j.
  Proof.
    intros Hj. destruct (nth_error (fo_cycles fo) j) as [ring|] eqn:Hr; [|apply nth_error_None in Hr; lia].
    exists ring. split; [reflexivity|]. destruct (cycle_is_chain _ _ Hr) as (s & Hc & Hs).
    destruct (chain_head _ _ _ _ Hc) as (t & ->). simpl. split; [exact Hs|].
    apply (incident_iff _ _ s Hr Hs). left. reflexivity.
  Qed.
  (* next stays on the face *)
  Lemma next_same_face e : e < n -> fo_incident fo (nx e) = fo_incident fo e.
  Proof. intros He. symmetry. apply same_face_iff; auto. exists 1. reflexivity. Qed.
  Lemma cycle_members j ring : nth_error (fo_cycles fo) j = Some ring ->
    NoDup ring /\ (forall z, In z ring -> z < n /\ In (nx z) ring).
  Proof.
    intros Hr. destruct (cycle_is_chain _ _ Hr) as (s & Hc & Hs). split; [eapply chain_nodup; eauto|].
    intros z Hz. split; [eapply chain_lt; eauto|]. apply (cycle_iter_in nx s ring Hc z 1 Hz).
  Qed.

  Lemma cycles_nil_iff : fo_cycles fo = [] <-> pnE pc = 0.
  Proof.
    split.
    - intros Ec. destruct (Nat.eq_0_gt_0_cases (pnE pc)) as [E0|Hpos]; [exact E0|].
      pose proof (incident_range 0 Hpos) as H0. rewrite Ec in H0. simpl in H0. lia.
    - intros E0. destruct (fo_cycles fo) as [|r0 rest] eqn:Ec; [reflexivity|].
      destruct (cycle_is_chain 0 r0) as (s0 & _ & Hs); [rewrite Ec; reflexivity|]. unfold n in Hs. lia.
  Qed.

  Let cycles := fo_cycles fo.
  Let inc := fo_incident fo.
  Let nfaces := length cycles.

  Lemma fo_in_flood op f :
    lab_get (fo_in fo f) op = snd (flood (op_succs pc cycles inc op) nfaces (op_seed pc cycles op)) f.
  Proof.
    unfold cycles, inc, nfaces. revert Hfo. unfold assignFaces. destruct (find_cycles nx (pnE pc)) as [cs|]; [|discriminate].
    intros H. inversion H; subst. simpl. destruct op; reflexivity.
  Qed.
  Lemma op_succs_range op f h : f < nfaces -> In h (op_succs pc cycles inc op f) -> h < nfaces.
  Proof.
    intros Hf Hh. unfold op_succs, face_succs in Hh. apply in_map_iff in Hh as (e & <- & He).
    apply filter_In in He as (He & _).
    destruct (nth_error cycles f) as [ring|] eqn:Hr; [|apply nth_error_None in Hr; unfold nfaces in Hf; lia].
    rewrite (nth_error_nth _ _ _ Hr) in He.
    destruct (cycle_members f ring Hr) as (_ & Hm). destruct (Hm e He) as (Hlt & _).
    apply (incident_range). apply (wf_at pc Hwf e Hlt).
  Qed.
  Lemma op_seed_range op f : op_seed pc cycles op f = true -> f < nfaces.
  Proof.
    intros H. destruct (Nat.lt_ge_cases f nfaces) as [Hlt|Hge]; [exact Hlt|].
    unfold op_seed in H. rewrite nth_overflow in H by exact Hge. destruct op; discriminate.
  Qed.

  Lemma flood_faces_lemma op :
    (forall e, e < n -> lab_get (p_srcFace pc e) op = true -> lab_get (fo_in fo (inc e)) op = true) /\
    (forall e, e < n -> lab_get (p_srcFace pc e) op = false -> lab_get (fo_in fo (inc e)) op = true ->
               lab_get (fo_in fo (inc (p_twin pc e))) op = true) /\
    (forall f, lab_get (fo_in fo f) op = true <-> reach (op_succs pc cycles inc op) (op_seed pc cycles op) f).
  Proof.
    destruct (flood_spec_lemma (op_succs pc cycles inc op) nfaces (op_succs_range op) (op_seed pc cycles op) (op_seed_range op))
      as (S1 & S2 & S3).
    repeat split.
    - intros e He Hs. rewrite fo_in_flood. apply S1.
      destruct (incident_on_cycle e He) as (ring & Hr & Hin).
      unfold op_seed. fold cycles inc in Hr. rewrite (nth_error_nth _ _ _ Hr). apply seed_label_iff. exists e. auto.
    - intros e He Hs. rewrite !fo_in_flood. intros HI. apply (S2 (inc e)); [exact HI|].
      destruct (incident_on_cycle e He) as (ring & Hr & Hin).
      unfold op_succs, face_succs. fold cycles inc in Hr. rewrite (nth_error_nth _ _ _ Hr).
      apply in_map_iff. exists e. split; [reflexivity|]. apply filter_In. split; [exact Hin|]. rewrite Hs. reflexivity.
    - rewrite fo_in_flood. apply S3.
    - rewrite fo_in_flood. apply S3.
  Qed.
  (* across an edge neither of whose half edges is a face boundary of the operand the labels agree *)
  Lemma flood_agree_lemma op e : e < n ->
    lab_get (p_srcFace pc e) op = false -> lab_get (p_srcFace pc (p_twin pc e)) op = false ->
    lab_get (fo_in fo (inc e)) op = lab_get (fo_in fo (inc (p_twin pc e))) op.
  Proof.
    intros He H1 H2. destruct (flood_faces_lemma op) as (_ & Hcl & _).
    destruct (wf_at pc Hwf e He) as (_ & Ht & Ett & _).
    apply Bool.eq_iff_eq_true. split; intros H.
    - apply Hcl; assumption.
    - specialize (Hcl (p_twin pc e) Ht H2 H). rewrite Ett in Hcl. exact Hcl.
  Qed.

  Hypothesis Hsym : pre_src_sym pc = true.
  Let pv := l_prev (fixVertices pc).
  Let st := populateInSetLabels pc pv inc (fo_in fo).
  Let mkE (e : nat) : hedgeR :=
    MkE (p_origin pc e) (p_twin pc e) (nx e) (pv e) (inc e) (p_srcEdge pc e) (p_srcFace pc e) (fst st e).
  Let c : complex :=
    MkC (map (fun v => MkV (p_vsrc pc v) (snd st v)) (seq 0 (pnV pc))) (map mkE (seq 0 (pnE pc))) (faces_of fo).

  Lemma fixup_is : fixup pc = Some c.
  Proof. unfold fixup. cbv zeta. fold nx. rewrite Hfo. reflexivity. Qed.
  Lemma asm_nE : nE c = pnE pc.
  Proof. unfold nE, c. simpl. rewrite map_length, seq_length. reflexivity. Qed.
  Lemma asm_nV : nV c = pnV pc.
  Proof. unfold nV, c. simpl. rewrite map_length, seq_length. reflexivity. Qed.
  Lemma asm_get_e i : i < pnE pc -> get_e c i = Some (mkE i).
  Proof. intros Hi. unfold get_e, c. simpl. apply nth_error_map_seq. exact Hi. Qed.
  Lemma asm_get_e_inv i e : get_e c i = Some e -> i < pnE pc /\ e = mkE i.
  Proof.
    intros H. assert (Hi : i < pnE pc).
    { rewrite <- asm_nE. unfold nE. apply nth_error_Some. unfold get_e in H. congruence. }
    split; [exact Hi|]. rewrite (asm_get_e i Hi) in H. inversion H. reflexivity.
  Qed.
  Lemma asm_in_edges e : In e (c_edges c) -> exists i, i < pnE pc /\ e = mkE i.
  Proof. intros H. apply in_get_e in H as (i & Hi). exists i. apply asm_get_e_inv. exact Hi. Qed.
  Lemma asm_get_v v : v < pnV pc -> get_v c v = Some (MkV (p_vsrc pc v) (snd st v)).
  Proof. intros Hv. unfold get_v, c. simpl. apply (nth_error_map_seq (fun v => MkV (p_vsrc pc v) (snd st v))). exact Hv. Qed.
  Lemma asm_field i proj v : i < pnE pc -> proj (mkE i) = v -> field_is c i proj v = true.
  Proof. intros Hi E. apply field_is_spec. exists (mkE i). split; [apply asm_get_e; exact Hi|exact E]. Qed.

  (* faces: with at least one half edge the face list is one record per cycle *)
  Lemma faces_of_nonempty : fo_cycles fo <> [] ->
    faces_of fo = map (fun jc : nat * list nat => MkF (Some (hd 0 (snd jc))) (fo_in fo (fst jc))) (indexed_from 0 (fo_cycles fo)).
  Proof. unfold faces_of. destruct (fo_cycles fo); [contradiction|reflexivity]. Qed.
  Lemma asm_faces : pnE pc > 0 ->
    nF c = length (fo_cycles fo) /\
    forall j, j < length (fo_cycles fo) -> face_in c j = fo_in fo j.
  Proof.
    intros Hpos. assert (Hne : fo_cycles fo <> []) by (rewrite cycles_nil_iff; lia).
    unfold nF, face_in, get_f, c. cbn [c_faces]. rewrite (faces_of_nonempty Hne). split.
    - rewrite map_length. rewrite <- (map_length fst), map_fst_indexed_from, seq_length. reflexivity.
    - intros j Hj. rewrite nth_error_map, nth_error_indexed.
      destruct (nth_error (fo_cycles fo) j) as [ring|] eqn:Hr; [reflexivity | apply nth_error_None in Hr; lia].
  Qed.

  Lemma asm_ranges_ok : ranges_ok c = true.
  Proof.
    unfold ranges_ok. apply andb_true_iff. split.
    - apply forallb_forall. intros e He. destruct (asm_in_edges e He) as (i & Hi & ->).
      destruct (wf_at pc Hwf i Hi) as (Ho & Ht & _). destruct (fix_range pc Hwf i Hi) as (Hn & Hp).
      rewrite asm_nE, asm_nV. cbn [mkE e_origin e_twin e_next e_prev e_face].
      destruct (asm_faces ltac:(lia)) as (EF & _). rewrite EF.
      pose proof (incident_range i Hi) as Hf.
      rewrite !andb_true_iff, !Nat.ltb_lt. repeat split; assumption.
    - apply forallb_forall. intros f Hf. unfold c in Hf. cbn [c_faces] in Hf.
      destruct (fo_cycles fo) as [|r0 rest] eqn:Ec.
      { unfold faces_of in Hf. rewrite Ec in Hf. destruct Hf as [<-|[]]; reflexivity. }
      rewrite faces_of_nonempty in Hf by (rewrite Ec; discriminate). clear Ec.
      apply in_map_iff in Hf as ([j ring] & <- & Hin). simpl. apply in_indexed_from in Hin as (_ & Hr). rewrite Nat.sub_0_r in Hr.
      assert (Hj : j < length (fo_cycles fo)) by (apply nth_error_Some; congruence).
      destruct (face_has_edge j Hj) as (ring' & Hr' & Hlt & _). rewrite Hr in Hr'. inversion Hr'; subst.
      rewrite asm_nE. apply Nat.ltb_lt. exact Hlt.
  Qed.
  Lemma asm_twin_ok : twin_ok c = true.
  Proof.
    unfold twin_ok. apply forallb_forall. intros [i e] Hie. apply in_edges_ix in Hie.
    destruct (asm_get_e_inv i e Hie) as (Hi & ->). cbn [fst snd].
    destruct (wf_at pc Hwf i Hi) as (Ho & Ht & Ett & Hne). destruct (fix_range pc Hwf i Hi) as (Hn & Hp).
    cbn [mkE e_twin e_next e_srcEdge]. rewrite (asm_get_e _ Ht). cbn [mkE e_srcEdge e_origin].
    rewrite !andb_true_iff. repeat split.
    - apply negb_true_iff. apply Nat.eqb_neq. exact Hne.
    - apply asm_field; [exact Ht|exact Ett].
    - apply (forallb_seq _ _ Hsym i Hi).
    - apply asm_field; [exact Hn|]. cbn [mkE e_origin]. apply (fix_next_origin pc Hwf i Hi).
  Qed.
  Lemma asm_next_prev_ok : next_prev_ok c = true.
  Proof.
    unfold next_prev_ok. apply forallb_forall. intros [i e] Hie. apply in_edges_ix in Hie.
    destruct (asm_get_e_inv i e Hie) as (Hi & ->). cbn [fst snd].
    destruct (fix_range pc Hwf i Hi) as (Hn & Hp). cbn [mkE e_next e_prev e_face].
    rewrite !andb_true_iff. repeat split.
    - apply asm_field; [exact Hn|]. cbn [mkE e_prev]. apply (fix_prev_next pc Hwf i Hi).
    - apply asm_field; [exact Hp|]. cbn [mkE e_next]. apply (fix_next_prev pc Hwf i Hi).
    - apply asm_field; [exact Hn|]. cbn [mkE e_face]. apply (next_same_face i Hi).
  Qed.

  Lemma orbit_is_walk s0 : forall fuel cur, cur < pnE pc -> orbit c s0 cur fuel = walk (nsucc nx) s0 cur fuel.
  Proof.
    induction fuel as [|k IH]; intros cur Hcur; [reflexivity|]. cbn [orbit walk]. rewrite (asm_get_e cur Hcur). cbn [mkE e_next].
    unfold nsucc at 1. destruct (Nat.eqb (nx cur) s0); [reflexivity|]. rewrite IH; [reflexivity|]. apply (fix_range pc Hwf cur Hcur).
  Qed.
  Lemma count_face_ring j ring : nth_error (fo_cycles fo) j = Some ring -> count_face c j = length ring.
  Proof.
    intros Hr. unfold count_face, c. cbn [c_edges]. rewrite filter_map_comm, map_length. cbn [mkE e_face].
    apply Permutation_length. apply NoDup_Permutation.
    - apply NoDup_filter, seq_NoDup.
    - apply (cycle_members j ring Hr).
    - intros x. rewrite filter_In, in_seq, Nat.eqb_eq. split.
      + intros (Hx & E). apply (incident_iff j ring x Hr); [lia|exact E].
      + intros Hin. destruct (cycle_members j ring Hr) as (_ & Hm). destruct (Hm x Hin) as (Hx & _).
        split; [lia|]. apply (incident_iff j ring x Hr Hx). exact Hin.
  Qed.
  Lemma asm_faces_ok : faces_ok c = true.
  Proof.
    unfold faces_ok. apply andb_true_iff. split.
    - apply forallb_forall. intros [j f] Hjf. cbn [fst snd]. unfold faces_ix in Hjf. change (c_faces c) with (faces_of fo) in Hjf.
      assert (D : fo_cycles fo = [] \/ fo_cycles fo <> []) by (destruct (fo_cycles fo); [left; reflexivity|right; discriminate]).
      destruct D as [Ec|Hne].
      + unfold faces_of in Hjf. rewrite Ec in Hjf. simpl in Hjf. destruct Hjf as [E|[]]. inversion E; subst. simpl.
        rewrite asm_nE. apply Nat.eqb_eq, cycles_nil_iff, Ec.
      + rewrite (faces_of_nonempty Hne) in Hjf.
        apply in_indexed_from in Hjf as (_ & Hj). rewrite Nat.sub_0_r in Hj.
        rewrite nth_error_map, nth_error_indexed in Hj.
        destruct (nth_error (fo_cycles fo) j) as [ring|] eqn:Hr; [|discriminate]. cbn [option_map] in Hj. injection Hj as <-.
        cbn [f_cycle snd fst plus].
        destruct (cycle_is_chain j ring Hr) as (s0 & Hch & Hs).
        destruct (chain_head _ _ _ _ Hch) as (t & Et). rewrite Et. cbn [hd].
        apply andb_true_iff. split.
        * apply asm_field; [exact Hs|]. cbn [mkE e_face]. apply (incident_iff j ring s0 Hr Hs). rewrite Et. left. reflexivity.
        * rewrite asm_nE, (orbit_is_walk s0 (pnE pc) s0 Hs).
          destruct (cycle_total nx (pnE pc) Hrange Hinj s0 Hs) as (l & Hl).
          rewrite Hl. pose proof (walk_chain _ _ _ _ _ Hl) as Hch2.
          rewrite (chain_det _ _ _ _ Hch2 _ Hch). apply Nat.eqb_eq. symmetry. apply count_face_ring. exact Hr.
    - rewrite asm_nE. destruct (Nat.eqb_spec (pnE pc) 0) as [E0|_]; [|reflexivity]. simpl.
      unfold nF. change (c_faces c) with (faces_of fo). unfold faces_of. rewrite (proj2 cycles_nil_iff E0). reflexivity.
  Qed.

  Hypothesis Hle : pre_srcface_le pc = true.
  Lemma asm_labels_ok : labels_ok c = true.
  Proof.
    destruct (populate_spec_lemma pc inc (fo_in fo) Hwf Hsym) as (PE & PV).
    change (populateInSetLabels pc (l_prev (fixVertices pc)) inc (fo_in fo)) with st in PE, PV.
    unfold labels_ok. apply andb_true_iff. split.
    - apply forallb_forall. intros e He. destruct (asm_in_edges e He) as (i & Hi & ->).
      destruct (wf_at pc Hwf i Hi) as (Ho & Ht & Ett & Hne).
      destruct (asm_faces ltac:(lia)) as (_ & FI).
      assert (Hf : inc i < length (fo_cycles fo)) by apply (incident_range i Hi).
      assert (Hft : inc (p_twin pc i) < length (fo_cycles fo)) by apply (incident_range _ Ht).
      assert (Etf : twin_face_in c (mkE i) = fo_in fo (inc (p_twin pc i))).
      { unfold twin_face_in, twin_face. cbn [mkE e_twin]. rewrite (asm_get_e _ Ht). cbn [mkE e_face]. apply FI. exact Hft. }
      assert (Eto : twin_origin c (mkE i) = Some (p_origin pc (p_twin pc i))).
      { unfold twin_origin. cbn [mkE e_twin]. rewrite (asm_get_e _ Ht). reflexivity. }
      rewrite Etf, Eto. cbn [mkE e_srcFace e_srcEdge e_face e_in e_origin]. rewrite (FI _ Hf), (PE i Hi).
      unfold vert_in. rewrite (asm_get_v _ Ho). destruct (wf_at pc Hwf _ Ht) as (Hot & _). rewrite (asm_get_v _ Hot).
      cbn [v_in le_opt].
      rewrite !andb_true_iff. repeat split; apply lab_le_iff; intros op Hop.
      + apply (proj1 (lab_le_iff _ _) (forallb_seq _ _ Hle i Hi)), Hop.
      + destruct (flood_faces_lemma op) as (S1 & _). apply S1; assumption.
      + unfold elab. rewrite lab_get_or, Hop. reflexivity.
      + unfold elab. rewrite !lab_get_or. rewrite Hop. rewrite orb_true_r. reflexivity.
      + apply PV. right. exists i. auto.
      + apply PV. right. exists (p_twin pc i). split; [exact Ht|]. split; [reflexivity|]. rewrite elab_twin; assumption.
      + unfold elab in Hop. rewrite !lab_get_or in *. exact Hop.
    - apply forallb_forall. intros [v vr] Hv. apply in_verts_ix in Hv. cbn [fst snd].
      assert (Hlt : v < pnV pc). { rewrite <- asm_nV. unfold nV. apply nth_error_Some. unfold get_v in Hv. congruence. }
      rewrite (asm_get_v v Hlt) in Hv. inversion Hv; subst vr. cbn [v_src v_in].
      apply andb_true_iff. split; apply lab_le_iff; intros op Hop.
      + apply PV. left. exact Hop.
      + apply touch_fold_iff. apply PV in Hop. destruct Hop as [H|(e & He & Ho & H)]; [left; exact H|].
        right. exists (mkE e). split; [|split].
        * unfold c. simpl. apply in_map. apply in_seq. lia.
        * unfold touches. cbn [mkE e_origin]. rewrite Ho, Nat.eqb_refl. reflexivity.
        * cbn [mkE e_in]. rewrite (PE e He). exact H.
  Qed.
  Lemma asm_dcel_ok : dcel_ok c = euler_ok c.
  Proof.
    unfold dcel_ok. rewrite asm_ranges_ok, asm_twin_ok, asm_next_prev_ok, asm_faces_ok, asm_labels_ok. cbn [andb]. apply andb_true_r.
  Qed.
End Faces.

(* everything of dcel_ok except Euler's formula *)
Lemma fixup_establishes_lemma pc :
  pre_wf pc = true -> pre_src_sym pc = true -> pre_srcface_le pc = true ->
  exists c, fixup pc = Some c /\
            ranges_ok c = true /\ twin_ok c = true /\ next_prev_ok c = true /\ faces_ok c = true /\ labels_ok c = true /\
            dcel_ok c = euler_ok c.
Proof.
  intros Hwf Hsym Hle. destruct (assignFaces_total pc Hwf) as (fo & Hfo).
  eexists. split; [apply (fixup_is pc fo Hfo)|].
  repeat split; [apply asm_ranges_ok | apply asm_twin_ok | apply asm_next_prev_ok | apply asm_faces_ok | apply asm_labels_ok
                | apply asm_dcel_ok]; assumption.
Qed.

Lemma fix_next_prev_inverse_lemma pc : pre_wf pc = true ->
  let s := fixVertices pc in
  forall e, e < pnE pc ->
    l_next s e < pnE pc /\ l_prev s e < pnE pc /\ l_next s (l_prev s e) = e /\ l_prev s (l_next s e) = e.
Proof.
  intros Hwf s e He. destruct (fix_range pc Hwf e He) as (A & B).
  exact (conj A (conj B (conj (fix_next_prev pc Hwf e He) (fix_prev_next pc Hwf e He)))).
Qed.
