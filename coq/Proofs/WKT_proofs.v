(* Lemmas for property C05 (WKT), about Model/WKT.v. *)
From Coq Require Import NArith List Bool Ascii String Lia.
From SF Require Import Base.Outcome Base.GeomAST Model.WKT.
From SF Require Proofs.WKB_proofs Model.WKB.
Import ListNotations.
Local Open Scope N_scope.
Local Notation length := List.length.

(* ================================================================== Part 1: writer *)
(* What the look-behind of appendWKTEmpty sees: true = no blank is inserted *)
Definition nosp_of (dst : buf) : bool :=
  match dst with
  | [] => true
  | C c :: _ => Ascii.eqb c "(" || Ascii.eqb c "," || Ascii.eqb c " "
  | Num _ :: _ => false
  | Bad :: _ => false
  end.

Definition text_empty (nosp : bool) : list ch :=
  if nosp then str (L "EMPTY") else C " "%char :: str (L "EMPTY").
Definition text_coords (ct : ctype) (v : vtx N) (parens : bool) : list ch :=
  let ords := [Num (vx v); C " "%char; Num (vy v)] ++
              (if has_z ct then [C " "%char; Num (vz v)] else []) ++
              (if has_m ct then [C " "%char; Num (vm v)] else []) in
  if parens then [C "("%char] ++ ords ++ [C ")"%char] else ords.

Section TextJoin.
  Context {A : Type} (tf : bool -> A -> list ch).
  Definition text_rest (xs : list A) : list ch := flat_map (fun x => C ","%char :: tf true x) xs.
  Definition text_members (nosp : bool) (xs : list A) : list ch :=
    match xs with
    | [] => text_empty nosp
    | x :: r => C "("%char :: tf true x ++ text_rest r ++ [C ")"%char]
    end.
End TextJoin.

Definition text_point_body (nosp : bool) (p : pointT N) : list ch :=
  match p with
  | MkPoint _ None => text_empty nosp
  | MkPoint ct (Some v) => text_coords ct v true
  end.
Definition text_line_body (nosp : bool) (l : lineT N) : list ch :=
  let 'MkLine ct vs := l in text_members (fun _ v => text_coords ct v false) nosp vs.
Definition text_poly_body (nosp : bool) (p : polyT N) : list ch :=
  text_members text_line_body nosp (poly_rings p).
Definition tag_nosp (ct : ctype) : bool := match ct with XY => false | _ => true end.
Definition text_header (t : gtype) (ct : ctype) : list ch := str (kw_name t) ++ str (ct_tag ct).

Fixpoint text_geom (g : geomT N) : list ch :=
  match g with
  | GPoint p => text_header TPoint (point_ct p) ++ text_point_body (tag_nosp (point_ct p)) p
  | GLine l => text_header TLine (line_ct l) ++ text_line_body (tag_nosp (line_ct l)) l
  | GPoly p => text_header TPoly (poly_ct p) ++ text_poly_body (tag_nosp (poly_ct p)) p
  | GMPoint ct ps => text_header TMPoint ct ++ text_members text_point_body (tag_nosp ct) ps
  | GMLine ct ls => text_header TMLine ct ++ text_members text_line_body (tag_nosp ct) ls
  | GMPoly ct ps => text_header TMPoly ct ++ text_members text_poly_body (tag_nosp ct) ps
  | GColl ct gs => text_header TColl ct ++ text_members (fun _ x => text_geom x) (tag_nosp ct) gs
  end.

(* a writer f "writes" tf when its output is the old buffer followed by a text that depends on the
   old buffer only through the look-behind flag *)
Definition writes {A} (f : buf -> A -> buf) (tf : bool -> A -> list ch) (x : A) : Prop :=
  forall dst, f dst x = rev (tf (nosp_of dst) x) ++ dst.

Lemma rev_snoc_app {X} (l : list X) (a : X) r : rev (l ++ [a]) ++ r = a :: rev l ++ r.
Proof. rewrite rev_app_distr. reflexivity. Qed.

Lemma app_str_spec dst x : app_str dst x = rev (str x) ++ dst.
Proof. unfold app_str. apply rev_append_rev. Qed.

Lemma w_empty_spec dst : w_empty dst = rev (text_empty (nosp_of dst)) ++ dst.
Proof.
  unfold w_empty, text_empty. destruct dst as [|[c|b|] r]; cbn [nosp_of].
  - reflexivity.
  - destruct (Ascii.eqb c "(" || Ascii.eqb c "," || Ascii.eqb c " "); reflexivity.
  - reflexivity.
  - reflexivity.
Qed.

Lemma w_coords_spec dst ct v parens :
  w_coords dst ct v parens = rev (text_coords ct v parens) ++ dst.
Proof.
  unfold w_coords, text_coords, app_ch, app_float.
  destruct parens, (has_z ct), (has_m ct); reflexivity.
Qed.

Lemma w_header_spec dst t ct : w_header dst t ct = rev (text_header t ct) ++ dst.
Proof. destruct t, ct; reflexivity. Qed.

Lemma nosp_header dst t ct : nosp_of (rev (text_header t ct) ++ dst) = tag_nosp ct.
Proof. destruct t, ct; reflexivity. Qed.

Lemma w_join_false {A} (f : buf -> A -> buf) tf xs :
  Forall (writes f tf) xs ->
  forall dst, w_join f false dst xs = rev (text_rest tf xs) ++ dst.
Proof.
  induction 1 as [|x r Hx HF IH]; intros dst; [reflexivity|].
  cbn [w_join]. rewrite IH, (Hx (app_ch dst ",")). cbn [nosp_of app_ch].
  unfold text_rest. cbn [flat_map]. change (Ascii.eqb "," "(" || Ascii.eqb "," "," || Ascii.eqb "," " ") with true.
  rewrite rev_app_distr. cbn [rev]. rewrite <- !app_assoc. reflexivity.
Qed.

Lemma w_join_after_eq {A} (f : buf -> A -> buf) xs dst :
  w_join_after f dst xs = w_join f true dst xs.
Proof.
  destruct xs as [|x r]; [reflexivity|]. cbn [w_join_after w_join].
  generalize (f dst x) as d. induction r as [|y r IH]; intros d; [reflexivity|].
  cbn [w_join_after w_join]. destruct r as [|z r']; [reflexivity|]. apply IH.
Qed.

Lemma w_members_spec {A} (f : buf -> A -> buf) tf xs :
  Forall (writes f tf) xs -> writes (w_members f) (text_members tf) xs.
Proof.
  intros HF dst. destruct HF as [|x r Hx Hr]; [apply w_empty_spec|].
  cbn [w_members w_join text_members]. rewrite (w_join_false f tf r Hr), (Hx (app_ch dst "(")).
  unfold app_ch. cbn [nosp_of]. change (Ascii.eqb "(" "(" || Ascii.eqb "(" "," || Ascii.eqb "(" " ") with true.
  cbn [rev]. rewrite !rev_app_distr. cbn [rev app]. rewrite <- !app_assoc. reflexivity.
Qed.

Lemma writes_members {A} (f : buf -> A -> buf) tf :
  (forall x, writes f tf x) -> forall xs, writes (w_members f) (text_members tf) xs.
Proof. intros H xs. apply w_members_spec, Forall_forall. intros x _. apply H. Qed.

Lemma writes_point_body p : writes w_point_body text_point_body p.
Proof.
  intros dst. destruct p as [ct [v|]]; cbn [w_point_body text_point_body].
  - apply w_coords_spec.
  - apply w_empty_spec.
Qed.

Lemma writes_line_body l : writes w_line_body text_line_body l.
Proof.
  intros dst. destruct l as [ct vs]. cbn [text_line_body].
  pose proof (writes_members _ (fun _ v => text_coords ct v false) (fun v d => w_coords_spec d ct v false) vs dst) as H.
  destruct vs; exact H.
Qed.

Lemma writes_poly_body p : writes w_poly_body text_poly_body p.
Proof.
  intros dst. destruct p as [ct rs]. unfold text_poly_body. cbn [poly_rings].
  pose proof (writes_members _ _ writes_line_body rs dst) as H.
  destruct rs as [|r rs']; [exact H|].
  cbn [w_poly_body]. rewrite w_join_after_eq. exact H.
Qed.

Lemma w_geom_text : forall (g : geomT N) dst, w_geom dst g = rev (text_geom g) ++ dst.
Proof.
  assert (Hd : forall {A} (f : buf -> A -> buf) tf (x : A) t ct dst,
             writes f tf x ->
             f (w_header dst t ct) x = rev (text_header t ct ++ tf (tag_nosp ct) x) ++ dst).
  { intros A f tf x t ct dst H. rewrite w_header_spec, H, nosp_header, rev_app_distr, app_assoc.
    reflexivity. }
  induction g as [p|l|p|ct ps|ct ls|ct ps|ct gs IH] using geomT_ind'; intros dst; cbn [w_geom text_geom].
  - apply Hd, writes_point_body.
  - apply Hd, writes_line_body.
  - apply Hd, writes_poly_body.
  - apply (Hd _ (w_members w_point_body) (text_members text_point_body)), writes_members, writes_point_body.
  - apply (Hd _ (w_members w_line_body) (text_members text_line_body)), writes_members, writes_line_body.
  - apply (Hd _ (w_members w_poly_body) (text_members text_poly_body)), writes_members, writes_poly_body.
  - apply (Hd _ (w_members (fun d x => w_geom d x)) (text_members (fun _ x => text_geom x))), w_members_spec.
    eapply Forall_impl; [|exact IH]. intros x Hx d. apply Hx.
Qed.

Lemma as_text_text g : as_text g = text_geom g.
Proof. unfold as_text, append_wkt. cbn [rev]. rewrite w_geom_text, app_nil_r. apply rev_involutive. Qed.

(* AppendWKT(prefix) = prefix ++ AsText, for every prefix: the look-behind never reaches the
   caller's bytes because every AppendWKT starts with a non-empty header *)
Lemma wkt_append_prefix_lemma (prefix : list ch) (g : geomT N) :
  append_wkt prefix g = prefix ++ as_text g.
Proof.
  rewrite as_text_text. unfold append_wkt. rewrite w_geom_text, rev_app_distr, !rev_involutive.
  reflexivity.
Qed.

Lemma wkt_append_prefix_any_lemma (prefix : list ch) (a : anygeom) :
  append_wkt_any prefix a = Ok (prefix ++ as_text_any a).
Proof. unfold append_wkt_any, as_text_any. rewrite wkt_append_prefix_lemma. reflexivity. Qed.

(* the body writers DO read the caller's bytes: the law is false for appendWKTBody at top level *)
Lemma body_reads_prefix :
  rev (w_point_body (rev [C "x"%char]) (MkPoint XY None)) <>
  [C "x"%char] ++ rev (w_point_body [] (MkPoint XY None)).
Proof. vm_compute. discriminate. Qed.

Lemma wkt_zero_unfixed_refuted_lemma :
  exists prefix, append_wkt_any_unfixed prefix ZeroGeometry <> Ok (prefix ++ as_text_any ZeroGeometry).
Proof. exists []. discriminate. Qed.

(* ================================================================== Part 2: lexing spelled tokens *)
(* delim (Model/WKT.v): a character that ends an identifier or number and is a token (or blank) by itself *)
Definition sep_tok (c : ascii) : list tok := if is_ws c then [] else [T [c]].
(* the rest of the text does not continue a word or number *)
Definition sd (r : list ch) : Prop :=
  match r with [] => True | C c :: _ => delim c = true | Num _ :: _ => False | Bad :: _ => True end.
Definition sdl (b : list ch) : Prop :=
  match b with C c :: _ => delim c = true | _ => False end.

Lemma sd_app b r : sdl b -> sd (b ++ r).
Proof. destruct b as [|[c|n|] b']; cbn; tauto. Qed.

Lemma lex_delim cur c r :
  delim c = true ->
  lex_go cur (C c :: r) = (do ts <- lex_go [] r; Ok (flush cur ++ sep_tok c ++ ts)).
Proof.
  unfold delim. intros H. cbn [lex_go].
  destruct (is_letter c); [discriminate|]. destruct (is_digit c); [discriminate|].
  destruct (code c =? 0); [discriminate|]. destruct (128 <=? code c); [discriminate|].
  destruct (Ascii.eqb c "."); [discriminate|]. reflexivity.
Qed.

Lemma lex_flush cur r :
  sd r -> lex_go cur r = (do ts <- lex_go [] r; Ok (flush cur ++ ts)).
Proof.
  destruct r as [|[c|n|] r']; cbn [sd]; intros H; [|
    |contradiction|].
  - cbn. rewrite app_nil_r. reflexivity.
  - rewrite !lex_delim by exact H. destruct (lex_go [] r'); reflexivity.
  - reflexivity.
Qed.

Lemma ws_delim c : is_ws c = true -> delim c = true.
Proof.
  unfold is_ws, delim, is_letter, is_upper, is_lower, is_digit. intros H.
  assert (Hc : code c = 9 \/ code c = 10 \/ code c = 13 \/ code c = 32).
  { repeat (apply orb_prop in H; destruct H as [H|H]); apply N.eqb_eq in H; auto. }
  assert (Hd : Ascii.eqb c "." = false).
  { apply Ascii.eqb_neq. intros ->. cbn in Hc. lia. }
  rewrite Hd. destruct Hc as [E|[E|[E|E]]]; rewrite E; reflexivity.
Qed.

Lemma lex_ident l : forallb (fun x => is_letter x || is_digit x) l = true ->
  forall cur R, cur <> [] -> lex_go cur (map C l ++ R) = lex_go (rev l ++ cur) R.
Proof.
  induction l as [|a l IH]; intros H cur R Hne; [reflexivity|].
  cbn [forallb] in H. apply andb_prop in H. destruct H as [Ha Hl].
  cbn [map app lex_go rev]. rewrite <- app_assoc. cbn [app].
  destruct (is_letter a).
  - apply IH; [exact Hl|discriminate].
  - cbn [orb] in Ha. rewrite Ha. destruct cur; [congruence|]. apply IH; [exact Hl|discriminate].
Qed.

Lemma sd_glue R : sd R -> glue_after R = false /\ (match R with Num _ :: _ => true | _ => false end) = false.
Proof.
  destruct R as [|[c|n|] R']; cbn [sd glue_after]; intros H; [auto| |contradiction|auto]. split; [|reflexivity].
  unfold delim in H. destruct (is_letter c); [discriminate|]. destruct (is_digit c); [discriminate|].
  destruct (Ascii.eqb c "."); [rewrite !andb_false_r in H; discriminate|]. reflexivity.
Qed.

(* s lexes to ts in front of any text that lexes; [open]: s ends in a word, a number or ".", and
   what follows must not continue it *)
Definition lexes (open : bool) (s : list ch) (ts : list tok) : Prop :=
  forall r tr, (open = true -> sd r) -> lex_go [] r = Ok tr -> lex_go [] (s ++ r) = Ok (ts ++ tr).

Lemma lexes_nil o s ts : lexes o s ts -> lex_go [] s = Ok ts.
Proof. intros H. specialize (H [] [] (fun _ => I) eq_refl). rewrite !app_nil_r in H. exact H. Qed.

Lemma lexes_closed o s ts : lexes false s ts -> lexes o s ts.
Proof. intros H r tr _. apply H. discriminate. Qed.

Lemma lexes_app o a b ta tb : lexes false a ta -> lexes o b tb -> lexes o (a ++ b) (ta ++ tb).
Proof. intros Ha Hb r tr Hsd Hr. rewrite <- !app_assoc. apply Ha; [discriminate|]. apply Hb; assumption. Qed.
Lemma lexes_app_sdl oa o a b ta tb : lexes oa a ta -> sdl b -> lexes o b tb -> lexes o (a ++ b) (ta ++ tb).
Proof.
  intros Ha Hs Hb r tr Hsd Hr. rewrite <- !app_assoc. apply Ha; [intros _; apply sd_app, Hs|]. apply Hb; assumption.
Qed.

Lemma lexes_ws w : forallb is_ws w = true -> lexes false (map C w) [].
Proof.
  intros H r tr _ Hr. induction w as [|a w IH]; [exact Hr|].
  cbn [forallb] in H. apply andb_prop in H. destruct H as [Ha Hw].
  cbn [map app]. rewrite (lex_delim [] a _ (ws_delim a Ha)), (IH Hw). unfold sep_tok. rewrite Ha. reflexivity.
Qed.

Lemma punct_wf c : is_letter c = false -> tok_wf (T [c]) = true ->
  is_digit c = false /\ is_ws c = false /\ (code c =? 0) = false /\ (128 <=? code c) = false.
Proof.
  cbn [tok_wf]. intros -> H. rewrite !andb_true_iff, !negb_true_iff, N.ltb_lt in H.
  destruct H as [[[Hd Hw] H0] H128]. repeat split; try assumption. apply N.leb_gt, H128.
Qed.

Lemma lex_tok t : tok_wf t = true -> lexes (tok_alnum_end t || tok_dot t) (tok_text t) [t].
Proof.
  intros Hwf R tr Hsd HR. destruct t as [[|c l]|b|]; cbn [tok_wf tok_alnum_end tok_dot] in *; [discriminate| | |discriminate].
  - destruct (is_letter c) eqn:Ec.
    + (* identifier *)
      cbn [tok_text map app lex_go]. rewrite Ec.
      rewrite (lex_ident l Hwf [c] _ ltac:(discriminate)), (lex_flush _ _ (Hsd eq_refl)), HR.
      cbn [bind]. unfold flush. destruct (rev l ++ [c]) eqn:E; [destruct (rev l); discriminate|].
      rewrite <- E, rev_app_distr, rev_involutive. reflexivity.
    + (* one punctuation character *)
      destruct l; [|discriminate]. destruct (punct_wf c Ec) as (Hdg & Hwsc & H0 & E128).
      { cbn [tok_wf]. rewrite Ec. exact Hwf. }
      cbn [tok_text map app lex_go]. rewrite Ec, Hdg, H0, E128.
      destruct (Ascii.eqb c ".").
      * destruct (sd_glue _ (Hsd eq_refl)) as [_ Hn]. rewrite Hn. cbn [andb]. rewrite HR, Hwsc. reflexivity.
      * cbn [andb]. rewrite HR, Hwsc. reflexivity.
  - (* number *)
    destruct (sd_glue _ (Hsd eq_refl)) as [Hg _].
    cbn [tok_text app lex_go]. rewrite Hg, Hwf, HR. reflexivity.
Qed.

Lemma lexes_num b : lexes true [Num b] (toks_num b).
Proof.
  intros r tr Hsd Hr. cbn [app lex_go]. destruct (sd_glue r (Hsd eq_refl)) as [Hg _].
  rewrite Hg, Hr. unfold toks_num. destruct (b <? wk_two63); reflexivity.
Qed.

Lemma spell_cons t w r :
  spell [] ((t, w) :: r) = tok_text t ++ map C w ++ spell [] r.
Proof. unfold spell. cbn [map app flat_map fst snd]. rewrite <- app_assoc. reflexivity. Qed.

(* a well-formed token that does not start a word or number and is not "." is one delimiter *)
Lemma punct_shape t :
  tok_wf t = true -> tok_alnum_start t = false -> tok_dot t = false ->
  exists c, t = T [c] /\ delim c = true /\ is_ws c = false.
Proof.
  destruct t as [[|c l]|b|]; cbn [tok_wf tok_alnum_start tok_dot]; try discriminate.
  intros Hwf Hs Hd. destruct l; [|rewrite Hs in Hwf; discriminate].
  destruct (punct_wf c Hs Hwf) as (Hdg & Hws & H0 & H128).
  exists c. unfold delim. rewrite Hs, Hd, Hdg, H0, H128. auto.
Qed.

Lemma spell_ok_head t w r : spell_ok ((t, w) :: r) = true ->
  tok_wf t = true /\ forallb is_ws w = true /\ spell_ok r = true.
Proof. cbn [spell_ok]. rewrite !andb_true_iff. tauto. Qed.

Lemma spell_sd t w r R :
  spell_ok ((t, w) :: r) = true -> (tok_alnum_end t || tok_dot t) = true ->
  (ends_open ((t, w) :: r) = true -> sd R) -> sd (map C w ++ spell [] r ++ R).
Proof.
  cbn [spell_ok]. rewrite !andb_true_iff. intros [[[Hwf Hws] Hnext] Hr] Ht HR.
  destruct w as [|a w'].
  - cbn [map app]. destruct r as [|[t' w'] r']; [apply HR, Ht|].
    rewrite Ht in Hnext. cbn [andb] in Hnext. apply negb_true_iff in Hnext. apply orb_false_elim in Hnext.
    destruct Hnext as [Hs Hd]. destruct (spell_ok_head _ _ _ Hr) as [Hwf' _].
    destruct (punct_shape t' Hwf' Hs Hd) as (c & -> & Hc & _). rewrite spell_cons. exact Hc.
  - cbn [forallb] in Hws. apply andb_prop in Hws. cbn [map app sd]. apply ws_delim, Hws.
Qed.

Lemma lexes_spell pre items :
  forallb is_ws pre = true -> spell_ok items = true -> lexes (ends_open items) (spell pre items) (map fst items).
Proof.
  intros Hp Hok. apply (lexes_app _ (map C pre) (spell [] items) [] _ (lexes_ws pre Hp)). clear pre Hp.
  induction items as [|[t w] r IH]; intros R tr HE HR; [exact HR|].
  destruct (spell_ok_head _ _ _ Hok) as (Hwf & Hws & Hr).
  rewrite spell_cons, <- !app_assoc. apply (lex_tok t Hwf).
  - intros Ht. apply (spell_sd t w r R Hok Ht HE).
  - apply (lexes_ws w Hws); [discriminate|]. apply (IH Hr); [|exact HR].
    intros E. apply HE. destruct r; [discriminate E|exact E].
Qed.

Lemma lex_spell pre items :
  forallb is_ws pre = true -> spell_ok items = true -> lex (spell pre items) = Ok (map fst items).
Proof. intros Hp Hi. apply (lexes_nil _ _ _ (lexes_spell pre items Hp Hi)). Qed.

(* ================================================================== Part 3: parsing the tokens *)
Lemma mapi_from_const {A B} (f : A -> B) l i : mapi_from i (fun _ x => f x) l = map f l.
Proof. revert i. induction l as [|x r IH]; intros i; cbn; [reflexivity|]. rewrite IH. reflexivity. Qed.

Lemma mapi_from_length {A B} (f : nat -> A -> B) l i : length (mapi_from i f l) = length l.
Proof. revert i. induction l; intros i; cbn; [reflexivity|]. rewrite IHl. reflexivity. Qed.

Lemma toks_list_ne tks : tks <> [] -> toks_list tks = [ts_ (L "(")] ++ sep_close tks.
Proof. destruct tks; [congruence|reflexivity]. Qed.

Lemma Forall2_mapi_from {A B} (R : B -> A -> Prop) (f : nat -> A -> B) l :
  (forall x, In x l -> forall i, R (f i x) x) -> forall i, Forall2 R (mapi_from i f l) l.
Proof.
  induction l as [|x r IH]; intros H i; cbn [mapi_from]; constructor.
  - apply H. left. reflexivity.
  - apply IH. intros y Hy. apply H. right. exact Hy.
Qed.

Lemma toks_at_coll sp path ct gs :
  toks_at sp path (GColl ct gs) =
  T (sp_kw sp path TColl) :: toks_tag ct ++ toks_list (mapi_from 0 (fun i x => toks_at sp (i :: path) x) gs).
Proof.
  cbn [toks_at geom_type geom_ct]. do 3 f_equal. generalize 0%nat.
  induction gs as [|x r IH]; intros i; cbn [mapi_from]; [reflexivity|]. rewrite IH. reflexivity.
Qed.

Definition tparses {A} (p : TM A) (ts : list tok) (a : A) : Prop :=
  forall rest, p (ts ++ rest) = Ok (a, rest).

Lemma tparses_ret {A} (a : A) : tparses (tret a) [] a.
Proof. intros rest. reflexivity. Qed.

Lemma tparses_bind {A B} (p : TM A) (f : A -> TM B) t1 t2 x y :
  tparses p t1 x -> tparses (f x) t2 y -> tparses (tbind p f) (t1 ++ t2) y.
Proof. intros Hp Hf rest. unfold tbind. rewrite <- app_assoc, Hp. apply Hf. Qed.

Lemma tparses_bind_nil {A B} (p : TM A) (f : A -> TM B) t x y :
  tparses p t x -> tparses (f x) [] y -> tparses (tbind p f) t y.
Proof. intros Hp Hf. rewrite <- (app_nil_r t). eapply tparses_bind; eassumption. Qed.

Lemma tparses_map {A B} (p : TM A) (k : A -> B) ts x :
  tparses p ts x -> tparses (doT v <- p; tret (k v)) ts (k x).
Proof. intros Hp. eapply tparses_bind_nil; [exact Hp|apply tparses_ret]. Qed.

Lemma fin_cases b : f_finite b = true ->
  (b <? wk_two63 = true /\ f_is_nan b = false /\ f_is_inf b = false) \/
  (b <? wk_two63 = false /\ (b - wk_two63 <? wk_two63) = true /\
   f_is_nan (b - wk_two63) = false /\ f_is_inf (b - wk_two63) = false /\ f_neg (b - wk_two63) = b).
Proof.
  unfold f_finite, f_is_nan, f_is_inf, f_neg, f_abs. intros H. apply andb_prop in H. destruct H as [H1 H2].
  apply N.ltb_lt in H1. destruct (b <? wk_two63) eqn:E.
  - left. apply N.ltb_lt in H2. repeat split.
    + apply N.ltb_ge. lia.
    + apply N.eqb_neq. lia.
  - right. apply N.ltb_ge in E. apply N.ltb_lt in H2.
    assert (E2 : b - wk_two63 <? wk_two63 = true) by (apply N.ltb_lt; unfold wk_two63, wk_two64 in *; lia).
    rewrite E2. repeat split.
    + apply N.ltb_ge. lia.
    + apply N.eqb_neq. lia.
    + unfold wk_two63 in *. lia.
Qed.

Lemma tparses_signed b : f_finite b = true -> tparses next_signed (toks_num b) b.
Proof.
  intros H rest. destruct (fin_cases b H) as [(E & Hn & Hi)|(E & E2 & Hn & Hi & Hneg)];
    unfold toks_num, next_signed; rewrite E; cbn [app]; unfold tbind, t_next, tret; cbn [tok_is ts_ leqb Ascii.eqb Bool.eqb andb strconv_parse].
  - rewrite Hn, Hi. reflexivity.
  - rewrite Hn, Hi. cbn [orb]. rewrite Hneg. reflexivity.
Qed.

Lemma vtx_eta (v : vtx N) : Build_vtx (vx v) (vy v) (vz v) (vm v) = v.
Proof. destruct v; reflexivity. Qed.

Lemma tparses_point ct v :
  vtx_fin ct v = true -> vtx_ok (N.eqb 0) ct v = true -> tparses (next_point ct) (toks_vtx ct v) v.
Proof.
  unfold vtx_fin, vtx_ok, next_point, toks_vtx. intros Hf Hk.
  rewrite !andb_true_iff in Hf. destruct Hf as [[[Hx Hy] Hz] Hm]. apply andb_prop in Hk. destruct Hk as [Kz Km].
  eapply tparses_bind; [apply tparses_signed, Hx|].
  eapply tparses_bind; [apply tparses_signed, Hy|].
  assert (Hopt : forall (h : bool) b, (negb h || f_finite b = true) -> (h || (0 =? b) = true) ->
            tparses (if h then next_signed else tret 0) (if h then toks_num b else []) b).
  { intros h b H1 H2. destruct h; cbn [negb orb] in *.
    - apply tparses_signed, H1.
    - apply N.eqb_eq in H2. subst b. apply tparses_ret. }
  eapply tparses_bind; [apply (Hopt (has_z ct) (vz v) Hz Kz)|].
  eapply tparses_bind_nil; [apply (Hopt (has_m ct) (vm v) Hm Km)|].
  rewrite vtx_eta. apply tparses_ret.
Qed.

Lemma tparses_rparen : tparses next_rparen [ts_ (L ")")] tt.
Proof. intros rest. reflexivity. Qed.
Lemma tparses_lparen : tparses next_empty_or_lparen [ts_ (L "(")] true.
Proof. intros rest. reflexivity. Qed.
Lemma tparses_emptyk : tparses next_empty_or_lparen [ts_ (L "EMPTY")] false.
Proof. intros rest. reflexivity. Qed.

(* every round consumes its separator, so the length of the text bounds the rounds; n is the fuel the items were given *)
Lemma tparses_sep_loop {A} (item : TM A) n tks xs :
  Forall2 (fun tk x => (length tk <= n)%nat -> tparses item tk x) tks xs -> xs <> [] ->
  forall f, (length (sep_close tks) <= f <= n)%nat -> tparses (sep_loop f item) (sep_close tks) xs.
Proof.
  induction 1 as [|tk x tks xs Hx HF IH]; intros Hne f Hf; [congruence|].
  assert (E : sep_close (tk :: tks) =
              tk ++ match tks with [] => [ts_ (L ")")] | _ :: _ => ts_ (L ",") :: sep_close tks end)
    by (destruct tks; reflexivity).
  rewrite E in *. rewrite app_length in Hf.
  destruct f as [|f]; [destruct tks; cbn [length] in Hf; lia|]. cbn [sep_loop].
  eapply tparses_bind; [apply Hx; lia|]. destruct HF as [|tk' y tks' ys Hy HF'].
  - intros rest. reflexivity.
  - eapply (tparses_bind next_comma_or_rparen _ [ts_ (L ",")] _ true); [intros rest; reflexivity|].
    cbn [length] in Hf. apply (tparses_map _ (cons x)), IH; [discriminate|lia].
Qed.

(* EMPTY | ( x1 , ... , xn ): [m false] on nothing, or [m true], which starts with the list loop *)
Lemma tparses_members {A B} (item : TM A) fuel (m : bool -> TM B) tks xs y :
  (length (toks_list tks) <= fuel)%nat ->
  Forall2 (fun tk x => (length tk <= fuel)%nat -> tparses item tk x) tks xs ->
  (xs = [] -> tparses (m false) [] y) ->
  (xs <> [] -> forall ts, tparses (sep_loop fuel item) ts xs -> tparses (m true) ts y) ->
  tparses (tbind next_empty_or_lparen m) (toks_list tks) y.
Proof.
  intros Hlen HF He Hl. destruct HF as [|tk x tks xs Hx HF].
  - eapply tparses_bind_nil; [apply tparses_emptyk|]. apply He. reflexivity.
  - change (toks_list (tk :: tks)) with ([ts_ (L "(")] ++ sep_close (tk :: tks)) in *.
    eapply tparses_bind; [apply tparses_lparen|]. apply Hl; [discriminate|].
    apply (tparses_sep_loop item fuel); [constructor; assumption|discriminate|].
    cbn [length app] in Hlen. lia.
Qed.

Lemma ct_and c ct b : ct_eqb c ct && b = true -> c = ct /\ b = true.
Proof. intros H. apply andb_prop in H. destruct H as [Hc Hb]. apply ct_eqb_eq in Hc. auto. Qed.

Lemma tparses_paren_point ct v :
  vtx_fin ct v = true -> vtx_ok (N.eqb 0) ct v = true ->
  tparses (doT v0 <- next_point ct; doT _ <- next_rparen; tret (MkPoint ct (Some v0)))
          (toks_vtx ct v ++ [ts_ (L ")")]) (MkPoint ct (Some v)).
Proof.
  intros Hf Hk. eapply tparses_bind; [apply tparses_point; assumption|].
  apply (tparses_map next_rparen (fun _ => MkPoint ct (Some v)) _ tt tparses_rparen).
Qed.

Lemma tparses_point_text ct p :
  point_fin p = true -> point_ok (N.eqb 0) ct p = true ->
  tparses (next_point_text ct) (toks_point_body false p) p.
Proof.
  destruct p as [c [v|]]; unfold point_ok; intros Hf Hk; destruct (ct_and _ _ _ Hk) as [-> Hv];
    unfold next_point_text.
  - apply (tparses_bind _ _ [ts_ (L "(")] _ true); [apply tparses_lparen|].
    apply tparses_paren_point; assumption.
  - eapply tparses_bind_nil; [apply tparses_emptyk|]. apply tparses_ret.
Qed.

Lemma mp_point_paren ct ts :
  next_mp_point ct (ts_ (L "(") :: ts) =
  (doT v <- next_point ct; doT _ <- next_rparen; tret (MkPoint ct (Some v))) ts.
Proof. reflexivity. Qed.
Lemma mp_point_empty ct ts : next_mp_point ct (ts_ (L "EMPTY") :: ts) = Ok (MkPoint ct None, ts).
Proof. reflexivity. Qed.
Lemma mp_point_bare ct ts t :
  t_peek ts = Ok (t, ts) -> tok_is (L "(") t = false -> tok_is (L "EMPTY") t = false ->
  next_mp_point ct ts = (doT v <- next_point ct; tret (MkPoint ct (Some v))) ts.
Proof. intros Hp H1 H2. unfold next_mp_point, tbind at 1. rewrite Hp, H1, H2. reflexivity. Qed.

Lemma peek_vtx ct v rest :
  exists t, t_peek (toks_vtx ct v ++ rest) = Ok (t, toks_vtx ct v ++ rest) /\
            tok_is (L "(") t = false /\ tok_is (L "EMPTY") t = false.
Proof. unfold toks_vtx, toks_num. destruct (vx v <? wk_two63); eexists; repeat split. Qed.

Lemma tparses_mp_point ct p bare :
  point_fin p = true -> point_ok (N.eqb 0) ct p = true ->
  tparses (next_mp_point ct) (toks_point_body bare p) p.
Proof.
  destruct p as [c [v|]]; unfold point_ok; intros Hf Hk; destruct (ct_and _ _ _ Hk) as [-> Hv];
    intros rest; cbn [toks_point_body].
  - destruct bare.
    + destruct (peek_vtx ct v rest) as (t & Ep & E1 & E2). rewrite (mp_point_bare ct _ t Ep E1 E2).
      apply (tparses_map _ (fun v => MkPoint ct (Some v))), tparses_point; assumption.
    + cbn [app]. rewrite mp_point_paren. apply tparses_paren_point; assumption.
  - apply mp_point_empty.
Qed.

Lemma tparses_line_text fuel ct l :
  line_fin l = true -> line_ok (N.eqb 0) ct l = true -> (length (toks_line_body l) <= fuel)%nat ->
  tparses (next_line_text fuel ct) (toks_line_body l) l.
Proof.
  destruct l as [c vs]. unfold line_ok, next_line_text. cbn [line_fin toks_line_body]. intros Hf Hk Hlen.
  destruct (ct_and _ _ _ Hk) as [-> Hv]. rewrite forallb_forall in Hf, Hv.
  apply (tparses_members (next_point ct) fuel _ _ vs); [exact Hlen| | |].
  - apply WKB_proofs.Forall2_map_l, Forall_forall. intros v Hin _. apply tparses_point; auto.
  - intros ->. apply tparses_ret.
  - intros _ ts H. apply (tparses_map _ (MkLine ct) _ _ H).
Qed.

Lemma tparses_lines_text fuel ct ls :
  forallb line_fin ls = true -> forallb (line_ok (N.eqb 0) ct) ls = true ->
  (length (toks_list (map toks_line_body ls)) <= fuel)%nat ->
  tparses (next_lines_text fuel ct) (toks_list (map toks_line_body ls)) ls.
Proof.
  intros Hf Hk Hlen. rewrite forallb_forall in Hf, Hk. unfold next_lines_text.
  apply (tparses_members (next_line_text fuel ct) fuel _ _ ls); [exact Hlen| | |].
  - apply WKB_proofs.Forall2_map_l, Forall_forall. intros l Hin. apply tparses_line_text; auto.
  - intros ->. apply tparses_ret.
  - intros _ ts H. exact H.
Qed.

Lemma tparses_poly_text fuel ct p :
  poly_fin p = true -> poly_ok (N.eqb 0) ct p = true -> (length (toks_poly_body p) <= fuel)%nat ->
  tparses (next_poly_text fuel ct) (toks_poly_body p) p.
Proof.
  destruct p as [c rs]. unfold poly_fin, toks_poly_body, poly_ok, next_poly_text. cbn [poly_rings].
  intros Hf Hk Hlen. destruct (ct_and _ _ _ Hk) as [-> Hr].
  eapply tparses_bind_nil; [apply tparses_lines_text; eassumption|].
  destruct rs as [|r rs']; [apply tparses_ret|].
  rewrite (WKB_proofs.new_polygon_id ct (r :: rs')); [apply tparses_ret|discriminate|exact Hr].
Qed.

(* first token of a body: "(" or "EMPTY", never a Z/M/ZM tag *)
Definition body_start (ts : list tok) : Prop :=
  exists b bs, ts = b :: bs /\ (b = ts_ (L "(") \/ b = ts_ (L "EMPTY")).

Lemma body_start_list tks : body_start (toks_list tks).
Proof. destruct tks; eexists; eexists; split; try reflexivity; auto. Qed.
Lemma body_start_point p : body_start (toks_point_body false p).
Proof. destruct p as [ct [v|]]; eexists; eexists; split; try reflexivity; auto. Qed.

Lemma gtype_of_kw t : gtype_of_name (kw_name t) = Some t.
Proof. destruct t; reflexivity. Qed.

Lemma geom_tag_spec kw t ct body rest :
  map to_upper kw = kw_name t -> body_start body ->
  next_geom_tag ((T kw :: toks_tag ct ++ body) ++ rest) = Ok ((kw_name t, ct), body ++ rest).
Proof.
  intros Hkw (b & bs & -> & Hb). unfold next_geom_tag, tbind, t_next. cbn [app]. rewrite Hkw.
  destruct ct; cbn [toks_tag app t_peek]; try reflexivity.
  destruct Hb as [->| ->]; reflexivity.
Qed.

Lemma geom_tag_bind {B} (k : list ascii * ctype -> TM B) kw t ct body rest :
  map to_upper kw = kw_name t -> body_start body ->
  tbind next_geom_tag k ((T kw :: toks_tag ct ++ body) ++ rest) = k (kw_name t, ct) (body ++ rest).
Proof. intros Hkw Hbs. unfold tbind. rewrite (geom_tag_spec kw t ct body rest Hkw Hbs). reflexivity. Qed.

Lemma body_len_le f (kw : list ascii) ct (body : list tok) :
  (length (T kw :: toks_tag ct ++ body) <= S f)%nat -> (length body <= f)%nat.
Proof. cbn [length]. rewrite app_length. lia. Qed.

Lemma coll_cts_ok_id ct gs : forallb (geom_ok (N.eqb 0) ct) gs = true -> coll_cts_ok ct gs = true.
Proof.
  intros H. assert (Hall : forall x, In x gs -> geom_ct x = ct).
  { rewrite forallb_forall in H. intros x Hx. apply (WKB_proofs.force_geom_id ct x (H x Hx)). }
  unfold coll_cts_ok. apply andb_true_intro. split.
  - destruct ct; try reflexivity; apply forallb_forall; intros x Hx; rewrite (Hall x Hx); reflexivity.
  - destruct gs as [|g0 r]; [reflexivity|]. apply forallb_forall. intros x Hx.
    rewrite (Hall x (or_intror Hx)), (Hall g0 (or_introl eq_refl)). apply ct_eqb_refl.
Qed.

Lemma tparses_geom sp : spelling_ok sp ->
  forall (g : geomT N) path f ct,
    geom_fin g = true -> geom_ok (N.eqb 0) ct g = true ->
    (length (toks_at sp path g) <= f)%nat ->
    tparses (parse_geom f) (toks_at sp path g) g.
Proof.
  intros Hsp.
  induction g as [p|[c vs]|p|c ps|c ls|c ps|c gs IH] using geomT_ind'; intros path f ct Hfin Hok Hlen.
  all: pose proof (proj2 (WKB_proofs.force_geom_id ct _ Hok)) as Hc.
  1-6: cbn [toks_at geom_type toks_line_body] in *.
  7: rewrite toks_at_coll in *.
  all: unfold toks_poly_body in *; cbn [geom_ct line_ct geom_fin geom_ok] in *; rewrite Hc in *.
  all: destruct f as [|f]; [cbn in Hlen; lia|]; apply body_len_le in Hlen.
  4-7: destruct (ct_and _ _ _ Hok) as [_ Hk].
  all: intros rest; cbn [parse_geom];
    rewrite (geom_tag_bind _ _ _ ct _ rest (Hsp _ _)) by auto using body_start_point, body_start_list;
    cbn beta iota; rewrite gtype_of_kw; cbn beta iota.
  - apply (tparses_map _ GPoint), tparses_point_text; assumption.
  - apply (tparses_map _ GLine), (tparses_line_text f ct (MkLine ct vs)); assumption.
  - apply (tparses_map _ GPoly), tparses_poly_text; assumption.
  - apply (tparses_members (next_mp_point ct) f _ _ ps); [exact Hlen| | |].
    + rewrite forallb_forall in Hfin, Hk. apply Forall2_mapi_from. intros p Hin i _.
      apply tparses_mp_point; auto.
    + intros ->. apply tparses_ret.
    + intros Hne ts H. rewrite <- (WKB_proofs.new_multipoint_id ct ps Hne Hk).
      apply (tparses_map _ _ _ _ H).
  - eapply tparses_bind_nil; [apply tparses_lines_text; eassumption|].
    destruct ls as [|l0 ls']; [apply tparses_ret|].
    rewrite (WKB_proofs.new_multiline_id ct (l0 :: ls')); [apply tparses_ret|discriminate|exact Hk].
  - apply (tparses_members (next_poly_text f ct) f _ _ ps); [exact Hlen| | |].
    + rewrite forallb_forall in Hfin, Hk. apply WKB_proofs.Forall2_map_l, Forall_forall.
      intros p Hin. apply tparses_poly_text; auto.
    + intros ->. apply tparses_ret.
    + intros Hne ts H. rewrite <- (WKB_proofs.new_multipoly_id ct ps Hne Hk).
      apply (tparses_map _ _ _ _ H).
  - assert (Hend : tparses (if coll_cts_ok ct gs
                            then match gs with [] => tret (GColl ct []) | _ :: _ => tret (new_collection 0 gs) end
                            else tfail ECollDims) [] (GColl ct gs)).
    { rewrite (coll_cts_ok_id ct gs Hk). destruct gs as [|g0 gs']; [apply tparses_ret|].
      rewrite (WKB_proofs.new_collection_id ct (g0 :: gs')); [apply tparses_ret|discriminate|exact Hk]. }
    apply (tparses_members (parse_geom f) f _ _ gs); [exact Hlen| | |].
    + rewrite forallb_forall in Hfin, Hk. rewrite Forall_forall in IH. apply Forall2_mapi_from.
      intros x Hin i Hl. apply (IH x Hin (i :: path) f ct); auto.
    + intros ->. exact Hend.
    + intros _ ts H. eapply tparses_bind_nil; [exact H|exact Hend].
Qed.

(* ================================================================== Part 4: lexing the produced text *)
Lemma lexes_sp : lexes false [C " "%char] []. Proof. exact (lexes_ws [" "%char] eq_refl). Qed.
Lemma lexes_lp : lexes false [C "("%char] [ts_ (L "(")]. Proof. exact (lex_tok (T (L "(")) eq_refl). Qed.
Lemma lexes_rp : lexes false [C ")"%char] [ts_ (L ")")]. Proof. exact (lex_tok (T (L ")")) eq_refl). Qed.
Lemma lexes_comma : lexes false [C ","%char] [ts_ (L ",")]. Proof. exact (lex_tok (T (L ",")) eq_refl). Qed.

Lemma lexes_empty nosp : lexes true (text_empty nosp) [ts_ (L "EMPTY")].
Proof.
  pose proof (lexes_spell (if nosp then [] else [" "%char]) [(ts_ (L "EMPTY"), [])]) as H.
  destruct nosp; exact (H eq_refl eq_refl).
Qed.
Lemma sdl_empty : sdl (text_empty false). Proof. reflexivity. Qed.

(* X Y [Z] [M] without parentheses: ends open *)
Lemma lexes_num_cons b s ts : lexes true s ts -> lexes true (Num b :: C " "%char :: s) (toks_num b ++ ts).
Proof.
  intros Hs. apply (lexes_app_sdl true true [Num b] (C " "%char :: s) _ ts (lexes_num b)); [reflexivity|].
  apply (lexes_app true [C " "%char] s [] ts lexes_sp Hs).
Qed.

Lemma lexes_coords_bare ct v : lexes true (text_coords ct v false) (toks_vtx ct v).
Proof.
  unfold text_coords, toks_vtx.
  destruct (has_z ct), (has_m ct); cbn [app]; rewrite ?app_nil_r;
    repeat apply lexes_num_cons; apply lexes_num.
Qed.

Lemma lexes_coords_parens ct v :
  lexes false (text_coords ct v true) (ts_ (L "(") :: toks_vtx ct v ++ [ts_ (L ")")]).
Proof.
  apply (lexes_app false [C "("%char] _ [ts_ (L "(")] _ lexes_lp).
  apply (lexes_app_sdl true); [apply lexes_coords_bare|reflexivity|apply lexes_rp].
Qed.

(* x1 , x2 , ... , xn ) *)
Lemma lexes_join {A} (tf : bool -> A -> list ch) xs tks :
  Forall2 (fun tk x => lexes true (tf true x) tk) tks xs ->
  forall x tk, lexes true (tf true x) tk ->
  lexes false (tf true x ++ text_rest tf xs ++ [C ")"%char]) (sep_close (tk :: tks)).
Proof.
  induction 1 as [|tk' y tks xs Hy HF IH]; intros x tk Hx.
  - apply (lexes_app_sdl true); [exact Hx|reflexivity|apply lexes_rp].
  - change (sep_close (tk :: tk' :: tks)) with (tk ++ [ts_ (L ",")] ++ sep_close (tk' :: tks)).
    apply (lexes_app_sdl true); [exact Hx|reflexivity|].
    cbn [text_rest flat_map app]. rewrite <- app_assoc.
    apply (lexes_app false [C ","%char] _ [ts_ (L ",")] _ lexes_comma), IH, Hy.
Qed.

(* EMPTY | ( x1 , ... , xn ) *)
Lemma lexes_members {A} (tf : bool -> A -> list ch) xs tks nosp :
  Forall2 (fun tk x => lexes true (tf true x) tk) tks xs ->
  lexes true (text_members tf nosp xs) (toks_list tks).
Proof.
  intros HF. destruct HF as [|tk x tks xs Hx HF]; [apply lexes_empty|].
  apply lexes_closed, (lexes_app false [C "("%char] _ [ts_ (L "(")] _ lexes_lp), lexes_join; assumption.
Qed.

Lemma Forall2_map_all {A B} (R : B -> A -> Prop) (f : A -> B) :
  (forall x, R (f x) x) -> forall l, Forall2 R (map f l) l.
Proof. intros H l. apply WKB_proofs.Forall2_map_l, Forall_forall. intros x _. apply H. Qed.

Lemma lexes_point_body nosp p : lexes true (text_point_body nosp p) (toks_point_body false p).
Proof.
  destruct p as [ct [v|]]; cbn [text_point_body toks_point_body];
    [apply lexes_closed, lexes_coords_parens|apply lexes_empty].
Qed.

Lemma lexes_line_body nosp l : lexes true (text_line_body nosp l) (toks_line_body l).
Proof.
  destruct l as [ct vs]. cbn [text_line_body toks_line_body].
  apply lexes_members, Forall2_map_all. intros v. apply lexes_coords_bare.
Qed.

Lemma lexes_poly_body nosp p : lexes true (text_poly_body nosp p) (toks_poly_body p).
Proof.
  unfold text_poly_body, toks_poly_body.
  apply lexes_members, Forall2_map_all, (lexes_line_body true).
Qed.

Lemma lexes_tag ct : lexes false (str (ct_tag ct)) (toks_tag ct).
Proof.
  pose proof (lexes_spell (match ct with XY => [] | _ => [" "%char] end)
                          (map (fun x => (x, [" "%char])) (toks_tag ct))) as H.
  destruct ct; exact (H eq_refl eq_refl).
Qed.

(* header followed by a body *)
Lemma lexes_tagged t ct body tb :
  (forall nosp, lexes true (body nosp) tb) -> sdl (body false) ->
  lexes true (text_header t ct ++ body (tag_nosp ct)) (T (kw_name t) :: toks_tag ct ++ tb).
Proof.
  intros Hb Hs. unfold text_header. rewrite <- app_assoc.
  apply (lexes_app_sdl true true (str (kw_name t)) _ [T (kw_name t)]).
  - pose proof (lex_tok (T (kw_name t))) as H. destruct t; exact (H eq_refl).
  - destruct ct; [exact Hs|reflexivity..].
  - apply lexes_app; [apply lexes_tag|apply Hb].
Qed.

Lemma lexes_tagged_members {A} t ct (tf : bool -> A -> list ch) xs tks :
  Forall2 (fun tk x => lexes true (tf true x) tk) tks xs ->
  lexes true (text_header t ct ++ text_members tf (tag_nosp ct) xs) (T (kw_name t) :: toks_tag ct ++ toks_list tks).
Proof.
  intros HF. apply (lexes_tagged t ct (fun n => text_members tf n xs)).
  - intros n. apply lexes_members, HF.
  - destruct xs; reflexivity.
Qed.

Lemma lexes_geom : forall (g : geomT N) path, lexes true (text_geom g) (toks_at sp_default path g).
Proof.
  induction g as [p|[c vs]|[c rs]|ct ps|ct ls|ct ps|ct gs IH] using geomT_ind'; intros path;
    [cbn [toks_at geom_type geom_ct]..|rewrite toks_at_coll]; cbn [text_geom sp_default sp_kw sp_bare].
  - apply (lexes_tagged TPoint _ (fun n => text_point_body n p)).
    + intros n. apply lexes_point_body.
    + destruct p as [ct [v|]]; reflexivity.
  - apply (lexes_tagged_members TLine), Forall2_map_all. intros v. apply lexes_coords_bare.
  - apply (lexes_tagged_members TPoly), Forall2_map_all, (lexes_line_body true).
  - apply (lexes_tagged_members TMPoint), Forall2_mapi_from. intros x _ _. apply lexes_point_body.
  - apply (lexes_tagged_members TMLine), Forall2_map_all, (lexes_line_body true).
  - apply (lexes_tagged_members TMPoly), Forall2_map_all, (lexes_poly_body true).
  - rewrite Forall_forall in IH. apply (lexes_tagged_members TColl), Forall2_mapi_from. intros x Hx i. apply (IH x Hx).
Qed.

(* lexing the produced text gives the OGC token sequence in its default spelling *)
Lemma lex_as_text (g : geomT N) : lex (as_text g) = Ok (toks sp_default g).
Proof. rewrite as_text_text. apply (lexes_nil true), lexes_geom. Qed.

(* ================================================================== Part 5: the theorems *)
Lemma spelling_ok_default : spelling_ok sp_default.
Proof. intros p t. destruct t; reflexivity. Qed.

Lemma wkt_dom_split (g : geomT N) :
  wkt_dom g = true -> geom_fin g = true /\ geom_ok (N.eqb 0) (geom_ct g) g = true.
Proof. unfold wkt_dom, consistent. intros H. apply andb_prop in H. exact H. Qed.

Lemma parse_toks_rest sp (g : geomT N) rest :
  spelling_ok sp -> wkt_dom g = true ->
  parse_geom (S (length (toks sp g ++ rest))) (toks sp g ++ rest) = Ok (g, rest).
Proof.
  intros Hsp Hd. destruct (wkt_dom_split g Hd) as [Hf Hk].
  apply (tparses_geom sp Hsp g [] _ (geom_ct g) Hf Hk). rewrite app_length. unfold toks. lia.
Qed.

(* every keyword-case / MultiPoint-parenthesis variant of the token sequence parses to g *)
Lemma wkt_parse_toks_lemma sp (g : geomT N) :
  spelling_ok sp -> wkt_dom g = true -> parse (toks sp g) = Ok g.
Proof.
  intros Hsp Hd. unfold parse. pose proof (parse_toks_rest sp g [] Hsp Hd) as H.
  rewrite app_nil_r in H. rewrite H. reflexivity.
Qed.

Lemma wkt_roundtrip_lemma (g : geomT N) : wkt_dom g = true -> unmarshal_wkt (as_text g) = Ok g.
Proof.
  intros Hd. unfold unmarshal_wkt. rewrite lex_as_text. cbn [bind].
  apply wkt_parse_toks_lemma; [apply spelling_ok_default|exact Hd].
Qed.

(* any blank-spelling of any keyword-case / parenthesis variant of the produced text parses to g *)
Lemma wkt_respell_lemma sp (g : geomT N) pre items :
  spelling_ok sp -> wkt_dom g = true ->
  forallb is_ws pre = true -> spell_ok items = true -> map fst items = toks sp g ->
  unmarshal_wkt (spell pre items) = Ok g.
Proof.
  intros Hsp Hd Hp Hi Hm. unfold unmarshal_wkt. rewrite (lex_spell pre items Hp Hi), Hm. cbn [bind].
  apply wkt_parse_toks_lemma; assumption.
Qed.

(* two blank-spellings of the same token sequence have the same parse result, whatever it is *)
Lemma wkt_ws_insensitive_lemma pre1 items1 pre2 items2 :
  forallb is_ws pre1 = true -> spell_ok items1 = true ->
  forallb is_ws pre2 = true -> spell_ok items2 = true ->
  map fst items1 = map fst items2 ->
  unmarshal_wkt (spell pre1 items1) = unmarshal_wkt (spell pre2 items2).
Proof.
  intros H1 H2 H3 H4 Hm. unfold unmarshal_wkt. rewrite (lex_spell _ _ H1 H2), (lex_spell _ _ H3 H4), Hm.
  reflexivity.
Qed.

Lemma wkt_trailing_rejected_lemma sp (g : geomT N) t ts :
  spelling_ok sp -> wkt_dom g = true -> parse (toks sp g ++ t :: ts) = Err ESyntax.
Proof.
  intros Hsp Hd. unfold parse. rewrite (parse_toks_rest sp g (t :: ts) Hsp Hd). destruct t; reflexivity.
Qed.

(* the geometry obtained from the text equals the one obtained from the same geometry's WKB *)
Lemma wkt_equals_wkb_lemma (g : geomT N) :
  wkt_dom g = true -> WKB.wf_wkb g = true ->
  unmarshal_wkt (as_text g) = omap fst (WKB.dec (WKB.enc g)).
Proof.
  intros Hd Hw. rewrite (wkt_roundtrip_lemma g Hd).
  pose proof (WKB_proofs.wkb_roundtrip_lemma (fun _ => Bytes.LE) g [] Hw) as H.
  rewrite app_nil_r in H. unfold WKB.enc. rewrite H. reflexivity.
Qed.

(* ================================================================== Part 6: keyword case, every token sequence *)
(* Two tokens are case variants when they are equal, or both are words (letters only) with the same
   upper-casing and neither is one of the case-sensitive words Z M ZM EMPTY. *)
Definition reserved (l : list ascii) : bool :=
  leqb l (L "Z") || leqb l (L "M") || leqb l (L "ZM") || leqb l (L "EMPTY").
Inductive teq : tok -> tok -> Prop :=
| teq_refl t : teq t t
| teq_case l l' :
    forallb is_letter l = true -> forallb is_letter l' = true ->
    map to_upper l = map to_upper l' -> reserved l = false -> reserved l' = false ->
    teq (T l) (T l').
Definition teqs := Forall2 teq.

Lemma teqs_refl ts : teqs ts ts.
Proof. induction ts; constructor; [apply teq_refl|assumption]. Qed.

Lemma leqb_eq a b : leqb a b = true -> a = b.
Proof.
  revert b. induction a as [|x a IH]; intros [|y b]; cbn; try discriminate; [reflexivity|].
  intros H. apply andb_prop in H. destruct H as [H1 H2]. apply Ascii.eqb_eq in H1. f_equal; auto.
Qed.

(* results of two runs on case-variant inputs *)
Definition rel_out {A B} (Q : A -> B -> Prop) (x : outcome (A * list tok)) (y : outcome (B * list tok)) : Prop :=
  match x, y with
  | Ok (a, r), Ok (b, r') => Q a b /\ teqs r r'
  | Err e, Err e' => e = e'
  | Panic p, Panic p' => p = p'
  | _, _ => False
  end.
Definition resp {A B} (Q : A -> B -> Prop) (p : TM A) (p' : TM B) : Prop :=
  forall ts ts', teqs ts ts' -> rel_out Q (p ts) (p' ts').

(* The relation is closed under everything productions are made of, so that a production built
   from related parts is related to itself by its shape: the hint database [resp] holds these closure rules. *)
Lemma resp_ret {A B} (Q : A -> B -> Prop) a b : Q a b -> resp Q (tret a) (tret b).
Proof. intros H ts ts' Hts. cbn. auto. Qed.
Lemma resp_fail {A B} (Q : A -> B -> Prop) e : resp Q (tfail e) (tfail e).
Proof. intros ts ts' Hts. reflexivity. Qed.
Lemma resp_bind {A B A' B'} (Q : A -> B -> Prop) (Q' : A' -> B' -> Prop) p p' f f' :
  resp Q p p' -> (forall a b, Q a b -> resp Q' (f a) (f' b)) -> resp Q' (tbind p f) (tbind p' f').
Proof.
  intros Hp Hf ts ts' Hts. specialize (Hp ts ts' Hts). unfold tbind, rel_out in *.
  destruct (p ts) as [[a r]|e|x], (p' ts') as [[b r']|e'|x']; try contradiction; try assumption.
  destruct Hp as [Hq Hr]. apply (Hf a b Hq r r' Hr).
Qed.
Lemma resp_bind_eq {A B B'} (Q : B -> B' -> Prop) (p : TM A) f f' :
  resp eq p p -> (forall a, resp Q (f a) (f' a)) -> resp Q (tbind p f) (tbind p f').
Proof. intros Hp Hf. apply (resp_bind eq Q _ _ _ _ Hp). intros a ? <-. apply Hf. Qed.
Lemma resp_if {A B} (Q : A -> B -> Prop) (c : bool) p q p' q' :
  resp Q p p' -> resp Q q q' -> resp Q (if c then p else q) (if c then p' else q').
Proof. destruct c; auto. Qed.
Lemma resp_list_case {X A B} (Q : A -> B -> Prop) (l : list X) p p' q q' :
  resp Q p p' -> (forall x r, resp Q (q x r) (q' x r)) ->
  resp Q (match l with [] => p | x :: r => q x r end) (match l with [] => p' | x :: r => q' x r end).
Proof. destruct l; auto. Qed.

Lemma resp_next : resp teq t_next t_next.
Proof.
  intros ts ts' H. destruct H as [|x y l l' Hxy Hl]; cbn; auto.
  destruct Hxy as [[]|]; cbn; auto using teq_refl, teq_case.
Qed.
Lemma resp_peek : resp teq t_peek t_peek.
Proof.
  intros ts ts' H. destruct H as [|x y l l' Hxy Hl]; cbn; auto.
  destruct Hxy as [[]|]; cbn; auto; (split; [auto using teq_refl, teq_case|constructor; auto using teq_refl, teq_case]).
Qed.
Lemma resp_skip {A B} (Q : A -> B -> Prop) p p' :
  resp Q p p' -> resp Q (doT _ <- t_next; p) (doT _ <- t_next; p').
Proof. intros H. apply (resp_bind teq Q _ _ _ _ resp_next). intros _ _ _. exact H. Qed.

Create HintDb resp.
#[local] Hint Resolve resp_ret resp_fail resp_bind_eq resp_if resp_list_case resp_skip : resp.

(* the words the parser compares a token with: the reserved words and punctuation *)
Definition fixed_word (x : list ascii) : bool :=
  reserved x || match x with [c] => negb (is_letter c) | _ => false end.
Lemma tok_is_teq t t' : teq t t' -> forall x, fixed_word x = true -> tok_is x t = tok_is x t'.
Proof.
  intros H x Hx. destruct H as [t|l l' Hl Hl' Hu Hr Hr']; [reflexivity|]. cbn [tok_is].
  assert (Hno : forall m, forallb is_letter m = true -> reserved m = false -> leqb m x = false).
  { intros m Hm Hrm. destruct (leqb m x) eqn:E; [|reflexivity]. apply leqb_eq in E. subst m.
    unfold fixed_word in Hx. rewrite Hrm in Hx. destruct x as [|c [|]]; try discriminate Hx.
    cbn in Hm, Hx. destruct (is_letter c); discriminate. }
  rewrite (Hno l Hl Hr), (Hno l' Hl' Hr'). reflexivity.
Qed.

Lemma teq_upper t t' : teq t t' ->
  match t with T l => map to_upper l | TNum _ => [] | TBad => [] end =
  match t' with T l => map to_upper l | TNum _ => [] | TBad => [] end.
Proof. intros H. destruct H; [reflexivity|assumption]. Qed.

Lemma resp_geom_tag : resp eq next_geom_tag next_geom_tag.
Proof.
  unfold next_geom_tag. eapply resp_bind; [apply resp_next|]. intros t t' Ht.
  eapply resp_bind; [apply resp_peek|]. intros p p' Hp.
  rewrite !(tok_is_teq p p' Hp) by reflexivity. rewrite (teq_upper t t' Ht).
  eapply (resp_bind teq); [|auto with resp].
  destruct (if tok_is (L "Z") p' then XYZ else if tok_is (L "M") p' then XYM else if tok_is (L "ZM") p' then XYZM else XY);
    auto using resp_next with resp.
Qed.

Lemma resp_empty_or_lparen : resp eq next_empty_or_lparen next_empty_or_lparen.
Proof.
  unfold next_empty_or_lparen. eapply resp_bind; [apply resp_next|]. intros t t' Ht.
  rewrite !(tok_is_teq t t' Ht) by reflexivity. auto with resp.
Qed.
Lemma resp_rparen : resp eq next_rparen next_rparen.
Proof.
  unfold next_rparen. eapply resp_bind; [apply resp_next|]. intros t t' Ht.
  rewrite !(tok_is_teq t t' Ht) by reflexivity. auto with resp.
Qed.
Lemma resp_comma_or_rparen : resp eq next_comma_or_rparen next_comma_or_rparen.
Proof.
  unfold next_comma_or_rparen. eapply resp_bind; [apply resp_next|]. intros t t' Ht.
  rewrite !(tok_is_teq t t' Ht) by reflexivity. auto with resp.
Qed.

(* a word at a number position is always a syntax error (NaN/Inf words included) *)
Lemma strconv_word l :
  strconv_parse (T l) = Err ESyntax \/
  exists f, strconv_parse (T l) = Ok f /\ f_is_nan f || f_is_inf f = true.
Proof.
  unfold strconv_parse. destruct (leqb _ _); [right; eexists; split; reflexivity|].
  destruct (_ || _); [right; eexists; split; reflexivity|left; reflexivity].
Qed.
Lemma resp_signed : resp eq next_signed next_signed.
Proof.
  unfold next_signed. eapply resp_bind; [apply resp_next|]. intros t t' Ht.
  rewrite (tok_is_teq t t' Ht) by reflexivity.
  eapply (resp_bind teq).
  - destruct (tok_is _ t'); [apply resp_next|apply resp_ret, Ht].
  - intros u u' Hu. destruct Hu as [u|l l' _ _ _ _ _].
    + destruct (strconv_parse u) as [f|e|p]; [auto with resp|apply resp_fail|intros ts ts' _; reflexivity].
    + destruct (strconv_word l) as [->|(f & -> & ->)], (strconv_word l') as [->|(f' & -> & ->)]; apply resp_fail.
Qed.
#[local] Hint Resolve resp_empty_or_lparen resp_rparen resp_comma_or_rparen resp_signed : resp.

Lemma resp_point ct : resp eq (next_point ct) (next_point ct).
Proof. unfold next_point. auto 10 with resp. Qed.
#[local] Hint Resolve resp_point : resp.

Lemma resp_sep_loop {A} fuel (item : TM A) : resp eq item item -> resp eq (sep_loop fuel item) (sep_loop fuel item).
Proof. intros Hi. induction fuel as [|f IH]; cbn [sep_loop]; auto 8 with resp. Qed.
#[local] Hint Resolve resp_sep_loop : resp.

Lemma resp_mp_point ct : resp eq (next_mp_point ct) (next_mp_point ct).
Proof.
  unfold next_mp_point. eapply resp_bind; [apply resp_peek|]. intros t t' Ht.
  rewrite !(tok_is_teq t t' Ht) by reflexivity. auto 10 with resp.
Qed.
#[local] Hint Resolve resp_mp_point : resp.

Lemma resp_parse_geom f : resp eq (parse_geom f) (parse_geom f).
Proof.
  induction f as [|f IH]; cbn [parse_geom]; [apply resp_fail|].
  apply (resp_bind_eq _ _ _ _ resp_geom_tag). intros [name ct].
  unfold next_point_text, next_poly_text, next_lines_text, next_line_text.
  destruct (gtype_of_name name) as [[]|]; auto 14 with resp.
Qed.

(* changing the case of words other than Z, M, ZM, EMPTY never changes the result of the parser,
   on valid and on invalid token sequences alike *)
Lemma parse_case_insensitive ts ts' : teqs ts ts' -> parse ts = parse ts'.
Proof.
  intros H. unfold parse. assert (Hl : length ts = length ts') by (induction H; cbn; congruence).
  rewrite <- Hl. pose proof (resp_parse_geom (S (length ts)) ts ts' H) as Hp. unfold rel_out in Hp.
  destruct (parse_geom (S (length ts)) ts) as [[g r]|e|x], (parse_geom (S (length ts)) ts') as [[g' r']|e'|x'];
    try contradiction; try congruence.
  destruct Hp as [-> Hr]. destruct Hr as [|x y l l' Hxy Hll]; [reflexivity|].
  destruct Hxy as [[]|]; reflexivity.
Qed.
