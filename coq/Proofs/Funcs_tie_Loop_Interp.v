(* Translator tie for functions WITH LOOPS (DESIGN.md A.8b), property C17: coq/Model/TrDensify.v
   (lerpQ, interp_coords) and coq/Model/TrInterp.v (the table of segment lengths seg_lens, its
   running sums and the total path_len) against the bodies of geom/alg_linear_interpolation.go
   (lerp, interpolateCoords, newLinearInterpolator: the loop that accumulates the segment lengths
   into the slice `cumulative`), as re-read from the Go source into Gen/FuncsLoop.v on every run.
   Carrier: Q.  The lemma about newLinearInterpolator is for ALL sequences (any length; the empty
   one panics).  An edited body in the Go source makes this file fail to compile. *)
From Coq Require Import String ZArith QArith Qminmax List Bool Lia Lqa.
From SF Require Import Base.FOps Base.FLoop Gen.FuncsLoop Proofs.Funcs_tie_lib Proofs.Funcs_tie_Loop_lib
  Base.GeomAST Model.TrCommon Model.TrDensify Model.TrInterp.
Import ListNotations.
Open Scope Q_scope.

(* geom.Coordinates -> the model's vertex (Type is not part of a vertex) *)
Definition cvt (c : geom_Coordinates Q) : qv :=
  Build_vtx (geom_XY_X (geom_Coordinates_XY c)) (geom_XY_Y (geom_Coordinates_XY c))
            (geom_Coordinates_Z c) (geom_Coordinates_M c).

(* ---------------------------------------------------------------- lerp, interpolateCoords *)
(* math.Max / math.Min are Qmax / Qmin: equal to the model's Qmaxq / Qminq up to == *)
Lemma tie_lerp : forall sq hy a b t, geom_lerp (qops_with sq hy) a b t == lerpQ a b t.
Proof.
  intros sq hy a b t. unfold geom_lerp, lerpQ, Qmaxq, Qminq. cbn [qops_with f_leb f_geb f_gtb f_eqb f_add f_sub f_mul f_of_Z f_max f_min].
  unfold q_ltb. change (inject_Z 0) with 0. change (inject_Z 1) with 1.
  destruct (Qle_bool a 0 && Qle_bool 0 b || Qle_bool 0 a && Qle_bool b 0); [reflexivity|].
  destruct (Qeq_bool t 1); [reflexivity|].
  cbv zeta. destruct (Bool.eqb (negb (Qle_bool t 1)) (negb (Qle_bool b a))).
  - destruct (Qle_bool_spec b (a + t * (b - a))) as [H|H].
    + apply Q.max_r; exact H.
    + apply Q.max_l. lra.
  - destruct (Qle_bool_spec b (a + t * (b - a))) as [H|H].
    + apply Q.min_l; exact H.
    + apply Q.min_r. lra.
Qed.

Lemma tie_interpolateCoords : forall sq hy c0 c1 t,
  let r := geom_interpolateCoords (qops_with sq hy) c0 c1 t in
  let m := interp_coords (cvt c0) (cvt c1) t in
  vx (cvt r) == vx m /\ vy (cvt r) == vy m /\ vz (cvt r) == vz m /\ vm (cvt r) == vm m /\
  geom_Coordinates_Type r = Z.land (geom_Coordinates_Type c0) (geom_Coordinates_Type c1).
Proof. intros. repeat split; apply tie_lerp. Qed.

(* ---------------------------------------------------------------- newLinearInterpolator *)
Section WithRoot.
  Variables (sq : Q -> Q) (hy : Q -> Q -> Q).
  Hypothesis hy_sq : forall x y, hy x y = sq (x * x + y * y).
  Local Notation rops := (qops_with sq hy).

  (* the running sums of a table of lengths, and what the Go loop computes on a vertex list *)
  Fixpoint cum_from (acc : Q) (lens : list Q) : list Q :=
    match lens with [] => [] | x :: r => (acc + x) :: cum_from (acc + x) r end.
  Fixpoint cum_loop (total : Q) (a : qv) (rest : list qv) : list Q * Q :=
    match rest with
    | [] => ([], total)
    | b :: r => let t := total + dist sq a b in let '(c, tot) := cum_loop t b r in (t :: c, tot)
    end.
  Lemma cum_loop_seg_lens : forall rest total a,
    cum_loop total a rest = (cum_from total (seg_lens sq (a :: rest)), fold_left Qplus (seg_lens sq (a :: rest)) total).
  Proof.
    induction rest as [|b r IH]; intros total a; [reflexivity|].
    cbn [cum_loop]. rewrite IH. reflexivity.
  Qed.
  (* the model's total [path_len] (a right fold with Qred) is the same number *)
  Lemma fold_left_sumq : forall lens acc, fold_left Qplus lens acc == acc + sumq lens.
  Proof.
    induction lens as [|x r IH]; intro acc; cbn [fold_left sumq]; [ring|].
    rewrite IH, Qred_correct. ring.
  Qed.

  (* geom/alg_linear_interpolation.go:newLinearInterpolator: cumulative[i] = the sum of the first
     i+1 segment lengths, total = their sum; the empty sequence panics *)
  Lemma tie_newLinearInterpolator : forall cs,
    geom_newLinearInterpolator rops cs
    = match cs with
      | [] => Unknown "panic: empty seq in newLinearInterpolator"%string
      | _ => let lens := seg_lens sq (map cvt cs) in
             Known (Mk_geom_linearInterpolator cs (cum_from 0 lens) (fold_left Qplus lens 0))
      end.
  Proof.
    intros cs. unfold geom_newLinearInterpolator. cbv zeta.
    destruct cs as [|c0 cs']; [reflexivity|].
    set (cs := c0 :: cs'). set (n := Z.of_nat (Datatypes.length cs)).
    assert (Hn : (n = Z.of_nat (Datatypes.length cs') + 1)%Z) by (unfold n, cs; cbn [Datatypes.length]; lia).
    destruct (Z.eqb_spec n 0); [lia|].
    unfold make_list. destruct (Z.ltb_spec (n - 1) 0); [lia|].
    replace (Z.to_nat (n - 1)) with (Datatypes.length cs') by lia.
    set (TOTAL := cum_loop 0 (cvt c0) (map cvt cs')).
    loop_rule 0%Z (n - 1)%Z
      (fun (i : Z) '((total, cum) : Q * list Q) =>
         exists pre a rest, suffix cs i = a :: rest /\ Z.of_nat (Datatypes.length pre) = i /\
           cum = pre ++ repeat (f_of_Z rops 0) (Datatypes.length rest) /\
           (let '(c, tot) := cum_loop total (cvt a) (map cvt rest) in (pre ++ c, tot)) = TOTAL)
      (fun res : loop_res (Q * list Q) (geom_linearInterpolator Q) =>
         match res with LDone (total, cum) => (cum, total) = TOTAL | _ => False end).
    - loop_cond.
    - loop_fuel.
    - exists [], c0, cs'. repeat split. unfold TOTAL. destruct (cum_loop _ _ _); reflexivity.
    - intros i [total cum] Hi (pre & a & rest & Hs & Hp & Hc & Ht).
      destruct (suffix_two cs i ltac:(lia) ltac:(lia)) as (a' & b & r & Hs2 & Ha & Hb & Hs1).
      rewrite Hs in Hs2. injection Hs2 as <- ->.
      rewrite Ha, Hb. subst cum. cbn [Datatypes.length repeat]. rewrite <- Hp, list_set_app.
      exists (pre ++ [f_add rops total (geom_XY_distanceTo rops (geom_Coordinates_XY a) (geom_Coordinates_XY b))]), b, r.
      split; [rewrite Hp; exact Hs1|]. split; [rewrite app_length; cbn; lia|]. split; [now rewrite <- app_assoc|].
      rewrite <- Ht. cbn [map cum_loop].
      replace (dist sq (cvt a) (cvt b)) with (geom_XY_distanceTo rops (geom_Coordinates_XY a) (geom_Coordinates_XY b)).
      2:{ unfold geom_XY_distanceTo, geom_XY_Length, geom_XY_Sub, dist, d2, cvt. cbn. now rewrite hy_sq. }
      destruct (cum_loop _ (cvt b) (map cvt r)) as [c tot]. rewrite <- app_assoc. reflexivity.
    - intros [total cum] (pre & a & rest & Hs & Hp & Hc & Ht).
      rewrite Z.max_r in Hs by lia.
      pose proof (suffix_length cs (n - 1)%Z ltac:(lia)) as HL. fold n in HL. rewrite Hs in HL.
      destruct rest; [|cbn [Datatypes.length] in HL; lia].
      cbn in Ht. subst cum. cbn. exact Ht.
    - destruct s as [total cum]. unfold TOTAL in HP. rewrite cum_loop_seg_lens in HP.
      injection HP as -> ->. reflexivity.
    - contradiction.
    - contradiction.
  Qed.

  (* the total is the model's path_len *)
  Lemma tie_total_path_len : forall cs, fold_left Qplus (seg_lens sq (map cvt cs)) 0 == path_len sq (map cvt cs).
  Proof. intro cs. rewrite fold_left_sumq. unfold path_len. ring. Qed.
End WithRoot.
