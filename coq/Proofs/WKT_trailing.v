(* Lemmas for property C05 (WKT), clause "rejects trailing tokens", at the level of TEXT:
   a parse consumes the whole input.  Whatever follows a complete document - lexable or not -
   makes UnmarshalWKT fail:
     Part A  a text with a lexical error anywhere (NUL, a malformed literal, invalid UTF-8: the
             symbols the lexer answers with its error) is never accepted;
     Part B  a spelled document of a geometry followed by text holding at least one token or one
             lexical error is rejected. *)
From Coq Require Import NArith List Bool Ascii.
From SF Require Import Base.Outcome Base.GeomAST Model.WKT Proofs.WKT_proofs Proofs.WKT_total.
Import ListNotations.
Local Open Scope N_scope.
Local Notation length := List.length.

(* ================================================================== Part A: lexical errors *)
(* the lexer's output for a text with a lexical error in it carries the mark *)
Lemma lex_go_marks : forall s cur ts,
  lex_go cur s = Ok ts -> existsb lex_error_ch s = true -> In TBad ts.
Proof.
  induction s as [|c r IH]; intros cur ts Hl He; [discriminate|].
  cbn [existsb] in He. cbn [lex_go] in Hl. destruct c as [a|b|].
  - cbn [lex_error_ch] in He. destruct (code a =? 0) eqn:E0.
    { (* NUL is neither a letter nor a digit *)
      unfold is_letter, is_upper, is_lower, is_digit in Hl. apply N.eqb_eq in E0. rewrite E0 in Hl.
      cbn in Hl. inversion Hl. apply in_or_app. right. left. reflexivity. }
    cbn [orb] in He.
    destruct (is_letter a); [apply (IH _ _ Hl He)|].
    destruct (is_digit a); [destruct cur; [discriminate|]; apply (IH _ _ Hl He)|].
    destruct (128 <=? code a); [discriminate|]. destruct (_ && _); [discriminate|].
    destruct (lex_go [] r) as [ts'|e|p] eqn:E; cbn [bind] in Hl; try discriminate.
    inversion Hl. apply in_or_app. right. apply in_or_app. right. apply (IH [] ts' E He).
  - cbn [lex_error_ch orb] in He.
    destruct (glue_after r); [discriminate|].
    destruct (b <? wk_two63).
    + destruct cur; [|discriminate].
      destruct (lex_go [] r) as [ts'|e|p] eqn:E; cbn [bind] in Hl; try discriminate.
      inversion Hl. right. apply (IH [] ts' E He).
    + destruct (lex_go [] r) as [ts'|e|p] eqn:E; cbn [bind] in Hl; try discriminate.
      inversion Hl. apply in_or_app. right. right. right. apply (IH [] ts' E He).
  - inversion Hl. apply in_or_app. right. left. reflexivity.
Qed.

Lemma wkt_lexical_error_rejected_lemma : forall (s : list ch) (g : geomT N),
  existsb lex_error_ch s = true -> unmarshal_wkt s <> Ok g.
Proof.
  intros s g He. unfold unmarshal_wkt, lex.
  destruct (lex_go [] s) as [ts|e|p] eqn:E; cbn [bind]; try discriminate.
  apply wkt_parse_bad_rejected_lemma. apply (lex_go_marks s [] ts E He).
Qed.

(* ================================================================== Part B: the theorems *)
Lemma starts_delim_sd R : starts_delim R = true -> sd R.
Proof. destruct R as [|[c|n|] R']; cbn; auto. discriminate. Qed.

(* any blank-spelling of any keyword-case / parenthesis variant of a geometry's text, followed by
   text R that does not glue onto the last word and holds at least one token or lexical error *)
Lemma wkt_trailing_text_rejected_lemma sp (g : geomT N) pre items R t tr :
  spelling_ok sp -> wkt_dom g = true ->
  forallb is_ws pre = true -> spell_ok items = true -> map fst items = toks sp g ->
  implb (ends_open items) (starts_delim R) = true -> lex R = Ok (t :: tr) ->
  unmarshal_wkt (spell pre items ++ R) = Err ESyntax.
Proof.
  intros Hsp Hd Hp Hi Hm HE HR. unfold unmarshal_wkt, lex in *.
  rewrite (lexes_spell pre items Hp Hi R (t :: tr)), Hm; [|intros E; rewrite E in HE; apply starts_delim_sd, HE|exact HR].
  cbn [bind]. apply wkt_trailing_rejected_lemma; assumption.
Qed.

(* the produced text itself followed by such an R *)
Lemma wkt_trailing_after_text_lemma (g : geomT N) R t tr :
  wkt_dom g = true -> starts_delim R = true -> lex R = Ok (t :: tr) ->
  unmarshal_wkt (as_text g ++ R) = Err ESyntax.
Proof.
  intros Hd Hs HR. unfold unmarshal_wkt, lex in *. rewrite as_text_text.
  rewrite (lexes_geom g [] R (t :: tr) (fun _ => starts_delim_sd R Hs) HR). cbn [bind].
  apply (wkt_trailing_rejected_lemma sp_default g t tr spelling_ok_default Hd).
Qed.
