(* Property C17 - lemmas about InterpolatePoint / InterpolateEvenlySpacedPoints (Model/TrInterp.v). *)
From Coq Require Import ZArith QArith Qround Qabs Qfield Lqa List Bool Lia.
From SF Require Import Base.Outcome Base.GeomAST Base.QKernel Model.TrCommon Model.TrForce Model.TrDensify Model.TrInterp
  Model.TrSimplify Proofs.TrDensify_proofs.
Import ListNotations.

Lemma clamp01_cases (f : Q) :
  f <= 0 /\ clamp01 f == 0 \/ 0 <= f <= 1 /\ clamp01 f == f \/ 1 <= f /\ clamp01 f == 1.
Proof.
  unfold clamp01, Qmaxq, Qminq. destruct (Qle_bool 1 f) eqn:A.
  - apply Qle_bool_iff in A. right; right. split; [lra | reflexivity].
  - apply Qle_bool_false_iff in A. destruct (Qle_bool 0 f) eqn:B.
    + apply Qle_bool_iff in B. right; left. split; [lra | reflexivity].
    + apply Qle_bool_false_iff in B. left. split; [lra | reflexivity].
Qed.

Lemma clamp_lemma (f : Q) :
  0 <= clamp01 f <= 1 /\ (f <= 0 -> clamp01 f == 0) /\ (1 <= f -> clamp01 f == 1)
  /\ (0 <= f <= 1 -> clamp01 f == f).
Proof. destruct (clamp01_cases f) as [[A E]|[[A E]|[A E]]]; repeat split; intros; lra. Qed.

Section InterpProofs.
  Variable sq : Q -> Q.
  Hypothesis sq_nonneg : forall x, 0 <= sq x.

  Lemma sumq_cons x l : sumq (x :: l) == x + sumq l.
  Proof. change (sumq (x :: l)) with (Qred (x + sumq l)). apply Qred_correct. Qed.

  Lemma seg_lens_nonneg vs : Forall (fun x => 0 <= x) (seg_lens sq vs).
  Proof. unfold seg_lens. apply Forall_forall. intros x H. apply in_map_iff in H as (s & <- & _). apply sq_nonneg. Qed.

  Lemma sumq_nonneg l : Forall (fun x => 0 <= x) l -> 0 <= sumq l.
  Proof. induction 1; [simpl; lra|]. rewrite sumq_cons. lra. Qed.

  Lemma seg_lens_cons a b r : seg_lens sq (a :: b :: r) = dist sq a b :: seg_lens sq (b :: r).
  Proof. reflexivity. Qed.

  (* inside the segment found: at arc length u from a, for the repaired code *)
  Lemma in_segment (a b : qv) (len u : Q) : 0 <= u <= len ->
    exists p s, (if Qeq_bool len 0 then IPoint a else IPoint (interp_coords a b (u / len))) = IPoint p
                /\ 0 <= s <= 1 /\ param_pt a b s p /\ s * len == u.
  Proof.
    intros [U0 U1]. destruct (Qeq_bool len 0) eqn:Z.
    - apply Qeq_bool_iff in Z. exists a, 0. split; [reflexivity|]. split; [lra|]. split; [apply param_pt_0 | lra].
    - apply Qeq_bool_neq in Z. assert (0 < len) as LP by lra.
      exists (interp_coords a b (u / len)), (u / len). split; [reflexivity|].
      split; [split; [apply Qle_shift_div_l | apply Qle_shift_div_r]; lra|].
      split; [apply interp_coords_param | field; lra].
  Qed.

  (* the walk: finds the segment, never falls off the end, never divides by zero *)
  Lemma walk_spec : forall vs target prevcum,
    (2 <= length vs)%nat ->
    prevcum <= target -> target <= prevcum + sumq (seg_lens sq vs) ->
    exists p pre a b post s,
      walk true target prevcum vs (seg_lens sq vs) = IPoint p
      /\ vs = pre ++ a :: b :: post
      /\ 0 <= s <= 1 /\ param_pt a b s p
      /\ prevcum + sumq (seg_lens sq (pre ++ [a])) + s * dist sq a b == target.
  Proof.
    induction vs as [|a r IH]; intros target prevcum L LO HI; [simpl in L; lia|].
    destruct r as [|b r']; [simpl in L; lia|].
    rewrite seg_lens_cons. cbn [walk].
    set (len := dist sq a b) in *.
    assert (Qred (prevcum + len) == prevcum + len) as C by apply Qred_correct.
    destruct (Qle_bool target (Qred (prevcum + len))) eqn:T.
    - apply Qle_bool_iff in T. rewrite C in T.
      destruct (in_segment a b len (target - prevcum)) as (p & s & E & S & P & A); [lra|].
      exists p, [], a, b, r', s.
      split; [exact E|]. split; [reflexivity|]. split; [exact S|]. split; [exact P|].
      change (sumq (seg_lens sq ([] ++ [a]))) with 0. fold len. lra.
    - apply Qle_bool_false_iff in T. rewrite C in T.
      rewrite seg_lens_cons, sumq_cons in HI. fold len in HI.
      destruct r' as [|c r''].
      + simpl in HI. lra.
      + destruct (IH target (Qred (prevcum + len))) as (p & pre & x & y & post & s & W & E & S & P & A).
        * simpl. lia.
        * rewrite C. lra.
        * rewrite C. lra.
        * exists p, (a :: pre), x, y, post, s.
          split; [exact W|]. split; [rewrite E; reflexivity|]. split; [exact S|]. split; [exact P|].
          change ((a :: pre) ++ [x]) with (a :: (pre ++ [x])).
          assert (exists t, pre ++ [x] = b :: t) as (t & Hh)
            by (destruct pre; injection E as -> _; simpl; eauto).
          rewrite Hh. rewrite seg_lens_cons, sumq_cons. rewrite <- Hh. fold len.
          rewrite C in A. lra.
  Qed.

  Theorem interpolate_spec (vs : list qv) (f : Q) : (2 <= length vs)%nat ->
    exists p pre a b post s,
      interpolate sq true vs f = IPoint p
      /\ vs = pre ++ a :: b :: post
      /\ 0 <= s <= 1 /\ param_pt a b s p
      /\ path_len sq (pre ++ [a]) + s * dist sq a b == clamp01 f * path_len sq vs.
  Proof.
    intros L. unfold interpolate, interpolate_tab, path_len.
    destruct (clamp_lemma f) as [[C0 C1] _].
    pose proof (sumq_nonneg _ (seg_lens_nonneg vs)) as TN.
    destruct (walk_spec vs (clamp01 f * sumq (seg_lens sq vs)) 0 L) as (p & pre & a & b & post & s & W & E & S & P & A).
    - nra.
    - nra.
    - exists p, pre, a, b, post, s.
      split; [exact W|]. split; [exact E|]. split; [exact S|]. split; [exact P|]. lra.
  Qed.

  Theorem evenly_spaced_spec (vs : list qv) (n : Z) :
    (n <= 0)%Z /\ evenly_spaced sq true vs n = []
    \/ (0 < n)%Z /\ vs = [] /\ evenly_spaced sq true vs n = repeat None (Z.to_nat n)
    \/ n = 1%Z /\ vs <> [] /\ evenly_spaced sq true vs n = [Some (interpolate sq true vs (1 # 2))]
    \/ (2 <= n)%Z /\ vs <> [] /\ length (evenly_spaced sq true vs n) = Z.to_nat n
       /\ forall i r, nth_error (evenly_spaced sq true vs n) i = Some r ->
            r = Some (interpolate sq true vs (inject_Z (Z.of_nat i) / inject_Z (n - 1))).
  Proof.
    unfold evenly_spaced. destruct (Z.leb n 0) eqn:N0.
    - left. apply Z.leb_le in N0. auto.
    - apply Z.leb_gt in N0. right. destruct vs as [|a r].
      + left. auto.
      + right. destruct (Z.eqb n 1) eqn:N1.
        * apply Z.eqb_eq in N1. left. repeat split; auto. discriminate.
        * apply Z.eqb_neq in N1. right. split; [lia|]. split; [discriminate|]. split.
          -- now rewrite map_length, fracs_length.
          -- intros i res H. rewrite nth_error_map in H.
             destruct (nth_error (fracs (n - 1) 0 (Z.to_nat n)) i) eqn:E; [|discriminate].
             apply fracs_nth in E as [_ ->]. simpl in H. inversion H. reflexivity.
  Qed.
End InterpProofs.

(* ---- the executable square root: non-negative, exact on squares of rationals ---- *)
Lemma qsqrt_nonneg (q : Q) : 0 <= qsqrt q.
Proof.
  unfold qsqrt. destruct (Qnum q) eqn:E; try lra.
  rewrite Qred_correct. unfold Qle. cbn [Qnum Qden].
  rewrite Z.mul_0_l. apply Z.mul_nonneg_nonneg; [apply Z.sqrt_nonneg | lia].
Qed.

Lemma qsqrt_square (r : Q) : 0 <= r -> qsqrt (r * r) == r.
Proof.
  intros H. destruct r as [n m]. unfold Qle in H; simpl in H. rewrite Z.mul_1_r in H.
  destruct n as [|n|n]; [reflexivity| |lia].
  unfold qsqrt, Qmult. cbn [Qnum Qden].
  change (Z.pos n * Z.pos n)%Z with (Z.pos (n * n)). cbv iota.
  rewrite Qred_correct. unfold Qeq. cbn [Qnum Qden].
  replace (Z.pos (n * n) * Z.pos (m * m) * 2 ^ 128)%Z with ((Z.pos n * Z.pos m * 2 ^ 64) * (Z.pos n * Z.pos m * 2 ^ 64))%Z
    by (rewrite !Pos2Z.inj_mul; change (2 ^ 128)%Z with (2 ^ 64 * 2 ^ 64)%Z; ring).
  rewrite Z.sqrt_square by lia.
  rewrite !Pos2Z.inj_mul. change (Z.pos (2 ^ 64)) with (2 ^ 64)%Z. ring.
Qed.

(* F9: the unrepaired code yields an undefined (NaN) point on a valid line whose first segment has
   zero length *)
Definition f9_line : list qv :=
  [Build_vtx 0 0 0 0; Build_vtx 0 0 0 0; Build_vtx 1 1 0 0].
Lemma interp_finite_refuted_lemma :
  exists (vs : list qv) (f : Q), line_valid_vs vs = true /\ (2 <= length vs)%nat
                                 /\ interpolate qsqrt false vs f = IUndef.
Proof. exists f9_line, 0. vm_compute. auto. Qed.
