(* Property C08, WKT part: the token-level parser of Model/WKT.v (the transcription of
   geom/wkt_parser.go written for C05) is total on EVERY token list: never a panic outcome, the
   fuel error is unreachable, the tokens left over are a suffix of the input, and the consumed
   tokens never include the lexical-error mark TBad (the parser cannot step over it).  Same technique
   as Proofs/WKB_total.v: one invariant over parser computations closed under bind; the
   separator loops terminate because every iteration consumes its "," token. *)
From Coq Require Import NArith List Bool Ascii Lia.
From SF Require Import Base.Outcome Base.GeomAST Model.WKT.
Import ListNotations.

Definition okT {A} (k : nat) (m : TM A) (ts : list tok) : Prop :=
  match m ts with
  | Ok (_, r) => exists used, ts = used ++ r /\ (k <= length used)%nat /\ ~ In TBad used
  | Err e => e <> EFuel
  | Panic _ => False
  end.

Lemma okT_0 {A} k (m : TM A) ts : okT k m ts -> okT 0 m ts.
Proof.
  unfold okT. destruct (m ts) as [[a r]|e|p]; auto. intros [u [E [L B]]]. exists u. split; auto. split; [lia|exact B].
Qed.

Lemma okT_ret {A} (a : A) ts : okT 0 (tret a) ts.
Proof. unfold okT, tret. exists []. split; [reflexivity|]. split; [apply le_n|intros []]. Qed.

Lemma okT_fail {A} k e ts : e <> EFuel -> okT (A:=A) k (tfail e) ts.
Proof. unfold okT, tfail. auto. Qed.

(* the continuation may use that the first component has consumed its k tokens *)
Lemma okT_bind {A B} k k2 (m : TM A) (f : A -> TM B) ts :
  okT k m ts ->
  (forall a r, m ts = Ok (a, r) -> (length r + k <= length ts)%nat -> okT k2 (f a) r) ->
  okT k (tbind m f) ts.
Proof.
  unfold okT at 1 3, tbind. destruct (m ts) as [[a r]|e|p] eqn:E; auto.
  intros [u [Eu [Lu Bu]]] Hf.
  assert (Hlen : (length r + k <= length ts)%nat) by (rewrite Eu, app_length; lia).
  specialize (Hf a r eq_refl Hlen). unfold okT in Hf.
  destruct (f a r) as [[b r']|e|p]; auto.
  destruct Hf as [u2 [Eu2 [Lu2 Bu2]]]. exists (u ++ u2).
  rewrite Eu, Eu2, app_assoc, app_length. split; auto. split; [lia|].
  intros Hin. apply in_app_or in Hin. tauto.
Qed.

Lemma okT_bind' {A B} k k2 (m : TM A) (f : A -> TM B) ts :
  okT k m ts -> (forall a r, okT k2 (f a) r) -> okT k (tbind m f) ts.
Proof. intros H1 H2. eapply okT_bind; eauto. Qed.

Lemma okT_next ts : okT 1 t_next ts.
Proof.
  unfold okT, t_next. destruct ts as [|t r]; [discriminate|].
  destruct t; try discriminate; eexists [_]; (split; [reflexivity|split; [apply le_n|]]);
    intros [H|[]]; discriminate.
Qed.

Lemma okT_peek ts : okT 0 t_peek ts.
Proof.
  unfold okT, t_peek. destruct ts as [|t r]; [discriminate|].
  destruct t; try discriminate; exists []; (split; [reflexivity|split; [apply le_n|intros []]]).
Qed.

Lemma okT_geom_tag ts : okT 1 next_geom_tag ts.
Proof.
  unfold next_geom_tag.
  eapply okT_bind'; [apply okT_next|intros t r].
  eapply okT_bind'; [apply okT_peek|intros p r1].
  eapply okT_bind'; [|intros; apply okT_ret].
  destruct (tok_is _ p); [eapply okT_0, okT_next|].
  destruct (tok_is _ p); [eapply okT_0, okT_next|].
  destruct (tok_is _ p); [eapply okT_0, okT_next|apply okT_ret].
Qed.

Lemma okT_empty_or_lparen ts : okT 1 next_empty_or_lparen ts.
Proof.
  unfold next_empty_or_lparen.
  eapply okT_bind'; [apply okT_next|intros t r].
  destruct (tok_is _ t); [apply okT_ret|]. destruct (tok_is _ t); [apply okT_ret|].
  apply okT_fail; discriminate.
Qed.

Lemma okT_rparen ts : okT 1 next_rparen ts.
Proof.
  unfold next_rparen.
  eapply okT_bind'; [apply okT_next|intros t r].
  destruct (tok_is _ t); [apply okT_ret|apply okT_fail; discriminate].
Qed.

Lemma okT_comma_or_rparen ts : okT 1 next_comma_or_rparen ts.
Proof.
  unfold next_comma_or_rparen.
  eapply okT_bind'; [apply okT_next|intros t r].
  destruct (tok_is _ t); [apply okT_ret|]. destruct (tok_is _ t); [apply okT_ret|].
  apply okT_fail; discriminate.
Qed.

(* strconv.ParseFloat never panics; its failure is a syntax error *)
Lemma strconv_parse_total t :
  (exists f, strconv_parse t = Ok f) \/ strconv_parse t = Err ESyntax.
Proof.
  destruct t as [l|b|]; cbn [strconv_parse]; [|left; eauto|right; reflexivity].
  destruct (leqb _ _); [left; eauto|]. destruct (_ || _); [left; eauto|right; reflexivity].
Qed.

Lemma okT_signed ts : okT 1 next_signed ts.
Proof.
  unfold next_signed.
  eapply okT_bind'; [apply okT_next|intros t r].
  eapply okT_bind'.
  { destruct (tok_is _ t); [eapply okT_0, okT_next|apply okT_ret]. }
  intros t2 r2. destruct (strconv_parse_total t2) as [[f ->]| ->].
  - destruct (f_is_nan f || f_is_inf f); [apply okT_fail; discriminate|apply okT_ret].
  - apply okT_fail; discriminate.
Qed.

Lemma okT_point ct ts : okT 1 (next_point ct) ts.
Proof.
  unfold next_point.
  eapply okT_bind'; [apply okT_signed|intros x r].
  eapply okT_bind'; [apply okT_signed|intros y r1].
  eapply okT_bind'.
  { destruct (has_z ct); [eapply okT_0, okT_signed|apply okT_ret]. }
  intros z r2. eapply okT_bind'; [|intros; apply okT_ret].
  destruct (has_m ct); [eapply okT_0, okT_signed|apply okT_ret].
Qed.

(* an item parser that is fine on every state no longer than [bound] *)
Definition item_ok {A} (item : TM A) (bound : nat) : Prop :=
  forall ts', (length ts' <= bound)%nat -> okT 0 item ts'.

(* every iteration consumes its "," *)
Lemma okT_sep_loop {A} (item : TM A) : forall fuel ts,
  (length ts < fuel)%nat -> item_ok item (length ts) -> okT 0 (sep_loop fuel item) ts.
Proof.
  induction fuel as [|f IH]; intros ts Hf Hitem; [lia|].
  cbn [sep_loop].
  eapply okT_bind; [apply Hitem; lia|]. intros x r _ Hr.
  eapply okT_bind; [apply okT_comma_or_rparen|]. intros more r2 _ Hr2.
  destruct more; [|apply okT_ret].
  eapply okT_bind'; [|intros; apply okT_ret].
  apply IH; [lia|]. intros ts' Hts'. apply Hitem. lia.
Qed.

Lemma okT_point_text ct ts : okT 1 (next_point_text ct) ts.
Proof.
  unfold next_point_text.
  eapply okT_bind'; [apply okT_empty_or_lparen|intros lp r].
  destruct lp; [|apply okT_ret].
  eapply okT_bind'; [eapply okT_0, okT_point|intros v r1].
  eapply okT_bind'; [apply okT_rparen|intros; apply okT_ret].
Qed.

Lemma okT_line_text fuel ct ts : (length ts <= fuel)%nat -> okT 1 (next_line_text fuel ct) ts.
Proof.
  intros Hf. unfold next_line_text.
  eapply okT_bind; [apply okT_empty_or_lparen|]. intros lp r _ Hr.
  destruct lp; [|apply okT_ret].
  eapply okT_bind'; [|intros; apply okT_ret].
  apply okT_sep_loop; [lia|]. intros ts' _. eapply okT_0, okT_point.
Qed.

Lemma okT_lines_text fuel ct ts : (length ts <= fuel)%nat -> okT 1 (next_lines_text fuel ct) ts.
Proof.
  intros Hf. unfold next_lines_text.
  eapply okT_bind; [apply okT_empty_or_lparen|]. intros lp r _ Hr.
  destruct lp; [|apply okT_ret].
  apply okT_sep_loop; [lia|]. intros ts' Hts'. eapply okT_0, okT_line_text. lia.
Qed.

Lemma okT_poly_text fuel ct ts : (length ts <= fuel)%nat -> okT 1 (next_poly_text fuel ct) ts.
Proof.
  intros Hf. unfold next_poly_text.
  eapply okT_bind'; [apply okT_lines_text; exact Hf|].
  intros rs r. destruct rs; apply okT_ret.
Qed.

Lemma okT_mp_point ct ts : okT 0 (next_mp_point ct) ts.
Proof.
  unfold next_mp_point.
  eapply okT_bind'; [apply okT_peek|intros t r].
  destruct (tok_is _ t).
  { eapply okT_bind'; [eapply okT_0, okT_next|intros ? r1].
    eapply okT_bind'; [apply okT_point|intros v r2].
    eapply okT_bind'; [apply okT_rparen|intros; apply okT_ret]. }
  destruct (tok_is _ t).
  { eapply okT_bind'; [eapply okT_0, okT_next|intros; apply okT_ret]. }
  eapply okT_bind'; [eapply okT_0, okT_point|intros; apply okT_ret].
Qed.

Lemma okT_parse_geom : forall fuel ts, (length ts < fuel)%nat -> okT 1 (parse_geom fuel) ts.
Proof.
  induction fuel as [|f IH]; intros ts Hf; [lia|].
  cbn [parse_geom].
  eapply okT_bind; [apply okT_geom_tag|]. intros [name ct] r _ Hr.
  destruct (gtype_of_name name) as [t|]; [|apply (okT_fail 0); discriminate].
  destruct t.
  - (* collection *)
    eapply okT_bind; [eapply okT_0, okT_empty_or_lparen|]. intros lp r1 _ Hr1.
    eapply okT_bind.
    { destruct lp; [|apply okT_ret].
      apply okT_sep_loop; [lia|]. intros ts' Hts'. eapply okT_0, IH. lia. }
    intros gs r2 _ _. destruct (coll_cts_ok ct gs); [|apply okT_fail; discriminate].
    destruct gs; apply okT_ret.
  - eapply okT_bind'; [eapply okT_0, okT_point_text|intros; apply okT_ret].
  - eapply okT_bind'; [eapply okT_0, okT_line_text; lia|intros; apply okT_ret].
  - eapply okT_bind'; [eapply okT_0, okT_poly_text; lia|intros; apply okT_ret].
  - eapply okT_bind; [eapply okT_0, okT_empty_or_lparen|]. intros lp r1 _ Hr1.
    destruct lp; [|apply okT_ret].
    eapply okT_bind'; [|intros; apply okT_ret].
    apply okT_sep_loop; [lia|]. intros ts' _. apply okT_mp_point.
  - eapply okT_bind'; [eapply okT_0, okT_lines_text; lia|].
    intros ls r1. destruct ls; apply okT_ret.
  - eapply okT_bind; [eapply okT_0, okT_empty_or_lparen|]. intros lp r1 _ Hr1.
    destruct lp; [|apply okT_ret].
    eapply okT_bind'; [|intros; apply okT_ret].
    apply okT_sep_loop; [lia|]. intros ts' Hts'. eapply okT_0, okT_poly_text. lia.
Qed.

(* fuel = number of tokens + 1 is enough *)
Lemma parse_geom_ok ts :
  match parse_geom (S (length ts)) ts with
  | Ok (_, r) => exists used, ts = used ++ r /\ (1 <= length used)%nat /\ ~ In TBad used
  | Err e => e <> EFuel
  | Panic _ => False
  end.
Proof. apply okT_parse_geom, le_n. Qed.

(* ------------------------------------------------------------------ the C08 statements *)
Lemma wkt_parse_no_panic_lemma : forall ts, is_panic (parse ts) = false.
Proof.
  intros ts. pose proof (parse_geom_ok ts) as H. unfold parse.
  destruct (parse_geom (S (length ts)) ts) as [[g [|[] r]]|e|p]; auto. contradiction.
Qed.

Lemma wkt_parse_fuel_enough_lemma : forall ts, parse ts <> Err EFuel.
Proof.
  intros ts. pose proof (parse_geom_ok ts) as H. unfold parse.
  destruct (parse_geom (S (length ts)) ts) as [[g [|[] r]]|e|p]; try discriminate. congruence.
Qed.

(* the parser proper never looks past the tokens it is given, and reads at least the tag *)
Lemma wkt_parse_geom_consumes_lemma : forall ts g r,
  parse_geom (S (length ts)) ts = Ok (g, r) -> exists used, ts = used ++ r /\ (1 <= length used)%nat.
Proof.
  intros ts g r E. pose proof (parse_geom_ok ts) as H. rewrite E in H.
  destruct H as [u [Eu [Lu _]]]. exists u. auto.
Qed.

(* ... and never steps over a lexical error: the consumed tokens are free of the mark TBad *)
Lemma wkt_parse_geom_no_bad_lemma : forall ts g r,
  parse_geom (S (length ts)) ts = Ok (g, r) -> exists used, ts = used ++ r /\ ~ In TBad used.
Proof.
  intros ts g r E. pose proof (parse_geom_ok ts) as H. rewrite E in H.
  destruct H as [u [Eu [_ Bu]]]. exists u. auto.
Qed.

(* A token stream with a lexical error in it is never accepted: the parser fails before the mark,
   or at it, or the end-of-input check finds it (or a token) behind the geometry. *)
Lemma wkt_parse_bad_rejected_lemma : forall ts g, In TBad ts -> parse ts <> Ok g.
Proof.
  intros ts g Hin. unfold parse.
  destruct (parse_geom (S (length ts)) ts) as [[g' r]|e|p] eqn:E; try discriminate.
  destruct (wkt_parse_geom_no_bad_lemma ts g' r E) as [u [Eu Bu]].
  destruct r as [|[] r']; try discriminate.
  rewrite app_nil_r in Eu. subst u. contradiction.
Qed.

(* ------------------------------------------------------------------ lexer + parser *)
Lemma lex_go_total : forall s cur, is_panic (lex_go cur s) = false /\ lex_go cur s <> Err EFuel.
Proof.
  induction s as [|c r IH]; intros cur; cbn [lex_go].
  - split; [reflexivity|discriminate].
  - destruct c as [a|b|]; [| |split; [reflexivity|discriminate]].
    + destruct (is_letter a); [apply IH|].
      destruct (is_digit a).
      { destruct cur; [split; [reflexivity|discriminate]|apply IH]. }
      destruct (code a =? 0)%N; [split; [reflexivity|discriminate]|].
      destruct (128 <=? code a)%N; [split; [reflexivity|discriminate]|].
      destruct (_ && _); [split; [reflexivity|discriminate]|].
      destruct (IH []) as [Hp Hf]. destruct (lex_go [] r); cbn [bind] in *;
        split; try reflexivity; try discriminate; auto.
    + destruct (glue_after r); [split; [reflexivity|discriminate]|].
      destruct (IH []) as [Hp Hf].
      destruct (b <? wk_two63)%N.
      * destruct cur; [|split; [reflexivity|discriminate]].
        destruct (lex_go [] r); cbn [bind] in *; split; try reflexivity; try discriminate; auto.
      * destruct (lex_go [] r); cbn [bind] in *; split; try reflexivity; try discriminate; auto.
Qed.

(* UnmarshalWKT(s, NoValidate{}) on the model's text alphabet: lexer, parser, EOF check *)
Lemma unmarshal_wkt_no_panic_lemma : forall s,
  is_panic (unmarshal_wkt s) = false /\ unmarshal_wkt s <> Err EFuel.
Proof.
  intros s. unfold unmarshal_wkt, lex. destruct (lex_go_total s []) as [Hp Hf].
  destruct (lex_go [] s) as [ts|e|p]; cbn [bind] in *.
  - split; [apply wkt_parse_no_panic_lemma|apply wkt_parse_fuel_enough_lemma].
  - split; [reflexivity|]. intros E. apply Hf. inversion E. reflexivity.
  - discriminate.
Qed.
