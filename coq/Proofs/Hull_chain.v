(* Property C13 - the scan invariant of one monotone chain (geom/alg_convex_hull.go:monotoneChain),
   proved once for both directions of the lexicographic order. *)
From Coq Require Import ZArith List Bool Lia Permutation Sorting.Sorted.
From SF Require Import Base.GeomAST Model.Hull Proofs.Hull_proofs.
Import ListNotations.
Open Scope Z_scope.

(* The angular order of vectors in one closed half plane (u x v = ux*vy - uy*vx) is transitive, and
   strictly so when one premise is strict and the vector at the far end is not zero; all from
   vx * (u x w) = wx * (u x v) + ux * (v x w) *)

Lemma T_trans ux uy vx vy wx wy :
  (0 < ux \/ ux = 0 /\ 0 <= uy) -> (0 < vx \/ vx = 0 /\ 0 < vy) -> (0 < wx \/ wx = 0 /\ 0 <= wy) ->
  0 <= ux*vy - uy*vx -> 0 <= vx*wy - vy*wx ->
  0 <= ux*wy - uy*wx /\
  (0 < ux*vy - uy*vx -> wx <> 0 \/ wy <> 0 -> 0 < ux*wy - uy*wx) /\
  (0 < vx*wy - vy*wx -> ux <> 0 \/ uy <> 0 -> 0 < ux*wy - uy*wx).
Proof.
  intros Hu Hv Hw H1 H2.
  assert (E : vx * (ux*wy - uy*wx) = wx*(ux*vy - uy*vx) + ux*(vx*wy - vy*wx)) by ring.
  repeat split; intros; nia.
Qed.
Lemma T_ws ux uy vx vy wx wy :
  (0 < ux \/ ux = 0 /\ 0 < uy) -> (0 < vx \/ vx = 0 /\ 0 < vy) -> (0 < wx \/ wx = 0 /\ 0 <= wy) ->
  0 <= ux*vy - uy*vx -> 0 < vx*wy - vy*wx -> 0 < ux*wy - uy*wx.
Proof. intros Hu Hv Hw H1 H2. apply (T_trans ux uy vx vy wx wy); lia. Qed.
(* parallel vectors in the same open half plane see every third vector on the same side *)
Lemma T_par xx xy yx yy wx wy :
  (0 < xx \/ xx = 0 /\ 0 < xy) -> (0 < yx \/ yx = 0 /\ 0 < yy) ->
  xx*yy - xy*yx = 0 -> 0 < wx*xy - wy*xx -> 0 < wx*yy - wy*yx.
Proof.
  intros Hx Hy Hp H.
  assert (E1 : xx * (wx*yy - wy*yx) = yx * (wx*xy - wy*xx) + wx * (xx*yy - xy*yx)) by ring.
  assert (E2 : xy * (wx*yy - wy*yx) = yy * (wx*xy - wy*xx) + wy * (xx*yy - xy*yx)) by ring.
  rewrite Hp in E1, E2. destruct Hx as [Hx|[-> Hx]], Hy as [Hy|[-> Hy]]; nia.
Qed.

(* Orientation facts for points ordered along direction s *)

Ltac geo_unfold := unfold dle, dlt, dv, lexpos, cross in *; cbn [fst snd] in *.
(* a weak inequality between points as a disjunction on coordinates *)
Ltac le_coords H := 
  let E := fresh "E" in destruct H as [H|E]; [|inversion E; subst; clear E].

(* A: popping b (top, above a) because p is not left of a->b keeps every later q left of a->p *)
Lemma geo_A s a b p q : sgn s ->
  dlt s a b -> dle s a q -> dle s a p -> 0 <= cross a b q -> cross a b p <= 0 -> 0 <= cross a p q.
Proof.
  intros Hs Hab Haq Hap H1 H2.
  destruct a as [ax ay], b as [bx b_y], p as [px py], q as [qx qy].
  dsgn Hs.
  - pose proof (T_trans (px - ax) (py - ay) (bx - ax) (b_y - ay) (qx - ax) (qy - ay)) as T.
    le_coords Haq; le_coords Hap; geo_unfold; lia.
  - pose proof (T_trans (ax - px) (ay - py) (ax - bx) (ay - b_y) (ax - qx) (ay - qy)) as T.
    le_coords Haq; le_coords Hap; geo_unfold; lia.
Qed.

(* B: q at or before b, on or left of a->b; p beyond b strictly left of a->b: q is on or left of b->p *)
Lemma geo_B s a b p q : sgn s ->
  dlt s a b -> dle s q b -> dlt s b p -> 0 <= cross a b q -> 0 < cross a b p -> 0 <= cross b p q.
Proof.
  intros Hs Hab Hqb Hbp H1 H2.
  destruct a as [ax ay], b as [bx b_y], p as [px py], q as [qx qy].
  dsgn Hs.
  - pose proof (T_trans (bx - qx) (b_y - qy) (bx - ax) (b_y - ay) (px - bx) (py - b_y)) as T.
    le_coords Hqb; geo_unfold; lia.
  - pose proof (T_trans (qx - bx) (qy - b_y) (ax - bx) (ay - b_y) (bx - px) (b_y - py)) as T.
    le_coords Hqb; geo_unfold; lia.
Qed.

(* C: a strictly convex monotone chain x..a,b extended by p strictly left of a->b *)
Lemma geo_C s x a b p : sgn s ->
  dlt s x a -> dlt s a b -> dlt s b p -> 0 < cross x a b -> 0 < cross a b p ->
  0 < cross x b p /\ 0 < cross x a p.
Proof.
  intros Hs Hxa Hab Hbp H1 H2.
  destruct a as [ax ay], b as [bx b_y], p as [px py], x as [xx xy].
  dsgn Hs.
  - pose proof (T_trans (ax - xx) (ay - xy) (bx - ax) (b_y - ay) (px - bx) (py - b_y)) as T.
    geo_unfold; lia.
  - pose proof (T_trans (xx - ax) (xy - ay) (ax - bx) (ay - b_y) (bx - px) (b_y - py)) as T.
    geo_unfold; lia.
Qed.

(* The inner loop *)

Lemma left_turn_spec a b p : is_left_turn (orientation a b p) = true <-> 0 < cross a b p.
Proof.
  unfold orientation. destruct (0 <? cross a b p) eqn:E.
  - apply Z.ltb_lt in E. simpl. tauto.
  - apply Z.ltb_ge in E. destruct (cross a b p <? 0); simpl; split; intros; try discriminate; lia.
Qed.
Lemma left_turn_false a b p : is_left_turn (orientation a b p) = false <-> cross a b p <= 0.
Proof.
  rewrite <- Bool.not_true_iff_false, left_turn_spec. lia.
Qed.

Lemma pop_cons2 b a r p :
  pop_nonleft (b :: a :: r) p =
  if is_left_turn (orientation a b p) then b :: a :: r else pop_nonleft (a :: r) p.
Proof. reflexivity. Qed.

Lemma pop_suffix st p : exists l, st = l ++ pop_nonleft st p.
Proof.
  induction st as [|b st IH]; [exists []; reflexivity|].
  destruct st as [|a r]; [exists []; reflexivity|].
  rewrite pop_cons2. destruct (is_left_turn _); [exists []; reflexivity|].
  destruct IH as [l E]. exists (b :: l). simpl. f_equal. exact E.
Qed.
Lemma pop_nonempty st p : st <> [] -> pop_nonleft st p <> [].
Proof.
  induction st as [|b st IH]; [congruence|]. intros _.
  destruct st as [|a r]; [discriminate|].
  rewrite pop_cons2. destruct (is_left_turn _); [discriminate|]. apply IH. discriminate.
Qed.
Lemma pop_top st p :
  match pop_nonleft st p with b :: a :: _ => 0 < cross a b p | _ => True end.
Proof.
  induction st as [|b st IH]; [exact I|].
  destruct st as [|a r]; [exact I|].
  rewrite pop_cons2. destruct (is_left_turn _) eqn:E; [apply left_turn_spec; exact E|exact IH].
Qed.
Lemma pop_idem st p : pop_nonleft (pop_nonleft st p) p = pop_nonleft st p.
Proof.
  induction st as [|b st IH]; [reflexivity|].
  destruct st as [|a r]; [reflexivity|].
  rewrite pop_cons2. destruct (is_left_turn _) eqn:E; [|exact IH].
  rewrite pop_cons2, E. reflexivity.
Qed.

(* Multiplicity does not matter: the chain over a list equals the chain over the list with
   adjacent duplicates removed, except that a list of copies of one point gives [b;b] *)

Lemma cross_abb a b : cross a b b = 0.
Proof. unfold cross. ring. Qed.
Lemma cross_aab a b : cross a a b = 0.
Proof. unfold cross. ring. Qed.

Definition glitch (x y : list pt) : Prop := x = y \/ exists b, x = [b; b] /\ y = [b].

Lemma glitch_trans x y z : glitch x y -> glitch y z -> glitch x z.
Proof.
  intros [->|[b [-> ->]]] H2; [exact H2|].
  destruct H2 as [<-|[c [E _]]]; [right; exists b; auto|discriminate].
Qed.
Lemma push_glitch x y c : glitch x y -> glitch (push x c) (push y c).
Proof.
  intros [->|[b [-> ->]]]; [left; reflexivity|]. left.
  unfold push. rewrite pop_cons2.
  assert (E : is_left_turn (orientation b b c) = false) by (apply left_turn_false; rewrite cross_aab; lia).
  rewrite E. reflexivity.
Qed.
Lemma push_dup st b : glitch (push (push st b) b) (push st b).
Proof.
  destruct st as [|x st].
  - right. exists b. split; reflexivity.
  - left. unfold push at 1 2.
    destruct (pop_nonleft (x :: st) b) as [|a r] eqn:E; [exfalso; eapply pop_nonempty; [|exact E]; discriminate|].
    rewrite pop_cons2.
    assert (E' : is_left_turn (orientation a b b) = false) by (apply left_turn_false; rewrite cross_abb; lia).
    rewrite E', <- E, pop_idem. reflexivity.
Qed.
Lemma fold_glitch l : forall x y, glitch x y -> glitch (fold_left push l x) (fold_left push l y).
Proof.
  induction l as [|c l IH]; intros x y H; simpl; [exact H|]. apply IH. apply push_glitch. exact H.
Qed.
Lemma fold_dedup_glitch l : forall st, glitch (fold_left push l st) (fold_left push (dedup l) st).
Proof.
  induction l as [|a l IH]; intros st; [left; reflexivity|].
  destruct l as [|b l]; [left; reflexivity|].
  change (dedup (a :: b :: l)) with (if pt_eqb a b then dedup (b :: l) else a :: dedup (b :: l)).
  destruct (pt_eqb a b) eqn:E.
  - apply pt_eqb_eq in E. subst b.
    eapply glitch_trans; [|apply IH]. cbn [fold_left]. apply fold_glitch, push_dup.
  - cbn [fold_left]. apply IH.
Qed.

Lemma fold_push_len2 l : forall st, (2 <= length st)%nat -> (2 <= length (fold_left push l st))%nat.
Proof.
  induction l as [|c l IH]; intros st H; simpl; [exact H|]. apply IH.
  unfold push. simpl. destruct st as [|x st]; [simpl in H; lia|].
  destruct (pop_nonleft (x :: st) c) eqn:E; [exfalso; eapply pop_nonempty; [|exact E]; discriminate|simpl; lia].
Qed.

Lemma chain_rev_dedup l : (2 <= length (dedup l))%nat -> chain_rev l = chain_rev (dedup l).
Proof.
  intros H. unfold chain_rev. destruct (fold_dedup_glitch l []) as [E|[b [_ E]]]; [exact E|].
  exfalso. destruct (dedup l) as [|x [|y t]]; simpl in H; try lia.
  assert (L : (2 <= length (fold_left push (x :: y :: t) []))%nat).
  { change (fold_left push (x :: y :: t) []) with (fold_left push t (push (push [] x) y)).
    apply fold_push_len2. simpl. lia. }
  rewrite E in L. simpl in L. lia.
Qed.

(* R holds for every ordered pair (earlier, later) of the list *)
Fixpoint fop (R : pt -> pt -> Prop) (l : list pt) : Prop :=
  match l with [] => True | b :: r => Forall (R b) r /\ fop R r end.

Lemma fop_impl_in (R R' : pt -> pt -> Prop) l :
  (forall y x, In y l -> In x l -> R y x -> R' y x) -> fop R l -> fop R' l.
Proof.
  induction l as [|b r IH]; intros H F; [exact I|]. destruct F as [F1 F2]. split.
  - rewrite Forall_forall in *. intros x Hx. apply H; [left; reflexivity|right; exact Hx|apply F1; exact Hx].
  - apply IH; auto. intros y x Hy Hx. apply H; right; assumption.
Qed.
Lemma fop_and (R R' : pt -> pt -> Prop) l : fop R l -> fop R' l -> fop (fun y x => R y x /\ R' y x) l.
Proof.
  induction l as [|b r IH]; intros F F'; [exact I|]. destruct F as [F1 F2], F' as [F1' F2']. split; auto.
  rewrite Forall_forall in *. intros x Hx. split; auto.
Qed.
Lemma fop_app_r (R : pt -> pt -> Prop) l1 l2 : fop R (l1 ++ l2) -> fop R l2.
Proof. induction l1 as [|a l1 IH]; simpl; [auto|]. intros [_ F]. auto. Qed.
Lemma fop_cross (R : pt -> pt -> Prop) l1 l2 x y : fop R (l1 ++ l2) -> In x l1 -> In y l2 -> R x y.
Proof.
  induction l1 as [|a l1 IH]; simpl; [tauto|]. intros [F1 F2] [->|Hx] Hy.
  - rewrite Forall_forall in F1. apply F1. apply in_or_app. right; exact Hy.
  - apply IH; auto.
Qed.
Lemma fop_of_sorted (R : pt -> pt -> Prop) l : StronglySorted R l -> fop R l.
Proof. induction 1; simpl; auto. Qed.

(* stacks are held with the top first: for c above b above a the triple a,b,c turns left *)
Fixpoint all_triples (st : list pt) : Prop :=
  match st with [] => True | c :: r => fop (fun b a => 0 < cross a b c) r /\ all_triples r end.
(* q is on or to the left of every chain edge a->b (b directly above a) *)
Fixpoint cov (q : pt) (st : list pt) : Prop :=
  match st with b :: ((a :: _) as r) => 0 <= cross a b q /\ cov q r | _ => True end.

Section Chain.
  Variable s : Z.
  Hypothesis Hs : sgn s.

  Definition desc (st : list pt) : Prop := StronglySorted (fun x y => dlt s y x) st.

  (* The stack st built from the points Q: a strictly convex chain of points of Q, descending from
     its top, every point of Q on or left of its edges and at or after its bottom; [front] relates
     every point of Q to the top. Between two pushes [front q b] is "q is at or before b"; while the
     vertices that do not turn left towards the next point p are popped it is [pfront p]. *)
  Record ginv (front : pt -> pt -> Prop) (Q st : list pt) : Prop := {
    inv_desc : desc st;
    inv_triples : all_triples st;
    inv_cov : forall q, In q Q -> cov q st;
    inv_incl : incl st Q;
    inv_nonempty : st <> [];
    inv_top : forall q d, In q Q -> front q (hd d st);
    inv_bottom : forall q d, In q Q -> dle s (last st d) q
  }.
  Definition inv := ginv (dle s).
  Definition pfront (p q b : pt) : Prop := dle s q b \/ 0 <= cross b p q.

  Lemma pop_inv Q p : (forall q, In q Q -> dlt s q p) ->
    forall st, ginv (pfront p) Q st -> ginv (pfront p) Q (pop_nonleft st p).
  Proof.
    intros Hp. induction st as [|b st IH]; intros I; [exact I|].
    destruct st as [|a r]; [exact I|].
    rewrite pop_cons2. destruct (is_left_turn (orientation a b p)) eqn:El; [exact I|].
    apply left_turn_false in El. apply IH.
    destruct I as [Hd [_ Ht] Hc Hi _ _ Hbot].
    inversion Hd as [|? ? Hd' Hall]; subst. inversion Hall as [|? ? Hab _]; subst.
    constructor; try assumption.
    - intros q Hq. apply (Hc q Hq).
    - intros x Hx. apply Hi. right; exact Hx.
    - discriminate.
    - (* b is popped: a point of Q after the new top a is on or left of a->p *)
      intros q d Hq. destruct (dle_or_dlt s q a Hs) as [Hle|Hlt]; [left; exact Hle|right].
      apply (geo_A s a b p q Hs Hab); [left; exact Hlt| |apply (Hc q Hq)|exact El].
      left. apply Hp, Hi. right; left; reflexivity.
  Qed.

  (* after the pop loop the new point is strictly left of every pair of the remaining stack *)
  Lemma push_fop st p :
    desc st -> (forall x, In x st -> dlt s x p) -> all_triples st ->
    match st with b :: a :: _ => 0 < cross a b p | _ => True end ->
    fop (fun b a => 0 < cross a b p) st.
  Proof.
    intros Hd Hp Ht Htop.
    destruct st as [|b [|a r]]; [exact I|split; [constructor|exact I]|].
    destruct Ht as [Fb Ht]. inversion Hd as [|? ? Hd' Hall]; subst.
    assert (G1 : Forall (fun x => 0 < cross x b p) (a :: r)).
    { constructor; [exact Htop|].
      destruct Fb as [Fa _]. rewrite Forall_forall in *. intros x Hx.
      inversion Hd' as [|? ? _ Ha]; subst. rewrite Forall_forall in Ha.
      apply (geo_C s x a b p Hs); auto.
      - apply Hall. left; reflexivity.
      - apply Hp. left; reflexivity. }
    split; [exact G1|].
    pose proof (fop_and _ _ _ Fb (fop_of_sorted _ _ Hd')) as F.
    eapply fop_impl_in; [|exact F]. intros y x Hy Hx [H1 H2]. simpl in H1, H2.
    rewrite Forall_forall in G1, Hall.
    apply (geo_C s x y b p Hs); auto.
    apply Hp. left; reflexivity.
  Qed.

  Lemma cov_of_fop p st : fop (fun b a => 0 < cross a b p) st -> cov p st.
  Proof.
    induction st as [|b st IH]; [intros; exact I|]. intros [F1 F2].
    destruct st as [|a r]; [exact I|]. split; [|apply IH; exact F2].
    inversion F1; subst. lia.
  Qed.

  Lemma inv_push Q st p : inv Q st -> (forall q, In q Q -> dlt s q p) -> inv (p :: Q) (push st p).
  Proof.
    intros I Hp.
    assert (I' : ginv (pfront p) Q (pop_nonleft st p)).
    { apply (pop_inv Q p Hp). destruct I as [Hd Ht Hc Hi Hne Htop Hbot]. constructor; auto.
      intros q d Hq. left. apply Htop, Hq. }
    pose proof (pop_top st p) as Htop'. unfold push.
    destruct I' as [Hd Ht Hc Hi Hne Hfr Hbot]. destruct (pop_nonleft st p) as [|b r]; [congruence|].
    assert (Hps : forall x, In x (b :: r) -> dlt s x p) by (intros x Hx; apply Hp, Hi, Hx).
    assert (Hfop : fop (fun b a => 0 < cross a b p) (b :: r)) by (apply push_fop; assumption).
    constructor.
    - constructor; [exact Hd|]. apply Forall_forall. exact Hps.
    - split; assumption.
    - intros q Hq. change (0 <= cross b p q /\ cov q (b :: r)).
      destruct Hq as [<-|Hq]; [split; [rewrite cross_abb; lia|apply cov_of_fop, Hfop]|].
      split; [|apply Hc, Hq].
      destruct (Hfr q b Hq) as [Hle|Hok]; [|exact Hok].
      destruct r as [|a r'].
      + (* b is the bottom: q = b *)
        rewrite (dle_antisym s q b Hs Hle (Hbot q b Hq)). unfold cross. lia.
      + inversion Hd as [|? ? _ Hall]; subst. inversion Hall; subst.
        destruct (Hc q Hq) as [Hq' _].
        apply (geo_B s a b p q Hs); auto. apply Hps. left; reflexivity.
    - intros x [<-|Hx]; [left; reflexivity|right; apply Hi, Hx].
    - discriminate.
    - intros q d [<-|Hq]; [right; reflexivity|left; apply Hp, Hq].
    - intros q d Hq. change (last (p :: b :: r) d) with (last (b :: r) d).
      destruct Hq as [<-|Hq]; [|apply Hbot, Hq].
      left. apply Hps, last_In. discriminate.
  Qed.

  Lemma inv_fold l : forall Q st, inv Q st -> StronglySorted (dlt s) l ->
    (forall q y, In q Q -> In y l -> dlt s q y) -> inv (rev l ++ Q) (fold_left push l st).
  Proof.
    induction l as [|y l IH]; intros Q st Hi Hl Hq; [exact Hi|].
    inversion Hl as [|? ? Hl' Hall]; subst. rewrite Forall_forall in Hall.
    simpl. rewrite <- app_assoc. simpl. apply IH; auto.
    - apply inv_push; auto. intros q Iq. apply Hq; [exact Iq|left; reflexivity].
    - intros q z [<-|Iq] Iz; [apply Hall; exact Iz|apply Hq; [exact Iq|right; exact Iz]].
  Qed.

  Lemma inv_single x : inv [x] [x].
  Proof.
    constructor.
    - constructor; constructor.
    - split; exact I.
    - intros; exact I.
    - apply incl_refl.
    - discriminate.
    - intros q d [<-|[]]. right; reflexivity.
    - intros q d [<-|[]]. right; reflexivity.
  Qed.

  (* one chain over a strictly sorted non-empty list *)
  Theorem chain_rev_inv x l : StronglySorted (dlt s) (x :: l) -> inv (rev l ++ [x]) (chain_rev (x :: l)).
  Proof.
    intros H. inversion H as [|? ? Hl Hall]; subst. rewrite Forall_forall in Hall.
    unfold chain_rev. change (fold_left push (x :: l) []) with (fold_left push l [x]).
    apply inv_fold; auto; [apply inv_single|].
    intros q y [<-|[]] Hy. apply Hall; exact Hy.
  Qed.
End Chain.
