(* Lemmas for property C10 (Model/Canon.v): sorting with a strict total order is invariant under
   permutation of the input, rotate-to-minimum is invariant under rotation of the input,
   orientation is invariant under reversal, the extraction pipeline is therefore independent of the
   order in which Go's map iteration delivers cells / rings / edges / vertices; the folds done
   while ranging over maps are order-free; histories of a pure model. *)
From Coq Require Import List Bool ZArith NArith Lia Arith Permutation Sorted Relations_1.
From SF Require Import Model.Canon.
Import ListNotations.

(* ========================================================================================== *)
(* 1. Sorting *)
Section StrictOrder.
  Variable A : Type.
  Variable ltb : A -> A -> bool.
  Hypothesis irrefl : forall x, ltb x x = false.
  Hypothesis trans : forall x y z, ltb x y = true -> ltb y z = true -> ltb x z = true.

  Definition le (x y : A) : Prop := ltb y x = false.

  Lemma asym x y : ltb x y = true -> ltb y x = false.
  Proof.
    intros H. destruct (ltb y x) eqn:E; [|reflexivity].
    pose proof (trans x y x H E) as T. rewrite irrefl in T. discriminate.
  Qed.
  Lemma lt_le x y : ltb x y = true -> le x y.
  Proof. apply asym. Qed.

  Lemma insert_perm x l : Permutation (insert ltb x l) (x :: l).
  Proof.
    induction l as [|y t IH]; simpl; [reflexivity|].
    destruct (ltb x y); [reflexivity|].
    rewrite IH. apply perm_swap.
  Qed.
  Lemma isort_perm l : Permutation (isort ltb l) l.
  Proof.
    induction l as [|x t IH]; simpl; [constructor|].
    rewrite insert_perm. constructor. exact IH.
  Qed.

  Lemma insert_hdrel a x l : HdRel le a l -> le a x -> HdRel le a (insert ltb x l).
  Proof.
    intros H Hx. destruct l as [|y t]; simpl; [constructor; exact Hx|].
    destruct (ltb x y); constructor; [exact Hx|]. inversion H; assumption.
  Qed.
  Lemma insert_sorted x l : Sorted le l -> Sorted le (insert ltb x l).
  Proof.
    induction l as [|y t IH]; simpl; intros H.
    - repeat constructor.
    - destruct (ltb x y) eqn:E.
      + constructor; [exact H|]. constructor. apply lt_le. exact E.
      + inversion H; subst. constructor; [apply IH; assumption|].
        apply insert_hdrel; [assumption|]. exact E.
  Qed.
  Lemma isort_sorted l : Sorted le (isort ltb l).
  Proof. induction l; simpl; [constructor|]. apply insert_sorted. assumption. Qed.

  Lemma sortedb_Sorted l : sortedb ltb l = true <-> Sorted le l.
  Proof.
    induction l as [|x t IH]; simpl.
    - split; [constructor|reflexivity].
    - destruct t as [|y t'].
      + split; [repeat constructor|reflexivity].
      + rewrite andb_true_iff, negb_true_iff, IH. split.
        * intros [H1 H2]. constructor; [exact H2|]. constructor. exact H1.
        * intros H. inversion H; subst. inversion H3; subst. split; assumption.
  Qed.

  (* ---- strict TOTAL order: incomparable elements are equal ---- *)
  Section Total.
    Hypothesis total : forall x y, ltb x y = false -> ltb y x = false -> x = y.

    Lemma le_trans : Transitive le.
    Proof.
      intros x y z Hxy Hyz. unfold le in *.
      destruct (ltb z x) eqn:E; [|reflexivity].
      destruct (ltb x y) eqn:E2.
      - rewrite (trans z x y E E2) in Hyz. discriminate.
      - assert (x = y) by (apply total; assumption). subst. congruence.
    Qed.
    Lemma le_antisym x y : le x y -> le y x -> x = y.
    Proof. intros H1 H2. apply total; assumption. Qed.

    (* Any two sorted arrangements of the same multiset coincide: whatever sort.Slice does
       internally (it is not stable), and whatever order the input arrived in, the result is the
       same list. No duplicate-freeness is needed: with a total order equal keys ARE equal values. *)
    Lemma sort_perm_unique_lemma : forall l l',
      Sorted le l -> Sorted le l' -> Permutation l l' -> l = l'.
    Proof.
      intros l l' Hs Hs'. apply (Sorted_StronglySorted le_trans) in Hs, Hs'. revert l' Hs'.
      induction Hs as [|a t SSt IH Fa]; intros l' Hs' Hp.
      - apply Permutation_nil in Hp. subst. reflexivity.
      - destruct Hs' as [|b t' SSt' Fb]; [apply Permutation_sym, Permutation_nil in Hp; discriminate|].
        assert (a = b) as ->.
        { assert (Ia : In a (b :: t')) by (eapply Permutation_in; [exact Hp|left; reflexivity]).
          assert (Ib : In b (a :: t)) by (eapply Permutation_in; [apply Permutation_sym; exact Hp|left; reflexivity]).
          destruct Ia as [->|Ia]; [reflexivity|]. destruct Ib as [->|Ib]; [reflexivity|].
          rewrite Forall_forall in Fa, Fb. apply le_antisym; [apply Fa|apply Fb]; assumption. }
        f_equal. apply IH; [exact SSt'|]. eapply Permutation_cons_inv. exact Hp.
    Qed.

    (* every function meeting sort.Slice's contract agrees with isort *)
    Lemma sort_contract_unique_lemma (sortf : list A -> list A) :
      (forall l, Permutation (sortf l) l) -> (forall l, Sorted le (sortf l)) ->
      forall l l', Permutation l l' -> sortf l = isort ltb l'.
    Proof.
      intros Hp Hs l l' P. apply sort_perm_unique_lemma; [apply Hs|apply isort_sorted|].
      rewrite Hp, P. symmetry. apply isort_perm.
    Qed.

    Lemma isort_perm_invariant_lemma l l' : Permutation l l' -> isort ltb l = isort ltb l'.
    Proof. apply (sort_contract_unique_lemma (isort ltb) isort_perm isort_sorted). Qed.
  End Total.
End StrictOrder.

(* ---- sorting records by a key (polygons by their exterior ring) ---- *)
Section Keyed.
  Variables (B K : Type).
  Variable ltb : K -> K -> bool.
  Variable key : B -> K.
  Hypothesis irrefl : forall x, ltb x x = false.
  Hypothesis trans : forall x y z, ltb x y = true -> ltb y z = true -> ltb x z = true.
  Hypothesis total : forall x y, ltb x y = false -> ltb y x = false -> x = y.
  Let ltbK (x y : B) := ltb (key x) (key y).

  Lemma sorted_map_key l : Sorted (le B ltbK) l -> Sorted (le K ltb) (map key l).
  Proof.
    induction 1 as [|a l Hs IH Hh]; simpl; constructor; [exact IH|].
    destruct Hh; simpl; constructor. exact H.
  Qed.

  (* without any injectivity: the sequence of KEYS of the result is determined *)
  Lemma sort_by_keys_unique_lemma l l' :
    Sorted (le B ltbK) l -> Sorted (le B ltbK) l' -> Permutation l l' -> map key l = map key l'.
  Proof.
    intros H1 H2 P. apply (sort_perm_unique_lemma K ltb trans total).
    - apply sorted_map_key; exact H1.
    - apply sorted_map_key; exact H2.
    - apply Permutation_map. exact P.
  Qed.

  Lemma map_inj_perm_eq : forall l l',
    (forall x y, In x l -> In y l -> key x = key y -> x = y) ->
    map key l = map key l' -> Permutation l l' -> l = l'.
  Proof.
    induction l as [|a t IH]; intros l' Hinj Hm Hp.
    - apply Permutation_nil in Hp. subst. reflexivity.
    - destruct l' as [|b t']; [discriminate|]. simpl in Hm. injection Hm as Hk Hm.
      assert (a = b) as ->.
      { apply Hinj; [left; reflexivity| |exact Hk].
        eapply Permutation_in; [apply Permutation_sym; exact Hp|left; reflexivity]. }
      f_equal. apply IH; [|exact Hm|eapply Permutation_cons_inv; exact Hp].
      intros x y Hx Hy. apply Hinj; right; assumption.
  Qed.

  (* with distinct keys on distinct members: the result itself is determined *)
  Lemma sort_by_perm_unique_lemma l l' :
    (forall x y, In x l -> In y l -> key x = key y -> x = y) ->
    Sorted (le B ltbK) l -> Sorted (le B ltbK) l' -> Permutation l l' -> l = l'.
  Proof.
    intros Hinj H1 H2 P. apply map_inj_perm_eq; [exact Hinj| |exact P].
    apply sort_by_keys_unique_lemma; assumption.
  Qed.

  Lemma isort_by_perm_invariant_lemma l l' :
    (forall x y, In x l -> In y l -> key x = key y -> x = y) ->
    Permutation l l' -> isort_by ltb key l = isort_by ltb key l'.
  Proof.
    intros Hinj P. unfold isort_by.
    pose proof (isort_sorted B ltbK (fun x => irrefl (key x)) (fun x y z => trans (key x) (key y) (key z))) as Hs.
    apply sort_by_perm_unique_lemma; [|apply Hs..|rewrite !isort_perm; exact P].
    intros x y Hx Hy. apply Hinj; (eapply Permutation_in; [apply isort_perm|]); eassumption.
  Qed.
End Keyed.

(* ========================================================================================== *)
(* 2. The comparison functions of the code are strict total orders *)
Section LexFacts.
  Variable E : Type.
  Variables eeqb eltb : E -> E -> bool.
  Hypothesis eeqb_spec : forall x y, eeqb x y = true <-> x = y.
  Hypothesis e_irrefl : forall x, eltb x x = false.
  Hypothesis e_trans : forall x y z, eltb x y = true -> eltb y z = true -> eltb x z = true.
  Hypothesis e_total : forall x y, eltb x y = false -> eltb y x = false -> x = y.

  Lemma eeqb_refl x : eeqb x x = true.
  Proof. apply eeqb_spec. reflexivity. Qed.
  Lemma eeqb_false x y : eeqb x y = false <-> x <> y.
  Proof. rewrite <- eeqb_spec. symmetry. apply not_true_iff_false. Qed.

  Lemma seq_ltb_irrefl s : seq_ltb eeqb eltb s s = false.
  Proof. induction s as [|x s IH]; simpl; [reflexivity|]. rewrite eeqb_refl. exact IH. Qed.

  Lemma seq_ltb_trans : forall a b c,
    seq_ltb eeqb eltb a b = true -> seq_ltb eeqb eltb b c = true -> seq_ltb eeqb eltb a c = true.
  Proof.
    induction a as [|x a IH]; intros b c Hab Hbc; simpl in *; [discriminate|].
    destruct b as [|y b]; [destruct c; simpl in Hbc; discriminate|].
    destruct c as [|z c]; [reflexivity|]. simpl in Hbc.
    destruct (eeqb x y) eqn:Exy.
    - apply eeqb_spec in Exy. subst y.
      destruct (eeqb x z) eqn:Exz; [eapply IH; eassumption|exact Hbc].
    - destruct (eeqb y z) eqn:Eyz.
      + apply eeqb_spec in Eyz. subst z. rewrite Exy. exact Hab.
      + destruct (eeqb x z) eqn:Exz.
        * apply eeqb_spec in Exz. subst z.
          pose proof (e_trans x y x Hab Hbc) as T. rewrite e_irrefl in T. discriminate.
        * eapply e_trans; eassumption.
  Qed.

  Lemma seq_ltb_total : forall a b,
    seq_ltb eeqb eltb a b = false -> seq_ltb eeqb eltb b a = false -> a = b.
  Proof.
    induction a as [|x a IH]; intros b Hab Hba; destruct b as [|y b]; simpl in *;
      try reflexivity; try discriminate.
    destruct (eeqb x y) eqn:Exy.
    - apply eeqb_spec in Exy. subst y. rewrite eeqb_refl in Hba. f_equal. apply IH; assumption.
    - assert (eeqb y x = false) as Eyx.
      { apply eeqb_false. intros ->. rewrite eeqb_refl in Exy. discriminate. }
      rewrite Eyx in Hba. apply eeqb_false in Exy. exfalso. apply Exy. apply e_total; assumption.
  Qed.
End LexFacts.

Lemma xy_eqb_spec (a b : xyT) : xy_eqb a b = true <-> a = b.
Proof.
  destruct a as [ax ay], b as [bx by_]. unfold xy_eqb. simpl.
  rewrite andb_true_iff, !Z.eqb_eq. split; [intros [-> ->]; reflexivity|intros H; inversion H; auto].
Qed.
Lemma xy_ltb_irrefl a : xy_ltb a a = false.
Proof. unfold xy_ltb. rewrite Z.eqb_refl. simpl. apply Z.ltb_irrefl. Qed.
Lemma xy_ltb_trans a b c : xy_ltb a b = true -> xy_ltb b c = true -> xy_ltb a c = true.
Proof.
  destruct a as [ax ay], b as [bx by_], c as [cx cy]. unfold xy_ltb. simpl.
  destruct (Z.eqb_spec ax bx), (Z.eqb_spec bx cx), (Z.eqb_spec ax cx); simpl;
    rewrite ?Z.ltb_lt; lia.
Qed.
Lemma xy_ltb_total a b : xy_ltb a b = false -> xy_ltb b a = false -> a = b.
Proof.
  destruct a as [ax ay], b as [bx by_]. unfold xy_ltb. simpl.
  destruct (Z.eqb_spec ax bx), (Z.eqb_spec bx ax); simpl; rewrite ?Z.ltb_ge; intros; f_equal; lia.
Qed.

(* Sequence.less on XY sequences (seq_less_strict_total) *)
Lemma sq_ltb_irrefl s : sq_ltb s s = false.
Proof. apply seq_ltb_irrefl. exact xy_eqb_spec. Qed.
Lemma sq_ltb_trans a b c : sq_ltb a b = true -> sq_ltb b c = true -> sq_ltb a c = true.
Proof. apply seq_ltb_trans; [exact xy_eqb_spec|exact xy_ltb_irrefl|exact xy_ltb_trans]. Qed.
Lemma sq_ltb_total a b : sq_ltb a b = false -> sq_ltb b a = false -> a = b.
Proof. apply seq_ltb_total; [exact xy_eqb_spec|exact xy_ltb_total]. Qed.

(* ord_key is strictly monotone where the bit patterns are ordered as doubles: non-negative
   patterns ascend with the bits, negative patterns descend, and every negative is below every
   non-negative except that -0 and +0 coincide (as under Go's ==). *)
Lemma ord_key_nonneg_mono a b :
  (a < 9223372036854775808)%N -> (b < 9223372036854775808)%N -> (a < b)%N -> (ord_key a < ord_key b)%Z.
Proof.
  unfold ord_key. intros Ha Hb.
  destruct (N.ltb_spec a 9223372036854775808), (N.ltb_spec b 9223372036854775808); lia.
Qed.
Lemma ord_key_neg_antimono a b :
  (9223372036854775808 <= a)%N -> (9223372036854775808 <= b)%N -> (a < b)%N -> (ord_key b < ord_key a)%Z.
Proof.
  unfold ord_key. intros Ha Hb.
  destruct (N.ltb_spec a 9223372036854775808), (N.ltb_spec b 9223372036854775808); lia.
Qed.
Lemma ord_key_neg_le_nonneg a b :
  (9223372036854775808 <= a)%N -> (b < 9223372036854775808)%N -> (ord_key a <= ord_key b)%Z.
Proof.
  unfold ord_key. intros Ha Hb.
  destruct (N.ltb_spec a 9223372036854775808), (N.ltb_spec b 9223372036854775808); lia.
Qed.
Lemma ord_key_zeros : ord_key 0 = ord_key 9223372036854775808.
Proof. reflexivity. Qed.

(* ========================================================================================== *)
(* 3. Rotation of a ring to its least edge *)
Section Rotation.
  Variable A : Type.
  Variable ltb : A -> A -> bool.
  Hypothesis irrefl : forall x, ltb x x = false.
  Hypothesis trans : forall x y z, ltb x y = true -> ltb y z = true -> ltb x z = true.
  Hypothesis total : forall x y, ltb x y = false -> ltb y x = false -> x = y.

  (* the three reversals of rotateSeqs are a rotation *)
  Lemma rotate_right_spec k (l : list A) :
    rotate_right k l = skipn (length l - k) l ++ firstn (length l - k) l.
  Proof.
    unfold rotate_right.
    destruct (Nat.eqb_spec k 0) as [->|H0]; simpl.
    - rewrite Nat.sub_0_r, skipn_all, firstn_all. reflexivity.
    - destruct (Nat.eqb_spec k (length l)) as [->|Hn].
      + rewrite Nat.sub_diag. simpl. rewrite app_nil_r. reflexivity.
      + rewrite firstn_rev, skipn_rev, !rev_involutive. reflexivity.
  Qed.

  Lemma min_index_from_stay : forall (l : list A) i best bi,
    (forall y, In y l -> ltb y best = false) -> min_index_from ltb l i best bi = bi.
  Proof.
    induction l as [|y t IH]; intros i best bi H; simpl; [reflexivity|].
    rewrite (H y (or_introl eq_refl)). apply IH. intros z Hz. apply H. right. exact Hz.
  Qed.

  Lemma min_index_from_split : forall (pre : list A) x post i best bi,
    (forall y, In y pre -> ltb x y = true) -> ltb x best = true ->
    (forall y, In y post -> ltb y x = false) ->
    min_index_from ltb (pre ++ x :: post) i best bi = i + length pre.
  Proof.
    induction pre as [|y pre IH]; intros x post i best bi Hpre Hb Hpost; simpl.
    - rewrite Hb. rewrite min_index_from_stay by exact Hpost. lia.
    - assert (Hpre' : forall z, In z pre -> ltb x z = true) by (intros z Hz; apply Hpre; right; exact Hz).
      destruct (ltb y best).
      + rewrite IH; [lia|exact Hpre'|apply Hpre; left; reflexivity|exact Hpost].
      + rewrite IH; [lia|exact Hpre'|exact Hb|exact Hpost].
  Qed.

  Lemma min_index_split (pre : list A) x post :
    (forall y, In y pre -> ltb x y = true) -> (forall y, In y post -> ltb y x = false) ->
    min_index ltb (pre ++ x :: post) = length pre.
  Proof.
    intros Hpre Hpost. destruct pre as [|y pre]; simpl.
    - apply min_index_from_stay. exact Hpost.
    - rewrite min_index_from_split; [reflexivity| |apply Hpre; left; reflexivity|exact Hpost].
      intros z Hz. apply Hpre. right. exact Hz.
  Qed.

  (* the ring walk started anywhere ends up starting at the FIRST least element *)
  Lemma rotate_to_min_split (pre : list A) x post :
    (forall y, In y pre -> ltb x y = true) -> (forall y, In y post -> ltb y x = false) ->
    rotate_to_min ltb (pre ++ x :: post) = x :: post ++ pre.
  Proof.
    intros Hpre Hpost. unfold rotate_to_min. rewrite rotate_right_spec.
    rewrite min_index_split by assumption.
    replace (length (pre ++ x :: post) - (length (pre ++ x :: post) - length pre)) with (length pre)
      by (rewrite app_length; simpl; lia).
    rewrite skipn_app, firstn_app, Nat.sub_diag, skipn_all, firstn_all. simpl.
    rewrite app_nil_r. reflexivity.
  Qed.

  Lemma exists_min_split : forall l : list A, l <> [] ->
    exists pre x post, l = pre ++ x :: post /\
      (forall y, In y pre -> ltb x y = true) /\ (forall y, In y post -> ltb y x = false).
  Proof.
    induction l as [|a t IH]; intros Hne; [contradiction|].
    destruct t as [|b t'].
    - exists [], a, []. repeat split; intros y [].
    - destruct IH as (pre & x & post & El & Hpre & Hpost); [discriminate|].
      destruct (ltb x a) eqn:Exa.
      + exists (a :: pre), x, post. rewrite El. repeat split; [|exact Hpost].
        intros y [<-|Hy]; [exact Exa|apply Hpre; exact Hy].
      + exists [], a, (b :: t'). repeat split; [intros y []|].
        intros y Hy. rewrite El in Hy. apply in_app_or in Hy.
        assert (Hax : le A ltb a x) by exact Exa.
        destruct Hy as [Hy|[<-|Hy]].
        * apply (le_trans A ltb trans total a x y Hax). apply (lt_le A ltb irrefl trans). apply Hpre. exact Hy.
        * exact Exa.
        * apply (le_trans A ltb trans total a x y Hax). apply Hpost. exact Hy.
  Qed.

  (* when the members are pairwise different the least one is strictly least *)
  Lemma exists_strict_min_split (l : list A) : l <> [] -> NoDup l ->
    exists pre x post, l = pre ++ x :: post /\
      (forall y, In y pre -> ltb x y = true) /\ (forall y, In y post -> ltb x y = true).
  Proof.
    intros Hne Hnd. destruct (exists_min_split l Hne) as (pre & x & post & El & Hpre & Hpost).
    exists pre, x, post. repeat split; [exact El|exact Hpre|].
    intros y Hy. destruct (ltb x y) eqn:E; [reflexivity|exfalso].
    assert (x = y) by (apply total; [exact E|apply Hpost; exact Hy]). subst y.
    rewrite El in Hnd. apply NoDup_remove_2 in Hnd. apply Hnd. apply in_or_app. right. exact Hy.
  Qed.

  Lemma rot1_perm (l : list A) : Permutation (rot1 l) l.
  Proof. destruct l as [|a t]; simpl; [constructor|]. symmetry. apply Permutation_cons_append. Qed.

  Lemma rotate_to_min_rot1 (l : list A) : NoDup l -> rotate_to_min ltb (rot1 l) = rotate_to_min ltb l.
  Proof.
    intros Hnd. destruct l as [|a t]; [reflexivity|].
    destruct (exists_strict_min_split (a :: t)) as (pre & x & post & El & Hpre & Hpost); [discriminate|exact Hnd|].
    rewrite El at 2. rewrite (rotate_to_min_split pre x post Hpre)
      by (intros y Hy; apply (asym A ltb irrefl trans); apply Hpost; exact Hy).
    destruct pre as [|a' pre']; simpl in El; injection El as -> ->; simpl.
    - change (post ++ [x]) with (post ++ x :: []).
      rewrite rotate_to_min_split; [simpl; rewrite app_nil_r; reflexivity|exact Hpost|intros y []].
    - rewrite <- app_assoc. simpl.
      rewrite rotate_to_min_split.
      + rewrite <- app_assoc. reflexivity.
      + intros y Hy. apply Hpre. right. exact Hy.
      + intros y Hy. apply (asym A ltb irrefl trans). apply in_app_or in Hy. destruct Hy as [Hy|[<-|[]]].
        * apply Hpost. exact Hy.
        * apply Hpre. left. reflexivity.
  Qed.

  Lemma rotate_to_min_invariant_lemma : forall k (l : list A),
    NoDup l -> rotate_to_min ltb (rotn k l) = rotate_to_min ltb l.
  Proof.
    induction k as [|k IH]; intros l Hnd; simpl; [reflexivity|].
    rewrite IH by (eapply Permutation_NoDup; [symmetry; apply rot1_perm|exact Hnd]).
    apply rotate_to_min_rot1. exact Hnd.
  Qed.

  (* what holds without uniqueness: the result is a rotation of the input (same cyclic sequence)
     that starts at a least element *)
  Lemma rotate_to_min_is_rotation_lemma (l : list A) :
    exists k, k <= length l /\ rotate_to_min ltb l = skipn k l ++ firstn k l.
  Proof.
    unfold rotate_to_min. exists (length l - (length l - min_index ltb l)). split; [lia|].
    apply rotate_right_spec.
  Qed.
  Lemma rotate_to_min_head_least_lemma (l : list A) : l <> [] ->
    exists x rest, rotate_to_min ltb l = x :: rest /\ forall y, In y l -> ltb y x = false.
  Proof.
    intros Hne. destruct (exists_min_split l Hne) as (pre & x & post & El & Hpre & Hpost).
    exists x, (post ++ pre). split; [rewrite El; apply rotate_to_min_split; assumption|].
    intros y Hy. rewrite El in Hy. apply in_app_or in Hy. destruct Hy as [Hy|[<-|Hy]].
    - apply (asym A ltb irrefl trans). apply Hpre. exact Hy.
    - apply irrefl.
    - apply Hpost. exact Hy.
  Qed.

  Lemma rotn_skipn_firstn : forall k (l : list A), k <= length l -> rotn k l = skipn k l ++ firstn k l.
  Proof.
    induction k as [|k IH]; intros l Hk; simpl; [rewrite app_nil_r; reflexivity|].
    destruct l as [|a t]; [simpl in Hk; lia|]. simpl in Hk. simpl rot1.
    rewrite IH by (rewrite app_length; simpl; lia).
    rewrite skipn_app, firstn_app.
    replace (k - length t) with 0 by lia. simpl.
    rewrite app_nil_r, <- app_assoc. reflexivity.
  Qed.
End Rotation.

(* ========================================================================================== *)
(* 4. Edge orientation, ring ordering, and the extraction pipeline *)

Lemma orient_edge_rev_lemma (e : seqT) : orient_edge (rev e) = orient_edge e.
Proof.
  unfold orient_edge. rewrite rev_involutive.
  destruct (sq_ltb (rev e) e) eqn:E1, (sq_ltb e (rev e)) eqn:E2; try reflexivity.
  - pose proof (sq_ltb_trans _ _ _ E1 E2) as T. rewrite sq_ltb_irrefl in T. discriminate.
  - apply sq_ltb_total; assumption.
Qed.

Lemma orient_edge_canonical (e : seqT) : sq_ltb (rev (orient_edge e)) (orient_edge e) = false.
Proof.
  unfold orient_edge. destruct (sq_ltb (rev e) e) eqn:E1; [|exact E1].
  rewrite rev_involutive.
  destruct (sq_ltb e (rev e)) eqn:E2; [|reflexivity].
  pose proof (sq_ltb_trans _ _ _ E1 E2) as T. rewrite sq_ltb_irrefl in T. discriminate.
Qed.

Lemma Permutation_filter {X : Type} (f : X -> bool) (l l' : list X) :
  Permutation l l' -> Permutation (filter f l) (filter f l').
Proof.
  induction 1; simpl.
  - constructor.
  - destruct (f x); [constructor|]; assumption.
  - destruct (f x), (f y); try reflexivity. apply perm_swap.
  - etransitivity; eassumption.
Qed.

Section OrderRings.
  Variable A : Type.
  Variable ltb : A -> A -> bool.
  Variable ccw : A -> bool.
  Hypothesis irrefl : forall x, ltb x x = false.
  Hypothesis trans : forall x y z, ltb x y = true -> ltb y z = true -> ltb x z = true.
  Hypothesis total : forall x y, ltb x y = false -> ltb y x = false -> x = y.

  Lemma split_first_some (f : A -> bool) : forall (l : list A) pre x post,
    split_first f l = Some (pre, x, post) ->
    l = pre ++ x :: post /\ f x = true /\ filter f pre = [].
  Proof.
    induction l as [|a t IH]; intros pre x post H; simpl in H; [discriminate|].
    destruct (f a) eqn:Ea.
    - injection H as <- <- <-. repeat split. exact Ea.
    - destruct (split_first f t) as [[[p y] q]|] eqn:Es; [|discriminate].
      injection H as <- <- <-. destruct (IH p y q eq_refl) as (-> & Hy & Hp).
      repeat split; [exact Hy|]. simpl. rewrite Ea. exact Hp.
  Qed.
  Lemma split_first_none (f : A -> bool) : forall l : list A, split_first f l = None -> filter f l = [].
  Proof.
    induction l as [|a t IH]; intros H; simpl in *; [reflexivity|].
    destruct (f a); [discriminate|].
    destruct (split_first f t) as [[[p y] q]|]; [discriminate|]. apply IH. reflexivity.
  Qed.

  Lemma swap_first_ccw_perm (f : A -> bool) (l : list A) : Permutation (swap_first_ccw f l) l.
  Proof.
    unfold swap_first_ccw. destruct (split_first f l) as [[[pre x] post]|] eqn:Es; [|reflexivity].
    destruct pre as [|a pre]; [reflexivity|].
    apply split_first_some in Es. destruct Es as (-> & _ & _).
    simpl. etransitivity; [|apply perm_skip; apply Permutation_middle].
    etransitivity; [|apply perm_swap]. apply perm_skip.
    symmetry. apply Permutation_middle.
  Qed.

  (* the member moved to the front is the first one satisfying f *)
  Lemma swap_first_head (f : A -> bool) (l : list A) o :
    (exists x, In x l /\ f x = true) -> (forall x, f x = true -> x = o) ->
    exists rest, swap_first_ccw f l = o :: rest.
  Proof.
    intros (x & Hin & Hfx) Huniq. unfold swap_first_ccw.
    destruct (split_first f l) as [[[pre y] post]|] eqn:Es.
    - apply split_first_some in Es. destruct Es as (-> & Hy & _). apply Huniq in Hy. subst y.
      destruct pre as [|a pre]; eexists; reflexivity.
    - apply split_first_none in Es.
      assert (In x (filter f l)) by (apply filter_In; split; assumption). rewrite Es in H. contradiction.
  Qed.

  Lemma fold_min_spec : forall (t : list A) x,
    let m := fold_left (fun b y => if ltb y b then y else b) t x in
    (m = x \/ In m t) /\ le A ltb m x /\ (forall y, In y t -> le A ltb m y).
  Proof.
    induction t as [|y t IH]; intros x; simpl.
    - repeat split; [left; reflexivity|apply irrefl|intros y []].
    - destruct (IH (if ltb y x then y else x)) as (Hin & Hle & Hall).
      set (m := fold_left (fun b y0 => if ltb y0 b then y0 else b) t (if ltb y x then y else x)) in *.
      destruct (ltb y x) eqn:E.
      + repeat split.
        * destruct Hin as [->|Hin]; [right; left; reflexivity|right; right; exact Hin].
        * apply (le_trans A ltb trans total m y x Hle). apply (lt_le A ltb irrefl trans). exact E.
        * intros z [<-|Hz]; [exact Hle|apply Hall; exact Hz].
      + repeat split.
        * destruct Hin as [->|Hin]; [left; reflexivity|right; right; exact Hin].
        * exact Hle.
        * intros z [Hz|Hz]; [|apply Hall; exact Hz]. subst z.
          apply (le_trans A ltb trans total m x y Hle). exact E.
  Qed.

  Lemma least_spec (l : list A) o : least ltb l = Some o -> In o l /\ forall y, In y l -> le A ltb o y.
  Proof.
    destruct l as [|x t]; simpl; [discriminate|]. intros H. injection H as <-.
    destruct (fold_min_spec t x) as (Hin & Hle & Hall). split.
    - destruct Hin as [->|Hin]; [left; reflexivity|right; exact Hin].
    - intros y [<-|Hy]; [exact Hle|apply Hall; exact Hy].
  Qed.

  Lemma least_perm (l l' : list A) : Permutation l l' -> least ltb l = least ltb l'.
  Proof.
    intros P. destruct (least ltb l) as [o|] eqn:E, (least ltb l') as [o'|] eqn:E'.
    - destruct (least_spec l o E) as [Hin Hall]. destruct (least_spec l' o' E') as [Hin' Hall'].
      f_equal. apply (le_antisym A ltb total).
      + apply Hall. eapply Permutation_in; [symmetry; exact P|exact Hin'].
      + apply Hall'. eapply Permutation_in; [exact P|exact Hin].
    - destruct l' as [|x t]; [|discriminate]. apply Permutation_sym, Permutation_nil in P. subst. discriminate.
    - destruct l as [|x t]; [|discriminate]. apply Permutation_nil in P. subst. discriminate.
    - reflexivity.
  Qed.

  Lemma same_spec o x : same ltb o x = true <-> x = o.
  Proof.
    unfold same. rewrite andb_true_iff, !negb_true_iff. split.
    - intros [H1 H2]. apply total; assumption.
    - intros ->. split; apply irrefl.
  Qed.

  Lemma candidates_incl l x : In x (candidates ccw l) -> In x l.
  Proof.
    unfold candidates. destruct (filter ccw l) as [|c t] eqn:E; [auto|]. rewrite <- E. intros H. apply filter_In in H. tauto.
  Qed.

  Lemma order_rings_spec l o : least ltb (candidates ccw l) = Some o ->
    exists rest, order_rings ltb ccw l = Some (o :: isort ltb rest) /\ Permutation (o :: rest) l.
  Proof.
    intros E. unfold order_rings. rewrite E. destruct (least_spec _ o E) as [Hin _].
    destruct (swap_first_head (same ltb o) l o) as (rest & Er).
    - exists o. split; [apply candidates_incl, Hin|apply same_spec; reflexivity].
    - intros x. apply same_spec.
    - exists rest. rewrite Er. split; [reflexivity|]. rewrite <- Er. apply swap_first_ccw_perm.
  Qed.

  (* outer ring first, then the holes in sorted order: independent of the discovery order of the
     rings - with the choice of the outer ring made by fix F141 (the least counter-clockwise ring) no
     hypothesis on the rings is needed *)
  Lemma order_rings_perm_invariant_lemma (l l' : list A) :
    Permutation l l' -> order_rings ltb ccw l = order_rings ltb ccw l'.
  Proof.
    intros P.
    assert (Pc : Permutation (candidates ccw l) (candidates ccw l')).
    { pose proof (Permutation_filter ccw l l' P) as Pf. unfold candidates.
      destruct (filter ccw l) as [|c t], (filter ccw l') as [|c' t']; [exact P| | |exact Pf].
      - apply Permutation_nil in Pf. discriminate.
      - apply Permutation_sym, Permutation_nil in Pf. discriminate. }
    pose proof (least_perm _ _ Pc) as El.
    destruct (least ltb (candidates ccw l)) as [o|] eqn:E; [|unfold order_rings; rewrite E, <- El; reflexivity].
    destruct (order_rings_spec l o E) as (r & -> & Pr). destruct (order_rings_spec l' o (eq_sym El)) as (r' & -> & Pr').
    f_equal. f_equal. apply (isort_perm_invariant_lemma A ltb irrefl trans total).
    apply Permutation_cons_inv with (a := o). rewrite Pr, Pr'. exact P.
  Qed.

  (* ... and the first member of the result is the least counter-clockwise ring when there is one *)
  Lemma order_rings_head_lemma (l : list A) o rest :
    order_rings ltb ccw l = Some (o :: rest) ->
    (filter ccw l <> [] -> ccw o = true /\ forall y, In y l -> ccw y = true -> le A ltb o y) /\
    Permutation (o :: rest) l.
  Proof.
    intros H. destruct (least ltb (candidates ccw l)) as [m|] eqn:E; [|unfold order_rings in H; rewrite E in H; discriminate].
    destruct (order_rings_spec l m E) as (r & Eo & Pr). rewrite Eo in H. injection H as <- <-.
    destruct (least_spec _ m E) as [Hin Hall]. split.
    - intros Hne. unfold candidates in Hin, Hall. destruct (filter ccw l) as [|c t] eqn:Ef; [contradiction|].
      rewrite <- Ef in Hin, Hall. split.
      + apply filter_In in Hin. tauto.
      + intros y Hy Hc. apply Hall. apply filter_In. split; assumption.
    - rewrite <- Pr. apply perm_skip, (isort_perm A ltb).
  Qed.
End OrderRings.

(* ---- the pipeline ---- *)
Definition cycle_equiv (c c' : list seqT) : Prop := exists k, c' = rotn k c.
Definition cell_equiv (cell cell' : list (list seqT)) : Prop :=
  exists mid, Forall2 cycle_equiv cell mid /\ Permutation mid cell'.
Definition cells_equiv (cells cells' : list (list (list seqT))) : Prop :=
  exists mid, Forall2 cell_equiv cells mid /\ Permutation mid cells'.
Definition edge_equiv (e e' : seqT) : Prop := e' = e \/ e' = rev e.
Definition edges_equiv (es es' : list seqT) : Prop :=
  exists mid, Forall2 edge_equiv es mid /\ Permutation mid es'.

Lemma canon_ring_rotn k (c : list seqT) : NoDup c -> canon_ring (rotn k c) = canon_ring c.
Proof.
  intros H. unfold canon_ring. f_equal.
  apply (rotate_to_min_invariant_lemma seqT sq_ltb sq_ltb_irrefl sq_ltb_trans sq_ltb_total). exact H.
Qed.

Lemma map_canon_ring_equiv : forall cell mid,
  Forall (@NoDup seqT) cell -> Forall2 cycle_equiv cell mid -> map canon_ring cell = map canon_ring mid.
Proof.
  intros cell mid Hnd H. induction H as [|c c' t t' Hc Ht IH]; [reflexivity|].
  inversion Hnd; subst. simpl. f_equal; [|apply IH; assumption].
  destruct Hc as [k ->]. symmetry. apply canon_ring_rotn. assumption.
Qed.

(* a polygon's ring list does not depend on where each ring walk started nor on the order in
   which the rings were discovered *)
Lemma canon_poly_invariant_lemma (ccw : seqT -> bool) cell cell' :
  Forall (@NoDup seqT) cell ->
  cell_equiv cell cell' -> canon_poly ccw cell = canon_poly ccw cell'.
Proof.
  intros Hnd (mid & Hm & P). unfold canon_poly.
  apply (order_rings_perm_invariant_lemma seqT sq_ltb ccw sq_ltb_irrefl sq_ltb_trans sq_ltb_total).
  rewrite (map_canon_ring_equiv cell mid Hnd Hm). apply Permutation_map. exact P.
Qed.

Definition cell_ok (cell : list (list seqT)) : Prop := Forall (@NoDup seqT) cell.

Lemma canon_cells_pointwise (ccw : seqT -> bool) : forall cells mid,
  Forall cell_ok cells -> Forall2 cell_equiv cells mid -> canon_cells ccw cells = canon_cells ccw mid.
Proof.
  intros cells mid Hok H. induction H as [|c c' t t' Hc Ht IH]; [reflexivity|].
  inversion Hok as [|? ? Hnd Hok']; subst. simpl.
  rewrite (canon_poly_invariant_lemma ccw c c' Hnd Hc), (IH Hok'). reflexivity.
Qed.

Lemma canon_cells_perm (ccw : seqT -> bool) : forall cells cells',
  Permutation cells cells' ->
  match canon_cells ccw cells, canon_cells ccw cells' with
  | Some ps, Some ps' => Permutation ps ps'
  | None, None => True
  | _, _ => False
  end.
Proof.
  induction 1 as [|c t t' P IH|c d t|a b c P1 IH1 P2 IH2]; simpl.
  - constructor.
  - destruct (canon_poly ccw c), (canon_cells ccw t), (canon_cells ccw t'); try exact I; try contradiction.
    constructor. exact IH.
  - destruct (canon_poly ccw c), (canon_poly ccw d), (canon_cells ccw t); try exact I. apply perm_swap.
  - destruct (canon_cells ccw a), (canon_cells ccw b), (canon_cells ccw c); try exact I; try contradiction.
    etransitivity; eassumption.
Qed.

Lemma canon_lines_invariant_lemma es es' : edges_equiv es es' -> canon_lines es = canon_lines es'.
Proof.
  intros (mid & Hm & P). unfold canon_lines.
  apply (isort_perm_invariant_lemma seqT sq_ltb sq_ltb_irrefl sq_ltb_trans sq_ltb_total).
  assert (E : map orient_edge es = map orient_edge mid).
  { clear P. induction Hm as [|e e' t t' He Ht IH]; [reflexivity|]. simpl. f_equal; [|exact IH].
    destruct He as [->| ->]; [reflexivity|]. symmetry. apply orient_edge_rev_lemma. }
  rewrite E. apply Permutation_map. exact P.
Qed.

Lemma canon_points_invariant_lemma ps ps' : Permutation ps ps' -> canon_points ps = canon_points ps'.
Proof. apply (isort_perm_invariant_lemma xyT xy_ltb xy_ltb_irrefl xy_ltb_trans xy_ltb_total). Qed.

(* the whole extraction: whatever order the runtime delivers faces, rings, ring starts, half
   edges (either twin first) and vertices in, the extracted members come out the same *)
Lemma canon_perm_invariant_lemma (ccw : seqT -> bool) cells cells' es es' ps ps' :
  Forall cell_ok cells ->
  (forall polys, canon_cells ccw cells = Some polys ->
     forall p q, In p polys -> In q polys -> ext_ring p = ext_ring q -> p = q) ->
  cells_equiv cells cells' -> edges_equiv es es' -> Permutation ps ps' ->
  canon ccw cells es ps = canon ccw cells' es' ps'.
Proof.
  intros Hok Hinj (mid & Hm & P) He Hp. unfold canon, canon_polys.
  rewrite (canon_cells_pointwise ccw cells mid Hok Hm) in *.
  pose proof (canon_cells_perm ccw mid cells' P) as Hc.
  destruct (canon_cells ccw mid) as [polys|], (canon_cells ccw cells') as [polys'|]; try contradiction; [|reflexivity].
  rewrite (canon_lines_invariant_lemma es es' He), (canon_points_invariant_lemma ps ps' Hp).
  rewrite (isort_by_perm_invariant_lemma (list seqT) seqT sq_ltb ext_ring sq_ltb_irrefl sq_ltb_trans sq_ltb_total polys polys'
             (Hinj polys eq_refl) Hc).
  reflexivity.
Qed.

(* ========================================================================================== *)
(* 5. Folds performed while ranging over maps *)

(* a fold whose steps commute gives the same result for every order of the members *)
Lemma fold_left_perm_lemma {S X : Type} (f : S -> X -> S) :
  (forall s x y, f (f s x) y = f (f s y) x) ->
  forall l l', Permutation l l' -> forall s, fold_left f l s = fold_left f l' s.
Proof.
  intros Hc l l' P. induction P as [|x t t' P IH|x y t|a b c P1 IH1 P2 IH2]; intros s; simpl.
  - reflexivity.
  - apply IH.
  - rewrite Hc. reflexivity.
  - rewrite IH1. apply IH2.
Qed.

(* the usual instance: a commutative, associative operation (max of dimensions, boolean or, ...) *)
Lemma fold_op_order_free_lemma {X : Type} (op : X -> X -> X) :
  (forall a b, op a b = op b a) -> (forall a b c, op a (op b c) = op (op a b) c) ->
  forall l l', Permutation l l' -> forall s, fold_left op l s = fold_left op l' s.
Proof.
  intros Hcomm Hassoc. apply fold_left_perm_lemma. intros s x y.
  rewrite <- !Hassoc. f_equal. apply Hcomm.
Qed.

Lemma upd_comm_same : forall m i j v, upd i v (upd j v m) = upd j v (upd i v m).
Proof.
  induction m as [|x t IH]; intros i j v; [destruct i, j; reflexivity|].
  destruct i, j; simpl; try reflexivity. f_equal. apply IH.
Qed.

Lemma im_phase_perm v cells cells' m : Permutation cells cells' -> im_phase v cells m = im_phase v cells' m.
Proof.
  intros P. unfold im_phase. apply fold_left_perm_lemma; [|exact P].
  intros s x y. apply upd_comm_same.
Qed.

Lemma intersection_matrix_order_free_lemma vs vs' es es' fs fs' :
  Permutation vs vs' -> Permutation es es' -> Permutation fs fs' ->
  extract_im vs es fs = extract_im vs' es' fs'.
Proof.
  intros Pv Pe Pf. unfold extract_im.
  rewrite (im_phase_perm 0 vs vs' _ Pv), (im_phase_perm 1 es es' _ Pe), (im_phase_perm 2 fs fs' _ Pf).
  reflexivity.
Qed.

(* ... and it is the max-by-dimension matrix *)
Lemma upd_length : forall m i v, length (upd i v m) = length m.
Proof. induction m; intros [|i] v; simpl; auto. Qed.
Lemma nth_upd : forall m i j v d, i < length m ->
  nth j (upd i v m) d = if j =? i then v else nth j m d.
Proof.
  induction m as [|x t IH]; intros i j v d Hi; simpl in Hi; [lia|].
  destruct i, j; simpl; try reflexivity. apply IH. lia.
Qed.
Lemma nth_im_phase v d : forall cells m j,
  (forall c, In c cells -> im_index c < length m) ->
  nth j (im_phase v cells m) d = if existsb (fun c => j =? im_index c) cells then v else nth j m d.
Proof.
  unfold im_phase. induction cells as [|c t IH]; intros m j H; simpl; [reflexivity|].
  rewrite IH by (intros c' Hc'; rewrite upd_length; apply H; right; exact Hc').
  rewrite nth_upd by (apply H; left; reflexivity).
  destruct (j =? im_index c); simpl; [destruct (existsb _ t); reflexivity|reflexivity].
Qed.
Definition loc_ok (c : nat * nat) : Prop := fst c < 3 /\ snd c < 3.
Lemma im_index_inj c d : loc_ok c -> loc_ok d -> (im_index c =? im_index d) = ((fst c =? fst d) && (snd c =? snd d)).
Proof.
  unfold loc_ok, im_index. intros [H1 H2] [H3 H4].
  destruct (Nat.eqb_spec (fst c) (fst d)), (Nat.eqb_spec (snd c) (snd d)); simpl;
    apply Nat.eqb_neq || apply Nat.eqb_eq; lia.
Qed.
Lemma existsb_index_mem c cells : loc_ok c -> Forall loc_ok cells ->
  existsb (fun d => im_index c =? im_index d) cells = mem_loc c cells.
Proof.
  intros Hc H. unfold mem_loc. induction H as [|d t Hd Ht IH]; simpl; [reflexivity|].
  rewrite IH, im_index_inj by assumption. reflexivity.
Qed.
Lemma extract_im_is_max_lemma vs es fs c :
  Forall loc_ok vs -> Forall loc_ok es -> Forall loc_ok fs -> loc_ok c ->
  nth (im_index c) (extract_im vs es fs) (-1)%Z = im_spec_entry vs es fs c.
Proof.
  intros Hv He Hf Hc. unfold extract_im, im_spec_entry.
  assert (L : forall l, Forall loc_ok l -> forall m : list Z, length m = 9 -> forall c0, In c0 l -> im_index c0 < length m).
  { intros l Hl m Hm c0 Hin. rewrite Forall_forall in Hl. destruct (Hl c0 Hin) as [A1 A2].
    unfold im_index. lia. }
  assert (len : forall v cells m, length (im_phase v cells m) = length m).
  { unfold im_phase. intros v cells. induction cells as [|x t IH]; intros m; simpl; [reflexivity|].
    rewrite IH. apply upd_length. }
  rewrite nth_im_phase by (apply (L fs Hf); rewrite !len; reflexivity).
  rewrite nth_im_phase by (apply (L es He); rewrite !len; reflexivity).
  rewrite nth_im_phase by (apply (L vs Hv); reflexivity).
  rewrite !existsb_index_mem by assumption.
  destruct (mem_loc c fs), (mem_loc c es), (mem_loc c vs); try reflexivity;
    destruct Hc as [A1 A2]; unfold im_index, new_matrix;
    destruct c as [[|[|[|a]]] [|[|[|b]]]]; simpl in *; try reflexivity; lia.
Qed.

(* the arbitrary incident-edge pick of vertexRecord.location is harmless exactly when all
   incident edges agree *)
Lemma pick_location_order_free_lemma (l l' : list nat) :
  (forall x y, In x l -> In y l -> x = y) -> Permutation l l' -> pick_location l = pick_location l'.
Proof.
  intros Hall P. destruct l as [|a t], l' as [|b t']; simpl; try reflexivity.
  - apply Permutation_nil in P. discriminate.
  - apply Permutation_sym, Permutation_nil in P. discriminate.
  - f_equal. apply Hall; [left; reflexivity|]. eapply Permutation_in; [symmetry; exact P|left; reflexivity].
Qed.

(* ---- populateInSetLabels ---- *)
Section LabelFacts.
  Variable origin : nat -> nat.
  Variable prev : nat -> nat.
  Variable lbl : nat -> bool.

  Lemma labels_fold_inv : forall order done vl,
    let st' := fold_left (label_step origin prev lbl) order (done, vl) in
    (forall v, vl v = true -> snd st' v = true) /\
    (forall e, In e order -> lbl e = true -> snd st' (origin e) = true) /\
    (forall v, snd st' v = true ->
       vl v = true \/ exists e, In e order /\ origin e = v /\ (lbl e = true \/ lbl (prev e) = true)).
  Proof.
    induction order as [|e t IH]; intros done vl; simpl.
    - repeat split; auto; intros e [].
    - specialize (IH (e :: done)
        (fun v => if v =? origin e then vl v || lbl e || (memb (prev e) (e :: done) && lbl (prev e)) else vl v)).
      simpl in IH. destruct IH as (M & B & C). unfold label_step at 2. simpl. repeat split.
      + intros v Hv. apply M. destruct (v =? origin e); [rewrite Hv; reflexivity|exact Hv].
      + intros e' [<-|He'] Hl.
        * apply M. rewrite Nat.eqb_refl, Hl, orb_true_r. reflexivity.
        * apply B; assumption.
      + intros v Hv. destruct (C v Hv) as [H|(e' & He' & Ho & Hl)].
        * destruct (Nat.eqb_spec v (origin e)) as [->|Hne]; [|left; exact H].
          apply orb_true_iff in H. destruct H as [H|H].
          -- apply orb_true_iff in H. destruct H as [H|H]; [left; exact H|].
             right. exists e. repeat split; auto.
          -- apply andb_true_iff in H. destruct H as [_ H]. right. exists e. repeat split; auto.
        * right. exists e'. repeat split; auto.
  Qed.

  Lemma labels_spec_true src order v :
    labels_spec origin lbl src order v = true <->
    src v = true \/ exists e, In e order /\ origin e = v /\ lbl e = true.
  Proof.
    unfold labels_spec. rewrite orb_true_iff, existsb_exists. split; intros [H|H]; auto; right.
    - destruct H as (e & He & H). apply andb_true_iff in H. destruct H as [H1 H2].
      apply Nat.eqb_eq in H1. exists e. auto.
    - destruct H as (e & He & Ho & Hl). exists e. split; [exact He|].
      rewrite Hl, andb_true_r. apply Nat.eqb_eq. exact Ho.
  Qed.

  (* DCEL facts used: e.prev ends at e.origin, so its twin leaves e.origin (fixVertex sets
     ei.prev = ej.twin for ej leaving the same vertex), and twins carry the same label
     (srcEdge is set on both, and the two incident faces are the same two faces). Hence: *)
  Definition prev_subsumed (order : list nat) : Prop :=
    forall e, In e order -> lbl (prev e) = true ->
      exists e', In e' order /\ origin e' = origin e /\ lbl e' = true.

  Lemma populate_labels_spec_lemma src order :
    prev_subsumed order ->
    forall v, populate_labels origin prev lbl src order v = labels_spec origin lbl src order v.
  Proof.
    intros Hsub v. unfold populate_labels.
    destruct (labels_fold_inv order [] src) as (M & B & C).
    apply Bool.eq_iff_eq_true. rewrite labels_spec_true. split.
    - intros H. destruct (C v H) as [Hs|(e & He & Ho & [Hl|Hl])]; [left; exact Hs| |].
      + right. exists e. auto.
      + right. destruct (Hsub e He Hl) as (e' & He' & Ho' & Hl'). exists e'. repeat split; congruence.
    - intros [Hs|(e & He & Ho & Hl)]; [apply M; exact Hs|]. subst v. apply B; assumption.
  Qed.

  Lemma populate_labels_order_free_lemma src order order' :
    prev_subsumed order -> Permutation order order' ->
    forall v, populate_labels origin prev lbl src order v = populate_labels origin prev lbl src order' v.
  Proof.
    intros Hsub P v.
    assert (Hsub' : prev_subsumed order').
    { intros e He Hl. destruct (Hsub e (Permutation_in _ (Permutation_sym P) He) Hl) as (e' & He' & H).
      exists e'. split; [eapply Permutation_in; eassumption|exact H]. }
    rewrite !populate_labels_spec_lemma by assumption.
    apply Bool.eq_iff_eq_true. rewrite !labels_spec_true.
    split; (intros [H|(e & He & H)]; [left; exact H|right; exists e; split; [|exact H]]).
    - eapply Permutation_in; eassumption.
    - eapply Permutation_in; [symmetry; exact P|exact He].
  Qed.
End LabelFacts.

(* ========================================================================================== *)
(* 6. Histories of a pure model *)
Section HistoryFacts.
  Variables (store call result : Type).

  Lemma run_event (sem : store -> call -> result) : forall cs s c r st,
    In (c, r, st) (run sem s cs) -> r = sem s c /\ st = s.
  Proof.
    induction cs as [|c0 t IH]; intros s c r st H; simpl in H; [contradiction|].
    destruct H as [H|H]; [injection H as <- <- <-; split; reflexivity|]. apply IH. exact H.
  Qed.

  (* operands after = operands before, for every history *)
  Lemma history_operands_unchanged_lemma (sem : store -> call -> result) s cs :
    Forall (fun ev => snd ev = s) (run sem s cs).
  Proof.
    apply Forall_forall. intros [[c r] st] H. simpl. apply (run_event sem cs s c r st H).
  Qed.

  (* equal calls at any two positions of a history return equal results *)
  Lemma history_equal_calls_equal_results_lemma (sem : store -> call -> result) s cs i j c r st c' r' st' :
    nth_error (run sem s cs) i = Some (c, r, st) -> nth_error (run sem s cs) j = Some (c', r', st') ->
    c = c' -> r = r'.
  Proof.
    intros Hi Hj ->. apply nth_error_In in Hi, Hj.
    destruct (run_event sem cs s _ _ _ Hi) as [-> _]. destruct (run_event sem cs s _ _ _ Hj) as [-> _].
    reflexivity.
  Qed.

  Lemma run_of_pointwise (sem : store -> call -> result) s0 : forall evs,
    (forall c r s, In (c, r, s) evs -> s = s0 /\ r = sem s0 c) ->
    evs = run sem s0 (map (fun ev => fst (fst ev)) evs).
  Proof.
    induction evs as [|[[c r] s] t IH]; intros H; simpl; [reflexivity|].
    destruct (H c r s (or_introl eq_refl)) as [-> ->]. f_equal. apply IH.
    intros c' r' s' Hin. apply H. right. exact Hin.
  Qed.

  Variable store_eqb : store -> store -> bool.
  Variable call_eqb : call -> call -> bool.
  Variable result_eqb : result -> result -> bool.
  Hypothesis store_eqb_spec : forall x y, store_eqb x y = true <-> x = y.
  Hypothesis call_eqb_spec : forall x y, call_eqb x y = true <-> x = y.
  Hypothesis result_eqb_spec : forall x y, result_eqb x y = true <-> x = y.

  Fixpoint final_memo (memo : list (call * result)) (evs : list (call * result * store)) : list (call * result) :=
    match evs with
    | [] => memo
    | (c, r, _) :: t => match lookup call_eqb c memo with
                        | Some _ => final_memo memo t
                        | None => final_memo ((c, r) :: memo) t
                        end
    end.

  Lemma lookup_persist : forall evs memo c r,
    lookup call_eqb c memo = Some r -> lookup call_eqb c (final_memo memo evs) = Some r.
  Proof.
    induction evs as [|[[c0 r0] s0] t IH]; intros memo c r H; simpl; [exact H|].
    destruct (lookup call_eqb c0 memo) eqn:E; [apply IH; exact H|].
    apply IH. simpl. destruct (call_eqb c c0) eqn:Ec; [|exact H].
    apply call_eqb_spec in Ec. subst c0. congruence.
  Qed.

  Lemma first_bad_none_sound : forall evs s0 memo i,
    first_bad store_eqb call_eqb result_eqb s0 memo i evs = None ->
    forall c r s, In (c, r, s) evs -> s = s0 /\ lookup call_eqb c (final_memo memo evs) = Some r.
  Proof.
    induction evs as [|[[c0 r0] st0] t IH]; intros s0 memo i H c r s Hin; simpl in *; [contradiction|].
    destruct (store_eqb st0 s0) eqn:Es; simpl in H; [|discriminate].
    apply store_eqb_spec in Es. subst st0.
    destruct (lookup call_eqb c0 memo) as [r'|] eqn:El.
    - destruct (result_eqb r0 r') eqn:Er; [|discriminate]. apply result_eqb_spec in Er. subst r'.
      destruct Hin as [Hin|Hin]; [|eapply IH; eassumption].
      injection Hin as <- <- <-. split; [reflexivity|]. apply lookup_persist. exact El.
    - destruct Hin as [Hin|Hin]; [|eapply IH; eassumption].
      injection Hin as <- <- <-. split; [reflexivity|]. apply lookup_persist. simpl.
      rewrite (proj2 (call_eqb_spec c0 c0) eq_refl). reflexivity.
  Qed.

  Lemma first_bad_none_complete (f : call -> result) : forall evs s0 memo i,
    (forall c r s, In (c, r, s) evs -> s = s0 /\ r = f c) ->
    (forall c r, lookup call_eqb c memo = Some r -> r = f c) ->
    first_bad store_eqb call_eqb result_eqb s0 memo i evs = None.
  Proof.
    induction evs as [|[[c0 r0] st0] t IH]; intros s0 memo i H Hm; simpl; [reflexivity|].
    destruct (H c0 r0 st0 (or_introl eq_refl)) as [-> ->].
    rewrite (proj2 (store_eqb_spec s0 s0) eq_refl). simpl.
    assert (Ht : forall c r s, In (c, r, s) t -> s = s0 /\ r = f c) by (intros; apply H; right; assumption).
    destruct (lookup call_eqb c0 memo) as [r'|] eqn:El.
    - rewrite (Hm c0 r' El), (proj2 (result_eqb_spec _ _) eq_refl). apply IH; assumption.
    - apply IH; [exact Ht|]. intros c r Hl. simpl in Hl.
      destruct (call_eqb c c0) eqn:Ec; [|apply Hm; exact Hl].
      apply call_eqb_spec in Ec. subst c. congruence.
  Qed.

  (* The harness check has a meaning: an observed history passes iff some pure function of the
     (unchanging) operand store and the call produces exactly that history. *)
  Lemma history_ok_iff_explainable_lemma (r0 : result) s0 evs :
    history_ok store_eqb call_eqb result_eqb s0 evs = true <->
    exists sem : store -> call -> result, evs = run sem s0 (map (fun ev => fst (fst ev)) evs).
  Proof.
    unfold history_ok. split.
    - destruct (first_bad store_eqb call_eqb result_eqb s0 [] 0 evs) eqn:E; [discriminate|]. intros _.
      exists (fun _ c => match lookup call_eqb c (final_memo [] evs) with Some r => r | None => r0 end).
      apply run_of_pointwise. intros c r s Hin.
      destruct (first_bad_none_sound evs s0 [] 0 E c r s Hin) as [-> Hl]. split; [reflexivity|].
      rewrite Hl. reflexivity.
    - intros [sem Hrun].
      rewrite (first_bad_none_complete (sem s0) evs s0 [] 0); [reflexivity| |intros c r H; discriminate].
      intros c r s Hin. rewrite Hrun in Hin.
      destruct (run_event sem _ s0 c r s Hin) as [-> ->]. split; reflexivity.
  Qed.
End HistoryFacts.

(* ========================================================================================== *)
(* 7. radialLess is a strict total order on Z^2 (the zero vector included); fixVertex *)
Local Open Scope Z_scope.
(* radialLess is the lexicographic order on (sector, angle, length).  The sectors, in the order it visits
   them: the negative y axis, the origin, the open right half plane, the positive y axis, the open left
   half plane. *)
Definition sector (x y : Z) : Z :=
  if x <? 0 then 4 else if 0 <? x then 2 else if y <? 0 then 0 else if 0 <? y then 3 else 1.
Definition ang (x1 y1 x2 y2 : Z) : Prop :=
  x1 * y2 - y1 * x2 > 0 \/ (x1 * y2 - y1 * x2 = 0 /\ x1 * x1 + y1 * y1 < x2 * x2 + y2 * y2).
Inductive sector_spec (x y : Z) : Z -> Prop :=
| sec_down : x = 0 -> y < 0 -> sector_spec x y 0
| sec_origin : x = 0 -> y = 0 -> sector_spec x y 1
| sec_right : 0 < x -> sector_spec x y 2
| sec_up : x = 0 -> 0 < y -> sector_spec x y 3
| sec_left : x < 0 -> sector_spec x y 4.
Lemma sectorP x y : sector_spec x y (sector x y).
Proof.
  unfold sector. destruct x as [|p|p]; cbn; [|constructor; lia..].
  destruct y as [|p|p]; constructor; lia.
Qed.

Lemma if_bool (c a b : bool) : (if c then a else b) = c && a || negb c && b.
Proof. destruct c, a; reflexivity. Qed.

(* written with && and || the tests of radialLess are read by lia; in each pair of sectors they are decided
   by the signs, except on the y axis, where y1 < y2 is compared with y1 * y1 < y2 * y2 *)
Lemma radial_ltb_sector x1 y1 x2 y2 :
  radial_ltb (x1, y1) (x2, y2) = true <->
  sector x1 y1 < sector x2 y2 \/ (sector x1 y1 = sector x2 y2 /\ ang x1 y1 x2 y2).
Proof.
  unfold radial_ltb, ang. rewrite !if_bool.
  destruct (sectorP x1 y1), (sectorP x2 y2); subst; try lia; nia.
Qed.

(* within a sector the angular order is transitive: in an open half plane by
   x2 det(1,3) = x3 det(1,2) + x1 det(2,3) with x1, x2, x3 of one sign; on the y axis det vanishes *)
Lemma ang_trans x1 y1 x2 y2 x3 y3 :
  sector x1 y1 = sector x2 y2 -> sector x2 y2 = sector x3 y3 ->
  ang x1 y1 x2 y2 -> ang x2 y2 x3 y3 -> ang x1 y1 x3 y3.
Proof.
  unfold ang.
  assert (I : (x1*y3 - y1*x3)*x2 = (x1*y2 - y1*x2)*x3 + (x2*y3 - y2*x3)*x1) by ring.
  remember (x1*y2 - y1*x2) as d12. remember (x2*y3 - y2*x3) as d23. remember (x1*y3 - y1*x3) as d13.
  intros S12 S23 H12 H23.
  destruct (sectorP x1 y1), (sectorP x2 y2); try discriminate S12;
    destruct (sectorP x3 y3); try discriminate S23; subst; try lia; nia.
Qed.

Lemma parallel_same_length x1 y1 x2 y2 :
  x1*y2 - y1*x2 = 0 -> x1*x1+y1*y1 = x2*x2+y2*y2 -> x1 * x2 > 0 -> x1 = x2 /\ y1 = y2.
Proof.
  intros D L S.
  assert (I : (x1*x1+y1*y1) * (x2*x2) = x1*x1*(x2*x2+y2*y2) + (x1*y2 - y1*x2) * (- (x1*y2) - y1*x2)) by ring.
  rewrite D, Z.mul_0_l, Z.add_0_r, <- L in I.
  assert (E : (x1*x1+y1*y1) * (x2*x2 - x1*x1) = 0) by lia.
  apply Z.mul_eq_0 in E. destruct E as [E|E]; [nia|].
  assert (F : (x2 - x1) * (x2 + x1) = 0) by lia.
  apply Z.mul_eq_0 in F. destruct F as [F|F]; [|nia].
  assert (x1 = x2) by lia. subst x2. split; [reflexivity|].
  assert (G : x1 * (y2 - y1) = 0) by lia. apply Z.mul_eq_0 in G. destruct G; [nia|lia].
Qed.

Lemma radial_ltb_irrefl a : radial_ltb a a = false.
Proof. destruct a as [x y]. apply not_true_iff_false. rewrite radial_ltb_sector. unfold ang. lia. Qed.
Lemma radial_ltb_trans a b c : radial_ltb a b = true -> radial_ltb b c = true -> radial_ltb a c = true.
Proof.
  destruct a as [x1 y1], b as [x2 y2], c as [x3 y3]. rewrite !radial_ltb_sector.
  intros [L12|[E12 A12]] [L23|[E23 A23]]; try (left; lia).
  right. split; [lia|]. exact (ang_trans _ _ _ _ _ _ E12 E23 A12 A23).
Qed.
(* neither before the other: same sector, parallel, same length *)
Lemma radial_ltb_total a b : radial_ltb a b = false -> radial_ltb b a = false -> a = b.
Proof.
  destruct a as [x1 y1], b as [x2 y2]. rewrite <- !not_true_iff_false, !radial_ltb_sector. unfold ang. intros H1 H2.
  assert (N : x2*y1 - y2*x1 = - (x1*y2 - y1*x2)) by ring.
  assert (S : sector x1 y1 = sector x2 y2) by lia.
  assert (D : x1*y2 - y1*x2 = 0) by lia.
  assert (L : x1*x1+y1*y1 = x2*x2+y2*y2) by lia.
  clear H1 H2 N.
  enough (x1 = x2 /\ y1 = y2) as [-> ->] by reflexivity.
  destruct (sectorP x1 y1), (sectorP x2 y2); try discriminate S; subst;
    try (apply parallel_same_length; [assumption|assumption|nia]); nia.
Qed.
Local Close Scope Z_scope.

(* fixVertex: the (edge, successor) pairs do not depend on the order v.incidents was ranged in,
   when the incident edges have pairwise different directions *)
Lemma fix_vertex_order_free_lemma (inc inc' : list (nat * (Z * Z))) :
  (forall x y, In x inc -> In y inc -> snd x = snd y -> x = y) ->
  Permutation inc inc' -> Permutation (fix_vertex inc) (fix_vertex inc').
Proof.
  intros Hinj P. unfold fix_vertex. rewrite <- (Permutation_length P).
  destruct (length inc <=? 2) eqn:El.
  - apply Nat.leb_le in El.
    destruct inc as [|a [|b [|c t]]]; simpl in El; try lia.
    + apply Permutation_nil in P. subst. reflexivity.
    + apply Permutation_length_1_inv in P. subst. reflexivity.
    + apply Permutation_length_2_inv in P. destruct P as [->| ->]; [reflexivity|]. simpl. apply perm_swap.
  - rewrite (isort_by_perm_invariant_lemma _ _ radial_ltb snd radial_ltb_irrefl radial_ltb_trans radial_ltb_total
               inc inc' Hinj P). reflexivity.
Qed.
