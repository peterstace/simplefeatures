(* Property C08, the parts that span all four formats:
   (1) the model ENCODERS never panic on any value (the WKB, WKT and GeoJSON model encoders are
       total functions by their type; the content is the TWKB writer, whose error branches -
       mismatched coordinates type, empty Point in a MultiPoint, scaled ordinate outside int64,
       bad precision, ID list length - are error returns, never panics), hence every value a
       model decoder returns re-encodes in every format without a panic;
   (2) the validation gate of the four Unmarshal* entry points, for an arbitrary validator.
   The sibling models are Model/WKT.v (C05), Model/GeoJSON.v (C06), Model/TWKB.v and
   Model/TWKBQuant.v (C07); their own totality lemmas are cited, not re-proved. Qualified names
   are used throughout because the models reuse identifiers (dec_full, tok, ...). *)
From Coq Require Import NArith ZArith List Bool Lia.
From SF Require Import Base.Outcome Base.Bytes Base.GeomAST Base.Varint.
From SF Require Model.WKB Model.WKT Model.GeoJSON Model.TWKB Model.TWKBQuant.
From SF Require Proofs.WKB_total Proofs.WKT_total Proofs.TWKB_proofs Proofs.TWKBQuant_proofs
                Proofs.GeoJSON_proofs.
Import ListNotations.

Local Notation np := GeoJSON_proofs.np.

Lemma np_bind {A B} (m : outcome A) (f : A -> outcome B) :
  np m -> (forall a, np (f a)) -> np (bind m f).
Proof. intros H1 H2. apply GeoJSON_proofs.np_bind; auto. Qed.

Lemma np_ok {A} (a : A) : np (Ok a). Proof. reflexivity. Qed.
Lemma np_err {A} e : np (@Err A e). Proof. reflexivity. Qed.
(* the form in which the TWKB files state it *)
Lemma np_of_neq {A} (o : outcome A) : (forall p, o <> Panic p) -> np o.
Proof. intros H. destruct o; try reflexivity. exfalso. eapply H. reflexivity. Qed.

(* ------------------------------------------------------------------ the TWKB writer *)
Import TWKB.

Lemma wr_points_np : forall pts st, np (wr_points st pts).
Proof.
  induction pts as [|p r IH]; intros st; cbn [wr_points]; [apply np_ok|].
  destruct (forallb in_i64b p); [|apply np_err].
  destruct (wr_ords _ _ _ _) as [[bs ref'] bb'].
  apply np_bind; [apply IH|]. intros [bs2 st2]. apply np_ok.
Qed.

Lemma wr_line_np ct st l : np (wr_line ct st l).
Proof. unfold wr_line. apply np_bind; [apply wr_points_np|]. intros [bs st']. apply np_ok. Qed.

Lemma wr_ring_np close ct st l : np (wr_ring close ct st l).
Proof. unfold wr_ring. apply np_bind; [apply wr_points_np|]. intros [bs st']. apply np_ok. Qed.

Lemma wr_seq_np {A} (f : wst -> A -> outcome (list N * wst)) :
  (forall st x, np (f st x)) -> forall l st, np (wr_seq f st l).
Proof.
  intros Hf. induction l as [|x r IH]; intros st; cbn [wr_seq]; [apply np_ok|].
  apply np_bind; [apply Hf|]. intros [b1 s1].
  apply np_bind; [apply IH|]. intros [b2 s2]. apply np_ok.
Qed.

Lemma wr_poly_np close ct st p : np (wr_poly close ct st p).
Proof.
  unfold wr_poly. apply np_bind; [apply wr_seq_np; intros; apply wr_ring_np|].
  intros [bs st']. apply np_ok.
Qed.

Lemma wr_ids_np c n : np (wr_ids c n).
Proof.
  unfold wr_ids. destruct (negb (w_hasids c)); [apply np_ok|].
  destruct (negb _); [apply np_err|apply np_ok].
Qed.

Lemma wr_mpoint_member_np ct st p : np (wr_mpoint_member ct st p).
Proof. unfold wr_mpoint_member. destruct (point_c p); [apply wr_points_np|apply np_err]. Qed.

(* twkbWriter.writeGeometry: every branch returns a document or an error *)
Lemma twrite_np : forall g c, np (twrite c g).
Proof.
  induction g as [p|l|p|ct ps|ct ls|ct ps|ct gs IH] using geomT_ind'; intros c;
    cbn [twrite];
    (destruct (negb (ct_eqb _ _)); [apply np_err|]);
    (destruct (is_empty _); [apply np_ok|]).
  - destruct (point_c p); [|apply np_ok].
    apply np_bind; [apply wr_points_np|]. intros [bs st]. apply np_ok.
  - apply np_bind; [apply wr_line_np|]. intros [bs st]. apply np_ok.
  - apply np_bind; [apply wr_poly_np|]. intros [bs st]. apply np_ok.
  - apply np_bind; [apply wr_ids_np|]. intros ids.
    apply np_bind; [apply wr_seq_np; intros; apply wr_mpoint_member_np|]. intros [bs st]. apply np_ok.
  - apply np_bind; [apply wr_ids_np|]. intros ids.
    apply np_bind; [apply wr_seq_np; intros; apply wr_line_np|]. intros [bs st]. apply np_ok.
  - apply np_bind; [apply wr_ids_np|]. intros ids.
    apply np_bind; [apply wr_seq_np; intros; apply wr_poly_np|]. intros [bs st]. apply np_ok.
  - apply np_bind; [apply wr_ids_np|]. intros ids.
    apply np_bind; [|intros [bs st]; apply np_ok].
    generalize (init_wst (dim (w_ct c))). induction IH as [|x r Hx Hr IHr]; intros st; [apply np_ok|].
    apply np_bind; [apply Hx|]. intros [b1 s1].
    apply np_bind; [apply IHr|]. intros [b2 s2]. apply np_ok.
Qed.

(* MarshalTWKB on already quantised ordinates, for every option set and every value *)
Lemma tmarshal_np : forall o g, np (tmarshal o g).
Proof.
  intros o g. unfold tmarshal.
  (* any number of up-front guards "if ... then Err ..." (precisions, ID list on a simple type,
     ID count: fixes F15, F72), then the writer *)
  repeat match goal with |- np (if ?b then Err _ else _) => destruct b; [apply np_err|] end.
  apply np_bind; [apply twrite_np|]. intros [bs st]. apply np_ok.
Qed.

(* ------------------------------------------------------------------ quantisation *)
Import TWKBQuant.

Lemma quant_np p bits : np (quant p bits).
Proof.
  unfold quant. destruct (fdec bits) as [[[s m] e]|]; [|apply np_err].
  destruct (m =? 0)%Z; [apply np_ok|].
  match goal with |- np (let '(n, d) := ?x in _) => destruct x as [n d] end.
  destruct (rne n d) as [[m' e']|]; [|apply np_err].
  destruct (in_i64b _); [apply np_ok|apply np_err].
Qed.

Section LiftNP.
  Variables (A B : Type) (fxy fz fm : A -> outcome B) (zero : B).
  Hypothesis Hxy : forall a, np (fxy a).
  Hypothesis Hz : forall a, np (fz a).
  Hypothesis Hm : forall a, np (fm a).

  Lemma q_vtx_np ct v : np (q_vtx A B fxy fz fm zero ct v).
  Proof.
    unfold q_vtx. apply np_bind; [apply Hxy|intros x]. apply np_bind; [apply Hxy|intros y].
    apply np_bind; [destruct (has_z ct); [apply Hz|apply np_ok]|intros z].
    apply np_bind; [destruct (has_m ct); [apply Hm|apply np_ok]|intros m]. apply np_ok.
  Qed.

  Lemma omapl_np {X Y} (f : X -> outcome Y) : (forall x, np (f x)) -> forall l, np (omapl f l).
  Proof.
    intros Hf. induction l as [|x r IH]; cbn [omapl]; [apply np_ok|].
    apply np_bind; [apply Hf|intros y]. apply np_bind; [apply IH|intros ys]. apply np_ok.
  Qed.

  Lemma q_point_np p : np (q_point A B fxy fz fm zero p).
  Proof.
    destruct p as [ct [v|]]; cbn [q_point]; [|apply np_ok].
    apply np_bind; [apply q_vtx_np|intros v']. apply np_ok.
  Qed.
  Lemma q_line_np l : np (q_line A B fxy fz fm zero l).
  Proof.
    destruct l as [ct vs]; cbn [q_line].
    apply np_bind; [apply omapl_np; intros; apply q_vtx_np|intros vs']. apply np_ok.
  Qed.
  Lemma q_poly_np p : np (q_poly A B fxy fz fm zero p).
  Proof.
    destruct p as [ct rs]; cbn [q_poly].
    apply np_bind; [apply omapl_np; intros; apply q_line_np|intros rs']. apply np_ok.
  Qed.
  Lemma q_geom_np : forall g, np (q_geom A B fxy fz fm zero g).
  Proof.
    induction g as [p|l|p|ct ps|ct ls|ct ps|ct gs IH] using geomT_ind'; cbn [q_geom].
    - apply np_bind; [apply q_point_np|intros]; apply np_ok.
    - apply np_bind; [apply q_line_np|intros]; apply np_ok.
    - apply np_bind; [apply q_poly_np|intros]; apply np_ok.
    - apply np_bind; [apply omapl_np; intros; apply q_point_np|intros]; apply np_ok.
    - apply np_bind; [apply omapl_np; intros; apply q_line_np|intros]; apply np_ok.
    - apply np_bind; [apply omapl_np; intros; apply q_poly_np|intros]; apply np_ok.
    - apply np_bind; [|intros; apply np_ok].
      induction IH as [|x r Hx Hr IHr]; [apply np_ok|].
      apply np_bind; [apply Hx|intros y]. apply np_bind; [apply IHr|intros ys]. apply np_ok.
  Qed.
End LiftNP.

(* MarshalTWKB on floats (quantise, then write), for every option set and every value *)
Lemma marshal_f_np : forall o g, np (marshal_f o g).
Proof.
  intros o g. unfold marshal_f. destruct (_ || _); [apply np_err|].
  apply np_bind; [|intros gi; apply tmarshal_np].
  unfold quant_geom. apply q_geom_np; intros; apply quant_np.
Qed.

(* ------------------------------------------------------------------ re-encoding *)
(* All four model encoders applied to one value. WKB.enc, WKT.append_wkt and GeoJSON.gj_print
   are total functions (no outcome in their type: the Go encoders they transcribe have no
   failing branch on a well-typed value); AppendWKT of a Geometry is an outcome because of the
   zero Geometry (F4); MarshalTWKB is an outcome because of its error returns. *)
Definition reencode_all (o : topts) (g : geomT N)
  : outcome (list N * list WKT.ch * list GeoJSON.tok * list N) :=
  do t <- marshal_f o g;
  do w <- WKT.append_wkt_any [] (WKT.Geo g);
  Ok (WKB.enc g, w, GeoJSON.gj_print g, t).

Lemma reencode_total_lemma : forall o g, is_panic (reencode_all o g) = false.
Proof.
  intros o g. unfold reencode_all. apply np_bind; [apply marshal_f_np|intros t].
  apply np_bind; [reflexivity|intros w]. apply np_ok.
Qed.

(* the default call MarshalTWKB(g, 0) *)
Definition o_default : topts :=
  {| o_pxy := 0; o_pz := None; o_pm := None; o_size := false; o_bbox := false; o_close := false; o_ids := [] |}.

Lemma reencode_after_wkb_lemma : forall o bs g r,
  WKB.dec bs = Ok (g, r) -> is_panic (reencode_all o g) = false.
Proof. intros; apply reencode_total_lemma. Qed.
Lemma reencode_after_wkt_lemma : forall o ts g,
  WKT.parse ts = Ok g -> is_panic (reencode_all o g) = false.
Proof. intros; apply reencode_total_lemma. Qed.
Lemma reencode_after_geojson_lemma : forall o j g,
  GeoJSON.gj_unmarshal j = Ok g -> is_panic (reencode_all o g) = false.
Proof. intros; apply reencode_total_lemma. Qed.
Lemma reencode_after_twkb_lemma : forall o bs g i,
  unmarshal_f bs = Ok (g, i) -> is_panic (reencode_all o g) = false.
Proof. intros; apply reencode_total_lemma. Qed.
(* integer layer: what tdec returns goes back through the writer without a panic *)
Lemma tmarshal_after_tdec_lemma : forall o bs g i,
  tdec bs = Ok (g, i) -> is_panic (tmarshal o g) = false.
Proof. intros; apply tmarshal_np. Qed.

(* ------------------------------------------------------------------ all four decoders at once *)
(* is_panic form of the siblings' statements, so that Props/C08.v reads uniformly *)
Lemma twkb_unmarshal_no_panic_lemma : forall bs, is_panic (unmarshal_f bs) = false.
Proof. intros bs. apply np_of_neq, TWKBQuant_proofs.unmarshal_f_no_panic_lemma. Qed.
Lemma tdec_is_panic_lemma : forall bs, is_panic (tdec bs) = false.
Proof. intros bs. apply np_of_neq, TWKB_proofs.tdec_no_panic_lemma. Qed.

(* ------------------------------------------------------------------ the validation gate *)
(* Unmarshal*(input) without NoValidate = the NoValidate decoder, then Validate *)
Definition gated {G} (validate : G -> bool) (d : outcome G) : outcome G :=
  do g <- d; if validate g then Ok g else Err EValidate.

Lemma gated_exact {G} (validate : G -> bool) (d : outcome G) g :
  gated validate d = Ok g <-> (d = Ok g /\ validate g = true).
Proof.
  unfold gated. destruct d as [g'|e|p]; cbn [bind].
  - destruct (validate g') eqn:V; split.
    + intros E; inversion E; subst; auto.
    + intros [E _]; exact E.
    + discriminate.
    + intros [E V']; inversion E; subst; congruence.
  - split; [discriminate|intros [E _]; discriminate].
  - split; [discriminate|intros [E _]; discriminate].
Qed.

Lemma gated_np {G} (validate : G -> bool) (d : outcome G) :
  is_panic d = false -> is_panic (gated validate d) = false.
Proof. unfold gated. destruct d as [g|e|p]; cbn; auto. intros _. destruct (validate g); auto. Qed.

Section Gates.
  Variable validate : geomT N -> bool.
  (* UnmarshalWKT(s), UnmarshalGeoJSON(doc), UnmarshalTWKB(bytes) without NoValidate *)
  Definition unmarshal_wkt_v (s : list WKT.ch) := gated validate (WKT.unmarshal_wkt s).
  Definition unmarshal_geojson_v (j : GeoJSON.json) := gated validate (GeoJSON.gj_unmarshal j).
  Definition unmarshal_twkb_v (bs : list N) := gated validate (omap fst (unmarshal_f bs)).

  Lemma wkt_gate_lemma : forall s g,
    unmarshal_wkt_v s = Ok g <-> (WKT.unmarshal_wkt s = Ok g /\ validate g = true).
  Proof. intros; apply gated_exact. Qed.
  Lemma geojson_gate_lemma : forall j g,
    unmarshal_geojson_v j = Ok g <-> (GeoJSON.gj_unmarshal j = Ok g /\ validate g = true).
  Proof. intros; apply gated_exact. Qed.
  Lemma twkb_gate_lemma : forall bs g,
    unmarshal_twkb_v bs = Ok g <-> (omap fst (unmarshal_f bs) = Ok g /\ validate g = true).
  Proof. intros; apply gated_exact. Qed.

  Lemma wkt_v_no_panic_lemma : forall s, is_panic (unmarshal_wkt_v s) = false.
  Proof. intros s. apply gated_np. apply WKT_total.unmarshal_wkt_no_panic_lemma. Qed.
  Lemma geojson_v_no_panic_lemma : forall j, is_panic (unmarshal_geojson_v j) = false.
  Proof. intros j. apply gated_np. apply GeoJSON_proofs.gj_unmarshal_no_panic_lemma. Qed.
  Lemma twkb_v_no_panic_lemma : forall bs, is_panic (unmarshal_twkb_v bs) = false.
  Proof.
    intros bs. apply gated_np, np_bind; [apply twkb_unmarshal_no_panic_lemma|intros; apply np_ok].
  Qed.
End Gates.
