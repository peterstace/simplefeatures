(* Property C17 - lemmas about the exact SnapToGrid model (Model/TrSnap.v). *)
From Coq Require Import ZArith QArith Qround Qabs Qfield Lqa Lia Bool.
From SF Require Import Base.QKernel Model.TrSnap.

Lemma rha_comp (q q' : Q) : q == q' -> round_half_away q = round_half_away q'.
Proof.
  intros E. unfold round_half_away.
  assert (Qle_bool 0 q = Qle_bool 0 q') as -> by now rewrite E.
  destruct (Qle_bool 0 q'); now rewrite E.
Qed.

Lemma Qfloor_plus_half (k : Z) : Qfloor (inject_Z k + (1 # 2)) = k.
Proof.
  pose proof (Qfloor_le (inject_Z k + (1 # 2))) as L.
  pose proof (Qlt_floor (inject_Z k + (1 # 2))) as U.
  set (f := Qfloor (inject_Z k + (1 # 2))) in *.
  rewrite inject_Z_plus in U. change (inject_Z 1) with 1 in U.
  assert (inject_Z f < inject_Z (k + 1)) as A by (rewrite inject_Z_plus; change (inject_Z 1) with 1; lra).
  assert (inject_Z (k - 1) < inject_Z f) as B
    by (unfold Z.sub; rewrite inject_Z_plus, inject_Z_opp; change (inject_Z 1) with 1; lra).
  rewrite <- Zlt_Qlt in A, B. lia.
Qed.

Lemma rha_Z (k : Z) : round_half_away (inject_Z k) = k.
Proof.
  unfold round_half_away. destruct (Qle_bool 0 (inject_Z k)) eqn:E.
  - apply Qfloor_plus_half.
  - rewrite <- inject_Z_opp, Qfloor_plus_half. lia.
Qed.

Lemma rha_opp (q : Q) : round_half_away (- q) = (- round_half_away q)%Z.
Proof.
  unfold round_half_away.
  destruct (Qle_bool 0 q) eqn:A, (Qle_bool 0 (- q)) eqn:B.
  - apply Qle_bool_iff in A, B. assert (q == 0) as E by lra. now rewrite E.
  - f_equal. apply Qfloor_comp. lra.
  - rewrite Z.opp_involutive. reflexivity.
  - apply Qle_bool_false_iff in A, B. lra.
Qed.

Lemma rha_err (q : Q) : Qabs (inject_Z (round_half_away q) - q) <= 1 # 2.
Proof.
  unfold round_half_away. destruct (Qle_bool 0 q) eqn:A.
  - pose proof (Qfloor_le (q + (1 # 2))). pose proof (Qlt_floor (q + (1 # 2))) as U.
    rewrite inject_Z_plus in U. change (inject_Z 1) with 1 in U.
    apply Qabs_Qle_condition. split; lra.
  - pose proof (Qfloor_le (- q + (1 # 2))). pose proof (Qlt_floor (- q + (1 # 2))) as U.
    rewrite inject_Z_plus in U. change (inject_Z 1) with 1 in U.
    rewrite inject_Z_opp. apply Qabs_Qle_condition. split; lra.
Qed.

(* no integer is closer to q than the rounded one: another integer is at least 1 away from it *)
Lemma rha_nearest (q : Q) (j : Z) : Qabs (inject_Z (round_half_away q) - q) <= Qabs (inject_Z j - q).
Proof.
  pose proof (rha_err q) as E.
  destruct (Z.eq_dec j (round_half_away q)) as [->|N]; [lra|].
  assert (1 <= Qabs (inject_Z j - inject_Z (round_half_away q))) as D.
  { assert (inject_Z j - inject_Z (round_half_away q) == inject_Z (j - round_half_away q)) as EE
      by (unfold Z.sub; rewrite inject_Z_plus, inject_Z_opp; ring).
    rewrite EE. unfold inject_Z. rewrite <- Zabs_Qabs. unfold Qle; simpl. lia. }
  pose proof (Qabs_triangle (inject_Z j - q) (q - inject_Z (round_half_away q))) as T.
  setoid_replace (inject_Z j - q + (q - inject_Z (round_half_away q)))
    with (inject_Z j - inject_Z (round_half_away q)) in T by ring.
  rewrite (Qabs_Qminus q) in T. lra.
Qed.

Lemma pow10_pos (p : positive) : 0 < pow10 p.
Proof.
  unfold pow10. change 0 with (inject_Z 0). rewrite <- Zlt_Qlt. apply Z.pow_pos_nonneg; lia.
Qed.

Lemma grid_step_pos (dp : Z) : 0 < grid_step dp.
Proof.
  destruct dp; simpl; try lra.
  - apply Qinv_lt_0_compat, pow10_pos.
  - apply pow10_pos.
Qed.

(* all three paths are "round (x / step) * step" *)
Lemma snapQ_unfold (x : Q) (dp : Z) :
  snapQ x dp == inject_Z (round_half_away (x / grid_step dp)) * grid_step dp.
Proof.
  pose proof (grid_step_pos dp) as P.
  destruct dp as [|p|p]; simpl in *.
  - rewrite (rha_comp (x / 1) x) by (field). ring.
  - pose proof (pow10_pos p) as S.
    rewrite (rha_comp (x / / pow10 p) (x * pow10 p)) by (field; lra). field. lra.
  - reflexivity.
Qed.

Lemma grid_dist (x : Q) (dp k : Z) :
  Qabs (inject_Z k * grid_step dp - x) == Qabs (inject_Z k - x / grid_step dp) * grid_step dp.
Proof.
  pose proof (grid_step_pos dp) as P. set (s := grid_step dp) in *.
  rewrite <- (Qabs_pos s) at 3 by lra. rewrite <- Qabs_Qmult. apply Qabs_wd. field. lra.
Qed.

Theorem snapQ_on_grid (x : Q) (dp : Z) : exists k : Z, snapQ x dp == inject_Z k * grid_step dp.
Proof. eexists. apply snapQ_unfold. Qed.

Theorem snapQ_half_step (x : Q) (dp : Z) : Qabs (snapQ x dp - x) <= (1 # 2) * grid_step dp.
Proof.
  rewrite snapQ_unfold, grid_dist. pose proof (grid_step_pos dp).
  apply Qmult_le_compat_r; [apply rha_err | lra].
Qed.

Theorem snapQ_odd (x : Q) (dp : Z) : snapQ (- x) dp == - snapQ x dp.
Proof.
  rewrite !snapQ_unfold. pose proof (grid_step_pos dp) as P.
  rewrite (rha_comp (- x / grid_step dp) (- (x / grid_step dp))) by (field; lra).
  rewrite rha_opp, inject_Z_opp. ring.
Qed.

Theorem snapQ_comp (x x' : Q) (dp : Z) : x == x' -> snapQ x dp == snapQ x' dp.
Proof.
  intros E. rewrite !snapQ_unfold. pose proof (grid_step_pos dp) as P.
  rewrite (rha_comp (x / grid_step dp) (x' / grid_step dp)) by (rewrite E; reflexivity). reflexivity.
Qed.

Theorem snapQ_grid_fixed (k : Z) (dp : Z) : snapQ (inject_Z k * grid_step dp) dp == inject_Z k * grid_step dp.
Proof.
  rewrite snapQ_unfold. pose proof (grid_step_pos dp) as P.
  rewrite (rha_comp (inject_Z k * grid_step dp / grid_step dp) (inject_Z k)) by (field; lra).
  rewrite rha_Z. reflexivity.
Qed.

Theorem snapQ_idempotent (x : Q) (dp : Z) : snapQ (snapQ x dp) dp == snapQ x dp.
Proof.
  destruct (snapQ_on_grid x dp) as [k E].
  rewrite (snapQ_comp _ _ dp E), E. apply snapQ_grid_fixed.
Qed.

(* the snapped value is a nearest grid point: no grid point is closer to x *)
Theorem snapQ_nearest (x : Q) (dp : Z) (j : Z) :
  Qabs (snapQ x dp - x) <= Qabs (inject_Z j * grid_step dp - x).
Proof.
  rewrite snapQ_unfold, !grid_dist. pose proof (grid_step_pos dp).
  apply Qmult_le_compat_r; [apply rha_nearest | lra].
Qed.
