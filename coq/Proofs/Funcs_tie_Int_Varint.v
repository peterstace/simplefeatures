(* Translator tie (fourth output of tools/gen_funcs, DESIGN.md A.10), property C07: the varint and
   zig-zag functions of coq/Base/Varint.v (uv_enc / uv_dec, zz_enc / zz_dec, sv_enc / sv_dec: the
   functions the TWKB round-trip theorems are about) against the Go code TWKB runs, as re-read into
   Gen/FuncsInt.v on every run: geom/twkb.go (encodeZigZagInt64, decodeZigZagInt64),
   encoding/binary of the toolchain in use (PutUvarint: the `for x >= 0x80` loop writing into the
   buffer; Uvarint: the range loop with its overflow returns; PutVarint, Varint) and their callers
   geom/twkb_write.go (writeUnsignedVarint, writeSignedVarint) and geom/twkb_parser.go
   (parseUnsignedVarint, parseSignedVarint).  The translation is over Z with Go's wrap-around
   written out (wrap_u64, wrap_i64, wrap_u8 of coq/Base/FInt.v); the lemmas discharge every wrap
   from the range of the arguments: they hold for EVERY uint64 / int64 value and EVERY buffer of
   bytes (of any length below 2^63).  An edited body in the Go source (or a toolchain whose
   encoding/binary computes something else) makes this file fail to compile. *)
From Coq Require Import String ZArith NArith List Bool Lia.
From SF Require Import Base.FOps Base.FLoop Base.FInt Gen.FuncsInt Base.Varint Proofs.Funcs_tie_Loop_lib.
Import ListNotations.
Open Scope Z_scope.

Definition in_u64 (z : Z) : Prop := 0 <= z < two64.

(* the bounds as numerals, for lia *)
Lemma wrap_u64_id z : 0 <= z < 18446744073709551616 -> wrap_u64 z = z.
Proof. exact (Z.mod_small z _). Qed.
Lemma wrap_i64_id z : - 9223372036854775808 <= z < 9223372036854775808 -> wrap_i64 z = z.
Proof. exact (wrap64_id z). Qed.
Lemma wrap_u8_id z : 0 <= z < 256 -> wrap_u8 z = z.
Proof. exact (Z.mod_small z _). Qed.

Lemma land_1 z : Z.land z 1 = z mod 2.
Proof. exact (Z.land_ones z 1 ltac:(lia)). Qed.
Lemma lnot_eq z : Z.lnot z = - z - 1.
Proof. unfold Z.lnot. lia. Qed.


Lemma wrap_u64_i64 z : wrap_u64 (wrap_i64 z) = wrap_u64 z.
Proof.
  unfold wrap_u64, wrap_u, wrap_i64, wrap_i. change (2 ^ 64) with 18446744073709551616.
  change (2 ^ (64 - 1)) with 9223372036854775808. lia.
Qed.

(* geom/twkb.go:encodeZigZagInt64 *)
Lemma tie_encodeZigZagInt64 : forall n, in_i64 n -> geom_encodeZigZagInt64 n = Z.of_N (zz_enc n).
Proof.
  intros n Hn. unfold geom_encodeZigZagInt64, zz_enc. unfold in_i64, two63 in Hn.
  rewrite Z.shiftl_mul_pow2, Z.shiftr_div_pow2, wrap_u64_i64 by lia.
  (* n >> 63 is 0 or -1, and x ^ -1 = ^x = -x - 1 *)
  destruct (Z.ltb_spec n 0).
  - replace (n / 2 ^ 63) with (-1) by lia. rewrite (wrap_i64_id (-1)), Z.lxor_m1_r, lnot_eq by lia.
    unfold wrap_u64, wrap_u, wrap_i64, wrap_i. change (2 ^ 64) with 18446744073709551616.
    change (2 ^ (64 - 1)) with 9223372036854775808. lia.
  - replace (n / 2 ^ 63) with 0 by lia. rewrite (wrap_i64_id 0), Z.lxor_0_r, wrap_u64_i64, wrap_u64_id by lia. lia.
Qed.

(* geom/twkb.go:decodeZigZagInt64 *)
Lemma tie_decodeZigZagInt64 : forall z, in_u64 z -> geom_decodeZigZagInt64 z = zz_dec (Z.to_N z).
Proof.
  intros z Hz. unfold geom_decodeZigZagInt64, zz_dec. unfold in_u64, two64 in Hz.
  rewrite Z.shiftr_div_pow2, land_1 by lia. change (2 ^ 1) with 2.
  rewrite (wrap_u64_id (z / 2)), (wrap_u64_id (z mod 2)), (wrap_i64_id (z / 2)), (wrap_i64_id (z mod 2)) by lia.
  destruct (N.eqb_spec (Z.to_N z mod 2) 0).
  - replace (z mod 2) with 0 by lia. change (wrap_i64 (- 0)) with 0. rewrite Z.lxor_0_r, wrap_i64_id by lia. lia.
  - replace (z mod 2) with 1 by lia. change (wrap_i64 (- (1))) with (-1).
    rewrite Z.lxor_m1_r, lnot_eq, wrap_i64_id by lia. lia.
Qed.

(* ---------------------------------------------------------------- bytes *)
(* byte(x) | 0x80  =  x mod 128 + 128 *)
Lemma lor_128 : forall y, 0 <= y < 256 -> Z.lor y 128 = y mod 128 + 128.
Proof.
  assert (H : forallb (fun k => Z.lor (Z.of_nat k) 128 =? Z.of_nat k mod 128 + 128) (seq 0 256) = true) by (vm_compute; reflexivity).
  rewrite forallb_forall in H. intros y Hy. specialize (H (Z.to_nat y)).
  rewrite Z2Nat.id in H by lia. apply Z.eqb_eq. apply H. apply in_seq. lia.
Qed.
Lemma byte_cont : forall x, wrap_u8 (Z.lor (wrap_u8 x) 128) = x mod 128 + 128.
Proof.
  intros x. unfold wrap_u8, wrap_u. change (2 ^ 8) with 256.
  rewrite lor_128 by (apply Z.mod_pos_bound; lia).
  replace ((x mod 256) mod 128) with (x mod 128) by lia.
  apply Z.mod_small. lia.
Qed.
(* disjoint bits: x | (b << s) = x + b * 2^s when x < 2^s *)
Lemma testbit_small : forall x s k, 0 <= x < 2 ^ s -> s <= k -> Z.testbit x k = false.
Proof.
  intros x s k Hx Hk. destruct (Z.eq_dec x 0) as [->|Hx0]; [apply Z.bits_0|].
  apply Z.bits_above_log2; [lia|]. apply Z.lt_le_trans with s; [|exact Hk].
  apply Z.log2_lt_pow2; lia.
Qed.
Lemma lor_shiftl_add : forall x b s, 0 <= s -> 0 <= x < 2 ^ s -> Z.lor x (Z.shiftl b s) = x + b * 2 ^ s.
Proof.
  intros x b s Hs Hx. rewrite <- Z.shiftl_mul_pow2 by lia.
  assert (Hl : Z.land x (Z.shiftl b s) = 0).
  { apply Z.bits_inj'; intros k Hk. rewrite Z.land_spec, Z.bits_0.
    destruct (Z.ltb_spec k s) as [Hlt|Hge].
    - rewrite (Z.shiftl_spec_low b s k) by lia. apply andb_false_r.
    - rewrite (testbit_small x s k) by lia. reflexivity. }
  rewrite <- Z.lxor_lor by exact Hl. rewrite Z.add_nocarry_lxor by exact Hl. reflexivity.
Qed.

(* ---------------------------------------------------------------- PutUvarint *)
Definition zbytes (l : list N) : list Z := map Z.of_N l.

Lemma uv_enc_f_length : forall f x, (1 <= length (uv_enc_f f x) <= S f)%nat.
Proof.
  induction f as [|f IH]; intro x; cbn [uv_enc_f]; [cbn; lia|].
  destruct (x <? 128)%N; cbn [length]; [lia|]. specialize (IH (x / 128)%N). lia.
Qed.

(* the loop of PutUvarint and what follows it, as they occur in the translated body *)
Definition pu_cond : list Z * Z * Z -> bool := fun '(buf, x, i) => x >=? 128.
Definition pu_body : list Z * Z * Z -> step (list Z * Z * Z) (Z * list Z) :=
  fun '(buf, x, i) =>
    match list_set buf i (wrap_u8 (Z.lor (wrap_u8 x) 128)) with
    | Some upd1 => SNext (upd1, wrap_u64 (Z.shiftr x 7), wrap_i64 (i + 1))
    | None => SFail "index out of range"%string
    end.
Definition pu_finish (st : loop_res (list Z * Z * Z) (Z * list Z)) : partial (Z * list Z) :=
  match st with
  | LDone (buf, x, i) =>
      match list_set buf i (wrap_u8 x) with
      | Some upd => Known (wrap_i64 (i + 1), upd)
      | None => Unknown "index out of range"%string
      end
  | LRet r => Known r
  | LErr m => Unknown m
  end.

Lemma uv_enc_f_small f x : (x < 128)%N -> uv_enc_f f x = [x].
Proof. intro H. apply N.ltb_lt in H. destruct f; cbn [uv_enc_f]; [reflexivity|]. rewrite H. reflexivity. Qed.


Lemma pu_exit : forall f g x pre tl, 0 <= x < 128 ->
  let e := zbytes (uv_enc_f f (Z.to_N x)) in
  (length e <= length tl)%nat -> Z.of_nat (length pre + length tl) < 9223372036854775808 ->
  pu_finish (while_loop pu_cond pu_body g (pre ++ tl, x, Z.of_nat (length pre)))
  = Known (Z.of_nat (length pre + length e), pre ++ e ++ skipn (length e) tl).
Proof.
  intros f g x pre tl Hx e. subst e. rewrite uv_enc_f_small by lia. cbn [zbytes map length]. rewrite Z2N.id by lia.
  destruct tl as [|t0 tl']; cbn [length skipn app]; intros He Hlen; [lia|].
  assert (Hc : pu_cond (pre ++ t0 :: tl', x, Z.of_nat (length pre)) = false) by (cbn; lia).
  assert (E : while_loop pu_cond pu_body g (pre ++ t0 :: tl', x, Z.of_nat (length pre))
              = LDone (pre ++ t0 :: tl', x, Z.of_nat (length pre))).
  { destruct g; cbn [while_loop]; rewrite Hc; reflexivity. }
  rewrite E. cbn [pu_finish]. rewrite list_set_app, wrap_u8_id, wrap_i64_id by lia.
  f_equal. f_equal. lia.
Qed.

Lemma pu_loop : forall f g x pre tl,
  (f <= g)%nat -> 0 <= x < 2 ^ (7 * (Z.of_nat f + 1)) -> x < 18446744073709551616 ->
  let e := zbytes (uv_enc_f f (Z.to_N x)) in
  (length e <= length tl)%nat -> Z.of_nat (length pre + length tl) < 9223372036854775808 ->
  pu_finish (while_loop pu_cond pu_body g (pre ++ tl, x, Z.of_nat (length pre)))
  = Known (Z.of_nat (length pre + length e), pre ++ e ++ skipn (length e) tl).
Proof.
  induction f as [|f IH]; intros g x pre tl Hfg Hx Hu e He Hlen;
    (destruct (Z.ltb_spec x 128) as [Hlt|Hge]; [apply pu_exit; [lia|exact He|exact Hlen]|]).
  - change (2 ^ (7 * (Z.of_nat 0 + 1))) with 128 in Hx. lia.
  - subst e. cbn [uv_enc_f] in *. replace (Z.to_N x <? 128)%N with false in * by lia.
    destruct g as [|g]; [lia|].
    cbn [zbytes map length] in He. destruct tl as [|t0 tl']; [cbn in He; lia|].
    assert (Hc : pu_cond (pre ++ t0 :: tl', x, Z.of_nat (length pre)) = true) by (cbn; lia).
    cbn [while_loop]. rewrite Hc. cbn [pu_body].
    rewrite list_set_app, byte_cont, Z.shiftr_div_pow2 by lia. change (2 ^ 7) with 128.
    assert (Hx' : 0 <= x / 128 < 2 ^ (7 * (Z.of_nat f + 1))).
    { replace (7 * (Z.of_nat (S f) + 1)) with (7 + 7 * (Z.of_nat f + 1)) in Hx by lia.
      rewrite Z.pow_add_r in Hx by lia. change (2 ^ 7) with 128 in Hx. lia. }
    rewrite (wrap_u64_id (x / 128)) by lia.
    rewrite wrap_i64_id by (cbn [length] in Hlen; lia).
    replace (Z.to_N x / 128)%N with (Z.to_N (x / 128)) in He |- * by lia.
    specialize (IH g (x / 128) (pre ++ [x mod 128 + 128]) tl' ltac:(lia) Hx' ltac:(lia)). cbv zeta in IH.
    rewrite <- !app_assoc, app_length in IH. cbn [app length] in IH.
    replace (Z.of_nat (length pre + 1)) with (Z.of_nat (length pre) + 1) in IH by lia.
    rewrite IH by (unfold zbytes; cbn [length] in He, Hlen; lia).
    unfold zbytes. cbn [map length skipn app]. replace (Z.of_N (Z.to_N x mod 128 + 128)) with (x mod 128 + 128) by lia.
    f_equal. f_equal. lia.
Qed.

(* encoding/binary:PutUvarint *)
Lemma tie_PutUvarint : forall x buf, in_u64 x ->
  let e := zbytes (uv_enc (Z.to_N x)) in
  (length e <= length buf)%nat -> Z.of_nat (length buf) < two63 ->
  binary_PutUvarint buf x = Known (Z.of_nat (length e), e ++ skipn (length e) buf).
Proof.
  intros x buf Hu e He Hlen. unfold in_u64, two64 in Hu.
  change (binary_PutUvarint buf x)
    with (pu_finish (while_loop pu_cond pu_body 10 ([] ++ buf, x, Z.of_nat (length (@nil Z))))).
  rewrite (pu_loop 9 10 x [] buf); [reflexivity|lia| |lia|exact He|exact Hlen].
  change (2 ^ (7 * (Z.of_nat 9 + 1))) with 1180591620717411303424. lia.
Qed.

(* ---------------------------------------------------------------- Uvarint *)
Definition uv_body : Z -> Z -> Z * Z -> step (Z * Z) (Z * Z) :=
  fun i b '(x, s) =>
    if i =? 10 then SReturn (0, wrap_i64 (- wrap_i64 (i + 1)))
    else if b <? 128 then
      if (i =? 9) && (b >? 1) then SReturn (0, wrap_i64 (- wrap_i64 (i + 1)))
      else SReturn (wrap_u64 (Z.lor x (wrap_u64 (Z.shiftl (wrap_u64 b) s))), wrap_i64 (i + 1))
    else SNext (wrap_u64 (Z.lor x (wrap_u64 (Z.shiftl (wrap_u64 (wrap_u8 (Z.land b 127))) s))), wrap_u64 (s + 7)).

(* the outcome of the translated loop against the model's decoder started at byte index k *)
Definition uv_rel (k : nat) (x : Z) (bs : list N) (res : loop_res (Z * Z) (Z * Z)) : Prop :=
  match uv_dec_at k bs with
  | VOk v rest => res = LRet (x + 2 ^ (7 * Z.of_nat k) * Z.of_N v,
                              Z.of_nat k + Z.of_nat (length bs) - Z.of_nat (length rest))
  | VShort => exists st, res = LDone st
  | VOverflow => exists n, res = LRet (0, n) /\ n < 0
  end.

Lemma pow7_step k : 2 ^ (7 * Z.of_nat (S k)) = 128 * 2 ^ (7 * Z.of_nat k).
Proof. replace (7 * Z.of_nat (S k)) with (7 + 7 * Z.of_nat k) by lia. rewrite Z.pow_add_r by lia. reflexivity. Qed.

(* x |= b << s adds b * 2^s: the bits of x lie below s, and the sum fits a uint64 *)
Lemma acc_byte x b s : 0 <= s -> 0 <= x < 2 ^ s -> 0 <= b -> (b + 1) * 2 ^ s <= 18446744073709551616 ->
  wrap_u64 (Z.lor x (wrap_u64 (Z.shiftl b s))) = x + 2 ^ s * b.
Proof.
  intros Hs Hx Hb Hm. rewrite (wrap_u64_id (Z.shiftl b s)) by (rewrite Z.shiftl_mul_pow2; nia).
  rewrite lor_shiftl_add by assumption. rewrite wrap_u64_id by nia. ring.
Qed.
(* ... which it does for seven bits at index k < 9 and for one bit at index 9 *)
Lemma byte_fits k b : (k <= 9)%nat -> 0 <= b < 128 -> (k = 9%nat -> b <= 1) ->
  (b + 1) * 2 ^ (7 * Z.of_nat k) <= 18446744073709551616.
Proof.
  intros Hk Hb Hb9. destruct (Nat.eq_dec k 9) as [->|Hk9].
  - change (2 ^ (7 * Z.of_nat 9)) with 9223372036854775808. lia.
  - assert (Hp : 2 ^ (7 * Z.of_nat k) <= 2 ^ 56) by (apply Z.pow_le_mono_r; lia).
    change (2 ^ 56) with 72057594037927936 in Hp. nia.
Qed.

(* one execution of the loop body, case by case *)
Lemma uv_body_10 : forall b st, uv_body 10 b st = SReturn (0, -11).
Proof. intros b [x s]. reflexivity. Qed.
Lemma uv_body_last : forall k b x, (k <= 9)%nat -> 0 <= b < 128 -> (k = 9%nat -> b <= 1) ->
  0 <= x < 2 ^ (7 * Z.of_nat k) ->
  uv_body (Z.of_nat k) b (x, 7 * Z.of_nat k) = SReturn (x + 2 ^ (7 * Z.of_nat k) * b, Z.of_nat k + 1).
Proof.
  intros k b x Hk Hb Hb9 Hx. unfold uv_body.
  replace (Z.of_nat k =? 10) with false by lia. replace (b <? 128) with true by lia.
  replace ((Z.of_nat k =? 9) && (b >? 1)) with false by lia.
  pose proof (byte_fits k b Hk Hb Hb9) as Hm.
  rewrite (wrap_u64_id b), acc_byte, wrap_i64_id by lia. reflexivity.
Qed.
Lemma uv_body_over : forall b x s, 1 < b < 128 -> uv_body 9 b (x, s) = SReturn (0, -10).
Proof.
  intros b x s Hb. unfold uv_body. change (9 =? 10) with false. change (9 =? 9) with true.
  replace (b <? 128) with true by lia. replace (b >? 1) with true by lia. reflexivity.
Qed.
Definition uv_next (k : nat) (b x : Z) : Z :=
  wrap_u64 (Z.lor x (wrap_u64 (Z.shiftl (b mod 128) (7 * Z.of_nat k)))).
Lemma uv_body_cont : forall k b x, (k <= 9)%nat -> 128 <= b < 256 ->
  uv_body (Z.of_nat k) b (x, 7 * Z.of_nat k) = SNext (uv_next k b x, 7 * Z.of_nat (S k)).
Proof.
  intros k b x Hk Hb. unfold uv_body, uv_next.
  replace (Z.of_nat k =? 10) with false by lia. replace (b <? 128) with false by lia.
  change 127 with (Z.ones 7). rewrite Z.land_ones by lia. change (2 ^ 7) with 128.
  rewrite (wrap_u8_id (b mod 128)), (wrap_u64_id (b mod 128)), (wrap_u64_id (7 * Z.of_nat k + 7)) by lia.
  f_equal. f_equal. lia.
Qed.
Lemma uv_next_small : forall k b x, (S k <= 9)%nat -> 0 <= x < 2 ^ (7 * Z.of_nat k) ->
  uv_next k b x = x + 2 ^ (7 * Z.of_nat k) * (b mod 128) /\ 0 <= uv_next k b x < 2 ^ (7 * Z.of_nat (S k)).
Proof.
  intros k b x Hk Hx. unfold uv_next.
  pose proof (byte_fits k (b mod 128) ltac:(lia) ltac:(lia) ltac:(lia)) as Hm.
  rewrite acc_byte by lia. rewrite pow7_step. split; nia.
Qed.

Lemma uv_loop : forall bs k x,
  Forall (fun b => (b < 256)%N) bs -> (k <= 10)%nat -> 0 <= x < 18446744073709551616 ->
  ((k <= 9)%nat -> x < 2 ^ (7 * Z.of_nat k)) ->
  uv_rel k x bs (range_loop uv_body (zbytes bs) (Z.of_nat k) (x, 7 * Z.of_nat k)).
Proof.
  induction bs as [|b r IH]; intros k x Hb Hk Hu Hx; unfold uv_rel; cbn [uv_dec_at zbytes map range_loop].
  - eexists; reflexivity.
  - inversion Hb as [|? ? Hb0 Hbr]; subst. fold (zbytes r).
    destruct (Nat.eqb_spec k 10) as [->|Hk10].
    { change (Z.of_nat 10) with 10. rewrite uv_body_10. eexists. split; [reflexivity|lia]. }
    specialize (Hx ltac:(lia)). destruct (N.ltb_spec b 128) as [Hlt|Hge].
    + destruct (Nat.eqb k 9 && (1 <? b)%N) eqn:E9.
      * replace k with 9%nat by lia. change (Z.of_nat 9) with 9. rewrite uv_body_over by lia.
        eexists. split; [reflexivity|lia].
      * rewrite uv_body_last by lia. f_equal. f_equal. cbn [length]. lia.
    + rewrite uv_body_cont by lia. replace (Z.of_nat k + 1) with (Z.of_nat (S k)) by lia.
      specialize (IH (S k) (uv_next k (Z.of_N b) x) Hbr ltac:(lia) (Z.mod_pos_bound _ 18446744073709551616 eq_refl)
                     (fun H => proj2 (proj2 (uv_next_small k (Z.of_N b) x H ltac:(lia))))).
      unfold uv_rel in IH.
      destruct (uv_dec_at (S k) r) as [v rest| |] eqn:Ed; [|exact IH|exact IH].
      (* index 10 is an overflow (or the buffer has ended), so k < 9 *)
      assert (Hk9 : k <> 9%nat) by (intros ->; destruct r; discriminate Ed).
      rewrite IH, (proj1 (uv_next_small k (Z.of_N b) x ltac:(lia) ltac:(lia))), pow7_step. unfold uv_acc.
      f_equal. f_equal; [|cbn [length]; lia].
      replace (Z.of_N (b mod 128 + 128 * v)) with (Z.of_N b mod 128 + 128 * Z.of_N v) by lia. ring.
Qed.

(* encoding/binary:Uvarint on a buffer of bytes: the value and the number of bytes read when the
   model's decoder succeeds, (0, 0) when the buffer is too small, (0, n) with n < 0 on overflow *)
Definition uvarint_spec (bs : list N) (r : Z * Z) : Prop :=
  match uv_dec bs with
  | VOk v rest => r = (Z.of_N v, Z.of_nat (length bs) - Z.of_nat (length rest))
  | VShort => r = (0, 0)
  | VOverflow => fst r = 0 /\ snd r < 0
  end.
Lemma tie_Uvarint : forall bs, Forall (fun b => (b < 256)%N) bs ->
  exists r, binary_Uvarint (zbytes bs) = Known r /\ uvarint_spec bs r.
Proof.
  intros bs Hb.
  pose proof (uv_loop bs 0 0 Hb ltac:(lia) ltac:(lia) ltac:(intros _; cbn; lia)) as H.
  unfold uv_rel in H. unfold uvarint_spec, uv_dec.
  change (binary_Uvarint (zbytes bs))
    with (match range_loop uv_body (zbytes bs) 0 (0, 0) with
          | LDone (x, s) => Known (0, 0) | LRet ret => Known ret | LErr msg => Unknown msg end).
  change (Z.of_nat 0) with 0 in H. change (7 * 0) with 0 in H.
  destruct (uv_dec_at 0 bs) as [v rest| |].
  - rewrite H. eexists. split; [reflexivity|]. f_equal; lia.
  - destruct H as [[x s] ->]. eexists. split; reflexivity.
  - destruct H as (n & -> & Hn). eexists. split; [reflexivity|]. split; [reflexivity|exact Hn].
Qed.

(* ---------------------------------------------------------------- PutVarint, Varint *)
Lemma putvarint_ux : forall x, in_i64 x ->
  (if x <? 0 then wrap_u64 (Z.lnot (wrap_u64 (Z.shiftl (wrap_u64 x) 1))) else wrap_u64 (Z.shiftl (wrap_u64 x) 1))
  = Z.of_N (zz_enc x).
Proof.
  intros x Hx. unfold zz_enc, in_i64, two63 in *. rewrite Z.shiftl_mul_pow2, ?lnot_eq by lia.
  unfold wrap_u64, wrap_u. change (2 ^ 64) with 18446744073709551616. destruct (Z.ltb_spec x 0); lia.
Qed.
Lemma tie_PutVarint : forall x buf, in_i64 x ->
  let e := zbytes (sv_enc x) in
  (length e <= length buf)%nat -> Z.of_nat (length buf) < two63 ->
  binary_PutVarint buf x = Known (Z.of_nat (length e), e ++ skipn (length e) buf).
Proof.
  intros x buf Hx e He Hlen. unfold binary_PutVarint. cbv zeta. rewrite (putvarint_ux x Hx).
  destruct (zigzag_roundtrip_lemma x Hx) as [_ Hb].
  rewrite tie_PutUvarint; rewrite ?N2Z.id; [reflexivity| |exact He|exact Hlen].
  unfold in_u64, two64. unfold two64N in Hb. lia.
Qed.

Lemma varint_x : forall ux, in_u64 ux ->
  (let x := wrap_i64 (wrap_u64 (Z.shiftr ux 1)) in
   if negb (wrap_u64 (Z.land ux 1) =? 0) then wrap_i64 (Z.lnot x) else x) = zz_dec (Z.to_N ux).
Proof.
  intros ux Hu. cbv zeta. unfold zz_dec. unfold in_u64, two64 in Hu.
  rewrite Z.shiftr_div_pow2, land_1 by lia. change (2 ^ 1) with 2.
  rewrite (wrap_u64_id (ux / 2)), (wrap_u64_id (ux mod 2)), (wrap_i64_id (ux / 2)) by lia.
  destruct (N.eqb_spec (Z.to_N ux mod 2) 0).
  - replace (ux mod 2) with 0 by lia. cbn [Z.eqb negb]. lia.
  - replace (ux mod 2) with 1 by lia. cbn [Z.eqb negb]. rewrite lnot_eq, wrap_i64_id by lia. lia.
Qed.
Definition varint_spec (bs : list N) (r : Z * Z) : Prop :=
  match sv_dec bs with
  | SOk v rest => r = (v, Z.of_nat (length bs) - Z.of_nat (length rest))
  | SShort => snd r = 0
  | SOverflow => snd r < 0
  end.
Lemma tie_Varint : forall bs, Forall (fun b => (b < 256)%N) bs ->
  exists r, binary_Varint (zbytes bs) = Known r /\ varint_spec bs r.
Proof.
  intros bs Hb. destruct (tie_Uvarint bs Hb) as ([ux n] & E & Hs).
  unfold binary_Varint. rewrite E. eexists. split; [reflexivity|].
  unfold uvarint_spec in Hs. unfold varint_spec, sv_dec.
  destruct (uv_dec bs) as [v rest| |] eqn:Ed.
  - injection Hs as -> ->. apply uv_dec_bound in Ed. f_equal.
    rewrite varint_x by (unfold in_u64, two64; unfold two64N in Ed; lia). now rewrite N2Z.id.
  - injection Hs as -> ->. reflexivity.
  - exact (proj2 Hs).
Qed.

(* ---------------------------------------------------------------- the callers in package geom *)
Lemma slice_to_app : forall (e tl : list Z), slice_to (e ++ tl) (Z.of_nat (length e)) = Some e.
Proof.
  intros e tl. unfold slice_to. rewrite app_length.
  destruct (Z.ltb_spec (Z.of_nat (length e)) 0); [lia|].
  destruct (Z.ltb_spec (Z.of_nat (length e + length tl)) (Z.of_nat (length e))); [lia|].
  cbn [orb]. rewrite Nat2Z.id, firstn_app, Nat.sub_diag, firstn_all. cbn. now rewrite app_nil_r.
Qed.
Lemma uv_enc_length : forall x, (length (uv_enc x) <= 10)%nat.
Proof. intro x. unfold uv_enc. pose proof (uv_enc_f_length 9 x). lia. Qed.

Lemma Forall_skipn {A} (P : A -> Prop) n l : Forall P l -> Forall P (skipn n l).
Proof. intro H. rewrite <- (firstn_skipn n l) in H. exact (proj2 (proj1 (Forall_app _ _ _) H)). Qed.

Section Callers.
  Variable F : Type.

  (* w with another value of the field twkbContents *)
  Definition with_contents (w : geom_twkbWriter F) (c : list Z) : geom_twkbWriter F :=
    Mk_geom_twkbWriter (geom_twkbWriter_twkbHeaders w) (geom_twkbWriter_twkbBBox w) c (geom_twkbWriter_kind w)
      (geom_twkbWriter_ctype w) (geom_twkbWriter_dimensions w) (geom_twkbWriter_precXY w) (geom_twkbWriter_hasZ w)
      (geom_twkbWriter_hasM w) (geom_twkbWriter_precZ w) (geom_twkbWriter_precM w) (geom_twkbWriter_scalings w)
      (geom_twkbWriter_hasBBox w) (geom_twkbWriter_hasSize w) (geom_twkbWriter_hasIDs w) (geom_twkbWriter_hasExt w)
      (geom_twkbWriter_isEmpty w) (geom_twkbWriter_refpoint w) (geom_twkbWriter_bboxValid w) (geom_twkbWriter_bboxMin w)
      (geom_twkbWriter_bboxMax w) (geom_twkbWriter_idList w) (geom_twkbWriter_closeRings w) (geom_twkbWriter_err w).
  (* p with another value of the field pos *)
  Definition with_pos (p : geom_twkbParser F) (pos : Z) : geom_twkbParser F :=
    Mk_geom_twkbParser (geom_twkbParser_twkb p) pos (geom_twkbParser_kind p) (geom_twkbParser_ctype p)
      (geom_twkbParser_dimensions p) (geom_twkbParser_precXY p) (geom_twkbParser_hasZ p) (geom_twkbParser_hasM p)
      (geom_twkbParser_precZ p) (geom_twkbParser_precM p) (geom_twkbParser_scalings p) (geom_twkbParser_hasBBox p)
      (geom_twkbParser_hasSize p) (geom_twkbParser_hasIDs p) (geom_twkbParser_hasExt p) (geom_twkbParser_isEmpty p)
      (geom_twkbParser_bbox p) (geom_twkbParser_idList p) (geom_twkbParser_size p) (geom_twkbParser_refpoint p).

  (* geom/twkb_write.go:writeUnsignedVarint, writeSignedVarint: the encoding is appended to twkbContents *)
  Lemma tie_writeUnsignedVarint : forall (w : geom_twkbWriter F) val, in_u64 val ->
    geom_twkbWriter_writeUnsignedVarint w val
    = Known (with_contents w (geom_twkbWriter_twkbContents w ++ zbytes (uv_enc (Z.to_N val)))).
  Proof.
    intros w val Hv. unfold geom_twkbWriter_writeUnsignedVarint. cbv zeta.
    pose proof (uv_enc_length (Z.to_N val)) as Hl.
    rewrite tie_PutUvarint; [|exact Hv|unfold zbytes; rewrite map_length, repeat_length; exact Hl|reflexivity].
    rewrite slice_to_app. reflexivity.
  Qed.
  Lemma tie_writeSignedVarint : forall (w : geom_twkbWriter F) val, in_i64 val ->
    geom_twkbWriter_writeSignedVarint w val
    = Known (with_contents w (geom_twkbWriter_twkbContents w ++ zbytes (sv_enc val))).
  Proof.
    intros w val Hv. unfold geom_twkbWriter_writeSignedVarint. cbv zeta.
    pose proof (uv_enc_length (zz_enc val)) as Hl.
    rewrite tie_PutVarint; [|exact Hv|unfold zbytes, sv_enc; rewrite map_length, repeat_length; exact Hl|reflexivity].
    rewrite slice_to_app. reflexivity.
  Qed.

  Lemma slice_from_zbytes : forall bs pos, 0 <= pos <= Z.of_nat (length bs) ->
    slice_from (zbytes bs) pos = Some (zbytes (skipn (Z.to_nat pos) bs)).
  Proof.
    intros bs pos Hp. unfold slice_from, zbytes. rewrite map_length.
    destruct (Z.ltb_spec pos 0); [lia|]. destruct (Z.ltb_spec (Z.of_nat (length bs)) pos); [lia|].
    cbn [orb]. now rewrite skipn_map.
  Qed.

  (* the end of both parse functions, Uvarint / Varint having returned n *)
  Lemma parse_advance : forall (p : geom_twkbParser F) val n,
    (0 < n -> - 9223372036854775808 <= geom_twkbParser_pos p + n < 9223372036854775808) ->
    (if n =? 0 then Known (0, false, p)
     else if n <? 0 then Known (0, false, p)
     else Known (val, true, with_pos p (wrap_i64 (geom_twkbParser_pos p + n))))
    = if 0 <? n then Known (val, true, with_pos p (geom_twkbParser_pos p + n)) else Known (0, false, p).
  Proof.
    intros p val n Hn. destruct (Z.eqb_spec n 0), (Z.ltb_spec n 0), (Z.ltb_spec 0 n); try reflexivity; try lia.
    rewrite wrap_i64_id by auto. reflexivity.
  Qed.

  (* geom/twkb_parser.go:parseUnsignedVarint, parseSignedVarint on the bytes from p.pos on *)
  Lemma tie_parseUnsignedVarint : forall (p : geom_twkbParser F) bs,
    geom_twkbParser_twkb p = zbytes bs -> Forall (fun b => (b < 256)%N) bs ->
    0 <= geom_twkbParser_pos p <= Z.of_nat (length bs) -> Z.of_nat (length bs) < two63 ->
    geom_twkbParser_parseUnsignedVarint p
    = match uv_dec (skipn (Z.to_nat (geom_twkbParser_pos p)) bs) with
      | VOk v rest => Known (Z.of_N v, true, with_pos p (Z.of_nat (length bs) - Z.of_nat (length rest)))
      | _ => Known (0, false, p)
      end.
  Proof.
    intros p bs Eb Hb Hp Hlen. unfold geom_twkbParser_parseUnsignedVarint, two63 in *.
    rewrite Eb at 1. rewrite slice_from_zbytes by exact Hp.
    set (bs' := skipn (Z.to_nat (geom_twkbParser_pos p)) bs).
    assert (Hl' : Z.of_nat (length bs') = Z.of_nat (length bs) - geom_twkbParser_pos p)
      by (unfold bs'; rewrite skipn_length; lia).
    destruct (tie_Uvarint bs' (Forall_skipn _ _ _ Hb)) as ([val n] & -> & Hs). unfold uvarint_spec in Hs.
    cbv beta iota zeta. destruct (uv_dec bs') as [v rest| |] eqn:Ed.
    - injection Hs as -> ->. apply uv_dec_length in Ed.
      rewrite parse_advance by lia. replace (0 <? _) with true by lia. do 3 f_equal. lia.
    - injection Hs as -> ->. reflexivity.
    - cbn [snd] in Hs. rewrite parse_advance by lia. replace (0 <? n) with false by lia. reflexivity.
  Qed.
  Lemma tie_parseSignedVarint : forall (p : geom_twkbParser F) bs,
    geom_twkbParser_twkb p = zbytes bs -> Forall (fun b => (b < 256)%N) bs ->
    0 <= geom_twkbParser_pos p <= Z.of_nat (length bs) -> Z.of_nat (length bs) < two63 ->
    geom_twkbParser_parseSignedVarint p
    = match sv_dec (skipn (Z.to_nat (geom_twkbParser_pos p)) bs) with
      | SOk v rest => Known (v, true, with_pos p (Z.of_nat (length bs) - Z.of_nat (length rest)))
      | _ => Known (0, false, p)
      end.
  Proof.
    intros p bs Eb Hb Hp Hlen. unfold geom_twkbParser_parseSignedVarint, two63 in *.
    rewrite Eb at 1. rewrite slice_from_zbytes by exact Hp.
    set (bs' := skipn (Z.to_nat (geom_twkbParser_pos p)) bs).
    assert (Hl' : Z.of_nat (length bs') = Z.of_nat (length bs) - geom_twkbParser_pos p)
      by (unfold bs'; rewrite skipn_length; lia).
    destruct (tie_Varint bs' (Forall_skipn _ _ _ Hb)) as ([val n] & -> & Hs). unfold varint_spec in Hs.
    cbv beta iota zeta. destruct (sv_dec bs') as [v rest| |] eqn:Ed; cbn [snd] in Hs.
    - injection Hs as -> ->. apply sv_dec_length in Ed.
      rewrite parse_advance by lia. replace (0 <? _) with true by lia. do 3 f_equal. lia.
    - subst n. reflexivity.
    - rewrite parse_advance by lia. replace (0 <? n) with false by lia. reflexivity.
  Qed.
End Callers.
