(* Sufficiency of the slab-witness oracle, part 1 (DESIGN.md 2.2a (iii), section 4.1): the pieces.
   1. vcross / quadrant_lemma / closed_ring_parity: for a CLOSED ring and a point not on it, the parity of
      the horizontal-ray crossings (what locate uses) equals the parity of the vertical-ray crossings -
      proved by telescoping "change of open-quadrant membership" along the ring; no Jordan curve theorem.
   2. same_cell / locate_same_cell: two points that no segment of L and no vertex of V can tell apart
      (same on_seg and same vertical crossing for every segment, same equality with every vertex) have the
      same location w.r.t. every geometry made of segments of L and points of P with closed rings.
   3. sorted lists (qsort), consecutive pairs, position of a value in a sorted list, where the witnesses sit.
   4. y_at: heights of non-vertical segments; on_seg and vcross expressed through heights.
   5. inside an open slab between consecutive events the vertical order of spanning segments of L is constant
      (order_lt / order_eq): a change of order would produce a common point of two segments of L strictly
      inside the slab, but seg_seg is complete and its points are events.
   6. compare_same_cell, slab_same_cell / event_same_cell: comparing alike with all spanning segments (all
      ordinates of an event line) puts two points in the same cell.
   7. column_oracle: a column of witnesses realises every monotone comparison pattern. *)
From Coq Require Import QArith Qreduction List Bool ZArith Lia Lqa Setoid Morphisms.
From SF Require Import Base.GeomAST Base.QKernel Base.Planar Proofs.Planar_proofs.
Import ListNotations.
Open Scope Q_scope.


(* vertical-ray crossing: mirror image of edge_cross (x and y exchanged).  The ray from p towards +y
   crosses the edge (a,b) iff exactly one end is strictly to the right of p and p is strictly below *)
Definition vcross (a b p : pt) : bool :=
  let xa := Qle_bool (fst a) (fst p) in
  let xb := Qle_bool (fst b) (fst p) in
  if Bool.eqb xa xb then false
  else if xa then qltb (cross a b p) 0 else qltb (cross b a p) 0.
(* the open quadrant above-right of p *)
Definition quad (p v : pt) : bool := qltb (fst p) (fst v) && qltb (snd p) (snd v).

(* crossing of the horizontal ray xor crossing of the vertical ray = change of quadrant membership.
   With a' = a - p and b' = b - p the cross product is a'x * b'y - a'y * b'x; the four tests of the two rays
   fix the signs of the coordinates, hence of both products, except when a' and b' lie in opposite
   quadrants: there p is in the bounding box of the segment and off it, so the cross product is not 0 *)
Lemma quadrant_lemma a b p :
  on_seg (a, b) p = false ->
  xorb (edge_cross a b p) (vcross a b p) = xorb (quad p a) (quad p b).
Proof.
  destruct a as [ax ay], b as [bx by_], p as [px py].
  unfold on_seg, edge_cross, vcross, quad, qltb; cbn [fst snd]. intros H.
  assert (C : cross (ax, ay) (bx, by_) (px, py) == (ax - px) * (by_ - py) - (ay - py) * (bx - px))
    by (unfold cross; cbn [fst snd]; ring).
  assert (C' : cross (bx, by_) (ax, ay) (px, py) == - cross (ax, ay) (bx, by_) (px, py)) by (unfold cross; ring).
  rewrite C' in *. clear C'. revert H C. generalize (cross (ax, ay) (bx, by_) (px, py)). intros c H C.
  rewrite !andb_false_iff, Qeq_bool_false_iff, <- !not_true_iff_false, !qbetween_iff in H.
  destruct (Qle_bool ay py) eqn:Ya; destruct (Qle_bool by_ py) eqn:Yb;
  destruct (Qle_bool ax px) eqn:Xa; destruct (Qle_bool bx px) eqn:Xb; cbn [Bool.eqb negb andb xorb];
  rewrite ?Qle_bool_iff, ?Qle_bool_false_iff in *; try reflexivity;
  repeat match goal with
  | |- context [Qle_bool ?u ?v] => let E := fresh "E" in destruct (Qle_bool u v) eqn:E;
        [apply Qle_bool_iff in E | apply Qle_bool_false_iff in E]
  end; try reflexivity; exfalso; nra.
Qed.


Definition vparity (es : list seg) (p : pt) : bool :=
  fold_left (fun acc e => xorb acc (vcross (fst e) (snd e) p)) es false.

Lemma fold_xor_acc {A} (f : A -> bool) l acc :
  fold_left (fun acc e => xorb acc (f e)) l acc = xorb acc (fold_left (fun acc e => xorb acc (f e)) l false).
Proof.
  revert acc. induction l as [|x l IH]; intros acc; cbn [fold_left].
  - symmetry. apply xorb_false_r.
  - rewrite (IH (xorb acc (f x))), (IH (xorb false (f x))), xorb_false_l, xorb_assoc. reflexivity.
Qed.
Lemma edges_parity_cons e es p :
  edges_parity (e :: es) p = xorb (edge_cross (fst e) (snd e) p) (edges_parity es p).
Proof. unfold edges_parity. cbn [fold_left]. rewrite fold_xor_acc. destruct (edge_cross (fst e) (snd e) p); reflexivity. Qed.
Lemma vparity_cons e es p : vparity (e :: es) p = xorb (vcross (fst e) (snd e) p) (vparity es p).
Proof. unfold vparity. cbn [fold_left]. rewrite fold_xor_acc. destruct (vcross (fst e) (snd e) p); reflexivity. Qed.

Lemma quad_proper p a b : pt_eq a b -> quad p a = quad p b.
Proof.
  intros [H1 H2]. unfold quad, qltb. rewrite H1, H2. reflexivity.
Qed.

Lemma xorb_interchange a b c d : xorb (xorb a b) (xorb c d) = xorb (xorb a c) (xorb b d).
Proof. destruct a, b, c, d; reflexivity. Qed.

(* telescoping along a vertex chain *)
Lemma chain_parity a vs p :
  on_edges (ring_edges (a :: vs)) p = false ->
  xorb (edges_parity (ring_edges (a :: vs)) p) (vparity (ring_edges (a :: vs)) p)
  = xorb (quad p a) (quad p (last vs a)).
Proof.
  revert a. induction vs as [|b vs IH]; intros a H.
  - symmetry. apply xorb_nilpotent.
  - change (ring_edges (a :: b :: vs)) with ((a, b) :: ring_edges (b :: vs)) in *.
    apply orb_false_iff in H. destruct H as [H1 H2].
    rewrite edges_parity_cons, vparity_cons, last_cons_default. cbn [fst snd].
    rewrite xorb_interchange, (quadrant_lemma a b p H1), (IH b H2).
    destruct (quad p a), (quad p b), (quad p (last vs b)); reflexivity.
Qed.

(* for a closed ring and a point not on it the two parities agree *)
Theorem closed_ring_parity (ps : list pt) p :
  pts_closed ps = true -> on_edges (segs_of_pts ps) p = false ->
  edges_parity (segs_of_pts ps) p = vparity (segs_of_pts ps) p.
Proof.
  destruct ps as [|a [|b vs]]; intros C H.
  - reflexivity.
  - unfold edges_parity, vparity, edge_cross, vcross. cbn. rewrite !eqb_reflx. reflexivity.
  - apply xorb_eq. change (segs_of_pts (a :: b :: vs)) with (ring_edges (a :: b :: vs)) in *.
    apply pt_eqb_iff in C. rewrite (chain_parity a (b :: vs) p H), (quad_proper p _ _ C). apply xorb_nilpotent.
Qed.


(* p and w are indistinguishable for every segment of L and every vertex of V *)
Definition same_cell (L : list seg) (V : list pt) (p w : pt) : Prop :=
  (forall e, In e L -> on_seg e p = on_seg e w /\ vcross (fst e) (snd e) p = vcross (fst e) (snd e) w) /\
  (forall v, In v V -> pt_eqb p v = pt_eqb w v).

(* every ring of every polygon of g is a closed vertex list *)
Definition rings_closed (g : geom) : Prop :=
  forall y, In y (g_polys g) -> forall r, In r (poly_rings y) -> pts_closed (line_pts r) = true.
(* the arrangement (L,P) contains g *)
Definition covers_geom (L : list seg) (P : list pt) (g : geom) : Prop :=
  incl (arr_segments g) L /\ incl (arr_points g) P.

Lemma fold_xor_ext {A} (f g : A -> bool) l acc : (forall x, In x l -> f x = g x) ->
  fold_left (fun acc e => xorb acc (f e)) l acc = fold_left (fun acc e => xorb acc (g e)) l acc.
Proof. revert acc. induction l; simpl; auto. intros acc H. rewrite (H a) by auto. apply IHl. auto. Qed.

Lemma in_arr_ring g y r e :
  In y (g_polys g) -> In r (poly_rings y) -> In e (line_segs r) -> In e (arr_segments g).
Proof.
  intros Hy Hr He. unfold arr_segments. apply in_or_app. left. apply in_flat_map. exists y. split; auto.
  apply in_concat. exists (line_segs r). split; auto. unfold poly_ring_segs. apply in_map. exact Hr.
Qed.
Lemma in_arr_line g l e : In l (g_lines g) -> In e (line_segs l) -> In e (arr_segments g).
Proof.
  intros Hl He. unfold arr_segments. apply in_or_app. right. apply in_flat_map. exists l. auto.
Qed.

(* the end points of a line string are ends of its segments *)
Lemma ring_edges_first a b vs : In (a, b) (ring_edges (a :: b :: vs)).
Proof. simpl. auto. Qed.
Lemma ring_edges_last a vs : vs <> [] -> exists c, In (c, last vs a) (ring_edges (a :: vs)).
Proof.
  revert a. induction vs as [|b vs IH]; intros a H; [congruence|].
  destruct vs as [|c vs].
  - exists a. simpl. auto.
  - destruct (IH b) as [d Hd]; [discriminate|]. exists d. rewrite last_cons_default. right. exact Hd.
Qed.
Lemma line_ends_in l e : In e (line_ends l) -> exists s, In s (line_segs l) /\ (e = fst s \/ e = snd s).
Proof.
  unfold line_ends, line_segs. destruct (pts_closed (line_pts l)) eqn:C; [intros []|].
  destruct (line_pts l) as [|a vs]; [intros []|].
  destruct vs as [|b vs].
  - unfold pts_closed in C. simpl in C. assert (pt_eqb a a = true) by (apply pt_eqb_iff; reflexivity). congruence.
  - intros [<-|[<-|[]]].
    + exists (a, b). split; [apply ring_edges_first | auto].
    + destruct (ring_edges_last a (b :: vs)) as [c Hc]; [discriminate|]. exists (c, last (b :: vs) a). split; auto.
Qed.

Lemma seg_end_vertex L P e : In e L -> In (fst e) (vertex_set L P) /\ In (snd e) (vertex_set L P).
Proof.
  intros He. unfold vertex_set. split; apply in_or_app; left; apply in_flat_map; exists e;
    (split; [exact He | unfold seg_ends; simpl; auto]).
Qed.

Section Indistinguishable.
  Variables (g : geom) (p w : pt).
  Hypothesis Hclosed : rings_closed g.
  Hypothesis Hseg : forall e, In e (arr_segments g) ->
    on_seg e p = on_seg e w /\ vcross (fst e) (snd e) p = vcross (fst e) (snd e) w.
  Hypothesis Hend : forall e, In e (arr_segments g) ->
    pt_eqb p (fst e) = pt_eqb w (fst e) /\ pt_eqb p (snd e) = pt_eqb w (snd e).
  Hypothesis Hpt : forall v, In v (arr_points g) -> pt_eqb p v = pt_eqb w v.

  Lemma sc_on_edges es : incl es (arr_segments g) -> on_edges es p = on_edges es w.
  Proof. intros H. apply existsb_ext_in. intros e He. apply Hseg, H, He. Qed.
  Lemma sc_vparity es : incl es (arr_segments g) -> vparity es p = vparity es w.
  Proof. intros H. apply fold_xor_ext. intros e He. apply Hseg, H, He. Qed.

  Lemma sc_ring y r : In y (g_polys g) -> In r (poly_rings y) ->
    on_edges (line_segs r) p = on_edges (line_segs r) w /\
    ring_strict_in (line_segs r) p = ring_strict_in (line_segs r) w /\
    ring_strict_out (line_segs r) p = ring_strict_out (line_segs r) w.
  Proof.
    intros Hy Hr.
    assert (I : incl (line_segs r) (arr_segments g)) by (intros e; apply (in_arr_ring g y r e Hy Hr)).
    pose proof (sc_on_edges _ I) as E. unfold ring_strict_in, ring_strict_out. rewrite <- E.
    destruct (on_edges (line_segs r) p) eqn:Hp; [auto|]. symmetry in E.
    unfold line_segs in *.
    rewrite (closed_ring_parity _ p (Hclosed y Hy r Hr) Hp), (closed_ring_parity _ w (Hclosed y Hy r Hr) E), (sc_vparity _ I).
    auto.
  Qed.

  Lemma sc_poly y : In y (g_polys g) ->
    rings_interior (poly_ring_segs y) p = rings_interior (poly_ring_segs y) w /\
    rings_boundary (poly_ring_segs y) p = rings_boundary (poly_ring_segs y) w.
  Proof.
    intros Hy. pose proof (fun r => sc_ring y r Hy) as S. unfold poly_ring_segs, rings_boundary. rewrite !existsb_map. split.
    - destruct (poly_rings y) as [|sh holes]; [reflexivity|].
      cbn [map rings_interior]. rewrite !forallb_map, (proj1 (proj2 (S sh (or_introl eq_refl)))). f_equal.
      apply forallb_ext_in. intros r Hr. apply (S r). right. exact Hr.
    - apply existsb_ext_in. intros r Hr. apply (S r Hr).
  Qed.

  Theorem locate_indistinguishable : locate g p = locate g w.
  Proof.
    assert (Il : forall l, In l (g_lines g) -> incl (line_segs l) (arr_segments g)).
    { intros l Hl e. apply (in_arr_line g l e Hl). }
    unfold locate, locate_p, prep; cbn [pg_polys pg_lines pg_ends pg_points]. rewrite !existsb_map.
    rewrite (existsb_ext_in _ _ _ (fun y Hy => proj1 (sc_poly y Hy))), (existsb_ext_in _ _ _ (fun y Hy => proj2 (sc_poly y Hy))),
      (existsb_ext_in _ _ _ (fun l Hl => sc_on_edges _ (Il l Hl))), (existsb_ext_in (pt_eqb p) (pt_eqb w) (g_points g) Hpt).
    replace (odd_ends (flat_map line_ends (g_lines g)) p) with (odd_ends (flat_map line_ends (g_lines g)) w); [reflexivity|].
    symmetry. apply fold_xor_ext. intros e He. apply in_flat_map in He. destruct He as [l [Hl He]].
    destruct (line_ends_in l e He) as [s [Hs [->| ->]]]; apply (Hend s (Il l Hl s Hs)).
  Qed.
End Indistinguishable.

Theorem locate_same_cell L P g p w :
  covers_geom L P g -> rings_closed g -> same_cell L (vertex_set L P) p w -> locate g p = locate g w.
Proof.
  intros [Is Ip] Hclosed [Sseg Svtx]. apply locate_indistinguishable; [exact Hclosed | | |].
  - intros e He. exact (Sseg e (Is e He)).
  - intros e He. destruct (seg_end_vertex L P e (Is e He)). split; apply Svtx; assumption.
  - intros v Hv. apply Svtx. unfold vertex_set. rewrite !in_app_iff. right. right. exact (Ip v Hv).
Qed.


(* ---------------- qinsert / qsort *)
Lemma qinsert_in x l y : In y (qinsert x l) -> y = x \/ In y l.
Proof.
  induction l as [|z l IH]; simpl; [intuition|].
  destruct (x ?= z); simpl; intuition.
Qed.
Lemma qinsert_keeps x l y : In y l -> In y (qinsert x l).
Proof.
  induction l as [|z l IH]; simpl; [tauto|].
  destruct (x ?= z); simpl; intuition.
Qed.
Lemma qinsert_has x l : exists y, In y (qinsert x l) /\ y == x.
Proof.
  induction l as [|z l IH]; simpl.
  - exists x. split; [auto | reflexivity].
  - destruct (x ?= z) eqn:E.
    + apply Qeq_alt in E. exists z. split; [left; reflexivity | symmetry; exact E].
    + exists x. split; [left; reflexivity | reflexivity].
    + destruct IH as [y [Hy Ey]]. exists y. split; [right; exact Hy | exact Ey].
Qed.

(* strictly increasing *)
Inductive qsorted : list Q -> Prop :=
| qs_nil : qsorted []
| qs_one : forall x, qsorted [x]
| qs_cons : forall x y l, x < y -> qsorted (y :: l) -> qsorted (x :: y :: l).

Lemma qinsert_sorted x l : qsorted l -> qsorted (qinsert x l).
Proof.
  induction 1 as [|z|z y l Hzy Hs IH]; simpl.
  - constructor.
  - destruct (x ?= z) eqn:E.
    + constructor.
    + apply Qlt_alt in E. constructor; [exact E | constructor].
    + apply Qgt_alt in E. constructor; [exact E | constructor].
  - destruct (x ?= z) eqn:E.
    + constructor; assumption.
    + apply Qlt_alt in E. constructor; [exact E|]. constructor; assumption.
    + apply Qgt_alt in E. simpl in IH. destruct (x ?= y) eqn:E2.
      * constructor; assumption.
      * apply Qlt_alt in E2. constructor; [exact E|]. exact IH.
      * constructor; [exact Hzy | exact IH].
Qed.
Lemma qsort_sorted l : qsorted (qsort l).
Proof. induction l; simpl; [constructor | apply qinsert_sorted; assumption]. Qed.
Lemma qsort_in l y : In y (qsort l) -> In y l.
Proof.
  induction l as [|x l IH]; simpl; [tauto|]. intros H. apply qinsert_in in H. destruct H; auto.
Qed.
Lemma qsort_has l x : In x l -> exists y, In y (qsort l) /\ y == x.
Proof.
  induction l as [|z l IH]; simpl; [tauto|]. intros [->|H].
  - apply qinsert_has.
  - destruct (IH H) as [y [Hy Ey]]. exists y. split; [apply qinsert_keeps; exact Hy | exact Ey].
Qed.

(* ---------------- consecutive pairs of a list *)
Fixpoint consec (l : list Q) : list (Q * Q) :=
  match l with
  | x :: ((y :: _) as r) => (x, y) :: consec r
  | _ => []
  end.

Lemma qsorted_tail x l : qsorted (x :: l) -> qsorted l.
Proof. inversion 1; subst; [constructor | assumption]. Qed.
Lemma qsorted_head_lt x l y : qsorted (x :: l) -> In y l -> x < y.
Proof.
  revert x. induction l as [|z l IH]; intros x H Hy; [destruct Hy|].
  inversion H; subst. destruct Hy as [<-|Hy]; [assumption|].
  apply Qlt_trans with z; [assumption|]. apply IH; assumption.
Qed.
Lemma qsorted_head_le x l y : qsorted (x :: l) -> In y (x :: l) -> x <= y.
Proof. intros H [<-|Hy]; [lra | apply Qlt_le_weak, (qsorted_head_lt x l y H Hy)]. Qed.
Lemma qsorted_last_ge x l y : qsorted (x :: l) -> In y (x :: l) -> y <= last l x.
Proof.
  revert x y. induction l as [|z l IH]; intros x y H Hy.
  - destruct Hy as [<-|[]]. simpl. lra.
  - rewrite last_cons_default. inversion H; subst. destruct Hy as [<-|Hy].
    + apply Qle_trans with z; [lra|]. apply (IH z z); [assumption | left; reflexivity].
    + apply (IH z y); assumption.
Qed.

(* where a value sits relative to a non-empty strictly increasing list *)
Lemma qsorted_position x l t : qsorted (x :: l) ->
  t < x \/ last l x < t \/ (exists y, In y (x :: l) /\ t == y) \/
  (exists y1 y2, In (y1, y2) (consec (x :: l)) /\ y1 < t < y2).
Proof.
  revert x. induction l as [|z l IH]; intros x H; destruct (Q_dec t x) as [[H1|H1]|H1]; auto.
  - right. right. left. exists x. split; [left; reflexivity | exact H1].
  - rewrite last_cons_default.
    destruct (IH z (qsorted_tail _ _ H)) as [K|[K|[[y [Hy Ey]]|[y1 [y2 [Hy Hb]]]]]].
    + right. right. right. exists x, z. split; [left; reflexivity | split; assumption].
    + auto.
    + right. right. left. exists y. split; [right; exact Hy | exact Ey].
    + right. right. right. exists y1, y2. split; [right; exact Hy | exact Hb].
  - right. right. left. exists x. split; [left; reflexivity | exact H1].
Qed.

Lemma consec_in l y1 y2 : In (y1, y2) (consec l) -> In y1 l /\ In y2 l.
Proof.
  induction l as [|x [|z l] IH]; try (intros []; fail). intros [Hc|Hc].
  - injection Hc as <- <-. split; [left; reflexivity | right; left; reflexivity].
  - destruct (IH Hc). split; right; assumption.
Qed.
(* no element of the list lies strictly inside a consecutive pair *)
Lemma consec_gap l y1 y2 y : qsorted l -> In (y1, y2) (consec l) -> In y l -> y <= y1 \/ y2 <= y.
Proof.
  induction l as [|x [|z l] IH]; intros H Hc Hy; try (destruct Hc; fail). destruct Hc as [Hc|Hc].
  - injection Hc as <- <-. destruct Hy as [<-|Hy]; [left; lra | right].
    exact (qsorted_head_le z l y (qsorted_tail _ _ H) Hy).
  - destruct Hy as [<-|Hy]; [left | exact (IH (qsorted_tail _ _ H) Hc Hy)].
    apply Qlt_le_weak, (qsorted_head_lt x (z :: l) y1 H), (consec_in (z :: l) y1 y2 Hc).
Qed.
Lemma consec_lt l y1 y2 : qsorted l -> In (y1, y2) (consec l) -> y1 < y2.
Proof.
  induction l as [|x [|z l] IH]; intros H Hc; try (destruct Hc; fail). destruct Hc as [Hc|Hc].
  - injection Hc as <- <-. inversion H; assumption.
  - apply IH; [apply qsorted_tail in H; exact H | exact Hc].
Qed.

Lemma qltb_le a b : Qeq_bool a b = false -> qltb a b = Qle_bool a b.
Proof.
  intros H. apply Qeq_bool_false_iff in H. apply eq_true_iff_eq. rewrite qltb_iff, Qle_bool_iff. split; intros K; lra.
Qed.

(* ---------------- where the witnesses are *)
Lemma gaps_between_map x ys mid :
  gaps_between x ys mid = map (fun g => ((x, qmid (fst g) (snd g)), mid (fst g) (snd g))) (consec ys).
Proof. induction ys as [|a [|b ys] IH]; try reflexivity. cbn [gaps_between consec map fst snd] in *. rewrite IH. reflexivity. Qed.
Lemma slabs_between_flat_map L xs :
  slabs_between L xs = flat_map (fun s => slab_witnesses L (fst s) (snd s)) (consec xs).
Proof. induction xs as [|a [|b xs] IH]; try reflexivity. cbn [slabs_between consec flat_map fst snd] in *. rewrite IH. reflexivity. Qed.
Lemma gaps_between_in x ys mid y1 y2 :
  In (y1, y2) (consec ys) -> In ((x, qmid y1 y2), mid y1 y2) (gaps_between x ys mid).
Proof.
  intros H. rewrite gaps_between_map. exact (in_map (fun g => ((x, qmid (fst g) (snd g)), mid (fst g) (snd g))) _ (y1, y2) H).
Qed.
Lemma slabs_between_in L xs x0 x1 w :
  In (x0, x1) (consec xs) -> In w (slab_witnesses L x0 x1) -> In w (slabs_between L xs).
Proof. intros H Hw. rewrite slabs_between_flat_map. apply in_flat_map. exists (x0, x1). auto. Qed.
Lemma column_ext x ys at_y at_y' mid mid' : (forall y, at_y y = at_y' y) -> (forall a b, mid a b = mid' a b) ->
  column x ys at_y mid = column x ys at_y' mid'.
Proof.
  intros Ha Hm. unfold column. destruct ys as [|y1 r]; [reflexivity|]. rewrite !gaps_between_map. f_equal. f_equal. f_equal.
  - apply map_ext. intros y. rewrite Ha. reflexivity.
  - apply map_ext. intros g. rewrite Hm. reflexivity.
Qed.
Lemma column_below x y1 ys at_y mid : In ((x, Qred (y1 - 1)), D2) (column x (y1 :: ys) at_y mid).
Proof. unfold column. left. reflexivity. Qed.
Lemma column_above x y1 ys at_y mid : In ((x, Qred (last (y1 :: ys) y1 + 1)), D2) (column x (y1 :: ys) at_y mid).
Proof. unfold column. right. left. reflexivity. Qed.
Lemma column_at x ys at_y mid y : In y ys -> In ((x, y), at_y y) (column x ys at_y mid).
Proof.
  intros H. unfold column. destruct ys as [|y1 r]; [destruct H|].
  right. right. apply in_or_app. left. apply (in_map (fun y => ((x, y), at_y y))). exact H.
Qed.
Lemma column_gap x ys at_y mid y1 y2 :
  In (y1, y2) (consec ys) -> In ((x, qmid y1 y2), mid y1 y2) (column x ys at_y mid).
Proof.
  intros H. unfold column. destruct ys as [|a r]; [destruct H|].
  right. right. apply in_or_app. right. apply gaps_between_in. exact H.
Qed.


(* height of the supporting line of s at abscissa x (seg_y_at without normalisation) *)
Definition y_at (s : seg) (x : Q) : Q :=
  snd (fst s) + (x - fst (fst s)) * (snd (snd s) - snd (fst s)) / (fst (snd s) - fst (fst s)).
Definition nonvertical (s : seg) : Prop := ~ fst (fst s) == fst (snd s).

Lemma seg_y_at_eq s x : seg_y_at s x == y_at s x.
Proof. destruct s as [a b]. unfold seg_y_at, y_at; cbn [fst snd]. apply Qred_correct. Qed.
Global Instance y_at_proper s : Proper (Qeq ==> Qeq) (y_at s).
Proof. intros x x' E. unfold y_at. rewrite E. reflexivity. Qed.
Lemma seg_vertical_false s : seg_vertical s = false <-> nonvertical s.
Proof. unfold seg_vertical, nonvertical. apply Qeq_bool_false_iff. Qed.
Lemma seg_vertical_true s : seg_vertical s = true <-> fst (fst s) == fst (snd s).
Proof. unfold seg_vertical. apply Qeq_bool_iff. Qed.

(* cross product against the height *)
Lemma cross_y_at a b p : nonvertical (a, b) ->
  cross a b p == (fst b - fst a) * (snd p - y_at (a, b) (fst p)).
Proof.
  unfold nonvertical, cross, y_at; cbn [fst snd]. intros H. field. intros K. apply H. lra.
Qed.

(* affine in x *)
Lemma y_at_affine s x x' lam : nonvertical s ->
  y_at s ((1 - lam) * x + lam * x') == (1 - lam) * y_at s x + lam * y_at s x'.
Proof.
  destruct s as [a b]. unfold nonvertical, y_at; cbn [fst snd]. intros H. field. intros K. apply H. lra.
Qed.
Lemma y_at_ends a b : nonvertical (a, b) -> y_at (a, b) (fst a) == snd a /\ y_at (a, b) (fst b) == snd b.
Proof.
  unfold nonvertical, y_at; cbn [fst snd]. intros H. split; field; intros K; apply H; lra.
Qed.

(* membership in a non-vertical segment: abscissa in range and ordinate = height *)
Lemma on_seg_y_at a b p : nonvertical (a, b) ->
  on_seg (a, b) p = qbetween (fst a) (fst b) (fst p) && Qeq_bool (snd p) (y_at (a, b) (fst p)).
Proof.
  intros NV. apply eq_true_iff_eq. rewrite andb_true_iff, Qeq_bool_iff, qbetween_iff.
  pose proof (cross_y_at a b p NV) as C. unfold nonvertical in NV; cbn [fst snd] in NV.
  split.
  - intros H. unfold on_seg in H. rewrite !andb_true_iff, Qeq_bool_iff, !qbetween_iff in H.
    destruct H as [[Hx Hy] Hc]. split; [exact Hx|]. rewrite C in Hc.
    apply Qmult_integral in Hc. destruct Hc as [Hc|Hc]; [exfalso; apply NV; lra | lra].
  - intros [Hx Hy]. apply on_seg_iff. destruct (between_param _ _ _ NV Hx) as [t [Ht Ex]].
    exists t. split; [exact Ht|]. split; [exact Ex|].
    rewrite Hy. unfold y_at; cbn [fst snd]. rewrite Ex. field. intros K. apply NV. lra.
Qed.

(* the vertical-ray crossing against the height *)
Lemma vcross_y_at a b p : nonvertical (a, b) ->
  vcross a b p = negb (Bool.eqb (Qle_bool (fst a) (fst p)) (Qle_bool (fst b) (fst p)))
                 && qltb (snd p) (y_at (a, b) (fst p)).
Proof.
  intros NV. pose proof (cross_y_at a b p NV) as C.
  assert (C' : cross b a p == - cross a b p) by (unfold cross; ring).
  unfold vcross. unfold nonvertical in NV; cbn [fst snd] in NV.
  destruct (Qle_bool (fst a) (fst p)) eqn:Xa; destruct (Qle_bool (fst b) (fst p)) eqn:Xb; cbn [Bool.eqb negb andb]; try reflexivity.
  - apply Qle_bool_iff in Xa. apply Qle_bool_false_iff in Xb.
    apply eq_true_iff_eq. rewrite !qltb_iff. rewrite C. split; intros H; nra.
  - apply Qle_bool_iff in Xb. apply Qle_bool_false_iff in Xa.
    apply eq_true_iff_eq. rewrite !qltb_iff. rewrite C', C. split; intros H; nra.
Qed.
Lemma vcross_vertical a b p : fst a == fst b -> vcross a b p = false.
Proof. intros E. unfold vcross. rewrite E. rewrite eqb_reflx. reflexivity. Qed.
Lemma on_seg_vertical a b p : fst a == fst b ->
  on_seg (a, b) p = Qeq_bool (fst p) (fst a) && qbetween (snd a) (snd b) (snd p).
Proof.
  intros E. apply eq_true_iff_eq. unfold on_seg. rewrite !andb_true_iff, !Qeq_bool_iff, !qbetween_iff.
  unfold cross. split.
  - intros [[Hx Hy] _]. split; [lra | exact Hy].
  - intros [Hx Hy]. split; [split; [left; lra | exact Hy]|]. rewrite Hx, E. ring.
Qed.


Lemma on_seg_height e x y : nonvertical e -> qbetween (fst (fst e)) (fst (snd e)) x = true ->
  on_seg e (x, y) = Qeq_bool y (y_at e x).
Proof. destruct e as [a b]. intros NV B. rewrite on_seg_y_at by exact NV. cbn [fst snd] in *. rewrite B. reflexivity. Qed.
Lemma vcross_outside a b p : qbetween (fst a) (fst b) (fst p) = false -> vcross a b p = false.
Proof.
  intros B. unfold vcross.
  destruct (Qle_bool (fst a) (fst p)) eqn:Xa; destruct (Qle_bool (fst b) (fst p)) eqn:Xb; try reflexivity; exfalso;
    rewrite ?Qle_bool_iff, ?Qle_bool_false_iff in *;
    (assert (qbetween (fst a) (fst b) (fst p) = true) by (apply qbetween_iff; lra)); congruence.
Qed.

(* every pair of segments of L has its intersection points among the vertices *)
Lemma pair_points_complete L s t :
  In s L -> In t L ->
  s = t \/ incl (ssr_points (seg_seg s t)) (pair_points L) \/ incl (ssr_points (seg_seg t s)) (pair_points L).
Proof.
  induction L as [|h r IH]; intros Hs Ht; [destruct Hs|].
  simpl. destruct Hs as [<-|Hs]; destruct Ht as [<-|Ht].
  - left. reflexivity.
  - right. left. intros q Hq. apply in_or_app. left. apply in_flat_map. exists t. auto.
  - right. right. intros q Hq. apply in_or_app. left. apply in_flat_map. exists s. auto.
  - destruct (IH Hs Ht) as [E|[I|I]]; [auto | right; left | right; right];
      intros q Hq; apply in_or_app; right; apply I; exact Hq.
Qed.
Lemma common_point_vertex L s t q :
  In s L -> In t L -> on_seg s q = true -> on_seg t q = true ->
  s = t \/ exists r, In r (pair_points L) /\ on_seg s r = true /\ on_seg t r = true.
Proof.
  assert (K : forall s t, on_seg s q = true -> on_seg t q = true -> exists r, In r (ssr_points (seg_seg s t))).
  { intros s' t' Hs Ht. pose proof (seg_seg_complete s' t' q Hs Ht).
    destruct (seg_seg s' t'); [congruence | |]; eexists; left; reflexivity. }
  intros Hs Ht Os Ot. destruct (pair_points_complete L s t Hs Ht) as [E|[I|I]]; [left; exact E | right | right].
  - destruct (K s t Os Ot) as [r Hr]. exists r. split; [exact (I r Hr) | exact (seg_seg_sound s t r Hr)].
  - destruct (K t s Ot Os) as [r Hr]. exists r. split; [exact (I r Hr) | apply and_comm; exact (seg_seg_sound t s r Hr)].
Qed.

Lemma affine_two_zeros e f z1 z2 : nonvertical e -> nonvertical f ->
  y_at e z1 == y_at f z1 -> y_at e z2 == y_at f z2 -> ~ z1 == z2 -> forall u, y_at e u == y_at f u.
Proof.
  intros Ne Nf H1 H2 Hz u.
  assert (Hd : ~ z2 - z1 == 0) by (intros K; apply Hz; lra).
  assert (Eu : u == (1 - (u - z1) / (z2 - z1)) * z1 + (u - z1) / (z2 - z1) * z2) by (field; exact Hd).
  rewrite Eu. rewrite (y_at_affine e), (y_at_affine f) by assumption. rewrite H1, H2. reflexivity.
Qed.

Section Slab.
  Variables (L : list seg) (P : list pt).
  Let V := vertex_set L P.
  Let xs := events V.
  Variables x0 x1 : Q.
  Hypothesis Hcons : In (x0, x1) (consec xs).

  Lemma slab_lt : x0 < x1.
  Proof. apply (consec_lt xs); [apply qsort_sorted | exact Hcons]. Qed.

  (* no vertex has its abscissa strictly inside the slab *)
  Lemma slab_no_vertex v : In v V -> fst v <= x0 \/ x1 <= fst v.
  Proof.
    intros Hv. destruct (qsort_has (map fst V) (fst v) (in_map fst V v Hv)) as [x [Hx Ex]].
    destruct (consec_gap xs x0 x1 x (qsort_sorted _) Hcons Hx) as [H|H]; [left | right]; lra.
  Qed.

  (* e is non-vertical and its x-range contains the closed slab *)
  Definition spans (e : seg) : Prop :=
    nonvertical e /\ ((fst (fst e) <= x0 /\ x1 <= fst (snd e)) \/ (fst (snd e) <= x0 /\ x1 <= fst (fst e))).

  (* for abscissae inside the slab the tests used by the construction do not depend on the abscissa *)
  Lemma spans_iff e t : In e L -> x0 < t < x1 -> nonvertical e ->
    ((fst (fst e) < t /\ t < fst (snd e)) \/ (fst (snd e) < t /\ t < fst (fst e))) <-> spans e.
  Proof.
    intros He Ht NV. destruct (seg_end_vertex L P e He) as [Ha Hb]. unfold spans.
    destruct (slab_no_vertex _ Ha); destruct (slab_no_vertex _ Hb); split; intros K;
      try (split; [exact NV|]); try lra; destruct K as [_ K]; lra.
  Qed.
  Lemma spans_between e t : spans e -> x0 < t < x1 -> qbetween (fst (fst e)) (fst (snd e)) t = true.
  Proof. intros [_ H] Ht. apply qbetween_iff. pose proof slab_lt. lra. Qed.
  Lemma between_spans e t : In e L -> x0 < t < x1 -> nonvertical e ->
    qbetween (fst (fst e)) (fst (snd e)) t = true -> spans e.
  Proof.
    intros He Ht NV B. apply (spans_iff e t He Ht NV). apply qbetween_iff in B.
    destruct (seg_end_vertex L P e He) as [Ha Hb]. destruct (slab_no_vertex _ Ha); destruct (slab_no_vertex _ Hb); lra.
  Qed.

  (* a common point of two spanning segments of L strictly inside the slab forces identical lines:
     otherwise the two segments would share a vertex r, at another abscissa, and two common points *)
  Lemma zero_in_slab e f u : In e L -> In f L -> spans e -> spans f -> x0 < u < x1 ->
    y_at e u == y_at f u -> forall u', y_at e u' == y_at f u'.
  Proof.
    intros He Hf Se Sf Hu Hz.
    destruct (common_point_vertex L e f (u, y_at e u) He Hf) as [<-|[r [Hr [Re Rf]]]].
    - rewrite on_seg_height by (apply Se || apply (spans_between e u Se Hu)). apply Qeq_bool_iff. reflexivity.
    - rewrite on_seg_height by (apply Sf || apply (spans_between f u Sf Hu)). apply Qeq_bool_iff. exact Hz.
    - reflexivity.
    - assert (Hv : In r V) by (apply in_or_app; right; apply in_or_app; left; exact Hr).
      destruct e as [a b], f as [c d]. rewrite on_seg_y_at in Re, Rf by (apply Se || apply Sf).
      apply andb_true_iff in Re, Rf. destruct Re as [_ Re], Rf as [_ Rf]. apply Qeq_bool_iff in Re, Rf.
      apply (affine_two_zeros (a, b) (c, d) (fst r) u); [apply Se | apply Sf | lra | exact Hz |].
      destruct (slab_no_vertex r Hv); lra.
  Qed.

  (* the vertical order of two spanning segments is the same at all abscissae of the open slab *)
  Lemma order_lt e f t t' : In e L -> In f L -> spans e -> spans f -> x0 < t < x1 -> x0 < t' < x1 ->
    y_at e t < y_at f t -> y_at e t' < y_at f t'.
  Proof.
    intros He Hf Se Sf Ht Ht' H.
    destruct (Qlt_le_dec (y_at e t') (y_at f t')) as [K|K]; [exact K | exfalso].
    set (dt := y_at e t - y_at f t). set (dt' := y_at e t' - y_at f t').
    assert (Hdt : dt < 0) by (unfold dt; lra). assert (Hdt' : 0 <= dt') by (unfold dt'; lra).
    assert (Hden : ~ dt - dt' == 0) by lra.
    set (lam := dt / (dt - dt')).
    assert (El : lam * (dt - dt') == dt) by (unfold lam; field; exact Hden).
    assert (Hl : 0 < lam <= 1) by (split; nra).
    set (u := (1 - lam) * t + lam * t').
    assert (Hu : x0 < u < x1) by (unfold u; split; nra).
    assert (Hz : y_at e u == y_at f u).
    { unfold u. rewrite (y_at_affine e), (y_at_affine f) by (apply Se || apply Sf).
      fold dt in El. unfold dt, dt' in El. nra. }
    pose proof (zero_in_slab e f u He Hf Se Sf Hu Hz t) as Z. lra.
  Qed.
  Lemma order_eq e f t t' : In e L -> In f L -> spans e -> spans f -> x0 < t < x1 ->
    y_at e t == y_at f t -> y_at e t' == y_at f t'.
  Proof. intros He Hf Se Sf Ht H. apply (zero_in_slab e f t He Hf Se Sf Ht H). Qed.
  Lemma order_compare e f t t' : In e L -> In f L -> spans e -> spans f -> x0 < t < x1 -> x0 < t' < x1 ->
    (y_at e t ?= y_at f t) = (y_at e t' ?= y_at f t').
  Proof.
    intros He Hf Se Sf Ht Ht'.
    destruct (y_at e t ?= y_at f t) eqn:E; symmetry.
    - apply Qeq_alt in E. apply Qeq_alt. apply (order_eq e f t t'); auto.
    - apply Qlt_alt in E. apply Qlt_alt. apply (order_lt e f t t'); auto.
    - apply Qgt_alt in E. apply Qgt_alt. apply (order_lt f e t t'); auto.
  Qed.
End Slab.


Lemma Qeq_bool_compare a b : Qeq_bool a b = match a ?= b with Eq => true | _ => false end.
Proof. destruct (Qcompare_spec a b); [apply Qeq_bool_iff | apply Qeq_bool_false_iff | apply Qeq_bool_false_iff]; lra. Qed.
Lemma qltb_compare a b : qltb a b = match a ?= b with Lt => true | _ => false end.
Proof. destruct (Qcompare_spec a b); [apply qltb_false_iff | apply qltb_iff | apply qltb_false_iff]; lra. Qed.
Lemma Qle_bool_compare a b : Qle_bool a b = match a ?= b with Gt => false | _ => true end.
Proof. destruct (Qcompare_spec a b); [apply Qle_bool_iff | apply Qle_bool_iff | apply Qle_bool_false_iff]; lra. Qed.
Lemma Qle_bool_compare_r a b : Qle_bool b a = match a ?= b with Lt => false | _ => true end.
Proof. destruct (Qcompare_spec a b); [apply Qle_bool_iff | apply Qle_bool_false_iff | apply Qle_bool_iff]; lra. Qed.
Lemma qbetween_compare a b y y' : (y ?= a) = (y' ?= a) -> (y ?= b) = (y' ?= b) -> qbetween a b y = qbetween a b y'.
Proof.
  intros Ha Hb. unfold qbetween. rewrite !(Qle_bool_compare_r _ a), !(Qle_bool_compare _ b),
    !(Qle_bool_compare_r _ b), !(Qle_bool_compare _ a), Ha, Hb. reflexivity.
Qed.
Lemma Qcompare_same_side x x' v : (x < v /\ x' < v) \/ (v < x /\ v < x') -> (x ?= v) = (x' ?= v).
Proof.
  intros [[A B]|[A B]]; [apply -> Qlt_alt in A; apply -> Qlt_alt in B | apply -> Qgt_alt in A; apply -> Qgt_alt in B];
    congruence.
Qed.
Lemma Qcompare_le_lt t y y' : (t ?= y) = Lt \/ (t ?= y) = Eq -> y < y' -> (t ?= y') = Lt.
Proof. intros [H|H] K; [apply Qlt_alt in H | apply Qeq_alt in H]; apply -> Qlt_alt; lra. Qed.
Global Instance qltb_proper : Proper (Qeq ==> Qeq ==> eq) qltb.
Proof. intros a a' Ea b b' Eb. unfold qltb. rewrite Ea, Eb. reflexivity. Qed.
Global Instance Qcompare_proper : Proper (Qeq ==> Qeq ==> eq) Qcompare.
Proof. intros a a' Ea b b' Eb. rewrite Ea, Eb. reflexivity. Qed.

Lemma compare_same_cell L P p w :
  (forall v, In v (vertex_set L P) -> (fst p ?= fst v) = (fst w ?= fst v)) ->
  (forall v, In v (vertex_set L P) -> fst p == fst v -> (snd p ?= snd v) = (snd w ?= snd v)) ->
  (forall e, In e L -> nonvertical e -> qbetween (fst (fst e)) (fst (snd e)) (fst p) = true ->
     (snd p ?= y_at e (fst p)) = (snd w ?= y_at e (fst w))) ->
  same_cell L (vertex_set L P) p w.
Proof.
  intros Hx Hy Hh. split.
  - intros [a b] He. destruct (seg_end_vertex L P _ He) as [Ha Hb]. cbn [fst snd] in *.
    pose proof (Hx a Ha) as Xa. pose proof (Hx b Hb) as Xb.
    pose proof (qbetween_compare _ _ _ _ Xa Xb) as B.
    destruct (qbetween (fst a) (fst b) (fst p)) eqn:Bp; symmetry in B.
    2:{ rewrite !vcross_outside by assumption. unfold on_seg. rewrite Bp, B. auto. }
    destruct (seg_vertical (a, b)) eqn:Ev.
    + apply seg_vertical_true in Ev. cbn [fst snd] in Ev.
      rewrite !(on_seg_vertical a b), !(vcross_vertical a b), !Qeq_bool_compare, <- Xa by exact Ev. split; [|reflexivity].
      destruct (fst p ?= fst a) eqn:E; [|reflexivity|reflexivity]. apply Qeq_alt in E.
      apply qbetween_compare; apply Hy; (assumption || lra).
    + apply seg_vertical_false in Ev.
      rewrite !(on_seg_y_at a b), !(vcross_y_at a b), Bp, B by exact Ev.
      rewrite !(Qle_bool_compare_r _ (fst a)), !(Qle_bool_compare_r _ (fst b)), Xa, Xb, !Qeq_bool_compare, !qltb_compare.
      rewrite (Hh (a, b) He Ev Bp). split; reflexivity.
  - intros v Hv. unfold pt_eqb. rewrite !Qeq_bool_compare, <- (Hx v Hv).
    destruct (fst p ?= fst v) eqn:E; [|reflexivity|reflexivity]. apply Qeq_alt in E. rewrite (Hy v Hv E). reflexivity.
Qed.

(* two points of the open slab that compare alike with every spanning segment are in the same cell *)
Lemma slab_same_cell L P x0 x1 : In (x0, x1) (consec (events (vertex_set L P))) -> forall p w,
  x0 < fst p < x1 -> x0 < fst w < x1 ->
  (forall e, In e L -> spans x0 x1 e -> (snd p ?= y_at e (fst p)) = (snd w ?= y_at e (fst w))) ->
  same_cell L (vertex_set L P) p w.
Proof.
  intros Hcons p w Hp Hw Hc. apply compare_same_cell.
  - intros v Hv. apply Qcompare_same_side. destruct (slab_no_vertex L P x0 x1 Hcons v Hv); [right | left]; split; lra.
  - intros v Hv E. destruct (slab_no_vertex L P x0 x1 Hcons v Hv); lra.
  - intros e He NV B. apply (Hc e He), (between_spans L P x0 x1 Hcons e (fst p) He Hp NV B).
Qed.

Section EventCell.
  Variables (L : list seg) (P : list pt).
  Let V := vertex_set L P.

  Lemma ordinate_vertex x v : In v V -> fst v == x -> exists y, In y (line_ordinates L V x) /\ y == snd v.
  Proof.
    intros Hv Ex. apply qsort_has. apply in_or_app. left. unfold vertex_ordinates. apply in_flat_map.
    exists v. split; [exact Hv|]. apply Qeq_bool_iff in Ex. rewrite Ex. left. reflexivity.
  Qed.
  Lemma ordinate_crossing x e : In e L -> nonvertical e -> qbetween (fst (fst e)) (fst (snd e)) x = true ->
    exists y, In y (line_ordinates L V x) /\ y == y_at e x.
  Proof.
    intros He NV B. assert (K : exists y, In y (line_ordinates L V x) /\ y == seg_y_at e x).
    { apply qsort_has. apply in_or_app. right. apply in_flat_map. exists e. split; [exact He|].
      apply seg_vertical_false in NV. rewrite NV, B. left. reflexivity. }
    destruct K as [y [Hy Ey]]. exists y. split; [exact Hy|]. rewrite Ey. apply seg_y_at_eq.
  Qed.
  Lemma ordinate_inv x y : In y (line_ordinates L V x) ->
    In y (vertex_ordinates V x) \/
    exists e, In e L /\ nonvertical e /\ qbetween (fst (fst e)) (fst (snd e)) x = true /\ y = seg_y_at e x.
  Proof.
    intros H. apply qsort_in, in_app_or in H. destruct H as [H|H]; [left; exact H | right].
    apply in_flat_map in H. destruct H as [e [He H]]. exists e.
    destruct (seg_vertical e) eqn:Ev; [destruct H|]. apply seg_vertical_false in Ev.
    destruct (qbetween (fst (fst e)) (fst (snd e)) x); [|destruct H]. destruct H as [<-|[]]. auto.
  Qed.

  (* two points of the vertical line x that compare alike with every ordinate of the line are in the same cell *)
  Lemma event_same_cell x p w :
    fst p == x -> fst w == x ->
    (forall y, In y (line_ordinates L V x) -> (snd p ?= y) = (snd w ?= y)) ->
    same_cell L V p w.
  Proof.
    intros Hp Hw Hc.
    assert (Cmp : forall y0, (exists y, In y (line_ordinates L V x) /\ y == y0) -> (snd p ?= y0) = (snd w ?= y0)).
    { intros y0 [y [Hy Ey]]. rewrite <- Ey. apply Hc. exact Hy. }
    apply compare_same_cell.
    - intros v _. rewrite Hp, Hw. reflexivity.
    - intros v Hv E. apply Cmp, ordinate_vertex; [exact Hv | lra].
    - intros e He NV B. rewrite Hp, Hw in *. apply Cmp, ordinate_crossing; assumption.
  Qed.
End EventCell.


Lemma qsorted_eq_unique l y y' : qsorted l -> In y l -> In y' l -> y == y' -> y = y'.
Proof.
  induction l as [|x l IH]; intros H Hy Hy' E; [destruct Hy|].
  destruct Hy as [<-|Hy]; destruct Hy' as [<-|Hy'].
  - reflexivity.
  - pose proof (qsorted_head_lt x l y' H Hy'). lra.
  - pose proof (qsorted_head_lt x l y H Hy). lra.
  - apply IH; auto. apply qsorted_tail in H. exact H.
Qed.
Lemma qmid_eq a b : qmid a b == (a + b) / 2.
Proof. unfold qmid. apply Qred_correct. Qed.
Lemma qmid_between a b : a < b -> a < qmid a b < b.
Proof.
  intros H. rewrite qmid_eq. assert (Em : 2 * ((a + b) / 2) == a + b) by field.
  set (m := (a + b) / 2) in *. split; lra.
Qed.
Lemma consec_tail x l p : In p (consec l) -> In p (consec (x :: l)).
Proof. destruct l as [|y l]; [intros []|]. intros H. right. exact H. Qed.

Section Oracle.
  Variable c : Q -> comparison.   (* how the point under consideration compares with the height y *)

  (* an oracle is monotone on the list if "not above y" implies "below every larger y'" *)
  Definition mono (ys : list Q) : Prop :=
    forall y y', In y ys -> In y' ys -> y < y' -> (c y = Lt \/ c y = Eq) -> c y' = Lt.

  Lemma mono_tail x l : mono (x :: l) -> mono l.
  Proof. intros M y y' Hy Hy'. apply M; right; assumption. Qed.

  Lemma mono_Lt ys y y' : qsorted ys -> mono ys -> In y ys -> In y' ys -> y <= y' -> c y = Lt -> c y' = Lt.
  Proof.
    intros S M Hy Hy' Le C. destruct (Qlt_le_dec y y') as [K|K]; [apply (M y y'); auto|].
    rewrite <- (qsorted_eq_unique ys y y' S Hy Hy'); [exact C | lra].
  Qed.
  Lemma mono_Gt ys y y' : qsorted ys -> mono ys -> In y ys -> In y' ys -> y <= y' -> c y' = Gt -> c y = Gt.
  Proof.
    intros S M Hy Hy' Le C. destruct (Qlt_le_dec y y') as [K|K].
    - destruct (c y) eqn:Cy; [| |reflexivity]; rewrite (M y y') in C by auto; discriminate.
    - rewrite (qsorted_eq_unique ys y y' S Hy Hy'); [exact C | lra].
  Qed.

  Lemma boundary y1 r : qsorted (y1 :: r) -> mono (y1 :: r) -> c y1 = Gt ->
    (forall y, In y (y1 :: r) -> c y = Gt) \/
    (exists y, In y r /\ forall y', In y' (y1 :: r) -> c y' = (y ?= y')) \/
    (exists ya yb, In (ya, yb) (consec (y1 :: r)) /\ c ya = Gt /\ c yb = Lt).
  Proof.
    revert y1. induction r as [|y2 r IH]; intros y1 S M G.
    - left. intros y [<-|[]]. exact G.
    - assert (L12 : y1 < y2) by (inversion S; assumption).
      destruct (c y2) eqn:C2.
      + right. left. exists y2. split; [left; reflexivity|]. intros y' [<-|[<-|Hy']].
        * rewrite G. symmetry. apply -> Qgt_alt. exact L12.
        * rewrite C2. symmetry. apply -> Qeq_alt. reflexivity.
        * pose proof (qsorted_head_lt y2 r y' (qsorted_tail _ _ S) Hy') as K.
          rewrite (M y2 y') by (simpl; auto). symmetry. apply -> Qlt_alt. exact K.
      + right. right. exists y1, y2. split; [left; reflexivity | auto].
      + destruct (IH y2 (qsorted_tail _ _ S) (mono_tail _ _ M) C2) as [A|[[y [Hy A]]|[ya [yb [Hc A]]]]].
        * left. intros y [<-|Hy]; [exact G | apply A; exact Hy].
        * right. left. exists y. split; [right; exact Hy|]. intros y' [<-|Hy']; [|apply A; exact Hy'].
          rewrite G. symmetry. apply -> Qgt_alt.
          pose proof (qsorted_head_lt y2 r y (qsorted_tail _ _ S) Hy). lra.
        * right. right. exists ya, yb. split; [apply consec_tail; exact Hc | exact A].
  Qed.

  (* some witness of the column compares with every listed height exactly as the oracle says *)
  Lemma column_oracle x ys at_y mid : qsorted ys -> mono ys ->
    exists w d, In (w, d) (column x ys at_y mid) /\ fst w = x /\ forall y, In y ys -> c y = (snd w ?= y).
  Proof.
    intros S M. destruct ys as [|y1 r].
    - exists (x, 0), D2. split; [left; reflexivity|]. split; [reflexivity | intros y []].
    - assert (I1 : In y1 (y1 :: r)) by (left; reflexivity). destruct (c y1) eqn:C1.
      + exists (x, y1), (at_y y1). split; [apply column_at; exact I1|]. split; [reflexivity|].
        intros y [<-|Hy]; cbn [snd].
        * rewrite C1. symmetry. apply -> Qeq_alt. reflexivity.
        * pose proof (qsorted_head_lt y1 r y S Hy) as K.
          rewrite (M y1 y) by (simpl; auto). symmetry. apply -> Qlt_alt. exact K.
      + exists (x, Qred (y1 - 1)), D2. split; [apply column_below|]. split; [reflexivity|].
        intros y Hy; cbn [snd]. pose proof (qsorted_head_le y1 r y S Hy) as K.
        rewrite Qred_correct, (mono_Lt _ y1 y S M I1 Hy K C1). symmetry. apply -> Qlt_alt. lra.
      + destruct (boundary y1 r S M C1) as [A|[[y0 [Hy0 A]]|[ya [yb [Hc [Ca Cb]]]]]].
        * exists (x, Qred (last (y1 :: r) y1 + 1)), D2. split; [apply column_above|]. split; [reflexivity|].
          intros y Hy; cbn [snd]. pose proof (qsorted_last_ge y1 r y S Hy) as K.
          rewrite Qred_correct, last_cons_default, (A y Hy). symmetry. apply -> Qgt_alt. lra.
        * exists (x, y0), (at_y y0). split; [apply column_at; right; exact Hy0|]. split; [reflexivity|].
          intros y Hy; cbn [snd]. apply A. exact Hy.
        * exists (x, qmid ya yb), (mid ya yb). split; [apply column_gap; exact Hc|]. split; [reflexivity|].
          intros y Hy; cbn [snd].
          pose proof (qmid_between ya yb (consec_lt _ _ _ S Hc)) as Hm. destruct (consec_in _ _ _ Hc) as [Ia Ib].
          destruct (consec_gap _ _ _ y S Hc Hy) as [K|K].
          -- rewrite (mono_Gt _ y ya S M Hy Ia K Ca). symmetry. apply -> Qgt_alt. lra.
          -- rewrite (mono_Lt _ yb y S M Ib Hy K Cb). symmetry. apply -> Qlt_alt. lra.
  Qed.
End Oracle.
