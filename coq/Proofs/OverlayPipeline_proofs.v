(* Property C01: proofs about the composed exact model of the overlay engine (Model/OverlayPipeline.v).
   Statements are in Props/C01_pipeline.v. *)
From Coq Require Import QArith List Bool Arith Lia Lqa Setoid.
From SF Require Import Base.GeomAST Base.QKernel Base.Planar Model.SetOpSpec Model.OverlayComplex Model.OverlayRings
  Model.OverlayRenode Model.OverlayFixup Model.OverlayPipeline
  Proofs.OverlayRenode_proofs Proofs.OverlayRenode_tree_proofs Proofs.OverlayRenode_ip_proofs Proofs.OverlayFixup_proofs
  Proofs.OverlayComplex_proofs.
Import ListNotations.
Local Open Scope Q_scope.

(* ================================================================ lists *)
Lemma find_idx_some {A} (f : A -> bool) l : forall k i, find_idx f l k = Some i ->
  (k <= i)%nat /\ exists x, nth_error l (i - k) = Some x /\ f x = true /\
  forall j y, (j < i - k)%nat -> nth_error l j = Some y -> f y = false.
Proof.
  induction l as [|a l IH]; intros k i H; [discriminate|]. cbn [find_idx] in H.
  destruct (f a) eqn:Ea.
  - inversion H; subst i. split; [lia|]. rewrite Nat.sub_diag. exists a. repeat split; auto. intros j y Hj; lia.
  - apply IH in H. destruct H as [Hk [x [Hx [Hf Hlt]]]]. split; [lia|]. exists x.
    replace (i - k)%nat with (S (i - S k)) by lia. repeat split; auto.
    intros [|j] y Hj Hy; [inversion Hy; subst; exact Ea|]. apply (Hlt j y); [lia|exact Hy].
Qed.
Lemma find_idx_none {A} (f : A -> bool) l : forall k, find_idx f l k = None <-> forall x, In x l -> f x = false.
Proof.
  induction l as [|a l IH]; intros k; cbn [find_idx]; [split; [intros _ x []|reflexivity]|].
  destruct (f a) eqn:Ea.
  - split; [discriminate|]. intros H. rewrite (H a (or_introl eq_refl)) in Ea. discriminate.
  - rewrite IH. split; [intros H x [<-|Hx]; auto | intros H x Hx; apply H; right; exact Hx].
Qed.
Lemma find_idx_0 {A} (f : A -> bool) l i : find_idx f l 0 = Some i ->
  exists x, nth_error l i = Some x /\ f x = true /\ forall j y, (j < i)%nat -> nth_error l j = Some y -> f y = false.
Proof. intros H. apply find_idx_some in H. rewrite Nat.sub_0_r in H. apply H. Qed.
Lemma find_idx_exists {A} (f : A -> bool) l k : existsb f l = true -> exists i, find_idx f l k = Some i.
Proof.
  intros H. destruct (find_idx f l k) eqn:E; [eauto|]. rewrite find_idx_none in E.
  apply existsb_exists in H. destruct H as [x [Hx Hf]]. rewrite (E x Hx) in Hf. discriminate.
Qed.

Lemma upd_nth_length {A} (f : A -> A) l : forall i, length (upd_nth i f l) = length l.
Proof. induction l as [|a l IH]; intros [|i]; cbn; auto. Qed.
Lemma nth_error_upd_nth {A} (f : A -> A) l : forall i j,
  nth_error (upd_nth i f l) j = if Nat.eqb i j then option_map f (nth_error l j) else nth_error l j.
Proof.
  induction l as [|a l IH]; intros [|i] [|j]; cbn; auto; try (destruct (Nat.eqb _ _); reflexivity).
Qed.
Lemma nth_error_upd_same {A} (f : A -> A) l i x : nth_error l i = Some x -> nth_error (upd_nth i f l) i = Some (f x).
Proof. intros H. rewrite nth_error_upd_nth, Nat.eqb_refl, H. reflexivity. Qed.
Lemma nth_error_upd_other {A} (f : A -> A) l i j : i <> j -> nth_error (upd_nth i f l) j = nth_error l j.
Proof. intros H. rewrite nth_error_upd_nth. apply Nat.eqb_neq in H. rewrite H. reflexivity. Qed.
Lemma upd_nth_twice {A} (f g : A -> A) l : forall i, upd_nth i g (upd_nth i f l) = upd_nth i (fun x => g (f x)) l.
Proof. induction l as [|a l IH]; intros [|i]; cbn; try reflexivity. f_equal. apply IH. Qed.
Lemma upd_nth_comm {A} (f g : A -> A) l : forall i j, i <> j -> upd_nth i f (upd_nth j g l) = upd_nth j g (upd_nth i f l).
Proof.
  induction l as [|a l IH]; intros [|i] [|j] H; cbn; try reflexivity; [congruence|]. f_equal. apply IH. congruence.
Qed.
Lemma nth_error_app_two {A} (l : list A) x y i h : nth_error (l ++ [x; y]) i = Some h <->
  nth_error l i = Some h \/ (i = length l /\ h = x) \/ (i = (length l + 1)%nat /\ h = y).
Proof.
  revert i. induction l as [|a l IH]; intros i.
  - destruct i as [|[|[|i]]]; cbn; intuition (congruence || lia).
  - destruct i as [|i]; cbn [app nth_error length Nat.add]; [|rewrite IH]; intuition (congruence || lia).
Qed.
Lemma list_ends_ind {A} (P : list A -> Prop) :
  P [] -> (forall x, P [x]) -> (forall x l y, P l -> P (x :: l ++ [y])) -> forall l, P l.
Proof.
  intros H0 H1 H2 l. assert (G : forall n k, (length k <= n)%nat -> P k); [|exact (G _ l (le_n _))].
  induction n as [|n IH]; intros [|x k] L; try exact H0; [cbn in L; lia|].
  destruct k as [|y k' _] using rev_ind; [apply H1|]. apply H2, IH. cbn in L. rewrite app_length in L. cbn in L. lia.
Qed.
Lemma hd_rev {A} (l : list A) d : hd d (rev l) = last l d.
Proof. induction l as [|a l _] using rev_ind; [reflexivity|]. rewrite rev_app_distr, last_last. reflexivity. Qed.
Lemma last_rev {A} (l : list A) d : last (rev l) d = hd d l.
Proof. destruct l; [reflexivity|]. apply last_last. Qed.
Lemma last_cons {A} (l : list A) : forall a d, last (a :: l) d = last l a.
Proof. induction l as [|b l IH]; intros a d; [reflexivity|]. change (last (b :: l) d = last (b :: l) a). rewrite !IH. reflexivity. Qed.
Lemma in_app_rev {A} (l : list (list A)) s : In s (l ++ map (@rev A) l) -> In s l \/ exists c, In c l /\ s = rev c.
Proof. intros H. apply in_app_or in H. destruct H as [H|H]; [left; exact H|right]. apply in_map_iff in H. destruct H as [c [<- H]]. eauto. Qed.
Lemma hd_error_rev {A} (l : list A) d : l <> [] -> hd_error (rev l) = Some (last l d).
Proof. induction l as [|a l _] using rev_ind; [congruence|]. intros _. rewrite rev_app_distr, last_last. reflexivity. Qed.

(* ================================================================ sequences up to Qeq *)
Definition seqs_eq (s t : list pt) : Prop := Forall2 pt_eq s t.
Lemma seqs_eq_refl s : seqs_eq s s.
Proof. induction s; constructor; [reflexivity|assumption]. Qed.
Lemma seqs_eq_sym s t : seqs_eq s t -> seqs_eq t s.
Proof. induction 1; constructor; [symmetry|]; assumption. Qed.
Lemma seqs_eq_trans s t u : seqs_eq s t -> seqs_eq t u -> seqs_eq s u.
Proof.
  intros H; revert u; induction H; intros u Hu; inversion Hu; subst; constructor.
  - etransitivity; eauto.
  - apply IHForall2. assumption.
Qed.
Lemma seqs_eq_app s s' t t' : seqs_eq s s' -> seqs_eq t t' -> seqs_eq (s ++ t) (s' ++ t').
Proof. intros H1 H2. apply Forall2_app; assumption. Qed.
Lemma seqs_eq_rev s t : seqs_eq s t -> seqs_eq (rev s) (rev t).
Proof. induction 1; cbn; [constructor|]. apply seqs_eq_app; [assumption|constructor; [assumption|constructor]]. Qed.
Lemma seqs_eq_length s t : seqs_eq s t -> length s = length t.
Proof. induction 1; cbn; congruence. Qed.
Lemma seq_eqb_iff s t : seq_eqb s t = true <-> seqs_eq s t.
Proof.
  unfold seq_eqb. revert t. induction s as [|a s IH]; intros [|b t]; cbn; try (split; [discriminate | intros H; inversion H]).
  - split; constructor.
  - rewrite andb_assoc, (andb_comm _ (pt_eqb a b)), <- andb_assoc, andb_true_iff, pt_eqb_iff, IH.
    split; [intros [H1 H2]; constructor; assumption | intros H; inversion H; auto].
Qed.

(* the key: the first two points *)
Lemma he_key_eqb_spec c d : he_key_eqb c d = true <->
  exists c0 c1 cr d0 d1 dr, c = c0 :: c1 :: cr /\ d = d0 :: d1 :: dr /\ pt_eq c0 d0 /\ pt_eq c1 d1.
Proof.
  destruct c as [|c0 [|c1 cr]]; cbn; try (split; [discriminate | intros (?&?&?&?&?&?&H&_); discriminate]).
  destruct d as [|d0 [|d1 dr]]; try (split; [discriminate | intros (?&?&?&?&?&?&_&H&_); discriminate]).
  rewrite andb_true_iff, !pt_eqb_iff. split.
  - intros [H1 H2]. exists c0, c1, cr, d0, d1, dr. auto.
  - intros (?&?&?&?&?&?&H1&H2&H3&H4). inversion H1; inversion H2; subst. auto.
Qed.
Lemma he_key_eqb_sym c d : he_key_eqb c d = he_key_eqb d c.
Proof.
  assert (K : forall c d, he_key_eqb c d = true -> he_key_eqb d c = true).
  { intros c' d' E1. apply he_key_eqb_spec in E1. destruct E1 as (c0&c1&cr&d0&d1&dr&->&->&H3&H4).
    apply he_key_eqb_spec. exists d0, d1, dr, c0, c1, cr. split; [reflexivity|split; [reflexivity|split; symmetry; assumption]]. }
  destruct (he_key_eqb c d) eqn:E1, (he_key_eqb d c) eqn:E2; auto.
  - apply K in E1. congruence.
  - apply K in E2. congruence.
Qed.
Lemma he_key_eqb_trans c d e : he_key_eqb c d = true -> he_key_eqb d e = true -> he_key_eqb c e = true.
Proof.
  rewrite !he_key_eqb_spec. intros (?&?&?&?&?&?&->&->&H3&H4) (?&?&?&?&?&?&E&->&H5&H6). inversion E; subst.
  do 6 eexists. split; [reflexivity|split; [reflexivity|split; etransitivity; eauto]].
Qed.
Lemma seqs_eq_key s t : seqs_eq s t -> (2 <= length s)%nat -> he_key_eqb s t = true.
Proof.
  intros H L. destruct H as [|a b s t Hab H]; [cbn in L; lia|]. destruct H as [|a' b' s t Ha'b' H]; [cbn in L; lia|].
  apply he_key_eqb_spec. do 6 eexists. split; [reflexivity|split; [reflexivity|split; assumption]].
Qed.
Lemma he_key_len c d : he_key_eqb c d = true -> (2 <= length c)%nat /\ (2 <= length d)%nat.
Proof. rewrite he_key_eqb_spec. intros (?&?&?&?&?&?&->&->&_). cbn. lia. Qed.

(* ================================================================ the half-edge table *)
Lemma chain_shape_len verts c : chain_shape_ok verts c = true -> (2 <= length c)%nat.
Proof. destruct c as [|a [|b c]]; cbn; try discriminate. lia. Qed.

Lemma set_lab_le l m op : lab_le l m = true -> lab_le l (set_lab m op) = true.
Proof. destruct l as [a b], m as [c d], op, a, b, c, d; cbn; auto. Qed.
Lemma set_lab_le2 l m op : lab_le l m = true -> lab_le (set_lab l op) (set_lab m op) = true.
Proof. destruct l as [a b], m as [c d], op, a, b, c, d; cbn; auto. Qed.

Lemma upd_two_app {A} (es : list A) x y f g :
  upd_nth (length es + 1) g (upd_nth (length es) f (es ++ [x; y])) = es ++ [f x; g y].
Proof. induction es as [|a es IH]; [reflexivity|]. cbn [length app Nat.add upd_nth]. f_equal. exact IH. Qed.
Lemma seqs_eq_hd s t p : seqs_eq s t -> hd_error t = Some p -> exists q, hd_error s = Some q /\ pt_eq q p.
Proof. intros H. destruct H as [|a b s t Hab H]; cbn; [discriminate|]. intros E; inversion E; subst. eauto. Qed.

(* the outcome of a step that can fail: P of the new state, d when there is none (d = False: the step does not
   fail; d = True: nothing is claimed if it does) *)
Definition lift (d : Prop) {St} (P : St -> Prop) (o : option St) : Prop := match o with Some s => P s | None => d end.
Lemma lift_obind d {St St'} (P : St -> Prop) (P' : St' -> Prop) o (f : St -> option St') :
  lift d P o -> (forall s, P s -> lift d P' (f s)) -> lift d P' (obind o f).
Proof. destruct o as [s|]; cbn; auto. Qed.
Lemma fold_obind_lift d {St A} (P : St -> Prop) (Q : A -> Prop) (step : St -> A -> option St) :
  (forall st x, P st -> Q x -> lift d P (step st x)) ->
  forall l, Forall Q l -> forall o, lift d P o -> lift d P (fold_left (fun o x => obind o (fun s => step s x)) l o).
Proof.
  intros Hs. induction 1 as [|x l Hx _ IH]; intros o Ho; [exact Ho|]. cbn [fold_left]. apply IH, (lift_obind d P P); [exact Ho|].
  intros s H. apply Hs; assumption.
Qed.

(* addGhosts / addGeometry: whatever addOrGetEdge and addPoint keep, build_state keeps *)
Section Nest.
  Variables (I verts : list pt) (d : Prop) (P : bstate -> Prop) (Qc : bool -> list pt -> Prop) (Qp : bool -> pt -> Prop).
  Hypothesis Hedge : forall op k st c, P st -> Qc op c -> lift d P (add_edge verts op k st c).
  Hypothesis Hpoint : forall op st p, P st -> Qp op p -> lift d P (add_point verts op st p).
  Definition Qs (op : bool) (ps : list pt) : Prop := lift d (Forall (Qc op)) (chains_of I ps).
  Definition Qe (op : bool) (e : oelem) : Prop := Forall (Qs op) (elem_seqs e).

  Lemma add_seq_lift op k st ps : P st -> Qs op ps -> lift d P (add_seq I verts op k st ps).
  Proof.
    intros H Hq. apply (lift_obind d (Forall (Qc op)) P _ _ Hq). intros cs Hcs.
    apply (fold_obind_lift d P (Qc op)); [intros s c; apply Hedge | exact Hcs | exact H].
  Qed.
  Lemma add_seqs_lift op k pss st : P st -> Forall (Qs op) pss -> lift d P (add_seqs I verts op k st pss).
  Proof. intros H Hq. apply (fold_obind_lift d P (Qs op)); [intros s ps; apply add_seq_lift | exact Hq | exact H]. Qed.
  Lemma add_elems_lift op es st : P st -> Forall (Qe op) es -> lift d P (add_elems I verts op st es).
  Proof.
    intros H Hq. apply (fold_obind_lift d P (Qe op)); [|exact Hq|exact H]. intros s [ps|rings] Hs He; cbn [add_elem].
    - apply add_seq_lift; [exact Hs | apply (Forall_inv He)].
    - apply add_seqs_lift; assumption.
  Qed.
  Lemma add_points_lift op ps st : P st -> Forall (Qp op) ps -> lift d P (add_points verts op st ps).
  Proof. intros H Hq. apply (fold_obind_lift d P (Qp op)); [intros s p; apply Hpoint | exact Hq | exact H]. Qed.
  Lemma build_state_lift gh ea pa eb pb :
    verts = ov_vertices I -> P (MkB (map (fun _ => (false, false)) verts) []) ->
    Forall (Qs false) gh -> Forall (Qe false) ea -> Forall (Qp false) pa -> Forall (Qe true) eb -> Forall (Qp true) pb ->
    lift d P (build_state I gh ea pa eb pb).
  Proof.
    intros Ev H0 Hg Ha Hpa Hb Hpb. unfold build_state. rewrite <- Ev.
    apply (lift_obind d P P); [apply add_seqs_lift; assumption | intros st1 H1].
    apply (lift_obind d P P); [apply add_elems_lift; assumption | intros st2 H2].
    apply (lift_obind d P P); [apply add_points_lift; assumption | intros st3 H3].
    apply (lift_obind d P P); [apply add_elems_lift; assumption | intros st4 H4].
    apply add_points_lift; assumption.
  Qed.
End Nest.

Section Table.
  Variable verts : list pt.
  Variable S : list (list pt).
  Hypothesis S_shape : forall s, In s S -> chain_shape_ok verts s = true.
  Hypothesis S_keys : forall s t, In s S -> In t S -> he_key_eqb s t = true -> seqs_eq s t.

  Definition vertex_at (p : pt) (v : nat) : Prop := exists q, nth_error verts v = Some q /\ pt_eq q p.
  Definition OriginOK (h : hrec) : Prop := exists p, hd_error (h_seq h) = Some p /\ vertex_at p (h_origin h).
  Definition keeps (h h' : hrec) : Prop :=
    h_seq h' = h_seq h /\ h_twin h' = h_twin h /\ OriginOK h' /\ lab_le (h_srcF h') (h_srcE h') = true.
  Definition RecOK (es : list hrec) (i : nat) (h : hrec) : Prop :=
    In (h_seq h) S /\ keeps h h /\
    exists t, nth_error es (h_twin h) = Some t /\ h_twin t = i /\ h_twin h <> i /\ seqs_eq (h_seq t) (rev (h_seq h)) /\
              h_srcE t = h_srcE h.
  Record Inv (st : bstate) : Prop := {
    inv_vlen : length (b_vsrc st) = length verts;
    inv_key : forall i j hi hj, nth_error (b_edges st) i = Some hi -> nth_error (b_edges st) j = Some hj ->
                he_key_eqb (h_seq hi) (h_seq hj) = true -> i = j;
    inv_rec : forall i h, nth_error (b_edges st) i = Some h -> RecOK (b_edges st) i h }.

  Lemma he_lookup_some es s i : he_lookup es s = Some i ->
    exists h, nth_error es i = Some h /\ he_key_eqb (h_seq h) s = true.
  Proof. unfold he_lookup. intros H. apply find_idx_0 in H. destruct H as [h [H1 [H2 _]]]. eauto. Qed.
  Lemma he_lookup_none es s : he_lookup es s = None <-> forall h, In h es -> he_key_eqb (h_seq h) s = false.
  Proof. unfold he_lookup. apply find_idx_none. Qed.
  (* with distinct keys the lookup returns THE record with the key *)
  Lemma he_lookup_unique st s j h : Inv st -> nth_error (b_edges st) j = Some h -> he_key_eqb (h_seq h) s = true ->
    he_lookup (b_edges st) s = Some j.
  Proof.
    intros HI Hj Hk. destruct (he_lookup (b_edges st) s) as [i|] eqn:E.
    - apply he_lookup_some in E. destruct E as [h' [Hi Hk']]. f_equal.
      apply (inv_key _ HI i j h' h Hi Hj). apply (he_key_eqb_trans _ s); [exact Hk'|]. rewrite he_key_eqb_sym. exact Hk.
    - rewrite he_lookup_none in E. rewrite (E h (nth_error_In _ _ Hj)) in Hk. discriminate.
  Qed.
  Lemma lookup_twin st c i h : Inv st -> In c S -> nth_error (b_edges st) i = Some h -> he_key_eqb (h_seq h) c = true ->
    seqs_eq (h_seq h) c /\
    exists t, nth_error (b_edges st) (h_twin h) = Some t /\ seqs_eq (h_seq t) (rev c) /\
              he_lookup (b_edges st) (rev c) = Some (h_twin h).
  Proof.
    intros HI Hc Hi K.
    destruct (inv_rec _ HI i h Hi) as (Hin & _ & t & Ht & _ & _ & St & _).
    assert (Sh : seqs_eq (h_seq h) c) by (apply S_keys; [exact Hin | exact Hc | exact K]).
    assert (St' : seqs_eq (h_seq t) (rev c)) by (apply (seqs_eq_trans _ _ _ St), seqs_eq_rev, Sh).
    split; [exact Sh|]. exists t. split; [exact Ht|split; [exact St'|]].
    apply (he_lookup_unique st _ _ t HI Ht). apply seqs_eq_key; [exact St'|].
    rewrite (seqs_eq_length _ _ St'), rev_length. apply (chain_shape_len verts), S_shape, Hc.
  Qed.

  Lemma vindex_spec p v : vindex verts p = Some v -> vertex_at p v.
  Proof.
    unfold vindex. intros H. apply find_idx_0 in H. destruct H as [q [H1 [H2 _]]]. exists q. split; [exact H1|].
    apply pt_eqb_iff in H2. symmetry. exact H2.
  Qed.
  Lemma vindex_total p : existsb (pt_eqb p) verts = true -> exists v, vindex verts p = Some v.
  Proof. apply find_idx_exists. Qed.

  Lemma Inv_keeps st i h : Inv st -> nth_error (b_edges st) i = Some h -> keeps h h.
  Proof. intros HI H. apply (inv_rec _ HI i h H). Qed.
  Lemma keeps_srcE h op : keeps h h -> keeps h (set_srcE op h).
  Proof. intros (_ & _ & O & L). repeat split; [exact O | cbn [h_srcE h_srcF set_srcE]; apply set_lab_le, L]. Qed.
  Lemma keeps_srcF h op : keeps h h -> keeps h (set_srcF op (set_srcE op h)).
  Proof. intros (_ & _ & O & L). repeat split; [exact O | cbn [h_srcE h_srcF set_srcE set_srcF]; apply set_lab_le2, L]. Qed.
  Lemma keeps_origin h c p v : keeps h h -> seqs_eq (h_seq h) c -> hd_error c = Some p -> vertex_at p v ->
    keeps h (set_origin_twin v (h_twin h) h).
  Proof.
    intros (_ & _ & _ & L) Sc Hp [q [Hq Eq]]. repeat split; [|exact L].
    destruct (seqs_eq_hd _ _ _ Sc Hp) as [a [Ha Ea]]. exists a. split; [exact Ha|]. exists q. split; [exact Hq|].
    etransitivity; [exact Eq | symmetry; exact Ea].
  Qed.

  Lemma Inv_map st vs' es' (G : nat -> hrec -> hrec) :
    Inv st -> length vs' = length verts ->
    (forall i, nth_error es' i = option_map (G i) (nth_error (b_edges st) i)) ->
    (forall i h, nth_error (b_edges st) i = Some h -> keeps h (G i h)) ->
    (forall i h t, nth_error (b_edges st) i = Some h -> nth_error (b_edges st) (h_twin h) = Some t -> h_twin t = i ->
       h_srcE t = h_srcE h -> h_srcE (G (h_twin h) t) = h_srcE (G i h)) ->
    Inv (MkB vs' es').
  Proof.
    intros HI Hvs Nth HG HE.
    assert (Same : forall i h', nth_error es' i = Some h' -> exists h, nth_error (b_edges st) i = Some h /\ h' = G i h).
    { intros i h' H. rewrite Nth in H. destruct (nth_error (b_edges st) i) as [h|]; [|discriminate]. injection H as <-. eauto. }
    constructor; cbn [b_vsrc b_edges].
    - exact Hvs.
    - intros i j hi hj Hi Hj K. destruct (Same i hi Hi) as [h1 [A1 ->]]. destruct (Same j hj Hj) as [h2 [B1 ->]].
      rewrite (proj1 (HG i h1 A1)), (proj1 (HG j h2 B1)) in K. apply (inv_key _ HI i j h1 h2 A1 B1 K).
    - intros i h' H. destruct (Same i h' H) as [h [H1 ->]]. destruct (HG i h H1) as (Es & Et & O & L).
      destruct (inv_rec _ HI i h H1) as (Hin & _ & t & T1 & T2 & T3 & T4 & T5). destruct (HG _ t T1) as (Es' & Et' & _).
      split; [rewrite Es; exact Hin|]. split; [repeat split; assumption|].
      exists (G (h_twin h) t). rewrite Et, Es, Es', Et', Nth, T1, (HE i h t H1 T1 T2 T5). auto.
  Qed.

  Lemma Inv_upd_pair st vs' f hf hr gf gr :
    Inv st -> length vs' = length verts ->
    nth_error (b_edges st) f = Some hf -> nth_error (b_edges st) (h_twin hf) = Some hr ->
    keeps hf (gf hf) -> keeps hr (gr hr) -> h_srcE (gr hr) = h_srcE (gf hf) ->
    Inv (MkB vs' (upd_nth (h_twin hf) gr (upd_nth f gf (b_edges st)))).
  Proof.
    intros HI Hvs Hf Hr Kf Kr HE.
    destruct (inv_rec _ HI f hf Hf) as (_ & _ & t & Ht & Tr & Hne & _). rewrite Hr in Ht. injection Ht as <-.
    apply (Inv_map st vs' _ (fun i => if Nat.eqb i f then gf else if Nat.eqb i (h_twin hf) then gr else fun h => h) HI Hvs).
    - intros i. rewrite !nth_error_upd_nth, (Nat.eqb_sym (h_twin hf) i), (Nat.eqb_sym f i).
      destruct (Nat.eqb_spec i f) as [Ef|Nf], (Nat.eqb_spec i (h_twin hf)) as [Er|Nr]; try congruence;
        destruct (nth_error (b_edges st) i); reflexivity.
    - intros i h Hi. cbv beta. destruct (Nat.eqb_spec i f) as [->|Nf]; [rewrite Hf in Hi; injection Hi as <-; exact Kf|].
      destruct (Nat.eqb_spec i (h_twin hf)) as [->|Nr]; [rewrite Hr in Hi; injection Hi as <-; exact Kr|].
      apply (Inv_keeps st i h HI Hi).
    - intros i h t Hi Ht Ti Le. cbv beta.
      destruct (Nat.eqb_spec i f) as [->|Nf].
      { rewrite Hf in Hi; injection Hi as <-. rewrite Hr in Ht; injection Ht as <-.
        destruct (Nat.eqb_spec (h_twin hf) f); [contradiction|]. rewrite Nat.eqb_refl. exact HE. }
      destruct (Nat.eqb_spec i (h_twin hf)) as [->|Nr].
      { rewrite Hr in Hi; injection Hi as <-. rewrite Tr in Ht |- *. rewrite Hf in Ht; injection Ht as <-.
        rewrite Nat.eqb_refl. symmetry. exact HE. }
      (* the twin of any other record is neither f nor its twin *)
      destruct (Nat.eqb_spec (h_twin h) f) as [E|_]; [rewrite E, Hf in Ht; injection Ht as <-; congruence|].
      destruct (Nat.eqb_spec (h_twin h) (h_twin hf)) as [E|_]; [rewrite E, Hr in Ht; injection Ht as <-; congruence|].
      exact Le.
  Qed.

  Definition ChainOK (c : list pt) : Prop := In c S /\ In (rev c) S /\ he_key_eqb c (rev c) = false.
  Lemma Inv_app_pair st c sv ev p q :
    Inv st -> ChainOK c ->
    (forall h, In h (b_edges st) -> he_key_eqb (h_seq h) c = false) ->
    (forall h, In h (b_edges st) -> he_key_eqb (h_seq h) (rev c) = false) ->
    hd_error c = Some p -> hd_error (rev c) = Some q -> vertex_at p sv -> vertex_at q ev ->
    forall nf nr, nf = MkH c sv (length (b_edges st) + 1) (false, false) (false, false) ->
                  nr = MkH (rev c) ev (length (b_edges st)) (false, false) (false, false) ->
    Inv (MkB (b_vsrc st) (b_edges st ++ [nf; nr])).
  Proof.
    intros HI (Hc & Hrc & Hpal) Fc Frc Hp Hq Hsv Hev nf nr Enf Enr. set (n := length (b_edges st)) in *.
    assert (Old : forall i h, nth_error (b_edges st) i = Some h -> nth_error (b_edges st ++ [nf; nr]) i = Some h)
      by (intros i h H; apply nth_error_app_two; left; exact H).
    assert (Nf : nth_error (b_edges st ++ [nf; nr]) n = Some nf) by (apply nth_error_app_two; right; left; split; reflexivity).
    assert (Nr : nth_error (b_edges st ++ [nf; nr]) (n + 1) = Some nr) by (apply nth_error_app_two; right; right; split; reflexivity).
    constructor; cbn [b_vsrc b_edges].
    - apply (inv_vlen _ HI).
    - intros i j hi hj Hi Hj K. apply nth_error_app_two in Hi. apply nth_error_app_two in Hj.
      destruct Hi as [A|[[-> ->]|[-> ->]]], Hj as [B|[[-> ->]|[-> ->]]]; try reflexivity; subst nf nr; cbn [h_seq] in K.
      + apply (inv_key _ HI i j hi hj A B K).
      + rewrite (Fc hi (nth_error_In _ _ A)) in K. discriminate.
      + rewrite (Frc hi (nth_error_In _ _ A)) in K. discriminate.
      + rewrite he_key_eqb_sym, (Fc hj (nth_error_In _ _ B)) in K. discriminate.
      + rewrite Hpal in K. discriminate.
      + rewrite he_key_eqb_sym, (Frc hj (nth_error_In _ _ B)) in K. discriminate.
      + rewrite he_key_eqb_sym, Hpal in K. discriminate.
    - intros i h H. apply nth_error_app_two in H. destruct H as [H|[[-> ->]|[-> ->]]].
      + destruct (inv_rec _ HI i h H) as (Hin & K & t & T1 & T2). repeat split; try apply K; [exact Hin|].
        exists t. split; [apply Old; exact T1 | exact T2].
      + split; [subst nf; exact Hc|]. split; [subst nf; repeat split; exists p; split; assumption|].
        exists nr. subst nf nr. cbn [h_twin h_seq h_srcE]. repeat split; [exact Nr | lia | apply seqs_eq_refl].
      + split; [subst nr; exact Hrc|]. split; [subst nr; repeat split; exists q; split; assumption|].
        exists nf. subst nf nr. cbn [h_twin h_seq h_srcE]. repeat split; [exact Nf | lia | rewrite rev_involutive; apply seqs_eq_refl].
  Qed.

  (* ---- the structural step of addOrGetEdge *)
  Lemma link_inv st c sv ev p q :
    Inv st -> ChainOK c ->
    hd_error c = Some p -> hd_error (rev c) = Some q -> vertex_at p sv -> vertex_at q ev ->
    forall es1 f es2 r, get_or_add (b_edges st) c = (es1, f) -> get_or_add es1 (rev c) = (es2, r) ->
    let el := upd_nth r (set_origin_twin ev f) (upd_nth f (set_origin_twin sv r) es2) in
    Inv (MkB (b_vsrc st) el) /\
    exists hf, nth_error el f = Some hf /\ h_twin hf = r.
  Proof.
    intros HI HC Hp Hq Hsv Hev es1 f es2 r G1 G2. pose proof HC as (Hc & Hrc & Hpal). unfold get_or_add in G1, G2. cbv zeta.
    destruct (he_lookup (b_edges st) c) as [f0|] eqn:Lk; injection G1 as <- <-.
    - (* the key is present: nothing is added, the origins are assigned again *)
      destruct (he_lookup_some _ _ _ Lk) as [hf [Hf Kf]].
      destruct (lookup_twin st c f0 hf HI Hc Hf Kf) as [Sf [t [Ht [St LU]]]].
      rewrite LU in G2. injection G2 as <- <-.
      destruct (inv_rec _ HI f0 hf Hf) as (_ & _ & t' & Ht' & Tt & Tne & _ & Le). rewrite Ht in Ht'. injection Ht' as <-.
      split.
      + apply (Inv_upd_pair st _ f0 hf t _ _ HI (inv_vlen _ HI) Hf Ht).
        * apply (keeps_origin hf c p sv (Inv_keeps st f0 hf HI Hf) Sf Hp Hsv).
        * rewrite <- Tt. apply (keeps_origin t (rev c) q ev (Inv_keeps st _ t HI Ht) St Hq Hev).
        * exact Le.
      + eexists. split; [rewrite nth_error_upd_other by exact Tne; apply nth_error_upd_same, Hf | reflexivity].
    - (* new key: two records are appended *)
      assert (Frc : forall h, In h (b_edges st) -> he_key_eqb (h_seq h) (rev c) = false).
      { intros h Hh. destruct (he_key_eqb (h_seq h) (rev c)) eqn:K; [exfalso|reflexivity].
        destruct (In_nth_error _ _ Hh) as [i Hi].
        destruct (lookup_twin st (rev c) i h HI Hrc Hi K) as [_ [t [_ [_ LU]]]]. rewrite rev_involutive in LU. congruence. }
      assert (Lk2 : he_lookup (b_edges st ++ [MkH c 0 0 (false, false) (false, false)]) (rev c) = None).
      { apply he_lookup_none. intros h Hh. apply in_app_or in Hh. destruct Hh as [Hh|[<-|[]]]; [apply Frc, Hh | exact Hpal]. }
      rewrite Lk2, app_length in G2. cbn [length] in G2. injection G2 as <- <-.
      rewrite <- app_assoc. cbn [app]. rewrite upd_two_app. rewrite he_lookup_none in Lk.
      split.
      + apply (Inv_app_pair st c sv ev p q HI HC Lk Frc Hp Hq Hsv Hev); reflexivity.
      + eexists. split; [apply nth_error_app_two; right; left; split; reflexivity | reflexivity].
  Qed.

  (* ---- addOrGetEdge with the labels: the invariant is kept and the call does not fail *)
  Lemma add_edge_inv op k st c : Inv st -> ChainOK c -> lift False Inv (add_edge verts op k st c).
  Proof.
    intros HI HC. pose proof (S_shape _ (proj1 HC)) as Sh. unfold chain_shape_ok in Sh.
    destruct c as [|p0 [|p1 cr]]; try discriminate.
    cbn [add_edge]. remember (p0 :: p1 :: cr) as c eqn:Ec.
    apply andb_true_iff in Sh. destruct Sh as [Sh Sh3]. apply andb_true_iff in Sh. destruct Sh as [_ Sh2].
    destruct (vindex_total _ Sh2) as [sv Hsv]. destruct (vindex_total _ Sh3) as [ev Hev].
    unfold add_edge_body.
    destruct (get_or_add (b_edges st) c) as [es1 f] eqn:G1. destruct (get_or_add es1 (rev c)) as [es2 r] eqn:G2.
    rewrite hd_rev, Hsv, Hev.
    assert (Hp : hd_error c = Some p0) by (subst c; reflexivity).
    assert (Hq : hd_error (rev c) = Some (last c p0)) by (apply hd_error_rev; subst c; discriminate).
    destruct (link_inv st c sv ev p0 (last c p0) HI HC Hp Hq (vindex_spec _ _ Hsv) (vindex_spec _ _ Hev) _ _ _ _ G1 G2)
      as [HI3 [hf [Nf <-]]].
    set (es3 := upd_nth (h_twin hf) _ _) in *.
    destruct (inv_rec _ HI3 f hf Nf) as (_ & _ & hr & Nr & _ & Hne & _ & Le). cbn [b_edges] in Nr.
    set (vs' := upd_nth ev _ _).
    assert (Hvs : length vs' = length verts) by (unfold vs'; rewrite !upd_nth_length; apply (inv_vlen _ HI)).
    pose proof (Inv_keeps _ f hf HI3 Nf) as Kf. pose proof (Inv_keeps _ _ hr HI3 Nr) as Kr.
    assert (HE : h_srcE (set_srcE op hr) = h_srcE (set_srcE op hf)) by (cbn; f_equal; exact Le).
    destruct k; cbn [lift].
    - exact HI3.
    - apply (Inv_upd_pair (MkB (b_vsrc st) es3) vs' f hf hr (set_srcE op) (set_srcE op) HI3 Hvs Nf Nr (keeps_srcE hf op Kf) (keeps_srcE hr op Kr) HE).
    - rewrite upd_nth_comm by congruence. rewrite upd_nth_twice.
      apply (Inv_upd_pair (MkB (b_vsrc st) es3) vs' f hf hr (fun h => set_srcF op (set_srcE op h)) (set_srcE op) HI3 Hvs Nf Nr (keeps_srcF hf op Kf) (keeps_srcE hr op Kr) HE).
  Qed.

  Lemma add_point_inv op st p : Inv st -> existsb (pt_eqb p) verts = true -> lift False Inv (add_point verts op st p).
  Proof.
    intros Hs Hp. destruct (vindex_total p Hp) as [v Hv]. unfold add_point. rewrite Hv. cbn [lift].
    destruct Hs as [I1 I2 I3]. constructor; cbn [b_vsrc b_edges]; auto. rewrite upd_nth_length. exact I1.
  Qed.
  Lemma Inv_init : Inv (MkB (map (fun _ => (false, false)) verts) []).
  Proof.
    constructor; cbn [b_vsrc b_edges]; try (intros [|?] *; discriminate).
    apply map_length.
  Qed.

  (* ---- what the invariant says about the pre-complex handed to fixVertices *)
  Lemma chain_shape_first2 s : chain_shape_ok verts s = true -> exists p q r, s = p :: q :: r /\ ~ pt_eq p q.
  Proof.
    destruct s as [|p [|q r]]; cbn; try discriminate. intros H. exists p, q, r. split; [reflexivity|].
    apply andb_true_iff in H. destruct H as [H _]. apply andb_true_iff in H. destruct H as [H _].
    destruct r; cbn in H; apply andb_true_iff in H; destruct H as [H _]; apply negb_true_iff in H; apply pt_eqb_false_iff in H; exact H.
  Qed.
  Lemma nth_error_combine {A B} (l : list A) (m : list B) : forall i a b,
    nth_error l i = Some a -> nth_error m i = Some b -> nth_error (combine l m) i = Some (a, b).
  Proof.
    revert m. induction l as [|x l IH]; intros [|y m] [|i] a b; cbn; try discriminate.
    - intros H1 H2; inversion H1; inversion H2; reflexivity.
    - apply IH.
  Qed.

  Section Pre.
    Variable st : bstate.
    Hypothesis HI : Inv st.
    Let pc := to_precomplex verts st.
    Let es := b_edges st.

    Lemma pre_nE : pnE pc = length es.
    Proof. unfold pnE, pc, to_precomplex. cbn [pc_edges]. apply map_length. Qed.
    Lemma pre_nV : pnV pc = length verts.
    Proof.
      unfold pnV, pc, to_precomplex. cbn [pc_verts]. rewrite map_length, combine_length, (inv_vlen _ HI). apply Nat.min_id.
    Qed.
    Lemma pre_edge i h : nth_error es i = Some h -> nth_error (pc_edges pc) i = Some (pe_of h).
    Proof. intros H. unfold pc, to_precomplex. cbn [pc_edges]. rewrite nth_error_map. fold es. rewrite H. reflexivity. Qed.
    Lemma pre_xy v q : nth_error verts v = Some q -> p_xy pc v = q.
    Proof.
      intros H. unfold p_xy, pc, to_precomplex. cbn [pc_verts]. rewrite nth_error_map.
      assert (L : (v < length (b_vsrc st))%nat) by (rewrite (inv_vlen _ HI); apply nth_error_Some; congruence).
      destruct (nth_error (b_vsrc st) v) as [l|] eqn:E; [|apply nth_error_None in E; lia].
      rewrite (nth_error_combine _ _ _ _ _ H E). reflexivity.
    Qed.
    Lemma pre_fields i h : nth_error es i = Some h ->
      p_origin pc i = h_origin h /\ p_twin pc i = h_twin h /\ p_srcEdge pc i = h_srcE h /\ p_srcFace pc i = h_srcF h /\
      p_dir pc i = (fst (seq_second (h_seq h)) - fst (p_xy pc (h_origin h)), snd (seq_second (h_seq h)) - snd (p_xy pc (h_origin h))).
    Proof.
      intros H. unfold p_origin, p_twin, p_srcEdge, p_srcFace, p_dir. rewrite (pre_edge i h H). cbn. auto.
    Qed.
    Lemma in_range i : In i (seq 0 (pnE pc)) -> exists h, nth_error es i = Some h.
    Proof.
      rewrite pre_nE, in_seq. intros [_ H]. destruct (nth_error es i) eqn:E; [eauto|]. exfalso. revert E. apply nth_error_Some, H.
    Qed.

    Lemma inv_pre_wf : pre_wf pc = true.
    Proof.
      unfold pre_wf. apply forallb_forall. intros i Hi. destruct (in_range i Hi) as [h Hh].
      destruct (inv_rec _ HI i h Hh) as (_ & (_ & _ & (p & O1 & v & O2 & O3) & _) & t & T1 & T2 & T3 & _). fold es in T1.
      destruct (pre_fields i h Hh) as [F1 [F2 _]]. destruct (pre_fields _ t T1) as [_ [G2 _]].
      rewrite F1, F2, G2, T2, pre_nV, pre_nE.
      apply andb_true_iff; split; [apply andb_true_iff; split; [apply andb_true_iff; split|]|].
      - apply Nat.ltb_lt. apply nth_error_Some. congruence.
      - apply Nat.ltb_lt. apply nth_error_Some. congruence.
      - apply Nat.eqb_refl.
      - apply negb_true_iff. apply Nat.eqb_neq. exact T3.
    Qed.
    Lemma inv_pre_src_sym : pre_src_sym pc = true.
    Proof.
      unfold pre_src_sym. apply forallb_forall. intros i Hi. destruct (in_range i Hi) as [h Hh].
      destruct (inv_rec _ HI i h Hh) as (_ & _ & t & T1 & _ & _ & _ & L2). fold es in T1.
      destruct (pre_fields i h Hh) as [_ [F2 [F3 _]]]. destruct (pre_fields _ t T1) as [_ [_ [G3 _]]].
      rewrite F2, G3, F3, L2. apply lab_eqb_eq. reflexivity.
    Qed.
    Lemma inv_pre_srcface_le : pre_srcface_le pc = true.
    Proof.
      unfold pre_srcface_le. apply forallb_forall. intros i Hi. destruct (in_range i Hi) as [h Hh].
      destruct (inv_rec _ HI i h Hh) as (_ & (_ & _ & _ & L1) & _). destruct (pre_fields i h Hh) as [_ [_ [F3 [F4 _]]]]. rewrite F3, F4. exact L1.
    Qed.

    Lemma stored_dir i h : nth_error es i = Some h ->
      exists p q r v, h_seq h = p :: q :: r /\ ~ pt_eq p q /\ nth_error verts (h_origin h) = Some v /\ pt_eq v p /\
                      p_dir pc i = (fst q - fst v, snd q - snd v).
    Proof.
      intros Hh. destruct (inv_rec _ HI i h Hh) as (Hin & (_ & _ & (p' & O1 & v & O2 & O3) & _) & _).
      destruct (chain_shape_first2 _ (S_shape _ Hin)) as [p [q [r [E N]]]]. rewrite E in O1. cbn in O1. inversion O1; subst p'.
      destruct (pre_fields i h Hh) as (_ & _ & _ & _ & F5). rewrite F5, (pre_xy _ _ O2), E. exists p, q, r, v. auto.
    Qed.
    Lemma inv_pre_dirs_ok : pre_dirs_ok pc = true.
    Proof.
      unfold pre_dirs_ok. apply forallb_forall. intros i Hi. destruct (in_range i Hi) as [h Hh].
      destruct (stored_dir i h Hh) as (p & q & r & v & E & N & V1 & V2 & D).
      destruct (pre_fields i h Hh) as [F1 [F2 _]].
      destruct (inv_rec _ HI i h Hh) as (_ & _ & t & T1 & T2 & T3 & T4 & _). fold es in T1.
      apply andb_true_iff; split; [apply andb_true_iff; split|].
      - (* non-zero direction *)
        rewrite D. apply negb_true_iff, not_true_is_false. cbn [fst snd]. rewrite andb_true_iff, !Qeq_bool_iff.
        intros [E1 E2]. apply N. destruct V2. split; lra.
      - (* a half edge ends where its twin starts *)
        rewrite (pre_edge i h Hh). destruct (pre_fields _ t T1) as [G1 _]. rewrite F2, G1.
        destruct (inv_rec _ HI _ t T1) as (_ & (_ & _ & (p' & O1 & v' & O2 & O3) & _) & _).
        rewrite (pre_xy _ _ O2). cbn [pe_dest pe_of]. unfold seq_last.
        apply pt_eqb_iff.
        pose proof (hd_error_rev (h_seq h) (0, 0) ltac:(rewrite E; discriminate)) as Hl.
        destruct (seqs_eq_hd _ _ _ T4 Hl) as [a [A1 A2]]. rewrite O1 in A1. inversion A1; subst a.
        symmetry. etransitivity; [exact O3 | exact A2].
      - (* two half edges leaving a vertex have different directions *)
        apply forallb_forall. intros j Hj. destruct (Nat.eqb i j) eqn:Eij; [reflexivity|].
        destruct (in_range j Hj) as [h2 Hh2].
        destruct (pre_fields j h2 Hh2) as [G1 _].
        rewrite F1, G1. destruct (Nat.eqb (h_origin h) (h_origin h2)) eqn:Eo; [cbn [negb]|reflexivity].
        apply Nat.eqb_eq in Eo. apply negb_true_iff, pt_eqb_false_iff. intros Dd.
        destruct (stored_dir j h2 Hh2) as (p2 & q2 & r2 & v2 & E' & N' & V1' & V2' & D').
        rewrite <- Eo, V1 in V1'. inversion V1'; subst v2.
        rewrite D, D' in Dd. destruct Dd as [D1 D2]. cbn [fst snd] in D1, D2.
        apply Nat.eqb_neq in Eij. apply Eij, (inv_key _ HI i j h h2 Hh Hh2).
        rewrite E, E'. apply he_key_eqb_spec. exists p, q, r, p2, q2, r2. split; [reflexivity|split; [reflexivity|split]].
        + etransitivity; [symmetry; exact V2 | exact V2'].
        + split; lra.
    Qed.
  End Pre.
End Table.

(* ================================================================ from the executable hypothesis *)
Lemma opt_concat_some {A} (l : list (option (list A))) : forall cs, opt_concat l = Some cs ->
  forall o, In o l -> exists x, o = Some x /\ incl x cs.
Proof.
  induction l as [|o l IH]; intros cs H o' Ho'; [destruct Ho'|]. cbn [opt_concat] in H.
  destruct o as [x|]; [|discriminate]. destruct (opt_concat l) as [y|] eqn:E; [|discriminate]. inversion H; subst cs.
  destruct Ho' as [<-|Ho'].
  - exists x. split; [reflexivity | apply incl_appl, incl_refl].
  - destruct (IH y eq_refl o' Ho') as [z [-> Hz]]. exists z. split; [reflexivity | apply incl_appr; exact Hz].
Qed.

Lemma opt_concat_total {A} (l : list (option (list A))) : (forall o, In o l -> exists x, o = Some x) ->
  exists cs, opt_concat l = Some cs /\ forall c, In c cs -> exists x, In (Some x) l /\ In c x.
Proof.
  induction l as [|o l IH]; intros H; [exists []; split; [reflexivity|intros c []]|].
  destruct (H o (or_introl eq_refl)) as [x ->]. destruct IH as [cs [E Hcs]]; [intros o' Ho'; apply H; right; exact Ho'|].
  exists (x ++ cs). cbn [opt_concat]. rewrite E. split; [reflexivity|]. intros c Hc. apply in_app_or in Hc. destruct Hc as [Hc|Hc].
  - exists x. split; [left; reflexivity|exact Hc].
  - destruct (Hcs c Hc) as [y [H1 H2]]. exists y. split; [right; exact H1|exact H2].
Qed.
Lemma chains_wf_hyps verts cs : chains_wf verts cs = true ->
  (forall s, In s (cs ++ map (@rev pt) cs) -> chain_shape_ok verts s = true) /\
  (forall s t, In s (cs ++ map (@rev pt) cs) -> In t (cs ++ map (@rev pt) cs) -> he_key_eqb s t = true -> seqs_eq s t) /\
  (forall c, In c cs -> he_key_eqb c (rev c) = false).
Proof.
  unfold chains_wf, keys_consistent. intros H. apply andb_true_iff in H. destruct H as [H1 H2].
  rewrite forallb_forall in H1. rewrite forallb_forall in H2.
  assert (P : forall c, In c cs -> chain_shape_ok verts c = true /\ chain_shape_ok verts (rev c) = true /\ he_key_eqb c (rev c) = false).
  { intros c Hc. specialize (H1 c Hc). apply andb_true_iff in H1. destruct H1 as [H1 H3]. apply andb_true_iff in H1.
    destruct H1 as [H1 H4]. apply negb_true_iff in H3. auto. }
  split; [|split].
  - intros s Hs. destruct (in_app_rev _ _ Hs) as [Hc|[c [Hc ->]]]; apply P; exact Hc.
  - intros s t Hs Ht K. specialize (H2 s Hs). rewrite forallb_forall in H2. specialize (H2 t Ht). rewrite K in H2.
    cbn in H2. apply seq_eqb_iff. exact H2.
  - intros c Hc. apply P; exact Hc.
Qed.

(* ================================================================ (a) the composition with the fix-up *)
Lemma points_are_vertices ea pa eb pb gh p :
  In p (pa ++ pb) -> existsb (pt_eqb p) (ov_vertices (find_interaction_points ea pa eb pb gh)) = true.
Proof.
  intros Hp. apply (ip_points_lemma ea pa eb pb gh) in Hp.
  destruct (sort_uniq_keeps _ _ Hp) as [p' [H1 H2]]. apply existsb_exists. exists p'. split; [exact H1|].
  apply pt_eqb_iff. symmetry. exact H2.
Qed.

Definition composed_wf (a b : geom) : Prop :=
  exists ov, overlay_dcel_full a b = Some ov /\
             pre_wf (ov_pre ov) = true /\ pre_dirs_ok (ov_pre ov) = true /\ pre_src_sym (ov_pre ov) = true /\
             pre_srcface_le (ov_pre ov) = true /\
             fixup (ov_pre ov) = Some (ov_cx ov) /\
             ranges_ok (ov_cx ov) = true /\ twin_ok (ov_cx ov) = true /\ next_prev_ok (ov_cx ov) = true /\
             faces_ok (ov_cx ov) = true /\ labels_ok (ov_cx ov) = true /\ dcel_ok (ov_cx ov) = euler_ok (ov_cx ov).

Theorem composed_precomplex_lemma (a b : geom) cs :
  pipeline_chains a b = Some cs ->
  chains_wf (ov_vertices (sk_vertices (overlay_skeleton_of a b))) cs = true ->
  composed_wf a b.
Proof.
  intros Hcs Hwf. unfold pipeline_chains, pipeline_chains_of_skel in Hcs.
  set (sk := overlay_skeleton_of a b) in *. set (r := sk_renoded sk) in *. set (I := sk_vertices sk) in *.
  set (verts := ov_vertices I) in *.
  destruct (chains_wf_hyps _ _ Hwf) as [Hshape [Hkeys Hpal]].
  set (S := cs ++ map (@rev pt) cs) in *.
  assert (Hseq : Forall (Qs I False (fun _ => ChainOK S) false)
                   (inserted_seqs (rn_ghosts r) (regroup (g_shapes a) (rn_a r)) (regroup (g_shapes b) (rn_b r)))).
  { apply Forall_forall. intros ps Hps. unfold inserted_chains in Hcs. unfold Qs.
    destruct (opt_concat_some _ _ Hcs (chains_of I ps)) as [x [-> Hx]]; [apply in_map; exact Hps|].
    apply Forall_forall. intros c Hc. specialize (Hx c Hc). split; [|split].
    - apply in_or_app. left. exact Hx.
    - apply in_or_app. right. apply in_map. exact Hx.
    - apply Hpal. exact Hx. }
  apply Forall_app in Hseq. destruct Hseq as [Fg Hseq]. apply Forall_app in Hseq. destruct Hseq as [Fa Fb].
  apply Forall_flat_map in Fa, Fb.
  assert (Hpts : Forall (fun p => existsb (pt_eqb p) verts = true) (g_points a ++ g_points b)).
  { apply Forall_forall. intros p Hp. unfold verts, I, sk, overlay_skeleton_of. cbn [sk_vertices]. apply points_are_vertices. exact Hp. }
  apply Forall_app in Hpts. destruct Hpts as [Fpa Fpb].
  pose proof (build_state_lift I verts False (Inv verts S) (fun _ => ChainOK S) (fun _ p => existsb (pt_eqb p) verts = true)
                (add_edge_inv verts S Hshape Hkeys) (add_point_inv verts S) _ _ _ _ _ eq_refl (Inv_init verts S) Fg Fa Fpa Fb Fpb) as HI.
  destruct (build_state I _ _ _ _ _) as [st|] eqn:Est; [|contradiction]. cbn [lift] in HI.
  pose proof (inv_pre_wf verts S st HI) as W1.
  pose proof (inv_pre_dirs_ok verts S Hshape st HI) as W2.
  pose proof (inv_pre_src_sym verts S st HI) as W3.
  pose proof (inv_pre_srcface_le verts S st HI) as W4.
  destruct (fixup_establishes_lemma _ W1 W3 W4) as [c [Ec [R1 [R2 [R3 [R4 [R5 R6]]]]]]].
  exists (MkOv sk verts (map h_seq (b_edges st)) (to_precomplex verts st) c).
  split.
  - unfold overlay_dcel_full, overlay_dcel_of_skel. fold sk. fold r. fold I. fold verts. rewrite Est. cbn [obind]. rewrite Ec. reflexivity.
  - cbn [ov_pre ov_cx]. repeat split; assumption.
Qed.

(* ================================================================ (b) T4: two chains with a common piece *)
Lemma is_interaction_proper I p q : pt_eq p q -> is_interaction I p = is_interaction I q.
Proof.
  intros H. unfold is_interaction. induction I as [|x I IH]; [reflexivity|]. cbn [existsb]. rewrite IH. f_equal.
  apply Bool.eq_iff_eq_true. rewrite !pt_eqb_iff. split; intros E; (etransitivity; [|exact E]); [symmetry|]; exact H.
Qed.
Lemma adj_pair_eq a b a' b' : pair_eqb (adj_pair a b) (adj_pair a' b') = true ->
  (pt_eq a a' /\ pt_eq b b') \/ (pt_eq a b' /\ pt_eq b a').
Proof.
  unfold adj_pair, pair_eqb. destruct (xy_less b a), (xy_less b' a'); cbn [fst snd];
    rewrite andb_true_iff, !pt_eqb_iff; intros [H1 H2]; auto.
Qed.
Lemma xy_less_asym a b : xy_less a b = true -> xy_less b a = true -> False.
Proof.
  unfold xy_less. rewrite !orb_true_iff, !andb_true_iff, !qltb_iff, !Qeq_bool_iff. intros [H|[H1 H2]] [K|[K1 K2]]; lra.
Qed.
Lemma xy_less_total a b : xy_less a b = false -> xy_less b a = false -> pt_eq a b.
Proof.
  unfold xy_less. rewrite !orb_false_iff, !andb_false_iff, !qltb_false_iff. intros [A1 A2] [B1 B2].
  assert (X : fst a == fst b) by lra. split; [exact X|].
  destruct A2 as [A2|A2]; [apply Qeq_bool_neq in A2; exfalso; apply A2; exact X|].
  destruct B2 as [B2|B2]; [apply Qeq_bool_neq in B2; exfalso; apply B2; symmetry; exact X|]. lra.
Qed.
Lemma adj_pair_swap a b : pair_eqb (adj_pair a b) (adj_pair b a) = true.
Proof.
  unfold adj_pair, pair_eqb. destruct (xy_less b a) eqn:E1, (xy_less a b) eqn:E2; cbn [fst snd]; rewrite ?pt_eqb_refl; auto.
  - exfalso. exact (xy_less_asym _ _ E1 E2).
  - pose proof (xy_less_total _ _ E2 E1) as P. assert (P' : pt_eq b a) by (symmetry; exact P).
    apply pt_eqb_iff in P. apply pt_eqb_iff in P'. rewrite P, P'. reflexivity.
Qed.

Lemma rev_mid2 {A} (l1 l2 : list A) a b : rev (l1 ++ a :: b :: l2) = rev l2 ++ b :: a :: rev l1.
Proof. rewrite rev_app_distr. cbn [rev]. rewrite <- !app_assoc. reflexivity. Qed.
Definition contig (e c : list pt) : Prop := exists l1 l2, e = l1 ++ c ++ l2.
Lemma contig_rev e c : contig e c -> contig (rev e) (rev c).
Proof. intros [l1 [l2 ->]]. exists (rev l2), (rev l1). rewrite !rev_app_distr, app_assoc. reflexivity. Qed.
Lemma contig_c3 e pre u v w s : contig e (pre ++ u :: v :: w :: s) -> consecutive3 e u v w.
Proof. intros [l1 [l2 ->]]. exists (l1 ++ pre), (s ++ l2). rewrite <- !app_assoc. cbn. reflexivity. Qed.
Lemma consecutive3_rev e a c b : consecutive3 e a c b -> consecutive3 (rev e) b c a.
Proof.
  intros [l1 [l2 ->]]. exists (rev l2), (rev l1). rewrite rev_app_distr. cbn [rev]. rewrite <- !app_assoc. cbn. reflexivity.
Qed.

Section T4.
  Variable I : list pt.
  Let isI := is_interaction I.
  Variable E : list (list pt).
  Hypothesis E_spike : forall e a c b, In e E -> consecutive3 e a c b -> pt_eq a b -> isI c = true.
  Hypothesis E_conf : forall e1 a1 c1 b1 e2 a2 c2 b2,
    In e1 E -> consecutive3 e1 a1 c1 b1 -> In e2 E -> consecutive3 e2 a2 c2 b2 ->
    pt_eq c1 c2 -> pair_eqb (adj_pair a1 b1) (adj_pair a2 b2) = false -> isI c1 = true.

  Lemma isI_proper p q : pt_eq p q -> isI p = isI q.
  Proof. apply is_interaction_proper. Qed.

  (* the rest of a chain after an interior position: non-interaction points, then one interaction point *)
  Fixpoint tail_ok (l : list pt) : Prop :=
    match l with
    | [] => False
    | x :: r => match r with [] => isI x = true | _ => isI x = false /\ tail_ok r end
    end.
  Lemma tail_ok_suffix a : forall b, b <> [] -> tail_ok (a ++ b) -> tail_ok b.
  Proof.
    induction a as [|x a IH]; intros b Hb H; [exact H|]. cbn [app tail_ok] in H.
    destruct (a ++ b) eqn:Eab; [destruct a; [cbn in Eab; congruence | discriminate]|]. rewrite <- Eab in H. apply IH; [exact Hb | apply H].
  Qed.
  Lemma chain_ok_char c : chain_ok_b isI c = true <->
    exists p m q, c = p :: m ++ [q] /\ isI p = true /\ isI q = true /\ forallb (fun x => negb (isI x)) m = true.
  Proof.
    split.
    - destruct c as [|p [|x r]]; try discriminate. intros H. cbn [chain_ok_b] in H.
      apply andb_true_iff in H. destruct H as [H H3]. apply andb_true_iff in H. destruct H as [H1 H2].
      exists p, (removelast (x :: r)), (last (x :: r) p). repeat split; auto.
      f_equal. apply app_removelast_last. discriminate.
    - intros [p [m [q [-> [H1 [H2 H3]]]]]]. unfold chain_ok_b.
      destruct (m ++ [q]) as [|y r'] eqn:Ey; [destruct m; discriminate|]. rewrite <- Ey.
      rewrite last_last, removelast_last, H1, H2, H3. reflexivity.
  Qed.
  Lemma tail_ok_snoc m q : forallb (fun x => negb (isI x)) m = true -> isI q = true -> tail_ok (m ++ [q]).
  Proof.
    induction m as [|x m IH]; intros Hm Hq; [exact Hq|]. cbn [forallb] in Hm. apply andb_true_iff in Hm. destruct Hm as [Hx Hm].
    apply negb_true_iff in Hx. destruct m as [|y m]; (split; [exact Hx|]); [exact Hq | apply IH; assumption].
  Qed.
  Lemma chain_split_tail c pre u v s : chain_ok_b isI c = true -> c = pre ++ u :: v :: s -> tail_ok (v :: s).
  Proof.
    intros H Ec. apply chain_ok_char in H. destruct H as (p & m & q & Epq & _ & Hq & Hm). pose proof (tail_ok_snoc m q Hm Hq) as T.
    rewrite Epq in Ec. destruct pre as [|x pre]; cbn [app] in Ec; injection Ec as _ Ec; rewrite Ec in T; [exact T|].
    apply (tail_ok_suffix (pre ++ [u])); [discriminate|]. rewrite <- app_assoc. exact T.
  Qed.

  Lemma walk_fwd : forall s1 e1 e2 pre1 u1 v1 pre2 u2 v2 s2,
    In e1 E -> In e2 E -> contig e1 (pre1 ++ u1 :: v1 :: s1) -> contig e2 (pre2 ++ u2 :: v2 :: s2) ->
    tail_ok (v1 :: s1) -> tail_ok (v2 :: s2) -> pt_eq u1 u2 -> pt_eq v1 v2 -> seqs_eq s1 s2.
  Proof.
    induction s1 as [|w1 s1 IH]; intros e1 e2 pre1 u1 v1 pre2 u2 v2 s2 He1 He2 C1 C2 T1 T2 Eu Ev.
    - cbn in T1. rewrite (isI_proper _ _ Ev) in T1.
      destruct s2 as [|w2 s2]; [constructor|]. destruct T2 as [T2 _]. congruence.
    - destruct T1 as [N1 T1].
      assert (N2 : isI v2 = false) by (rewrite <- (isI_proper _ _ Ev); exact N1).
      destruct s2 as [|w2 s2]; [cbn in T2; congruence|]. destruct T2 as [_ T2].
      pose proof (contig_c3 _ _ _ _ _ _ C1) as K1. pose proof (contig_c3 _ _ _ _ _ _ C2) as K2.
      assert (Ew : pt_eq w1 w2).
      { destruct (pair_eqb (adj_pair u1 w1) (adj_pair u2 w2)) eqn:P.
        - apply adj_pair_eq in P. destruct P as [[_ P]|[P1 P2]]; [exact P|].
          exfalso. assert (S : isI v1 = true); [|congruence].
          apply (E_spike e1 u1 v1 w1 He1 K1). etransitivity; [exact Eu|symmetry; exact P2].
        - exfalso. assert (S : isI v1 = true); [|congruence]. apply (E_conf e1 u1 v1 w1 e2 u2 v2 w2 He1 K1 He2 K2 Ev P). }
      constructor; [exact Ew|].
      apply (IH e1 e2 (pre1 ++ [u1]) v1 w1 (pre2 ++ [u2]) v2 w2 s2); auto; rewrite <- app_assoc; assumption.
  Qed.

  Lemma chain_ok_rev c : chain_ok_b isI c = true -> chain_ok_b isI (rev c) = true.
  Proof.
    rewrite !chain_ok_char. intros [p [m [q [-> [H1 [H2 H3]]]]]]. exists q, (rev m), p.
    split; [|split; [exact H2|split; [exact H1|]]].
    - cbn [rev]. rewrite rev_app_distr. reflexivity.
    - apply forallb_forall. intros x Hx. apply in_rev in Hx. rewrite forallb_forall in H3. apply H3. exact Hx.
  Qed.

  Hypothesis E_rev : forall e, In e E -> In (rev e) E.

  (* two chains that run through a common piece in the same direction are the same point sequence *)
  Lemma share_piece e1 e2 c1 c2 pre1 u1 v1 s1 pre2 u2 v2 s2 :
    In e1 E -> In e2 E -> contig e1 c1 -> contig e2 c2 -> chain_ok_b isI c1 = true -> chain_ok_b isI c2 = true ->
    c1 = pre1 ++ u1 :: v1 :: s1 -> c2 = pre2 ++ u2 :: v2 :: s2 -> pt_eq u1 u2 -> pt_eq v1 v2 -> seqs_eq c1 c2.
  Proof.
    intros He1 He2 C1 C2 K1 K2 E1 E2 Eu Ev.
    assert (F : seqs_eq s1 s2).
    { apply (walk_fwd s1 e1 e2 pre1 u1 v1 pre2 u2 v2 s2); auto; try (rewrite <- E1; exact C1); try (rewrite <- E2; exact C2).
      - apply (chain_split_tail c1 pre1 u1 v1 s1 K1 E1).
      - apply (chain_split_tail c2 pre2 u2 v2 s2 K2 E2). }
    assert (R1 : rev c1 = rev s1 ++ v1 :: u1 :: rev pre1) by (rewrite E1; apply rev_mid2).
    assert (R2 : rev c2 = rev s2 ++ v2 :: u2 :: rev pre2) by (rewrite E2; apply rev_mid2).
    assert (B : seqs_eq (rev pre1) (rev pre2)).
    { apply (walk_fwd (rev pre1) (rev e1) (rev e2) (rev s1) v1 u1 (rev s2) v2 u2 (rev pre2)); auto.
      - rewrite <- R1. apply contig_rev. exact C1.
      - rewrite <- R2. apply contig_rev. exact C2.
      - apply (chain_split_tail (rev c1) (rev s1) v1 u1 (rev pre1) (chain_ok_rev _ K1) R1).
      - apply (chain_split_tail (rev c2) (rev s2) v2 u2 (rev pre2) (chain_ok_rev _ K2) R2). }
    apply seqs_eq_rev in B. rewrite !rev_involutive in B.
    rewrite E1, E2. apply seqs_eq_app; [exact B|]. constructor; [exact Eu|]. constructor; [exact Ev|exact F].
  Qed.

  (* a chain of an element *)
  Definition Chain (c : list pt) : Prop := exists e, In e E /\ contig e c /\ chain_ok_b isI c = true.
  Lemma Chain_rev c : Chain c -> Chain (rev c).
  Proof. intros [e [H1 [H2 H3]]]. exists (rev e). split; [apply E_rev; exact H1|split; [apply contig_rev; exact H2|apply chain_ok_rev; exact H3]]. Qed.
  Lemma chains_same_key c1 c2 : Chain c1 -> Chain c2 -> he_key_eqb c1 c2 = true -> seqs_eq c1 c2.
  Proof.
    intros [e1 [A1 [A2 A3]]] [e2 [B1 [B2 B3]]] K. apply he_key_eqb_spec in K.
    destruct K as (u1&v1&s1&u2&v2&s2&E1&E2&Eu&Ev).
    apply (share_piece e1 e2 c1 c2 [] u1 v1 s1 [] u2 v2 s2); auto.
  Qed.

  Lemma share_piece_sym c1 c2 k1 u1 v1 s1 k2 u2 v2 s2 :
    Chain c1 -> Chain c2 -> c1 = k1 ++ u1 :: v1 :: s1 -> c2 = k2 ++ u2 :: v2 :: s2 ->
    (pt_eq u1 u2 /\ pt_eq v1 v2) \/ (pt_eq u1 v2 /\ pt_eq v1 u2) -> seqs_eq c1 c2 \/ seqs_eq c1 (rev c2).
  Proof.
    intros [e1 [A1 [A2 A3]]] HC2 E1 E2 [[Eu Ev]|[Eu Ev]].
    - left. destruct HC2 as [e2 [B1 [B2 B3]]]. apply (share_piece e1 e2 c1 c2 k1 u1 v1 s1 k2 u2 v2 s2); auto.
    - right. destruct (Chain_rev c2 HC2) as [e2 [B1 [B2 B3]]].
      apply (share_piece e1 e2 c1 (rev c2) k1 u1 v1 s1 (rev s2) v2 u2 (rev k2)); auto.
      rewrite E2. apply rev_mid2.
  Qed.

  (* a sequence that reads the same backwards has two equal neighbours, or a point with equal neighbours *)
  Lemma palindrome_middle (c : list pt) : (2 <= length c)%nat -> seqs_eq c (rev c) ->
    (exists l1 a b l2, c = l1 ++ a :: b :: l2 /\ pt_eq a b) \/
    (exists l1 a m b l2, c = l1 ++ a :: m :: b :: l2 /\ pt_eq a b).
  Proof.
    induction c as [|x|x mid y IH] using list_ends_ind; intros L2 P; [cbn in L2; lia | cbn in L2; lia |].
    (* x :: mid ++ [y] reads the same backwards: x = y and so does mid *)
    assert (Rv : rev (x :: mid ++ [y]) = y :: rev mid ++ [x]) by (cbn [rev]; rewrite rev_app_distr; reflexivity).
    rewrite Rv in P. inversion P as [|? ? ? ? Exy Pm]; subst.
    assert (Pmid : seqs_eq mid (rev mid)).
    { apply Forall2_app_inv_l in Pm as (l1' & l2' & F1 & F2 & E'). inversion F2 as [|? b ? t2 _ F3]; subst. inversion F3; subst.
      apply app_inj_tail in E' as [-> _]. exact F1. }
    destruct mid as [|m0 [|m1 mid']].
    - left. exists [], x, y, []. split; [reflexivity|exact Exy].
    - right. exists [], x, m0, y, []. split; [reflexivity|exact Exy].
    - destruct IH as [[l1 [a [b [l2 [E' Eab]]]]]|[l1 [a [m [b [l2 [E' Eab]]]]]]]; [cbn; lia | exact Pmid | |].
      + left. exists (x :: l1), a, b, (l2 ++ [y]). split; [|exact Eab]. rewrite E', <- app_assoc. reflexivity.
      + right. exists (x :: l1), a, m, b, (l2 ++ [y]). split; [|exact Eab]. rewrite E', <- app_assoc. reflexivity.
  Qed.

  Hypothesis E_nondeg : forall e l1 a b l2, In e E -> e = l1 ++ a :: b :: l2 -> ~ pt_eq a b.

  Lemma chain_not_palindrome c : Chain c -> he_key_eqb c (rev c) = false.
  Proof.
    intros HC. destruct (he_key_eqb c (rev c)) eqn:K; [exfalso|reflexivity].
    pose proof (chains_same_key c (rev c) HC (Chain_rev c HC) K) as P.
    destruct HC as [e [He [[l1 [l2 Ee]] Hok]]].
    assert (L2 : (2 <= length c)%nat) by (apply he_key_len in K; apply K).
    destruct (palindrome_middle c L2 P) as [[k1 [a [b [k2 [Ec Eab]]]]]|[k1 [a [m [b [k2 [Ec Eab]]]]]]].
    - apply (E_nondeg e (l1 ++ k1) a b (k2 ++ l2) He); [|exact Eab]. rewrite Ee, Ec, <- !app_assoc. reflexivity.
    - (* the middle point is a reversal point, hence an interaction point, but it is interior to the chain *)
      assert (Sp : isI m = true).
      { apply (E_spike e a m b He); [|exact Eab]. exists (l1 ++ k1), (k2 ++ l2). rewrite Ee, Ec, <- !app_assoc. reflexivity. }
      assert (T : tail_ok (m :: b :: k2)) by (apply (chain_split_tail c k1 a m (b :: k2) Hok Ec)).
      destruct T as [T _]. congruence.
  Qed.
End T4.

(* ================================================================ T4 for the re-noded input *)
Lemma ring_edges_in_split (l : list pt) u w : In (u, w) (ring_edges l) -> exists k1 k2, l = k1 ++ u :: w :: k2.
Proof.
  induction l as [|x l IH]; [intros []|]. destruct l as [|y l]; [intros []|]. rewrite ring_edges_cons2. intros [H|H].
  - inversion H; subst. exists [], l. reflexivity.
  - destruct (IH H) as [k1 [k2 E]]. exists (x :: k1), k2. rewrite E. reflexivity.
Qed.
Lemma ring_edges_mid (l1 : list pt) a b l2 : In (a, b) (ring_edges (l1 ++ a :: b :: l2)).
Proof.
  induction l1 as [|x l1 IH]; [left; reflexivity|]. cbn [app]. destruct (l1 ++ a :: b :: l2) eqn:E; [destruct l1; discriminate|].
  rewrite ring_edges_cons2. right. exact IH.
Qed.
Lemma pair_eqb_sym u v : pair_eqb u v = pair_eqb v u.
Proof.
  unfold pair_eqb. apply Bool.eq_iff_eq_true. rewrite !andb_true_iff, !pt_eqb_iff. split; intros [A B]; split; symmetry; assumption.
Qed.
Lemma pair_eqb_trans u v w : pair_eqb u v = true -> pair_eqb v w = true -> pair_eqb u w = true.
Proof.
  unfold pair_eqb. rewrite !andb_true_iff, !pt_eqb_iff. intros [A1 A2] [B1 B2]. split; etransitivity; eauto.
Qed.

Lemma split_chains_contig isI : forall ps cur cs, split_chains isI cur ps = Some cs ->
  forall c, In c cs -> exists l1 l2, cur ++ ps = l1 ++ c ++ l2.
Proof.
  induction ps as [|p r IH]; intros cur cs H c Hc.
  - cbn [split_chains] in H. destruct cur as [|x [|y cur']]; inversion H; subst; destruct Hc.
  - cbn [split_chains] in H. destruct (isI p && Nat.ltb 1 (length (cur ++ [p]))) eqn:E.
    + destruct (split_chains isI [p] r) as [cs'|] eqn:E'; [|discriminate]. inversion H; subst cs. destruct Hc as [<-|Hc].
      * exists [], r. cbn [app]. rewrite <- app_assoc. reflexivity.
      * destruct (IH [p] cs' E' c Hc) as [l1 [l2 El]]. exists (cur ++ l1), l2. rewrite <- app_assoc. f_equal. exact El.
    + destruct (IH (cur ++ [p]) cs H c Hc) as [l1 [l2 El]]. exists l1, l2. rewrite <- El, <- app_assoc. reflexivity.
Qed.
Lemma split_chains_total isI d : forall ps cur,
  (ps <> [] -> isI (last ps d) = true) -> (ps = [] -> (length cur <= 1)%nat) -> exists cs, split_chains isI cur ps = Some cs.
Proof.
  induction ps as [|p r IH]; intros cur H1 H2.
  - cbn [split_chains]. specialize (H2 eq_refl). destruct cur as [|x [|y cur']]; [eauto | eauto | cbn in H2; lia].
  - cbn [split_chains]. destruct r as [|q r].
    + specialize (H1 ltac:(discriminate)). cbn in H1. rewrite H1. cbn [andb].
      destruct (Nat.ltb 1 (length (cur ++ [p]))) eqn:E.
      * cbn [split_chains]. eauto.
      * apply Nat.ltb_ge in E. rewrite app_length in E. cbn in E. destruct cur; [|cbn in E; lia]. cbn. eauto.
    + assert (G : q :: r <> [] -> isI (last (q :: r) d) = true) by (intros _; apply H1; discriminate).
      destruct (isI p && Nat.ltb 1 (length (cur ++ [p]))).
      * destruct (IH [p] G ltac:(discriminate)) as [cs E]. rewrite E. eauto.
      * apply IH; [exact G | discriminate].
Qed.

Definition chain_end (c : list pt) (x : pt) : Prop :=
  exists p r, c = p :: r /\ (pt_eq x p \/ pt_eq x (last r p)).

Lemma chain_end_proper c x y : pt_eq x y -> chain_end c y -> chain_end c x.
Proof.
  intros E [p [r [Ec Hc]]]. exists p, r. split; [exact Ec|]. destruct Hc as [Hc|Hc]; [left|right]; (etransitivity; [exact E|exact Hc]).
Qed.
Lemma Noded_flip L : Noded L -> forall u1 w1 u2 w2 x,
  In (u1, w1) L \/ In (w1, u1) L -> In (u2, w2) L \/ In (w2, u2) L ->
  on_seg (u1, w1) x = true -> on_seg (u2, w2) x = true ->
  (is_end_p (u1, w1) x /\ is_end_p (u2, w2) x) \/ seg_same (u1, w1) (u2, w2).
Proof.
  intros HN u1 w1 u2 w2 x Q1 Q2 H1 H2.
  (* the conclusion does not change when either piece is reversed *)
  assert (Fl : forall a b Q, (is_end_p (a, b) x /\ is_end_p Q x) \/ seg_same (a, b) Q ->
                             (is_end_p (b, a) x /\ is_end_p Q x) \/ seg_same (b, a) Q).
  { unfold is_end_p, seg_same. cbn [fst snd]. intros a b Q [[A B]|[[A B]|[A B]]].
    - left. split; [destruct A as [A|A]; [right|left]; exact A | exact B].
    - right. right. split; assumption.
    - right. left. split; assumption. }
  assert (Fr : forall P c d, (is_end_p P x /\ is_end_p (c, d) x) \/ seg_same P (c, d) ->
                             (is_end_p P x /\ is_end_p (d, c) x) \/ seg_same P (d, c)).
  { unfold is_end_p, seg_same. cbn [fst snd]. intros P c d [[A B]|[[A B]|[A B]]].
    - left. split; [exact A | destruct B as [B|B]; [right|left]; exact B].
    - right. right. split; assumption.
    - right. left. split; assumption. }
  destruct Q1 as [Q1|Q1], Q2 as [Q2|Q2].
  - exact (HN _ _ Q1 Q2 x H1 H2).
  - rewrite <- on_seg_sym in H2. exact (Fr _ _ _ (HN _ _ Q1 Q2 x H1 H2)).
  - rewrite <- on_seg_sym in H1. exact (Fl _ _ _ (HN _ _ Q1 Q2 x H1 H2)).
  - rewrite <- on_seg_sym in H1, H2. exact (Fl _ _ _ (Fr _ _ _ (HN _ _ Q1 Q2 x H1 H2))).
Qed.

Section Inst.
  Variables (ea : list (list pt)) (pa : list pt) (eb : list (list pt)) (pb : list pt) (gh : list (list pt)).
  Let I := find_interaction_points ea pa eb pb gh.
  Let isI := is_interaction I.
  Let elems := ea ++ eb ++ gh.
  Let E := elems ++ map (@rev pt) elems.
  Hypothesis elems_nondeg : forall e P, In e elems -> In P (ring_edges e) -> ~ pt_eq (fst P) (snd P).

  Lemma In_isI p : In p I -> isI p = true.
  Proof. intros H. apply existsb_exists. exists p. split; [exact H | apply pt_eqb_refl]. Qed.
  Lemma inst_rev e : In e E -> In (rev e) E.
  Proof.
    intros H. destruct (in_app_rev elems e H) as [H1|[e0 [H1 ->]]]; unfold E; apply in_or_app.
    - right. apply in_map. exact H1.
    - left. rewrite rev_involutive. exact H1.
  Qed.
  (* every occurrence of a middle point in an element of E is one in an element of the input, up to the order
     of the two neighbours *)
  Lemma E_c3 e a c b : In e E -> consecutive3 e a c b ->
    exists e0 x y, In e0 elems /\ consecutive3 e0 x c y /\ (x = a /\ y = b \/ x = b /\ y = a).
  Proof.
    intros H K. destruct (in_app_rev elems e H) as [H1|[e0 [H1 ->]]]; [exists e, a, b; auto|].
    exists e0, b, a. split; [exact H1|split; [|auto]]. apply consecutive3_rev in K. rewrite rev_involutive in K. exact K.
  Qed.
  Lemma inst_spike e a c b : In e E -> consecutive3 e a c b -> pt_eq a b -> isI c = true.
  Proof.
    intros H K Eab. destruct (E_c3 e a c b H K) as (e0 & x & y & H0 & K0 & S).
    apply In_isI, (ip_spike_lemma ea pa eb pb gh e0 x c y H0 K0). destruct S as [[-> ->]|[-> ->]]; [|symmetry]; exact Eab.
  Qed.
  Lemma adj_pair_either a b x y : x = a /\ y = b \/ x = b /\ y = a -> pair_eqb (adj_pair a b) (adj_pair x y) = true.
  Proof. intros [[-> ->]|[-> ->]]; [apply pair_eqb_refl | apply adj_pair_swap]. Qed.
  (* the neighbour pair of an occurrence is the same in an element and in its reverse *)
  Lemma inst_conf e1 a1 c1 b1 e2 a2 c2 b2 :
    In e1 E -> consecutive3 e1 a1 c1 b1 -> In e2 E -> consecutive3 e2 a2 c2 b2 ->
    pt_eq c1 c2 -> pair_eqb (adj_pair a1 b1) (adj_pair a2 b2) = false -> isI c1 = true.
  Proof.
    intros H1 K1 H2 K2 Ec P.
    destruct (E_c3 _ _ _ _ H1 K1) as (f1 & x1 & y1 & F1 & G1 & S1). destruct (E_c3 _ _ _ _ H2 K2) as (f2 & x2 & y2 & F2 & G2 & S2).
    apply (ip_conflict_lemma ea pa eb pb gh f1 x1 c1 y1 f2 x2 c2 y2 F1 G1 F2 G2 Ec).
    destruct (pair_eqb (adj_pair x1 y1) (adj_pair x2 y2)) eqn:Q; [|reflexivity].
    apply adj_pair_either in S1, S2. rewrite pair_eqb_sym in S2.
    rewrite (pair_eqb_trans _ _ _ (pair_eqb_trans _ _ _ S1 Q) S2) in P. discriminate.
  Qed.
  Lemma inst_nondeg e l1 a b l2 : In e E -> e = l1 ++ a :: b :: l2 -> ~ pt_eq a b.
  Proof.
    intros H Ee. destruct (in_app_rev elems e H) as [H1|[e0 [H1 Er]]].
    - apply (elems_nondeg e (a, b) H1). rewrite Ee. apply ring_edges_mid.
    - intros Eab. apply (elems_nondeg e0 (b, a) H1); [|symmetry; exact Eab].
      rewrite <- (rev_involutive e0), <- Er, Ee, rev_mid2. apply ring_edges_mid.
  Qed.
  (* the ends of every element of E are interaction points *)
  Lemma inst_ends e d : In e E -> e <> [] -> isI (hd d e) = true /\ isI (last e d) = true.
  Proof.
    assert (Ends : forall e0, In e0 elems -> e0 <> [] -> isI (hd d e0) = true /\ isI (last e0 d) = true).
    { intros [|p0 r] H1 Hne; [congruence|]. destruct (ip_endpoints_lemma ea pa eb pb gh p0 r H1) as [A B].
      rewrite last_cons. split; apply In_isI; assumption. }
    intros H Hne. destruct (in_app_rev elems e H) as [H1|[e0 [H1 ->]]]; [exact (Ends e H1 Hne)|].
    rewrite hd_rev, last_rev. apply and_comm, (Ends e0 H1). intros ->. exact (Hne eq_refl).
  Qed.

  (* forEachNonInteractingSegment on an element of E: total, and every chain is a Chain *)
  Lemma inst_chains_total e : In e E -> exists cs, chains_of I e = Some cs.
  Proof.
    intros H. apply (split_chains_total _ (0, 0)); [|intros _; cbn; lia]. intros Hne. apply (inst_ends e (0, 0) H Hne).
  Qed.
  Lemma inst_chain e cs c : In e E -> chains_of I e = Some cs -> In c cs -> Chain I E c.
  Proof.
    intros H Hcs Hc. exists e. split; [exact H|split].
    - unfold chains_of in Hcs. destruct (split_chains_contig _ _ _ _ Hcs c Hc) as [l1 [l2 El]]. exists l1, l2. exact El.
    - destruct (chains_of_spec_lemma I e cs Hcs) as [_ Hok].
      + destruct e as [|p0 r]; [exact Logic.I|]. apply (inst_ends _ p0 H). discriminate.
      + rewrite forallb_forall in Hok. apply Hok. exact Hc.
  Qed.

  Lemma isI_vertex p : isI p = true -> existsb (pt_eqb p) (ov_vertices I) = true.
  Proof.
    intros H. apply existsb_exists in H. destruct H as [x [Hx Hp]]. destruct (sort_uniq_keeps _ _ Hx) as [x' [H1 H2]].
    apply existsb_exists. exists x'. split; [exact H1|]. apply pt_eqb_iff. apply pt_eqb_iff in Hp.
    etransitivity; [exact Hp | symmetry; exact H2].
  Qed.
  Lemma Chain_shape c : Chain I E c -> chain_shape_ok (ov_vertices I) c = true.
  Proof.
    intros [e [He [[l1 [l2 Ee]] Hok]]]. pose proof Hok as Hc. apply chain_ok_char in Hc.
    destruct Hc as [p [m [q [Ec [H1 [H2 H3]]]]]].
    subst c. unfold chain_shape_ok.
    assert (Hm : exists y r, m ++ [q] = y :: r) by (destruct m; cbn; eauto).
    destruct Hm as [y [r Hm]]. rewrite Hm. rewrite <- Hm.
    apply andb_true_iff; split; [apply andb_true_iff; split|].
    - apply forallb_forall. intros [u w] Huw. apply negb_true_iff. apply pt_eqb_false_iff. cbn [fst snd].
      destruct (ring_edges_in_split _ u w Huw) as [k1 [k2 Ek]].
      apply (inst_nondeg e (l1 ++ k1) u w (k2 ++ l2) He). rewrite Ee, Ek, <- !app_assoc. reflexivity.
    - apply isI_vertex. exact H1.
    - apply isI_vertex.
      replace (last (p :: m ++ [q]) p) with q; [exact H2|].
      change (p :: m ++ [q]) with ((p :: m) ++ [q]). rewrite last_last. reflexivity.
  Qed.

  (* the executable hypothesis of the composition theorem holds for any list of chains of elements of E *)
  Lemma inst_chains_wf cs : (forall c, In c cs -> Chain I E c) -> chains_wf (ov_vertices I) cs = true.
  Proof.
    intros H. unfold chains_wf. apply andb_true_iff; split.
    - apply forallb_forall. intros c Hc. specialize (H c Hc).
      rewrite (Chain_shape c H), (Chain_shape (rev c) (Chain_rev I E inst_rev c H)).
      rewrite (chain_not_palindrome I E inst_spike inst_conf inst_rev inst_nondeg c H). reflexivity.
    - unfold keys_consistent.
      assert (HS : forall s, In s (cs ++ map (@rev pt) cs) -> Chain I E s).
      { intros s Hs. destruct (in_app_rev _ _ Hs) as [Hc|[c [Hc ->]]]; [|apply (Chain_rev I E inst_rev)]; apply H, Hc. }
      apply forallb_forall. intros s Hs. apply forallb_forall. intros t Ht.
      destruct (he_key_eqb s t) eqn:K; [cbn|reflexivity].
      apply seq_eqb_iff. apply (chains_same_key I E inst_spike inst_conf inst_rev s t (HS s Hs) (HS t Ht) K).
  Qed.
  Lemma inst_chains_of_all seqs : (forall ps, In ps seqs -> In ps E) ->
    exists cs, opt_concat (map (chains_of I) seqs) = Some cs /\ chains_wf (ov_vertices I) cs = true.
  Proof.
    intros HE. destruct (opt_concat_total (map (chains_of I) seqs)) as [cs [Ecs Hcs]].
    { intros o Ho. apply in_map_iff in Ho. destruct Ho as [ps [<- Hps]]. apply inst_chains_total, HE, Hps. }
    exists cs. split; [exact Ecs|]. apply inst_chains_wf. intros c Hc.
    destruct (Hcs c Hc) as [x [Hx Hcx]]. apply in_map_iff in Hx. destruct Hx as [ps [Eps Hps]].
    apply (inst_chain ps x c (HE ps Hps) Eps Hcx).
  Qed.

  Hypothesis elems_noded : Noded (flat_map (@ring_edges) elems).

  (* a piece of a chain of an element of E is a piece of the input, possibly reversed *)
  Lemma chain_piece_in c u w : Chain I E c -> In (u, w) (ring_edges c) ->
    In (u, w) (flat_map (@ring_edges) elems) \/ In (w, u) (flat_map (@ring_edges) elems).
  Proof.
    intros [e [He [[l1 [l2 Ee]] _]]] H. destruct (ring_edges_in_split _ _ _ H) as [k1 [k2 Ek]].
    assert (Ee' : e = (l1 ++ k1) ++ u :: w :: (k2 ++ l2)) by (rewrite Ee, Ek, <- !app_assoc; reflexivity).
    destruct (in_app_rev elems e He) as [H1|[e0 [H1 Er]]].
    - left. apply in_flat_map. exists e. split; [exact H1|]. rewrite Ee'. apply ring_edges_mid.
    - right. apply in_flat_map. exists e0. split; [exact H1|].
      rewrite <- (rev_involutive e0), <- Er, Ee', rev_mid2. apply ring_edges_mid.
  Qed.

  Lemma chain_end_isI c x : Chain I E c -> chain_end c x -> isI x = true.
  Proof.
    intros [e [He [Hct Hok]]] [p [r [Ec Hx]]]. apply chain_ok_char in Hok. destruct Hok as [p' [m [q [Epq [H1 [H2 H3]]]]]].
    rewrite Ec in Epq. inversion Epq; subst p' r. unfold isI.
    destruct Hx as [Hx|Hx]; [rewrite (is_interaction_proper I _ _ Hx); exact H1|].
    rewrite last_last in Hx. rewrite (is_interaction_proper I _ _ Hx). exact H2.
  Qed.

  (* position of a control point in a chain: an end, or interior with both neighbours *)
  Lemma chain_point_cases c x : Chain I E c -> In x c ->
    (chain_end c x /\ isI x = true) \/
    (isI x = false /\ exists k1' a b k2', c = k1' ++ a :: x :: b :: k2').
  Proof.
    intros HC Hx. apply in_split in Hx. destruct Hx as [k1 [k2 Ec]].
    assert (End : chain_end c x -> chain_end c x /\ isI x = true) by (intros H; split; [exact H | apply (chain_end_isI c x HC H)]).
    destruct k1 as [|a0 k1'].
    - left. apply End. exists x, k2. split; [exact Ec | left; reflexivity].
    - destruct k2 as [|b0 k2'].
      + left. apply End. exists a0, (k1' ++ [x]). split; [exact Ec | right]. rewrite last_last. reflexivity.
      + right. destruct (@exists_last _ (a0 :: k1')) as [k1'' [a Ea]]; [discriminate|]. split.
        * destruct HC as [e [He [Hct Hok]]]. assert (T : tail_ok I (x :: b0 :: k2')).
          { apply (chain_split_tail I c k1'' a x (b0 :: k2') Hok). rewrite Ec, Ea, <- app_assoc. reflexivity. }
          destruct T as [T _]. exact T.
        * exists k1'', a, b0, k2'. rewrite Ec, Ea, <- app_assoc. reflexivity.
  Qed.

  (* two chains through a common control point *)
  Lemma common_control_point c1 c2 x1 x2 x :
    Chain I E c1 -> Chain I E c2 -> In x1 c1 -> In x2 c2 -> pt_eq x x1 -> pt_eq x x2 ->
    (chain_end c1 x /\ chain_end c2 x) \/ seqs_eq c1 c2 \/ seqs_eq c1 (rev c2).
  Proof.
    intros HC1 HC2 E1 E2 Ex1 Ex2.
    assert (Ex : pt_eq x1 x2) by (etransitivity; [symmetry; exact Ex1 | exact Ex2]).
    destruct (chain_point_cases c1 x1 HC1 E1) as [[A1 A2]|[A1 [k1' [a1 [b1 [k2' A2]]]]]];
    destruct (chain_point_cases c2 x2 HC2 E2) as [[B1 B2]|[B1 [j1' [a2 [b2 [j2' B2]]]]]].
    - left. split; [apply (chain_end_proper c1 x x1 Ex1 A1) | apply (chain_end_proper c2 x x2 Ex2 B1)].
    - exfalso. unfold isI in *. rewrite (is_interaction_proper I _ _ Ex) in A2. congruence.
    - exfalso. unfold isI in *. rewrite (is_interaction_proper I _ _ Ex) in A1. congruence.
    - right. destruct (pair_eqb (adj_pair a1 b1) (adj_pair a2 b2)) eqn:P.
      + apply adj_pair_eq in P. destruct P as [[Pa Pb]|[Pa Pb]].
        * apply (share_piece_sym I E inst_spike inst_conf inst_rev c1 c2 k1' a1 x1 (b1 :: k2') j1' a2 x2 (b2 :: j2') HC1 HC2 A2 B2). auto.
        * apply (share_piece_sym I E inst_spike inst_conf inst_rev c1 c2 k1' a1 x1 (b1 :: k2') (j1' ++ [a2]) x2 b2 j2' HC1 HC2 A2); [|auto].
          rewrite <- app_assoc. exact B2.
      + exfalso. destruct HC1 as [e1 [He1 [Ct1 _]]]. destruct HC2 as [e2 [He2 [Ct2 _]]].
        assert (K1 : consecutive3 e1 a1 x1 b1) by (apply (contig_c3 e1 k1' a1 x1 b1 k2'); rewrite <- A2; exact Ct1).
        assert (K2 : consecutive3 e2 a2 x2 b2) by (apply (contig_c3 e2 j1' a2 x2 b2 j2'); rewrite <- B2; exact Ct2).
        assert (S : isI x1 = true) by apply (inst_conf e1 a1 x1 b1 e2 a2 x2 b2 He1 K1 He2 K2 Ex P). congruence.
  Qed.

  (* T4: a point that lies on a piece of one chain and on a piece of another chain is a common end of the two
     chains - or the chains are the same point sequence, up to reversal *)
  Theorem chains_meet_at_ends c1 c2 P1 P2 x :
    Chain I E c1 -> Chain I E c2 -> In P1 (ring_edges c1) -> In P2 (ring_edges c2) ->
    on_seg P1 x = true -> on_seg P2 x = true ->
    (chain_end c1 x /\ chain_end c2 x) \/ seqs_eq c1 c2 \/ seqs_eq c1 (rev c2).
  Proof.
    intros HC1 HC2 HP1 HP2 Hx1 Hx2. destruct P1 as [u1 w1], P2 as [u2 w2].
    destruct (ring_edges_in_split _ _ _ HP1) as [k1 [k2 Ek]]. destruct (ring_edges_in_split _ _ _ HP2) as [j1 [j2 Ej]].
    destruct (Noded_flip _ elems_noded u1 w1 u2 w2 x (chain_piece_in c1 u1 w1 HC1 HP1) (chain_piece_in c2 u2 w2 HC2 HP2) Hx1 Hx2)
      as [[A B]|A].
    - (* x is a control point of both chains *)
      destruct (ring_edges_in _ _ _ HP1) as [U1 W1]. destruct (ring_edges_in _ _ _ HP2) as [U2 W2].
      assert (X1 : exists x1, In x1 c1 /\ pt_eq x x1) by (destruct A; [exists u1 | exists w1]; auto).
      assert (X2 : exists x2, In x2 c2 /\ pt_eq x x2) by (destruct B; [exists u2 | exists w2]; auto).
      destruct X1 as (x1 & I1 & Ex1), X2 as (x2 & I2 & Ex2). apply (common_control_point c1 c2 x1 x2 x HC1 HC2 I1 I2 Ex1 Ex2).
    - (* the same piece *)
      right. apply (share_piece_sym I E inst_spike inst_conf inst_rev c1 c2 k1 u1 w1 k2 j1 u2 w2 j2 HC1 HC2 Ek Ej A).
  Qed.
End Inst.

(* ================================================================ the chains the pipeline inserts *)
Lemma indexed_from_in {A} (l : list A) : forall k ix, In ix (indexed_from k l) -> In (snd ix) l.
Proof. induction l as [|x l IH]; intros k ix H; [destruct H|]. destruct H as [<-|H]; [left; reflexivity|right; apply (IH _ _ H)]. Qed.
Lemma force_ccw_in rings ps : In ps (force_ccw rings) -> exists q, In q rings /\ (ps = q \/ ps = rev q).
Proof.
  unfold force_ccw. destruct (poly_is_ccw rings); [intros H; exists ps; auto|].
  intros H. apply in_map_iff in H. destruct H as [ir [<- Hir]]. exists (snd ir). split; [apply (indexed_from_in _ _ _ Hir)|].
  unfold force_ring. destruct (Bool.eqb _ _); auto.
Qed.
Lemma regroup_in sh : forall es oe ps, In oe (regroup sh es) -> In ps (elem_seqs oe) ->
  exists q, In q es /\ (ps = q \/ ps = rev q).
Proof.
  induction sh as [|s sh IH]; intros es oe ps Hoe Hps; [destruct Hoe|]. destruct s as [|n]; cbn [regroup] in Hoe.
  - destruct es as [|e es']; [destruct Hoe|]. destruct Hoe as [<-|Hoe].
    + cbn in Hps. destruct Hps as [<-|[]]. exists e. split; [left; reflexivity|left; reflexivity].
    + destruct (IH es' oe ps Hoe Hps) as [q [Hq Hc]]. exists q. split; [right; exact Hq|exact Hc].
  - destruct Hoe as [<-|Hoe].
    + cbn [elem_seqs] in Hps. destruct (force_ccw_in _ _ Hps) as [q [Hq Hc]]. exists q. split; [|exact Hc].
      rewrite <- (firstn_skipn n es). apply in_or_app. left. exact Hq.
    + destruct (IH (skipn n es) oe ps Hoe Hps) as [q [Hq Hc]]. exists q. split; [|exact Hc].
      rewrite <- (firstn_skipn n es). apply in_or_app. right. exact Hq.
Qed.
Lemma rn_elems_nondeg nodes ea eb gh e P :
  In e (rn_a (renode_elems nodes ea eb gh) ++ rn_b (renode_elems nodes ea eb gh) ++ rn_ghosts (renode_elems nodes ea eb gh)) ->
  In P (ring_edges e) -> ~ pt_eq (fst P) (snd P).
Proof.
  intros He HP. change (In e (rn_all (renode_elems nodes ea eb gh))) in He. rewrite rn_all_eq in He.
  apply in_map_iff in He. destruct He as [e1 [<- _]].
  apply (renode_ls_pieces_nondeg _ e1 (f2_ok nodes ea eb gh e1) P HP).
Qed.

Theorem pipeline_chains_wf_lemma (a b : geom) :
  exists cs, pipeline_chains a b = Some cs /\
             chains_wf (ov_vertices (sk_vertices (overlay_skeleton_of a b))) cs = true.
Proof.
  unfold pipeline_chains, pipeline_chains_of_skel, inserted_chains. set (sk := overlay_skeleton_of a b). set (r := sk_renoded sk).
  apply (inst_chains_of_all (rn_a r) (g_points a) (rn_b r) (g_points b) (rn_ghosts r)).
  - intros e P He HP. apply (rn_elems_nondeg _ _ _ _ e P He HP).
  - intros ps H. unfold inserted_seqs in H.
    assert (X : forall q, In q (rn_a r ++ rn_b r ++ rn_ghosts r) -> ps = q \/ ps = rev q ->
                In ps ((rn_a r ++ rn_b r ++ rn_ghosts r) ++ map (@rev pt) (rn_a r ++ rn_b r ++ rn_ghosts r))).
    { intros q Hq [->| ->]; apply in_or_app; [left; exact Hq | right; apply in_map; exact Hq]. }
    apply in_app_or in H. destruct H as [H|H].
    + apply (X ps); [|left; reflexivity]. apply in_or_app. right. apply in_or_app. right. exact H.
    + apply in_app_or in H. destruct H as [H|H]; apply in_flat_map in H; destruct H as [oe [H1 H2]];
        destruct (regroup_in _ _ _ _ H1 H2) as [q [Hq Hc]]; apply (X q); auto; apply in_or_app.
      * left. exact Hq.
      * right. apply in_or_app. left. exact Hq.
Qed.

(* (a) the composed model: total, and the pre-complex it hands to the fix-up satisfies the hypotheses of the
   fix-up theorems - for ALL operands *)
Theorem pipeline_precomplex_wf_lemma (a b : geom) : composed_wf a b.
Proof.
  destruct (pipeline_chains_wf_lemma a b) as [cs [H1 H2]]. apply (composed_precomplex_lemma a b cs H1 H2).
Qed.

(* ... for the re-noded operands of ANY input, with the chains of forEachNonInteractingSegment *)
Theorem T4_full_lemma (nodes : list pt) (ea eb gh : list (list pt)) (pa pb : list pt) :
  let r := renode_elems nodes ea eb gh in
  let I := find_interaction_points (rn_a r) pa (rn_b r) pb (rn_ghosts r) in
  forall e1 e2 cs1 cs2 c1 c2 P1 P2 x,
    In e1 (rn_all r) -> In e2 (rn_all r) -> chains_of I e1 = Some cs1 -> chains_of I e2 = Some cs2 ->
    In c1 cs1 -> In c2 cs2 -> In P1 (ring_edges c1) -> In P2 (ring_edges c2) ->
    on_seg P1 x = true -> on_seg P2 x = true ->
    (chain_end c1 x /\ chain_end c2 x) \/ seqs_eq c1 c2 \/ seqs_eq c1 (rev c2).
Proof.
  intros r I e1 e2 cs1 cs2 c1 c2 P1 P2 x He1 He2 H1 H2 Hc1 Hc2 HP1 HP2 Hx1 Hx2.
  assert (Hno : Noded (flat_map (@ring_edges) (rn_a r ++ rn_b r ++ rn_ghosts r))) by (apply (renode_noded_lemma nodes ea eb gh)).
  apply (chains_meet_at_ends (rn_a r) pa (rn_b r) pb (rn_ghosts r) Hno c1 c2 P1 P2 x); auto.
  - apply (inst_chain (rn_a r) pa (rn_b r) pb (rn_ghosts r) e1 cs1 c1 (in_or_app _ _ _ (or_introl He1)) H1 Hc1).
  - apply (inst_chain (rn_a r) pa (rn_b r) pb (rn_ghosts r) e2 cs2 c2 (in_or_app _ _ _ (or_introl He2)) H2 Hc2).
Qed.

(* ================================================================ the fix-up theorems on the composed model *)
(* Props/C01_fixup.v states them under the executable hypotheses pre_wf / pre_dirs_ok / pre_src_sym; for the
   pre-complex the pipeline builds these hold for every input (pipeline_precomplex_wf_lemma), so: *)
Theorem pipeline_fixup_applies_lemma (a b : geom) :
  exists ov, overlay_dcel_full a b = Some ov /\
    let pc := ov_pre ov in
    let s := fixVertices pc in
    (* next / prev: inverse permutations of the half edges; next e leaves the end vertex of e and is the
       clockwise neighbour of twin e there *)
    (forall e, (e < pnE pc)%nat ->
       (l_next s e < pnE pc)%nat /\ (l_prev s e < pnE pc)%nat /\ l_next s (l_prev s e) = e /\ l_prev s (l_next s e) = e /\
       p_origin pc (l_next s e) = p_origin pc (p_twin pc e)) /\
    (forall e z, (e < pnE pc)%nat -> (z < pnE pc)%nat -> p_origin pc z = p_origin pc (p_twin pc e) ->
       z <> l_next s e -> z <> p_twin pc e -> ccw_between (edge_less pc) (l_next s e) z (p_twin pc e) = false) /\
    (* faces and the flood fill *)
    exists fo, assignFaces pc (l_next s) = Some fo /\
      forall op,
        (forall e, (e < pnE pc)%nat -> lab_get (p_srcFace pc e) op = true -> lab_get (fo_in fo (fo_incident fo e)) op = true) /\
        (forall e, (e < pnE pc)%nat -> lab_get (p_srcFace pc e) op = false -> lab_get (fo_in fo (fo_incident fo e)) op = true ->
                   lab_get (fo_in fo (fo_incident fo (p_twin pc e))) op = true) /\
        (forall f, lab_get (fo_in fo f) op = true <->
                   reach (op_succs pc (fo_cycles fo) (fo_incident fo) op) (op_seed pc (fo_cycles fo) op) f).
Proof.
  destruct (pipeline_precomplex_wf_lemma a b) as [ov [E [W1 [W2 [W3 [W4 _]]]]]].
  exists ov. split; [exact E|]. cbn zeta. split; [|split].
  - intros e He. destruct (fix_next_prev_inverse_lemma _ W1 e He) as [A [B [C D]]].
    repeat split; auto. apply (fix_next_origin _ W1 e He).
  - apply (fix_next_radial_lemma _ W1 W2).
  - destruct (assignFaces_total _ W1) as [fo Hfo]. exists fo. split; [exact Hfo|]. intros op.
    apply (flood_faces_lemma _ W1 fo Hfo op).
Qed.

(* ================================================================ (d) labels and geometry: what is proved *)
(* the label side: a half edge that carries the srcFace flag of an operand lies on a face labelled with that
   operand - on the composed model, for every input (from labels_ok) *)
Theorem pipeline_face_label_seed_lemma (a b : geom) :
  exists ov, overlay_dcel_full a b = Some ov /\
             forall e, In e (c_edges (ov_cx ov)) -> lab_le (e_srcFace e) (face_in (ov_cx ov) (e_face e)) = true.
Proof.
  destruct (pipeline_precomplex_wf_lemma a b) as [ov [E [_ [_ [_ [_ [_ [_ [_ [_ [_ [L _]]]]]]]]]]]].
  exists ov. split; [exact E|]. intros e He. unfold labels_ok in L. apply andb_true_iff in L. destruct L as [L _].
  rewrite forallb_forall in L. specialize (L e He).
  repeat (apply andb_true_iff in L; destruct L as [L ?]). assumption.
Qed.

(* the geometric side: the witness point of a face *)
Lemma witness_search_spec pieces s : forall fuel t w, 0 < t -> witness_search pieces s t fuel = Some w ->
  exists t', 0 < t' /\ w = left_point s t' /\ clear_of pieces s w = true.
Proof.
  induction fuel as [|k IH]; intros t w Ht H; [discriminate|]. cbn [witness_search] in H.
  destruct (clear_of pieces s (left_point s t)) eqn:E.
  - inversion H; subst w. exists t. auto.
  - apply (IH (t / 2) w); [|exact H]. apply Qlt_shift_div_l; lra.
Qed.
Lemma left_point_left p q t : ~ pt_eq p q -> 0 < t -> 0 < cross p q (left_point (p, q) t).
Proof.
  intros N Ht. pose proof (dist2_pos p q N) as D. unfold rn_dist2 in D. unfold left_point, cross. cbn [fst snd]. rewrite !Qred_correct.
  destruct p as [px py], q as [qx qy]. cbn [fst snd] in *.
  assert (X : (qx - px) * ((py + qy) / 2 + t * (qx - px) - py) - (qy - py) * ((px + qx) / 2 - t * (qy - py) - px)
              == t * ((qx - px) * (qx - px) + (qy - py) * (qy - py))) by field.
  rewrite X. apply Qmult_lt_0_compat; assumption.
Qed.
Lemma cross_mid p q : cross p q (seg_mid (p, q)) == 0.
Proof. unfold cross, seg_mid. cbn [fst snd]. rewrite !Qred_correct. field. Qed.
Lemma clear_of_spec pieces s w :
  ~ pt_eq (seg_mid s) w -> (forall u, In u pieces -> ~ pt_eq (fst u) (snd u)) -> clear_of pieces s w = true ->
  forall u y, In u pieces -> on_seg (seg_mid s, w) y = true -> on_seg u y = true -> pt_eq y (seg_mid s).
Proof.
  intros Nw Nu H u y Hu Hy1 Hy2. unfold clear_of in H. rewrite forallb_forall in H. specialize (H u Hu).
  destruct (seg_seg (seg_mid s, w) u) as [|x|x x'] eqn:E; try discriminate.
  - exfalso. apply (seg_seg_complete _ _ y Hy1 Hy2). exact E.
  - apply pt_eqb_iff in H. etransitivity; [|exact H].
    apply (seg_seg_point_unique (seg_mid s, w) u x y); auto.
Qed.

(* FULL STATEMENT WANTED (not proved - it is the correctness theorem of the overlay engine, a theorem of planar
   topology): for every face f of the composed complex with witness w,  f_in f = (inG a w, inG b w)  whenever
   neither operand has areal members with intersecting interiors (the class of the known findings F20 / F20b).
   The driver EVALUATES it on every face of every composed complex (SPEC pipeline_face_label).
   PROVED: pipeline_face_label_seed (above): the flag srcFace puts the incident face into the operand; and for the
   witness: it lies strictly to the LEFT of the first piece (p, q) of the face's cycle edge, and the segment from
   the middle of that piece to it meets the pieces of the overlay only at that middle - so that it lies in the
   region immediately left of the edge, which is the face (the face is kept on the left of its half edges:
   fix_next_radially_adjacent). *)
Theorem face_witness_lemma (ov : overlay) (e : nat) (w : pt) :
  (forall u, In u (all_pieces ov) -> ~ pt_eq (fst u) (snd u)) ->
  face_witness_at ov e = Some w ->
  exists p q rest, seq_of ov e = p :: q :: rest /\ ~ pt_eq p q /\ 0 < cross p q w /\
    forall u y, In u (all_pieces ov) -> on_seg (seg_mid (p, q), w) y = true -> on_seg u y = true -> pt_eq y (seg_mid (p, q)).
Proof.
  intros Nu H. unfold face_witness_at in H. destruct (seq_of ov e) as [|p [|q rest]] eqn:Es; try discriminate.
  cbn [first_piece obind] in H.
  assert (Hin : In (p, q) (all_pieces ov)).
  { unfold all_pieces. apply in_flat_map. exists (p :: q :: rest). split; [|left; reflexivity].
    unfold seq_of in Es. rewrite <- Es. apply nth_In.
    destruct (Nat.lt_ge_cases e (length (ov_seqs ov))) as [L|L]; [exact L|]. rewrite nth_overflow in Es by exact L. discriminate. }
  pose proof (Nu _ Hin) as Npq. cbn [fst snd] in Npq.
  destruct (witness_search_spec _ _ 64 (1 # 2) w ltac:(reflexivity) H) as [t [Ht [Ew Hc]]].
  exists p, q, rest. split; [reflexivity|split; [exact Npq|]].
  assert (C : 0 < cross p q w) by (rewrite Ew; apply left_point_left; assumption).
  split; [exact C|].
  apply clear_of_spec; [|exact Nu|exact Hc].
  intros Em. assert (cross p q w == 0); [|lra]. 
  rewrite <- (cross_mid p q). apply cross_proper; [reflexivity|reflexivity|symmetry; exact Em].
Qed.

(* ================================================================ (c) an operand without components *)
(* UnaryUnion(g) = setOp(g, or, Geometry{}): the second operand contributes no chain and no point.  Then no
   label of the complex has the B bit, Intersection extracts nothing, and or / andNot / xor select the same cells. *)
Lemma Forall_upd_nth {A} (P : A -> Prop) g l : (forall x, P x -> P (g x)) -> Forall P l -> forall i, Forall P (upd_nth i g l).
Proof. intros Hg. induction 1 as [|a l Ha Hl IH]; intros [|i]; cbn; constructor; auto. Qed.

Definition edge_nolab (op : bool) (h : hrec) : Prop := lab_get (h_srcE h) op = false /\ lab_get (h_srcF h) op = false.
Definition NoLab (op : bool) (st : bstate) : Prop :=
  Forall (fun l => lab_get l op = false) (b_vsrc st) /\ Forall (edge_nolab op) (b_edges st).
Lemma set_lab_other l op op' : op' <> op -> lab_get (set_lab l op') op = lab_get l op.
Proof. destruct l as [x y], op, op'; cbn; congruence. Qed.
Lemma edge_nolab_origin op o t h : edge_nolab op h -> edge_nolab op (set_origin_twin o t h).
Proof. intros H. exact H. Qed.
Lemma edge_nolab_srcE op op' h : op' <> op -> edge_nolab op h -> edge_nolab op (set_srcE op' h).
Proof. intros Hne [A B]. split; cbn; [rewrite set_lab_other by exact Hne|]; assumption. Qed.
Lemma edge_nolab_srcF op op' h : op' <> op -> edge_nolab op h -> edge_nolab op (set_srcF op' h).
Proof. intros Hne [A B]. split; cbn; [|rewrite set_lab_other by exact Hne]; assumption. Qed.
Lemma get_or_add_nolab op es seg es' i : get_or_add es seg = (es', i) -> Forall (edge_nolab op) es -> Forall (edge_nolab op) es'.
Proof.
  unfold get_or_add. destruct (he_lookup es seg); intros [= <- _] H; [exact H|]. apply Forall_app. split; [exact H|].
  constructor; [destruct op; split; reflexivity | constructor].
Qed.

Lemma add_edge_nolab verts op op' k st c : NoLab op st -> op' <> op -> lift True (NoLab op) (add_edge verts op' k st c).
Proof.
  intros [HV HE] Hne. destruct c as [|p0 [|p1 cr]]; try exact I. cbn [add_edge]. unfold add_edge_body.
  destruct (get_or_add (b_edges st) (p0 :: p1 :: cr)) as [es1 f] eqn:G1.
  destruct (get_or_add es1 (rev (p0 :: p1 :: cr))) as [es2 r] eqn:G2.
  pose proof (get_or_add_nolab op _ _ _ _ G2 (get_or_add_nolab op _ _ _ _ G1 HE)) as E2.
  destruct (vindex verts p0) as [sv|]; [|exact I]. destruct (vindex verts _) as [ev|]; [|exact I].
  assert (KV : forall x, lab_get x op = false -> lab_get (set_lab x op') op = false)
    by (intros x Hx; rewrite set_lab_other by exact Hne; exact Hx).
  destruct k; split; cbn [b_vsrc b_edges]; repeat apply Forall_upd_nth;
    auto using edge_nolab_origin, edge_nolab_srcE, edge_nolab_srcF.
Qed.
Lemma add_point_nolab verts op op' st p : NoLab op st -> op' <> op -> lift True (NoLab op) (add_point verts op' st p).
Proof.
  intros [HV HE] Hne. unfold add_point. destruct (vindex verts p) as [v|]; [|exact I]. split; cbn [b_vsrc b_edges]; [|exact HE].
  apply Forall_upd_nth; [|exact HV]. intros x Hx. rewrite set_lab_other by exact Hne. exact Hx.
Qed.

Lemma build_state_nolab_b I gh ea pa st : build_state I gh ea pa [] [] = Some st -> NoLab true st.
Proof.
  intros E.
  assert (T : forall ps, Qs I True (fun op' _ => op' <> true) false ps).
  { intros ps. unfold Qs. destruct (chains_of I ps); [|exact Logic.I]. apply Forall_forall. discriminate. }
  pose proof (build_state_lift I (ov_vertices I) True (NoLab true) (fun op' _ => op' <> true) (fun op' _ => op' <> true)
                (add_edge_nolab _ true) (add_point_nolab _ true) gh ea pa [] [] eq_refl) as L.
  rewrite E in L. apply L; try apply Forall_forall.
  - split; cbn [b_vsrc b_edges]; [|constructor]. apply Forall_forall. intros l Hl. apply in_map_iff in Hl. destruct Hl as [? [<- _]]. reflexivity.
  - intros ps _. apply T.
  - intros e _. apply Forall_forall. intros ps _. apply T.
  - discriminate.
  - intros e [].
  - intros p [].
Qed.

(* the labelled complex: no B bit anywhere *)
Definition NoLabC (op : bool) (c : complex) : Prop :=
  (forall v, In v (c_verts c) -> lab_get (v_in v) op = false) /\
  (forall e, In e (c_edges c) -> lab_get (e_in e) op = false) /\
  (forall f, In f (c_faces c) -> lab_get (f_in f) op = false).

Lemma nth_error_default_lab {A} (l : list A) (g : A -> lab) op i :
  (forall x, In x l -> lab_get (g x) op = false) ->
  lab_get (match nth_error l i with Some x => g x | None => (false, false) end) op = false.
Proof. intros H. destruct (nth_error l i) eqn:E; [apply H; apply (nth_error_In _ _ E)|destruct op; reflexivity]. Qed.

Lemma reach_no_seed succs seed f : (forall x, seed x = false) -> ~ reach succs seed f.
Proof. intros H R. induction R as [x Hx|g h _ IH _]; [rewrite H in Hx; discriminate|exact IH]. Qed.

Lemma to_precomplex_nolab op verts st : NoLab op st -> let pc := to_precomplex verts st in
  (forall e, lab_get (p_srcEdge pc e) op = false) /\ (forall e, lab_get (p_srcFace pc e) op = false) /\
  (forall v, lab_get (p_vsrc pc v) op = false).
Proof.
  intros [HV HE] pc. rewrite Forall_forall in HV, HE.
  assert (PEF : forall x, In x (pc_edges pc) -> lab_get (pe_srcEdge x) op = false /\ lab_get (pe_srcFace x) op = false).
  { intros x Hx. apply in_map_iff in Hx. destruct Hx as [h [<- Hh]]. apply HE, Hh. }
  split; [|split].
  - intros e. apply (nth_error_default_lab (pc_edges pc) pe_srcEdge). intros x Hx. apply (PEF x Hx).
  - intros e. apply (nth_error_default_lab (pc_edges pc) pe_srcFace). intros x Hx. apply (PEF x Hx).
  - intros v. apply (nth_error_default_lab (pc_verts pc) pv_src). intros x Hx. apply in_map_iff in Hx.
    destruct Hx as [[y l] [<- Hl]]. apply HV, (in_combine_r _ _ _ _ Hl).
Qed.

Lemma fixup_nolab op pc c :
  pre_wf pc = true -> pre_src_sym pc = true ->
  (forall e, lab_get (p_srcEdge pc e) op = false) -> (forall e, lab_get (p_srcFace pc e) op = false) ->
  (forall v, lab_get (p_vsrc pc v) op = false) -> fixup pc = Some c -> NoLabC op c.
Proof.
  intros W1 W3 PE PF PV Hc. unfold fixup in Hc.
  destruct (assignFaces pc (l_next (fixVertices pc))) as [fo|] eqn:Hfo; [|discriminate].
  inversion Hc; subst c; clear Hc.
  (* faces *)
  assert (FL : forall f, lab_get (fo_in fo f) op = false).
  { intros f. destruct (lab_get (fo_in fo f) op) eqn:E; [exfalso|reflexivity].
    destruct (flood_faces_lemma pc W1 fo Hfo op) as [_ [_ S3]]. apply S3 in E. revert E. apply reach_no_seed.
    intros x. unfold op_seed. destruct (lab_get (seed_label (p_srcFace pc) (nth x (fo_cycles fo) [])) op) eqn:Es; [|reflexivity].
    apply seed_label_iff in Es. destruct Es as [e [_ He]]. rewrite PF in He. discriminate. }
  destruct (populate_spec_lemma pc (fo_incident fo) (fo_in fo) W1 W3) as [PE1 PV1].
  set (pst := populateInSetLabels pc (l_prev (fixVertices pc)) (fo_incident fo) (fo_in fo)) in *.
  assert (EL : forall e, lab_get (elab pc (fo_incident fo) (fo_in fo) e) op = false).
  { intros e. unfold elab. rewrite !lab_get_or, PE, !FL. reflexivity. }
  split; [|split]; cbn [c_verts c_edges c_faces].
  - intros v Hv. apply in_map_iff in Hv. destruct Hv as [i [<- _]]. cbn [v_in].
    destruct (lab_get (snd pst i) op) eqn:E; [exfalso|reflexivity]. apply PV1 in E.
    destruct E as [E|[e [_ [_ E]]]]; [rewrite PV in E|rewrite EL in E]; discriminate.
  - intros e He. apply in_map_iff in He. destruct He as [i [<- Hi]]. cbn [e_in]. apply in_seq in Hi. rewrite PE1 by lia. apply EL.
  - intros f Hf. unfold faces_of in Hf. destruct (fo_cycles fo) as [|c0 cs] eqn:Ecs.
    + destruct Hf as [<-|[]]. destruct op; reflexivity.
    + apply in_map_iff in Hf. destruct Hf as [jc [<- _]]. cbn [f_in]. apply FL.
Qed.

(* selection on a complex without B labels *)
Section NoB.
  Variable c : complex.
  Hypothesis HN : NoLabC true c.
  Lemma face_in_nob f : snd (face_in c f) = false.
  Proof.
    unfold face_in, get_f. destruct (nth_error (c_faces c) f) eqn:E; [|reflexivity].
    destruct HN as [_ [_ H]]. apply (H _ (nth_error_In _ _ E)).
  Qed.
  Lemma twin_face_in_nob e : snd (twin_face_in c e) = false.
  Proof. unfold twin_face_in. destruct (twin_face c e); [apply face_in_nob|reflexivity]. Qed.
  Lemma e_in_nob e : In e (c_edges c) -> snd (e_in e) = false.
  Proof. destruct HN as [_ [H _]]. apply H. Qed.
  Lemma v_in_nob v : In v (c_verts c) -> snd (v_in v) = false.
  Proof. destruct HN as [H _]. apply H. Qed.

  (* or / andNot / xor agree with "the A bit" on every label of c; and is false *)
  Definition incA (o : setop) : Prop := forall l : lab, snd l = false -> inc o l = fst l.
  Lemma incA_not_inter o : o <> OpInter -> incA o.
  Proof. intros Ho [x y] H. cbn in H. subst y. destruct o, x; try reflexivity; contradiction. Qed.
  Lemma inc_inter_nob l : snd l = false -> inc OpInter l = false.
  Proof. destruct l as [x y]; cbn; intros ->. destruct x; reflexivity. Qed.
End NoB.

Lemma filter_nil {A} (f : A -> bool) l : (forall x, In x l -> f x = false) -> filter f l = [].
Proof. induction l as [|a l IH]; intros H; [reflexivity|]. cbn. rewrite (H a (or_introl eq_refl)). apply IH. intros x Hx. apply H. right. exact Hx. Qed.
Lemma fold_left_ext {A B} (f g : A -> B -> A) : (forall a x, f a x = g a x) -> forall l a, fold_left f l a = fold_left g l a.
Proof. intros H. induction l as [|x l IH]; intros a; [reflexivity|]. cbn. rewrite H. apply IH. Qed.
Lemma iter_ext {A} (f g : A -> A) : (forall x, f x = g x) -> forall n x, iter n f x = iter n g x.
Proof. intros H. induction n as [|n IH]; intros x; [reflexivity|]. cbn. rewrite H. apply IH. Qed.
Lemma walk_ext (f g : nat -> option nat) : (forall i, f i = g i) -> forall fuel s cur, walk f s cur fuel = walk g s cur fuel.
Proof.
  intros H. induction fuel as [|k IH]; intros s cur; [reflexivity|]. cbn [walk]. rewrite H.
  destruct (g cur); [|reflexivity]. destruct (Nat.eqb n s); [reflexivity|]. rewrite IH. reflexivity.
Qed.
Lemma collect_ext (f g : nat -> option nat) : (forall i, f i = g i) -> forall fuel cands seen, collect f cands seen fuel = collect g cands seen fuel.
Proof.
  intros H fuel. induction cands as [|x r IH]; intros seen; [reflexivity|]. cbn [collect].
  destruct (memb x seen); [apply IH|]. rewrite (walk_ext f g H). destruct (walk g x x fuel); [|reflexivity]. rewrite IH. reflexivity.
Qed.

(* extractGeometry uses the labelled complex only through the fields twin, prev and face of its half edges, the number
   of faces, sel_face, sel_twin_face and the lists of selected lines and points *)
Section ExtractExt.
  Variables (o o' : setop) (c c' : complex) (g : hedgeR -> hedgeR).
  Hypothesis Hedges : c_edges c' = map g (c_edges c).
  Hypothesis Htwin : forall e, e_twin (g e) = e_twin e.
  Hypothesis Hprev : forall e, e_prev (g e) = e_prev e.
  Hypothesis Hface : forall e, e_face (g e) = e_face e.
  Hypothesis HnF : nF c' = nF c.
  Hypothesis Hsel : forall f, sel_face o' c' f = sel_face o c f.
  Hypothesis Hselt : forall e, sel_twin_face o' c' (g e) = sel_twin_face o c e.

  Lemma get_e_ext i : get_e c' i = option_map g (get_e c i).
  Proof. unfold get_e. rewrite Hedges. apply nth_error_map. Qed.
  Lemma nE_ext : nE c' = nE c.
  Proof. unfold nE. rewrite Hedges. apply map_length. Qed.

  Lemma adj_faces_ext f : adj_faces c' f = adj_faces c f.
  Proof.
    unfold adj_faces, twin_face. rewrite Hedges, flat_map_concat_map, map_map, <- flat_map_concat_map.
    apply flat_map_ext. intros e. rewrite Hface, Htwin, get_e_ext.
    destruct (get_e c (e_twin e)) as [t|]; [cbn [option_map]; rewrite Hface|]; reflexivity.
  Qed.
  Lemma expand_ext grp : expand o' c' grp = expand o c grp.
  Proof. unfold expand. rewrite (flat_map_ext _ _ adj_faces_ext). apply fold_left_ext. intros acc x. rewrite Hsel. reflexivity. Qed.
  Lemma group_ok_ext grp : group_ok o' c' grp = group_ok o c grp.
  Proof.
    unfold group_ok. rewrite (flat_map_ext _ _ adj_faces_ext). f_equal; apply forallb_ext_in; intros x _; rewrite Hsel; reflexivity.
  Qed.
  Lemma face_group_ext s : face_group o' c' s = face_group o c s.
  Proof. unfold face_group. rewrite HnF, (iter_ext _ _ expand_ext), group_ok_ext. reflexivity. Qed.
  Lemma groups_from_ext fs : forall done, groups_from o' c' fs done = groups_from o c fs done.
  Proof.
    induction fs as [|f fs IH]; intros done; [reflexivity|]. cbn [groups_from]. rewrite Hsel, face_group_ext.
    destruct (sel_face o c f && negb (memb f done)); [|apply IH]. destruct (face_group o c f); [|reflexivity]. rewrite IH. reflexivity.
  Qed.
  Lemma polygon_groups_ext : polygon_groups o' c' = polygon_groups o c.
  Proof. unfold polygon_groups. rewrite HnF. apply groups_from_ext. Qed.

  Lemma rot_ext i : rot c' i = rot c i.
  Proof.
    unfold rot. rewrite get_e_ext. destruct (get_e c i) as [e|]; [|reflexivity]. cbn [option_map].
    rewrite Hprev, get_e_ext. destruct (get_e c (e_prev e)) as [p|]; [cbn [option_map]; rewrite Htwin|]; reflexivity.
  Qed.
  Lemma sweep_ext grp fuel : forall i, sweep c' grp i fuel = sweep c grp i fuel.
  Proof.
    induction fuel as [|k IH]; intros i; [reflexivity|]. cbn [sweep]. rewrite get_e_ext.
    destruct (get_e c i) as [e|]; [|reflexivity]. cbn [option_map]. rewrite Hface.
    destruct (memb (e_face e) grp); [reflexivity|]. rewrite rot_ext. destruct (rot c i); [apply IH|reflexivity].
  Qed.
  Lemma ring_succ_ext grp i : ring_succ c' grp i = ring_succ c grp i.
  Proof.
    unfold ring_succ. rewrite get_e_ext. destruct (get_e c i) as [e|]; [|reflexivity]. cbn [option_map].
    rewrite Htwin, rot_ext, nE_ext. destruct (rot c (e_twin e)); [apply sweep_ext|reflexivity].
  Qed.
  Lemma group_boundary_ext grp : group_boundary o' c' grp = group_boundary o c grp.
  Proof.
    unfold group_boundary, edges_ix. rewrite Hedges, indexed_from_map. apply filter_map_fst.
    intros ix. cbn [fst snd]. rewrite Hface, Hselt. reflexivity.
  Qed.
  Lemma group_rings_ext grp : group_rings o' c' grp = group_rings o c grp.
  Proof. unfold group_rings. rewrite group_boundary_ext, nE_ext. apply collect_ext, ring_succ_ext. Qed.

  Lemma extract_geometry_ext ov ov' :
    ov_cx ov = c -> ov_cx ov' = c' -> ov_verts ov' = ov_verts ov -> ov_seqs ov' = ov_seqs ov -> ov_pre ov' = ov_pre ov ->
    lines_selected o' c' = lines_selected o c -> points_selected o' c' = points_selected o c ->
    extract_geometry o' ov' = extract_geometry o ov.
  Proof.
    intros Ec Ec' Ev Es Ep Hl Hp.
    assert (PR : forall grp, polygon_rings o' ov' grp = polygon_rings o ov grp).
    { intros grp. unfold polygon_rings, seq_of. rewrite Ec, Ec', Es, group_rings_ext. reflexivity. }
    unfold extract_geometry, extract_areals, extract_linears, extract_points, seq_of, twin_of.
    rewrite Ec, Ec', Ev, Es, Ep, Hl, Hp, polygon_groups_ext.
    destruct (polygon_groups o c) as [gs|]; [|reflexivity]. cbn [obind]. rewrite (map_ext _ _ PR). reflexivity.
  Qed.
End ExtractExt.

Section NoBSel.
  Variable c : complex.
  Hypothesis HN : NoLabC true c.

  (* ---- Intersection selects nothing *)
  Lemma sel_face_inter f : sel_face OpInter c f = false.
  Proof. unfold sel_face. apply inc_inter_nob. apply (face_in_nob c HN). Qed.
  Lemma sel_line_inter e : In e (c_edges c) -> sel_line OpInter c e = false.
  Proof. intros He. unfold sel_line. rewrite (inc_inter_nob (e_in e) (e_in_nob c HN e He)). rewrite andb_false_r. reflexivity. Qed.
  Lemma line_extracted_inter e : In e (c_edges c) -> line_extracted OpInter c e = false.
  Proof.
    intros He. unfold line_extracted, twin_sel_line. rewrite (sel_line_inter e He). cbn [orb].
    destruct (get_e c (e_twin e)) eqn:E; [|reflexivity]. apply sel_line_inter. apply (get_e_in _ _ _ E).
  Qed.
  Lemma groups_from_inter fs : forall done, groups_from OpInter c fs done = Some [].
  Proof. induction fs as [|f fs IH]; intros done; [reflexivity|]. cbn [groups_from]. rewrite sel_face_inter. cbn [andb]. apply IH. Qed.
  Lemma lines_selected_inter : lines_selected OpInter c = [].
  Proof.
    unfold lines_selected. rewrite filter_nil; [reflexivity|]. intros ie Hie.
    rewrite (line_extracted_inter (snd ie)); [reflexivity|]. apply (indexed_from_in _ _ _ Hie).
  Qed.
  Lemma points_selected_inter : points_selected OpInter c = [].
  Proof.
    unfold points_selected. rewrite filter_nil; [reflexivity|]. intros iv Hiv. unfold sel_point.
    rewrite (inc_inter_nob (v_in (snd iv))); [reflexivity|]. apply (v_in_nob c HN). apply (indexed_from_in _ _ _ Hiv).
  Qed.

  (* ---- or / andNot / xor select the same cells *)
  Variables o o' : setop.
  Hypothesis Ho : incA o.
  Hypothesis Ho' : incA o'.
  Lemma sel_face_same f : sel_face o c f = sel_face o' c f.
  Proof. unfold sel_face. rewrite Ho, Ho'; auto using (face_in_nob c HN). Qed.
  Lemma sel_twin_face_same e : sel_twin_face o c e = sel_twin_face o' c e.
  Proof. unfold sel_twin_face. rewrite Ho, Ho'; auto using (twin_face_in_nob c HN). Qed.
  Lemma adj_sel_same e : adj_sel o c e = adj_sel o' c e.
  Proof. unfold adj_sel. rewrite sel_face_same, sel_twin_face_same. reflexivity. Qed.
  Lemma sel_line_same e : In e (c_edges c) -> sel_line o c e = sel_line o' c e.
  Proof.
    intros He. unfold sel_line. rewrite adj_sel_same, sel_face_same, sel_twin_face_same.
    rewrite (Ho (e_in e)), (Ho' (e_in e)); auto using (e_in_nob c HN).
  Qed.
  Lemma line_extracted_same e : In e (c_edges c) -> line_extracted o c e = line_extracted o' c e.
  Proof.
    intros He. unfold line_extracted, twin_sel_line. rewrite (sel_line_same e He). f_equal.
    destruct (get_e c (e_twin e)) eqn:E; [|reflexivity]. apply sel_line_same. apply (get_e_in _ _ _ E).
  Qed.
  Lemma v_covered_same v : v_covered o c v = v_covered o' c v.
  Proof.
    unfold v_covered. apply existsb_ext_in. intros e He. rewrite sel_face_same, (line_extracted_same e He). reflexivity.
  Qed.
  Lemma lines_selected_same : lines_selected o c = lines_selected o' c.
  Proof.
    unfold lines_selected. f_equal. apply filter_ext_in. intros ie Hie.
    rewrite (line_extracted_same (snd ie)); [reflexivity|]. apply (indexed_from_in _ _ _ Hie).
  Qed.
  Lemma points_selected_same : points_selected o c = points_selected o' c.
  Proof.
    unfold points_selected. f_equal. apply filter_ext_in. intros iv Hiv. unfold sel_point.
    rewrite v_covered_same, (Ho (v_in (snd iv))), (Ho' (v_in (snd iv))); auto; apply (v_in_nob c HN); apply (indexed_from_in _ _ _ Hiv).
  Qed.
End NoBSel.

Lemma assemble_nothing : assemble [] [] [] = GColl XY [].
Proof. reflexivity. Qed.

Lemma extract_inter_nob ov : NoLabC true (ov_cx ov) -> extract_geometry OpInter ov = Some (GColl XY []).
Proof.
  intros HN. unfold extract_geometry, extract_areals, polygon_groups. rewrite (groups_from_inter _ HN). cbn [obind map all_some].
  unfold extract_linears, extract_points. rewrite (lines_selected_inter _ HN), (points_selected_inter _ HN). reflexivity.
Qed.
Lemma extract_same_nob ov o o' : NoLabC true (ov_cx ov) -> incA o -> incA o' -> extract_geometry o ov = extract_geometry o' ov.
Proof.
  intros HN Ho Ho'.
  apply (extract_geometry_ext o' o (ov_cx ov) (ov_cx ov) (fun e => e) (eq_sym (map_id _)) (fun _ => eq_refl) (fun _ => eq_refl)
           (fun _ => eq_refl) eq_refl (sel_face_same _ HN o o' Ho Ho') (sel_twin_face_same _ HN o o' Ho Ho') ov ov
           eq_refl eq_refl eq_refl eq_refl eq_refl (lines_selected_same _ HN o o' Ho Ho') (points_selected_same _ HN o o' Ho Ho')).
Qed.

(* overlay_dcel_full is unfolded in the goal, not in a hypothesis: the kernel then unfolds it first and never starts
   to evaluate the skeleton *)
Lemma overlay_dcel_full_inv a b ov : overlay_dcel_full a b = Some ov ->
  let sk := overlay_skeleton_of a b in
  exists st, build_state (sk_vertices sk) (rn_ghosts (sk_renoded sk)) (regroup (g_shapes a) (rn_a (sk_renoded sk))) (g_points a)
                         (regroup (g_shapes b) (rn_b (sk_renoded sk))) (g_points b) = Some st /\
             ov_pre ov = to_precomplex (ov_vertices (sk_vertices sk)) st /\ fixup (ov_pre ov) = Some (ov_cx ov).
Proof.
  unfold overlay_dcel_full. generalize (overlay_skeleton_of a b). intros sk. unfold overlay_dcel_of_skel.
  destruct (build_state _ _ _ _ _ _) as [st|]; [|discriminate]. cbn [obind].
  destruct (fixup _) as [c|] eqn:Ec; [|discriminate]. cbn [obind]. intros [= <-]. exists st. cbn [ov_pre ov_cx]. auto.
Qed.
Lemma rn_b_empty a b : g_elems b = [] -> rn_b (sk_renoded (overlay_skeleton_of a b)) = [].
Proof. intros Eb. unfold overlay_skeleton_of, renode_geometries, renode_elems. cbn [sk_renoded rn_b]. rewrite Eb. reflexivity. Qed.

Theorem pipeline_empty_operand_lemma (a b : geom) :
  g_elems b = [] -> g_shapes b = [] -> g_points b = [] ->
  overlay_result OpInter a b = Some (GColl XY []) /\
  overlay_result OpDiff a b = overlay_result OpUnion a b /\
  overlay_result OpSym a b = overlay_result OpUnion a b.
Proof.
  intros Eb Sb Pb.
  destruct (pipeline_precomplex_wf_lemma a b) as [ov [E [W1 [_ [W3 _]]]]].
  assert (HN : NoLabC true (ov_cx ov)).
  { destruct (overlay_dcel_full_inv a b ov E) as [st [Est [Ep Ef]]]. rewrite (rn_b_empty a b Eb), Sb, Pb in Est.
    destruct (to_precomplex_nolab true (ov_vertices (sk_vertices (overlay_skeleton_of a b))) st (build_state_nolab_b _ _ _ _ _ Est))
      as (PE & PF & PV). rewrite <- Ep in PE, PF, PV. apply (fixup_nolab true _ _ W1 W3 PE PF PV Ef). }
  unfold overlay_result. rewrite E. cbn [obind].
  split; [apply (extract_inter_nob ov HN)|].
  split; apply (extract_same_nob ov _ _ HN); apply incA_not_inter; discriminate.
Qed.

(* ================================================================ (c) the extraction is symmetric in the labels *)
(* swapping the two label bits of every cell of the complex (what exchanging the operands does to the LABELS; the
   numbering of half edges and faces of overlay (b, a) also differs, which is not covered here) does not change what
   union / intersection / symmetric difference extract *)
Definition swap_ov (ov : overlay) : overlay :=
  MkOv (ov_skel ov) (ov_verts ov) (ov_seqs ov) (ov_pre ov) (swap_c (ov_cx ov)).

Theorem extract_label_symmetric_lemma (o : setop) (ov : overlay) :
  o <> OpDiff -> extract_geometry o (swap_ov ov) = extract_geometry o ov.
Proof.
  intros Ho. destruct (select_comm_lemma o (ov_cx ov) Ho) as [_ [_ [L P]]].
  apply (extract_geometry_ext o o (ov_cx ov) (swap_c (ov_cx ov)) swap_e eq_refl (fun _ => eq_refl) (fun _ => eq_refl)
           (fun _ => eq_refl) (map_length _ _) (fun f => sel_face_swap o _ f Ho) (fun e => sel_twin_face_swap o _ e Ho) ov (swap_ov ov)
           eq_refl eq_refl eq_refl eq_refl eq_refl L P).
Qed.
