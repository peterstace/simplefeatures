(* Property C09: Distance (squared) on the model is the minimum squared Euclidean distance between
   the two point sets, for every pair of operands (areal ones included).  A point in the interior of
   a polygon is joined to the other operand by a segment; unless the segment meets a ring (at a
   point that is closer), its far end would be in the polygon too (parity constancy), i.e. the
   operands would intersect. *)
From Coq Require Import QArith Qabs Qround Qreduction List Bool ZArith Lia Lqa Setoid Morphisms.
From SF Require Import Base.GeomAST Base.QKernel Base.Planar Proofs.Planar_proofs
  Proofs.Planar_slab_base Proofs.Planar_slab
  Model.Intersects Model.Distance Proofs.Intersects_proofs Proofs.Distance_proofs Proofs.Distance_lower
  Proofs.Intersects_areal Proofs.Intersects_polypoly.
Import ListNotations.
Open Scope Q_scope.

Lemma between_closer p q z : on_seg (p, q) z = true -> d2_xy z q <= d2_xy p q.
Proof.
  intros H. apply on_seg_iff in H. destruct H as [t [T [Hx Hy]]]. rewrite !d2_xy_expand, Hx, Hy.
  pose proof (sq_nonneg (fst p - fst q)) as Sx. pose proof (sq_nonneg (snd p - snd q)) as Sy.
  pose proof (sq_convex (fst p - fst q) (snd p - snd q) 0 0 t T ltac:(lra)) as K. lra.
Qed.

(* a point of a polygon, joined to a point outside it: the segment reaches the boundary *)
Lemma polygon_reach y p q :
  poly_rings_closed y = true -> poly_rings_wf y = true ->
  in_poly y p = true -> in_poly y q = false ->
  exists z, on_seg (p, q) z = true /\ exists s, In s (poly_lines y) /\ on_seg s z = true.
Proof.
  intros C W Hp Hq. unfold poly_rings_closed in C. unfold poly_rings_wf in W. rewrite forallb_forall in C, W.
  assert (Cover : forall r z, In r (poly_rings y) -> on_edges (line_segs r) z = true -> exists s, In s (poly_lines y) /\ on_seg s z = true).
  { intros r z Hr Hz. destruct (ring_wf_pts r (W r Hr)) as [Wf _]. destruct (on_line_cover r z Wf Hz) as [s [Hs Hsz]].
    exists s. split; [eapply ring_in_poly_lines; eauto | exact Hsz]. }
  set (T := (p, q)).
  destruct (existsb (fun r => existsb (fun e => seg_meet e T) (line_segs r)) (poly_rings y)) eqn:Em.
  - apply existsb_exists in Em. destruct Em as [r [Hr Em]]. apply existsb_exists in Em. destruct Em as [e [He Em]].
    apply seg_meet_iff in Em. destruct Em as [z [H1 H2]]. exists z. split; [exact H2|].
    apply (Cover r z Hr). unfold on_edges. apply existsb_exists. eauto.
  - exfalso.
    assert (Av : forall r, In r (poly_rings y) -> avoids (line_segs r) (p, q)).
    { intros r Hr. apply no_meet_avoids. exact (proj1 (existsb_false_iff _ _) Em r Hr). }
    assert (Rings : forall r, In r (poly_rings y) ->
              on_edges (line_segs r) p = false /\ on_edges (line_segs r) q = false /\
              edges_parity (line_segs r) p = edges_parity (line_segs r) q).
    { intros r Hr. destruct (avoids_off _ p q (Av r Hr)) as [O1 O2]. split; [exact O1|]. split; [exact O2|].
      apply (path_parity (line_pts r) p q (C r Hr) (Av r Hr)). }
    destruct (in_poly_by_rings y p q Rings) as [E _]. congruence.
Qed.

(* from a point of g towards a point outside g: a covered point of g no farther away *)
Lemma reach_covered g p q :
  operand_ok g -> inG g p = true -> inG g q = false ->
  exists p', covered g p' /\ on_seg (p, q) p' = true.
Proof.
  intros Og Hp Hq. apply inG_iff in Hp. destruct Hp as [l [Hl Hp]].
  pose proof (operand_ok_mleaf g l Og Hl) as [Wl [Cl [Fl Nl]]].
  assert (Hql : inG l q = false).
  { destruct (inG l q) eqn:E; [|reflexivity]. rewrite (proj2 (inG_iff g q)) in Hq; [discriminate | eauto]. }
  pose proof (mleaves_multi g l Hl) as M.
  destruct l as [pp|ll|y|c mp|c ls|c ys|c gs]; cbn [is_multi] in M; try contradiction.
  - exists p. split; [|apply on_seg_left]. apply (covered_mleaf g _ p Hl). exact (inG_part_cover (GMPoint c mp) p eq_refl Wl Hp).
  - exists p. split; [|apply on_seg_left]. apply (covered_mleaf g _ p Hl). exact (inG_part_cover (GMLine c ls) p eq_refl Wl Hp).
  - cbn [inG] in Hp, Hql. apply existsb_exists in Hp. destruct Hp as [y [Hy Hp]].
    unfold Intersects.rings_closed in Cl. unfold polys_wf in Fl. rewrite forallb_forall in Cl, Fl.
    assert (Hqy : in_poly y q = false).
    { destruct (in_poly y q) eqn:E; [|reflexivity].
      assert (X : existsb (fun y0 => in_poly y0 q) ys = true) by (apply existsb_exists; eauto). congruence. }
    destruct (polygon_reach y p q (Cl y Hy) (Fl y Hy) Hp Hqy) as [z [Hz [s [Hs Hsz]]]].
    exists z. split; [|exact Hz]. apply (covered_mleaf g _ z Hl). right. exists s. split; [|exact Hsz].
    cbn [part_lines]. apply in_flat_map. eauto.
Qed.

Theorem distance_is_min a b d :
  operand_ok a -> operand_ok b -> dist2 a b = Some d ->
  (exists p q, inG a p = true /\ inG b q = true /\ d == d2_xy p q) /\
  (forall p q, inG a p = true -> inG b q = true -> d <= d2_xy p q).
Proof.
  intros Oa Ob. pose proof Oa as [_ [Ca _]]. pose proof Ob as [_ [Cb _]].
  assert (Complete : forall w, inG a w = true -> inG b w = true -> intersects a b = true)
    by (intros w; apply intersects_complete; assumption).
  apply distance_is_min_of; try assumption.
  intros Ei p q Hp Hq.
  assert (Out : forall w, inG a w = true -> inG b w = false).
  { intros w H1. destruct (inG b w) eqn:E; [|reflexivity]. rewrite (Complete w H1 E) in Ei. discriminate. }
  assert (Hq_a : inG a q = false).
  { destruct (inG a q) eqn:E; [|reflexivity]. rewrite (Out q E) in Hq. discriminate. }
  destruct (reach_covered a p q Oa Hp Hq_a) as [p' [Cp' Op']].
  destruct (reach_covered b q p' Ob Hq (Out p' (covered_inG a p' Cp'))) as [q' [Cq' Oq']].
  exists p', q'. split; [exact Cp'|]. split; [exact Cq'|].
  pose proof (between_closer p q p' Op') as B2. pose proof (between_closer q p' q' Oq') as B3.
  rewrite (d2_xy_sym q' p'), (d2_xy_sym q p') in B3. lra.
Qed.
