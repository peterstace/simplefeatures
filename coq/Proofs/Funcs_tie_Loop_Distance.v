(* Translator tie (third output of tools/gen_funcs, DESIGN.md A.8b), property C09: the bodies of
   geom/alg_distance.go (distBetweenXYs, distBetweenXYAndLine, distBetweenLineAndLine: distances,
   through math.Hypot), as re-read from the Go source into Gen/FuncsLoop.v on every run, against the
   distance kernels of coq/Model/Distance.v (d2_xy_line, d2_line_line: SQUARED distances over Q).
   The step from the minimum of the four point-segment distances to d2_line_line (the minimum of
   the four squares, [qmin_sq]) is not stated as a lemma.

   There is no square root in Q.  The lemmas are therefore stated for EVERY pair of operations
   sq / hy standing for math.Sqrt / math.Hypot, under the hypothesis that hy is exact on the (at
   most three) argument pairs the call applies it to ([root_exact]: non-negative, and its square is
   x*x + y*y - satisfiable whenever those three lengths are rational, see the Example); then the
   translated function takes the same branch as the model and its value squares to the model's
   squared distance.  distBetweenLineAndLine (a range loop over an array literal, started at
   math.Inf(+1)) is the minimum of the four point-segment distances in the order of the model, for
   every value standing for +Inf that is not below any of them.  An edited body in the Go source
   makes this file fail to compile. *)
From Coq Require Import String ZArith QArith Qabs List Bool Lia Lqa.
From SF Require Import Base.FOps Base.FLoop Gen.FuncsLoop Proofs.Funcs_tie_lib Proofs.Funcs_tie_Loop_lib
  Base.QKernel Model.Intersects Model.Distance.
Import ListNotations.
Open Scope Q_scope.

Definition gpt (p : pt) : geom_XY Q := Mk_geom_XY (fst p) (snd p).
Definition gln (s : seg) : geom_line Q := Mk_geom_line (gpt (fst s)) (gpt (snd s)).

Definition root_exact (hy : Q -> Q -> Q) (v : pt) : Prop :=
  0 <= hy (fst v) (snd v) /\ hy (fst v) (snd v) * hy (fst v) (snd v) == vdot v v.

Section WithRoot.
  Variables (sq : Q -> Q) (hy : Q -> Q -> Q).
  Local Notation rops := (qops_with sq hy).

  (* geom/alg_distance.go:distBetweenXYs *)
  Lemma tie_distBetweenXYs : forall p q, geom_distBetweenXYs rops (gpt p) (gpt q) = hy (fst (vsub p q)) (snd (vsub p q)).
  Proof. reflexivity. Qed.

  Lemma Qdiv_mult_r : forall x r, 0 < r -> x / r * r == x.
  Proof. intros. field. lra. Qed.
  Lemma q_ltb_div_0 : forall x r, 0 < r -> q_ltb (x / r) 0 = qltb x 0.
  Proof.
    intros x r Hr. unfold q_ltb, qltb. f_equal. apply Qle_bool_ext.
    rewrite <- (Qmult_le_r 0 (x / r) r Hr), Qdiv_mult_r, Qmult_0_l by exact Hr. reflexivity.
  Qed.
  Lemma q_ltb_div_r : forall x r l2, 0 < r -> r * r == l2 -> q_ltb r (x / r) = qltb l2 x.
  Proof.
    intros x r l2 Hr E. unfold q_ltb, qltb. f_equal. apply Qle_bool_ext.
    rewrite <- E, <- (Qmult_le_r (x / r) r r Hr), Qdiv_mult_r by exact Hr. reflexivity.
  Qed.

  Lemma distBetweenXYAndLine_unfold : forall p a b,
    geom_distBetweenXYAndLine rops (gpt p) (gln (a, b))
    = let r := hy (fst (vsub b a)) (snd (vsub b a)) in
      let pr := vdot (vsub p a) (vsub b a) in
      if q_ltb (pr / r) 0 then hy (fst (vsub p a)) (snd (vsub p a))
      else if q_ltb r (pr / r) then hy (fst (vsub p b)) (snd (vsub p b))
      else Qabs (vcross (vsub b a) (vsub p a)) / r.
  Proof. reflexivity. Qed.

  (* geom/alg_distance.go:distBetweenXYAndLine on a segment with distinct end points *)
  Lemma tie_distBetweenXYAndLine : forall p a b,
    0 < vdot (vsub b a) (vsub b a) ->
    root_exact hy (vsub b a) -> root_exact hy (vsub p a) -> root_exact hy (vsub p b) ->
    let d := geom_distBetweenXYAndLine rops (gpt p) (gln (a, b)) in
    0 <= d /\ d * d == d2_xy_line p (a, b).
  Proof.
    intros p a b Hpos [Hr0 Hr2] Ha Hb. rewrite distBetweenXYAndLine_unfold. unfold d2_xy_line. cbv zeta.
    set (r := hy (fst (vsub b a)) (snd (vsub b a))) in *.
    assert (Hr : 0 < r) by nra.
    rewrite (q_ltb_div_0 _ r Hr), (q_ltb_div_r _ r _ Hr Hr2).
    destruct (qltb (vdot (vsub p a) (vsub b a)) 0); [exact Ha|].
    destruct (qltb (vdot (vsub b a) (vsub b a)) (vdot (vsub p a) (vsub b a))); [exact Hb|].
    set (c := vcross (vsub b a) (vsub p a)).
    split.
    - apply Qle_shift_div_l; [exact Hr|]. pose proof (Qabs_nonneg c). lra.
    - setoid_replace (Qabs c / r * (Qabs c / r)) with (Qabs c * Qabs c / (r * r)) by (field; lra).
      rewrite Hr2. apply Qabs_case; intros; field; lra.
  Qed.

  (* geom/util.go:fastMin is the model's qmin *)
  Lemma tie_fastMin : forall a b, geom_fastMin rops a b = qmin a b.
  Proof. reflexivity. Qed.

  Lemma fold_fastMin_inf : forall m d l,
    q_ltb m d = false -> fold_left (geom_fastMin rops) (d :: l) m = fold_left qmin l d.
  Proof.
    intros m d l H. cbn [fold_left]. f_equal. unfold geom_fastMin. cbn [f_is_nan f_ltb qops_with orb].
    rewrite H. reflexivity.
  Qed.

  (* geom/alg_distance.go:distBetweenLineAndLine *)
  Lemma tie_distBetweenLineAndLine : forall (inf : Z -> Q) ln1 ln2,
    let D := geom_distBetweenXYAndLine rops in
    q_ltb (inf 1%Z) (D (gpt (fst ln1)) (gln ln2)) = false ->
    geom_distBetweenLineAndLine rops inf (gln ln1) (gln ln2)
    = Known (qmin (qmin (qmin (D (gpt (fst ln1)) (gln ln2)) (D (gpt (snd ln1)) (gln ln2)))
                        (D (gpt (fst ln2)) (gln ln1)))
                  (D (gpt (snd ln2)) (gln ln1))).
  Proof.
    intros inf ln1 ln2 D Hinf. unfold geom_distBetweenLineAndLine. cbv zeta.
    rewrite (range_loop_fold (geom_fastMin rops)). cbn [gln geom_line_a geom_line_b].
    rewrite (fold_fastMin_inf _ _ _ Hinf). reflexivity.
  Qed.
End WithRoot.

(* the minimum of two non-negative numbers squares to the minimum of the squares (relates the
   minimum of distances above to the model's minimum of squared distances, d2_line_line) *)
Lemma qmin_sq : forall x y, 0 <= x -> 0 <= y -> qmin x y * qmin x y == qmin (x * x) (y * y).
Proof.
  intros x y Hx Hy. unfold qmin, qltb.
  destruct (Qle_bool_spec y x), (Qle_bool_spec (y * y) (x * x)); cbn [negb]; try reflexivity; exfalso; nra.
Qed.

(* the hypotheses of tie_distBetweenXYAndLine are satisfiable: p = (3,4), a = (0,0), b = (6,0) *)
Example root_exact_example :
  let hy := fun x y : Q => if Qeq_bool y 0 then Qabs x else 5 in
  root_exact hy (vsub (6, 0) (0, 0)) /\ root_exact hy (vsub (3, 4) (0, 0)) /\ root_exact hy (vsub (3, 4) (6, 0)).
Proof. cbv. intuition discriminate. Qed.
