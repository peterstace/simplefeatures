(* Helpers shared by the files Consts_tie_*.v (DESIGN.md 2.5, second tie): association lists keyed
   by strings / integers, the Go names of the constructors of Base/GeomAST.v, and enumerations.
   No model is required here, so that every tie file depends on Gen/Consts.v, on this file and on
   its own model only. *)
From Coq Require Import NArith ZArith List String Bool Ascii Lia.
From SF Require Import Base.GeomAST.
Import ListNotations.
Open Scope string_scope.

Fixpoint assoc_s {A} (k : string) (l : list (string * A)) : option A :=
  match l with
  | [] => None
  | (k', v) :: r => if String.eqb k k' then Some v else assoc_s k r
  end.
Fixpoint assoc_z {A} (k : Z) (l : list (Z * A)) : option A :=
  match l with
  | [] => None
  | (k', v) :: r => if Z.eqb k k' then Some v else assoc_z k r
  end.
Definition mem_z (k : Z) (l : list Z) : bool := existsb (Z.eqb k) l.
Definition mem_s (k : string) (l : list string) : bool := existsb (String.eqb k) l.
Definition keys {A B} (l : list (A * B)) : list A := map fst l.

(* 0, 1, ..., n-1 *)
Definition upto (n : N) : list Z := map Z.of_nat (seq 0 (N.to_nat n)).
Definition uptoN (n : N) : list N := map N.of_nat (seq 0 (N.to_nat n)).
Lemma forallb_uptoN (P : N -> bool) n : (forall c, (c < n)%N -> P c = true) -> forallb P (uptoN n) = true.
Proof.
  intros H. apply forallb_forall. intros c Hc. apply in_map_iff in Hc. destruct Hc as [k [<- Hk]].
  apply in_seq in Hk. apply H. lia.
Qed.
Lemma uptoN_forallb (P : N -> bool) n : forallb P (uptoN n) = true -> forall c, (c < n)%N -> P c = true.
Proof.
  intros H c Hc. rewrite forallb_forall in H. apply H. apply in_map_iff. exists (N.to_nat c).
  split; [apply N2Nat.id | apply in_seq; lia].
Qed.
(* lo, lo+1, ..., lo+n-1 *)
Definition zrange (lo : Z) (n : N) : list Z :=
  map (fun i => (lo + Z.of_nat i)%Z) (seq 0 (N.to_nat n)).

Definition bytes_of_string (s : string) : list N := map N_of_ascii (list_ascii_of_string s).

(* ---- the constructors of Base/GeomAST.v and the Go constants they stand for *)
Definition all_gtypes : list gtype := [TColl; TPoint; TLine; TPoly; TMPoint; TMLine; TMPoly].
Definition all_ctypes : list ctype := [XY; XYZ; XYM; XYZM].

(* geom/type_geometry.go: const block of GeometryType *)
Definition go_gtype_name (t : gtype) : string :=
  match t with
  | TColl => "TypeGeometryCollection" | TPoint => "TypePoint" | TLine => "TypeLineString"
  | TPoly => "TypePolygon" | TMPoint => "TypeMultiPoint" | TMLine => "TypeMultiLineString"
  | TMPoly => "TypeMultiPolygon"
  end.
(* the Go type that carries the geometry (receiver of AppendWKT, MarshalJSON, ...) *)
Definition go_gtype_recv (t : gtype) : string :=
  match t with
  | TColl => "GeometryCollection" | TPoint => "Point" | TLine => "LineString"
  | TPoly => "Polygon" | TMPoint => "MultiPoint" | TMLine => "MultiLineString"
  | TMPoly => "MultiPolygon"
  end.
(* geom/coordinate_type.go: const block of CoordinatesType *)
Definition go_ctype_name (c : ctype) : string :=
  match c with XY => "DimXY" | XYZ => "DimXYZ" | XYM => "DimXYM" | XYZM => "DimXYZM" end.

Definition gtype_of_go_name (s : string) : option gtype :=
  find (fun t => String.eqb (go_gtype_name t) s) all_gtypes.
Definition ctype_of_go_name (s : string) : option ctype :=
  find (fun c => String.eqb (go_ctype_name c) s) all_ctypes.

(* receivers sorted as tools/gen_consts sorts them (byte-wise) *)
Definition gtypes_by_recv : list gtype := [TColl; TLine; TMLine; TMPoint; TMPoly; TPoint; TPoly].
