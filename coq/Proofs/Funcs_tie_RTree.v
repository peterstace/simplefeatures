(* Translator tie for function bodies (DESIGN.md A.8b), property C11: the box algebra of
   coq/Model/RTree.v against the bodies of rtree/box.go (combine, overlap,
   squaredEuclideanDistance) and rtree/bulk.go (fastMin, fastMax) as re-read from the Go source
   into Gen/Funcs.v on every run.  Carrier: Z ([zops]).  Every lemma is for all arguments; the
   translated body and the model function are the same term up to unfolding, so each proof is
   [reflexivity]; should the Go body be rewritten into an extensionally equal one, [ztie] falls
   back to case analysis on the comparisons and integer arithmetic.  An edited body that computes
   something else makes this file fail to compile. *)
From Coq Require Import ZArith Bool Lia.
From SF Require Import Base.FOps Gen.Funcs Proofs.Funcs_tie_lib Base.Outcome Model.RTree.
Open Scope Z_scope.

Ltac ztie := intros; repeat match goal with b : RTree.box |- _ => destruct b end; ztie0.

(* rtree.Box <-> RTree.box *)
Definition gbox (b : RTree.box) : rtree_Box Z := Mk_rtree_Box (minx b) (miny b) (maxx b) (maxy b).
Definition mbox (b : rtree_Box Z) : RTree.box :=
  MkBox (rtree_Box_MinX b) (rtree_Box_MinY b) (rtree_Box_MaxX b) (rtree_Box_MaxY b).
Lemma mbox_gbox b : mbox (gbox b) = b.
Proof. destruct b; reflexivity. Qed.
Lemma gbox_mbox b : gbox (mbox b) = b.
Proof. destruct b; reflexivity. Qed.

(* rtree/bulk.go:fastMin, fastMax *)
Lemma tie_rtree_fastMin : forall a b, rtree_fastMin zops a b = RTree.fmin a b.
Proof. ztie. Qed.
Lemma tie_rtree_fastMax : forall a b, rtree_fastMax zops a b = RTree.fmax a b.
Proof. ztie. Qed.

(* rtree/box.go:combine *)
Lemma tie_rtree_combine : forall b1 b2, rtree_combine zops (gbox b1) (gbox b2) = gbox (RTree.combine b1 b2).
Proof. ztie. Qed.
Lemma tie_rtree_combine' : forall b1 b2, mbox (rtree_combine zops b1 b2) = RTree.combine (mbox b1) (mbox b2).
Proof. ztie. Qed.

(* rtree/box.go:overlap  (the Go body starts with `true &&`, which computes away) *)
Lemma tie_rtree_overlap : forall b1 b2, rtree_overlap zops (gbox b1) (gbox b2) = RTree.overlap b1 b2.
Proof. ztie. Qed.

(* rtree/box.go:squaredEuclideanDistance *)
Lemma tie_rtree_sqdist : forall b1 b2, rtree_squaredEuclideanDistance zops (gbox b1) (gbox b2) = RTree.sqdist b1 b2.
Proof. ztie. Qed.
