(* Sufficiency of the slab-witness oracle, part 3: what the dimension tags mean, and the exact
   characterisation of every entry of the reference DE-9IM matrix in terms of ALL points of Q^2:
     witness_tag       : a D2 witness lies on no segment and is no vertex; a D1 witness is no vertex; a D0
                         witness is a vertex; a witness that is not tagged D2 lies on a segment or is a vertex
     (with Planar_slab.de9im_ref_sufficient: entry <> F  <->  some point has the two locations)
     entry_D0_iff      : entry = 0  <->  the set is non-empty and contains only vertices of the arrangement
     entry_ge_D1_iff   : entry >= 1 <->  the set contains a point that is not a vertex
     entry_D2_iff      : entry = 2  <->  the set contains a point on no segment of either operand, not a vertex
   Not formalised: the passage from these combinatorial statements to topological dimension (a point off
   all segments has an open neighbourhood in its cell; a non-vertex point of a segment has a neighbourhood
   on the segment in its cell). *)
From Coq Require Import QArith Qreduction List Bool ZArith Lia Lqa Setoid Morphisms.
From SF Require Import Base.GeomAST Base.QKernel Base.Planar Proofs.Planar_proofs Proofs.Planar_slab_base Proofs.Planar_slab.
Import ListNotations.
Open Scope Q_scope.

Definition on_some_seg (L : list seg) (w : pt) : bool := existsb (fun e => on_seg e w) L.
Definition is_vertex (V : list pt) (w : pt) : bool := existsb (pt_eqb w) V.

Lemma column_cases x ys at_y mid w d : qsorted ys -> In (w, d) (column x ys at_y mid) ->
  exists t, w = (x, t) /\
    ((d = D2 /\ ((forall y, In y ys -> t < y) \/ (forall y, In y ys -> y < t))) \/
     (In t ys /\ d = at_y t) \/
     (exists ya yb, In (ya, yb) (consec ys) /\ t = qmid ya yb /\ d = mid ya yb)).
Proof.
  intros S. unfold column. destruct ys as [|y1 r].
  - intros [H|[]]. injection H as <- <-. exists 0. split; [reflexivity|]. left. split; [reflexivity|]. left. intros y [].
  - intros [H|[H|H]].
    + injection H as <- <-. exists (Qred (y1 - 1)). split; [reflexivity|]. left. split; [reflexivity|]. left.
      intros y Hy. rewrite Qred_correct. pose proof (qsorted_head_le y1 r y S Hy). lra.
    + injection H as <- <-. exists (Qred (last (y1 :: r) y1 + 1)). split; [reflexivity|]. left. split; [reflexivity|]. right.
      intros y Hy. rewrite Qred_correct, last_cons_default. pose proof (qsorted_last_ge y1 r y S Hy). lra.
    + apply in_app_or in H. destruct H as [H|H].
      * apply in_map_iff in H. destruct H as [y [E Hy]]. injection E as <- <-. exists y. auto.
      * rewrite gaps_between_map in H. apply in_map_iff in H. destruct H as [[ya yb] [E Hc]]. injection E as <- <-.
        exists (qmid ya yb). split; [reflexivity|]. right. right. exists ya, yb. auto.
Qed.
Lemma off_gap ys ya yb y : qsorted ys -> In (ya, yb) (consec ys) -> In y ys -> ~ qmid ya yb == y.
Proof.
  intros S Hc Hy. pose proof (qmid_between ya yb (consec_lt _ _ _ S Hc)). destruct (consec_gap _ _ _ y S Hc Hy); lra.
Qed.

Section Tags.
  Variables (L : list seg) (P : list pt).
  Let V := vertex_set L P.
  Let xs := events V.

  Lemma is_vertex_false w : (forall v, In v V -> ~ pt_eq v w) -> is_vertex V w = false.
  Proof.
    intros H. apply existsb_all_false. intros v Hv. apply pt_eqb_false_iff. intros E. apply (H v Hv). symmetry. exact E.
  Qed.

  Section Line.
    Variable x : Q.

    Lemma is_vertex_on_line t : is_vertex V (x, t) = existsb (Qeq_bool t) (vertex_ordinates V x).
    Proof.
      unfold is_vertex, vertex_ordinates. rewrite existsb_flat_map. apply existsb_ext_in. intros v _.
      unfold pt_eqb; cbn [fst snd]. rewrite (Qeq_bool_comm x).
      destruct (Qeq_bool (fst v) x); [cbn; rewrite orb_false_r|]; reflexivity.
    Qed.

    Definition strictly_inside (a b : pt) (t : Q) : Prop := (snd a < t /\ t < snd b) \/ (snd b < t /\ t < snd a).
    Lemma vertical_covers_iff ya yb : vertical_covers L x ya yb = true <->
      exists a b, In (a, b) L /\ fst a == fst b /\ fst a == x /\ strictly_inside a b (qmid ya yb).
    Proof.
      unfold vertical_covers, strictly_inside. rewrite existsb_exists. split.
      - intros [[a b] [He H]]. exists a, b.
        rewrite !andb_true_iff, orb_true_iff, !andb_true_iff, !qltb_iff, seg_vertical_true, Qeq_bool_iff in H. tauto.
      - intros [a [b [He H]]]. exists (a, b). split; [exact He|].
        rewrite !andb_true_iff, orb_true_iff, !andb_true_iff, !qltb_iff, seg_vertical_true, Qeq_bool_iff. tauto.
    Qed.

    (* a point of the line whose ordinate is off every ordinate of the line is no vertex, and lies on no
       segment unless strictly inside a vertical one, whose ends then have their ordinates listed *)
    Lemma line_free t : (forall y, In y (line_ordinates L V x) -> ~ t == y) ->
      is_vertex V (x, t) = false /\
      (on_some_seg L (x, t) = false \/
       exists y y' a b, In y (line_ordinates L V x) /\ In y' (line_ordinates L V x) /\ y < t < y' /\
         In (a, b) L /\ fst a == fst b /\ fst a == x /\ strictly_inside a b t).
    Proof.
      intros Hoff. split.
      { apply is_vertex_false. intros v Hv [E1 E2]. cbn [fst snd] in *.
        destruct (ordinate_vertex L P x v Hv E1) as [y [Hy Ey]]. apply (Hoff y Hy). lra. }
      destruct (on_some_seg L (x, t)) eqn:O; [right | left; reflexivity].
      apply existsb_exists in O. destruct O as [[a b] [He O]]. destruct (seg_vertical (a, b)) eqn:Ev.
      - apply seg_vertical_true in Ev. cbn [fst snd] in Ev. rewrite on_seg_vertical in O by exact Ev.
        apply andb_true_iff in O. destruct O as [O1 O2]. apply Qeq_bool_iff in O1. apply qbetween_iff in O2.
        destruct (seg_end_vertex L P _ He) as [Ha Hb]. cbn [fst snd] in *.
        destruct (ordinate_vertex L P x a Ha) as [ya [Hya Eya]]; [lra|].
        destruct (ordinate_vertex L P x b Hb) as [yb [Hyb Eyb]]; [lra|].
        pose proof (Hoff ya Hya). pose proof (Hoff yb Hyb). unfold strictly_inside.
        destruct O2; [exists ya, yb, a, b | exists yb, ya, a, b]; repeat split; auto; lra.
      - exfalso. apply seg_vertical_false in Ev. rewrite on_seg_y_at in O by exact Ev.
        apply andb_true_iff in O. destruct O as [B O]. apply Qeq_bool_iff in O.
        destruct (ordinate_crossing L P x (a, b) He Ev B) as [y [Hy Ey]]. apply (Hoff y Hy). cbn [fst snd] in O. lra.
    Qed.

    Lemma event_tag w d : In (w, d) (event_witnesses L V x) ->
      (d = D2 -> on_some_seg L w = false /\ is_vertex V w = false) /\
      (d = D1 -> is_vertex V w = false) /\
      (d = D0 -> is_vertex V w = true) /\
      (d = D2 \/ on_some_seg L w = true \/ is_vertex V w = true).
    Proof.
      intros H. assert (S : qsorted (line_ordinates L V x)) by apply qsort_sorted.
      apply (column_cases _ _ _ _ _ _ S) in H.
      destruct H as [t [-> [[-> Hout]|[[Ht ->]|[ya [yb [Hc [-> ->]]]]]]]].
      - (* below or above every ordinate *)
        destruct (line_free t) as [Fv [Fs|[y [y' [_ [_ [Hy [Hy' [K _]]]]]]]]].
        + intros y Hy E. destruct Hout as [G|G]; specialize (G y Hy); lra.
        + repeat split; auto; discriminate.
        + exfalso. destruct Hout as [G|G]; [specialize (G y Hy) | specialize (G y' Hy')]; lra.
      - (* an ordinate of the line: a vertex, or else a crossing of a non-vertical segment *)
        rewrite <- is_vertex_on_line. destruct (is_vertex V (x, t)) eqn:Iv; [repeat split; auto; discriminate|].
        split; [discriminate|]. split; [reflexivity|]. split; [discriminate|]. right. left.
        destruct (ordinate_inv L P x t Ht) as [Hv|[e [He [NV [B E]]]]].
        + exfalso. rewrite is_vertex_on_line in Iv. apply not_true_iff_false in Iv. apply Iv, existsb_exists.
          exists t. split; [exact Hv | apply Qeq_bool_iff; reflexivity].
        + apply existsb_exists. exists e. split; [exact He|]. rewrite on_seg_height by assumption.
          apply Qeq_bool_iff. rewrite E. apply seg_y_at_eq.
      - (* a gap: tagged 1 iff a vertical segment covers it *)
        destruct (line_free (qmid ya yb)) as [Fv Fs]; [intros y Hy; apply (off_gap _ _ _ y S Hc Hy)|].
        destruct (vertical_covers L x ya yb) eqn:Vc.
        + split; [discriminate|]. split; [auto|]. split; [discriminate|]. right. left.
          apply vertical_covers_iff in Vc. destruct Vc as [a [b [He [Ev [Ex K]]]]].
          apply existsb_exists. exists (a, b). split; [exact He|]. rewrite on_seg_vertical by exact Ev. cbn [fst snd].
          apply andb_true_iff. split; [apply Qeq_bool_iff; lra|]. apply qbetween_iff. destruct K; [left | right]; lra.
        + destruct Fs as [Fs|[_ [_ [a [b [_ [_ [_ K]]]]]]]]; [repeat split; auto; discriminate|].
          rewrite (proj2 (vertical_covers_iff ya yb)) in Vc; [discriminate|]. exists a, b. exact K.
    Qed.
  End Line.

  (* the witnesses of an open slab are those of the event line through the middle, where no vertex is *)
  Lemma slab_tag x0 x1 w d : In (x0, x1) (consec xs) -> In (w, d) (slab_witnesses L x0 x1) ->
    is_vertex V w = false /\ (d = D2 -> on_some_seg L w = false) /\ (d = D2 \/ on_some_seg L w = true).
  Proof.
    intros Hc H. pose proof (column_dim _ _ _ _ _ _ H) as Hd. rewrite (slab_witnesses_eq L P x0 x1 Hc) in H.
    destruct (event_tag _ w d H) as [T2 [T1 [_ T]]].
    assert (Nv : is_vertex V w = false).
    { destruct Hd as [->|[[y [_ [_ ->]]]|[y1 [y2 ->]]]]; [apply T2 | apply T1 | apply T2]; reflexivity. }
    split; [exact Nv|]. split; [intros E; apply (T2 E)|]. destruct T as [T|[T|T]]; [auto | auto | congruence].
  Qed.

  (* ---- left and right of everything *)
  Lemma outer_tag w : (forall v, In v V -> fst w < fst v) \/ (forall v, In v V -> fst v < fst w) ->
    on_some_seg L w = false /\ is_vertex V w = false.
  Proof.
    intros H. split.
    - apply existsb_all_false. intros [a b] He. destruct (seg_end_vertex L P _ He) as [Ha Hb]. cbn [fst snd] in *.
      unfold on_seg. destruct (qbetween (fst a) (fst b) (fst w)) eqn:B; [|reflexivity].
      apply qbetween_iff in B. destruct H as [H|H]; pose proof (H a Ha); pose proof (H b Hb); lra.
    - apply is_vertex_false. intros v Hv [E _]. destruct H as [H|H]; pose proof (H v Hv); lra.
  Qed.

  Theorem witness_tag w d : In (w, d) (witnesses L P) ->
    (d = D2 -> on_some_seg L w = false /\ is_vertex V w = false) /\
    (d = D1 -> is_vertex V w = false) /\
    (d = D0 -> is_vertex V w = true) /\
    (d = D2 \/ on_some_seg L w = true \/ is_vertex V w = true).
  Proof.
    intros H.
    assert (Out : forall q, (forall v, In v V -> fst q < fst v) \/ (forall v, In v V -> fst v < fst q) ->
              (w, d) = (q, D2) -> on_some_seg L w = false /\ is_vertex V w = false /\ d = D2).
    { intros q Hq E. injection E as -> ->. destruct (outer_tag q Hq). auto. }
    assert (Done : on_some_seg L w = false /\ is_vertex V w = false /\ d = D2 \/
                   (exists x, In (w, d) (event_witnesses L V x))).
    { pose proof (vertex_in_range L P) as Ev. cbv zeta in Ev. unfold witnesses in H. fold V in H, Ev.
      destruct (events V) as [|x0 l] eqn:Exs.
      - destruct H as [H|[]]. left. apply (Out (0, 0)); [|symmetry; exact H]. left. intros v Hv. exfalso.
        destruct (vertex_event L P v Hv) as [x [Hx _]]. cbv zeta in Hx. fold V in Hx. rewrite Exs in Hx. destruct Hx.
      - specialize (Ev x0 l). destruct H as [H|[H|H]].
        + left. apply (Out (Qred (x0 - 1), 0)); [left | symmetry; exact H].
          intros v Hv. cbn [fst]. rewrite Qred_correct. destruct (Ev v eq_refl Hv). lra.
        + left. apply (Out (Qred (last (x0 :: l) x0 + 1), 0)); [right | symmetry; exact H].
          intros v Hv. cbn [fst]. rewrite Qred_correct, last_cons_default. destruct (Ev v eq_refl Hv). lra.
        + right. apply in_app_or in H. destruct H as [H|H].
          * apply in_flat_map in H. destruct H as [x [_ H]]. exists x. exact H.
          * rewrite <- Exs, slabs_between_flat_map in H. apply in_flat_map in H. destruct H as [[a b] [Hc H]]. cbn [fst snd] in H.
            rewrite (slab_witnesses_eq L P a b Hc) in H. exists (qmid a b). exact H. }
    destruct Done as [[Fs [Fv ->]]|[x H']]; [repeat split; auto; discriminate | exact (event_tag x w d H')].
  Qed.
End Tags.

(* ---------------- the entries of the reference matrix, characterised *)
Section Entries.
  Variables a b : geom.
  Hypothesis Ra : rings_closed a.
  Hypothesis Rb : rings_closed b.
  Let L := canon_segs (arr_segments a ++ arr_segments b).
  Let P := canon_pts (arr_points a ++ arr_points b).
  Let V := vertex_set L P.

  (* every point shares its cell with a witness: same position relative to the segments and vertices,
     same locations, so the tag of the witness is dominated by the entry of the point's class *)
  Lemma point_witness p : exists w d, In (w, d) (pair_witnesses a b) /\
    on_some_seg L w = on_some_seg L p /\ is_vertex V w = is_vertex V p /\
    (dim_rank d <= dim_rank (mget (de9im_ref a b) (locate a p) (locate b p)))%nat.
  Proof.
    destruct (witness_cover L P p) as [w [d [Hin Hs]]]. exists w, d. split; [exact Hin|].
    destruct (pair_covers a b) as [Ca Cb].
    rewrite (locate_same_cell L P a p w Ca Ra Hs), (locate_same_cell L P b p w Cb Rb Hs).
    destruct Hs as [H1 H2]. split; [|split; [|exact (de9im_ref_entry_ge a b w d Hin)]];
      symmetry; apply existsb_ext_in; intros x Hx; [apply H1 | apply H2]; exact Hx.
  Qed.

  (* dimension 2: some point with these locations lies on no segment of either operand and is no vertex *)
  Theorem entry_D2_iff la lb :
    mget (de9im_ref a b) la lb = D2 <->
    exists p, locate a p = la /\ locate b p = lb /\ on_some_seg L p = false /\ is_vertex V p = false.
  Proof.
    split.
    - intros E. assert (N : mget (de9im_ref a b) la lb <> DF) by congruence.
      destruct (de9im_ref_entry_witnessed a b la lb N) as [w [Hin [H1 H2]]]. rewrite E in Hin.
      destruct (witness_tag L P w D2 Hin) as [T _]. destruct (T eq_refl). exists w. auto.
    - intros [p [<- [<- [F1 F2]]]]. destruct (point_witness p) as [w [d [Hin [G1 [G2 G]]]]].
      destruct (witness_tag L P w d Hin) as [_ [_ [_ T]]].
      unfold V in *. destruct T as [->|[T|T]]; [|congruence|congruence].
      destruct (mget (de9im_ref a b) _ _); simpl in G; try lia. reflexivity.
  Qed.
  (* dimension at least 1: some point with these locations is not a vertex of the arrangement *)
  Theorem entry_ge_D1_iff la lb :
    (mget (de9im_ref a b) la lb = D1 \/ mget (de9im_ref a b) la lb = D2) <->
    exists p, locate a p = la /\ locate b p = lb /\ is_vertex V p = false.
  Proof.
    split.
    - intros E. assert (N : mget (de9im_ref a b) la lb <> DF) by (destruct E; congruence).
      destruct (de9im_ref_entry_witnessed a b la lb N) as [w [Hin [H1 H2]]].
      destruct (witness_tag L P w _ Hin) as [T2 [T1 _]]. exists w. split; [exact H1|]. split; [exact H2|].
      destruct E as [E|E]; [apply T1; exact E | apply T2; exact E].
    - intros [p [<- [<- F]]]. destruct (point_witness p) as [w [d [Hin [_ [G2 G]]]]].
      destruct (witness_tag L P w d Hin) as [_ [_ [T0 _]]]. pose proof (witness_dim_not_F L P w d Hin) as NF.
      unfold V in *. destruct d; [congruence | rewrite T0 in G2 by reflexivity; congruence | |];
        destruct (mget (de9im_ref a b) _ _); simpl in G; try lia; auto.
  Qed.
  (* dimension 0 exactly: the set is non-empty and consists of vertices of the arrangement only *)
  Theorem entry_D0_iff la lb :
    mget (de9im_ref a b) la lb = D0 <->
    (exists p, locate a p = la /\ locate b p = lb) /\
    (forall p, locate a p = la -> locate b p = lb -> is_vertex V p = true).
  Proof.
    pose proof (de9im_ref_sufficient a b la lb Ra Rb) as S0. pose proof (entry_ge_D1_iff la lb) as S1.
    split.
    - intros E. split; [apply S0; congruence|]. intros p H1 H2. destruct (is_vertex V p) eqn:F; [reflexivity|].
      assert (K : mget (de9im_ref a b) la lb = D1 \/ mget (de9im_ref a b) la lb = D2) by (apply S1; exists p; auto).
      destruct K; congruence.
    - intros [Hn Ha]. apply S0 in Hn. destruct (mget (de9im_ref a b) la lb) eqn:E; [congruence | reflexivity | |].
      + destruct (proj1 S1 (or_introl eq_refl)) as [p [H1 [H2 F]]]. rewrite (Ha p H1 H2) in F. discriminate.
      + destruct (proj1 S1 (or_intror eq_refl)) as [p [H1 [H2 F]]]. rewrite (Ha p H1 H2) in F. discriminate.
  Qed.
End Entries.
Print Assumptions entry_D0_iff.
Print Assumptions entry_D2_iff.
