(* Second tie to the source (DESIGN.md 2.5) for coq/Model/RelatePatterns.v and coq/Model/Relate.v
   (property C02): the DE-9IM pattern literals of the nine named predicates, the guard of Equals, the
   dimension switches of Crosses and Overlaps, the matrix Relate writes for an empty operand, and the
   character tables of RelateMatches, as re-read from geom/alg_relate.go and geom/de9im.go into
   Gen/Consts.v on every run, are the ones the model uses.  A changed pattern or table in the Go
   source makes this file fail to compile. *)
From Coq Require Import QArith NArith ZArith List String Bool.
From SF Require Import Gen.Consts Proofs.Consts_tie_lib Base.GeomAST Base.QKernel Base.Planar
  Model.RelatePatterns Model.Relate.
Import ListNotations.
Local Close Scope Q_scope.
Open Scope string_scope.

(* geom/alg_relate.go: the string literals passed to relateMatchesAnyPattern, per function, in the
   source order of the literals (Crosses and Overlaps: the literals of all their cases); looked up by
   function name, so that moving a whole function inside the file changes nothing *)
Definition model_patterns : list (string * list string) :=
  [("Equals", pats_equals); ("Disjoint", pats_disjoint); ("Touches", pats_touches);
   ("Contains", pats_contains); ("Covers", pats_covers); ("Within", pats_within);
   ("CoveredBy", pats_coveredby);
   ("Crosses", (pats_crosses_lt ++ pats_crosses_gt ++ pats_crosses_11)%list);
   ("Overlaps", (pats_overlaps_00_22 ++ pats_overlaps_11)%list)].
Example tie_relate_patterns :
  List.length Consts.relate_patterns = List.length model_patterns /\
  map (fun kv => assoc_s (fst kv) Consts.relate_patterns) model_patterns =
  map (fun kv => Some (snd kv)) model_patterns.
Proof. split; vm_compute; reflexivity. Qed.

(* the predicates of the model match against exactly those lists (for every matrix string) *)
Definition pats_of (name : string) : list Relate.bytes :=
  match assoc_s name Consts.relate_patterns with
  | Some l => map Relate.str_bytes l
  | None => []
  end.
Example tie_relate_simple_predicates : forall mat,
  [go_disjoint mat; go_touches mat; go_contains mat; go_covers mat; go_within mat; go_coveredby mat] =
  map (fun n => match_any mat (pats_of n)) ["Disjoint"; "Touches"; "Contains"; "Covers"; "Within"; "CoveredBy"].
Proof. intro mat. vm_compute. reflexivity. Qed.

(* geom/alg_relate.go:Equals  if a.IsEmpty() && b.IsEmpty() { return true, nil }  and no other
   predicate has an early return *)
Example tie_relate_guards :
  List.length Consts.relate_guards = 9%nat /\
  map (fun n => assoc_s n Consts.relate_guards)
      ["Equals"; "Disjoint"; "Touches"; "Contains"; "Covers"; "Within"; "CoveredBy"; "Crosses"; "Overlaps"] =
  Some [("p0.IsEmpty()&&p1.IsEmpty()", true)] :: repeat (Some []) 8.
Proof. split; vm_compute; reflexivity. Qed.
Example tie_relate_equals : forall mat,
  map (fun ab => go_equals mat (fst ab) (snd ab)) [(true, true); (true, false); (false, true); (false, false)] =
  map (fun ab => if fst ab && snd ab then RM true else match_any mat (pats_of "Equals"))
      [(true, true); (true, false); (false, true); (false, false)].
Proof. intro mat. vm_compute. reflexivity. Qed.

(* ---- the tagless switches of Crosses and Overlaps, interpreted *)
Definition cval (env : list Z) (e : cexp) : option Z :=
  match e with CVar i => nth_error env i | CLit z => Some z | _ => None end.
Definition lift2 {A B} (f : A -> A -> B) (a b : option A) : option B :=
  match a, b with Some x, Some y => Some (f x y) | _, _ => None end.
Fixpoint ceval (env : list Z) (e : cexp) : option bool :=
  match e with
  | CTrue => Some true
  | CLt a b => lift2 Z.ltb (cval env a) (cval env b)
  | CGt a b => lift2 Z.gtb (cval env a) (cval env b)
  | CLe a b => lift2 Z.leb (cval env a) (cval env b)
  | CGe a b => lift2 Z.geb (cval env a) (cval env b)
  | CEq a b => lift2 Z.eqb (cval env a) (cval env b)
  | CNe a b => lift2 (fun x y => negb (Z.eqb x y)) (cval env a) (cval env b)
  | CAnd a b => lift2 andb (ceval env a) (ceval env b)
  | COr a b => lift2 orb (ceval env a) (ceval env b)
  | CNot a => option_map negb (ceval env a)
  | CVar _ | CLit _ | CUnknown _ => None
  end.
(* the body of the first case whose condition holds; None if a condition cannot be interpreted or
   no case applies *)
Fixpoint select (env : list Z) (cases : list (cexp * cbody)) : option cbody :=
  match cases with
  | [] => None
  | (c, b) :: r => match ceval env c with
                   | Some true => Some b
                   | Some false => select env r
                   | None => None
                   end
  end.
Definition run (mat : Relate.bytes) (b : option cbody) : option rmres :=
  match b with
  | Some (BMatch pats) => Some (match_any mat (map Relate.str_bytes pats))
  | Some (BConst v) => Some (RM v)
  | Some BUnknown | None => None
  end.
Definition dim_grid : list (nat * nat) :=
  flat_map (fun a => map (fun b => (a, b)) [0; 1; 2; 3]%nat) [0; 1; 2; 3]%nat.
Definition env_of (ab : nat * nat) : list Z := [Z.of_nat (fst ab); Z.of_nat (snd ab)].
Definition dim_vars : list string :=
  ["highestDimensionIgnoreEmpties(p0)"; "highestDimensionIgnoreEmpties(p1)"].

(* geom/alg_relate.go:Crosses  dimA, dimB := highestDimensionIgnoreEmpties(a), ...(b);
   switch {case dimA < dimB: ...; case dimA > dimB: ...; case dimA == 1 && dimB == 1: ...; default: false} *)
Example tie_relate_crosses_vars : Consts.relate_crosses_vars = dim_vars.
Proof. vm_compute. reflexivity. Qed.
Example tie_relate_crosses : forall mat,
  map (fun ab => run mat (select (env_of ab) Consts.relate_crosses_cases)) dim_grid =
  map (fun ab => Some (go_crosses mat (fst ab) (snd ab))) dim_grid.
Proof. intro mat. vm_compute. reflexivity. Qed.

(* geom/alg_relate.go:Overlaps  switch {case (dimA == 0 && dimB == 0) || (dimA == 2 && dimB == 2): ...;
   case dimA == 1 && dimB == 1: ...; default: false} *)
Example tie_relate_overlaps_vars : Consts.relate_overlaps_vars = dim_vars.
Proof. vm_compute. reflexivity. Qed.
Example tie_relate_overlaps : forall mat,
  map (fun ab => run mat (select (env_of ab) Consts.relate_overlaps_cases)) dim_grid =
  map (fun ab => Some (go_overlaps mat (fst ab) (snd ab))) dim_grid.
Proof. intro mat. vm_compute. reflexivity. Qed.

(* ---- geom/alg_relate.go:Relate with an empty operand *)
(* the dimension that selects the matrix is highestDimensionIgnoreEmpties (fix F8), which is the
   function [dimension_ie] that [Relate.relate] = [relate_with dimension_ie] consults *)
Example tie_relate_empty_dimfun : Consts.relate_empty_dimfun = Some "highestDimensionIgnoreEmpties".
Proof. vm_compute. reflexivity. Qed.

Definition loc (name : string) : option Z := assoc_s name Consts.de9im_loc_consts.
Fixpoint set_nth (l : list Z) (i : nat) (v : Z) : list Z :=
  match l, i with
  | [], _ => []
  | _ :: r, O => v :: r
  | x :: r, S i' => x :: set_nth r i' v
  end.
(* the im.set calls that apply: outside the switch (case -1) and in the case of dimension d; a call
   nested in one more `if` (the test !nonEmpty.Boundary().IsEmpty()) only when the boundary is not empty *)
Definition apply_sets (d : Z) (boundary_nonempty : bool) : option (list Z) :=
  match Consts.de9im_index_stride with
  | None => None
  | Some k =>
      fold_left (fun acc s =>
        let '(cs, row, col, entry, depth) := s in
        match acc, loc row, loc col with
        | Some m, Some r, Some c =>
            if (Z.eqb cs (-1) || Z.eqb cs d) && (Z.leb depth 1 || boundary_nonempty)
            then Some (set_nth m (Z.to_nat (k * r + c)) entry) else Some m
        | _, _, _ => None
        end) Consts.relate_empty_sets (Some Consts.de9im_new_matrix)
  end.
Definition transpose9 (m : list Z) : list Z :=
  match Consts.de9im_index_stride with
  | Some k => map (fun i => nth (Z.to_nat (k * (Z.of_nat i mod k) + Z.of_nat i / k)) m 0%Z) (seq 0 9)
  | None => []
  end.
Definition code_of (a b : Planar.geom) : list Z := map Z.of_N (enc_matrix (Relate.relate a b)).

Definition q (n : Z) : Q := inject_Z n.
Definition v2 (x y : Z) : vtx Q := Build_vtx (q x) (q y) 0%Q 0%Q.
Definition ln (l : list (Z * Z)) : lineT Q := MkLine XY (map (fun p => v2 (fst p) (snd p)) l).
Definition e_point : Planar.geom := GPoint (MkPoint XY None).
Definition e_coll : Planar.geom := GColl XY [GLine (MkLine XY []); GMPoly XY []].
(* sample operands: (geometry, dimension, boundary non-empty) *)
Definition samples : list (Planar.geom * Z * bool) :=
  [ (GPoint (MkPoint XY (Some (v2 1 2))), 0, false);
    (GMPoint XY [MkPoint XY (Some (v2 1 2)); MkPoint XY None], 0, false);
    (GLine (ln [(0, 0); (2, 1)]), 1, true);
    (GLine (ln [(0, 0); (2, 0); (0, 2); (0, 0)]), 1, false);
    (GMLine XY [ln [(0, 0); (1, 0)]; ln [(1, 0); (3, 3)]], 1, true);
    (GPoly (MkPoly XY [ln [(0, 0); (4, 0); (0, 4); (0, 0)]]), 2, true);
    (GColl XY [GPoint (MkPoint XY None); GLine (ln [(0, 0); (2, 1)])], 1, true);
    (GColl XY [GPoly (MkPoly XY []); GPoint (MkPoint XY (Some (v2 5 5)))], 0, false) ]%Z.
Definition zlist_eqb (a b : list Z) : bool :=
  Nat.eqb (List.length a) (List.length b) && forallb (fun xy => Z.eqb (fst xy) (snd xy)) (combine a b).
Example tie_relate_empty_operand :
  forallb (fun s =>
    let '(g, d, bne) := s in
    match apply_sets d bne with
    | Some m =>
        zlist_eqb (code_of e_point g) m && zlist_eqb (code_of e_coll g) m &&
        zlist_eqb (code_of g e_point) (transpose9 m) && zlist_eqb (code_of g e_coll) (transpose9 m)
    | None => false
    end) samples &&
  match apply_sets (-2) false with          (* both operands empty: only the calls outside the switch *)
  | Some m => zlist_eqb (code_of e_point e_coll) m && zlist_eqb (code_of e_coll e_coll) m
  | None => false
  end = true.
Proof. vm_compute. reflexivity. Qed.

(* ---- geom/de9im.go *)
(* newMatrix: nine 'F' *)
Example tie_de9im_new_matrix : Consts.de9im_new_matrix = repeat (Z.of_N cF) 9.
Proof. vm_compute. reflexivity. Qed.
(* imInterior, imBoundary, imExterior = 0, 1, 2 and index = 3*locA + locB: the row-major order of
   Planar.matrix_list (II IB IE BI BB BE EI EB EE) *)
Example tie_de9im_index :
  Consts.de9im_loc_consts = [("imInterior", 0%Z); ("imBoundary", 1%Z); ("imExterior", 2%Z)] /\
  Consts.de9im_index_stride = Some 3%Z /\
  matrix_list (MkM D0 D1 D2 DF D0 D1 D2 DF D0) = [D0; D1; D2; DF; D0; D1; D2; DF; D0].
Proof. repeat split; vm_compute; reflexivity. Qed.

(* RelateMatches: the characters accepted in a pattern, for every byte 0 .. 255 *)
Example tie_de9im_pattern_chars :
  negb (Nat.eqb (List.length Consts.de9im_pattern_chars) 0) &&
  forallb (fun b => Bool.eqb (pat_char_ok b) (mem_z (Z.of_N b) Consts.de9im_pattern_chars)) (uptoN 256) = true.
Proof. vm_compute. reflexivity. Qed.
(* RelateMatches: switch m {case 'F': if p != 'F' && p != '*' {return false, nil} ...; default: error},
   for every pair (matrix byte, pattern byte) *)
Definition obool_eqb (a b : option bool) : bool :=
  match a, b with None, None => true | Some x, Some y => Bool.eqb x y | _, _ => false end.
Example tie_de9im_match_cases :
  negb (Nat.eqb (List.length Consts.de9im_match_cases) 0) &&
  forallb (fun m => forallb (fun p =>
    obool_eqb (match assoc_z (Z.of_N m) Consts.de9im_match_cases with
               | Some allowed => Some (mem_z (Z.of_N p) allowed) | None => None end)
              (match mat_class m with Some d => Some (cell_match d p) | None => None end))
    (uptoN 256)) (uptoN 256) = true.
Proof.
  (* a matrix byte that mat_class knows is enc_dim d, so the 256 x 256 pairs reduce to: the bytes it does
     not know have no case (256 evaluations), and each of the four classes agrees on every pattern byte *)
  assert (Hnone : forallb (fun m => match mat_class m, assoc_z (Z.of_N m) Consts.de9im_match_cases with
                                    | None, Some _ => false | _, _ => true end) (uptoN 256) = true)
    by (vm_compute; reflexivity).
  assert (Hsome : forallb (fun d => forallb (fun p =>
            obool_eqb (match assoc_z (Z.of_N (enc_dim d)) Consts.de9im_match_cases with
                       | Some allowed => Some (mem_z (Z.of_N p) allowed) | None => None end)
                      (Some (cell_match d p))) (uptoN 256)) [DF; D0; D1; D2] = true)
    by (vm_compute; reflexivity).
  apply andb_true_intro. split; [reflexivity|].
  apply forallb_uptoN. intros m Hm. apply forallb_uptoN. intros p Hp.
  destruct (mat_class m) as [d|] eqn:E.
  - assert (m = enc_dim d) as ->.
    { unfold mat_class in E.
      destruct (N.eqb_spec m cF) as [->|_]; [injection E as <-; reflexivity|].
      destruct (N.eqb_spec m c0) as [->|_]; [injection E as <-; reflexivity|].
      destruct (N.eqb_spec m c1) as [->|_]; [injection E as <-; reflexivity|].
      destruct (N.eqb_spec m c2) as [->|_]; [injection E as <-; reflexivity | discriminate]. }
    rewrite forallb_forall in Hsome. apply (uptoN_forallb _ _ (Hsome d ltac:(destruct d; simpl; tauto)) p Hp).
  - pose proof (uptoN_forallb _ _ Hnone m Hm) as H. cbv beta in H. rewrite E in H.
    destruct (assoc_z (Z.of_N m) Consts.de9im_match_cases); [discriminate | reflexivity].
Qed.
(* RelateMatches: len(mat) != 9, len(pat) != 9 *)
Example tie_de9im_lengths :
  match Consts.de9im_length_checks with
  | [("len", "!=", n1); ("len", "!=", n2)] =>
      forallb (fun a => forallb (fun b =>
        Bool.eqb (match relate_matches (repeat cF (Z.to_nat a)) (repeat cStar (Z.to_nat b)) with
                  | RMErr => true | RM _ => false end)
                 (negb (Z.eqb a n1) || negb (Z.eqb b n2))) (upto 13)) (upto 13)
  | _ => false
  end = true.
Proof. vm_compute. reflexivity. Qed.
