(* Translator tie for functions WITH LOOPS (DESIGN.md A.8b, A.10), property C17: geom/type_polygon.go:IsCW and
   IsCCW (the orientation tests ForceCW / ForceCCW are defined by: `for i, ring := range p.rings { isCW :=
   signedAreaOfLinearRing(ring, nil) < 0; if (i == 0) != isCW { return false } }; return true`), as re-read
   from the Go source into Gen/FuncsLoop.v on every run, against Model/TrForce.v:poly_is_cw / poly_is_ccw
   (the functions the ForceCW/ForceCCW theorems of C17 are about).  For polygons with ANY number of rings of
   ANY length.  The translated loop calls the translated signedAreaOfLinearRing (tied to Model/Measure.v in
   Funcs_tie_Loop_Measure.v); Model/TrForce.v states the shoelace sum as a right fold, so the two areas agree
   up to == in Q, which the sign tests respect.  An edited loop (another index test, <= for <, a sign
   decided otherwise than by the shoelace area) makes this file fail to compile. *)
From Coq Require Import String ZArith QArith List Bool Lia.
From SF Require Import Base.FOps Base.FLoop Gen.FuncsLoop Proofs.Funcs_tie_lib Proofs.Funcs_tie_Loop_lib
  Base.GeomAST Model.Measure Model.TrCommon Model.TrReverse Model.TrForce Proofs.Funcs_tie_Loop_Measure.
Import ListNotations.
Open Scope Q_scope.

(* the model's vertex as the translator's Coordinates (Type: any tag) *)
Definition gcoord (v : qv) : geom_Coordinates Q :=
  Mk_geom_Coordinates (Mk_geom_XY (vx v) (vy v)) (vz v) (vm v) 0%Z.
Definition gring (l : lineT Q) : geom_LineString Q := gls (map gcoord (line_vs l)).
Definition gpoly (p : polyT Q) : geom_Polygon Q := Mk_geom_Polygon (map gring (poly_rings p)) 0%Z.

(* the accumulating loop of Measure.v and the right fold of TrForce.v *)
Lemma shoelace_loop_fold : forall (r : list qv) (s : Q) (a : qv),
  shoelace_loop s (vx a, vy a) (map (fun v => (vx v, vy v)) r) == s + TrForce.shoelace (a :: r).
Proof.
  induction r as [|b r IH]; intros s a.
  - cbn. ring.
  - cbn [map shoelace_loop]. rewrite IH. cbn [TrForce.shoelace fst snd]. ring.
Qed.
Lemma ring_area_signed_area (l : lineT Q) :
  ring_area_xy (map cxy (map gcoord (line_vs l))) == signed_area l.
Proof.
  unfold signed_area. destruct l as [ct vs]. cbn [line_vs]. rewrite map_map.
  destruct vs as [|a r]; [reflexivity|].
  cbn [map ring_area_xy]. change (cxy (gcoord a)) with (vx a, vy a).
  rewrite (map_ext (fun x => cxy (gcoord x)) (fun v => (vx v, vy v))) by reflexivity.
  rewrite shoelace_loop_fold. rewrite Qplus_0_l. reflexivity.
Qed.
Lemma q_ltb_compat a b c d : a == c -> b == d -> q_ltb a b = q_ltb c d.
Proof. intros H1 H2. unfold q_ltb. f_equal. apply Qle_bool_ext. rewrite H1, H2. reflexivity. Qed.

Lemma area_of_gring (l : lineT Q) :
  geom_signedAreaOfLinearRing qops (gring l) None = Known (ring_area_xy (map cxy (map gcoord (line_vs l)))).
Proof.
  pose proof (tie_signedAreaOfLinearRing None (map gcoord (line_vs l))) as H.
  cbn [gtr option_map] in H. unfold gring. rewrite H. reflexivity.
Qed.

(* the loop, for every start index: only index 0 is "the exterior ring" *)
Lemma is_loop (lt_or_gt : bool) : forall (rs : list (lineT Q)) (i0 : Z), (0 <= i0)%Z ->
  range_loop (A:=geom_LineString Q) (S:=unit) (R:=bool)
    (fun i ring _ =>
       match geom_signedAreaOfLinearRing qops ring None with
       | Known r1 =>
           let t := if lt_or_gt then f_ltb qops r1 (f_of_Z qops 0%Z) else f_gtb qops r1 (f_of_Z qops 0%Z) in
           if negb (Bool.eqb (Z.eqb i 0%Z) t) then SReturn false else SNext tt
       | Unknown msg => SFail msg
       end) (map gring rs) i0 tt
  = if rings_all (if lt_or_gt then ring_is_cw else ring_is_ccw) (Z.eqb i0 0) rs then LDone tt else LRet false.
Proof.
  induction rs as [|r rs IH]; intros i0 Hi; [reflexivity|].
  cbn [map range_loop rings_all]. rewrite area_of_gring. cbv zeta.
  assert (T : (if lt_or_gt then f_ltb qops (ring_area_xy (map cxy (map gcoord (line_vs r)))) (f_of_Z qops 0%Z)
               else f_gtb qops (ring_area_xy (map cxy (map gcoord (line_vs r)))) (f_of_Z qops 0%Z))
              = (if lt_or_gt then ring_is_cw else ring_is_ccw) r).
  { destruct lt_or_gt; unfold ring_is_cw, ring_is_ccw; cbn [qops qops_with f_ltb f_gtb f_of_Z];
      change TrForce.Qltb with q_ltb; apply q_ltb_compat; try reflexivity; apply ring_area_signed_area. }
  rewrite T.
  destruct (Bool.eqb (Z.eqb i0 0) ((if lt_or_gt then ring_is_cw else ring_is_ccw) r)); cbn [negb]; [|reflexivity].
  rewrite IH by lia. replace (Z.eqb (i0 + 1) 0) with false by (symmetry; apply Z.eqb_neq; lia). reflexivity.
Qed.

(* geom/type_polygon.go:IsCW, IsCCW *)
Lemma tie_Polygon_IsCW : forall p : polyT Q, geom_Polygon_IsCW qops (gpoly p) = Known (poly_is_cw p).
Proof.
  intros p. unfold geom_Polygon_IsCW, poly_is_cw. cbn [gpoly geom_Polygon_rings].
  pose proof (is_loop true (poly_rings p) 0%Z ltac:(lia)) as H. cbv zeta in H |- *. cbn [Z.eqb] in H.
  rewrite H. destruct (rings_all ring_is_cw true (poly_rings p)); reflexivity.
Qed.
Lemma tie_Polygon_IsCCW : forall p : polyT Q, geom_Polygon_IsCCW qops (gpoly p) = Known (poly_is_ccw p).
Proof.
  intros p. unfold geom_Polygon_IsCCW, poly_is_ccw. cbn [gpoly geom_Polygon_rings].
  pose proof (is_loop false (poly_rings p) 0%Z ltac:(lia)) as H. cbv zeta in H |- *. cbn [Z.eqb] in H.
  rewrite H. destruct (rings_all ring_is_ccw true (poly_rings p)); reflexivity.
Qed.
