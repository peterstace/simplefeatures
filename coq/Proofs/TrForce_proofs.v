(* Property C17 - lemmas about ForceCW / ForceCCW (Model/TrForce.v). *)
From Coq Require Import ZArith QArith Qfield Lqa List Bool Permutation Lia.
From SF Require Import Base.GeomAST Model.TrCommon Model.TrReverse Model.TrForce Proofs.TrReverse_proofs.
Import ListNotations.

Lemma Qltb_true (a b : Q) : Qltb a b = true <-> a < b.
Proof.
  unfold Qltb. rewrite negb_true_iff, <- not_true_iff_false, Qle_bool_iff. split; [apply Qnot_le_lt | lra].
Qed.
Lemma Qltb_false (a b : Q) : Qltb a b = false <-> b <= a.
Proof. unfold Qltb. rewrite negb_false_iff. apply Qle_bool_iff. Qed.

(* ---- the signed area changes sign under reversal ---- *)
Lemma shoelace_snoc (l : list qv) (a b : qv) :
  shoelace (l ++ [a; b]) == shoelace (l ++ [a]) + (vx b + vx a) * (vy b - vy a).
Proof.
  induction l as [|x r IH]; simpl.
  - ring.
  - destruct r as [|y r']; simpl in *.
    + ring.
    + rewrite IH. ring.
Qed.

Lemma shoelace_rev (vs : list qv) : shoelace (rev vs) == - shoelace vs.
Proof.
  induction vs as [|a r IH]; simpl.
  - ring.
  - destruct r as [|b r']; simpl.
    + ring.
    + simpl in IH. rewrite <- app_assoc. simpl. rewrite shoelace_snoc, IH. ring.
Qed.

Lemma signed_area_rev (l : lineT Q) : signed_area (rev_line l) == - signed_area l.
Proof.
  destruct l as [ct vs]; unfold signed_area; simpl. rewrite shoelace_rev. field.
Qed.

(* both orientations at once: [c = true] is clockwise, as in forceOrientation(forceCW) *)
Definition ring_is (c : bool) (r : lineT Q) : bool := if c then ring_is_cw r else ring_is_ccw r.
Definition poly_is (c : bool) (p : polyT Q) : bool := rings_all (ring_is c) true (poly_rings p).
Definition poly_force (c : bool) (p : polyT Q) : polyT Q := if poly_is c p then p else poly_force_orient c p.
Definition geom_force (c : bool) (g : geomT Q) : geomT Q :=
  if geom_is (poly_is c) g then g else geom_force_orient c g.

Lemma ring_is_rev c (r : lineT Q) : ring_is c (rev_line r) = ring_is (negb c) r.
Proof.
  pose proof (signed_area_rev r). apply eq_true_iff_eq.
  destruct c; unfold ring_is, ring_is_cw, ring_is_ccw; simpl; rewrite !Qltb_true; lra.
Qed.

Lemma ring_is_cw_rev (r : lineT Q) : ring_is_cw (rev_line r) = ring_is_ccw r.
Proof. exact (ring_is_rev true r). Qed.
Lemma ring_is_ccw_rev (r : lineT Q) : ring_is_ccw (rev_line r) = ring_is_cw r.
Proof. exact (ring_is_rev false r). Qed.

Lemma area_trichotomy (r : lineT Q) :
  (ring_is_cw r = true /\ ring_is_ccw r = false /\ Qeq_bool (signed_area r) 0 = false)
  \/ (ring_is_cw r = false /\ ring_is_ccw r = true /\ Qeq_bool (signed_area r) 0 = false)
  \/ (ring_is_cw r = false /\ ring_is_ccw r = false /\ Qeq_bool (signed_area r) 0 = true).
Proof.
  unfold ring_is_cw, ring_is_ccw. set (a := signed_area r).
  destruct (Q_dec a 0) as [[L|G]|E].
  - left. repeat split; [apply Qltb_true; lra | apply Qltb_false; lra |].
    destruct (Qeq_bool a 0) eqn:B; auto. apply Qeq_bool_iff in B. lra.
  - right; left. repeat split; [apply Qltb_false; lra | apply Qltb_true; lra |].
    destruct (Qeq_bool a 0) eqn:B; auto. apply Qeq_bool_iff in B. lra.
  - right; right. repeat split; [apply Qltb_false; lra | apply Qltb_false; lra | now apply Qeq_bool_iff].
Qed.

Lemma ring_is_nonzero c r : ring_is c r = true -> Qeq_bool (signed_area r) 0 = false.
Proof.
  destruct c; simpl; destruct (area_trichotomy r) as [(A & B & C)|[(A & B & C)|(A & B & C)]]; congruence.
Qed.

Definition head_nonzero (rs : list (lineT Q)) : bool :=
  match rs with [] => true | r :: _ => negb (Qeq_bool (signed_area r) 0) end.

(* the ring forceOrientation(c) leaves at one position: the exterior ring passes the test of
   orientation c exactly when its area is non-zero; a hole always ends up "not c" (a zero-area hole
   counts as such) *)
Lemma ring_force_is c first (r : lineT Q) :
  Bool.eqb first (ring_is c (if Bool.eqb first (Bool.eqb (ring_is_cw r) c) then r else rev_line r))
  = if first then negb (Qeq_bool (signed_area r) 0) else true.
Proof.
  destruct (area_trichotomy r) as [(A & B & C)|[(A & B & C)|(A & B & C)]];
    destruct c, first; simpl; rewrite ?A, ?B, ?C; simpl;
    rewrite ?ring_is_cw_rev, ?ring_is_ccw_rev, ?A, ?B; reflexivity.
Qed.

(* complete description of what IsCW says after forceOrientation(true), and IsCCW after
   forceOrientation(false): the exterior ring decides *)
Lemma rings_force_is c (rs : list (lineT Q)) (first : bool) :
  rings_all (ring_is c) first (rings_force c first rs) = if first then head_nonzero rs else true.
Proof.
  revert first. induction rs as [|r rest IH]; intros first; cbn [rings_force rings_all head_nonzero].
  - destruct first; reflexivity.
  - rewrite (IH false), ring_force_is. destruct first; [destruct (negb _)|]; reflexivity.
Qed.

Lemma poly_is_nonzero c p : poly_is c p = true -> poly_ext_nonzero p = true.
Proof.
  destruct p as [ct [|r rest]]; unfold poly_is, poly_ext_nonzero; simpl; auto.
  destruct (ring_is c r) eqn:T; simpl; try discriminate. intros _. now rewrite (ring_is_nonzero c r T).
Qed.

Lemma poly_orient_is c (p : polyT Q) : poly_is c (poly_force_orient c p) = poly_ext_nonzero p.
Proof. destruct p as [ct rs]. unfold poly_is; simpl. apply rings_force_is. Qed.

(* polygon level: IsCW after ForceCW holds exactly when the exterior ring has non-zero area *)
Lemma poly_force_is c (p : polyT Q) : poly_is c (poly_force c p) = poly_ext_nonzero p.
Proof.
  unfold poly_force. destruct (poly_is c p) eqn:E; [|apply poly_orient_is].
  rewrite E. symmetry. now apply (poly_is_nonzero c).
Qed.
Theorem poly_force_ccw_is_ccw (p : polyT Q) : poly_is_ccw (poly_force_ccw p) = poly_ext_nonzero p.
Proof. exact (poly_force_is false p). Qed.

Lemma geom_orient_is c (g : geomT Q) :
  geom_is (poly_is c) (geom_force_orient c g) = geom_ext_nonzero g.
Proof.
  induction g using geomT_ind'; simpl; auto.
  - apply poly_orient_is.
  - apply forallb_map_eq; auto using poly_orient_is.
  - rewrite Forall_forall in H. now apply forallb_map_eq.
Qed.

Lemma forallb_impl {A} (f g : A -> bool) (l : list A) :
  (forall x, In x l -> f x = true -> g x = true) -> forallb f l = true -> forallb g l = true.
Proof. rewrite !forallb_forall. auto. Qed.

Lemma geom_is_nonzero c (g : geomT Q) : geom_is (poly_is c) g = true -> geom_ext_nonzero g = true.
Proof.
  induction g using geomT_ind'; simpl; auto.
  - apply poly_is_nonzero.
  - apply forallb_impl. intros y _. apply poly_is_nonzero.
  - rewrite Forall_forall in H. now apply forallb_impl.
Qed.

(* geometry level, complete: IsCW(ForceCW(g)) is true exactly when every exterior ring has non-zero
   area, and the same for IsCCW(ForceCCW(g)) *)
Theorem geom_force_is c (g : geomT Q) : geom_is (poly_is c) (geom_force c g) = geom_ext_nonzero g.
Proof.
  unfold geom_force. destruct (geom_is (poly_is c) g) eqn:E; [|apply geom_orient_is].
  rewrite E. symmetry. now apply (geom_is_nonzero c).
Qed.

Theorem geom_force_idem c (g : geomT Q) :
  geom_ext_nonzero g = true -> geom_force c (geom_force c g) = geom_force c g.
Proof. intros H. unfold geom_force at 1. now rewrite geom_force_is, H. Qed.

(* ---- the point-set description is untouched: same vertices, same undirected segments ---- *)
Lemma up_refl (l : list (qv * qv)) : undirected_perm l l.
Proof. exists l. split; auto. induction l; constructor; auto. Qed.

Lemma up_app (a a' b b' : list (qv * qv)) :
  undirected_perm a a' -> undirected_perm b b' -> undirected_perm (a ++ b) (a' ++ b').
Proof.
  intros (x & F1 & P1) (y & F2 & P2). exists (x ++ y). split.
  - now apply Forall2_app.
  - now apply Permutation_app.
Qed.

Lemma up_flat_map {A} (f : A -> list (qv * qv)) (r : A -> A) (l : list A) :
  (forall x, In x l -> undirected_perm (f (r x)) (f x)) ->
  undirected_perm (flat_map f (map r l)) (flat_map f l).
Proof. intros H; induction l; simpl in *; [apply up_refl | apply up_app; auto]. Qed.

Lemma up_rev_line (r : lineT Q) : undirected_perm (lineT_segs (rev_line r)) (lineT_segs r).
Proof. apply up_of_swapped, lineT_segs_rev_perm. Qed.

Lemma rings_force_segs c first rs :
  undirected_perm (flat_map lineT_segs (rings_force c first rs)) (flat_map lineT_segs rs).
Proof.
  revert first; induction rs as [|r rest IH]; intros first; simpl.
  - apply up_refl.
  - apply up_app; auto. destruct (Bool.eqb first _); [apply up_refl | apply up_rev_line].
Qed.
Lemma rings_force_vs c first rs :
  Permutation (flat_map line_vs (rings_force c first rs)) (flat_map line_vs rs).
Proof.
  revert first; induction rs as [|r rest IH]; intros first; simpl; auto.
  apply Permutation_app; auto. destruct (Bool.eqb first _); auto. apply line_vs_rev_perm.
Qed.

Lemma poly_orient_segs c p : undirected_perm (poly_segs (poly_force_orient c p)) (poly_segs p).
Proof. destruct p as [ct rs]; unfold poly_segs; simpl. apply rings_force_segs. Qed.
Lemma poly_orient_vs c p : Permutation (poly_vs (poly_force_orient c p)) (poly_vs p).
Proof. destruct p as [ct rs]; unfold poly_vs; simpl. apply rings_force_vs. Qed.

Lemma geom_orient_segs c (g : geomT Q) :
  undirected_perm (geom_segs (geom_force_orient c g)) (geom_segs g).
Proof.
  induction g using geomT_ind'; simpl; try apply up_refl.
  - apply poly_orient_segs.
  - apply up_flat_map; auto using poly_orient_segs.
  - rewrite Forall_forall in H. now apply up_flat_map.
Qed.
Lemma geom_orient_vs c (g : geomT Q) :
  Permutation (geom_vs (geom_force_orient c g)) (geom_vs g).
Proof.
  induction g using geomT_ind'; simpl; auto.
  - apply poly_orient_vs.
  - apply perm_flat_map_map; auto using poly_orient_vs.
  - rewrite Forall_forall in H. now apply perm_flat_map_map.
Qed.

Theorem geom_force_segs c g : undirected_perm (geom_segs (geom_force c g)) (geom_segs g).
Proof. unfold geom_force. destruct (geom_is _ g); [apply up_refl | apply geom_orient_segs]. Qed.
Theorem geom_force_vs c g : Permutation (geom_vs (geom_force c g)) (geom_vs g).
Proof. unfold geom_force. destruct (geom_is _ g); auto using geom_orient_vs. Qed.

Lemma geom_orient_ct c (g : geomT Q) : geom_ct (geom_force_orient c g) = geom_ct g.
Proof. destruct g; simpl; auto. destruct p; reflexivity. Qed.
Lemma geom_orient_type c (g : geomT Q) : geom_type (geom_force_orient c g) = geom_type g.
Proof. destruct g; reflexivity. Qed.
Theorem geom_force_shape c g :
  geom_ct (geom_force c g) = geom_ct g /\ geom_type (geom_force c g) = geom_type g.
Proof. unfold geom_force. destruct (geom_is _ g); auto using geom_orient_ct, geom_orient_type. Qed.

(* what the code does with a zero-area exterior ring (outside the contract): ForceCW reverses it on
   every call, so the result is not IsCW and a second call undoes the first *)
Theorem poly_force_cw_zero_area (ct : ctype) (r : lineT Q) (holes : list (lineT Q)) :
  signed_area r == 0 ->
  exists holes', poly_force_cw (MkPoly ct (r :: holes)) = MkPoly ct (rev_line r :: holes')
                 /\ poly_is_cw (poly_force_cw (MkPoly ct (r :: holes))) = false.
Proof.
  intros Z. assert (Qeq_bool (signed_area r) 0 = true) as ZB by now apply Qeq_bool_iff.
  assert (ring_is_cw r = false) as NCW.
  { destruct (ring_is_cw r) eqn:A; auto. pose proof (ring_is_nonzero true r A). congruence. }
  assert (poly_is_cw (MkPoly ct (r :: holes)) = false) as E.
  { unfold poly_is_cw; simpl. now rewrite NCW. }
  exists (rings_force true false holes). split.
  - unfold poly_force_cw. rewrite E. simpl. now rewrite NCW.
  - rewrite (poly_force_is true). unfold poly_ext_nonzero; simpl. now rewrite ZB.
Qed.
