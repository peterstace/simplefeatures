(* Property C03 - soundness of Polygon.Validate against the verified reference, for ALL points:
   a nil verdict implies every clause of ogc_valid's poly_def except the connectivity clause
   (polygon_validate_sound_ogc_lemma, validate_polygon_sound_lemma), for rings without repeated
   consecutive vertices.  Route: rings that meet in at most one point lie on one side of each
   other (Validate_jordan), extended from vertices to every point of every edge by the
   avoiding-segment lemma (curve_one_side); the model's side is the location w.r.t. the ring's
   polygon (rel_locate); ring_def is the model's ring check (ring_def_model).  Also completeness of
   the local checks (ogc_accepts_probes_lemma, ogc_local_complete_lemma). *)
From Coq Require Import QArith Qreduction List Bool ZArith Lia Lqa Arith Setoid Morphisms.
From SF Require Import Base.GeomAST Base.QKernel Base.Planar Base.Planar_C03 Model.Validate Model.ValidateSpec
  Proofs.Planar_proofs Proofs.Planar_slab_base Proofs.Validate_kernel Proofs.Validate_proofs Proofs.Validate_graph
  Proofs.Validate_sound Proofs.Validate_jordan Proofs.Validate_ogc Proofs.Validate_repr.
Import ListNotations.
Open Scope Q_scope.


Lemma vertex_on_ring_edges (A : list pt) v : (2 <= length A)%nat -> In v A -> on_edges (ring_edges A) v = true.
Proof.
  induction A as [|a r IH]; [intros _ []|]. destruct r as [|b r']; [simpl; lia|]. intros _ Hv.
  rewrite ring_edges_cons2. unfold on_edges. cbn [existsb]. destruct Hv as [<-|Hv].
  - rewrite on_seg_left. reflexivity.
  - destruct r' as [|c r''].
    + destruct Hv as [<-|[]]. rewrite on_seg_right. reflexivity.
    + apply orb_true_iff. right. apply IH; [simpl; lia | exact Hv].
Qed.

Lemma ring_edges_in_vertices (A : list pt) e : In e (ring_edges A) -> In (fst e) A /\ In (snd e) A.
Proof.
  induction A as [|a r IH]; [intros []|]. destruct r as [|b r']; [intros []|].
  rewrite ring_edges_cons2. intros [<-|H]; [simpl; auto|]. destruct (IH H). split; right; assumption.
Qed.

(* a point of a sub-segment is a point of the segment *)
Lemma subsegment (u v z w x : pt) : ~ pt_eq u v ->
  on_seg (u, v) z = true -> on_seg (u, v) w = true -> on_seg (z, w) x = true -> on_seg (u, v) x = true.
Proof.
  intros Huv Hz Hw Hx.
  assert (Lu : OnL u v u) by apply cross_self_l. assert (Lv : OnL u v v) by apply cross_self_r.
  assert (Lz : OnL u v z) by (apply on_seg_cross; exact Hz). assert (Lw : OnL u v w) by (apply on_seg_cross; exact Hw).
  assert (Lx : OnL u v x).
  { apply on_seg_iff in Hx. destruct Hx as [t [_ [X1 X2]]]. unfold OnL. rewrite (cross_along u v z w x t X1 X2).
    unfold OnL in Lz, Lw. rewrite Lz, Lw. ring. }
  apply (lkey_on_seg u v Huv u v z Lu Lv Lz) in Hz. apply (lkey_on_seg u v Huv u v w Lu Lv Lw) in Hw.
  apply (lkey_on_seg u v Huv z w x Lz Lw Lx) in Hx. apply (lkey_on_seg u v Huv u v x Lu Lv Lx). lra.
Qed.

Lemma has2_len (A : list pt) : has_2_distinct A = true -> (2 <= length A)%nat.
Proof. destruct A as [|a [|b r]]; simpl; intros K; try discriminate; lia. Qed.

Section OneSide.
  Variables A B : list pt.
  Hypothesis HndA : as_lines A = ring_edges A.
  Hypothesis HndB : as_lines B = segs_of_pts B.
  Hypothesis HcA : is_closed A = true.
  Hypothesis HsA : Simple A.
  Hypothesis HcB : pts_closed B = true.
  Hypothesis Hone : forall p q, on_edges (ring_edges A) p = true -> on_edges (segs_of_pts B) p = true ->
                                on_edges (ring_edges A) q = true -> on_edges (segs_of_pts B) q = true -> pt_eq p q.
  Hypothesis H2 : has_2_distinct A = true.

  Let esB := segs_of_pts B.

  Lemma lenA : (2 <= length A)%nat.
  Proof. apply has2_len. exact H2. Qed.

  (* some vertex of A is off B *)
  Lemma off_vertex_exists : exists v, In v A /\ on_edges esB v = false.
  Proof.
    pose proof H2 as K2. apply has_2_distinct_iff in K2. destruct K2 as [p [q [Hp [Hq N]]]].
    destruct (on_edges esB p) eqn:Ep; [|eauto]. destruct (on_edges esB q) eqn:Eq; [|eauto].
    exfalso. apply N. apply Hone; auto; apply vertex_on_ring_edges; auto; apply lenA.
  Qed.

  (* every point of the curve A that is off B is on the side of the off-B vertices *)
  Theorem curve_one_side : exists s, s <> SBoundary /\
    first_off_boundary A (as_lines B) = s /\
    forall z, on_edges (ring_edges A) z = true -> rel B z = SBoundary \/ rel B z = s.
  Proof.
    destruct off_vertex_exists as [v0 [Hv0 Ov0]].
    set (s := rel B v0).
    assert (Ns : s <> SBoundary).
    { intros K. apply (rel_boundary B HndB) in K. fold esB in K. congruence. }
    assert (Hv : forall v, In v A -> rel B v = SBoundary \/ rel B v = s).
    { intros v Hv. destruct (rel B v) eqn:R; auto; right; rewrite <- R;
        apply (vertices_same_side A B HndA HndB HcA HsA HcB Hone v v0 Hv Hv0); try congruence; exact Ns. }
    exists s. split; [exact Ns|]. split.
    { apply first_off_boundary_uniform; [exact Ns | exact Hv | exists v0; split; [exact Hv0 | reflexivity]]. }
    intros z Hz. destruct (on_edges esB z) eqn:Oz; [left; apply (rel_boundary B HndB); exact Oz|]. right.
    apply existsb_exists in Hz. destruct Hz as [[u v] [He Hz]].
    assert (Nuv : ~ pt_eq u v) by (rewrite <- HndA in He; exact (as_lines_nondegenerate A (u, v) He)).
    destruct (ring_edges_in_vertices A (u, v) He) as [Hu Hvv]. cbn [fst snd] in Hu, Hvv.
    assert (Hsub : forall w x, on_seg (u, v) w = true -> on_seg (z, w) x = true -> on_edges (ring_edges A) x = true).
    { intros w x Hw Hx. apply existsb_exists. exists (u, v). split; [exact He | exact (subsegment u v z w x Nuv Hz Hw Hx)]. }
    (* leave z along its edge towards an end w without meeting B *)
    assert (Hfin : exists w, In w A /\ good B (z, w)).
    { destruct (good_dec B (z, u)) as [G|[T [T1 T2]]]; [exists u; split; assumption|]. exists v. split; [exact Hvv|].
      intros x Hx. apply not_true_iff_false. intros Ox.
      (* T on [z,u] and x on [z,v] would both be the touch point, which then is z *)
      assert (E : pt_eq x T).
      { apply Hone; [apply (Hsub v x (on_seg_right u v) Hx) | exact Ox | apply (Hsub u T (on_seg_left u v) T1) | exact T2]. }
      rewrite (on_seg_eq (z, v) x T E) in Hx.
      assert (Lu : OnL u v u) by apply cross_self_l. assert (Lv : OnL u v v) by apply cross_self_r.
      assert (Lz : OnL u v z) by (apply on_seg_cross; exact Hz).
      assert (LT : OnL u v T) by (apply on_seg_cross; exact (subsegment u v z u T Nuv Hz (on_seg_left u v) T1)).
      apply (lkey_on_seg u v Nuv u v z Lu Lv Lz) in Hz. apply (lkey_on_seg u v Nuv z u T Lz Lu LT) in T1.
      apply (lkey_on_seg u v Nuv z v T Lz Lv LT) in Hx.
      assert (K : lkey u v z == lkey u v T) by lra.
      apply (lkey_eq u v Nuv z T Lz LT) in K. rewrite (on_edges_eq esB z T K) in Oz. fold esB in T2. congruence. }
    destruct Hfin as [w [Hw G]]. rewrite (good_rel B HcB z w G). destruct (Hv w Hw) as [K|K]; [|exact K].
    apply (rel_boundary B HndB) in K. rewrite (G w (on_seg_right z w)) in K. discriminate.
  Qed.
End OneSide.


Lemma segs_segs_of_pts ps : segs ps = segs_of_pts ps.
Proof. unfold segs, line_segs. rewrite line_pts_ring_line. reflexivity. Qed.

Lemma nodup_segs ps : (2 <= length ps)%nat -> as_lines ps = ring_edges ps -> as_lines ps = segs_of_pts ps.
Proof. intros H E. rewrite E. destruct ps as [|a [|b r]]; simpl in H; try lia; reflexivity. Qed.

Lemma valid_ring_facts r : as_lines r = ring_edges r -> ring_geom_validate r = None ->
  (2 <= length r)%nat /\ as_lines r = segs_of_pts r /\ pts_closed r = true.
Proof.
  intros E V. apply ring_geom_validate_None in V. destruct V as [V1 [V2 _]]. pose proof (has2_len r V1) as L.
  split; [exact L|]. split; [apply nodup_segs; assumption | apply closed_def_pts_closed; exact V2].
Qed.

Lemma locate_one_ring B z :
  locate (g_poly [B]) z =
  if on_edges (segs_of_pts B) z then Boundary else if edges_parity (segs_of_pts B) z then Interior else Exterior.
Proof.
  rewrite locate_poly. cbn [map]. unfold rings_interior, rings_boundary, ring_strict_in. cbn [forallb existsb].
  rewrite andb_true_r, orb_false_r, segs_segs_of_pts.
  destruct (on_edges (segs_of_pts B) z); [reflexivity|]. destruct (edges_parity (segs_of_pts B) z); reflexivity.
Qed.

(* the model's side of a point w.r.t. a closed ring is its location w.r.t. the polygon of that ring *)
Lemma rel_locate B z : pts_closed B = true -> as_lines B = segs_of_pts B ->
  locate (g_poly [B]) z = match rel B z with SInterior => Interior | SBoundary => Boundary | SExterior => Exterior end.
Proof.
  intros Hc Hnd. rewrite locate_one_ring. destruct (on_edges (segs_of_pts B) z) eqn:O.
  - rewrite (proj2 (rel_boundary B Hnd z) O). reflexivity.
  - unfold rel. rewrite (relate_lines_closed_off B z Hc O). destruct (edges_parity (segs_of_pts B) z); reflexivity.
Qed.

Lemma on_curve_on_edges ps p : on_curve ps p <-> on_edges (as_lines ps) p = true.
Proof. unfold on_curve, on_edges. rewrite existsb_exists. tauto. Qed.

Lemma ordpairs_of_index {T} (P : T -> T -> Prop) (l : list T) :
  (forall i j a b, (j < i)%nat -> nth_error l i = Some a -> nth_error l j = Some b -> P b a) -> ForallOrdPairs P l.
Proof.
  induction l as [|x r IH]; intros H; [constructor|]. constructor.
  - apply Forall_forall. intros y Hy. destruct (In_nth_error r y Hy) as [k Hk]. apply (H (S k) 0%nat y x); [lia | exact Hk | reflexivity].
  - apply IH. intros i j a b Hij Ha Hb. apply (H (S i) (S j) a b); [lia | exact Ha | exact Hb].
Qed.

Lemma ring_located A B :
  as_lines A = ring_edges A -> ring_geom_validate A = None ->
  as_lines B = ring_edges B -> ring_geom_validate B = None ->
  (forall p q, on_edges (segs_of_pts A) p = true -> on_edges (segs_of_pts B) p = true ->
               on_edges (segs_of_pts A) q = true -> on_edges (segs_of_pts B) q = true -> pt_eq p q) ->
  forall z, on_edges (segs A) z = true ->
  forall s, first_off_boundary A (as_lines B) <> s -> s <> SBoundary ->
    locate (g_poly [B]) z <> match s with SInterior => Interior | SBoundary => Boundary | SExterior => Exterior end.
Proof.
  intros A4 VA B4 VB H1 z Hz s Ns Nb.
  destruct (valid_ring_facts A A4 VA) as [_ [A5 _]]. destruct (valid_ring_facts B B4 VB) as [_ [B5 B6]].
  apply ring_geom_validate_None in VA. destruct VA as [A1 [A2 A3]]. rewrite <- A5, A4 in H1.
  destruct (curve_one_side A B A4 B5 A2 A3 B6 H1 A1) as [s0 [_ [Fs Hs]]].
  rewrite (rel_locate B z B6 B5). rewrite Fs in Ns.
  destruct (Hs z) as [K|K]; [rewrite <- A4, A5, <- segs_segs_of_pts; exact Hz | |]; rewrite K; destruct s, s0; congruence.
Qed.

(* What a nil verdict of the (fixed) polygon validation guarantees, for ALL points of Q^2:
   the first four clauses of poly_def (ogc_polygon_clauses_verified), for rings without repeated
   consecutive vertices.  NOT PROVED: the connectivity clause (acyclic touch graph -> the face
   graph of the interior is connected), and rings with repeated consecutive vertices. *)
Theorem polygon_validate_sound_everywhere_lemma (shell : list pt) (holes : list (list pt)) :
  Forall (fun r => as_lines r = ring_edges r) (shell :: holes) ->
  Forall (fun r => ring_geom_validate r = None) (shell :: holes) ->
  poly_geom_validate nested_v1 (shell :: holes) = None ->
  Forall (fun r => has_2_distinct r = true /\ is_closed r = true /\ Simple r) (shell :: holes)
  /\ ForallOrdPairs (fun a b => forall p q, on_edges (segs a) p = true -> on_edges (segs b) p = true ->
                                 on_edges (segs a) q = true -> on_edges (segs b) q = true -> pt_eq p q) (shell :: holes)
  /\ Forall (fun h => forall p, on_edges (segs h) p = true -> locate (g_poly [shell]) p <> Exterior) holes
  /\ ForallOrdPairs (fun h k => forall p, (on_edges (segs h) p = true -> locate (g_poly [k]) p <> Interior)
                                       /\ (on_edges (segs k) p = true -> locate (g_poly [h]) p <> Interior)) holes.
Proof.
  intros Hnd Hr Hv.
  destruct (polygon_validate_sound_partial_lemma (shell :: holes) Hr Hv) as [R1 [R2 [R3 [R4 _]]]].
  set (rings := shell :: holes) in *. rewrite Forall_forall in Hnd, Hr.
  (* at most one common point, in the form used by ring_located *)
  assert (Hone : forall i j ri rj, (j < i)%nat -> nth_error rings i = Some ri -> nth_error rings j = Some rj ->
            forall p q, on_edges (segs_of_pts ri) p = true -> on_edges (segs_of_pts rj) p = true ->
                        on_edges (segs_of_pts ri) q = true -> on_edges (segs_of_pts rj) q = true -> pt_eq p q).
  { intros i j ri rj Hji Hi Hj p q P1 P2 Q1 Q2.
    pose proof (nth_error_In _ _ Hi) as Ii. pose proof (nth_error_In _ _ Hj) as Ij.
    destruct (valid_ring_facts ri (Hnd ri Ii) (Hr ri Ii)) as [_ [Ei _]]. destruct (valid_ring_facts rj (Hnd rj Ij) (Hr rj Ij)) as [_ [Ej _]].
    apply (R2 i j ri rj Hji Hi Hj p q); apply on_curve_on_edges; rewrite ?Ei, ?Ej; assumption. }
  assert (Hloc := fun A B HA HB => ring_located A B (Hnd A HA) (Hr A HA) (Hnd B HB) (Hr B HB)).
  split; [exact R1|]. split.
  { apply ordpairs_of_index. intros i j a b Hji Ha Hb p q P1 P2 Q1 Q2. rewrite !segs_segs_of_pts in *.
    symmetry. apply (Hone i j a b Hji Ha Hb q p); assumption. }
  split.
  { apply Forall_forall. intros h Hh p Hp.
    destruct (In_nth_error holes h Hh) as [k Hk].
    apply (Hloc h shell (or_intror Hh) (or_introl eq_refl) (Hone (S k) 0%nat h shell ltac:(lia) Hk eq_refl) p Hp SExterior);
      [exact (proj1 (Forall_forall _ _) (R4 shell holes eq_refl) h Hh) | discriminate]. }
  apply ordpairs_of_index. intros i j k h Hji Hk Hh p.
  (* h = holes[j] comes before k = holes[i] *)
  assert (Ik : In k rings) by (right; eapply nth_error_In; exact Hk).
  assert (Ih : In h rings) by (right; eapply nth_error_In; exact Hh).
  destruct (R3 (S i) (S j) k h ltac:(lia) Hk Hh) as [N1 N2].
  pose proof (Hone (S i) (S j) k h ltac:(lia) Hk Hh) as O1.
  split; intros Hp.
  - apply (Hloc h k Ih Ik (fun x y X1 X2 Y1 Y2 => O1 x y X2 X1 Y2 Y1) p Hp SInterior N2). discriminate.
  - apply (Hloc k h Ik Ih O1 p Hp SInterior N1). discriminate.
Qed.


Lemma as_lines_length_le ps : (length (as_lines ps) <= length (ring_edges ps))%nat.
Proof.
  induction ps as [|a r IH]; [simpl; lia|]. destruct r as [|b r']; [simpl; lia|].
  rewrite as_lines_cons2, ring_edges_cons2. destruct (pt_eqb a b); simpl length in *; lia.
Qed.
Lemma nodup_dedup ps : as_lines ps = ring_edges ps -> dedup_consec ps = ps.
Proof.
  induction ps as [|a r IH]; [reflexivity|]. destruct r as [|b r']; [reflexivity|].
  rewrite as_lines_cons2, ring_edges_cons2. intros H.
  change (dedup_consec (a :: b :: r')) with (if pt_eqb a b then dedup_consec (b :: r') else a :: dedup_consec (b :: r')).
  destruct (pt_eqb a b).
  - exfalso. pose proof (as_lines_length_le (b :: r')) as L. rewrite H in L. simpl length in L. lia.
  - inversion H as [H']. rewrite (IH H'). reflexivity.
Qed.

Lemma pairs_ok_from_iff closed m k L :
  pairs_ok_from closed m k L = true <->
  forall i j si sj, (i < j)%nat -> nth_error L i = Some si -> nth_error L j = Some sj ->
                    seg_pair_ok closed m (k + i) (k + j) si sj = true.
Proof.
  apply (ordered_pairs_iff (seg_pair_ok closed m)
           (fun k s r => forallb (fun jl => seg_pair_ok closed m k (fst jl) s (snd jl)) (index_from (S k) r))
           (pairs_ok_from closed m)); try reflexivity.
  intros k0 s r. rewrite forallb_forall. split.
  - intros H j sj Hj. apply (H (S k0 + j, sj)%nat). apply (indexed_in r (S k0) (S k0 + j) sj).
    split; [lia|]. replace (S k0 + j - S k0)%nat with j by lia. exact Hj.
  - intros H [j' sj] Hin. apply (indexed_in r (S k0) j' sj) in Hin. destruct Hin as [Hle Hn]. cbn [fst snd].
    replace j' with (S k0 + (j' - S k0))%nat by lia. apply H. exact Hn.
Qed.

Lemma distinct_2_iff ps : distinct_2 ps = true <-> has_2_distinct ps = true.
Proof.
  rewrite has_2_distinct_iff. unfold distinct_2. rewrite existsb_exists. split.
  - intros [p [Hp K]]. apply existsb_exists in K. destruct K as [q [Hq K]]. exists p, q.
    rewrite negb_true_iff, pt_eqb_false_iff in K. auto.
  - intros [p [q [Hp [Hq N]]]]. exists p. split; [exact Hp|]. apply existsb_exists. exists q. split; [exact Hq|].
    apply negb_true_iff, pt_eqb_false_iff, N.
Qed.

Lemma seg_pair_ok_point c m k l sk sl x : seg_seg sk sl = SSPoint x ->
  (seg_pair_ok c m k l sk sl = true <->
   forall p, common sk sl p -> (l = S k /\ pt_eq p (snd sk)) \/ (c = true /\ k = 0%nat /\ S l = m /\ pt_eq p (fst sk))).
Proof.
  intros E. unfold seg_pair_ok. rewrite E, orb_true_iff, !andb_true_iff, !Nat.eqb_eq, !pt_eqb_iff.
  assert (Cx : common sk sl x) by (apply seg_seg_sound; rewrite E; left; reflexivity).
  split.
  - intros H p Hp. rewrite (seg_seg_point_unique sk sl x E p Hp). tauto.
  - intros H. specialize (H x Cx). tauto.
Qed.

Lemma simple_def_iff ps : as_lines ps = ring_edges ps -> (simple_def ps = true <-> Simple ps).
Proof.
  intros Hnd. unfold simple_def, Simple. cbv zeta. rewrite (nodup_dedup ps Hnd), <- Hnd, pairs_ok_from_iff.
  change (closed_def ps) with (is_closed ps). split; intros H k l sk sl Hkl Hk Hl.
  - specialize (H k l sk sl Hkl Hk Hl). cbn [Nat.add] in H. destruct (seg_seg sk sl) as [|x|x y] eqn:E.
    + intros p [P1 P2]. destruct (seg_seg_complete sk sl p P1 P2 E).
    + apply (seg_pair_ok_point _ _ k l sk sl x E). exact H.
    + unfold seg_pair_ok in H. rewrite E in H. discriminate.
  - cbn [Nat.add]. destruct (seg_seg sk sl) as [|x|x y] eqn:E.
    + unfold seg_pair_ok. rewrite E. reflexivity.
    + apply (seg_pair_ok_point _ _ k l sk sl x E). exact (H k l sk sl Hkl Hk Hl).
    + destruct (seg_seg_overlap_distinct sk sl x y E).
      assert (S2 : forall z, In z [x; y] -> common sk sl z) by (intros z Hz; apply seg_seg_sound; rewrite E; exact Hz).
      apply (Simple_at_most_one ps k l sk sl H Hkl Hk Hl); apply S2; simpl; auto.
Qed.

Lemma ring_def_model ps : as_lines ps = ring_edges ps -> (ring_def ps = true <-> ring_geom_validate ps = None).
Proof.
  intros Hnd. unfold ring_def. rewrite ring_geom_validate_None, !andb_true_iff, distinct_2_iff, (simple_def_iff ps Hnd).
  change (closed_def ps) with (is_closed ps). tauto.
Qed.

Definition poly_def_but_connectivity (rings : list (list pt)) : bool :=
  match rings with
  | [] => true
  | shell :: holes =>
      forallb ring_def rings
      && all_pairs (fun a b => rings_touch_ok (segs a) (segs b)) rings
      && forallb (hole_inside shell) holes
      && all_pairs not_nested holes
  end.
Lemma poly_def_split rings : poly_def rings = poly_def_but_connectivity rings && interior_connected (map segs rings).
Proof. destruct rings; reflexivity. Qed.

Theorem polygon_validate_sound_ogc_lemma (rings : list (list pt)) :
  Forall (fun r => as_lines r = ring_edges r) rings ->
  Forall (fun r => ring_geom_validate r = None) rings ->
  poly_geom_validate nested_v1 rings = None ->
  poly_def_but_connectivity rings = true.
Proof.
  destruct rings as [|shell holes]; [reflexivity|]. intros Hnd Hr Hv.
  destruct (polygon_validate_sound_everywhere_lemma shell holes Hnd Hr Hv) as [C1 [C2 [C3 C4]]].
  apply poly_local_meaning. split; [|auto].
  apply Forall_forall. intros r Hin. rewrite Forall_forall in Hnd, Hr. apply ring_def_model; auto.
Qed.


Lemma ring_check_inr r ps : ring_check r = inr ps -> fin_pts r = Some ps /\ ring_geom_validate ps = None.
Proof.
  unfold ring_check. destruct r as [|a t]; [discriminate|].
  destruct (fin_pts (a :: t)) as [qs|]; [|discriminate].
  destruct (ring_geom_validate qs) eqn:E; [discriminate|]. intros H. inversion H; subst. auto.
Qed.
Lemma rings_check_inr rs rings : rings_check rs = inr rings ->
  all_fin fin_pts rs = Some rings /\ Forall (fun r => ring_geom_validate r = None) rings.
Proof.
  revert rings. induction rs as [|r t IH]; intros rings H.
  - simpl in H. inversion H. split; [reflexivity | constructor].
  - simpl in H. destruct (ring_check r) as [e|ps] eqn:E; [discriminate|].
    destruct (rings_check t) as [e|pss] eqn:E2; [discriminate|]. inversion H; subst.
    destruct (ring_check_inr r ps E) as [F1 F2]. destruct (IH pss eq_refl) as [G1 G2].
    split; [simpl; rewrite F1, G1; reflexivity | constructor; assumption].
Qed.

(* Validate = nil on a polygon with finite ordinates -> every clause of ogc_valid's poly_def except
   connectivity, for rings without repeated consecutive vertices *)
Theorem validate_polygon_sound_lemma (rs : list (list oxy)) :
  validate (VPoly rs) = None ->
  exists rings, all_fin fin_pts rs = Some rings /\
    (Forall (fun r => as_lines r = ring_edges r) rings -> poly_def_but_connectivity rings = true).
Proof.
  simpl. unfold poly_validate_with. destruct rs as [|r t]; [intros _; exists []; split; [reflexivity | reflexivity]|].
  destruct (rings_check (r :: t)) as [e|rings] eqn:E; [discriminate|]. intros Hv.
  destruct (rings_check_inr _ _ E) as [F1 F2]. exists rings. split; [exact F1|].
  intros Hnd. apply polygon_validate_sound_ogc_lemma; assumption.
Qed.

(* the probes of the model cannot reject what ogc_valid's everywhere-clauses accept *)
Theorem ogc_accepts_probes_lemma (A B : list pt) :
  (2 <= length A)%nat -> as_lines B = segs_of_pts B -> pts_closed B = true ->
  (hole_inside B A = true -> first_off_boundary A (as_lines B) <> SExterior)
  /\ (not_nested A B = true -> pts_closed A = true -> first_off_boundary A (as_lines B) <> SInterior).
Proof.
  intros HlA HndB HcB. split.
  - intros H K. destruct (first_off_in A (as_lines B) SExterior K ltac:(discriminate)) as [p [Hp Rp]].
    apply (proj1 (hole_inside_spec B A HcB) H p).
    + rewrite segs_segs_of_pts. apply segs_ring_edges_on. apply vertex_on_ring_edges; assumption.
    + rewrite (rel_locate B p HcB HndB). unfold rel. rewrite Rp. reflexivity.
  - intros H HcA K. destruct (first_off_in A (as_lines B) SInterior K ltac:(discriminate)) as [p [Hp Rp]].
    destruct (proj1 (not_nested_spec A B HcA HcB) H p) as [N _]. apply N.
    + rewrite segs_segs_of_pts. apply segs_ring_edges_on. apply vertex_on_ring_edges; assumption.
    + rewrite (rel_locate B p HcB HndB). unfold rel. rewrite Rp. reflexivity.
Qed.


Lemma ordpairs_index {T} (P : T -> T -> Prop) (l : list T) : ForallOrdPairs P l ->
  forall i j a b, (j < i)%nat -> nth_error l i = Some a -> nth_error l j = Some b -> P b a.
Proof.
  induction 1 as [|x r Hx Hr IH]; intros i j a b Hji Ha Hb; [destruct i; discriminate|].
  destruct i as [|i]; [lia|]. simpl in Ha. destruct j as [|j].
  - simpl in Hb. inversion Hb; subst. exact (proj1 (Forall_forall _ _) Hx a (nth_error_In _ _ Ha)).
  - simpl in Hb. apply (IH i j a b); [lia | exact Ha | exact Hb].
Qed.

Section LoopsComplete.
  Variable nested : list pt -> list pt -> option bool.

  Lemma pair_step_complete i j ri rj st : PairOK nested i j ri rj -> exists st', pair_step nested i j ri rj st = inr st'.
  Proof.
    intros [H1 H2]. unfold pair_step.
    assert (E : (if (0 <? i)%nat && (0 <? j)%nat then nested ri rj else Some false) = Some false).
    { destruct (0 <? i)%nat eqn:Ei; [|reflexivity]. destruct (0 <? j)%nat eqn:Ej; [|reflexivity].
      apply Nat.ltb_lt in Ei, Ej. simpl. exact (H1 Ei Ej). }
    rewrite E. destruct (inter_summary (as_lines ri) (as_lines rj)) as [|p|]; [eauto| |congruence].
    destruct (lookup_pt p (ps_ivs st)); eauto.
  Qed.
  Lemma loop_j_complete i ri below : (forall j rj, In (j, rj) below -> PairOK nested i j ri rj) ->
    forall st, exists st', loop_j nested i ri below st = inr st'.
  Proof.
    induction below as [|[j rj] t IH]; intros H st; [simpl; eauto|]. simpl.
    destruct (pair_step_complete i j ri rj st (H j rj (or_introl eq_refl))) as [st1 E]. rewrite E.
    apply IH. intros j' rj' Hin. apply H. right. exact Hin.
  Qed.
  Lemma loop_i_complete rest : forall i below,
    (forall k ri, nth_error rest k = Some ri -> forall j rj, In (j, rj) (below ++ indexed i (firstn k rest)) -> PairOK nested (i + k) j ri rj) ->
    forall st, exists st', loop_i nested i below rest st = inr st'.
  Proof.
    induction rest as [|r0 t IH]; intros i below H st; [simpl; eauto|]. simpl.
    destruct (loop_j_complete i r0 below) with (st := st) as [st1 E].
    { intros j rj Hin. specialize (H 0%nat r0 eq_refl j rj). rewrite Nat.add_0_r in H. apply H. simpl. rewrite app_nil_r. exact Hin. }
    rewrite E. apply IH. intros k ri Hk j rj Hin.
    replace (S i + k)%nat with (i + S k)%nat by lia. apply (H (S k) ri Hk j rj). simpl. rewrite <- app_assoc in Hin. exact Hin.
  Qed.
End LoopsComplete.

Lemma on_curve_segs r : (2 <= length r)%nat -> as_lines r = ring_edges r ->
  forall p, on_curve r p <-> on_edges (segs r) p = true.
Proof. intros H E p. rewrite on_curve_on_edges, segs_segs_of_pts, (nodup_segs r H E). tauto. Qed.

(* COMPLETENESS of the local checks: what ogc_valid accepts but for connectivity, the model can only
   reject for connectivity *)
Theorem ogc_local_complete_lemma (rings : list (list pt)) :
  Forall (fun r => as_lines r = ring_edges r) rings ->
  poly_def_but_connectivity rings = true ->
  Forall (fun r => ring_geom_validate r = None) rings
  /\ (poly_geom_validate nested_v1 rings = None \/ poly_geom_validate nested_v1 rings = Some RInteriorConnected).
Proof.
  intros Hnd H. destruct rings as [|shell holes]; [split; [constructor | left; reflexivity]|].
  unfold poly_def_but_connectivity in H. rewrite !andb_true_iff, forallb_forall, !all_pairs_iff in H.
  destruct H as [[[H1 H2] H3] H4]. set (rings := shell :: holes) in *.
  assert (Hring : forall r, In r rings -> ring_geom_validate r = None /\ (2 <= length r)%nat /\ as_lines r = ring_edges r
                                        /\ as_lines r = segs_of_pts r /\ pts_closed r = true).
  { intros r Hr. pose proof (proj1 (Forall_forall _ _) Hnd r Hr) as E.
    pose proof (proj1 (ring_def_model r E) (H1 r Hr)) as V. pose proof (valid_ring_facts r E V). tauto. }
  split; [apply Forall_forall; intros r Hr; apply Hring; exact Hr|].
  (* every pair passes the callback *)
  assert (Hpair : forall i j ri rj, (j < i)%nat -> nth_error rings i = Some ri -> nth_error rings j = Some rj ->
                  PairOK nested_v1 i j ri rj).
  { intros i j ri rj Hji Hi Hj.
    destruct (Hring ri (nth_error_In _ _ Hi)) as [_ [Li [Ei [Si Ci]]]]. destruct (Hring rj (nth_error_In _ _ Hj)) as [_ [Lj [Ej [Sj Cj]]]].
    split.
    - intros H0i H0j. destruct i as [|i]; [lia|]. destruct j as [|j]; [lia|]. simpl in Hi, Hj.
      pose proof (ordpairs_index _ holes H4 i j ri rj ltac:(lia) Hi Hj) as N.
      assert (N' : not_nested ri rj = true).
      { apply not_nested_spec; [exact Ci | exact Cj|]. intros p. destruct (proj1 (not_nested_spec rj ri Cj Ci) N p). split; assumption. }
      destruct (ogc_accepts_probes_lemma ri rj Li Sj Cj) as [_ P1]. destruct (ogc_accepts_probes_lemma rj ri Lj Si Ci) as [_ P2].
      apply nested_v1_false.
      repeat split; [intros ->; simpl in Li; lia | intros ->; simpl in Lj; lia | exact (P1 N' Ci) | exact (P2 N Cj)].
    - apply at_most_one_not_multi. intros p q P1 P2 Q1 Q2.
      pose proof (ordpairs_index _ rings H2 i j ri rj Hji Hi Hj) as T.
      cbv beta in T. pose proof (proj1 (rings_touch_ok_spec _ _) T) as T'. clear T. rename T' into T. symmetry.
      apply (T q p); first [apply (on_curve_segs rj Lj Ej) | apply (on_curve_segs ri Li Ei)]; assumption. }
  destruct (loop_i_complete nested_v1 rings 0 []) with (st := MkPS (length rings) [] []) as [st E].
  { intros k ri Hk j rj Hin. simpl in Hin. apply indexed_in in Hin. destruct Hin as [_ Hin]. rewrite Nat.sub_0_r in Hin.
    assert (Hjk : (j < k)%nat).
    { destruct (lt_dec j k); [assumption|]. rewrite (proj2 (nth_error_None _ _)) in Hin; [discriminate|]. rewrite firstn_length. lia. }
    rewrite nth_error_firstn_lt in Hin by exact Hjk. exact (Hpair k j ri rj Hjk Hk Hin). }
  unfold poly_geom_validate. fold rings. rewrite E.
  assert (Hh : forallb (hole_in_shell (as_lines shell)) holes = true).
  { apply forallb_forall. intros h Hh. rewrite hole_in_shell_first_off. rewrite forallb_forall in H3.
    destruct (Hring shell (or_introl eq_refl)) as [_ [_ [_ [Ss Cs]]]]. destruct (Hring h (or_intror Hh)) as [_ [Lh _]].
    destruct (ogc_accepts_probes_lemma h shell Lh Ss Cs) as [P _]. specialize (P (H3 h Hh)).
    destruct (first_off_boundary h (as_lines shell)); try reflexivity. congruence. }
  unfold rings. rewrite Hh. cbn [negb]. destruct (has_cycle (ps_edges st)); auto.
Qed.
