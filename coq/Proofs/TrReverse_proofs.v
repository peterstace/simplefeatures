(* Property C17 - lemmas about Reverse (Model/TrReverse.v). *)
From Coq Require Import List Bool Permutation Lia.
From SF Require Import Base.GeomAST Model.TrCommon Model.TrReverse.
Import ListNotations.

(* The hypotheses speak of the members of the list only, so that the induction hypothesis for the
   members of a collection meets them. *)
Lemma forallb_map_eq {A} (f g : A -> bool) (r : A -> A) (l : list A) :
  (forall x, In x l -> f (r x) = g x) -> forallb f (map r l) = forallb g l.
Proof. rewrite forallb_map. apply forallb_ext_in. Qed.

Lemma map_invol {A} (f : A -> A) (l : list A) : (forall x, In x l -> f (f x) = x) -> map f (map f l) = l.
Proof. intros H. rewrite map_map. now apply map_id_on. Qed.

Lemma perm_flat_map_map {A B} (f : A -> list B) (r : A -> A) (l : list A) :
  (forall x, In x l -> Permutation (f (r x)) (f x)) -> Permutation (flat_map f (map r l)) (flat_map f l).
Proof. intros H; induction l; simpl in *; auto using Permutation_app. Qed.

Section RevProofs.
  Variable F : Type.
  Notation vtxF := (vtx F).

  Lemma rev_line_invol (l : lineT F) : rev_line (rev_line l) = l.
  Proof. destruct l; simpl. now rewrite rev_involutive. Qed.

  Lemma rev_poly_invol (p : polyT F) : rev_poly (rev_poly p) = p.
  Proof. destruct p; simpl. rewrite map_invol; auto using rev_line_invol. Qed.

  Lemma line_empty_rev (l : lineT F) : line_empty (rev_line l) = line_empty l.
  Proof. destruct l as [ct [|a r]]; [reflexivity|]. unfold line_empty; simpl. now destruct (rev r). Qed.
  Lemma poly_empty_rev (p : polyT F) : poly_empty (rev_poly p) = poly_empty p.
  Proof. destruct p as [ct rs]; unfold poly_empty; simpl. destruct rs; reflexivity. Qed.

  (* Reverse returns an empty collection as it is, which is what reversing its members gives *)
  Lemma rev_line_of_empty (l : lineT F) : line_empty l = true -> rev_line l = l.
  Proof. destruct l as [ct [|v vs]]; [reflexivity | discriminate]. Qed.
  Lemma rev_poly_of_empty (y : polyT F) : poly_empty y = true -> rev_poly y = y.
  Proof. destruct y as [ct [|r rs]]; [reflexivity | discriminate]. Qed.

  Lemma rev_geom_of_empty (g : geomT F) : is_empty g = true -> rev_geom g = g.
  Proof.
    destruct g as [p|l|y|c mp|c ls|c ys|c gs]; cbn [rev_geom is_empty]; intros E; try reflexivity.
    - rewrite (rev_line_of_empty l E). reflexivity.
    - rewrite (rev_poly_of_empty y E). reflexivity.
    - f_equal. apply map_id_on. intros l Hl. rewrite forallb_forall in E. apply rev_line_of_empty, E, Hl.
    - f_equal. apply map_id_on. intros y Hy. rewrite forallb_forall in E. apply rev_poly_of_empty, E, Hy.
    - rewrite E. reflexivity.
  Qed.

  Lemma rev_geom_coll ct (gs : list (geomT F)) : rev_geom (GColl ct gs) = GColl ct (map rev_geom gs).
  Proof.
    cbn [rev_geom]. destruct (is_empty (GColl ct gs)) eqn:E; [|reflexivity].
    f_equal. symmetry. apply map_id_on. intros x Hx. cbn [is_empty] in E. rewrite forallb_forall in E.
    apply rev_geom_of_empty, E, Hx.
  Qed.

  Lemma is_empty_rev (g : geomT F) : is_empty (rev_geom g) = is_empty g.
  Proof.
    induction g using geomT_ind'; rewrite ?rev_geom_coll; simpl; auto using line_empty_rev, poly_empty_rev.
    - apply forallb_map_eq; auto using line_empty_rev.
    - apply forallb_map_eq; auto using poly_empty_rev.
    - rewrite Forall_forall in H. now apply forallb_map_eq.
  Qed.

  Theorem rev_geom_invol (g : geomT F) : rev_geom (rev_geom g) = g.
  Proof.
    induction g using geomT_ind'; rewrite ?rev_geom_coll; simpl; auto.
    - now rewrite rev_line_invol.
    - now rewrite rev_poly_invol.
    - rewrite map_invol; auto using rev_line_invol.
    - rewrite map_invol; auto using rev_poly_invol.
    - rewrite Forall_forall in H. now rewrite map_invol.
  Qed.

  (* ---- vertices: every vertex is kept with its whole payload ---- *)
  Lemma line_vs_rev (l : lineT F) : line_vs (rev_line l) = rev (line_vs l).
  Proof. destruct l; reflexivity. Qed.

  Lemma line_vs_rev_perm (l : lineT F) : Permutation (line_vs (rev_line l)) (line_vs l).
  Proof. rewrite line_vs_rev. symmetry. apply Permutation_rev. Qed.
  Lemma poly_vs_rev_perm (p : polyT F) : Permutation (poly_vs (rev_poly p)) (poly_vs p).
  Proof. destruct p as [ct rs]; unfold poly_vs; simpl. apply perm_flat_map_map; auto using line_vs_rev_perm. Qed.

  Theorem geom_vs_rev_perm (g : geomT F) : Permutation (geom_vs (rev_geom g)) (geom_vs g).
  Proof.
    induction g using geomT_ind'; rewrite ?rev_geom_coll; simpl; auto using line_vs_rev_perm, poly_vs_rev_perm.
    - apply perm_flat_map_map; auto using line_vs_rev_perm.
    - apply perm_flat_map_map; auto using poly_vs_rev_perm.
    - rewrite Forall_forall in H. now apply perm_flat_map_map.
  Qed.

  (* ---- segments: the reversed line has exactly the flipped segments, in reverse order ---- *)
  Lemma line_segs_app_cons (l : list vtxF) b rest :
    line_segs (l ++ b :: rest) = line_segs (l ++ [b]) ++ line_segs (b :: rest).
  Proof.
    induction l as [|x [|y l'] IH]; try reflexivity.
    cbn [app line_segs] in *. now rewrite IH.
  Qed.

  Theorem line_segs_rev (vs : list vtxF) : line_segs (rev vs) = rev (map swap_seg (line_segs vs)).
  Proof.
    induction vs as [|a r IH]; simpl; auto.
    destruct r as [|b r']; simpl; auto.
    simpl in IH. rewrite <- IH.
    rewrite <- app_assoc. apply line_segs_app_cons.
  Qed.

  Lemma lineT_segs_rev_perm (l : lineT F) :
    Permutation (lineT_segs (rev_line l)) (map swap_seg (lineT_segs l)).
  Proof.
    unfold lineT_segs. rewrite line_vs_rev, line_segs_rev. symmetry. apply Permutation_rev.
  Qed.

  Lemma perm_flat_map_swap {A} (f : A -> list (vtxF * vtxF)) (r : A -> A) (l : list A) :
    (forall x, In x l -> Permutation (f (r x)) (map swap_seg (f x))) ->
    Permutation (flat_map f (map r l)) (map swap_seg (flat_map f l)).
  Proof.
    intros H; induction l; simpl in *; auto. rewrite map_app. auto using Permutation_app.
  Qed.

  Lemma poly_segs_rev_perm (p : polyT F) :
    Permutation (poly_segs (rev_poly p)) (map swap_seg (poly_segs p)).
  Proof.
    destruct p as [ct rs]; unfold poly_segs; simpl. apply perm_flat_map_swap; auto using lineT_segs_rev_perm.
  Qed.

  Theorem geom_segs_rev_perm (g : geomT F) :
    Permutation (geom_segs (rev_geom g)) (map swap_seg (geom_segs g)).
  Proof.
    induction g using geomT_ind'; rewrite ?rev_geom_coll; simpl; auto using lineT_segs_rev_perm, poly_segs_rev_perm.
    - apply perm_flat_map_swap; auto using lineT_segs_rev_perm.
    - apply perm_flat_map_swap; auto using poly_segs_rev_perm.
    - rewrite Forall_forall in H. now apply perm_flat_map_swap.
  Qed.

  Lemma up_of_swapped (l l' : list (vtxF * vtxF)) :
    Permutation l (map swap_seg l') -> undirected_perm l l'.
  Proof.
    intros P. exists (map swap_seg l'). split; [clear P | exact P].
    induction l'; simpl; constructor; auto.
  Qed.

  Corollary geom_segs_rev_undirected (g : geomT F) :
    undirected_perm (geom_segs (rev_geom g)) (geom_segs g).
  Proof. apply up_of_swapped, geom_segs_rev_perm. Qed.

  (* ---- what is never touched: type, coordinates type, emptiness, member counts ---- *)
  Lemma geom_ct_rev (g : geomT F) : geom_ct (rev_geom g) = geom_ct g.
  Proof. destruct g as [p|[]|[]| | | |]; rewrite ?rev_geom_coll; reflexivity. Qed.
  Lemma geom_type_rev (g : geomT F) : geom_type (rev_geom g) = geom_type g.
  Proof. destruct g; rewrite ?rev_geom_coll; reflexivity. Qed.
End RevProofs.
