(* Translator tie for function bodies (DESIGN.md A.8b), property C03: the segment kernel "as written
   in Go" of coq/Model/Validate.v (orientation, xy_less, on_segment_bb, intersect_line,
   has_crossing) against the bodies of geom/alg_orientation.go (orientation), geom/xy.go (Less, Sub,
   Cross, Scale, Add), geom/line.go (onSegment, uncheckedEnvelope, intersectLine),
   geom/type_envelope.go (Contains) and geom/alg_point_in_ring.go (hasCrossing), as re-read from the
   Go source into Gen/Funcs.v on every run.  Carrier: Q ([qops]).  Every lemma is for all arguments.
   Where the model is written differently from the Go body the lemma says so.  An edited body in
   the Go source makes this file fail to compile. *)
From Coq Require Import ZArith QArith Qreduction Bool Lia Lqa List.
From SF Require Import Base.FOps Gen.Funcs Proofs.Funcs_tie_lib Base.QKernel Model.Validate.
From SF Require Proofs.Funcs_tie_QKernel.
Import ListNotations.
Open Scope Q_scope.

Definition gpt (p : pt) : geom_XY Q := Mk_geom_XY (fst p) (snd p).
Definition mpt (p : geom_XY Q) : pt := (geom_XY_X p, geom_XY_Y p).
Definition gln (s : seg) : geom_line Q := Mk_geom_line (gpt (fst s)) (gpt (snd s)).
(* threePointOrientation <-> comparison: Gt = leftTurn, Eq = collinear, Lt = rightTurn *)
Definition gcmp (c : comparison) : Z :=
  match c with Gt => geom_leftTurn | Eq => geom_collinear | Lt => geom_rightTurn end.

Ltac qtie := intros; destruct_pairs; qtie0.

(* geom/alg_orientation.go:orientation (a switch on cp > 0, cp < 0; the model takes the sign) *)
Lemma tie_orientation : forall p q s, geom_orientation qops (gpt p) (gpt q) (gpt s) = gcmp (orientation p q s).
Proof. first [ intros; unfold geom_orientation; cbv zeta; apply q_switch_sign | qtie ]. Qed.
Lemma gcmp_eqb : forall a b, Z.eqb (gcmp a) (gcmp b) = cmp_eqb a b.
Proof. intros [] []; reflexivity. Qed.
Lemma gcmp_is_eq : forall a, Z.eqb (gcmp a) geom_collinear = is_eq a.
Proof. intros []; reflexivity. Qed.
Lemma gcmp_is_lt : forall a, Z.eqb (gcmp a) geom_rightTurn = is_lt a.
Proof. intros []; reflexivity. Qed.

(* geom/xy.go:Less  (Go: if w.X != o.X {X <} else {Y <}; the model tests == and swaps the branches) *)
Lemma tie_xy_less : forall p q, geom_XY_Less qops (gpt p) (gpt q) = xy_less p q.
Proof. qtie. Qed.

(* geom/line.go:onSegment  (Go: r.X <= fastMax(p.X, q.X) && r.X >= fastMin(p.X, q.X) && the same
   in Y; the model: p.X <= r.X <= q.X or q.X <= r.X <= p.X, and the same in Y) *)
Lemma tie_onSegment : forall p q r, geom_onSegment qops (gpt p) (gpt q) (gpt r) = on_segment_bb p q r.
Proof. intros. apply Funcs_tie_QKernel.onSegment_between. Qed.

(* geom/line.go:uncheckedEnvelope + geom/type_envelope.go:Contains: the bounding box test of a
   line is the same test *)
Lemma tie_line_envelope_contains : forall a b p,
  geom_Envelope_Contains qops (geom_line_uncheckedEnvelope qops (gln (a, b))) (gpt p) = on_segment_bb a b p.
Proof. intros. apply Funcs_tie_QKernel.line_envelope_contains. Qed.

(* geom/alg_point_in_ring.go:hasCrossing *)
Lemma tie_hasCrossing : forall p ln, geom_hasCrossing qops (gpt p) (gln ln) = has_crossing p ln.
Proof.
  (* the structured proof follows the Go body statement by statement; should the body be rewritten
     into an equivalent one, the comparisons are decided case by case *)
  first
    [ intros p [a b];
     unfold geom_hasCrossing, has_crossing;
     rewrite tie_line_envelope_contains;
     cbn [gln fst snd geom_line_a geom_line_b];
     cbv zeta;
     change (f_gtb qops (geom_XY_Y (gpt a)) (geom_XY_Y (gpt b))) with (qltb (snd b) (snd a));
     destruct (qltb (snd b) (snd a)); rewrite tie_orientation, gcmp_is_eq, gcmp_is_lt; reflexivity
    | qtie ].
Qed.

(* geom/line.go:intersectLine.  The translation is partial: the block that picks the two middle
   points of four collinear ones (make / append / index arithmetic on a slice) is outside the
   fragment and stays covered by the hand-written [collinear_intersection] only.  On every other
   path the translated body and the model agree: the same case, the same points (the model
   normalises the constructed point with Qred, hence equality of points up to ==). *)
Definition il_agrees (g : partial (geom_lineWithLineIntersection Q)) (m : il) (in_collinear_block : bool) : Prop :=
  match g with
  | Known v =>
      in_collinear_block = false /\
      match m with
      | ILEmpty => geom_lineWithLineIntersection_empty v = true
      | ILSome x y => geom_lineWithLineIntersection_empty v = false /\
                      pt_eq (mpt (geom_lineWithLineIntersection_ptA v)) x /\
                      pt_eq (mpt (geom_lineWithLineIntersection_ptB v)) y
      end
  | Unknown _ => in_collinear_block = true
  end.
Lemma pt_eq_refl' p : pt_eq (mpt (gpt p)) p.
Proof. destruct p; split; reflexivity. Qed.
Lemma il_agrees_point g x :
  pt_eq (mpt g) x -> il_agrees (Known (Mk_geom_lineWithLineIntersection false g g)) (ILSome x x) false.
Proof. intro H. exact (conj eq_refl (conj eq_refl (conj H H))). Qed.
Lemma tie_intersectLine : forall a b c d,
  il_agrees (geom_line_intersectLine qops (gln (a, b)) (gln (c, d))) (intersect_line (a, b) (c, d))
    (is_eq (orientation a b c) && is_eq (orientation a b d)
     && negb (negb (on_segment_bb a b c) && negb (on_segment_bb a b d)
              && negb (on_segment_bb c d a) && negb (on_segment_bb c d b))).
Proof.
  intros a b c d.
  unfold geom_line_intersectLine, intersect_line, collinear_intersection.
  cbn [gln fst snd geom_line_a geom_line_b]. cbv zeta.
  rewrite !tie_orientation, !tie_onSegment, !gcmp_eqb, !gcmp_is_eq.
  generalize (orientation a b c), (orientation a b d), (orientation c d a), (orientation c d b).
  intros o1 o2 o3 o4.
  destruct (negb (cmp_eqb o1 o2) && negb (cmp_eqb o3 o4)) eqn:X.
  - (* o1 <> o2: c and d are not both on the line through a and b *)
    replace (is_eq o1 && is_eq o2) with false by (destruct o1, o2; (reflexivity || discriminate X)).
    destruct (is_eq o1); [apply il_agrees_point, pt_eq_refl'|].
    destruct (is_eq o2); [apply il_agrees_point, pt_eq_refl'|].
    destruct (is_eq o3); [apply il_agrees_point, pt_eq_refl'|].
    destruct (is_eq o4); [apply il_agrees_point, pt_eq_refl'|].
    apply il_agrees_point. split; cbn [mpt fst snd]; rewrite Qred_correct; reflexivity.
  - destruct (is_eq o1 && is_eq o2); [|split; reflexivity].
    destruct (on_segment_bb a b c); [reflexivity|]. destruct (on_segment_bb a b d); [reflexivity|].
    destruct (on_segment_bb c d a); [reflexivity|]. destruct (on_segment_bb c d b); [reflexivity|].
    split; reflexivity.
Qed.
