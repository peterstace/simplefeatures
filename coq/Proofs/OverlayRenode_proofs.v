(* Lemmas about Model/OverlayRenode.v: the exact re-noding preserves point sets (T1) and produces a
   fully noded arrangement (T2).  Statements are collected in Props/C01_renode.v. *)
From Coq Require Import QArith Qreduction List Bool ZArith Lia Lqa Arith Sorted Permutation Setoid Morphisms.
From SF Require Import Base.GeomAST Base.QKernel Base.Planar Model.OverlayRenode.
Import ListNotations.
Open Scope Q_scope.

(* ================================================================ insertion sort *)
Section ISortP.
  Variable A : Type.
  Variable less : A -> A -> bool.
  Variable R : A -> A -> Prop.
  Variable P : A -> Prop.
  Hypothesis R_trans : forall x y z, R x y -> R y z -> R x z.
  Hypothesis less_R : forall x y, P x -> P y -> (less x y = true -> R x y) /\ (less x y = false -> R y x).

  Lemma ins_in x l y : In y (ins less x l) <-> y = x \/ In y l.
  Proof.
    induction l as [|z l IH]; simpl; [intuition|].
    destruct (less x z); simpl; [intuition|]. rewrite IH. intuition.
  Qed.
  Lemma isort_in l y : In y (isort less l) <-> In y l.
  Proof. induction l as [|z l IH]; simpl; [tauto|]. rewrite ins_in, IH. intuition. Qed.

  Lemma ins_sorted x l : P x -> Forall P l -> StronglySorted R l -> StronglySorted R (ins less x l).
  Proof.
    intros Px Pl Hs. induction l as [|z l IH]; simpl.
    - constructor; constructor.
    - inversion Pl as [|? ? Pz Pl']; subst. inversion Hs as [|? ? Hs' Hz]; subst.
      destruct (less x z) eqn:E.
      + apply (less_R x z Px Pz) in E. constructor; [exact Hs|]. constructor; [exact E|].
        apply Forall_forall. intros y Hy. rewrite Forall_forall in Hz. exact (R_trans x z y E (Hz y Hy)).
      + constructor; [apply IH; auto|].
        apply Forall_forall. intros y Hy. apply ins_in in Hy. destruct Hy as [->|Hy].
        * apply (less_R x z Px Pz), E.
        * rewrite Forall_forall in Hz. auto.
  Qed.
  Lemma isort_sorted l : Forall P l -> StronglySorted R (isort less l).
  Proof.
    induction l as [|z l IH]; simpl; intros H; [constructor|].
    apply Forall_cons_iff in H. destruct H as [Hz Hl]. apply ins_sorted; [exact Hz | | apply IH; exact Hl].
    apply Forall_forall. intros y Hy. apply (proj1 (isort_in _ _)) in Hy. rewrite Forall_forall in Hl. apply Hl. exact Hy.
  Qed.
End ISortP.

(* ================================================================ uniquifyGroupedXYs *)
Lemma uniq_grouped_in l z : In z (uniq_grouped l) -> In z l.
Proof.
  induction l as [|x r IH]; simpl; [tauto|].
  destruct r as [|y r']; [simpl; tauto|].
  destruct (pt_eqb x y).
  - intros H. right. apply IH. exact H.
  - intros [->|H]; [left; reflexivity | right; apply IH; exact H].
Qed.
Lemma uniq_grouped_keeps l z : In z l -> exists z', In z' (uniq_grouped l) /\ pt_eq z' z.
Proof.
  revert z. induction l as [|x r IH]; [simpl; tauto|].
  intros z Hin. cbn [uniq_grouped]. destruct r as [|y r'].
  - destruct Hin as [->|[]]. exists z. split; [left; reflexivity | reflexivity].
  - destruct (pt_eqb x y) eqn:E.
    + destruct Hin as [->|Hin].
      * apply pt_eqb_iff in E. destruct (IH y (or_introl eq_refl)) as [z' [H1 H2]].
        exists z'. split; [exact H1|]. etransitivity; [exact H2 | symmetry; exact E].
      * apply IH. exact Hin.
    + destruct Hin as [->|Hin].
      * exists z. split; [left; reflexivity | reflexivity].
      * destruct (IH z Hin) as [z' [H1 H2]]. exists z'. split; [right; exact H1 | exact H2].
Qed.

(* ================================================================ points of a line by parameter *)
Definition at_param (a b p : pt) (t : Q) : Prop :=
  fst p == fst a + t * (fst b - fst a) /\ snd p == snd a + t * (snd b - snd a).

(* the parameter of the orthogonal projection of p on the line a b *)
Definition tpar (a b p : pt) : Q :=
  ((fst p - fst a) * (fst b - fst a) + (snd p - snd a) * (snd b - snd a)) / rn_dist2 a b.

Lemma qsq_nonneg x : 0 <= x * x.
Proof. destruct (Qlt_le_dec x 0); nra. Qed.
Lemma qsq_pos x : ~ x == 0 -> 0 < x * x.
Proof. intros H. destruct (Q_dec x 0) as [[L|G]|E]; [nra | nra | tauto]. Qed.
Lemma dist2_pos a b : ~ pt_eq a b -> 0 < rn_dist2 a b.
Proof.
  unfold pt_eq, rn_dist2. intros H.
  pose proof (qsq_nonneg (fst b - fst a)) as S1. pose proof (qsq_nonneg (snd b - snd a)) as S2.
  destruct (Qeq_dec (fst a) (fst b)) as [E1|N1].
  - destruct (Qeq_dec (snd a) (snd b)) as [E2|N2]; [tauto|].
    assert (0 < (snd b - snd a) * (snd b - snd a)) by (apply qsq_pos; lra). lra.
  - assert (0 < (fst b - fst a) * (fst b - fst a)) by (apply qsq_pos; lra). lra.
Qed.

Lemma at_param_tpar a b p t : ~ pt_eq a b -> at_param a b p t -> tpar a b p == t.
Proof.
  intros Hne [Hx Hy]. pose proof (dist2_pos a b Hne) as Hp.
  unfold tpar. apply Qdiv_mult_eq; [lra|]. unfold rn_dist2 in *. rewrite Hx, Hy. ring.
Qed.

Lemma on_seg_at_param a b p :
  ~ pt_eq a b -> on_seg (a, b) p = true -> 0 <= tpar a b p <= 1 /\ at_param a b p (tpar a b p).
Proof.
  intros Hne H. apply on_seg_iff in H. destruct H as [t [Ht [Hx Hy]]].
  assert (E : tpar a b p == t) by (apply at_param_tpar; [exact Hne | split; assumption]).
  unfold at_param. rewrite E. tauto.
Qed.

Lemma at_param_on_seg a b p t : 0 <= t <= 1 -> at_param a b p t -> on_seg (a, b) p = true.
Proof. intros Ht [Hx Hy]. apply on_seg_iff. exists t. split; [exact Ht | split; assumption]. Qed.

Lemma at_param_0 a b : at_param a b a 0.
Proof. split; ring. Qed.
Lemma at_param_1 a b : at_param a b b 1.
Proof. split; ring. Qed.

Lemma at_param_eq a b p q t u :
  ~ pt_eq a b -> at_param a b p t -> at_param a b q u -> (pt_eq p q <-> t == u).
Proof.
  intros Hne Pp [Hx' Hy']. split.
  - intros [E1 E2]. rewrite <- (at_param_tpar a b p t Hne Pp). apply (at_param_tpar a b p u Hne).
    split; [rewrite E1 | rewrite E2]; assumption.
  - destruct Pp as [Hx Hy]. intros E. split; [rewrite Hx, Hx' | rewrite Hy, Hy']; rewrite E; reflexivity.
Qed.

Lemma at_param_dist2 a b p t : at_param a b p t -> rn_dist2 a p == t * t * rn_dist2 a b.
Proof. intros [Hx Hy]. unfold rn_dist2. rewrite Hx, Hy. ring. Qed.

Lemma at_param_between a b u w x tu tw l :
  at_param a b u tu -> at_param a b w tw -> seg_param u w x l -> at_param a b x (tu + l * (tw - tu)).
Proof.
  intros [Hux Huy] [Hwx Hwy] [_ [Hx Hy]]. split; [rewrite Hx, Hux, Hwx | rewrite Hy, Huy, Hwy]; ring.
Qed.

Lemma cross_of_params a b u w x tu tw tx :
  at_param a b u tu -> at_param a b w tw -> at_param a b x tx -> cross u w x == 0.
Proof. intros [H1 H2] [H3 H4] [H5 H6]. unfold cross. rewrite H1, H2, H3, H4, H5, H6. ring. Qed.

Lemma affine_between c d tu tw tx : (tu <= tx <= tw \/ tw <= tx <= tu) ->
  (c + tu * d <= c + tx * d <= c + tw * d) \/ (c + tw * d <= c + tx * d <= c + tu * d).
Proof. intros H. destruct (Qlt_le_dec d 0); destruct H as [[H1 H2]|[H1 H2]]; [right | left | left | right]; split; nra. Qed.

(* membership in a sub-segment of the line, by parameters *)
Lemma on_seg_params a b u w x tu tw tx :
  ~ pt_eq a b -> at_param a b u tu -> at_param a b w tw -> at_param a b x tx ->
  (on_seg (u, w) x = true <-> (tu <= tx <= tw \/ tw <= tx <= tu)).
Proof.
  intros Hne Pu Pw Px. split.
  - intros H. apply on_seg_iff in H. destruct H as [l Hl].
    pose proof (at_param_between a b u w x tu tw l Pu Pw Hl) as Px'.
    assert (E : tx == tu + l * (tw - tu)) by (apply (at_param_eq a b x x _ _ Hne Px Px'); reflexivity).
    destruct Hl as [[L0 L1] _]. destruct (Qlt_le_dec tu tw); [left | right]; nra.
  - intros H. unfold on_seg. rewrite !andb_true_iff, !qbetween_iff, Qeq_bool_iff.
    split; [|exact (cross_of_params a b u w x tu tw tx Pu Pw Px)].
    destruct Pu as [Hux Huy], Pw as [Hwx Hwy], Px as [Hxx Hxy]. cbn [fst snd].
    split; [rewrite Hux, Hwx, Hxx | rewrite Huy, Hwy, Hxy]; apply affine_between; exact H.
Qed.

Lemma ring_edges_cons2 (p q : pt) r : ring_edges (p :: q :: r) = (p, q) :: ring_edges (q :: r).
Proof. reflexivity. Qed.
Lemma ring_edges_in (vs : list pt) u w : In (u, w) (ring_edges vs) -> In u vs /\ In w vs.
Proof.
  induction vs as [|p r IH]; [simpl; tauto|].
  destruct r as [|q r']; [simpl; tauto|].
  cbn [ring_edges]. intros [E|H].
  - inversion E; subst. split; [left; reflexivity | right; left; reflexivity].
  - destruct (IH H) as [H1 H2]. split; right; assumption.
Qed.

Lemma last_nonempty_irrel {A} (l : list A) d d' : l <> [] -> last l d = last l d'.
Proof. destruct l as [|x r]; [congruence|]. intros _. rewrite !last_cons_default. reflexivity. Qed.

Lemma Qeq_div_param x n d e : 0 < d -> x * d == n * e -> x == n / d * e.
Proof. intros Hd H. apply (Qmult_inj_r _ _ d); [lra|]. rewrite H. field. lra. Qed.

(* |b-a|^2 (v-a) - ((v-a).(b-a)) (b-a) is cross a b v times the normal of b-a *)
Lemma line_param a b v : ~ pt_eq a b -> cross a b v == 0 -> at_param a b v (tpar a b v).
Proof.
  intros Hne Hc. pose proof (dist2_pos a b Hne) as L.
  assert (Kx : fst v - fst a == tpar a b v * (fst b - fst a)).
  { apply Qeq_div_param; [exact L|]. unfold rn_dist2.
    transitivity (((fst v - fst a) * (fst b - fst a) + (snd v - snd a) * (snd b - snd a)) * (fst b - fst a)
                  - (snd b - snd a) * cross a b v); [unfold cross; ring | rewrite Hc; ring]. }
  assert (Ky : snd v - snd a == tpar a b v * (snd b - snd a)).
  { apply Qeq_div_param; [exact L|]. unfold rn_dist2.
    transitivity (((fst v - fst a) * (fst b - fst a) + (snd v - snd a) * (snd b - snd a)) * (snd b - snd a)
                  + (fst b - fst a) * cross a b v); [unfold cross; ring | rewrite Hc; ring]. }
  split; lra.
Qed.

Definition is_vert (cutf : seg -> list pt) (s : seg) (p : pt) : Prop :=
  exists v, In v (line_verts cutf s) /\ pt_eq v p.

(* ================================================================ one line, its vertices by parameter *)
Section OnLine.
  Variables a b : pt.
  Hypothesis Hne : ~ pt_eq a b.
  Let T := tpar a b.
  Let onab (p : pt) : Prop := on_seg (a, b) p = true.

  Lemma T_a : T a == 0.
  Proof. apply at_param_tpar; [exact Hne | apply at_param_0]. Qed.
  Lemma T_b : T b == 1.
  Proof. apply at_param_tpar; [exact Hne | apply at_param_1]. Qed.
  Lemma T_spec p : onab p -> 0 <= T p <= 1 /\ at_param a b p (T p).
  Proof. apply on_seg_at_param. exact Hne. Qed.


  Local Notation onl p := (cross a b p == 0).
  Local Hint Resolve on_seg_cross : core.

  Lemma piece_by_T u w x : onl u -> onl w -> onl x ->
    (on_seg (u, w) x = true <-> (T u <= T x <= T w \/ T w <= T x <= T u)).
  Proof. intros Hu Hw Hx. apply (on_seg_params a b); [exact Hne | apply line_param; assumption ..]. Qed.
  Lemma T_eq p q : onl p -> onl q -> (pt_eq p q <-> T p == T q).
  Proof. intros Hp Hq. apply (at_param_eq a b); [exact Hne | apply line_param; assumption ..]. Qed.
  Lemma line_points_collinear u w x : onl u -> onl w -> onl x -> cross u w x == 0.
  Proof. intros Hu Hw Hx. apply (cross_of_params a b u w x (T u) (T w) (T x)); apply line_param; assumption. Qed.

  Lemma sub_segment u w x : onab u -> onab w -> on_seg (u, w) x = true -> onab x.
  Proof.
    intros Hu Hw Hx. destruct (T_spec u Hu) as [Bu Pu]. destruct (T_spec w Hw) as [Bw Pw].
    apply on_seg_iff in Hx. destruct Hx as [l Hl].
    apply (at_param_on_seg a b x (T u + l * (T w - T u))); [|exact (at_param_between a b u w x _ _ l Pu Pw Hl)].
    destruct Hl as [[L0 L1] _]. split; nra.
  Qed.

  Definition T_le (p q : pt) : Prop := T p <= T q.
  Definition T_lt (p q : pt) : Prop := T p < T q.

  (* going along the list, the first vertex not before x ends a piece that holds x *)
  Lemma pieces_cover vs : forall u, Forall onab (u :: vs) -> vs <> [] ->
    forall x, onab x -> T u <= T x <= T (last vs u) ->
    exists s, In s (ring_edges (u :: vs)) /\ on_seg s x = true.
  Proof.
    induction vs as [|w r IH]; intros u Hon Hnn x Hx [B1 B2]; [congruence|].
    apply Forall_cons_iff in Hon. destruct Hon as [Hu Hon].
    pose proof Hon as Hon'. apply Forall_cons_iff in Hon'. destruct Hon' as [Hw _].
    destruct (Qlt_le_dec (T w) (T x)) as [L|L].
    - destruct r as [|w2 r'].
      + simpl in B2. lra.
      + destruct (IH w Hon ltac:(discriminate) x Hx) as [s [Hin Hos]].
        * split; [lra|]. rewrite (last_nonempty_irrel (w2 :: r') w u) by discriminate. exact B2.
        * exists s. split; [right; exact Hin | exact Hos].
    - exists (u, w). split; [left; reflexivity|]. apply piece_by_T; auto.
  Qed.

  Lemma pieces_sub vs u w x : Forall onab vs -> In (u, w) (ring_edges vs) -> on_seg (u, w) x = true -> onab x.
  Proof.
    intros Hon Hin Hx. destruct (ring_edges_in _ _ _ Hin) as [H1 H2]. rewrite Forall_forall in Hon.
    apply (sub_segment u w x); [apply Hon; exact H1 | apply Hon; exact H2 | exact Hx].
  Qed.

  (* consecutive vertices of a strictly monotone list: no other vertex between them *)
  Lemma sorted_adjacent vs u w : StronglySorted T_lt vs -> In (u, w) (ring_edges vs) ->
    T u < T w /\ forall v, In v vs -> T v <= T u \/ T w <= T v.
  Proof.
    induction vs as [|p r IH]; [simpl; tauto|].
    intros Hs Hin. apply StronglySorted_inv in Hs. destruct Hs as [Hs Hall]. rewrite Forall_forall in Hall.
    destruct r as [|q r']; [simpl in Hin; tauto|].
    rewrite ring_edges_cons2 in Hin. destruct Hin as [E|Hin].
    - inversion E; subst. split; [apply Hall; left; reflexivity|].
      intros v [->|[->|Hv]]; [left; lra | right; lra |].
      apply StronglySorted_inv in Hs. destruct Hs as [_ Hq]. rewrite Forall_forall in Hq.
      right. specialize (Hq v Hv). unfold T_lt in Hq. lra.
    - destruct (IH Hs Hin) as [H1 H2]. split; [exact H1|].
      intros v [->|Hv]; [|apply H2; exact Hv].
      destruct (ring_edges_in _ _ _ Hin) as [Hu _]. specialize (Hall u Hu). unfold T_lt in Hall. left. lra.
  Qed.

  Lemma no_vertex_inside vs u w v : Forall onab vs -> StronglySorted T_lt vs ->
    In (u, w) (ring_edges vs) -> In v vs -> on_seg (u, w) v = true -> pt_eq v u \/ pt_eq v w.
  Proof.
    intros Hon Hs Hin Hv Hos. destruct (sorted_adjacent vs u w Hs Hin) as [Hlt Hout].
    destruct (ring_edges_in _ _ _ Hin) as [Hu Hw].
    assert (Ol : forall z, In z vs -> onl z) by (rewrite Forall_forall in Hon; intros z Hz; apply on_seg_cross, Hon, Hz).
    apply piece_by_T in Hos; auto.
    destruct (Hout v Hv) as [H|H]; [left | right]; apply T_eq; auto; lra.
  Qed.

  (* the comparator of reNodeLineString orders points of the line by their parameter *)
  Lemma cut_less_T p q : onab p -> onab q ->
    (cut_less a p q = true -> T p <= T q) /\ (cut_less a p q = false -> T q <= T p).
  Proof.
    intros Hp Hq. destruct (T_spec p Hp) as [[P0 P1] Pp]. destruct (T_spec q Hq) as [[Q0 Q1] Pq].
    pose proof (at_param_dist2 a b p _ Pp) as Dp. pose proof (at_param_dist2 a b q _ Pq) as Dq.
    pose proof (dist2_pos a b Hne) as L.
    unfold cut_less. destruct (Qeq_bool (rn_dist2 a p) (rn_dist2 a q)) eqn:E.
    - apply Qeq_bool_iff in E. rewrite Dp, Dq in E.
      assert (K : (T p - T q) * ((T p + T q) * rn_dist2 a b) == 0) by nra.
      apply Qmult_integral in K. destruct K as [K|K]; [split; intros; lra|].
      apply Qmult_integral in K. destruct K as [K|K]; [|lra]. split; intros; lra.
    - apply Qeq_bool_false_iff in E. split; intros H.
      + apply qltb_iff in H. rewrite Dp, Dq in H.
        destruct (Qlt_le_dec (T q) (T p)) as [G|G]; [|exact G]. exfalso.
        assert (T q * T q <= T p * T p) by nra. nra.
      + apply qltb_false_iff in H. rewrite Dp, Dq in H.
        destruct (Qlt_le_dec (T p) (T q)) as [G|G]; [|exact G]. exfalso.
        assert (T p * T p < T q * T q) by nra. nra.
  Qed.

  Lemma T_le_trans x y z : T_le x y -> T_le y z -> T_le x z.
  Proof. unfold T_le. intros. lra. Qed.

  Lemma isort_cuts_sorted l : Forall onab l -> StronglySorted T_le (isort (cut_less a) l).
  Proof. exact (isort_sorted pt (cut_less a) T_le onab T_le_trans cut_less_T l). Qed.

  Lemma uniq_strict l : Forall onab l -> StronglySorted T_le l -> StronglySorted T_lt (uniq_grouped l).
  Proof.
    induction l as [|x r IH]; intros Hon Hs; [constructor|].
    apply Forall_cons_iff in Hon. destruct Hon as [Hx Hon].
    apply StronglySorted_inv in Hs. destruct Hs as [Hs Hall].
    cbn [uniq_grouped]. destruct r as [|y r'].
    - constructor; constructor.
    - destruct (pt_eqb x y) eqn:E; [apply IH; assumption|].
      constructor; [apply IH; assumption|].
      apply Forall_forall. intros z Hz. apply uniq_grouped_in in Hz.
      pose proof Hon as Hon'. apply Forall_cons_iff in Hon'. destruct Hon' as [Hy _].
      apply pt_eqb_false_iff in E.
      assert (Lxy : T x < T y).
      { rewrite Forall_forall in Hall. specialize (Hall y (or_introl eq_refl)). unfold T_le in Hall.
        destruct (Qeq_dec (T x) (T y)) as [Q|Q]; [|lra]. exfalso. apply E. apply T_eq; auto. }
      unfold T_lt. destruct Hz as [->|Hz]; [exact Lxy|].
      apply StronglySorted_inv in Hs. destruct Hs as [_ Hy2]. rewrite Forall_forall in Hy2.
      specialize (Hy2 z Hz). unfold T_le in Hy2. lra.
  Qed.

  (* -------- the vertices a line is replaced by *)
  Variable cutf : seg -> list pt.
  Hypothesis cuts_on : forall c, In c (cutf (a, b)) -> on_seg (a, b) c = true /\ has_endpoint (a, b) c = false.

  Lemma sorted_cuts_on c : In c (sorted_cuts cutf (a, b)) -> onab c /\ has_endpoint (a, b) c = false.
  Proof.
    unfold sorted_cuts. cbn [fst]. intros H. apply uniq_grouped_in in H.
    apply (proj1 (isort_in _ _ _ _)) in H. apply cuts_on. exact H.
  Qed.
  Lemma sorted_cuts_strict : StronglySorted T_lt (sorted_cuts cutf (a, b)).
  Proof.
    unfold sorted_cuts. cbn [fst].
    assert (Hon : Forall onab (isort (cut_less a) (cutf (a, b)))).
    { apply Forall_forall. intros c Hc. apply (proj1 (isort_in _ _ _ _)) in Hc. apply cuts_on. exact Hc. }
    apply uniq_strict; [exact Hon|]. apply isort_cuts_sorted.
    apply Forall_forall. intros c Hc. apply cuts_on. exact Hc.
  Qed.
  Lemma cut_T_strict c : In c (sorted_cuts cutf (a, b)) -> 0 < T c < 1.
  Proof.
    intros H. destruct (sorted_cuts_on c H) as [Hon He]. destruct (T_spec c Hon) as [[B0 B1] _].
    unfold has_endpoint in He. cbn [fst snd] in He. apply orb_false_iff in He. destruct He as [E1 E2].
    apply pt_eqb_false_iff in E1, E2.
    assert (Ha : onab a) by apply on_seg_left. assert (Hb : onab b) by apply on_seg_right.
    split.
    - destruct (Qeq_dec (T c) 0) as [Q|Q]; [|lra]. exfalso. apply E1. apply T_eq; auto. rewrite T_a, Q. reflexivity.
    - destruct (Qeq_dec (T c) 1) as [Q|Q]; [|lra]. exfalso. apply E2. apply T_eq; auto. rewrite T_b, Q. reflexivity.
  Qed.

  Lemma line_verts_on : Forall onab (line_verts cutf (a, b)).
  Proof.
    unfold line_verts. cbn [fst snd]. apply Forall_forall. intros v [<-|Hv]; [apply on_seg_left|].
    apply in_app_or in Hv. destruct Hv as [Hv|[<-|[]]]; [apply sorted_cuts_on; exact Hv | apply on_seg_right].
  Qed.

  Lemma sorted_app_last (l : list pt) z : StronglySorted T_lt l -> (forall c, In c l -> T_lt c z) ->
    StronglySorted T_lt (l ++ [z]).
  Proof.
    induction l as [|x r IH]; intros Hs Hz; simpl; [constructor; constructor|].
    apply StronglySorted_inv in Hs. destruct Hs as [Hs Hall]. constructor.
    - apply IH; [exact Hs|]. intros c Hc. apply Hz. right. exact Hc.
    - apply Forall_forall. intros c Hc. apply in_app_or in Hc. destruct Hc as [Hc|[<-|[]]].
      + rewrite Forall_forall in Hall. apply Hall. exact Hc.
      + apply Hz. left. reflexivity.
  Qed.

  (* T1, monotone part: the vertices are strictly ordered along the line *)
  Lemma line_verts_strict : StronglySorted T_lt (line_verts cutf (a, b)).
  Proof.
    unfold line_verts. cbn [fst snd]. constructor.
    - apply sorted_app_last; [apply sorted_cuts_strict|].
      intros c Hc. unfold T_lt. rewrite T_b. apply cut_T_strict. exact Hc.
    - apply Forall_forall. intros c Hc. unfold T_lt. rewrite T_a.
      apply in_app_or in Hc. destruct Hc as [Hc|[<-|[]]]; [apply cut_T_strict; exact Hc | rewrite T_b; lra].
  Qed.

  (* T1, point set part *)
  Lemma line_pieces_cover x :
    (exists s, In s (line_pieces cutf (a, b)) /\ on_seg s x = true) <-> on_seg (a, b) x = true.
  Proof.
    unfold line_pieces. split.
    - intros [[u w] [Hin Hos]]. eapply pieces_sub; [apply line_verts_on | exact Hin | exact Hos].
    - intros Hx. unfold line_verts. cbn [fst snd].
      apply (pieces_cover (sorted_cuts cutf (a, b) ++ [b]) a).
      + apply line_verts_on.
      + destruct (sorted_cuts cutf (a, b)); discriminate.
      + exact Hx.
      + rewrite last_last, T_a, T_b. apply T_spec. exact Hx.
  Qed.

  (* pieces are non-degenerate *)
  Lemma line_pieces_nondeg u w : In (u, w) (line_pieces cutf (a, b)) -> ~ pt_eq u w.
  Proof.
    intros Hin E. destruct (sorted_adjacent _ u w line_verts_strict Hin) as [Hlt _].
    destruct (ring_edges_in _ _ _ Hin) as [Hu Hw]. pose proof line_verts_on as Hon. rewrite Forall_forall in Hon.
    apply T_eq in E; [lra | apply on_seg_cross, Hon; assumption ..].
  Qed.

  Lemma line_piece_end P v : In P (line_pieces cutf (a, b)) -> is_vert cutf (a, b) v -> on_seg P v = true ->
    pt_eq v (fst P) \/ pt_eq v (snd P).
  Proof.
    destruct P as [u w]. intros HP [v' [Hv' Ev']] Hon. cbn [fst snd].
    rewrite <- (on_seg_proper u w v' u w v) in Hon by (reflexivity || exact Ev'). rewrite <- Ev'.
    exact (no_vertex_inside (line_verts cutf (a, b)) u w v' line_verts_on line_verts_strict HP Hv' Hon).
  Qed.
End OnLine.

(* ================================================================ more about the kernel's seg_seg *)
Definition collin (s t : seg) : Prop := cross (fst s) (snd s) (fst t) == 0 /\ cross (fst s) (snd s) (snd t) == 0.
Lemma collin_dec s t : {collin s t} + {~ collin s t}.
Proof.
  unfold collin. destruct (Qeq_dec (cross (fst s) (snd s) (fst t)) 0); [|right; tauto].
  destruct (Qeq_dec (cross (fst s) (snd s) (snd t)) 0); [left; tauto | right; tauto].
Qed.

(* every point of a segment collinear with s lies on the line of s *)
Lemma collin_on_line s t p : collin s t -> on_seg t p = true -> cross (fst s) (snd s) p == 0.
Proof.
  destruct s as [a b], t as [c d]. unfold collin. cbn [fst snd]. intros [H1 H2] Hp.
  apply on_seg_iff in Hp. destruct Hp as [l [_ [Hx Hy]]].
  rewrite (cross_along a b c d p l Hx Hy), H1, H2. ring.
Qed.

Lemma collin_sub s t P Q : ~ pt_eq (fst s) (snd s) -> collin s t ->
  on_seg s (fst P) = true -> on_seg s (snd P) = true -> on_seg t (fst Q) = true -> on_seg t (snd Q) = true ->
  collin P Q.
Proof.
  destruct s as [a b]. cbn [fst snd]. intros Ns Hc Hp1 Hp2 Hq1 Hq2. apply on_seg_cross in Hp1, Hp2.
  apply (collin_on_line (a, b) t _ Hc) in Hq1, Hq2. split; apply (line_points_collinear a b Ns); assumption.
Qed.

Lemma collin_sym s t : ~ pt_eq (fst s) (snd s) -> collin s t -> collin t s.
Proof.
  destruct s as [a b], t as [c d]. unfold collin. cbn [fst snd]. intros Hne [H1 H2].
  apply collinear_swap; assumption.
Qed.

(* two non-collinear non-degenerate segments have at most one common point *)
Lemma common_point_unique s t p q :
  ~ pt_eq (fst s) (snd s) -> ~ pt_eq (fst t) (snd t) -> ~ collin s t ->
  on_seg s p = true -> on_seg t p = true -> on_seg s q = true -> on_seg t q = true -> pt_eq p q.
Proof.
  destruct s as [a b], t as [c d]. cbn [fst snd]. intros Hab Hcd Hnc Hsp Htp Hsq Htq.
  destruct (pt_eqb p q) eqn:E; [apply pt_eqb_iff; exact E|]. apply pt_eqb_false_iff in E.
  (* otherwise both lines are the line p q *)
  exfalso. apply Hnc. apply on_seg_cross in Hsp, Htp, Hsq, Htq.
  destruct (collinear_swap p q a b Hab Hsp Hsq) as [Ha Hb]. destruct (collinear_swap p q c d Hcd Htp Htq) as [Hc Hd].
  split; apply (line_points_collinear p q E); assumption.
Qed.

Lemma common_point_lo_hi a b c d p : on_seg (a, b) p = true -> on_seg (c, d) p = true ->
  pt_le (pt_max (pt_min a b) (pt_min c d)) p /\ pt_le p (pt_min (pt_max a b) (pt_max c d)).
Proof.
  intros Hs Ht. destruct (on_seg_lex a b p Hs). destruct (on_seg_lex c d p Ht).
  split; [apply pt_max_lub | apply pt_min_glb]; assumption.
Qed.
Lemma end_min_or_max a b v : v = a \/ v = b -> pt_le v (pt_min a b) \/ pt_le (pt_max a b) v.
Proof.
  assert (R : forall p, pt_le p p) by (intros p; apply pt_le_refl; reflexivity).
  intros [->| ->]; destruct (pt_le_total a b) as [L|L];
    [left; apply pt_min_glb | right; apply pt_max_lub | right; apply pt_max_lub | left; apply pt_min_glb]; auto.
Qed.
Lemma squeezed_end m M lo hi v : pt_le lo v -> pt_le v hi -> pt_le m lo -> pt_le hi M ->
  pt_le v m \/ pt_le M v -> pt_eq lo v \/ pt_eq hi v.
Proof.
  intros L1 L2 Hm HM [H|H]; [left | right]; apply pt_le_antisym; try assumption.
  - exact (pt_le_trans _ _ _ H Hm).
  - exact (pt_le_trans _ _ _ HM H).
Qed.

(* the three shapes of seg_seg on non-degenerate segments *)
Lemma seg_seg_shape a b c d : ~ pt_eq a b -> ~ pt_eq c d ->
  let lo := pt_max (pt_min a b) (pt_min c d) in
  let hi := pt_min (pt_max a b) (pt_max c d) in
  (collin (a, b) (c, d) /\
   seg_seg (a, b) (c, d) = (if pt_eqb lo hi then SSPoint lo else if pt_leb lo hi then SSOverlap lo hi else SSEmpty)) \/
  (~ collin (a, b) (c, d) /\ forall p q, seg_seg (a, b) (c, d) <> SSOverlap p q).
Proof.
  intros Hab Hcd lo hi.
  assert (Hcc : collin (a, b) (c, d) <-> collin (c, d) (a, b)) by (split; apply collin_sym; assumption).
  rewrite Hcc. unfold collin, seg_seg. cbn [fst snd].
  apply pt_eqb_false_iff in Hab. apply pt_eqb_false_iff in Hcd. rewrite Hab, Hcd. cbv zeta.
  destruct (Qeq_bool (cross c d a - cross c d b) 0) eqn:Eden.
  - apply Qeq_bool_iff in Eden. destruct (Qeq_bool (cross c d a) 0) eqn:E3.
    + apply Qeq_bool_iff in E3. left. split; [split; lra | reflexivity].
    + apply Qeq_bool_false_iff in E3. right. split; [tauto | discriminate].
  - apply Qeq_bool_false_iff in Eden. right. split; [intros [H1 H2]; lra|].
    intros p q. match goal with |- context [if ?c then _ else _] => destruct c end; discriminate.
Qed.

Lemma seg_seg_point_unique s t x p :
  ~ pt_eq (fst s) (snd s) -> ~ pt_eq (fst t) (snd t) ->
  seg_seg s t = SSPoint x -> on_seg s p = true -> on_seg t p = true -> pt_eq p x.
Proof.
  destruct s as [a b], t as [c d]. cbn [fst snd]. intros Hab Hcd E Hs Ht.
  assert (Hx : on_seg (a, b) x = true /\ on_seg (c, d) x = true).
  { apply seg_seg_sound. rewrite E. left. reflexivity. }
  destruct (seg_seg_shape a b c d Hab Hcd) as [[Hcol Esh]|[Hnc _]].
  - rewrite E in Esh.
    set (lo := pt_max (pt_min a b) (pt_min c d)) in *. set (hi := pt_min (pt_max a b) (pt_max c d)) in *.
    destruct (pt_eqb lo hi) eqn:Elh; [|destruct (pt_leb lo hi); discriminate].
    inversion Esh; subst x. apply pt_eqb_iff in Elh.
    destruct (common_point_lo_hi a b c d p Hs Ht) as [Llo Lhi].
    apply pt_le_antisym; [|exact Llo]. eapply pt_le_trans; [exact Lhi | apply pt_le_refl; symmetry; exact Elh].
  - apply (common_point_unique (a, b) (c, d)); cbn [fst snd]; tauto.
Qed.

(* second clause of [isect_ok] (defined below) *)
Lemma seg_seg_noncollinear s t p :
  ~ pt_eq (fst s) (snd s) -> ~ pt_eq (fst t) (snd t) -> ~ collin s t ->
  on_seg s p = true -> on_seg t p = true -> exists x, In x (ssr_points (seg_seg s t)) /\ pt_eq x p.
Proof.
  intros Hs Ht Hnc Hsp Htp. pose proof (seg_seg_complete s t p Hsp Htp) as Hne.
  destruct (seg_seg s t) as [|x|lo hi] eqn:E; [congruence| |].
  - exists x. split; [left; reflexivity|]. symmetry. exact (seg_seg_point_unique s t x p Hs Ht E Hsp Htp).
  - exfalso. destruct s as [a b], t as [c d]. cbn [fst snd] in *.
    destruct (seg_seg_shape a b c d Hs Ht) as [[Hcol _]|[_ Hno]]; [exact (Hnc Hcol) | exact (Hno _ _ E)].
Qed.

(* third clause of [isect_ok] *)
Lemma seg_seg_collinear_end s t v :
  ~ pt_eq (fst s) (snd s) -> ~ pt_eq (fst t) (snd t) -> collin s t ->
  ((v = fst t \/ v = snd t) /\ on_seg s v = true) \/ ((v = fst s \/ v = snd s) /\ on_seg t v = true) ->
  exists x, In x (ssr_points (seg_seg s t)) /\ pt_eq x v.
Proof.
  destruct s as [a b], t as [c d]. cbn [fst snd]. intros Hab Hcd Hcol Hv.
  assert (Hboth : on_seg (a, b) v = true /\ on_seg (c, d) v = true).
  { destruct Hv as [[[->| ->] H]|[[->| ->] H]]; split; try exact H;
      first [apply on_seg_left | apply on_seg_right]. }
  destruct Hboth as [Hsv Htv].
  pose proof (seg_seg_complete (a, b) (c, d) v Hsv Htv) as Hne.
  destruct (seg_seg_shape a b c d Hab Hcd) as [[_ Esh]|[Hnc _]]; [|contradiction].
  set (lo := pt_max (pt_min a b) (pt_min c d)) in *. set (hi := pt_min (pt_max a b) (pt_max c d)) in *.
  destruct (common_point_lo_hi a b c d v Hsv Htv) as [Llo Lhi]. fold lo hi in Llo, Lhi.
  (* v is the least or the greatest point of its own segment, hence beyond lo or hi, hence equal to it *)
  assert (Hlh : pt_eq lo v \/ pt_eq hi v).
  { destruct Hv as [[Hvc _]|[Hva _]].
    - exact (squeezed_end _ _ lo hi v Llo Lhi (pt_max_ge_r _ _) (pt_min_le_r _ _) (end_min_or_max c d v Hvc)).
    - exact (squeezed_end _ _ lo hi v Llo Lhi (pt_max_ge_l _ _) (pt_min_le_l _ _) (end_min_or_max a b v Hva)). }
  rewrite Esh in *. destruct (pt_eqb lo hi) eqn:Elh.
  - apply pt_eqb_iff in Elh. exists lo. split; [left; reflexivity|].
    destruct Hlh as [H|H]; [exact H | etransitivity; [exact Elh | exact H]].
  - destruct (pt_leb lo hi) eqn:Ele; [|congruence].
    destruct Hlh as [H|H]; [exists lo | exists hi]; (split; [simpl; tauto | exact H]).
Qed.

(* fourth clause of [isect_ok] *)
Lemma seg_seg_collinear_points s t x :
  ~ pt_eq (fst s) (snd s) -> ~ pt_eq (fst t) (snd t) -> collin s t ->
  In x (ssr_points (seg_seg s t)) -> x = fst s \/ x = snd s \/ x = fst t \/ x = snd t.
Proof.
  destruct s as [a b], t as [c d]. cbn [fst snd]. intros Hab Hcd Hcol Hx.
  destruct (seg_seg_shape a b c d Hab Hcd) as [[_ Esh]|[Hnc _]]; [|contradiction].
  set (lo := pt_max (pt_min a b) (pt_min c d)) in *. set (hi := pt_min (pt_max a b) (pt_max c d)) in *.
  assert (Hlo : lo = a \/ lo = b \/ lo = c \/ lo = d).
  { unfold lo. destruct (pt_max_cases (pt_min a b) (pt_min c d)) as [[-> _]|[-> _]].
    - destruct (pt_min_cases c d) as [[-> _]|[-> _]]; tauto.
    - destruct (pt_min_cases a b) as [[-> _]|[-> _]]; tauto. }
  assert (Hhi : hi = a \/ hi = b \/ hi = c \/ hi = d).
  { unfold hi. destruct (pt_min_cases (pt_max a b) (pt_max c d)) as [[-> _]|[-> _]].
    - destruct (pt_max_cases a b) as [[-> _]|[-> _]]; tauto.
    - destruct (pt_max_cases c d) as [[-> _]|[-> _]]; tauto. }
  rewrite Esh in Hx. destruct (pt_eqb lo hi).
  - destruct Hx as [<-|[]]. exact Hlo.
  - destruct (pt_leb lo hi); [|simpl in Hx; tauto].
    destruct Hx as [<-|[<-|[]]]; assumption.
Qed.

(* ================================================================ symmetricLineIntersection *)
Definition isect_ok (s t : seg) (X : list pt) : Prop :=
  (forall p, In p X -> on_seg s p = true /\ on_seg t p = true) /\
  (~ collin s t -> forall p, on_seg s p = true -> on_seg t p = true -> exists x, In x X /\ pt_eq x p) /\
  (collin s t -> forall v, ((v = fst t \/ v = snd t) /\ on_seg s v = true) \/ ((v = fst s \/ v = snd s) /\ on_seg t v = true) ->
                 exists x, In x X /\ pt_eq x v) /\
  (collin s t -> forall x, In x X -> x = fst s \/ x = snd s \/ x = fst t \/ x = snd t).

Definition sflip (s : seg) : seg := (snd s, fst s).

Lemma isect_ok_kernel s t : ~ pt_eq (fst s) (snd s) -> ~ pt_eq (fst t) (snd t) ->
  isect_ok s t (ssr_points (seg_seg s t)).
Proof.
  intros Hs Ht. split; [apply seg_seg_sound|]. split; [|split].
  - intros Hnc p. apply seg_seg_noncollinear; assumption.
  - intros Hc v. apply seg_seg_collinear_end; assumption.
  - intros Hc x. apply seg_seg_collinear_points; assumption.
Qed.

Lemma cross_flip a b p : cross b a p == - cross a b p.
Proof. unfold cross. ring. Qed.
Lemma collin_flip_l a b t : collin (b, a) t <-> collin (a, b) t.
Proof. unfold collin. cbn [fst snd]. rewrite !(cross_flip a b). split; intros [H1 H2]; split; lra. Qed.

Lemma isect_ok_flip_l a b t X : isect_ok (a, b) t X -> isect_ok (b, a) t X.
Proof.
  intros [H1 [H2 [H3 H4]]]. unfold isect_ok. cbn [fst snd] in *. rewrite collin_flip_l.
  split; [|split; [|split]].
  - intros p Hp. rewrite on_seg_sym. apply (H1 p Hp).
  - intros Hnc p. rewrite on_seg_sym. apply (H2 Hnc).
  - intros Hc v. rewrite on_seg_sym, (or_comm (v = b)). apply (H3 Hc).
  - intros Hc x Hx. destruct (H4 Hc x Hx) as [E|[E|E]]; auto.
Qed.

Lemma isect_ok_swap s t X : ~ pt_eq (fst s) (snd s) -> ~ pt_eq (fst t) (snd t) -> isect_ok s t X -> isect_ok t s X.
Proof.
  intros Hs Ht [H1 [H2 [H3 H4]]].
  assert (Hcc : collin t s <-> collin s t) by (split; apply collin_sym; assumption).
  unfold isect_ok. rewrite Hcc. split; [|split; [|split]].
  - intros p Hp. apply and_comm. apply (H1 p Hp).
  - intros Hnc p Hp1 Hp2. apply H2; assumption.
  - intros Hc v Hv. apply (H3 Hc). apply or_comm. exact Hv.
  - intros Hc x Hx. destruct (H4 Hc x Hx) as [E|[E|[E|E]]]; auto.
Qed.

Lemma canon_line_nondeg s : ~ pt_eq (fst s) (snd s) -> ~ pt_eq (fst (canon_line s)) (snd (canon_line s)).
Proof.
  unfold canon_line. destruct (xy_less (snd s) (fst s)); [|tauto]. cbn [fst snd]. intros H E. apply H. symmetry. exact E.
Qed.
Lemma isect_ok_canon_l s t X : isect_ok (canon_line s) t X -> isect_ok s t X.
Proof. unfold canon_line. destruct (xy_less (snd s) (fst s)); [|tauto]. destruct s as [a b]. apply isect_ok_flip_l. Qed.
Lemma isect_ok_canon_r s t X : ~ pt_eq (fst s) (snd s) -> ~ pt_eq (fst t) (snd t) ->
  isect_ok s (canon_line t) X -> isect_ok s t X.
Proof.
  intros Hs Ht H. apply isect_ok_swap; [exact Ht | exact Hs|]. apply isect_ok_canon_l.
  apply isect_ok_swap; [exact Hs | apply canon_line_nondeg; exact Ht | exact H].
Qed.

Lemma sym_isect_ok s t : ~ pt_eq (fst s) (snd s) -> ~ pt_eq (fst t) (snd t) -> isect_ok s t (sym_isect s t).
Proof.
  intros Hs Ht. pose proof (canon_line_nondeg s Hs) as Hs'. pose proof (canon_line_nondeg t Ht) as Ht'.
  unfold sym_isect, canon_pair. cbv zeta. destruct (line_less (canon_line s) (canon_line t)).
  - apply isect_ok_canon_l. apply isect_ok_canon_r; [exact Hs' | exact Ht|]. apply isect_ok_kernel; assumption.
  - apply isect_ok_swap; [exact Ht | exact Hs|].
    apply isect_ok_canon_l. apply isect_ok_canon_r; [exact Ht' | exact Hs|]. apply isect_ok_kernel; assumption.
Qed.

(* ================================================================ T2: the second pass leaves a fully noded set *)
Definition seg_same (P Q : seg) : Prop :=
  (pt_eq (fst P) (fst Q) /\ pt_eq (snd P) (snd Q)) \/ (pt_eq (fst P) (snd Q) /\ pt_eq (snd P) (fst Q)).
Definition is_end_p (P : seg) (x : pt) : Prop := pt_eq x (fst P) \/ pt_eq x (snd P).
(* any two pieces are disjoint, or share only end points, or are the same segment *)
Definition Noded (L : list seg) : Prop :=
  forall P Q, In P L -> In Q L -> forall x, on_seg P x = true -> on_seg Q x = true ->
  (is_end_p P x /\ is_end_p Q x) \/ seg_same P Q.

(* if the left ends differ, the greater one lies on the other interval, so it is that interval's
   right end, and x with it; if they agree, so do the right ends *)
Lemma interval_noded_lt (p1 p2 q1 q2 x : Q) :
  p1 <= x <= p2 -> q1 <= x <= q2 ->
  (p1 <= q1 <= p2 -> q1 == p1 \/ q1 == p2) -> (p1 <= q2 <= p2 -> q2 == p1 \/ q2 == p2) ->
  (q1 <= p1 <= q2 -> p1 == q1 \/ p1 == q2) -> (q1 <= p2 <= q2 -> p2 == q1 \/ p2 == q2) ->
  ((x == p1 \/ x == p2) /\ (x == q1 \/ x == q2)) \/ (p1 == q1 /\ p2 == q2).
Proof.
  intros Bp Bq. destruct (Q_dec p1 q1) as [[L|G]|E].
  - intros K1 _ _ _. destruct K1 as [E|E]; lra.
  - intros _ _ K3 _. destruct K3 as [E|E]; lra.
  - destruct (Q_dec p2 q2) as [[L|G]|E2].
    + intros _ _ _ K4. destruct K4 as [E4|E4]; lra.
    + intros _ K2 _ _. destruct K2 as [E2|E2]; lra.
    + intros _ _ _ _. lra.
Qed.

Lemma interval_noded (p1 p2 q1 q2 x : Q) :
  p1 < p2 -> ~ q1 == q2 -> p1 <= x <= p2 -> (q1 <= x <= q2 \/ q2 <= x <= q1) ->
  ((p1 <= q1 <= p2 \/ p2 <= q1 <= p1) -> q1 == p1 \/ q1 == p2) ->
  ((p1 <= q2 <= p2 \/ p2 <= q2 <= p1) -> q2 == p1 \/ q2 == p2) ->
  ((q1 <= p1 <= q2 \/ q2 <= p1 <= q1) -> p1 == q1 \/ p1 == q2) ->
  ((q1 <= p2 <= q2 \/ q2 <= p2 <= q1) -> p2 == q1 \/ p2 == q2) ->
  ((x == p1 \/ x == p2) /\ (x == q1 \/ x == q2)) \/ (p1 == q1 /\ p2 == q2) \/ (p1 == q2 /\ p2 == q1).
Proof.
  intros Lp Nq Bp Bq. destruct (Q_dec q1 q2) as [[L|G]|E]; [| |contradiction].
  - assert (Bq' : q1 <= x <= q2) by lra. intros K1 K2 K3 K4.
    destruct (interval_noded_lt p1 p2 q1 q2 x Bp Bq' (fun H => K1 (or_introl H)) (fun H => K2 (or_introl H))
                (fun H => K3 (or_introl H)) (fun H => K4 (or_introl H))) as [H|H]; [left | right; left]; exact H.
  - assert (Bq' : q2 <= x <= q1) by lra. intros K1 K2 K3 K4.
    destruct (interval_noded_lt p1 p2 q2 q1 x Bp Bq' (fun H => K2 (or_introl H)) (fun H => K1 (or_introl H))
                (fun H => proj1 (or_comm _ _) (K3 (or_intror H)))
                (fun H => proj1 (or_comm _ _) (K4 (or_intror H)))) as [[Hp Hq]|H]; [left | right; right; exact H].
    split; [exact Hp | apply or_comm; exact Hq].
Qed.


Lemma collinear_segs_noded P Q x :
  ~ pt_eq (fst P) (snd P) -> ~ pt_eq (fst Q) (snd Q) -> collin P Q ->
  on_seg P x = true -> on_seg Q x = true ->
  (forall v, v = fst Q \/ v = snd Q -> on_seg P v = true -> is_end_p P v) ->
  (forall v, v = fst P \/ v = snd P -> on_seg Q v = true -> is_end_p Q v) ->
  (is_end_p P x /\ is_end_p Q x) \/ seg_same P Q.
Proof.
  destruct P as [p1 p2], Q as [q1 q2]. unfold is_end_p, seg_same. cbn [fst snd].
  intros NP NQ [C1 C2] HxP HxQ KQ KP.
  pose proof (on_seg_cross _ _ _ HxP) as Cx.
  pose proof (on_seg_cross _ _ _ (on_seg_left p1 p2)) as Cp1.
  pose proof (on_seg_cross _ _ _ (on_seg_right p1 p2)) as Cp2.
  pose proof (T_a p1 p2 NP) as T1. pose proof (T_b p1 p2 NP) as T2.
  rewrite (T_eq p1 p2 NP) in NQ by assumption. rewrite (piece_by_T p1 p2 NP) in HxP, HxQ by assumption.
  assert (Lp : tpar p1 p2 p1 < tpar p1 p2 p2) by lra.
  assert (Bp : tpar p1 p2 p1 <= tpar p1 p2 x <= tpar p1 p2 p2) by lra.
  pose proof (KQ q1 (or_introl eq_refl)) as K1. pose proof (KQ q2 (or_intror eq_refl)) as K2.
  pose proof (KP p1 (or_introl eq_refl)) as K3. pose proof (KP p2 (or_intror eq_refl)) as K4.
  rewrite (piece_by_T p1 p2 NP) in K1, K2, K3, K4 by assumption.
  rewrite !(T_eq p1 p2 NP) in K1, K2, K3, K4 by assumption.
  rewrite !(T_eq p1 p2 NP) by assumption.
  exact (interval_noded _ _ _ _ _ Lp NQ Bp HxQ K1 K2 K3 K4).
Qed.

Lemma has_endpoint_proper s x x' : pt_eq x x' -> has_endpoint s x = has_endpoint s x'.
Proof. intros E. unfold has_endpoint. rewrite (pt_eqb_proper _ _ x x' (reflexivity (fst s)) E), (pt_eqb_proper _ _ x x' (reflexivity (snd s)) E). reflexivity. Qed.
Lemma has_endpoint_iff s x : has_endpoint s x = true <-> pt_eq x (fst s) \/ pt_eq x (snd s).
Proof.
  unfold has_endpoint. rewrite orb_true_iff, !pt_eqb_iff. split; intros [H|H]; [left | right | left | right]; symmetry; exact H.
Qed.

Lemma cuts_of_isect_in ln ps c : In c (cuts_of_isect ln ps) -> In c ps /\ has_endpoint ln c = false.
Proof.
  unfold cuts_of_isect. destruct ps as [|pa [|pb r]]; [simpl; tauto| |].
  - destruct (has_endpoint ln pa) eqn:E; simpl; [tauto|]. intros [<-|[]]. auto.
  - intros H. apply in_app_or in H. destruct H as [H|H].
    + destruct (has_endpoint ln pa) eqn:E; simpl in H; [tauto|]. destruct H as [<-|[]]. simpl. auto.
    + destruct (pt_eqb pa pb || has_endpoint ln pb) eqn:E; simpl in H; [tauto|]. destruct H as [<-|[]].
      apply orb_false_iff in E. simpl. tauto.
Qed.
Lemma sym_isect_short l m : (length (sym_isect l m) <= 2)%nat.
Proof. unfold sym_isect. destruct (canon_pair l m) as [l' m']. destruct (seg_seg l' m'); simpl; lia. Qed.
Lemma cuts_of_isect_keeps ln ps x : (length ps <= 2)%nat -> In x ps -> has_endpoint ln x = false ->
  exists x', In x' (cuts_of_isect ln ps) /\ pt_eq x' x.
Proof.
  intros Hlen Hin He. unfold cuts_of_isect. destruct ps as [|pa [|pb [|pc r]]]; [simpl in Hin; tauto| | |simpl in Hlen; lia].
  - destruct Hin as [->|[]]. rewrite He. exists x. split; [left; reflexivity | reflexivity].
  - destruct Hin as [->|[->|[]]].
    + rewrite He. exists x. split; [left; reflexivity | reflexivity].
    + destruct (pt_eqb pa x) eqn:E.
      * apply pt_eqb_iff in E. rewrite (has_endpoint_proper ln pa x E), He.
        exists pa. split; [left; reflexivity | exact E].
      * rewrite He. cbn [orb]. exists x. split; [apply in_or_app; right; left; reflexivity | reflexivity].
Qed.

Lemma is_vert_eq cutf s p q : pt_eq p q -> is_vert cutf s p -> is_vert cutf s q.
Proof. intros E [v [Hv Ev]]. exists v. split; [exact Hv | etransitivity; eassumption]. Qed.
Lemma is_vert_end cutf s p : has_endpoint s p = true -> is_vert cutf s p.
Proof.
  intros He. apply has_endpoint_iff in He. unfold is_vert, line_verts. destruct He as [E|E].
  - exists (fst s). split; [left; reflexivity | symmetry; exact E].
  - exists (snd s). split; [right; apply in_or_app; right; left; reflexivity | symmetry; exact E].
Qed.
Lemma is_vert_cut cutf s c : In c (cutf s) -> is_vert cutf s c.
Proof.
  intros Hc. apply (isort_in _ (cut_less (fst s))) in Hc.
  destruct (uniq_grouped_keeps _ _ Hc) as [z [Hz Ez]].
  exists z. split; [right; apply in_or_app; left; exact Hz | exact Ez].
Qed.
Lemma line_piece_ends cutf s P v : In P (line_pieces cutf s) -> v = fst P \/ v = snd P -> In v (line_verts cutf s).
Proof. destruct P as [u w]. intros HP Hv. destruct (ring_edges_in _ _ _ HP), Hv as [->| ->]; assumption. Qed.

Section Noding.
  Variable S : list seg.
  Hypothesis S_nondeg : forall s, In s S -> ~ pt_eq (fst s) (snd s).
  Let cutf := cuts_line_x_line S.

  Lemma cuts_ll_on s : ~ pt_eq (fst s) (snd s) ->
    forall c, In c (cutf s) -> on_seg s c = true /\ has_endpoint s c = false.
  Proof.
    intros Hs c Hc. unfold cutf, cuts_line_x_line in Hc. apply in_flat_map in Hc. destruct Hc as [o [Ho Hc]].
    apply cuts_of_isect_in in Hc. destruct Hc as [Hc He]. split; [|exact He].
    destruct (sym_isect_ok s o Hs (S_nondeg o Ho)) as [H1 _]. apply (H1 c Hc).
  Qed.
  Lemma cuts_ll_on' a b : In (a, b) S -> forall c, In c (cutf (a, b)) -> on_seg (a, b) c = true /\ has_endpoint (a, b) c = false.
  Proof. intros Hin. apply cuts_ll_on. apply (S_nondeg _ Hin). Qed.

  (* every reported intersection point of s with a line of S is a vertex of s *)
  Lemma vert_of_isect s t p : In t S -> (exists x, In x (sym_isect s t) /\ pt_eq x p) -> is_vert cutf s p.
  Proof.
    intros Ht [x [Hx Ex]]. apply (is_vert_eq cutf s x p Ex).
    destruct (has_endpoint s x) eqn:He; [apply is_vert_end; exact He|].
    destruct (cuts_of_isect_keeps s (sym_isect s t) x (sym_isect_short s t) Hx He) as [x' [Hx' Ex']].
    apply (is_vert_eq cutf s x' x Ex'). apply is_vert_cut.
    unfold cutf, cuts_line_x_line. apply in_flat_map. exists t. split; assumption.
  Qed.

  Lemma collin_trans s t u : ~ pt_eq (fst s) (snd s) -> collin s t -> collin s u -> collin t u.
  Proof.
    destruct s as [a b]. unfold collin. cbn [fst snd]. intros Hab [H1 H2] [H3 H4].
    split; apply (line_points_collinear a b Hab); assumption.
  Qed.

  (* an end of t that lies on s is a vertex of s *)
  Lemma closure_end s t v : In s S -> In t S -> (v = fst t \/ v = snd t) -> on_seg s v = true -> is_vert cutf s v.
  Proof.
    intros Hs Ht Hv Hon. apply (vert_of_isect s t v Ht).
    destruct (sym_isect_ok s t (S_nondeg s Hs) (S_nondeg t Ht)) as [_ [H2 [H3 _]]].
    destruct (collin_dec s t) as [Hc|Hnc]; [apply (H3 Hc); left; split; assumption|].
    apply (H2 Hnc v Hon). destruct t as [c d], Hv as [->| ->]; [apply on_seg_left | apply on_seg_right].
  Qed.

  (* a common point of two non-collinear lines of S is a vertex of both *)
  Lemma closure_cross s t p : In s S -> In t S -> ~ collin s t -> on_seg s p = true -> on_seg t p = true ->
    is_vert cutf s p.
  Proof.
    intros Hs Ht Hnc H1 H2. apply (vert_of_isect s t p Ht).
    destruct (sym_isect_ok s t (S_nondeg s Hs) (S_nondeg t Ht)) as [_ [K2 _]]. apply (K2 Hnc p H1 H2).
  Qed.

  (* closure: a vertex of t that lies on s is a vertex of s *)
  Lemma closure s t v : In s S -> In t S -> In v (line_verts cutf t) -> on_seg s v = true ->
    exists v', In v' (line_verts cutf s) /\ pt_eq v' v.
  Proof using S_nondeg.
    intros Hs Ht Hv Hon. pose proof (S_nondeg s Hs) as Ns. pose proof (S_nondeg t Ht) as Nt.
    unfold line_verts in Hv. destruct Hv as [<-|Hv]; [apply (closure_end s t); auto|].
    apply in_app_or in Hv. destruct Hv as [Hv|[<-|[]]]; [|apply (closure_end s t); auto].
    (* v is a cut of t by some line u: an end of t or u, or the crossing point of t and u, and then
       one of t, u is not collinear with s *)
    unfold sorted_cuts in Hv. apply uniq_grouped_in in Hv. apply (proj1 (isort_in _ _ _ _)) in Hv.
    unfold cutf, cuts_line_x_line in Hv. apply in_flat_map in Hv. destruct Hv as [u [Hu Hv]].
    apply cuts_of_isect_in in Hv. destruct Hv as [Hv _].
    destruct (sym_isect_ok t u Nt (S_nondeg u Hu)) as [K1 [_ [_ K4]]]. destruct (K1 v Hv) as [Htv Huv].
    destruct (collin_dec t u) as [Hc|Hnc].
    - destruct (K4 Hc v Hv) as [E|[E|[E|E]]].
      + exact (closure_end s t v Hs Ht (or_introl E) Hon).
      + exact (closure_end s t v Hs Ht (or_intror E) Hon).
      + exact (closure_end s u v Hs Hu (or_introl E) Hon).
      + exact (closure_end s u v Hs Hu (or_intror E) Hon).
    - destruct (collin_dec s t) as [Hst|Hst]; [|apply (closure_cross s t); auto].
      apply (closure_cross s u); auto. intros Hsu. apply Hnc. apply (collin_trans s t u); auto.
  Qed.


  Lemma piece_end s P v : In s S -> In P (line_pieces cutf s) -> is_vert cutf s v -> on_seg P v = true -> is_end_p P v.
  Proof. destruct s as [a b]. intros Hs. exact (line_piece_end a b (S_nondeg _ Hs) cutf (cuts_ll_on' a b Hs) P v). Qed.

  Lemma piece_end_on_line s P v : In s S -> In P (line_pieces cutf s) -> v = fst P \/ v = snd P -> on_seg s v = true.
  Proof.
    intros Hs HP Hv. destruct s as [a b]. pose proof (line_verts_on a b cutf (cuts_ll_on' a b Hs)) as F.
    rewrite Forall_forall in F. apply F. apply (line_piece_ends cutf (a, b) P v HP Hv).
  Qed.

  Lemma piece_on_line s P x : In s S -> In P (line_pieces cutf s) -> on_seg P x = true -> on_seg s x = true.
  Proof.
    intros Hs HP Hon. destruct s as [a b].
    apply (line_pieces_cover a b (S_nondeg _ Hs) cutf (cuts_ll_on' a b Hs) x). exists P. split; assumption.
  Qed.


  Lemma piece_vertex s t P v : In s S -> In t S -> In P (line_pieces cutf s) -> In v (line_verts cutf t) ->
    on_seg P v = true -> is_end_p P v.
  Proof.
    intros Hs Ht HP Hv Hon. apply (piece_end s P v Hs HP); [|exact Hon].
    apply (closure s t v Hs Ht Hv). apply (piece_on_line s P v Hs HP Hon).
  Qed.

  Lemma piece_nondeg s P : In s S -> In P (line_pieces cutf s) -> ~ pt_eq (fst P) (snd P).
  Proof. destruct s as [a b], P as [u w]. intros Hs. apply (line_pieces_nondeg a b (S_nondeg _ Hs) cutf (cuts_ll_on' a b Hs)). Qed.

  Theorem pass2_noded : Noded (flat_map (line_pieces cutf) S).
  Proof.
    intros P Q HP HQ x HxP HxQ. apply in_flat_map in HP. apply in_flat_map in HQ.
    destruct HP as [s [Hs HP]]. destruct HQ as [t [Ht HQ]].
    destruct (collin_dec s t) as [Hc|Hnc].
    - apply collinear_segs_noded; try assumption.
      + apply (piece_nondeg s P Hs HP).
      + apply (piece_nondeg t Q Ht HQ).
      + apply (collin_sub s t P Q (S_nondeg s Hs) Hc);
          [apply (piece_end_on_line s P) | apply (piece_end_on_line s P) | apply (piece_end_on_line t Q) | apply (piece_end_on_line t Q)]; auto.
      + intros v Hv. apply (piece_vertex s t P v Hs Ht HP). apply (line_piece_ends cutf t Q v HQ Hv).
      + intros v Hv. apply (piece_vertex t s Q v Ht Hs HQ). apply (line_piece_ends cutf s P v HP Hv).
    - pose proof (piece_on_line s P x Hs HP HxP) as Hxs. pose proof (piece_on_line t Q x Ht HQ HxQ) as Hxt.
      left. split.
      + apply (piece_end s P x Hs HP); [|exact HxP]. apply (closure_cross s t x); auto.
      + apply (piece_end t Q x Ht HQ); [|exact HxQ]. apply (closure_cross t s x); auto.
        intros Hts. apply Hnc. apply collin_sym; [apply (S_nondeg t Ht) | exact Hts].
  Qed.
End Noding.

(* ================================================================ reNodeLineString as a whole *)
Definition seg_eq (s t : seg) : Prop := pt_eq (fst s) (fst t) /\ pt_eq (snd s) (snd t).

Lemma ring_edges_app (l : list pt) h t : l <> [] ->
  ring_edges (l ++ h :: t) = ring_edges (l ++ [h]) ++ ring_edges (h :: t).
Proof.
  induction l as [|x l IH]; [congruence|]. intros _. destruct l as [|y l'].
  - reflexivity.
  - change ((x :: y :: l') ++ h :: t) with (x :: y :: (l' ++ h :: t)).
    change ((x :: y :: l') ++ [h]) with (x :: y :: (l' ++ [h])).
    rewrite !ring_edges_cons2. cbn [app]. f_equal. apply (IH ltac:(discriminate)).
Qed.
Lemma ring_edges_last_eq (l : list pt) h b : pt_eq h b ->
  Forall2 seg_eq (ring_edges (l ++ [h])) (ring_edges (l ++ [b])).
Proof.
  intros E. induction l as [|x l IH]; [constructor|]. destruct l as [|y l'].
  - simpl. constructor; [split; [reflexivity | exact E] | constructor].
  - change ((x :: y :: l') ++ [h]) with (x :: y :: (l' ++ [h])).
    change ((x :: y :: l') ++ [b]) with (x :: y :: (l' ++ [b])).
    rewrite !ring_edges_cons2. constructor; [split; reflexivity | exact IH].
Qed.
Lemma Forall2_seg_eq_refl l : Forall2 seg_eq l l.
Proof. induction l; constructor; auto. split; reflexivity. Qed.

Lemma lines_of_cons2 a b r :
  lines_of (a :: b :: r) = (if nondeg (a, b) then [(a, b)] else []) ++ lines_of (b :: r).
Proof. unfold lines_of. rewrite ring_edges_cons2. cbn [filter]. destruct (nondeg (a, b)); reflexivity. Qed.

Lemma renode_body_cons2 cutf a b r :
  renode_body cutf (a :: b :: r) = (if pt_eqb a b then [] else a :: sorted_cuts cutf (a, b)) ++ renode_body cutf (b :: r).
Proof. reflexivity. Qed.
Lemma renode_ls_shape cutf a r :
  exists h t, renode_body cutf (a :: r) ++ [last r a] = h :: t /\ pt_eq h a /\
    Forall2 seg_eq (ring_edges (h :: t)) (flat_map (line_pieces cutf) (lines_of (a :: r))).
Proof.
  revert a. induction r as [|b r' IH]; intros a.
  - exists a, []. simpl. split; [reflexivity|]. split; [reflexivity | constructor].
  - destruct (IH b) as [h' [t' [Eo [Eh F]]]].
    assert (El : last (b :: r') a = last r' b).
    { destruct r' as [|c r'']; [reflexivity|]. apply (last_nonempty_irrel (b :: c :: r'')). discriminate. }
    rewrite renode_body_cons2. rewrite lines_of_cons2. unfold nondeg. cbn [fst snd].
    destruct (pt_eqb a b) eqn:Eab; cbn [negb].
    + cbn [app]. rewrite El, Eo. exists h', t'. split; [reflexivity|]. split; [|exact F].
      apply pt_eqb_iff in Eab. etransitivity; [exact Eh | symmetry; exact Eab].
    + rewrite <- app_assoc. rewrite El, Eo.
      exists a, (sorted_cuts cutf (a, b) ++ h' :: t'). split; [reflexivity|]. split; [reflexivity|].
      change (a :: sorted_cuts cutf (a, b) ++ h' :: t') with ((a :: sorted_cuts cutf (a, b)) ++ h' :: t').
      rewrite ring_edges_app by discriminate. cbn [flat_map]. apply Forall2_app; [|exact F].
      unfold line_pieces, line_verts. cbn [fst snd].
      apply (ring_edges_last_eq (a :: sorted_cuts cutf (a, b)) h' b Eh).
Qed.

Lemma renode_ls_segs cutf ps :
  Forall2 seg_eq (ring_edges (renode_ls cutf ps)) (flat_map (line_pieces cutf) (lines_of ps)).
Proof.
  destruct ps as [|a r]; [constructor|]. unfold renode_ls.
  destruct (renode_ls_shape cutf a r) as [h [t [E [_ F]]]]. rewrite E. exact F.
Qed.

Lemma Forall2_in_l {A B} (R : A -> B -> Prop) l m x : Forall2 R l m -> In x l -> exists y, In y m /\ R x y.
Proof.
  induction 1; [simpl; tauto|]. intros [<-|Hin].
  - eexists; split; [left; reflexivity | assumption].
  - destruct (IHForall2 Hin) as [y' [H1 H2]]. exists y'. split; [right; exact H1 | exact H2].
Qed.

Lemma renode_ls_piece cutf ps P : In P (ring_edges (renode_ls cutf ps)) ->
  exists ln P', In ln (lines_of ps) /\ In P' (line_pieces cutf ln) /\ seg_eq P P'.
Proof.
  intros HP. destruct (Forall2_in_l _ _ _ P (renode_ls_segs cutf ps) HP) as [P' [HP' E]].
  apply in_flat_map in HP'. destruct HP' as [ln [Hln HP']]. exists ln, P'. auto.
Qed.

Lemma on_seg_seg_eq s t x : seg_eq s t -> on_seg s x = on_seg t x.
Proof. destruct s, t. intros [E1 E2]. cbn [fst snd] in *. apply on_seg_proper; [exact E1 | exact E2 | reflexivity]. Qed.

Lemma on_edges_seg_eq L L' x : Forall2 seg_eq L L' -> on_edges L x = on_edges L' x.
Proof.
  induction 1 as [|P P' L L' E _ IH]; [reflexivity|]. unfold on_edges in *. cbn [existsb].
  rewrite (on_seg_seg_eq P P' x E), IH. reflexivity.
Qed.

Lemma on_edges_iff L x : on_edges L x = true <-> exists s, In s L /\ on_seg s x = true.
Proof. unfold on_edges. apply existsb_exists. Qed.

Lemma lines_of_nondeg ps s : In s (lines_of ps) -> ~ pt_eq (fst s) (snd s).
Proof.
  unfold lines_of. intros H. apply filter_In in H. destruct H as [_ H]. unfold nondeg in H.
  apply negb_true_iff in H. apply pt_eqb_false_iff. exact H.
Qed.

(* a cut function is admissible on a line when its cuts lie on the line and are not its ends *)
Definition cuts_ok (cutf : seg -> list pt) (ln : seg) : Prop :=
  forall c, In c (cutf ln) -> on_seg ln c = true /\ has_endpoint ln c = false.

Lemma cuts_ok_point_x_line nodes ln : cuts_ok (cuts_point_x_line nodes) ln.
Proof.
  intros c Hc. unfold cuts_point_x_line in Hc. apply filter_In in Hc. destruct Hc as [_ Hc].
  apply andb_true_iff in Hc. destruct Hc as [H1 H2]. apply negb_true_iff in H1. auto.
Qed.
Lemma cuts_ok_line_x_line S ln : (forall s, In s S -> ~ pt_eq (fst s) (snd s)) -> ~ pt_eq (fst ln) (snd ln) ->
  cuts_ok (cuts_line_x_line S) ln.
Proof. intros HS Hln. exact (cuts_ll_on S HS ln Hln). Qed.

(* T1 for a whole linear element: the re-noded element has the same point set *)
Lemma renode_ls_point_set cutf ps : (forall ln, In ln (lines_of ps) -> cuts_ok cutf ln) ->
  forall x, on_edges (ring_edges (renode_ls cutf ps)) x = true <-> on_edges (lines_of ps) x = true.
Proof.
  intros Hok x. rewrite (on_edges_seg_eq _ _ x (renode_ls_segs cutf ps)), !on_edges_iff. split.
  - intros [P [HP Hx]]. apply in_flat_map in HP. destruct HP as [[a b] [Hln HP]]. exists (a, b). split; [exact Hln|].
    apply (line_pieces_cover a b (lines_of_nondeg ps _ Hln) cutf (Hok _ Hln) x). exists P. split; assumption.
  - intros [[a b] [Hln Hx]]. apply (line_pieces_cover a b (lines_of_nondeg ps _ Hln) cutf (Hok _ Hln) x) in Hx.
    destruct Hx as [P [HP Hx]]. exists P. split; [apply in_flat_map; exists (a, b); split; assumption | exact Hx].
Qed.

(* every piece of a re-noded element is non-degenerate: its lines are all its consecutive pairs *)
Lemma renode_ls_pieces_nondeg cutf ps : (forall ln, In ln (lines_of ps) -> cuts_ok cutf ln) ->
  forall P, In P (ring_edges (renode_ls cutf ps)) -> ~ pt_eq (fst P) (snd P).
Proof.
  intros Hok P HP. destruct (renode_ls_piece cutf ps P HP) as [[a b] [[u w] [Hln [HP' [E1 E2]]]]].
  cbn [fst snd] in E1, E2. rewrite E1, E2.
  exact (line_pieces_nondeg a b (lines_of_nondeg ps _ Hln) cutf (Hok _ Hln) u w HP').
Qed.
Lemma filter_all_id {A} (f : A -> bool) l : (forall x, In x l -> f x = true) -> filter f l = l.
Proof.
  induction l as [|x l IH]; [reflexivity|]. intros H. simpl. rewrite (H x (or_introl eq_refl)). f_equal.
  apply IH. intros y Hy. apply H. right. exact Hy.
Qed.
Lemma lines_of_renode_ls cutf ps : (forall ln, In ln (lines_of ps) -> cuts_ok cutf ln) ->
  lines_of (renode_ls cutf ps) = ring_edges (renode_ls cutf ps).
Proof.
  intros Hok. unfold lines_of. apply filter_all_id. intros P HP.
  unfold nondeg. apply negb_true_iff. apply pt_eqb_false_iff. apply (renode_ls_pieces_nondeg cutf ps Hok P HP).
Qed.

(* ================================================================ both passes: reNodeGeometries *)
Lemma is_end_p_seg_eq P P' x : seg_eq P P' -> is_end_p P' x -> is_end_p P x.
Proof.
  intros [E1 E2] [H|H]; [left | right]; (etransitivity; [exact H | symmetry; assumption]).
Qed.
Lemma seg_same_seg_eq P P' Q Q' : seg_eq P P' -> seg_eq Q Q' -> seg_same P' Q' -> seg_same P Q.
Proof.
  intros [E1 E2] [F1 F2] [[H1 H2]|[H1 H2]]; [left | right]; split.
  - rewrite E1, H1. symmetry. exact F1.
  - rewrite E2, H2. symmetry. exact F2.
  - rewrite E1, H1. symmetry. exact F2.
  - rewrite E2, H2. symmetry. exact F1.
Qed.

Section Whole.
  Variables (nodes : list pt) (ea eb gh : list (list pt)).
  Let f1 := cuts_point_x_line nodes.
  Let E0 := ea ++ eb ++ gh.
  Let E1 := map (renode_ls f1) E0.
  Let S := flat_map lines_of E1.
  Let f2 := cuts_line_x_line S.
  Let r := renode_elems nodes ea eb gh.

  Lemma rn_all_eq : rn_all r = map (renode_ls f2) E1.
  Proof.
    unfold r, renode_elems, rn_all, f2, S, E1, E0, f1. cbn [rn_a rn_b rn_ghosts].
    rewrite !map_app. reflexivity.
  Qed.

  Lemma S_nondeg_w s : In s S -> ~ pt_eq (fst s) (snd s).
  Proof. unfold S. intros H. apply in_flat_map in H. destruct H as [e [_ H]]. apply (lines_of_nondeg e s H). Qed.

  Lemma f2_ok e1 ln : In ln (lines_of e1) -> cuts_ok f2 ln.
  Proof.
    intros Hln. apply cuts_ok_line_x_line; [exact S_nondeg_w | apply (lines_of_nondeg e1 ln Hln)].
  Qed.

  (* T1 *)
  Lemma renode_point_sets_lemma e : In e E0 ->
    forall x, on_edges (ring_edges (renode_ls f2 (renode_ls f1 e))) x = true <-> on_edges (lines_of e) x = true.
  Proof.
    intros He x.
    rewrite (renode_ls_point_set f2 (renode_ls f1 e) (f2_ok _) x).
    rewrite (lines_of_renode_ls f1 e (fun ln _ => cuts_ok_point_x_line nodes ln)).
    apply renode_ls_point_set. intros ln _. apply cuts_ok_point_x_line.
  Qed.

  Lemma rn_piece_lift P : In P (rn_pieces r) ->
    exists s P', In s S /\ In P' (line_pieces f2 s) /\ seg_eq P P'.
  Proof.
    unfold rn_pieces. rewrite rn_all_eq. intros H. apply in_flat_map in H. destruct H as [c [Hc HP]].
    apply in_map_iff in Hc. destruct Hc as [e1 [<- He1]].
    destruct (renode_ls_piece f2 e1 P HP) as [s [P' [Hs H]]].
    exists s, P'. split; [|exact H]. unfold S. apply in_flat_map. exists e1. split; assumption.
  Qed.

  (* T2 *)
  Lemma renode_noded_lemma : Noded (rn_pieces r).
  Proof.
    intros P Q HP HQ x HxP HxQ.
    destruct (rn_piece_lift P HP) as [s [P' [Hs [HP' EP]]]].
    destruct (rn_piece_lift Q HQ) as [t [Q' [Ht [HQ' EQ]]]].
    assert (HP'' : In P' (flat_map (line_pieces f2) S)) by (apply in_flat_map; exists s; auto).
    assert (HQ'' : In Q' (flat_map (line_pieces f2) S)) by (apply in_flat_map; exists t; auto).
    rewrite (on_seg_seg_eq P P' x EP) in HxP. rewrite (on_seg_seg_eq Q Q' x EQ) in HxQ.
    destruct (pass2_noded S S_nondeg_w P' Q' HP'' HQ'' x HxP HxQ) as [[H1 H2]|H].
    - left. split; eapply is_end_p_seg_eq; eauto.
    - right. eapply seg_same_seg_eq; eauto.
  Qed.

  (* T2, points: every node (control point of an operand or ghost, in particular every point of a
     Point / MultiPoint) that lies on a piece is an end of that piece *)
  Lemma renode_nodes_noded_lemma p P : In p nodes -> In P (rn_pieces r) -> on_seg P p = true -> is_end_p P p.
  Proof.
    intros Hp HP Hon. destruct (rn_piece_lift P HP) as [s [P' [Hs [HP' EP]]]].
    apply (is_end_p_seg_eq P P' p EP). rewrite (on_seg_seg_eq P P' p EP) in Hon.
    apply (piece_end S S_nondeg_w s P' p Hs HP'); [|exact Hon].
    pose proof (piece_on_line S S_nondeg_w s P' p Hs HP' Hon) as Hps.
    (* s is a piece of a line ln of an input element, cut in the first pass *)
    unfold S in Hs. apply in_flat_map in Hs. destruct Hs as [e1 [He1 Hs]].
    unfold E1 in He1. apply in_map_iff in He1. destruct He1 as [e [<- He]].
    rewrite (lines_of_renode_ls f1 e (fun ln _ => cuts_ok_point_x_line nodes ln)) in Hs.
    destruct (renode_ls_piece f1 e s Hs) as [[a b] [s' [Hln [Hs' Es]]]].
    pose proof (lines_of_nondeg e _ Hln) as Nab. cbn [fst snd] in Nab.
    pose proof (cuts_ok_point_x_line nodes (a, b)) as Ok1.
    rewrite (on_seg_seg_eq s s' p Es) in Hps.
    assert (Hpl : on_seg (a, b) p = true).
    { apply (line_pieces_cover a b Nab f1 Ok1 p). exists s'. split; assumption. }
    (* p is a vertex of ln after the first pass, so an end of the piece s' of ln, that is of s *)
    assert (Hv : is_vert f1 (a, b) p).
    { destruct (has_endpoint (a, b) p) eqn:He2; [apply is_vert_end; exact He2|]. apply is_vert_cut.
      unfold f1, cuts_point_x_line. apply filter_In. split; [exact Hp|]. rewrite He2, Hpl. reflexivity. }
    apply is_vert_end, has_endpoint_iff, (is_end_p_seg_eq s s' p Es).
    exact (line_piece_end a b Nab f1 Ok1 s' p Hs' Hv Hps).
  Qed.
End Whole.

Lemma Forall2_map_same {A B} (R : A -> B -> Prop) (f : A -> B) l : (forall x, In x l -> R x (f x)) -> Forall2 R l (map f l).
Proof.
  induction l as [|x l IH]; intros H; simpl; constructor.
  - apply H. left. reflexivity.
  - apply IH. intros y Hy. apply H. right. exact Hy.
Qed.

(* T1 for the whole of reNodeGeometries: element by element the point set is unchanged *)
Lemma renode_point_sets_all nodes ea eb gh :
  Forall2 (fun e e' => forall x, on_edges (ring_edges e') x = true <-> on_edges (lines_of e) x = true)
          (ea ++ eb ++ gh) (rn_all (renode_elems nodes ea eb gh)).
Proof.
  rewrite rn_all_eq. rewrite map_map. apply Forall2_map_same. intros e He x.
  apply renode_point_sets_lemma. exact He.
Qed.

(* ================================================================ the executable form of T2 is sound *)
Lemma noded_b_sound L : (forall s, In s L -> ~ pt_eq (fst s) (snd s)) -> noded_b L = true -> Noded L.
Proof.
  intros Hnd H P Q HP HQ x HxP HxQ. unfold noded_b in H. rewrite forallb_forall in H.
  specialize (H P HP). rewrite forallb_forall in H. specialize (H Q HQ). unfold meet_ok_b in H.
  pose proof (seg_seg_complete P Q x HxP HxQ) as Hne.
  destruct (seg_seg P Q) as [|y|lo hi] eqn:E; [congruence| |].
  - left. apply andb_true_iff in H. destruct H as [H1 H2]. unfold is_end in H1, H2.
    pose proof (seg_seg_point_unique P Q y x (Hnd P HP) (Hnd Q HQ) E HxP HxQ) as Exy.
    rewrite <- (has_endpoint_proper P x y Exy) in H1. rewrite <- (has_endpoint_proper Q x y Exy) in H2.
    apply has_endpoint_iff in H1. apply has_endpoint_iff in H2. split; assumption.
  - right. unfold seg_sameb in H. rewrite orb_true_iff, !andb_true_iff, !pt_eqb_iff in H. exact H.
Qed.
