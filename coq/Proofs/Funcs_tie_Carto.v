(* Translator tie for function bodies (DESIGN.md A.8b), property C19: the real-number model of the
   nine map projections (coq/Model/Carto.v) against the bodies of /repo/carto/*.go as re-read from
   the Go source into Gen/FuncsCarto.v on every run (tools/gen_funcs, second output).  Carrier: R
   with the elementary functions of Coq's Reals (Base/FOpsT.v: rops_t).  An edited body in the Go
   source (another formula, another guard, atan2 for atan, a dropped factor ..) makes this file fail
   to compile; renaming locals or reordering independent declarations does not.

   Shape of the statements.  The model describes a projection value by its CONFIGURATION (radius and
   the angles given to the setters, in degrees: er_cfg, sn_cfg, lc_cfg, wm_cfg, cn_cfg, az_cfg); the
   Go struct may store derived values instead (Equirectangular: lam0, cos phi1; Orthographic: lam0,
   sin phi0, cos phi0; the others: lam0 or the angles in degrees).  For every projection
     go_<p> c  :=  the Go value obtained by New<P>(radius) followed by every setter of <P>
                   (translated constructor and translated setters, applied to the model's fields)
   and the lemmas are, for all configurations c and all points p (NO side condition: over R every
   operation is total, and the two sides are the same term after unfolding):
     tie_<p>_forward :  mxy (<P>.Forward (go_<p> c) (gxy p)) = Carto.<p>_fwd c p
     tie_<p>_reverse :  mxy (<P>.Reverse (go_<p> c) (gxy p)) = Carto.<p>_rev c p
     tie_<p>_set_*   :  <P>.Set* (go_<p> c) args = go_<p> (Carto.<model setter> c args)
                        (a setter overwrites exactly the configuration fields it names, whatever
                        was set before, in any order: every Go value reachable through the API is
                        go_<p> of the configuration reached by the model's setters)
     tie_<p>_new     :  New<P>(r) = go_<p> (the default configuration)
   Nothing in the model deliberately differs from the Go bodies of the tree under test (the model
   follows the code after the repairs F12 F13 F14 F80 F81, and so does /repo); the two places where
   the model is a definition by cases of what Go takes from package math are
     - math.Atan2: [r_atan2] (Base/FOpsT.v) is literally [Carto.atan2] ([r_atan2_is_model]);
     - math.Copysign(1, x): [r_copysign 1 x] = [Carto.sign x] for all x ([tie_sign]; a zero x
       counts as positive on both sides - signed zeros are not modelled);
   and the Web-Mercator scale float64(int(1) << zoom) is [IZR (Z.shiftl 1 zoom)], equal to the
   model's [2 ^ zoom] for every zoom >= 0 ([tie_wm_P]; the wrap-around of Go's int for zoom >= 63
   is not modelled, the statements of Props/C19.v assume zoom <= 62).

   The proofs normalise both sides by [cbv] (unfolding everything except the operations of R and
   the elementary functions) and compare the results SYNTACTICALLY ([constr_eq]): a mismatch fails
   at once instead of sending the conversion test into the definitions of sin and PI. *)
From Coq Require Import Reals ZArith Bool Lra.
From SF Require Import Base.FOps Base.FOpsR Base.FOpsT Gen.FuncsCarto Model.Carto.
Local Open Scope R_scope.

Definition gxy (p : R * R) : geom_XY R := Mk_geom_XY (fst p) (snd p).
Definition mxy (p : geom_XY R) : R * R := (geom_XY_X p, geom_XY_Y p).

(* ---------------------------------------------------------------- the two functions by cases *)

Lemma r_atan2_is_model : r_atan2 = Carto.atan2.
Proof. reflexivity. Qed.

Lemma tie_sign : forall x, carto_sign rops_t x = Carto.sign x.
Proof. intro x. cbv [carto_sign rops_t t_copysign t_base rops f_of_Z r_copysign Carto.sign].
  rewrite Rabs_R1. reflexivity. Qed.

Lemma tie_wm_P : forall n : nat, IZR (Z.shiftl 1 (Z.of_nat n)) = 2 ^ n.
Proof. intro n. rewrite Z.shiftl_1_l. rewrite <- pow_IZR. reflexivity. Qed.

(* ---------------------------------------------------------------- tactics *)

(* everything is unfolded except the field operations of R, the elementary functions, the two
   functions by cases above and the decision procedures of the order *)
Ltac tie_norm :=
  cbv -[Rplus Rminus Rmult Rdiv Ropp Rinv IZR sin cos tan atan asin acos exp ln Rpower sqrt PI Rabs
        r_atan2 Carto.atan2 carto_sign Carto.sign Req_EM_T Rle_dec Rlt_dec Z.shiftl Z.of_nat Rpow_def.pow];
  change r_atan2 with Carto.atan2;
  rewrite ?tie_sign, ?tie_wm_P.
Ltac tie_same := lazymatch goal with |- ?a = ?b => constr_eq a b; reflexivity end.
Ltac tie := intros; tie_norm; tie_same.
(* a body with the guard `rho == 0`: the translated comparison is [if Req_EM_T rho 0 then true else false] *)
Ltac tie_guard :=
  intros; tie_norm;
  lazymatch goal with |- context [Req_EM_T ?a ?b] => destruct (Req_EM_T a b) end; cbv iota; tie_same.

(* ---------------------------------------------------------------- carto/util.go, carto/radius.go *)

Lemma tie_dtor : forall d, carto_dtor rops_t d = dtor d.            Proof. tie. Qed.
Lemma tie_rtod : forall r, carto_rtod rops_t r = rtod r.            Proof. tie. Qed.
Lemma tie_sq   : forall x, carto_sq rops_t x = sq x.                Proof. tie. Qed.
Lemma tie_sec  : forall x, carto_sec rops_t x = sec x.              Proof. tie. Qed.
Lemma tie_cot  : forall x, carto_cot rops_t x = cot x.              Proof. tie. Qed.
Lemma tie_pow  : forall x y, carto_pow rops_t x y = Carto.pow x y.  Proof. tie. Qed.
Lemma tie_atan2 : forall y x, carto_atan2 rops_t y x = Carto.atan2 y x. Proof. tie. Qed.
Lemma tie_rtodxy : forall a b, mxy (carto_rtodxy rops_t a b) = (rtod a, rtod b). Proof. tie. Qed.

(* radius.go: the constant expression (2 * 6378137.0 + 6356752.314245) / 3 is folded by the Go
   compiler; the generator emits its exact value in lowest terms *)
Lemma tie_WGS84MeanRadius : carto_WGS84EllipsoidMeanRadiusM rops_t = WGS84MeanRadius.
Proof. cbv [carto_WGS84EllipsoidMeanRadiusM rops_t t_base rops f_div f_of_Z WGS84MeanRadius]. lra. Qed.

(* ================================================================ 1. equirectangular *)

Definition go_er (c : er_cfg) : carto_Equirectangular R :=
  carto_Equirectangular_SetStandardParallels rops_t
    (carto_Equirectangular_SetCentralMeridian rops_t (carto_NewEquirectangular rops_t (er_R c)) (er_lon0 c))
    (er_lat1 c).

Lemma tie_er_forward : forall c p, mxy (carto_Equirectangular_Forward rops_t (go_er c) (gxy p)) = er_fwd c p.
Proof. tie. Qed.
Lemma tie_er_reverse : forall c p, mxy (carto_Equirectangular_Reverse rops_t (go_er c) (gxy p)) = er_rev c p.
Proof. tie. Qed.
Lemma tie_er_set_meridian : forall c lon,
  carto_Equirectangular_SetCentralMeridian rops_t (go_er c) lon = go_er (er_set_meridian c lon).
Proof. tie. Qed.
Lemma tie_er_set_parallels : forall c lat,
  carto_Equirectangular_SetStandardParallels rops_t (go_er c) lat = go_er (er_set_parallels c lat).
Proof. tie. Qed.
(* the constructor stores lam0 = 0 and cos phi1 = 1: the configuration (r, 0, 0) *)
Lemma tie_er_new : forall r, carto_NewEquirectangular rops_t r = go_er (Build_er_cfg r 0 0).
Proof. intros. tie_norm. replace (0 * PI / 180) with 0 by field. rewrite cos_0. reflexivity. Qed.

(* ================================================================ 2. sinusoidal *)

Definition go_sn (c : sn_cfg) : carto_Sinusoidal R :=
  carto_Sinusoidal_SetCentralMeridian rops_t (carto_NewSinusoidal rops_t (sn_R c)) (sn_lon0 c).

Lemma tie_sn_forward : forall c p, mxy (carto_Sinusoidal_Forward rops_t (go_sn c) (gxy p)) = sn_fwd c p.
Proof. tie. Qed.
Lemma tie_sn_reverse : forall c p, mxy (carto_Sinusoidal_Reverse rops_t (go_sn c) (gxy p)) = sn_rev c p.
Proof. tie. Qed.
Lemma tie_sn_set_meridian : forall c lon,
  carto_Sinusoidal_SetCentralMeridian rops_t (go_sn c) lon = go_sn (sn_set_meridian c lon).
Proof. tie. Qed.
Lemma tie_sn_new : forall r, carto_NewSinusoidal rops_t r = go_sn (Build_sn_cfg r 0).
Proof. intros. tie_norm. replace (0 * PI / 180) with 0 by field. reflexivity. Qed.

(* ================================================================ 3. Web Mercator *)

Definition go_wm (c : wm_cfg) : carto_WebMercator R := carto_NewWebMercator (Z.of_nat (wm_zoom c)).

Lemma tie_wm_forward : forall c p, mxy (carto_WebMercator_Forward rops_t (go_wm c) (gxy p)) = wm_fwd c p.
Proof. tie. Qed.
Lemma tie_wm_reverse : forall c p, mxy (carto_WebMercator_Reverse rops_t (go_wm c) (gxy p)) = wm_rev c p.
Proof. tie. Qed.

(* ================================================================ 4. Lambert cylindrical equal area *)

Definition go_lc (c : lc_cfg) : carto_LambertCylindricalEqualArea R :=
  carto_LambertCylindricalEqualArea_SetCentralMeridian rops_t
    (carto_NewLambertCylindricalEqualArea rops_t (lc_R c)) (lc_lon0 c).

Lemma tie_lc_forward : forall c p,
  mxy (carto_LambertCylindricalEqualArea_Forward rops_t (go_lc c) (gxy p)) = lc_fwd c p.
Proof. tie. Qed.
Lemma tie_lc_reverse : forall c p,
  mxy (carto_LambertCylindricalEqualArea_Reverse rops_t (go_lc c) (gxy p)) = lc_rev c p.
Proof. tie. Qed.
Lemma tie_lc_set_meridian : forall c lon,
  carto_LambertCylindricalEqualArea_SetCentralMeridian rops_t (go_lc c) lon = go_lc (lc_set_meridian c lon).
Proof. tie. Qed.
Lemma tie_lc_new : forall r, carto_NewLambertCylindricalEqualArea rops_t r = go_lc (Build_lc_cfg r 0).
Proof. intros. tie_norm. replace (0 * PI / 180) with 0 by field. reflexivity. Qed.

(* ================================================================ 5. orthographic *)

Definition go_or (c : az_cfg) : carto_Orthographic R :=
  carto_Orthographic_SetCenter rops_t (carto_NewOrthographic rops_t (az_R c)) (gxy (az_lon0 c, az_lat0 c)).

Lemma tie_or_forward : forall c p, mxy (carto_Orthographic_Forward rops_t (go_or c) (gxy p)) = or_fwd c p.
Proof. tie. Qed.
(* Reverse: rho = xy.Length() = math.Hypot(x, y), which is sqrt (x*x + y*y) in [rops]; guard rho == 0 *)
Lemma tie_or_reverse : forall c p, mxy (carto_Orthographic_Reverse rops_t (go_or c) (gxy p)) = or_rev c p.
Proof. tie_guard. Qed.
Lemma tie_or_set_center : forall c lon lat,
  carto_Orthographic_SetCenter rops_t (go_or c) (gxy (lon, lat)) = go_or (az_set_center c lon lat).
Proof. tie. Qed.
Lemma tie_or_new : forall r, carto_NewOrthographic rops_t r = go_or (Build_az_cfg r 0 0).
Proof. intros. tie_norm. replace (0 * PI / 180) with 0 by field. rewrite cos_0, sin_0. reflexivity. Qed.

(* ================================================================ 6. azimuthal equidistant *)

Definition go_azeq (c : az_cfg) : carto_AzimuthalEquidistant R :=
  carto_AzimuthalEquidistant_SetCenter (carto_NewAzimuthalEquidistant rops_t (az_R c))
    (gxy (az_lon0 c, az_lat0 c)).

Lemma tie_azeq_forward : forall c p,
  mxy (carto_AzimuthalEquidistant_Forward rops_t (go_azeq c) (gxy p)) = azeq_fwd c p.
Proof. tie. Qed.
(* Reverse: guard rho == 0, the centre branch returns the stored centre (degrees) *)
Lemma tie_azeq_reverse : forall c p,
  mxy (carto_AzimuthalEquidistant_Reverse rops_t (go_azeq c) (gxy p)) = azeq_rev c p.
Proof. tie_guard. Qed.
Lemma tie_azeq_set_center : forall c lon lat,
  carto_AzimuthalEquidistant_SetCenter (go_azeq c) (gxy (lon, lat)) = go_azeq (az_set_center c lon lat).
Proof. tie. Qed.
Lemma tie_azeq_new : forall r, carto_NewAzimuthalEquidistant rops_t r = go_azeq (Build_az_cfg r 0 0).
Proof. tie. Qed.

(* ================================================================ 7. Lambert conformal conic *)

Definition go_lcc (c : cn_cfg) : carto_LambertConformalConic R :=
  carto_LambertConformalConic_SetStandardParallels
    (carto_LambertConformalConic_SetOrigin (carto_NewLambertConformalConic rops_t (cn_R c))
       (gxy (cn_lon0 c, cn_lat0 c)))
    (cn_lat1 c) (cn_lat2 c).

Lemma tie_lcc_forward : forall c p,
  mxy (carto_LambertConformalConic_Forward rops_t (go_lcc c) (gxy p)) = lcc_fwd c p.
Proof. tie. Qed.
(* Reverse: theta = atan(x / (rho0 - y)) (one-argument arctangent, as in the model) *)
Lemma tie_lcc_reverse : forall c p,
  mxy (carto_LambertConformalConic_Reverse rops_t (go_lcc c) (gxy p)) = lcc_rev c p.
Proof. tie. Qed.
Lemma tie_lcc_set_origin : forall c lon lat,
  carto_LambertConformalConic_SetOrigin (go_lcc c) (gxy (lon, lat)) = go_lcc (cn_set_origin c lon lat).
Proof. tie. Qed.
Lemma tie_lcc_set_parallels : forall c l1 l2,
  carto_LambertConformalConic_SetStandardParallels (go_lcc c) l1 l2 = go_lcc (cn_set_parallels c l1 l2).
Proof. tie. Qed.
Lemma tie_lcc_new : forall r, carto_NewLambertConformalConic rops_t r = go_lcc (Build_cn_cfg r 0 0 0 0).
Proof. tie. Qed.

(* ================================================================ 8. Albers equal-area conic *)

Definition go_alb (c : cn_cfg) : carto_AlbersEqualAreaConic R :=
  carto_AlbersEqualAreaConic_SetStandardParallels
    (carto_AlbersEqualAreaConic_SetOrigin (carto_NewAlbersEqualAreaConic rops_t (cn_R c))
       (gxy (cn_lon0 c, cn_lat0 c)))
    (cn_lat1 c) (cn_lat2 c).

Lemma tie_alb_forward : forall c p,
  mxy (carto_AlbersEqualAreaConic_Forward rops_t (go_alb c) (gxy p)) = alb_fwd c p.
Proof. tie. Qed.
(* Reverse (after F12): rho = sqrt(..) / R *)
Lemma tie_alb_reverse : forall c p,
  mxy (carto_AlbersEqualAreaConic_Reverse rops_t (go_alb c) (gxy p)) = alb_rev c p.
Proof. tie. Qed.
Lemma tie_alb_set_origin : forall c lon lat,
  carto_AlbersEqualAreaConic_SetOrigin (go_alb c) (gxy (lon, lat)) = go_alb (cn_set_origin c lon lat).
Proof. tie. Qed.
Lemma tie_alb_set_parallels : forall c l1 l2,
  carto_AlbersEqualAreaConic_SetStandardParallels (go_alb c) l1 l2 = go_alb (cn_set_parallels c l1 l2).
Proof. tie. Qed.
(* default parallels 30 and 60 *)
Lemma tie_alb_new : forall r, carto_NewAlbersEqualAreaConic rops_t r = go_alb (Build_cn_cfg r 0 0 30 60).
Proof. tie. Qed.

(* ================================================================ 9. equidistant conic *)

Definition go_eqdc (c : cn_cfg) : carto_EquidistantConic R :=
  carto_EquidistantConic_SetStandardParallels
    (carto_EquidistantConic_SetOrigin (carto_NewEquidistantConic rops_t (cn_R c))
       (gxy (cn_lon0 c, cn_lat0 c)))
    (cn_lat1 c) (cn_lat2 c).

Lemma tie_eqdc_forward : forall c p,
  mxy (carto_EquidistantConic_Forward rops_t (go_eqdc c) (gxy p)) = eqdc_fwd c p.
Proof. tie. Qed.
Lemma tie_eqdc_reverse : forall c p,
  mxy (carto_EquidistantConic_Reverse rops_t (go_eqdc c) (gxy p)) = eqdc_rev c p.
Proof. tie. Qed.
Lemma tie_eqdc_set_origin : forall c lon lat,
  carto_EquidistantConic_SetOrigin (go_eqdc c) (gxy (lon, lat)) = go_eqdc (cn_set_origin c lon lat).
Proof. tie. Qed.
Lemma tie_eqdc_set_parallels : forall c l1 l2,
  carto_EquidistantConic_SetStandardParallels (go_eqdc c) l1 l2 = go_eqdc (cn_set_parallels c l1 l2).
Proof. tie. Qed.
(* default parallels 0 and 45 *)
Lemma tie_eqdc_new : forall r, carto_NewEquidistantConic rops_t r = go_eqdc (Build_cn_cfg r 0 0 0 45).
Proof. tie. Qed.

(* ================================================================ the round trips, on the Go bodies *)
(* With the ties, every theorem of Props/C19.v about Carto.<p>_fwd / <p>_rev is a theorem about the
   translated Go bodies over R; e.g. Reverse(Forward p) read off the translated functions: *)
Lemma go_round_trip_is_model_round_trip_er : forall c p,
  mxy (carto_Equirectangular_Reverse rops_t (go_er c)
         (carto_Equirectangular_Forward rops_t (go_er c) (gxy p))) = er_rev c (er_fwd c p).
Proof. intros. rewrite <- tie_er_forward, <- tie_er_reverse. reflexivity. Qed.

Print Assumptions tie_er_forward.
Print Assumptions tie_azeq_reverse.
Print Assumptions tie_lcc_reverse.
