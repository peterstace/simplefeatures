(* Lemmas for property C20: the codecs accept geometries with inserted typed empty members - the
   domains of the round-trip theorems of C04 (WKB), C05 (WKT) and C06 (GeoJSON) are closed under
   insert_empties, so those theorems apply to every such geometry. *)
From Coq Require Import List Bool Arith NArith Lia.
From SF Require Import Base.GeomAST Base.Outcome Model.Empty Proofs.Empty_proofs.
From SF Require Model.WKB Model.WKT Model.GeoJSON Proofs.WKB_proofs Proofs.WKT_proofs Proofs.GeoJSON_proofs.
Import ListNotations.

Section WKT.
  Import Model.WKT.
  Lemma ins_geom_fin (g : geomT N) : forall p, geom_fin (insert_empties g p) = geom_fin g.
  Proof. apply (ins_memberwise N geom_fin point_fin line_fin poly_fin); [intros []|..]; reflexivity. Qed.
  Lemma ins_wkt_dom (g : geomT N) p : wkt_dom (insert_empties g p) = wkt_dom g.
  Proof. unfold wkt_dom. rewrite ins_geom_fin, ins_consistent. reflexivity. Qed.
  Lemma ins_wkt_roundtrip (g : geomT N) p :
    wkt_dom g = true -> unmarshal_wkt (as_text (insert_empties g p)) = Ok (insert_empties g p).
  Proof. intros H. apply WKT_proofs.wkt_roundtrip_lemma. rewrite ins_wkt_dom. exact H. Qed.
End WKT.

Section WKB.
  Import Model.WKB.
  Lemma ins_wkb_roundtrip bo (g : geomT N) p rest :
    wf_wkb g = true -> geom_wf (insert_empties g p) = true ->
    dec (enc_bo bo (insert_empties g p) ++ rest) = Ok (insert_empties g p, rest).
  Proof.
    intros H W. apply WKB_proofs.wkb_roundtrip_lemma. unfold wf_wkb in *.
    rewrite ins_consistent, W. apply andb_true_iff in H. destruct H as [H _]. rewrite H. reflexivity.
  Qed.
End WKB.

Section GJ.
  Import Model.GeoJSON.
  Lemma ins_same_ct (g : geomT N) p : same_ct (insert_empties g p) = same_ct g.
  Proof. unfold same_ct. rewrite ins_geom_ct. apply ins_geom_ok. Qed.
  Lemma ins_gj_roundtrip (g : geomT N) p :
    same_ct g = true -> gj_unmarshal (to_json (insert_empties g p)) = Ok (gj_lossy (insert_empties g p)).
  Proof. intros H. apply GeoJSON_proofs.gj_roundtrip_lemma. rewrite ins_same_ct. exact H. Qed.
End GJ.
