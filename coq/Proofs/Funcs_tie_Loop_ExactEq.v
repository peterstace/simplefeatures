(* Translator tie (third output of tools/gen_funcs, DESIGN.md A.8b), property C18: the comparison of
   two control points of coq/Model/ExactEq.v (coord_eq; xy_exact when no tolerance is given,
   len_sq_gt otherwise) against the bodies of geom/alg_exact_equals.go (eq, exceedsTolerance) and
   geom/coordinate_type.go (Is3D, IsMeasured), as re-read from the Go source into Gen/FuncsLoop.v on
   every run (these functions are loop-free; they use an embedded struct, the operator & and
   math.Ilogb / math.Ldexp, which only the third output translates).  Carrier: Q.
   math.Ilogb is ANY function; math.Ldexp is any function with ldexp x e == x * scale e for some
   positive scale: the rescaling by a common power of two does not change the comparison.
   An edited body in the Go source makes this file fail to compile. *)
From Coq Require Import String ZArith QArith Qabs List Bool Lia Lqa.
From SF Require Import Base.FOps Base.FLoop Gen.FuncsLoop Proofs.Funcs_tie_lib Proofs.Funcs_tie_Loop_lib
  Base.GeomAST Model.ExactEq.
Import ListNotations.
Open Scope Q_scope.

Definition gct (c : ctype) : Z :=
  match c with XY => geom_DimXY | XYZ => geom_DimXYZ | XYM => geom_DimXYM | XYZM => geom_DimXYZM end.
Definition gxy (v : vtx Q) : geom_XY Q := Mk_geom_XY (vx v) (vy v).
Definition gco (ct : ctype) (v : vtx Q) : geom_Coordinates Q :=
  Mk_geom_Coordinates (gxy v) (vz v) (vm v) (gct ct).
Definition gcmp (tol : Q) (io : bool) : geom_exactEqualsComparator Q := Mk_geom_exactEqualsComparator tol io.

(* geom/coordinate_type.go:Is3D, IsMeasured *)
Lemma tie_Is3D : forall c, geom_CoordinatesType_Is3D (gct c) = has_z c.
Proof. intros []; reflexivity. Qed.
Lemma tie_IsMeasured : forall c, geom_CoordinatesType_IsMeasured (gct c) = has_m c.
Proof. intros []; reflexivity. Qed.
Lemma gct_eqb : forall a b, Z.eqb (gct a) (gct b) = ct_eqb a b.
Proof. intros [] []; reflexivity. Qed.

Section WithLdexp.
  Variables (ilogb : Q -> Z) (ldexp : Q -> Z -> Q) (scale : Z -> Q).
  Hypothesis ldexp_scale : forall x e, ldexp x e == x * scale e.
  Hypothesis scale_pos : forall e, 0 < scale e.

  Lemma Qabs_sq : forall p, Qabs p * Qabs p == p * p.
  Proof. intro p. apply Qabs_case; intros; ring. Qed.

  Lemma scaled_len_sq_gt : forall tol p q e,
    q_ltb (ldexp tol e * ldexp tol e) (ldexp (Qabs p) e * ldexp (Qabs p) e + ldexp (Qabs q) e * ldexp (Qabs q) e)
    = negb (Qle_bool (p * p + q * q) (tol * tol)).
  Proof.
    intros tol p q e. unfold q_ltb. f_equal. apply Qle_bool_ext. rewrite !ldexp_scale.
    pose proof (scale_pos e) as Hp. set (s := scale e) in *.
    setoid_replace (Qabs p * s * (Qabs p * s) + Qabs q * s * (Qabs q * s)) with ((p * p + q * q) * (s * s))
      by (rewrite <- (Qabs_sq p), <- (Qabs_sq q); ring).
    setoid_replace (tol * s * (tol * s)) with (tol * tol * (s * s)) by ring.
    apply Qmult_le_r. nra.
  Qed.

  (* geom/alg_exact_equals.go:exceedsTolerance *)
  Lemma tie_exceedsTolerance : forall tol io a b,
    geom_exactEqualsComparator_exceedsTolerance qops ilogb ldexp (gcmp tol io) (gxy a) (gxy b)
    = len_sq_gt (EFin (vx a - vx b)) (EFin (vy a - vy b)) tol.
  Proof.
    intros tol io a b. unfold geom_exactEqualsComparator_exceedsTolerance, len_sq_gt.
    cbn [gcmp gxy geom_exactEqualsComparator_tolerance geom_XY_X geom_XY_Y qops qops_with
         f_is_nan f_abs f_sub f_max f_min f_gtb f_add f_mul negb].
    cbv zeta. cbv iota. apply scaled_len_sq_gt.
  Qed.

  (* the XY part of eq, with or without a tolerance *)
  Definition xy_eq_tol (tol : Q) (a b : vtx Q) : bool :=
    if Qeq_bool tol 0 then xy_exact Qeq_bool a b
    else negb (len_sq_gt (EFin (vx a - vx b)) (EFin (vy a - vy b)) tol).

  (* geom/alg_exact_equals.go:eq *)
  Lemma tie_eq : forall tol io cta a ctb b,
    geom_exactEqualsComparator_eq qops ilogb ldexp (gcmp tol io) (gco cta a) (gco ctb b)
    = coord_eq Qeq_bool (xy_eq_tol tol) cta a ctb b.
  Proof.
    intros tol io cta a ctb b. unfold geom_exactEqualsComparator_eq, coord_eq, xy_eq_tol.
    cbn [gco geom_Coordinates_Type geom_Coordinates_XY geom_Coordinates_Z geom_Coordinates_M].
    rewrite gct_eqb, tie_Is3D, tie_IsMeasured, tie_exceedsTolerance.
    cbn [gcmp geom_exactEqualsComparator_tolerance qops qops_with f_eqb f_of_Z].
    change (inject_Z 0) with 0.
    destruct (ct_eqb cta ctb); [|reflexivity]. cbn [negb andb].
    unfold geom_XY_eqb, xy_exact. cbn [gxy geom_XY_X geom_XY_Y qops qops_with f_eqb].
    destruct (Qeq_bool tol 0).
    - destruct (Qeq_bool (vx a) (vx b) && Qeq_bool (vy a) (vy b)); [|reflexivity]. cbn [negb andb].
      destruct (has_z cta), (has_m cta), (Qeq_bool (vz a) (vz b)), (Qeq_bool (vm a) (vm b)); reflexivity.
    - destruct (len_sq_gt _ _ tol); [reflexivity|]. cbn [negb andb].
      destruct (has_z cta), (has_m cta), (Qeq_bool (vz a) (vz b)), (Qeq_bool (vm a) (vm b)); reflexivity.
  Qed.
End WithLdexp.

(* the hypotheses of the section are satisfiable (scale e = 2^e is the intended reading; the
   constant scale 1 already satisfies them) *)
Example ldexp_hypotheses_satisfiable :
  (forall (x : Q) (e : Z), (fun (x : Q) (_ : Z) => x) x e == x * (fun _ : Z => 1) e) /\ (forall e : Z, 0 < (fun _ : Z => 1) e).
Proof. split; intros; [ring|reflexivity]. Qed.
