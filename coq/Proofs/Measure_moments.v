(* Property C14 - the centroid IS the centre of mass of the point set (first moments / area, both
   measured by the slab decomposition).  Definitions: Model/MeasureMoments.v.

   Part 0: the closed forms [tz_area], [tz_mx], [tz_my] pinned down independently of any ring code:
     finitely additive under a vertical cut and under a cut by a segment joining the two vertical
     sides, translation, scaling, rectangle, triangle.
   Part 1: a generic statement about "edge functionals".  Let G x0 x1 a b be a number attached to
     the piece from (x0,a) to (x1,b) of a non-vertical line (for instance the integral over
     [x0,x1] of a function of x and of the height of the line), additive along every line
     ([G_add]) and zero on pieces of width zero ([G_zero]).  Then for EVERY closed ring
       sum over the edges e of G(e)  =  sum over the cells c of the slab decomposition of
                                        (winding number at the witness of c) * (G(upper edge of c) - G(lower edge of c))
     ([ring_functional_is_winding_sum]).  Route, as for the area in Proofs/Measure_slab.v:
     (1) G(e) splits over the slabs e spans (Measure_slab.edge_slabs_gen, telescoping of the antiderivative [HG]);
     (2) in a slab the value on a spanning edge minus the value on the lowest spanning edge is the
     sum of the cell terms below it (Measure_slab.fun_gaps, telescoping over the heights; needs: two segments
     of the arrangement with a common point inside a slab are collinear - [hts_coherent], from
     Planar_slab_base.zero_in_slab); (3) a closed ring crosses every slab equally often both ways
     (Measure_slab.ring_balance); (4) exchange the sums (Measure_slab.edge_sum_winding).
   Part 2: instances G = integral of 1, x, y/2 dy... : area, x-moment, y-moment; the fan sums of
     centroidOfRing are -2, -6, -6 times the edge sums on a closed ring ([fan_edge_sums]); hence
     [ring_moment_is_winding_moment_lemma].
   Part 3: winding number 0 / sigma at the witnesses => centroid_of_ring = moments / area of the
     point set ([centroid_is_slab_centroid_lemma]); polygons with holes under pointwise nesting
     ([centroid_is_slab_centroid_holes_lemma]); executable hypotheses
     ([slab_hypotheses_centroid]); multipolygons with pointwise disjoint members
     ([mpoly_centroid_is_slab_centroid_lemma]). *)
From Coq Require Import QArith Qabs Qreduction List Bool ZArith Lia Lqa Setoid Morphisms.
From SF Require Import Base.GeomAST Base.QKernel Base.Planar Proofs.Planar_slab_base.
From SF Require Import Model.SetOpSpec.
From SF Require Import Model.Measure Proofs.Measure_proofs Proofs.Measure_slab.
From SF Require Import Model.MeasureMoments.
Import ListNotations.
Open Scope Q_scope.

(* ------------------------------------------------------------------------------------------ *)
(* Part 0: the closed forms                                                                    *)
(* ------------------------------------------------------------------------------------------ *)
Ltac tz_unfold :=
  unfold tz_area, tz_mx, tz_my, tz_left, tz_right, tz_below, tz_above, tz_translate, tz_scale, tz_scale_xy,
         tz_rect, tz_tri, lerp_h; cbn [tx0 tx1 tl0 tl1 tu0 tu1 fst snd].

(* cut by the vertical line at abscissa x (any x: the formulas are signed) *)
Lemma tz_split_vertical : forall c x, ~ tx0 c == tx1 c ->
  tz_area (tz_left c x) + tz_area (tz_right c x) == tz_area c /\
  tz_mx (tz_left c x) + tz_mx (tz_right c x) == tz_mx c /\
  tz_my (tz_left c x) + tz_my (tz_right c x) == tz_my c.
Proof.
  intros [x0 x1 l0 l1 u0 u1] x H. cbn [tx0 tx1] in H. tz_unfold.
  assert (D : ~ x1 - x0 == 0) by (intros K; apply H; lra).
  repeat split; field; exact D.
Qed.

(* cut by the segment from (x0,m0) to (x1,m1) *)
Lemma tz_split_segment : forall c m0 m1,
  tz_area (tz_below c m0 m1) + tz_area (tz_above c m0 m1) == tz_area c /\
  tz_mx (tz_below c m0 m1) + tz_mx (tz_above c m0 m1) == tz_mx c /\
  tz_my (tz_below c m0 m1) + tz_my (tz_above c m0 m1) == tz_my c.
Proof. intros [x0 x1 l0 l1 u0 u1] m0 m1. tz_unfold. repeat split; field. Qed.

Lemma tz_translate_moments : forall t c,
  tz_area (tz_translate t c) == tz_area c /\
  tz_mx (tz_translate t c) == tz_mx c + fst t * tz_area c /\
  tz_my (tz_translate t c) == tz_my c + snd t * tz_area c.
Proof. intros [tx ty] [x0 x1 l0 l1 u0 u1]. tz_unfold. repeat split; field. Qed.

Lemma tz_scale_moments : forall k c,
  tz_area (tz_scale k c) == k * k * tz_area c /\
  tz_mx (tz_scale k c) == k * k * k * tz_mx c /\
  tz_my (tz_scale k c) == k * k * k * tz_my c.
Proof. intros k [x0 x1 l0 l1 u0 u1]. tz_unfold. repeat split; field. Qed.

Lemma tz_scale_xy_moments : forall kx ky c,
  tz_area (tz_scale_xy kx ky c) == kx * ky * tz_area c /\
  tz_mx (tz_scale_xy kx ky c) == kx * kx * ky * tz_mx c /\
  tz_my (tz_scale_xy kx ky c) == kx * ky * ky * tz_my c.
Proof. intros kx ky [x0 x1 l0 l1 u0 u1]. tz_unfold. repeat split; field. Qed.

Lemma tz_rect_moments : forall x0 x1 y0 y1,
  tz_area (tz_rect x0 x1 y0 y1) == (x1 - x0) * (y1 - y0) /\
  tz_mx (tz_rect x0 x1 y0 y1) == (x0 + x1) / 2 * tz_area (tz_rect x0 x1 y0 y1) /\
  tz_my (tz_rect x0 x1 y0 y1) == (y0 + y1) / 2 * tz_area (tz_rect x0 x1 y0 y1).
Proof. intros. tz_unfold. repeat split; field. Qed.

(* the triangle (x0,a) (x1,b) (x1,c): first moments = area * mean of the three vertices *)
Lemma tz_tri_moments : forall x0 x1 a b c,
  tz_area (tz_tri x0 x1 a b c) == (x1 - x0) * (c - b) / 2 /\
  tz_mx (tz_tri x0 x1 a b c) == (x0 + x1 + x1) / 3 * tz_area (tz_tri x0 x1 a b c) /\
  tz_my (tz_tri x0 x1 a b c) == (a + b + c) / 3 * tz_area (tz_tri x0 x1 a b c).
Proof. intros. tz_unfold. repeat split; field. Qed.

(* ------------------------------------------------------------------------------------------ *)
(* structure of the cell list                                                                  *)
(* ------------------------------------------------------------------------------------------ *)
Lemma gap_tcells_consec : forall L x0 x1 ys, gap_tcells L x0 x1 ys = map (gap_tcell L x0 x1) (consec ys).
Proof. intros L x0 x1 ys. rewrite <- flat_map_single. apply (consec_blocks _ (gap_tcells L x0 x1)); reflexivity. Qed.

Definition slab_tcells_of (L : list seg) (xx : Q * Q) : list (pt * tcell) :=
  map (gap_tcell L (fst xx) (snd xx)) (consec (slab_heights L (qmid (fst xx) (snd xx)))).

Lemma slab_tcells_consec : forall L xs, slab_tcells L xs = flat_map (slab_tcells_of L) (consec xs).
Proof.
  intros L xs. rewrite (consec_blocks _ (slab_tcells L)
    (fun xx => gap_tcells L (fst xx) (snd xx) (slab_heights L (qmid (fst xx) (snd xx))))) by reflexivity.
  apply flat_map_ext. intros xx. apply gap_tcells_consec.
Qed.

(* same witnesses, in the same order, as the cells of SetOpSpec *)
Lemma tcells_witnesses : forall L xs, map fst (slab_tcells L xs) = map fst (slab_cells L xs).
Proof.
  intros L xs. rewrite slab_tcells_consec, slab_cells_consec.
  induction (consec xs) as [|xx r IH]; [reflexivity|]. cbn [flat_map]. rewrite !map_app, IH. f_equal.
  unfold slab_tcells_of, slab_cells_of. rewrite gap_cells_consec, !map_map. apply map_ext. intros yy. reflexivity.
Qed.

Lemma tproj_witnesses : forall F cells, map fst (tproj F cells) = map fst cells.
Proof. intros. unfold tproj. rewrite map_map. reflexivity. Qed.

Lemma in_moment_cells_witness : forall F L P c, In c (tproj F (moment_cells L P)) ->
  exists c', In c' (slab_cells L (events (vertex_set L P))) /\ fst c' = fst c.
Proof.
  intros F L P c H. apply (in_map fst) in H. unfold moment_cells in H. rewrite tproj_witnesses, tcells_witnesses in H.
  apply in_map_iff in H. destruct H as [c' [E Hc']]. exists c'. auto.
Qed.

(* weighted cell sums in double-sum form *)
Lemma tcells_wsum_slabs : forall F L xs w,
  cells_wsum (tproj F (slab_tcells L xs)) w ==
  qsum (map (fun xx =>
         qsum (map (fun yy => w (qmid (fst xx) (snd xx), qmid (fst yy) (snd yy)) *
                              F (snd (gap_tcell L (fst xx) (snd xx) yy)))
                   (consec (slab_heights L (qmid (fst xx) (snd xx)))))) (consec xs)).
Proof.
  intros F L xs w. unfold cells_wsum, tproj. rewrite map_map, slab_tcells_consec, qsum_flat_map.
  apply qsum_map_ext_all. intros xx. unfold slab_tcells_of. rewrite map_map. reflexivity.
Qed.


(* ------------------------------------------------------------------------------------------ *)
(* inside a slab of the arrangement the edge through a height is determined up to collinearity *)
(* ------------------------------------------------------------------------------------------ *)
Lemma spans_open_iff : forall e xm, spans_open e xm = true <-> nonvertical e /\ spanb e xm = true.
Proof.
  intros e xm. unfold spans_open. rewrite andb_true_iff, negb_true_iff, seg_vertical_false. unfold spanb. reflexivity.
Qed.

Lemma hts_coherent : forall L P x0 x1, In (x0, x1) (consec (events (vertex_set L P))) ->
  forall e y, In e L -> spanb e (qmid x0 x1) = true -> y == y_at e (qmid x0 x1) ->
  fst (hts_at L x0 x1 (qmid x0 x1) y) == y_at e x0 /\ snd (hts_at L x0 x1 (qmid x0 x1) y) == y_at e x1.
Proof.
  intros L P x0 x1 Hxx e y He S E.
  set (xm := qmid x0 x1) in *.
  pose proof (xm_inside L P (x0, x1) Hxx) as Hm. cbn [fst snd] in Hm. fold xm in Hm.
  pose proof (spanb_nonvertical e xm S) as NV.
  assert (Sp : forall f, In f L -> spanb f xm = true -> Planar_slab_base.spans x0 x1 f).
  { intros f Hf Sf. apply (spans_iff L P x0 x1 Hxx f xm Hf Hm (spanb_nonvertical f xm Sf)).
    apply spanb_iff in Sf. exact Sf. }
  unfold hts_at, edge_at.
  destruct (find (fun e0 => spans_open e0 xm && Qeq_bool (seg_y_at e0 xm) y) L) as [f|] eqn:F.
  - apply find_some in F. destruct F as [Hf Pf]. apply andb_true_iff in Pf. destruct Pf as [Pf1 Pf2].
    apply spans_open_iff in Pf1. destruct Pf1 as [NVf Sf]. apply Qeq_bool_iff in Pf2. rewrite seg_y_at_eq in Pf2.
    assert (Z : forall u, y_at f u == y_at e u).
    { apply (zero_in_slab L P x0 x1 Hxx f e xm Hf He (Sp f Hf Sf) (Sp e He S) Hm). rewrite Pf2, E. reflexivity. }
    cbn [fst snd]. rewrite !seg_y_at_eq. split; apply Z.
  - exfalso. pose proof (find_none _ _ F e He) as K. cbv beta in K.
    assert (K1 : spans_open e xm = true) by (apply spans_open_iff; split; assumption).
    assert (K2 : Qeq_bool (seg_y_at e xm) y = true) by (apply Qeq_bool_iff; rewrite seg_y_at_eq, E; reflexivity).
    rewrite K1, K2 in K. discriminate.
Qed.

(* every height of the slab is the height of a spanning segment *)
Lemma height_has_edge : forall L xm y, In y (slab_heights L xm) ->
  exists e, In e L /\ spanb e xm = true /\ y == y_at e xm.
Proof.
  intros L xm y H. unfold slab_heights in H. apply qsort_in in H. apply in_flat_map in H.
  destruct H as [e [He H]]. destruct (seg_vertical e); [destruct H|].
  fold (spanb e xm) in H. destruct (spanb e xm) eqn:S; [|destruct H].
  destruct H as [<-|[]]. exists e. split; [exact He|]. split; [exact S|apply seg_y_at_eq].
Qed.

(* ------------------------------------------------------------------------------------------ *)
(* Part 1: edge functionals                                                                    *)
(* ------------------------------------------------------------------------------------------ *)
Section Functional.
  Variable G : Q -> Q -> Q -> Q -> Q.
  Hypothesis G_proper : Proper (Qeq ==> Qeq ==> Qeq ==> Qeq ==> Qeq) G.
  Hypothesis G_zero : forall x0 x1 a b, x0 == x1 -> G x0 x1 a b == 0.
  Hypothesis G_add : forall e : seg, nonvertical e -> forall x0 x1 x2,
    G x0 x1 (y_at e x0) (y_at e x1) + G x1 x2 (y_at e x1) (y_at e x2) == G x0 x2 (y_at e x0) (y_at e x2).

  (* the value on a whole edge, on the piece of an edge's line over a slab, on a cell *)
  Definition edge_term (e : seg) : Q := G (fst (fst e)) (fst (snd e)) (snd (fst e)) (snd (snd e)).
  Definition piece_term (e : seg) (x0 x1 : Q) : Q := G x0 x1 (y_at e x0) (y_at e x1).
  Definition cell_term (c : tcell) : Q := G (tx0 c) (tx1 c) (tu0 c) (tu1 c) - G (tx0 c) (tx1 c) (tl0 c) (tl1 c).

  Lemma edge_term_vertical : forall e : seg, fst (fst e) == fst (snd e) -> edge_term e == 0.
  Proof. intros e E. unfold edge_term. apply G_zero. exact E. Qed.

  (* (1) an edge's term splits over the slabs it spans *)
  Section EdgeSlabsG.
    Variable e : seg.
    Hypothesis NV : nonvertical e.
    Definition HG (x : Q) : Q := piece_term e (fst (fst e)) x.

    Lemma HG_diff : forall x0 x1, HG x1 - HG x0 == piece_term e x0 x1.
    Proof. intros x0 x1. unfold HG, piece_term. rewrite <- (G_add e NV (fst (fst e)) x0 x1). ring. Qed.
    Lemma HG_first : HG (fst (fst e)) == 0.
    Proof. unfold HG, piece_term. apply G_zero. reflexivity. Qed.
    Lemma HG_second : HG (fst (snd e)) == edge_term e.
    Proof.
      unfold HG, piece_term, edge_term. destruct e as [a b]. cbn [fst snd] in *.
      destruct (y_at_ends a b NV) as [Ha Hb]. rewrite Ha, Hb. reflexivity.
    Qed.
    Instance HG_proper : Proper (Qeq ==> Qeq) HG.
    Proof. intros x x' E. unfold HG, piece_term. rewrite E. reflexivity. Qed.

  End EdgeSlabsG.

  (* (2) inside a slab of the arrangement *)
  Section MainG.
    Variables (L : list seg) (P : list pt) (ps : list pt).
    Hypothesis Hincl : incl (ring_edges ps) L.
    Hypothesis Hclosed : pts_closed ps = true.
    Let xs := events (vertex_set L P).
    Let es := ring_edges ps.

    Section OneSlabG.
      Variable xx : Q * Q.
      Hypothesis Hxx : In xx (consec xs).
      Let xm := qmid (fst xx) (snd xx).
      Let hs := slab_heights L xm.
      (* the value on the edge that has height y at the middle of the slab *)
      Definition gh (y : Q) : Q :=
        let h := hts_at L (fst xx) (snd xx) (qmid (fst xx) (snd xx)) y in G (fst xx) (snd xx) (fst h) (snd h).

      Lemma gh_edge : forall e ystar, In e L -> spanb e xm = true -> ystar == y_at e xm ->
        gh ystar == piece_term e (fst xx) (snd xx).
      Proof.
        intros e ystar He S E. unfold gh, piece_term. cbv zeta.
        destruct xx as [x0 x1]. cbn [fst snd] in *.
        destruct (hts_coherent L P x0 x1 Hxx e ystar He S E) as [H0 H1].
        rewrite H0, H1. reflexivity.
      Qed.
    End OneSlabG.

    (* for every closed ring: the sum of the edge terms is the sum over the cells of the slab
       decomposition of (winding number at the witness) * (term of the cell) *)
    Theorem ring_functional_is_winding_sum :
      qsum (map edge_term es) ==
      cells_wsum (tproj cell_term (slab_tcells L xs)) (fun p => inject_Z (zwind es p)).
    Proof.
      unfold es. rewrite tcells_wsum_slabs,
        (edge_sum_winding L P ps Hincl Hclosed edge_term HG gh HG_proper edge_term_vertical).
      - apply qsum_map_ext_all. intros xx. apply qsum_map_ext_all. intros yy.
        unfold gap_tcell, cell_term, gh. cbn [snd tx0 tx1 tl0 tl1 tu0 tu1]. ring.
      - intros e NV. rewrite HG_first, (HG_second e NV). ring.
      - intros xx e y Hxx He S E. rewrite (HG_diff e (spanb_nonvertical e _ S)). apply (gh_edge xx Hxx e y He S E).
    Qed.
  End MainG.
End Functional.

(* ------------------------------------------------------------------------------------------ *)
(* Part 2: area, x-moment, y-moment as edge functionals; the fan sums of centroidOfRing        *)
(* ------------------------------------------------------------------------------------------ *)
(* integrals over [x0,x1] of h(x), x h(x), h(x)^2 / 2 for the affine h with h(x0) = a, h(x1) = b:
   the area, the integral of x and the integral of y over the region between the piece and the x axis *)
Definition Garea (x0 x1 a b : Q) : Q := (x1 - x0) * (a + b) / 2.
Definition Gmx (x0 x1 a b : Q) : Q := (x1 - x0) * (2 * x0 * a + x0 * b + x1 * a + 2 * x1 * b) / 6.
Definition Gmy (x0 x1 a b : Q) : Q := (x1 - x0) * (a * a + a * b + b * b) / 6.

#[global] Instance Garea_proper : Proper (Qeq ==> Qeq ==> Qeq ==> Qeq ==> Qeq) Garea.
Proof. unfold Garea. solve_proper. Qed.
#[global] Instance Gmx_proper : Proper (Qeq ==> Qeq ==> Qeq ==> Qeq ==> Qeq) Gmx.
Proof. unfold Gmx. solve_proper. Qed.
#[global] Instance Gmy_proper : Proper (Qeq ==> Qeq ==> Qeq ==> Qeq ==> Qeq) Gmy.
Proof. unfold Gmy. solve_proper. Qed.

Lemma Garea_zero : forall x0 x1 a b, x0 == x1 -> Garea x0 x1 a b == 0.
Proof. intros x0 x1 a b E. unfold Garea. rewrite E. field. Qed.
Lemma Gmx_zero : forall x0 x1 a b, x0 == x1 -> Gmx x0 x1 a b == 0.
Proof. intros x0 x1 a b E. unfold Gmx. rewrite E. field. Qed.
Lemma Gmy_zero : forall x0 x1 a b, x0 == x1 -> Gmy x0 x1 a b == 0.
Proof. intros x0 x1 a b E. unfold Gmy. rewrite E. field. Qed.

Lemma Garea_add : forall e : seg, nonvertical e -> forall x0 x1 x2,
  Garea x0 x1 (y_at e x0) (y_at e x1) + Garea x1 x2 (y_at e x1) (y_at e x2) == Garea x0 x2 (y_at e x0) (y_at e x2).
Proof.
  intros [[xa ya] [xb yb]] NV x0 x1 x2. unfold nonvertical in NV. unfold Garea, y_at. cbn [fst snd] in *.
  field. intros K. apply NV. lra.
Qed.
Lemma Gmx_add : forall e : seg, nonvertical e -> forall x0 x1 x2,
  Gmx x0 x1 (y_at e x0) (y_at e x1) + Gmx x1 x2 (y_at e x1) (y_at e x2) == Gmx x0 x2 (y_at e x0) (y_at e x2).
Proof.
  intros [[xa ya] [xb yb]] NV x0 x1 x2. unfold nonvertical in NV. unfold Gmx, y_at. cbn [fst snd] in *.
  field. intros K. apply NV. lra.
Qed.
Lemma Gmy_add : forall e : seg, nonvertical e -> forall x0 x1 x2,
  Gmy x0 x1 (y_at e x0) (y_at e x1) + Gmy x1 x2 (y_at e x1) (y_at e x2) == Gmy x0 x2 (y_at e x0) (y_at e x2).
Proof.
  intros [[xa ya] [xb yb]] NV x0 x1 x2. unfold nonvertical in NV. unfold Gmy, y_at. cbn [fst snd] in *.
  field. intros K. apply NV. lra.
Qed.

(* the cell terms are the closed forms of Model/MeasureMoments.v *)
Lemma cell_term_area : forall c, cell_term Garea c == tz_area c.
Proof. intros [x0 x1 l0 l1 u0 u1]. unfold cell_term, Garea, tz_area. cbn [tx0 tx1 tl0 tl1 tu0 tu1]. field. Qed.
Lemma cell_term_mx : forall c, cell_term Gmx c == tz_mx c.
Proof. intros [x0 x1 l0 l1 u0 u1]. unfold cell_term, Gmx, tz_mx. cbn [tx0 tx1 tl0 tl1 tu0 tu1]. field. Qed.
Lemma cell_term_my : forall c, cell_term Gmy c == tz_my c.
Proof. intros [x0 x1 l0 l1 u0 u1]. unfold cell_term, Gmy, tz_my. cbn [tx0 tx1 tl0 tl1 tu0 tu1]. field. Qed.

Lemma cells_wsum_tproj_ext : forall (F F' : tcell -> Q) cells w, (forall c, F c == F' c) ->
  cells_wsum (tproj F cells) w == cells_wsum (tproj F' cells) w.
Proof.
  intros F F' cells w H. unfold cells_wsum, tproj. rewrite !map_map. apply qsum_map_ext_all.
  intros c. cbn [fst snd]. rewrite H. reflexivity.
Qed.

(* per-edge identities: the fan triangle (b,p,q) against the edge p -> q, up to a potential *)
Definition pot_area (b q : xy) : Q := fst q * snd q - e_cross b q.
Definition pot_mx (b q : xy) : Q :=
  2 * fst q * fst q * snd q - fst b * fst q * snd q + snd b * fst q * fst q - fst b * e_cross b q.
Definition pot_my (b q : xy) : Q :=
  fst q * snd q * snd q + snd b * snd q * fst q - fst b * snd q * snd q - snd b * e_cross b q.

Lemma fan_edge_area : forall b p q : xy,
  e_tri b p q == -2 * edge_term Garea (p, q) + pot_area b q - pot_area b p.
Proof. intros [xb yb] [xp yp] [xq yq]. unfold e_tri, tri_area2, edge_term, Garea, pot_area, e_cross. cbn [fst snd]. field. Qed.
Lemma fan_edge_mx : forall b p q : xy,
  e_c6x b p q == -6 * edge_term Gmx (p, q) + pot_mx b q - pot_mx b p.
Proof. intros [xb yb] [xp yp] [xq yq]. unfold e_c6x, tri_area2, edge_term, Gmx, pot_mx, e_cross. cbn [fst snd]. field. Qed.
Lemma fan_edge_my : forall b p q : xy,
  e_c6y b p q == -6 * edge_term Gmy (p, q) + pot_my b q - pot_my b p.
Proof. intros [xb yb] [xp yp] [xq yq]. unfold e_c6y, tri_area2, edge_term, Gmy, pot_my, e_cross. cbn [fst snd]. field. Qed.

(* the sums centroidOfRing accumulates, on a closed ring: -2 x, -6 x, -6 x the edge sums *)
Lemma fan_edge_sums : forall ps : list pt, pts_closed ps = true ->
  ring_fan2 ps == -2 * qsum (map (edge_term Garea) (ring_edges ps)) /\
  fst (ring_fan6 ps) == -6 * qsum (map (edge_term Gmx) (ring_edges ps)) /\
  snd (ring_fan6 ps) == -6 * qsum (map (edge_term Gmy) (ring_edges ps)).
Proof.
  intros [|b tl] Hc; [cbn; repeat split; reflexivity|].
  unfold ring_fan2, ring_fan6. destruct (fan_spec b tl) as [H1 [H2 H3]]. rewrite H1, H2, H3.
  rewrite !edge_sum_pairsum.
  destruct tl as [|p r]; [cbn; repeat split; reflexivity|].
  unfold pts_closed in Hc. rewrite last_cons_default in Hc. apply pt_eqb_iff in Hc. destruct Hc as [Hx Hy].
  cbn [psum pairsum].
  rewrite (pairsum_telescope _ _ _ (fan_edge_area b)), (pairsum_telescope _ _ _ (fan_edge_mx b)),
    (pairsum_telescope _ _ _ (fan_edge_my b)), !pairsum_scale.
  unfold pot_area, pot_mx, pot_my, e_cross. rewrite <- Hx, <- Hy.
  unfold edge_term, Garea, Gmx, Gmy. cbn [fst snd].
  set (S1 := pairsum _ p r). set (S2 := pairsum _ p r). set (S3 := pairsum _ p r).
  repeat split; field.
Qed.

(* THE RING THEOREM: for every closed ring (simple or not), in any arrangement (L, P) containing its
   edges, the numerators centroidOfRing accumulates are -2, -6, -6 times the sums over the cells of
   (winding number at the witness) * (area, integral of x, integral of y of the cell) *)
Theorem ring_moment_is_winding_moment_lemma : forall (L : list seg) (P : list pt) (ps : list pt),
  incl (ring_edges ps) L -> pts_closed ps = true ->
  let cells := moment_cells L P in
  let w := fun p => inject_Z (zwind (ring_edges ps) p) in
  ring_fan2 ps == -2 * cells_wsum (tproj tz_area cells) w /\
  fst (ring_fan6 ps) == -6 * cells_wsum (tproj tz_mx cells) w /\
  snd (ring_fan6 ps) == -6 * cells_wsum (tproj tz_my cells) w.
Proof.
  intros L P ps Hi Hc cells w. destruct (fan_edge_sums ps Hc) as [H1 [H2 H3]]. rewrite H1, H2, H3.
  rewrite (ring_functional_is_winding_sum Garea Garea_proper Garea_zero Garea_add L P ps Hi Hc).
  rewrite (ring_functional_is_winding_sum Gmx Gmx_proper Gmx_zero Gmx_add L P ps Hi Hc).
  rewrite (ring_functional_is_winding_sum Gmy Gmy_proper Gmy_zero Gmy_add L P ps Hi Hc).
  unfold cells, moment_cells, w.
  rewrite (cells_wsum_tproj_ext _ _ _ _ cell_term_area), (cells_wsum_tproj_ext _ _ _ _ cell_term_mx),
          (cells_wsum_tproj_ext _ _ _ _ cell_term_my).
  repeat split; reflexivity.
Qed.

(* ------------------------------------------------------------------------------------------ *)
(* the cells are those of SetOpSpec: same witnesses, same areas                                *)
(* ------------------------------------------------------------------------------------------ *)
Lemma y_at_mid : forall e x0 x1, nonvertical e -> y_at e x0 + y_at e x1 == 2 * y_at e (qmid x0 x1).
Proof.
  intros e x0 x1 NV. rewrite qmid_eq.
  assert (E : (x0 + x1) / 2 == (1 - (1 # 2)) * x0 + (1 # 2) * x1) by field.
  rewrite E, (y_at_affine e x0 x1 (1 # 2) NV). field.
Qed.

Lemma tcell_area_eq : forall L P xx yy, In xx (consec (events (vertex_set L P))) ->
  In yy (consec (slab_heights L (qmid (fst xx) (snd xx)))) ->
  tz_area (snd (gap_tcell L (fst xx) (snd xx) yy)) == (snd xx - fst xx) * (snd yy - fst yy).
Proof.
  intros L P [x0 x1] [y1 y2] Hxx Hyy. cbn [fst snd] in *.
  destruct (consec_in _ _ _ Hyy) as [In1 In2].
  destruct (height_has_edge L _ y1 In1) as [e1 [He1 [S1 E1]]].
  destruct (height_has_edge L _ y2 In2) as [e2 [He2 [S2 E2]]].
  destruct (hts_coherent L P x0 x1 Hxx e1 y1 He1 S1 E1) as [A0 A1].
  destruct (hts_coherent L P x0 x1 Hxx e2 y2 He2 S2 E2) as [B0 B1].
  unfold gap_tcell, tz_area. cbn [snd tx0 tx1 tl0 tl1 tu0 tu1 fst]. rewrite A0, A1, B0, B1.
  pose proof (y_at_mid e1 x0 x1 (spanb_nonvertical _ _ S1)) as M1.
  pose proof (y_at_mid e2 x0 x1 (spanb_nonvertical _ _ S2)) as M2.
  rewrite <- E1 in M1. rewrite <- E2 in M2.
  set (a0 := y_at e1 x0) in *. set (a1 := y_at e1 x1) in *. set (b0 := y_at e2 x0) in *. set (b1 := y_at e2 x1) in *.
  assert (K : (b0 - a0) + (b1 - a1) == 2 * (y2 - y1)) by lra.
  rewrite K. field.
Qed.

Lemma tcells_area_wsum : forall L P w,
  cells_wsum (tproj tz_area (moment_cells L P)) w == cells_wsum (slab_cells L (events (vertex_set L P))) w.
Proof.
  intros L P w. unfold moment_cells. rewrite tcells_wsum_slabs, cells_wsum_slabs.
  apply qsum_map_ext_in. intros xx Hxx.
  apply qsum_map_ext_in. intros yy Hyy.
  rewrite (tcell_area_eq L P xx yy Hxx Hyy). reflexivity.
Qed.

(* the area of a point set measured on the cells with shape is C01's slab functional *)
Lemma set_area_is_area_of : forall L P f, set_area L P f == area_of L P f.
Proof. intros L P f. unfold set_area, area_of. rewrite !cells_area_wsum. apply tcells_area_wsum. Qed.

(* ------------------------------------------------------------------------------------------ *)
(* Part 3: rings whose winding number is 0 / sigma at the witnesses                            *)
(* ------------------------------------------------------------------------------------------ *)
Lemma winding_simple_wsum : forall F L P es sigma, (sigma = 1 \/ sigma = -1)%Z ->
  winding_simple sigma es (slab_cells L (events (vertex_set L P))) = true ->
  cells_wsum (tproj F (moment_cells L P)) (fun p => inject_Z (zwind es p)) ==
  inject_Z sigma * cells_area (tproj F (moment_cells L P)) (vparity es).
Proof.
  intros F L P es sigma Hs Hw. rewrite cells_area_wsum, <- cells_wsum_scale. apply cells_wsum_ext_in.
  intros c Hin. destruct (in_moment_cells_witness F L P c Hin) as [c' [Hc' <-]].
  apply (winding_simple_parity sigma _ _ Hs Hw c' Hc').
Qed.

Lemma centroid_ring_fan : forall ps : list xy,
  xy_eq (centroid_of_ring_xy ps)
        (fst (ring_fan6 ps) * (1 / 3 / ring_fan2 ps), snd (ring_fan6 ps) * (1 / 3 / ring_fan2 ps)).
Proof.
  intros [|b tl]; unfold xy_eq, centroid_of_ring_xy, ring_fan6, ring_fan2; cbn [fst snd xy0].
  - split; ring.
  - destruct (fan b tl) as [a2 c6]. unfold xy_scale. cbn [fst snd]. split; reflexivity.
Qed.

Lemma Qinv_0 : / 0 == 0. Proof. reflexivity. Qed.

Lemma moment_quotient : forall (sigma : Z) X A, (sigma = 1 \/ sigma = -1)%Z ->
  (-6 * (inject_Z sigma * X)) * (1 / 3 / (-2 * (inject_Z sigma * A))) == X / A.
Proof.
  intros sigma X A Hs. destruct (Qeq_dec A 0) as [E|N].
  - assert (Z : -2 * (inject_Z sigma * A) == 0) by (rewrite E; ring).
    rewrite Z, E. unfold Qdiv. rewrite Qinv_0. ring.
  - destruct Hs as [-> | ->].
    + change (inject_Z 1) with 1. field. exact N.
    + change (inject_Z (-1)) with (-1). field. exact N.
Qed.

(* per ring: the centroid of the ring is (integral of x, integral of y) / area of the set of points
   of odd crossing parity *)
Lemma ring_centroid_is_parity_centroid : forall (L : list seg) (P : list pt) (ps : list pt) (sigma : Z),
  incl (segs_of_pts ps) L -> pts_closed ps = true -> (sigma = 1 \/ sigma = -1)%Z ->
  winding_simple sigma (ring_edges ps) (slab_cells L (events (vertex_set L P))) = true ->
  xy_eq (centroid_of_ring_xy ps) (set_centroid L P (vparity (ring_edges ps))).
Proof.
  intros L P ps sigma Hi Hc Hs Hw.
  assert (Hi' : incl (ring_edges ps) L) by (intros e He; apply Hi, ring_edges_incl_segs, He).
  destruct (ring_moment_is_winding_moment_lemma L P ps Hi' Hc) as [H1 [H2 H3]]. cbv zeta in H1, H2, H3.
  rewrite (winding_simple_wsum tz_area L P _ sigma Hs Hw) in H1.
  rewrite (winding_simple_wsum tz_mx L P _ sigma Hs Hw) in H2.
  rewrite (winding_simple_wsum tz_my L P _ sigma Hs Hw) in H3.
  destruct (centroid_ring_fan ps) as [C1 C2]. unfold xy_eq, set_centroid, set_mx, set_my, set_area. cbn [fst snd] in *.
  rewrite C1, C2, H1, H2, H3. split; apply moment_quotient; exact Hs.
Qed.

Lemma cells_area_ext_witness : forall F L P f g,
  (forall c, In c (slab_cells L (events (vertex_set L P))) -> f (fst c) = g (fst c)) ->
  cells_area (tproj F (moment_cells L P)) f == cells_area (tproj F (moment_cells L P)) g.
Proof.
  intros F L P f g H. apply cells_area_ext_in'. intros c Hin.
  destruct (in_moment_cells_witness F L P c Hin) as [c' [Hc' <-]]. apply H. exact Hc'.
Qed.

Lemma set_centroid_ext : forall L P f g,
  (forall c, In c (slab_cells L (events (vertex_set L P))) -> f (fst c) = g (fst c)) ->
  xy_eq (set_centroid L P f) (set_centroid L P g).
Proof.
  intros L P f g H. unfold xy_eq, set_centroid, set_mx, set_my, set_area. cbn [fst snd].
  rewrite (cells_area_ext_witness tz_mx L P f g H), (cells_area_ext_witness tz_my L P f g H),
          (cells_area_ext_witness tz_area L P f g H). split; reflexivity.
Qed.

(* single ring: centroidOfRing = centre of mass of the point set of the polygon bounded by the ring *)
Theorem centroid_is_slab_centroid_lemma : forall (L : list seg) (P : list pt) ct (l : lineT Q) (sigma : Z),
  incl (line_segs l) L -> pts_closed (line_pts l) = true -> (sigma = 1 \/ sigma = -1)%Z ->
  winding_simple sigma (ring_edges (line_pts l)) (slab_cells L (events (vertex_set L P))) = true ->
  xy_eq (centroid_of_ring l) (set_centroid L P (inG (GPoly (MkPoly ct [l])))).
Proof.
  intros L P ct l sigma Hi Hc Hs Hw.
  eapply xy_eq_trans; [apply (ring_centroid_is_parity_centroid L P (line_pts l) sigma Hi Hc Hs Hw)|].
  apply set_centroid_ext. intros c Hin.
  rewrite (inG_poly_cell L P ct [l] c); [cbn [forallb]; rewrite andb_true_r; reflexivity| |exact Hin].
  intros r [<-|[]]. split; assumption.
Qed.

(* ------------------------------------------------------------------------------------------ *)
(* polygons with holes                                                                         *)
(* ------------------------------------------------------------------------------------------ *)
Lemma Qabs_eq_0 : forall a, Qabs a == 0 -> a == 0.
Proof.
  intros a H. pose proof (Qle_Qabs a). pose proof (Qle_Qabs (- a)). rewrite Qabs_opp in *. lra.
Qed.

(* per ring: |area| * centroid = first moments of the parity set *)
Lemma ring_weighted_centroid : forall (L : list seg) (P : list pt) (r : lineT Q),
  incl (line_segs r) L /\ pts_closed (line_pts r) = true /\
  (exists sigma, (sigma = 1 \/ sigma = -1)%Z /\
                 winding_simple sigma (ring_edges (line_pts r)) (slab_cells L (events (vertex_set L P))) = true) /\
  ~ ring_area_xy (line_pts r) == 0 ->
  Qabs (ring_area None r) * fst (centroid_of_ring r) ==
    cells_wsum (tproj tz_mx (moment_cells L P)) (fun p => ind (rpar r p)) /\
  Qabs (ring_area None r) * snd (centroid_of_ring r) ==
    cells_wsum (tproj tz_my (moment_cells L P)) (fun p => ind (rpar r p)).
Proof.
  intros L P r [Hi [Hc [[sigma [Hs Hw]] Hnz]]].
  destruct (ring_centroid_is_parity_centroid L P (line_pts r) sigma Hi Hc Hs Hw) as [C1 C2].
  pose proof (ring_area_is_parity_area L P (line_pts r) sigma Hi Hc Hs Hw) as EA.
  rewrite <- set_area_is_area_of in EA.
  rewrite ring_area_none. unfold centroid_of_ring. change (line_xys r) with (line_pts r).
  unfold set_centroid in C1, C2. cbn [fst snd] in C1, C2. rewrite C1, C2, EA.
  assert (NZ : ~ set_area L P (vparity (ring_edges (line_pts r))) == 0).
  { rewrite <- EA. intros K. apply Hnz. apply Qabs_eq_0. exact K. }
  unfold set_mx, set_my. rewrite <- !cells_area_wsum. unfold rpar.
  change (fun p : pt => vparity (ring_edges (line_pts r)) p) with (vparity (ring_edges (line_pts r))).
  split; field; exact NZ.
Qed.

Theorem centroid_is_slab_centroid_holes_lemma :
  forall (L : list seg) (P : list pt) ct (sh : lineT Q) (hs : list (lineT Q)),
  let cells := slab_cells L (events (vertex_set L P)) in
  (forall r, In r (sh :: hs) ->
     incl (line_segs r) L /\ pts_closed (line_pts r) = true /\
     (exists sigma, (sigma = 1 \/ sigma = -1)%Z /\ winding_simple sigma (ring_edges (line_pts r)) cells = true) /\
     ~ ring_area_xy (line_pts r) == 0) ->
  nesting_ok sh hs cells = true ->
  exists c, poly_centroid (MkPoly ct (sh :: hs)) = Some c /\
            xy_eq c (set_centroid L P (inG (GPoly (MkPoly ct (sh :: hs))))).
Proof.
  intros L P ct sh hs cells Hr Hn.
  set (mc := moment_cells L P).
  assert (RM := fun r Hin => ring_weighted_centroid L P r (Hr r Hin)).
  destruct (poly_centroid_spec ct sh hs) as [c [Hc [Hx [Hy HS]]]]. cbv zeta in Hx, Hy, HS.
  exists c. split; [exact Hc|].
  (* a numerator: membership at the witnesses is shell parity minus hole parities *)
  assert (NUM : forall F (pr : xy -> Q),
            (forall r, In r (sh :: hs) -> Qabs (ring_area None r) * pr (centroid_of_ring r) ==
                                          cells_wsum (tproj F mc) (fun p => ind (rpar r p))) ->
            ring_w true sh * pr (centroid_of_ring sh) + qsum (map (fun h => ring_w false h * pr (centroid_of_ring h)) hs) ==
            cells_area (tproj F mc) (inG (GPoly (MkPoly ct (sh :: hs))))).
  { intros F pr Hm.
    rewrite (poly_cells_indicator L P ct sh hs (tproj F mc) (in_moment_cells_witness F L P)
               (fun r Hin => conj (proj1 (Hr r Hin)) (proj1 (proj2 (Hr r Hin)))) Hn).
    unfold Qminus. rewrite <- (Hm sh (or_introl eq_refl)), <- qsum_map_opp. apply Qplus_comp; [reflexivity|].
    apply qsum_map_ext_in. intros h Hh. rewrite <- (Hm h (or_intror Hh)). unfold ring_w. ring. }
  (* the divisor *)
  assert (DEN : ring_w true sh + qsum (map (ring_w false) hs) == set_area L P (inG (GPoly (MkPoly ct (sh :: hs))))).
  { rewrite <- HS, set_area_is_area_of. apply shoelace_is_slab_area_holes_lemma; [|exact Hn].
    intros r Hin. destruct (Hr r Hin) as [Hi [Hcl [Hsw _]]]. repeat split; assumption. }
  unfold xy_eq, set_centroid. cbn [fst snd].
  rewrite Hx, Hy, DEN, (NUM tz_mx fst (fun r Hin => proj1 (RM r Hin))), (NUM tz_my snd (fun r Hin => proj2 (RM r Hin))).
  split; reflexivity.
Qed.

(* ------------------------------------------------------------------------------------------ *)
(* executable form of the hypotheses, for one polygon in the arrangement of its own rings      *)
(* ------------------------------------------------------------------------------------------ *)
Lemma rings_hypotheses_spec : forall cells L ct (rings : list (lineT Q)),
  forallb (ring_sigma_ok cells) rings = true -> rings_nonzero (MkPoly ct rings) = true ->
  incl (flat_map line_segs rings) L ->
  forall r, In r rings ->
    incl (line_segs r) L /\ pts_closed (line_pts r) = true /\
    (exists sigma, (sigma = 1 \/ sigma = -1)%Z /\ winding_simple sigma (ring_edges (line_pts r)) cells = true) /\
    ~ ring_area_xy (line_pts r) == 0.
Proof.
  intros cells L ct rings H Hz Hi r Hin. destruct (rings_sigma_ok_spec cells L rings H Hi r Hin) as [Hi' [Hc Hw]].
  unfold rings_nonzero in Hz. rewrite forallb_forall in Hz. specialize (Hz r Hin).
  apply negb_true_iff, Qeq_bool_false_iff in Hz. auto.
Qed.

Theorem slab_hypotheses_centroid : forall ct (rings : list (lineT Q)),
  slab_hypotheses (MkPoly ct rings) = true -> rings_nonzero (MkPoly ct rings) = true ->
  match rings with
  | [] => poly_centroid (MkPoly ct rings) = None
  | _ => exists c, poly_centroid (MkPoly ct rings) = Some c /\ xy_eq c (slab_centroid (MkPoly ct rings))
  end.
Proof.
  intros ct [|sh hs] H Hz; [reflexivity|].
  unfold slab_hypotheses in H. cbn [poly_rings] in H. apply andb_true_iff in H. destruct H as [H1 H2].
  apply (centroid_is_slab_centroid_holes_lemma (mpoly_segs (MkPoly ct (sh :: hs))) [] ct sh hs); [|exact H2].
  apply (rings_hypotheses_spec _ _ ct _ H1 Hz), incl_refl.
Qed.

(* the one-pass evaluation used by the correspondence run *)
Lemma set_moments_spec : forall cells f,
  fst (fst (set_moments cells f)) == cells_area (tproj tz_area cells) f /\
  snd (fst (set_moments cells f)) == cells_area (tproj tz_mx cells) f /\
  snd (set_moments cells f) == cells_area (tproj tz_my cells) f.
Proof.
  intros cells f. induction cells as [|c r IH]; [cbn; repeat split; reflexivity|].
  unfold tproj, cells_area in *. cbn [set_moments fold_right map fst snd] in *.
  fold (set_moments r f). destruct (set_moments r f) as [[a mx] my]. cbn [fst snd] in IH.
  destruct IH as [I1 [I2 I3]]. destruct (f (fst c)); cbn [fst snd].
  - rewrite !Qred_correct, I1, I2, I3. repeat split; reflexivity.
  - rewrite I1, I2, I3. repeat split; ring.
Qed.

Lemma poly_moments_spec : forall y,
  let L := mpoly_segs y in
  fst (fst (poly_moments y)) == set_area L [] (inG (GPoly y)) /\
  snd (fst (poly_moments y)) == set_mx L [] (inG (GPoly y)) /\
  snd (poly_moments y) == set_my L [] (inG (GPoly y)).
Proof. intros y L. apply set_moments_spec. Qed.

(* ------------------------------------------------------------------------------------------ *)
(* multipolygons: members in one common arrangement, pointwise disjoint at the witnesses        *)
(* ------------------------------------------------------------------------------------------ *)
Lemma cells_wsum_sum : forall (A : Type) cells (ws : A -> pt -> Q) (hs : list A),
  cells_wsum cells (fun p => qsum (map (fun h => ws h p) hs)) == qsum (map (fun h => cells_wsum cells (ws h)) hs).
Proof.
  intros A cells ws hs. unfold cells_wsum. rewrite <- qsum_swap. apply qsum_map_ext_all.
  intros c. symmetry. apply (qsum_map_scale _ (fun h => ws h (fst c))).
Qed.

Lemma existsb_ind_filter : forall (A : Type) (f : A -> bool) l, (length (filter f l) <=? 1)%nat = true ->
  ind (existsb f l) == qsum (map (fun x => ind (f x)) l).
Proof.
  intros A f l H. rewrite qsum_ind_filter.
  assert (E : existsb f l = negb (length (filter f l) =? 0)%nat).
  { clear H. induction l as [|x l IH]; [reflexivity|]. cbn [existsb filter]. destruct (f x); cbn [orb length Nat.eqb negb]; [reflexivity|exact IH]. }
  rewrite E. destruct (length (filter f l)) as [|[|k]]; cbn in *; try reflexivity. discriminate.
Qed.

(* what the theorem asks of a member: empty, or the hypotheses of the polygon theorem and non-zero area *)
Definition member_ok (L : list seg) (P : list pt) (y : polyT Q) : Prop :=
  let cells := slab_cells L (events (vertex_set L P)) in
  match poly_rings y with
  | [] => True
  | sh :: hs =>
      (forall r, In r (sh :: hs) ->
         incl (line_segs r) L /\ pts_closed (line_pts r) = true /\
         (exists sigma, (sigma = 1 \/ sigma = -1)%Z /\ winding_simple sigma (ring_edges (line_pts r)) cells = true) /\
         ~ ring_area_xy (line_pts r) == 0) /\
      nesting_ok sh hs cells = true /\
      ~ poly_area false None y == 0
  end.

Lemma member_moments : forall L P y, member_ok L P y ->
  poly_area false None y == set_area L P (inG (GPoly y)) /\
  poly_area false None y * ocx (poly_centroid y) == set_mx L P (inG (GPoly y)) /\
  poly_area false None y * ocy (poly_centroid y) == set_my L P (inG (GPoly y)).
Proof.
  intros L P [ct [|sh hs]] H; unfold member_ok in H; cbn [poly_rings] in H.
  - assert (Z : forall F, cells_area (tproj F (moment_cells L P)) (inG (GPoly (MkPoly ct []))) == 0).
    { intros F. apply cells_area_false. intros c _. reflexivity. }
    unfold set_area, set_mx, set_my. rewrite !Z. cbn [poly_area poly_rings poly_centroid ocx ocy].
    repeat split; ring.
  - destruct H as [Hr [Hn Hnz]].
    destruct (centroid_is_slab_centroid_holes_lemma L P ct sh hs Hr Hn) as [c [Hc [Cx Cy]]].
    assert (EA : poly_area false None (MkPoly ct (sh :: hs)) == set_area L P (inG (GPoly (MkPoly ct (sh :: hs))))).
    { rewrite set_area_is_area_of. apply shoelace_is_slab_area_holes_lemma; [|exact Hn].
      intros r Hin. destruct (Hr r Hin) as [Hi [Hcl [Hsw _]]]. repeat split; assumption. }
    split; [exact EA|]. rewrite Hc. cbn [ocx ocy]. unfold set_centroid in Cx, Cy. cbn [fst snd] in Cx, Cy.
    rewrite Cx, Cy, EA. rewrite EA in Hnz.
    set (A := set_area L P (inG (GPoly (MkPoly ct (sh :: hs))))) in *.
    split; field; exact Hnz.
Qed.

Theorem mpoly_centroid_is_slab_centroid_lemma : forall (L : list seg) (P : list pt) ct (ps : list (polyT Q)),
  (forall y, In y ps -> member_ok L P y) ->
  members_disjoint ps (map fst (slab_cells L (events (vertex_set L P)))) = true ->
  forallb (@poly_empty Q) ps = false ->
  exists c, mpoly_centroid ps = Some c /\ xy_eq c (set_centroid L P (inG (GMPoly ct ps))).
Proof.
  intros L P ct ps Hm Hd He.
  destruct (mpoly_centroid_spec ps He) as [c [Hc [Hx Hy]]]. cbv zeta in Hx, Hy.
  exists c. split; [exact Hc|].
  set (mc := moment_cells L P).
  assert (SUM : forall F, cells_area (tproj F mc) (inG (GMPoly ct ps)) ==
                          qsum (map (fun y => cells_area (tproj F mc) (inG (GPoly y))) ps)).
  { intros F. rewrite cells_area_wsum.
    rewrite (qsum_map_ext_all _ _ (fun y => cells_wsum (tproj F mc) (fun p => ind (inG (GPoly y) p))))
      by (intros; apply cells_area_wsum).
    rewrite <- (cells_wsum_sum _ (tproj F mc) (fun y p => ind (inG (GPoly y) p)) ps).
    apply cells_wsum_ext_in. intros c0 Hin.
    destruct (in_moment_cells_witness F L P c0 Hin) as [c' [Hc' <-]].
    unfold members_disjoint in Hd. rewrite forallb_forall in Hd.
    specialize (Hd (fst c') (in_map fst _ _ Hc')).
    cbn [inG]. apply (existsb_ind_filter _ (fun y => inG (GPoly y) (fst c')) ps Hd). }
  unfold xy_eq, set_centroid, set_mx, set_my, set_area. fold mc. cbn [fst snd].
  rewrite Hx, Hy, (SUM tz_area), (SUM tz_mx), (SUM tz_my).
  split; apply Qdiv_comp; apply qsum_map_ext_in; intros y Hin; apply (member_moments L P y (Hm y Hin)).
Qed.

(* executable form for a multipolygon in the arrangement of all its rings (next to
   Measure_slab.slab_hypotheses, whose vocabulary it uses) *)
Definition mp_cells (ps : list (polyT Q)) : list (pt * Q) :=
  slab_cells (mp_segs ps) (events (vertex_set (mp_segs ps) [])).
Definition member_ok_b (cells : list (pt * Q)) (y : polyT Q) : bool :=
  match poly_rings y with
  | [] => true
  | sh :: hs => forallb (ring_sigma_ok cells) (sh :: hs) && nesting_ok sh hs cells && rings_nonzero y
                && negb (Qeq_bool (poly_area false None y) 0)
  end.
Definition mpoly_hypotheses (ps : list (polyT Q)) : bool :=
  forallb (member_ok_b (mp_cells ps)) ps && members_disjoint ps (map fst (mp_cells ps)).
Definition mslab_centroid (ps : list (polyT Q)) : xy := set_centroid (mp_segs ps) [] (inG (GMPoly XY ps)).

Theorem mpoly_hypotheses_centroid : forall ps : list (polyT Q),
  mpoly_hypotheses ps = true -> forallb (@poly_empty Q) ps = false ->
  exists c, mpoly_centroid ps = Some c /\ xy_eq c (mslab_centroid ps).
Proof.
  intros ps H He. unfold mpoly_hypotheses in H. apply andb_true_iff in H. destruct H as [H1 H2].
  unfold mslab_centroid. apply mpoly_centroid_is_slab_centroid_lemma; [|exact H2|exact He].
  intros y Hy. rewrite forallb_forall in H1. specialize (H1 y Hy).
  unfold member_ok_b in H1. unfold member_ok. fold (mp_cells ps).
  destruct y as [ct [|sh hs]]; cbn [poly_rings] in *; [exact I|].
  rewrite !andb_true_iff, negb_true_iff, Qeq_bool_false_iff in H1. destruct H1 as [[[Hs Hn] Hz] Ha].
  split; [|split; [exact Hn|exact Ha]].
  apply (rings_hypotheses_spec _ _ ct _ Hs Hz). intros e Hin. apply in_flat_map. exists (MkPoly ct (sh :: hs)). auto.
Qed.

Lemma mpoly_moments_spec : forall ps,
  let '(a, mx, my) := mpoly_moments ps in xy_eq (mx / a, my / a) (mslab_centroid ps).
Proof.
  intros ps. unfold mpoly_moments, mslab_centroid, set_centroid, set_mx, set_my, set_area.
  destruct (set_moments_spec (moment_cells (mp_segs ps) []) (inG (GMPoly XY ps))) as [H1 [H2 H3]].
  destruct (set_moments _ _) as [[a mx] my]. cbn [fst snd] in *. unfold xy_eq. cbn [fst snd].
  rewrite H1, H2, H3. split; reflexivity.
Qed.
