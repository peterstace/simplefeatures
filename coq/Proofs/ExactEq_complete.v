(* Property C18, completeness of IgnoreOrder: OrderEquiv g h -> ExactEquals(g, h, IgnoreOrder).
   Together with geom_io_sound (Proofs/ExactEq_proofs.v) this makes "and nothing else" an
   equivalence.  The development: closed sequences as periodic functions on Z, on which the four
   ways lineStringsEq matches two rings (identity, reversal, rotation, rotation of the reversal)
   are the affine index maps z |-> s*z + k with s = +-1 (composition and inversion are then
   immediate); symmetry and transitivity of every *Eq function; induction over OrderEquiv.
   Hypotheses (Section variables, visible in the statements): == on ordinates is symmetric and
   transitive; the simplicity oracle does not distinguish a line from one with ==-equal ordinates,
   nor a closed line from its reversal.  Both hold of exact simplicity; finding F51 documents
   inputs on which the floating-point IsSimple of the implementation violates them. *)
From Coq Require Import ZArith NArith List Bool Lia Permutation.
From SF Require Import Base.GeomAST Model.WKB Model.ExactEq Proofs.ExactEq_proofs.
Import ListNotations.
Local Open Scope nat_scope.

Section Cyclic.
  Variable F : Type.
  Variable feq : F -> F -> bool.
  Hypothesis feq_sym : forall a b, feq a b = true -> feq b a = true.
  Hypothesis feq_trans : forall a b c, feq a b = true -> feq b c = true -> feq a c = true.
  Notation xy := (xy_exact feq).
  Notation P := (P F feq).
  Notation Psym := (P_sym F feq feq_sym).
  Notation Ptrans := (P_trans F feq feq_sym feq_trans).

  Variable ct : ctype.
  Variable d : vtx F.
  (* m = n - 1: the length of the open part *)
  Variable m : nat.
  Hypothesis Hm : 1 <= m.

  (* the open part of a closed sequence as a function of period m *)
  Definition cyc (c : list (vtx F)) (z : Z) : vtx F := nth (Z.to_nat (z mod Z.of_nat m)) c d.

  Lemma cyc_nat c i : cyc c (Z.of_nat i) = nth (i mod m) c d.
  Proof. unfold cyc. rewrite <- Nat2Z.inj_mod, Nat2Z.id. reflexivity. Qed.

  Lemma cyc_small c i : i < m -> cyc c (Z.of_nat i) = nth i c d.
  Proof. intros. rewrite cyc_nat, Nat.mod_small by assumption. reflexivity. Qed.

  Lemma cyc_congr c z z' : (z mod Z.of_nat m = z' mod Z.of_nat m)%Z -> cyc c z = cyc c z'.
  Proof. unfold cyc. intros ->. reflexivity. Qed.

  Lemma cyc_to_nat c z : cyc c z = cyc c (Z.of_nat (Z.to_nat (z mod Z.of_nat m))).
  Proof.
    apply cyc_congr. pose proof (Z.mod_pos_bound z (Z.of_nat m)).
    rewrite Z2Nat.id by lia. rewrite Z.mod_mod by lia. reflexivity.
  Qed.

  Lemma cyc_shift c z q : cyc c (z + q * Z.of_nat m) = cyc c z.
  Proof. unfold cyc. rewrite Z_mod_plus_full. reflexivity. Qed.

  Lemma cyc_rep c z : exists r q, r < m /\ z = (Z.of_nat r + q * Z.of_nat m)%Z /\ cyc c z = nth r c d.
  Proof.
    exists (Z.to_nat (z mod Z.of_nat m)), (z / Z.of_nat m)%Z.
    pose proof (Z.mod_pos_bound z (Z.of_nat m)). pose proof (Z.div_mod z (Z.of_nat m)).
    repeat split; lia.
  Qed.

  (* a ~ b under the index map z |-> s*z + k *)
  Definition Aff (a b : list (vtx F)) : Prop :=
    exists s k : Z, (s = 1 \/ s = -1)%Z /\ forall z, P ct (cyc a z) (cyc b (s * z + k)).

  Lemma Aff_sym a b : Aff a b -> Aff b a.
  Proof.
    intros [s [k [Hs H]]]. exists s, (- s * k)%Z. split; auto. intros w.
    apply Psym. specialize (H (s * w + - s * k)%Z).
    replace (s * (s * w + - s * k) + k)%Z with w in H by (destruct Hs; subst; lia). exact H.
  Qed.

  Lemma Aff_trans a b c : Aff a b -> Aff b c -> Aff a c.
  Proof.
    intros [s [k [Hs H]]] [s' [k' [Hs' H']]]. exists (s' * s)%Z, (s' * k + k')%Z. split.
    - destruct Hs, Hs'; subst; lia.
    - intros z. eapply Ptrans; [apply H|]. specialize (H' (s * z + k)%Z).
      replace (s' * s * z + (s' * k + k'))%Z with (s' * (s * z + k) + k')%Z by lia. exact H'.
  Qed.

  (* closed: the closing vertex (index m) repeats the first one in every ordinate *)
  Definition closedP (c : list (vtx F)) : Prop := P ct (nth 0 c d) (nth m c d).

  (* the closed sequence agrees with its periodic function on 0..m *)
  Lemma cyc_closed c i : closedP c -> i <= m -> P ct (nth i c d) (nth i c d) -> P ct (nth i c d) (cyc c (Z.of_nat i)).
  Proof.
    intros C Hi R. destruct (Nat.eq_dec i m) as [->|Hne].
    - rewrite cyc_nat, Nat.mod_same by lia. apply Psym. exact C.
    - rewrite cyc_small by lia. exact R.
  Qed.

  Lemma P_self_l a b : P ct a b -> P ct a a.
  Proof. intros H. eapply Ptrans; [exact H | apply Psym; exact H]. Qed.
  Lemma P_self_r a b : P ct a b -> P ct b b.
  Proof. intros H. eapply Ptrans; [apply Psym; exact H | exact H]. Qed.

  (* ---- the four ways of matching, into affine form ---- *)
  Lemma aff_of_id a b :
    (forall i, i < S m -> P ct (nth i a d) (nth i b d)) -> Aff a b.
  Proof.
    intros H. exists 1%Z, 0%Z. split; auto. intros z.
    destruct (cyc_rep a z) as (r & q & Hr & -> & ->).
    replace (1 * (Z.of_nat r + q * Z.of_nat m) + 0)%Z with (Z.of_nat r + q * Z.of_nat m)%Z by lia.
    rewrite cyc_shift, cyc_small by lia. apply H. lia.
  Qed.

  Lemma aff_of_rot a b o :
    (forall i, i < S m -> P ct (nth i a d) (nth ((i + o) mod m) b d)) -> Aff a b.
  Proof.
    intros H. exists 1%Z, (Z.of_nat o). split; auto. intros z.
    destruct (cyc_rep a z) as (r & q & Hr & -> & ->). specialize (H r ltac:(lia)). rewrite <- cyc_nat in H.
    replace (1 * (Z.of_nat r + q * Z.of_nat m) + Z.of_nat o)%Z with (Z.of_nat (r + o) + q * Z.of_nat m)%Z by lia.
    rewrite cyc_shift. exact H.
  Qed.

  Lemma aff_of_rev a b :
    closedP b ->
    (forall i, i < S m -> P ct (nth i a d) (nth (S m - i - 1) b d)) -> Aff a b.
  Proof.
    intros Cb H. exists (-1)%Z, 0%Z. split; auto. intros z.
    destruct (cyc_rep a z) as (r & q & Hr & -> & ->). specialize (H r ltac:(lia)).
    replace (S m - r - 1) with (m - r) in H by lia.
    destruct (Nat.eq_dec r 0) as [->|Hne].
    - rewrite Nat.sub_0_r in H.
      replace (-1 * (Z.of_nat 0 + q * Z.of_nat m) + 0)%Z with (Z.of_nat 0 + - q * Z.of_nat m)%Z by lia.
      rewrite cyc_shift, cyc_small by lia. eapply Ptrans; [exact H | apply Psym; exact Cb].
    - replace (-1 * (Z.of_nat r + q * Z.of_nat m) + 0)%Z with (Z.of_nat (m - r) + (- q - 1) * Z.of_nat m)%Z by lia.
      rewrite cyc_shift, cyc_small by lia. exact H.
  Qed.

  Lemma aff_of_revrot a b o :
    (forall i, i < S m -> P ct (nth (S m - i - 1) a d) (nth ((i + o) mod m) b d)) -> Aff a b.
  Proof.
    intros H. exists (-1)%Z, (Z.of_nat o). split; auto. intros z.
    destruct (cyc_rep a z) as (r & q & Hr & -> & ->). specialize (H (m - r) ltac:(lia)).
    replace (S m - (m - r) - 1) with r in H by lia. rewrite <- cyc_nat in H.
    replace (-1 * (Z.of_nat r + q * Z.of_nat m) + Z.of_nat o)%Z
      with (Z.of_nat (m - r + o) + (- q - 1) * Z.of_nat m)%Z by lia.
    rewrite cyc_shift. exact H.
  Qed.

  (* ---- and back: an affine match of two closed sequences is a rotation (s = 1) or a rotation of
     the reversal (s = -1) with an offset in 1..m, the forms the code searches for ---- *)
  Lemma rot_of_aff a b :
    closedP a -> Aff a b ->
    exists o, 1 <= o < S m /\
      ((forall i, i < S m -> P ct (nth i a d) (nth ((i + o) mod m) b d)) \/
       (forall i, i < S m -> P ct (nth (S m - i - 1) a d) (nth ((i + o) mod m) b d))).
  Proof.
    intros Ca [s [k [Hs H]]].
    destruct (cyc_rep b k) as (r & q & Hr & Ek & _).
    set (o := if r =? 0 then m else r).
    assert (Ho : 1 <= o < S m) by (unfold o; destruct (Nat.eqb_spec r 0); lia).
    assert (Eo : exists q', Z.of_nat o = (k + q' * Z.of_nat m)%Z).
    { unfold o. destruct (Nat.eqb_spec r 0); [exists (1 - q)%Z | exists (- q)%Z]; lia. }
    destruct Eo as [q' Eo]. exists o. split; auto.
    assert (A0 : forall i, i < S m -> P ct (nth i a d) (cyc a (Z.of_nat i))).
    { intros i Hi. apply cyc_closed; [exact Ca | lia |]. destruct (Nat.eq_dec i m) as [->|Hne].
      - exact (P_self_r _ _ Ca).
      - rewrite <- (cyc_small a i) by lia. apply (P_self_l _ _ (H _)). }
    destruct Hs as [-> | ->]; [left | right]; intros i Hi; rewrite <- cyc_nat.
    - eapply Ptrans; [apply A0; assumption|].
      replace (Z.of_nat (i + o)) with (1 * Z.of_nat i + k + q' * Z.of_nat m)%Z by lia.
      rewrite cyc_shift. apply H.
    - replace (S m - i - 1) with (m - i) by lia. eapply Ptrans; [apply A0; lia|].
      replace (Z.of_nat (i + o)) with (-1 * Z.of_nat (m - i) + k + (q' + 1) * Z.of_nat m)%Z by lia.
      rewrite cyc_shift. apply H.
  Qed.
End Cyclic.

Lemma Forall2_nth_default {A B} (R : A -> B -> Prop) l1 l2 d1 d2 :
  Forall2 R l1 l2 -> forall i, i < length l1 -> R (nth i l1 d1) (nth i l2 d2).
Proof.
  induction 1; simpl; intros i Hi; [lia|]. destruct i; auto. apply IHForall2. lia.
Qed.

Lemma Forall2_of_nth {A B} (R : A -> B -> Prop) l1 l2 d1 d2 :
  length l1 = length l2 -> (forall i, i < length l1 -> R (nth i l1 d1) (nth i l2 d2)) -> Forall2 R l1 l2.
Proof.
  revert l2; induction l1 as [|a r IH]; intros [|b s] L H; simpl in *; try discriminate; constructor.
  - apply (H 0). lia.
  - apply IH; [congruence|]. intros i Hi. apply (H (S i)). lia.
Qed.

Lemma Forall2_trans_gen {A B C} (R1 : A -> B -> Prop) (R2 : B -> C -> Prop) (R3 : A -> C -> Prop) l1 :
  forall l2 l3, (forall a b c, In a l1 -> R1 a b -> R2 b c -> R3 a c) ->
  Forall2 R1 l1 l2 -> Forall2 R2 l2 l3 -> Forall2 R3 l1 l3.
Proof.
  induction l1 as [|a r IH]; intros l2 l3 H F1 F2; inversion F1; subst; inversion F2; subst; constructor.
  - eapply H; simpl; eauto.
  - eapply IH; eauto. intros; eapply H; simpl; eauto.
Qed.

Section LineKind.
  Variable F : Type.
  Variable feq : F -> F -> bool.
  Variable simple : lineT F -> bool.
  Hypothesis feq_sym : forall a b, feq a b = true -> feq b a = true.
  Hypothesis feq_trans : forall a b c, feq a b = true -> feq b c = true -> feq a c = true.
  Notation xy := (xy_exact feq).
  Notation P := (P F feq).
  Notation Psym := (P_sym F feq feq_sym).
  Notation leq := (line_eq feq xy simple true).
  Notation ends_eq_iff := (ends_eq_iff F feq).

  Definition ringb (l : lineT F) : bool := is_ring feq simple l && ends_eq feq xy l.

  (* the F50 test on the closing vertex subsumes IsClosed *)
  Lemma ends_eq_closed l : ends_eq feq xy l = true -> is_closed feq l = true.
  Proof. unfold ends_eq, is_closed. destruct (line_vs l); auto. rewrite coord_eq_iff. intros (_ & X & _). exact X. Qed.

  Lemma ringb_iff l : ringb l = true <-> simple l = true /\ ends_eq feq xy l = true.
  Proof. unfold ringb, is_ring. rewrite !andb_true_iff. pose proof (ends_eq_closed l). tauto. Qed.

  Lemma are_rings_ringb l1 l2 :
    are_rings F feq xy simple l1 l2 = true <-> ringb l1 = true /\ ringb l2 = true.
  Proof. unfold are_rings, ringb. rewrite !andb_true_iff. tauto. Qed.

  Lemma ringb_closed ct d r :
    ringb (MkLine ct (d :: r)) = true -> closedP F feq ct d (length (d :: r) - 1) (d :: r).
  Proof.
    unfold ringb. rewrite andb_true_iff. intros [_ E]. apply (ends_eq_iff ct (d :: r) d) in E. apply E.
  Qed.

  (* what lineStringsEq(IgnoreOrder) accepts, on lists *)
  Definition line_kind ct (c1 c2 : list (vtx F)) : Prop :=
    Forall2 (P ct) c1 c2 \/ Forall2 (P ct) c1 (rev c2) \/
    (ringb (MkLine ct c1) = true /\ ringb (MkLine ct c2) = true /\ 2 <= length c1 /\
     forall d, Aff F feq ct d (length c1 - 1) c1 c2).

  Lemma line_eq_kind l1 l2 :
    leq l1 l2 = true <->
    line_ct l1 = line_ct l2 /\ length (line_vs l1) = length (line_vs l2) /\
    line_kind (line_ct l1) (line_vs l1) (line_vs l2).
  Proof using feq_sym feq_trans.
    rewrite line_eq_iff. destruct l1 as [ct c1], l2 as [ct2 c2]. simpl.
    set (n := length c1).
    (* the two index maps of a rotation stay in range: pass from nth_error to nth *)
    assert (N : length c1 = length c2 -> 2 <= n -> forall d (flip : bool) o,
              (same_curve feq xy ct ct c1 c2 n (fun i => if flip then n - i - 1 else i)
                 (fun i => (i + o) mod (n - 1)) = true <->
               forall i, i < n -> P ct (nth (if flip then n - i - 1 else i) c1 d) (nth ((i + o) mod (n - 1)) c2 d))).
    { intros L Hn d flip o. apply same_curve_nth; intros i Hi.
      - fold n. destruct flip; lia.
      - rewrite <- L. pose proof (Nat.mod_upper_bound (i + o) (n - 1)). fold n. lia. }
    split.
    - intros [L [<- H]]. repeat split; auto. destruct H as [H|[_ [H|[R [o [Ho H]]]]]].
      + left. apply same_curve_id in H; auto.
      + right; left. apply same_curve_rev in H; auto.
      + right; right. apply are_rings_ringb in R. destruct R as [R1 R2]. repeat split; auto; [lia|].
        intros d. fold n. destruct H as [H|H].
        * rewrite (N L ltac:(lia) d false) in H.
          apply aff_of_rot with (o := o); [lia|]. intros i Hi. apply H. lia.
        * rewrite (N L ltac:(lia) d true) in H.
          apply aff_of_revrot with (o := o); [lia|]. intros i Hi.
          replace (S (n - 1) - i - 1) with (n - i - 1) by lia. apply H. lia.
    - intros [<- [L K]]. repeat split; auto. destruct K as [H|[H|[R1 [R2 [Hn H]]]]].
      + left. apply same_curve_id; auto.
      + right. split; auto. left. apply same_curve_rev; auto.
      + right. split; auto. right. split; [apply are_rings_ringb; auto|].
        destruct c1 as [|d r]; [simpl in Hn; lia|]. fold n in Hn, H.
        destruct (rot_of_aff F feq feq_sym feq_trans ct d (n - 1) ltac:(lia) _ c2 (ringb_closed ct d r R1) (H d))
          as [o [Ho Hr]].
        exists o. split; [lia|].
        destruct Hr as [Hr|Hr]; [left|right].
        * apply (N L Hn d false). intros i Hi. apply Hr. lia.
        * apply (N L Hn d true). intros i Hi.
          replace (n - i - 1) with (S (n - 1) - i - 1) by lia. apply Hr. lia.
  Qed.

  Lemma Forall2_P_sym ct c1 c2 : Forall2 (P ct) c1 c2 -> Forall2 (P ct) c2 c1.
  Proof. apply Forall2_flip. intros; apply Psym; assumption. Qed.

  Lemma kind_sym ct c1 c2 : length c1 = length c2 -> line_kind ct c1 c2 -> line_kind ct c2 c1.
  Proof using feq_sym.
    intros L [H|[H|[R1 [R2 [Hn H]]]]].
    - left. apply Forall2_P_sym; assumption.
    - right; left. apply Forall2_rev in H. rewrite rev_involutive in H. apply Forall2_P_sym; assumption.
    - right; right. repeat split; auto; [lia|]. intros d. rewrite <- L.
      apply (Aff_sym F feq feq_sym); [lia | apply H].
  Qed.

  Lemma line_io_sym l1 l2 : leq l1 l2 = true -> leq l2 l1 = true.
  Proof using feq_sym feq_trans.
    rewrite !line_eq_kind. intros [C [L K]]. rewrite C in K. auto using kind_sym.
  Qed.
End LineKind.

Section LineTrans.
  Variable F : Type.
  Variable feq : F -> F -> bool.
  Variable simple : lineT F -> bool.
  Hypothesis feq_sym : forall a b, feq a b = true -> feq b a = true.
  Hypothesis feq_trans : forall a b c, feq a b = true -> feq b c = true -> feq a c = true.
  Notation xy := (xy_exact feq).
  Notation P := (P F feq).
  Notation Psym := (P_sym F feq feq_sym).
  Notation Ptrans := (P_trans F feq feq_sym feq_trans).
  (* the simplicity oracle cannot tell apart lines whose ordinates are pairwise ==, nor a closed
     line and its reversal *)
  Hypothesis simple_eq : forall ct vs ws,
    Forall2 (veq feq ct) vs ws -> simple (MkLine ct vs) = simple (MkLine ct ws).
  Hypothesis simple_rev : forall ct vs,
    ends_eq feq xy (MkLine ct vs) = true -> simple (MkLine ct (rev vs)) = simple (MkLine ct vs).
  Notation ringb := (ringb F feq simple).
  Notation line_kind := (line_kind F feq simple).
  Notation ends_eq_iff := (ends_eq_iff F feq).
  Notation kind_sym := (kind_sym F feq simple feq_sym).

  Notation ringb_iff := (ringb_iff F feq simple).

  Lemma ringb_rev ct c : ringb (MkLine ct c) = true -> ringb (MkLine ct (rev c)) = true.
  Proof.
    rewrite !ringb_iff. intros [Sm E]. rewrite simple_rev by exact E. split; [exact Sm|].
    destruct c as [|d r]; [discriminate|]. set (c := d :: r) in *.
    assert (L : 1 <= length c) by (simpl; lia).
    apply (ends_eq_iff ct c d) in E. rewrite (ends_eq_iff ct (rev c) d), rev_length.
    rewrite !rev_nth by lia. replace (length c - S 0) with (length c - 1) by lia.
    replace (length c - S (length c - 1)) with 0 by lia.
    split; [lia | apply Psym, E].
  Qed.

  Lemma ringb_transfer ct c1 c2 :
    Forall2 (P ct) c1 c2 -> ringb (MkLine ct c2) = true -> ringb (MkLine ct c1) = true.
  Proof.
    intros H. pose proof (Forall2_length' _ _ _ H) as L. rewrite !ringb_iff. intros [Sm E].
    rewrite (simple_eq ct c1 c2) by exact H. split; [exact Sm|].
    destruct c1 as [|d r]; [destruct c2; discriminate|]. set (c1 := d :: r) in *.
    apply (ends_eq_iff ct c2 d) in E. rewrite (ends_eq_iff ct c1 d).
    destruct E as [L2 E]. rewrite <- L in *.
    pose proof (Forall2_nth_default _ _ _ d d H 0 ltac:(lia)) as H0.
    pose proof (Forall2_nth_default _ _ _ d d H (length c1 - 1) ltac:(lia)) as Hl.
    split; [lia|]. eapply Ptrans; [exact H0|]. eapply Ptrans; [exact E|]. apply Psym; exact Hl.
  Qed.

  Notation leq := (line_eq feq xy simple true).

  Lemma Forall2_P_trans ct c1 c2 c3 : Forall2 (P ct) c1 c2 -> Forall2 (P ct) c2 c3 -> Forall2 (P ct) c1 c3.
  Proof. apply Forall2_trans_gen. intros; eapply Ptrans; eassumption. Qed.

  Lemma kind_ringb ct c1 c2 :
    line_kind ct c1 c2 -> ringb (MkLine ct c2) = true -> ringb (MkLine ct c1) = true.
  Proof.
    intros [H|[H|[R1 _]]] R; auto.
    - eapply ringb_transfer; eassumption.
    - eapply ringb_transfer; [exact H|]. apply ringb_rev; assumption.
  Qed.

  Lemma kind_aff ct c1 c2 d :
    length c1 = length c2 -> 2 <= length c1 ->
    ringb (MkLine ct c1) = true -> ringb (MkLine ct c2) = true ->
    line_kind ct c1 c2 -> Aff F feq ct d (length c1 - 1) c1 c2.
  Proof.
    intros L Hn R1 R2 [H|[H|[_ [_ [_ H]]]]]; [| |apply H].
    - eapply aff_of_id; try lia. intros i Hi. apply Forall2_nth_default; [exact H | lia].
    - destruct c2 as [|d2 r2]; [simpl in L; lia|].
      pose proof (ringb_closed F feq simple ct d2 r2 R2) as C2. rewrite <- L in C2.
      eapply aff_of_rev; try eassumption; try lia.
      + unfold closedP in *. rewrite (nth_indep _ d d2), (nth_indep _ d d2) by (simpl in *; lia). exact C2.
      + intros i Hi. pose proof (Forall2_nth_default _ _ _ d d H i ltac:(lia)) as Hi'.
        rewrite rev_nth in Hi' by lia. rewrite <- L in Hi'.
        replace (S (length c1 - 1) - i - 1) with (length c1 - S i) by lia. exact Hi'.
  Qed.

  Lemma kind_trans ct a b c :
    length a = length b -> length b = length c ->
    line_kind ct a b -> line_kind ct b c -> line_kind ct a c.
  Proof.
    intros L1 L2 K1 K2.
    assert (Ring : ringb (MkLine ct b) = true -> 2 <= length a -> line_kind ct a c).
    { intros Rb Hn. right; right.
      assert (Ra : ringb (MkLine ct a) = true) by (eapply kind_ringb; eassumption).
      assert (Rc : ringb (MkLine ct c) = true) by (eapply kind_ringb; [apply kind_sym; eassumption | assumption]).
      repeat split; auto. intros d.
      eapply Aff_trans; try eassumption; try lia.
      - apply kind_aff; eauto.
      - rewrite L1. apply kind_aff; eauto; lia. }
    destruct K1 as [I1|[R1|[Ra [Rb [Hn _]]]]]; [| |apply Ring; auto];
      (destruct K2 as [I2|[R2|[Rb [Rc [Hn _]]]]]; [| |apply Ring; auto; lia]).
    - left. eapply Forall2_P_trans; eassumption.
    - right; left. eapply Forall2_P_trans; eassumption.
    - right; left. eapply Forall2_P_trans; [exact R1|]. apply Forall2_rev. assumption.
    - left. eapply Forall2_P_trans; [exact R1|]. apply Forall2_rev in R2. rewrite rev_involutive in R2. assumption.
  Qed.

  Lemma line_io_trans l1 l2 l3 : leq l1 l2 = true -> leq l2 l3 = true -> leq l1 l3 = true.
  Proof.
    rewrite !(line_eq_kind F feq simple feq_sym feq_trans). intros [C1 [L1 K1]] [C2 [L2 K2]].
    rewrite <- C1 in K2. repeat split; [congruence | congruence | eapply kind_trans; eassumption].
  Qed.
End LineTrans.

Lemma structure_io_sym {A B} (e : A -> B -> bool) (e' : B -> A -> bool) l m :
  length l = length m ->
  (forall a b, In a l -> e a b = true -> e' b a = true) ->
  structure_eq true e l m = true -> structure_eq true e' m l = true.
Proof.
  intros L H V. unfold structure_eq in *. apply vp_sound in V; [|assumption].
  destruct V as [p [Pm Fp]].
  assert (F2 : Forall2 (fun b a => e' b a = true) p l) by (revert Fp; apply Forall2_flip; auto).
  destruct (Forall2_perm_l _ p m l (Permutation_sym Pm) F2) as [l' [Pl Fl]].
  eapply vp_complete; eassumption.
Qed.

Section IOSymGeom.
  Variable F : Type.
  Variable feq : F -> F -> bool.
  Variable simple : lineT F -> bool.
  Hypothesis feq_sym : forall a b, feq a b = true -> feq b a = true.
  Hypothesis feq_trans : forall a b c, feq a b = true -> feq b c = true -> feq a c = true.
  Notation xy := (xy_exact feq).
  Notation lsym := (line_io_sym F feq simple feq_sym feq_trans).

  Lemma poly_io_sym p q :
    poly_eq feq xy simple true p q = true -> poly_eq feq xy simple true q p = true.
  Proof.
    unfold poly_eq. rewrite !andb_true_iff, !Nat.eqb_eq. intros [[L E] H]. repeat split; auto.
    - apply lsym; assumption.
    - revert H. apply structure_io_sym; auto. intros; apply lsym; assumption.
  Qed.

  Lemma geom_io_sym g h :
    geom_eq feq xy simple true g h = true -> geom_eq feq xy simple true h g = true.
  Proof.
    pose proof (xy_sym F feq feq_sym) as xs.
    revert g h. apply geom_eq_ind; simpl; auto using point_eq_sym, lsym, poly_io_sym;
      intros ct l m L H; intros; (apply (members_eq_intro true); [auto|]); revert H;
      apply structure_io_sym; auto using mpoint_member_eq_sym, lsym, poly_io_sym.
  Qed.
End IOSymGeom.

Lemma feq_bits_trans a b c : feq_bits a b = true -> feq_bits b c = true -> feq_bits a c = true.
Proof.
  unfold feq_bits, is_zero_bits.
  destruct (N.eqb_spec a b) as [->|Hab]; auto.
  destruct (N.eqb_spec b c) as [->|Hbc].
  - destruct (N.eqb_spec a c); [congruence | auto].
  - rewrite !andb_true_iff, !orb_true_iff, !N.eqb_eq. intros [Za Zb] [_ Zc].
    destruct (N.eqb_spec a c) as [->|Hac].
    + unfold is_nan_fast. destruct Zc as [->| ->]; reflexivity.
    + rewrite !andb_true_iff, !orb_true_iff, !N.eqb_eq. auto.
Qed.

Lemma ee_io_sym_bits simple g h :
  exact_equals simple 0 true g h = exact_equals simple 0 true h g.
Proof.
  apply eq_true_iff_eq. unfold exact_equals.
  change (xy_eq_bits 0) with (fun a b : vtx N => xy_exact feq_bits a b).
  split; apply geom_io_sym; first [exact feq_bits_trans | intros a b E; rewrite feq_bits_sym; exact E].
Qed.

Lemma structure_io_trans {A} (e : A -> A -> bool) l1 l2 l3 :
  length l1 = length l2 -> length l2 = length l3 ->
  (forall a b c, In a l1 -> e a b = true -> e b c = true -> e a c = true) ->
  structure_eq true e l1 l2 = true -> structure_eq true e l2 l3 = true -> structure_eq true e l1 l3 = true.
Proof.
  intros L1 L2 T H1 H2. unfold structure_eq in *.
  apply vp_sound in H1; [|assumption]. apply vp_sound in H2; [|assumption].
  destruct H1 as [p [Pp Fp]], H2 as [q [Pq Fq]].
  destruct (Forall2_perm_l _ l2 p q Pp Fq) as [q' [Pq' Fq']].
  apply vp_complete with (p := q').
  - eapply perm_trans; eassumption.
  - eapply Forall2_trans_gen; [|exact Fp|exact Fq']. simpl. intros a b c Ha. apply T; assumption.
Qed.

Section GeomTrans.
  Variable F : Type.
  Variable feq : F -> F -> bool.
  Variable simple : lineT F -> bool.
  Hypothesis feq_sym : forall a b, feq a b = true -> feq b a = true.
  Hypothesis feq_trans : forall a b c, feq a b = true -> feq b c = true -> feq a c = true.
  Notation xy := (xy_exact feq).
  Hypothesis simple_eq : forall ct vs ws,
    Forall2 (veq feq ct) vs ws -> simple (MkLine ct vs) = simple (MkLine ct ws).
  Hypothesis simple_rev : forall ct vs,
    ends_eq feq xy (MkLine ct vs) = true -> simple (MkLine ct (rev vs)) = simple (MkLine ct vs).
  Notation ltrans := (line_io_trans F feq simple feq_sym feq_trans simple_eq simple_rev).
  Notation ee_io := (geom_eq feq xy simple true).

  Lemma coord_eq_trans c1 a c2 b c3 c :
    coord_eq feq xy c1 a c2 b = true -> coord_eq feq xy c2 b c3 c = true -> coord_eq feq xy c1 a c3 c = true.
  Proof.
    intros H1 H2. pose proof (coord_eq_ct _ _ _ _ _ _ _ H1). pose proof (coord_eq_ct _ _ _ _ _ _ _ H2). subst.
    exact (P_trans F feq feq_sym feq_trans c3 a b c H1 H2).
  Qed.

  Lemma point_eq_trans p q r :
    point_eq feq xy p q = true -> point_eq feq xy q r = true -> point_eq feq xy p r = true.
  Proof.
    unfold point_eq. destruct (point_c p), (point_c q), (point_c r); try discriminate.
    - apply coord_eq_trans.
    - rewrite !ct_eqb_eq. congruence.
  Qed.
  Lemma mpoint_member_eq_trans p q r :
    mpoint_member_eq feq xy p q = true -> mpoint_member_eq feq xy q r = true -> mpoint_member_eq feq xy p r = true.
  Proof.
    unfold mpoint_member_eq. destruct (point_c p), (point_c q), (point_c r); try discriminate; auto.
    apply coord_eq_trans.
  Qed.

  Lemma poly_io_trans p q r :
    poly_eq feq xy simple true p q = true -> poly_eq feq xy simple true q r = true ->
    poly_eq feq xy simple true p r = true.
  Proof.
    unfold poly_eq. rewrite !andb_true_iff, !Nat.eqb_eq. intros [[L1 E1] H1] [[L2 E2] H2].
    repeat split; [congruence | eapply ltrans; eassumption|].
    eapply structure_io_trans; try eassumption. intros; eapply ltrans; eassumption.
  Qed.

  Lemma geom_io_trans g h k : ee_io g h = true -> ee_io h k = true -> ee_io g k = true.
  Proof.
    intros H1. revert k. revert g h H1.
    apply (geom_eq_ind _ _ _ _ (fun g h => forall k, ee_io h k = true -> ee_io g k = true)).
    1-3: intros a b H1 [r|l3|r|ct3 rs|ct3 ms|ct3 rs|ct3 js]; simpl; try discriminate;
      eauto using point_eq_trans, ltrans, poly_io_trans.
    all: intros ct l1 l2 L1 H1.
    4: intros IH.
    all: intros [r|l3|r|ct3 l3|ct3 l3|ct3 l3|ct3 l3]; simpl; try discriminate;
      rewrite !(members_eq_iff true); intros [L2 [<- H2]]; repeat split; try congruence;
      eapply structure_io_trans; eauto using mpoint_member_eq_trans, ltrans, poly_io_trans.
  Qed.
End GeomTrans.

(* ------------------------------------------------------------------ completeness *)
(* transparent: recursive calls on the members of a Forall2 premise are seen to be guarded through it *)
Lemma Forall2_imp {A B} (R S : A -> B -> Prop) (f : forall a b, R a b -> S a b) :
  forall l m, Forall2 R l m -> Forall2 S l m.
Proof. fix go 3. intros l m H. destruct H; constructor; [apply f; assumption | apply go; assumption]. Defined.

Lemma structure_perm_self_l {A} (e : A -> A -> bool) l m :
  Permutation l m -> structure_eq true e l l = true -> structure_eq true e l m = true.
Proof.
  intros Pm H. unfold structure_eq in *. apply vp_sound in H; [|reflexivity]. destruct H as [p [Pp Fp]].
  apply vp_complete with (p := p); [|assumption]. eapply perm_trans; [apply Permutation_sym; exact Pm | exact Pp].
Qed.

Lemma structure_perm_self_r {A} (e : A -> A -> bool) l m :
  Permutation l m -> structure_eq true e m m = true -> structure_eq true e l m = true.
Proof.
  intros Pm H. unfold structure_eq in *. apply vp_sound in H; [|reflexivity]. destruct H as [p [Pp Fp]].
  destruct (Forall2_perm_l _ m l p (Permutation_sym Pm) Fp) as [p' [Pp' Fp']].
  apply vp_complete with (p := p'); [|assumption]. eapply perm_trans; eassumption.
Qed.

Lemma structure_self_members {A} (e : A -> A -> bool) l :
  (forall a b, e a b = true -> e a a = true) ->
  structure_eq true e l l = true -> Forall (fun a => e a a = true) l.
Proof.
  intros S H. unfold structure_eq in H. apply vp_sound in H; [|reflexivity]. destruct H as [p [_ Fp]].
  clear -S Fp. induction Fp; constructor; eauto.
Qed.

Section Complete.
  Variable F : Type.
  Variable feq : F -> F -> bool.
  Variable simple : lineT F -> bool.
  Hypothesis feq_sym : forall a b, feq a b = true -> feq b a = true.
  Hypothesis feq_trans : forall a b c, feq a b = true -> feq b c = true -> feq a c = true.
  Notation xy := (xy_exact feq).
  Hypothesis simple_eq : forall ct vs ws,
    Forall2 (veq feq ct) vs ws -> simple (MkLine ct vs) = simple (MkLine ct ws).
  Hypothesis simple_rev : forall ct vs,
    ends_eq feq xy (MkLine ct vs) = true -> simple (MkLine ct (rev vs)) = simple (MkLine ct vs).
  Notation ee_io := (geom_eq feq xy simple true).
  Notation leq := (line_eq feq xy simple true).
  Notation OE := (OrderEquiv feq simple).
  Notation P := (P F feq).
  Notation gsym := (geom_io_sym F feq simple feq_sym feq_trans).
  Notation gtrans := (geom_io_trans F feq simple feq_sym feq_trans simple_eq simple_rev).
  Notation lkind := (line_eq_kind F feq simple feq_sym feq_trans).

  (* self-equal = every compared ordinate is == to itself (no NaN) *)
  Definition slf (g : geomT F) : Prop := ee_io g g = true.

  Lemma ee_slf_l g h : ee_io g h = true -> slf g.
  Proof. intros H. unfold slf. eapply gtrans; [exact H | apply gsym; exact H]. Qed.
  Lemma ee_slf_r g h : ee_io g h = true -> slf h.
  Proof. intros H. unfold slf. eapply gtrans; [apply gsym; exact H | exact H]. Qed.

  Lemma Forall2_P_self ct c1 c2 : Forall2 (P ct) c1 c2 -> Forall2 (P ct) c1 c1.
  Proof. induction 1; constructor; eauto using (P_self_l F feq feq_sym feq_trans). Qed.

  Lemma line_self ct vs : leq (MkLine ct vs) (MkLine ct vs) = true -> Forall2 (P ct) vs vs.
  Proof.
    intros H. apply lkind in H. simpl in H. destruct H as [_ [_ [H|[H|[R [_ [Hn H]]]]]]].
    - exact H.
    - eapply Forall2_P_self; exact H.
    - destruct vs as [|d r]; [simpl in Hn; lia|]. set (c := d :: r) in *.
      assert (C : closedP F feq ct d (length c - 1) c) by (eapply ringb_closed; eassumption).
      destruct (H d) as [s [k [_ Hz]]].
      apply (Forall2_of_nth _ c c d d); auto. intros i Hi.
      destruct (Nat.eq_dec i (length c - 1)) as [->|Hne].
      + exact (P_self_r F feq feq_sym feq_trans _ _ _ C).
      + specialize (Hz (Z.of_nat i)). rewrite cyc_small in Hz by lia.
        exact (P_self_l F feq feq_sym feq_trans _ _ _ Hz).
  Qed.

  Lemma accept_reverse ct vs :
    Forall2 (P ct) vs vs -> leq (MkLine ct vs) (MkLine ct (rev vs)) = true.
  Proof.
    intros H. apply lkind. simpl. rewrite rev_length. repeat split. right; left. rewrite rev_involutive. exact H.
  Qed.

  Definition Qc (g h : geomT F) : Prop := slf g \/ slf h -> ee_io g h = true.

  (* members that are self-equal on one side, pairwise Qc: pairwise accepted *)
  Lemma members_accept {A} (w : A -> geomT F) (e : A -> A -> bool) ls ks :
    (forall a b, e a b = ee_io (w a) (w b)) ->
    Forall2 (fun a b => OE (w a) (w b) /\ Qc (w a) (w b)) ls ks ->
    structure_eq true e ls ls = true \/ structure_eq true e ks ks = true ->
    Forall2 (fun a b => e a b = true) ls ks.
  Proof.
    intros E H S.
    assert (Sf : forall a b, e a b = true -> e a a = true) by (intros a b; rewrite !E; apply ee_slf_l).
    assert (S' : Forall (fun a => e a a = true) ls \/ Forall (fun b => e b b = true) ks)
      by (destruct S; [left|right]; apply (structure_self_members _ _ Sf); assumption).
    clear S. induction H as [|a b ls ks [_ Hq] H IH]; constructor.
    - rewrite E. apply Hq. unfold slf. rewrite <- !E.
      destruct S' as [S|S]; inversion S; subst; auto.
    - apply IH. destruct S' as [S|S]; inversion S; subst; auto.
  Qed.

  Lemma members_perm_self {A} (e : A -> A -> bool) c l m :
    Permutation l m ->
    (length l =? length l) && ct_eqb c c && structure_eq true e l l = true \/
    (length m =? length m) && ct_eqb c c && structure_eq true e m m = true ->
    (length l =? length m) && ct_eqb c c && structure_eq true e l m = true.
  Proof.
    intros Pm S. apply members_eq_intro; [apply Permutation_length, Pm|].
    destruct S as [S|S]; apply members_eq_iff in S; [apply structure_perm_self_l | apply structure_perm_self_r]; tauto.
  Qed.

  Lemma members_inside {A} (w : A -> geomT F) (e : A -> A -> bool) c l m :
    (forall a b, e a b = ee_io (w a) (w b)) ->
    Forall2 (fun a b => OE (w a) (w b) /\ Qc (w a) (w b)) l m ->
    (length l =? length l) && ct_eqb c c && structure_eq true e l l = true \/
    (length m =? length m) && ct_eqb c c && structure_eq true e m m = true ->
    (length l =? length m) && ct_eqb c c && structure_eq true e l m = true.
  Proof.
    intros E H S. apply io_accepts_inside, (members_accept w e l m E H).
    destruct S as [S|S]; apply members_eq_iff in S; tauto.
  Qed.

  Lemma oe_complete_aux : forall g h, OE g h -> Qc g h.
  Proof.
    fix IH 3. intros g h H.
    destruct H as [g h H|g h H|g h k H1 H2|ct vs|ct vs ws k flip R1 R2 H|ct ps qs Pm|ct ls ks Pm|ct ps qs Pm
                  |ct gs hs Pm|ct e hs ks Pm|ct rs ss H|ct ls ks H|ct ps qs H|ct gs hs H].
    11-14: apply (Forall2_imp _ _ (fun a b K => conj K (IH _ _ K))) in H.
    all: unfold Qc.
    - (* structural equality *) intros _. revert H. apply ee_plain_implies_io_lemma.
    - (* symmetry *) intros S. apply gsym. apply (IH _ _ H). tauto.
    - (* transitivity *) pose proof (IH _ _ H1) as IH1. pose proof (IH _ _ H2) as IH2. intros [S|S].
      + pose proof (IH1 (or_introl S)) as E1. eapply gtrans; [exact E1|]. apply IH2. left. eapply ee_slf_r; exact E1.
      + pose proof (IH2 (or_intror S)) as E2. eapply gtrans; [|exact E2]. apply IH1. right. eapply ee_slf_l; exact E2.
    - (* reversal *) intros [S|S]; simpl; apply accept_reverse.
      + apply line_self. exact S.
      + unfold slf in S. simpl in S. apply line_self in S. apply Forall2_rev in S.
        rewrite !rev_involutive in S. exact S.
    - (* ring moves *) intros _. apply gsym. simpl. exact (io_accepts_ring_move F feq simple ct vs ws k flip R1 R2 H).
    - (* member order *) intros S. apply members_perm_self; assumption.
    - intros S. apply members_perm_self; assumption.
    - intros S. apply members_perm_self; assumption.
    - intros S. apply members_perm_self; assumption.
    - (* hole order *) clear IH. intros [S|S]; unfold slf in S; simpl in *; unfold poly_eq in *;
        cbn [int_rings poly_rings ext_ring] in *; rewrite !andb_true_iff in *; destruct S as [[_ E] S];
        rewrite (Permutation_length Pm), Nat.eqb_refl; repeat split; auto;
        [apply structure_perm_self_l | apply structure_perm_self_r]; assumption.
    - (* inside polygons *) intros S. apply io_accepts_inside_poly.
      apply (members_accept (fun l => GLine l) leq rs ss); [reflexivity | exact H |].
      assert (E : forall p, slf (GPoly p) -> structure_eq true leq (poly_rings p) (poly_rings p) = true).
      { intros [c [|e hs]] Sp; [reflexivity|]. unfold slf in Sp. simpl in Sp. unfold poly_eq in Sp.
        rewrite !andb_true_iff in Sp. destruct Sp as [[_ E] Sp].
        apply vp_sound in Sp; [|reflexivity]. destruct Sp as [p [Pp Fp]].
        apply vp_complete with (p := e :: p); [apply perm_skip, Pp | constructor; assumption]. }
      destruct S as [S|S]; [left|right]; apply E in S; exact S.
    - (* inside MultiLineStrings *) revert H. apply (members_inside (fun l => GLine l)). reflexivity.
    - (* inside MultiPolygons *) revert H. apply (members_inside (fun p => GPoly p)). reflexivity.
    - (* inside collections *) revert H. apply (members_inside (fun g => g)). reflexivity.
  Qed.

  Lemma ee_io_complete_lemma g h : OE g h -> ee_io g g = true -> ee_io g h = true.
  Proof. intros H S. apply (oe_complete_aux g h H). left. exact S. Qed.

  (* the full equivalence: IgnoreOrder identifies exactly the OrderEquiv-related values *)
  Lemma ee_io_iff_lemma g h :
    cts_agree g = true -> cts_agree h = true -> ee_io g g = true ->
    (ee_io g h = true <-> OE g h).
  Proof.
    intros Cg Ch S. split.
    - intros E. exact (geom_io_sound F feq simple g h E _ _ Cg Ch).
    - intros H. apply ee_io_complete_lemma; assumption.
  Qed.
End Complete.

(* bit patterns *)
Lemma ee_io_iff_bits simple g h :
  (forall ct vs ws, Forall2 (veq feq_bits ct) vs ws -> simple (MkLine ct vs) = simple (MkLine ct ws)) ->
  (forall ct vs, ends_eq feq_bits (xy_exact feq_bits) (MkLine ct vs) = true ->
                 simple (MkLine ct (rev vs)) = simple (MkLine ct vs)) ->
  cts_agree g = true -> cts_agree h = true -> nan_free g = true ->
  (exact_equals simple 0 true g h = true <-> OrderEquiv feq_bits simple g h).
Proof.
  intros He Hr Cg Ch Ng. pose proof (ee_tol_refl_lemma simple 0 true g Ng) as S.
  unfold exact_equals in *.
  change (xy_eq_bits 0) with (fun a b : vtx N => xy_exact feq_bits a b) in *.
  apply ee_io_iff_lemma; auto.
  - intros a b E. rewrite feq_bits_sym. exact E.
  - exact feq_bits_trans.
Qed.

Lemma const_oracle_invariant {F} (feq : F -> F -> bool) (b : bool) :
  (forall ct vs ws, Forall2 (veq feq ct) vs ws -> (fun _ : lineT F => b) (MkLine ct vs) = (fun _ : lineT F => b) (MkLine ct ws)) /\
  (forall ct vs, ends_eq feq (xy_exact feq) (MkLine ct vs) = true ->
                 (fun _ : lineT F => b) (MkLine ct (rev vs)) = (fun _ : lineT F => b) (MkLine ct vs)).
Proof. split; reflexivity. Qed.

(* ------------------------------------------------------------------ stale fields of points *)
(* geom.NewPoint stores the Coordinates struct as given: the Z / M field of a point whose
   coordinate type does not use it may hold anything (sequences have no such fields).  The
   comparison never reads them: its answer is the answer on the value with those fields zeroed,
   which is what the accessor dump of the correspondence run hands to the model. *)
Lemma swap_remove_map {A B} (f : A -> B) i l : swap_remove i (map f l) = map f (swap_remove i l).
Proof.
  unfold swap_remove. rewrite <- map_rev. destruct (rev l) as [|x r] eqn:E; [reflexivity|].
  cbn [map].
  assert (R : removelast (map f l) = map f (removelast l)).
  { clear. induction l as [|a [|b t] IH]; try reflexivity.
    change (removelast (map f (a :: b :: t))) with (f a :: removelast (map f (b :: t))). rewrite IH. reflexivity. }
  rewrite R, map_length. destruct (i =? length (removelast l)); [reflexivity|].
  rewrite map_app, firstn_map. cbn [map]. rewrite skipn_map. reflexivity.
Qed.

Lemma vp_congr {A B A' B'} (e : A -> B -> bool) (e' : A' -> B' -> bool) (f : A -> A') (g : B -> B') l : forall m,
  (forall a b, In a l -> e' (f a) (g b) = e a b) ->
  valid_permutation e' (map f l) (map g m) = valid_permutation e l m.
Proof.
  induction l as [|a r IH]; intros [|c cs] H; try reflexivity.
  change (map f (a :: r)) with (f a :: map f r). change (map g (c :: cs)) with (g c :: map g cs).
  rewrite !vp_unfold.
  change (g c :: map g cs) with (map g (c :: cs)). generalize (c :: cs) as ch. intros ch.
  generalize 0 as i. generalize ch at 2 4 as rest.
  induction rest as [|x rest IHr]; intros i; [reflexivity|].
  simpl. rewrite swap_remove_map, H, IH, IHr by (intros; try apply H; simpl; auto). reflexivity.
Qed.

Lemma all2_congr {A B A' B'} (e : A -> B -> bool) (e' : A' -> B' -> bool) (f : A -> A') (g : B -> B') l : forall m,
  (forall a b, In a l -> e' (f a) (g b) = e a b) -> all2 e' (map f l) (map g m) = all2 e l m.
Proof.
  induction l as [|a r IH]; intros [|c cs] H; simpl; try reflexivity.
  rewrite H, IH by (intros; try apply H; simpl; auto). reflexivity.
Qed.

Lemma structure_eq_map_ext {A} io (e : A -> A -> bool) (f : A -> A) l m :
  (forall a b, In a l -> e (f a) (f b) = e a b) ->
  structure_eq io e (map f l) (map f m) = structure_eq io e l m.
Proof. intros H. unfold structure_eq. destruct io; [apply vp_congr | apply all2_congr]; exact H. Qed.

Section Unused.
  Variable F : Type.
  Variable feq : F -> F -> bool.
  Variable xy_eq : vtx F -> vtx F -> bool.
  Variable simple : lineT F -> bool.
  Variable io : bool.
  Variable zero : F.
  (* the XY comparison reads X and Y only *)
  Hypothesis xy_used : forall a b a' b',
    vx a = vx a' -> vy a = vy a' -> vx b = vx b' -> vy b = vy b' -> xy_eq a b = xy_eq a' b'.

  Notation sp := (norm_point (fun x : F => x) zero).
  (* zero the unused Z / M fields of every point *)
  Fixpoint strip_points (g : geomT F) : geomT F :=
    match g with
    | GPoint p => GPoint (sp p)
    | GMPoint ct ps => GMPoint ct (map sp ps)
    | GColl ct gs => GColl ct (map strip_points gs)
    | _ => g
    end.

  Lemma coord_eq_strip c a c' b :
    coord_eq feq xy_eq c (norm_vtx (fun x => x) zero c a) c' (norm_vtx (fun x => x) zero c' b)
    = coord_eq feq xy_eq c a c' b.
  Proof.
    unfold coord_eq. rewrite (xy_used _ _ a b) by reflexivity.
    destruct c, c'; simpl; try reflexivity; rewrite ?andb_false_r; reflexivity.
  Qed.

  Lemma point_eq_strip p q : point_eq feq xy_eq (sp p) (sp q) = point_eq feq xy_eq p q.
  Proof. destruct p as [c [a|]], q as [c' [b|]]; unfold point_eq; simpl; auto using coord_eq_strip. Qed.
  Lemma mpoint_member_eq_strip p q : mpoint_member_eq feq xy_eq (sp p) (sp q) = mpoint_member_eq feq xy_eq p q.
  Proof. destruct p as [c [a|]], q as [c' [b|]]; unfold mpoint_member_eq; simpl; auto using coord_eq_strip. Qed.

  Lemma geom_eq_strip g : forall h,
    geom_eq feq xy_eq simple io (strip_points g) (strip_points h) = geom_eq feq xy_eq simple io g h.
  Proof.
    induction g as [p|l|p|ct ps|ct ls|ct ps|ct gs IH] using geomT_ind';
      intros [q|k|q|ct' qs|ct' ks|ct' qs|ct' hs]; try reflexivity; simpl.
    - apply point_eq_strip.
    - rewrite !map_length. f_equal. apply structure_eq_map_ext. intros; apply mpoint_member_eq_strip.
    - rewrite !map_length. f_equal. apply structure_eq_map_ext.
      rewrite Forall_forall in IH. intros a b Ha. apply IH; assumption.
  Qed.
End Unused.

Lemma xy_eq_bits_used tol a b a' b' :
  vx a = vx a' -> vy a = vy a' -> vx b = vx b' -> vy b = vy b' -> xy_eq_bits tol a b = xy_eq_bits tol a' b'.
Proof. intros X Y X' Y'. unfold xy_eq_bits, xy_exact. rewrite X, Y, X', Y'. reflexivity. Qed.

Lemma ee_ignores_unused_lemma simple tol io g h :
  exact_equals simple tol io (strip_points N 0%N g) (strip_points N 0%N h) = exact_equals simple tol io g h.
Proof. unfold exact_equals. apply geom_eq_strip. apply xy_eq_bits_used. Qed.
