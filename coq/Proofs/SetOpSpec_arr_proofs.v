(* Property C01, lemmas about the arrangement structures of Model/SetOpSpec.v:
   - every point named by the incidence annotation of a witness is itself a witness of the same
     arrangement (the closure test only ever consults cells of the arrangement);
   - the slab cells have non-negative areas (events and slab heights are strictly increasing), hence
     the exact area functional is non-negative and monotone. *)
From Coq Require Import QArith Qreduction List Bool ZArith Lia Lqa.
From SF Require Import Base.GeomAST Base.QKernel Base.Planar Proofs.Planar_proofs Proofs.Planar_slab_base
  Model.SetOpSpec Proofs.SetOpSpec_proofs.
Import ListNotations.
Open Scope Q_scope.

Lemma slab_heights_spanning L xm : slab_heights L xm = qsort (map (fun s => seg_y_at s xm) (spanning L xm)).
Proof.
  unfold slab_heights. f_equal. induction L as [|s L IH]; [reflexivity|]. simpl. unfold spans at 1.
  destruct (seg_vertical s); simpl; [exact IH|].
  destruct (_ && _ || _ && _); simpl; rewrite IH; reflexivity.
Qed.
Lemma pinsert_fst x l : map fst (pinsert x l) = qinsert (fst x) (map fst l).
Proof.
  induction l as [|y r IH]; [reflexivity|]. simpl. destruct (fst x ?= fst y); simpl; try reflexivity.
  rewrite IH. reflexivity.
Qed.
Lemma fold_pinsert_fst l : map fst (fold_right pinsert [] l) = fold_right qinsert [] (map fst l).
Proof. induction l as [|x l IH]; [reflexivity|]. simpl. rewrite pinsert_fst, IH. reflexivity. Qed.
(* the pairs used for the incidence are laid out exactly as the slab's column *)
Lemma slab_pairs_fst L xm xe : map fst (slab_pairs L xm xe) = slab_heights L xm.
Proof.
  unfold slab_pairs. rewrite slab_heights_spanning, fold_pinsert_fst, map_map. reflexivity.
Qed.

Definition in_col (q : pt) (col : list (pt * dimv)) : Prop := exists d, In (q, d) col.

Lemma gaps_between_tail x y ys mid q :
  in_col q (gaps_between x ys mid) -> in_col q (gaps_between x (y :: ys) mid).
Proof.
  intros (d & H). destruct ys as [|y2 r]; [destruct H|]. exists d. right. exact H.
Qed.

Lemma col_adj_spec x (mid : Q -> Q -> dimv) ys : forall below e d0,
  In e (col_adj x below ys) ->
  (fst (snd e) = below \/ in_col (fst (snd e)) (gaps_between x ys mid)) /\
  (snd (snd e) = (x, Qred (last ys d0 + 1)) \/ in_col (snd (snd e)) (gaps_between x ys mid)).
Proof.
  induction ys as [|y|y y2 r' IH] using consec_ind; intros below e d0 H; [destruct H| |].
  - destruct H as [<-|[]]. split; left; reflexivity.
  - change (col_adj x below (y :: y2 :: r')) with ((y, (below, (x, qmid y y2))) :: col_adj x (x, qmid y y2) (y2 :: r')) in H.
    destruct H as [<-|H].
    + cbn [fst snd]. split; [left; reflexivity|]. right. exists (mid y y2). left. reflexivity.
    + destruct (IH (x, qmid y y2) e d0 H) as [H1 H2]. split.
      * right. destruct H1 as [->|H1]; [exists (mid y y2); left; reflexivity|]. apply gaps_between_tail. exact H1.
      * destruct H2 as [->|H2]; [left; reflexivity|]. right. apply gaps_between_tail. exact H2.
Qed.

(* neighbours named by an annotated column: in the column itself, or among [extra] *)
Lemma column_nb_nb x ys at_y mid extra w q :
  In w (column_nb x ys at_y mid extra) -> In q (wnb w) ->
  in_col q (column x ys at_y mid) \/ In q (extra (snd (wpt w))).
Proof.
  unfold column_nb, column. destruct ys as [|y1 r].
  - intros [<-|[]] Hq. right. exact Hq.
  - intros [<-|[<-|H]] Hq; [right; exact Hq|right; exact Hq|].
    apply in_app_or in H as [H|H].
    + apply in_map_iff in H as (e & <- & He). cbn [wnb wpt snd fst] in *.
      destruct (col_adj_spec x mid (y1 :: r) _ e y1 He) as [H1 H2].
      destruct Hq as [<-|[<-|Hq]]; [| |right; exact Hq]; left.
      * destruct H1 as [->|(d & H1)]; [exists D2; left; reflexivity|].
        exists d. right. right. apply in_or_app. right. exact H1.
      * destruct H2 as [->|(d & H2)]; [exists D2; right; left; reflexivity|].
        exists d. right. right. apply in_or_app. right. exact H2.
    + apply in_map_iff in H as (g & <- & Hg). cbn [wnb wpt snd fst] in *. right. exact Hq.
Qed.

Lemma in_if_one {A} (c : bool) (a q : A) : In q (if c then [a] else []) -> q = a.
Proof. destruct c; [intros [<-|[]]; reflexivity|intros []]. Qed.

Lemma inc_gaps_in_column xm y at_y mid prs q d0 :
  In q (inc_gaps xm y prs) ->
  in_col q (map (fun h => ((xm, h), at_y h)) (map fst prs) ++ gaps_between xm (map fst prs) mid)
  \/ q = (xm, Qred (last (map fst prs) d0 + 1)).
Proof.
  induction prs as [|p1|p1 p2 r IH] using consec_ind; [intros []| |].
  - simpl. intros H. apply in_app_or in H as [H|H]; apply in_if_one in H as ->.
    + left. exists (at_y (fst p1)). left. reflexivity.
    + right. reflexivity.
  - change (inc_gaps xm y (p1 :: p2 :: r)) with
      ((if Qeq_bool (snd p1) y then [(xm, fst p1)] else []) ++
       (if Qle_bool (snd p1) y && Qle_bool y (snd p2) then [(xm, qmid (fst p1) (fst p2))] else []) ++
       inc_gaps xm y (p2 :: r)).
    intros H. apply in_app_or in H as [H|H]; [|apply in_app_or in H as [H|H]].
    + apply in_if_one in H as ->. left. exists (at_y (fst p1)). left. reflexivity.
    + apply in_if_one in H as ->. left. exists (mid (fst p1) (fst p2)). apply in_or_app. right. left. reflexivity.
    + destruct (IH H) as [(d & Hd)| ->]; [left|right; reflexivity].
      exists d. apply in_app_or in Hd as [Hd|Hd]; apply in_or_app; [left|right]; right; exact Hd.
Qed.

Lemma inc_of_pairs_in_column xm prs y at_y mid q :
  In q (inc_of_pairs xm prs y) -> in_col q (column xm (map fst prs) at_y mid).
Proof.
  unfold inc_of_pairs, column. destruct prs as [|p1 r].
  - intros [<-|[]]. exists D2. left. reflexivity.
  - intros H. apply in_app_or in H as [H|H].
    + apply in_if_one in H as ->. exists D2. left. reflexivity.
    + destruct (inc_gaps_in_column xm y at_y mid (p1 :: r) q (fst p1) H) as [(d & Hd)| ->].
      * exists d. right. right. exact Hd.
      * exists D2. right. left. reflexivity.
Qed.

(* the cells of an adjacent slab named as incident to a point of an event line are witnesses of
   that slab *)
Lemma slab_incident_in_slab L x0 x1 xe y q :
  In q (slab_incident L (qmid x0 x1) xe y) -> in_col q (slab_witnesses L x0 x1).
Proof.
  unfold slab_incident, slab_witnesses. intros H.
  rewrite <- (slab_pairs_fst L (qmid x0 x1) xe). eapply inc_of_pairs_in_column. exact H.
Qed.

Lemma events_nb_nb L V wr (ALL : list (pt * dimv)) : forall xs left,
  (forall y q, In q (left y) -> in_col q ALL) -> in_col wr ALL ->
  incl (slabs_between L xs) ALL -> incl (flat_map (event_witnesses L V) xs) ALL ->
  forall w q, In w (events_nb L V left wr xs) -> In q (wnb w) -> in_col q ALL.
Proof.
  induction xs as [|x|x x2 r IH] using consec_ind; intros left Hl Hr Hs He w q Hw Hq; [destruct Hw| |].
  - simpl in Hw. destruct (column_nb_nb _ _ _ _ _ _ _ Hw Hq) as [(d & Hd)|Hx].
    + exists d. apply He. simpl. apply in_or_app. left. exact Hd.
    + apply in_app_or in Hx as [Hx|[<-|[]]]; [eapply Hl; exact Hx|exact Hr].
  - rewrite events_nb_cons2 in Hw. rewrite slabs_between_cons2 in Hs.
    assert (Hslab : forall xe y q, In q (slab_incident L (qmid x x2) xe y) -> in_col q ALL).
    { intros xe y q' H. destruct (slab_incident_in_slab _ _ _ _ _ _ H) as (d & Hd). exists d.
      apply Hs, in_or_app. left. exact Hd. }
    apply in_app_or in Hw as [Hw|Hw].
    + destruct (column_nb_nb _ _ _ _ _ _ _ Hw Hq) as [(d & Hd)|Hx].
      * exists d. apply He. simpl. apply in_or_app. left. exact Hd.
      * apply in_app_or in Hx as [Hx|Hx]; [eapply Hl; exact Hx|eapply Hslab; exact Hx].
    + apply (IH (slab_incident L (qmid x x2) x2)) with (w := w); auto.
      * intros y q' H. eapply Hslab. exact H.
      * intros z Hz. apply Hs, in_or_app. right. exact Hz.
      * intros z Hz. apply He. simpl. apply in_or_app. right. exact Hz.
Qed.

Lemma slabs_between_nb_nb L : forall xs w q,
  In w (slabs_between_nb L xs) -> In q (wnb w) -> in_col q (slabs_between L xs).
Proof.
  induction xs as [|x0|x0 x1 r IH] using consec_ind; intros w q Hw Hq; [destruct Hw..|].
  rewrite slabs_between_nb_cons2 in Hw. rewrite slabs_between_cons2. apply in_app_or in Hw as [Hw|Hw].
  - destruct (column_nb_nb _ _ _ _ _ _ _ Hw Hq) as [(d & Hd)|[]]. exists d. apply in_or_app. left. exact Hd.
  - destruct (IH w q Hw Hq) as (d & Hd). exists d. apply in_or_app. right. exact Hd.
Qed.

(* every neighbour named by the incidence annotation is a witness of the same arrangement *)
Theorem wnb_are_witnesses_lemma L P w q :
  In w (witnesses_nb L P) -> In q (wnb w) -> exists d, In (q, d) (witnesses L P).
Proof.
  unfold witnesses_nb, wits_of, witnesses.
  destruct (events (vertex_set L P)) as [|x0 r] eqn:E.
  - intros [<-|[]] [].
  - set (xs := x0 :: r).
    intros [<-|[<-|Hw]] Hq; [destruct Hq|destruct Hq|].
    apply in_app_or in Hw as [Hw|Hw].
    + eapply (events_nb_nb L (vertex_set L P) _ _ xs (fun _ => [(Qred (x0 - 1), 0)])); eauto.
      * intros y q' [<-|[]]. exists D2. left. reflexivity.
      * exists D2. right. left. reflexivity.
      * intros z Hz. right. right. apply in_or_app. right. exact Hz.
      * intros z Hz. right. right. apply in_or_app. left. exact Hz.
    + destruct (slabs_between_nb_nb L xs w q Hw Hq) as (d & Hd). exists d. right. right. apply in_or_app. right. exact Hd.
Qed.

Definition cells_nonneg (cells : list (pt * Q)) : Prop := Forall (fun c => 0 <= snd c) cells.

Lemma gap_cells_nonneg x w ys : 0 <= w -> qsorted ys -> cells_nonneg (gap_cells x w ys).
Proof.
  intros Hw. induction 1 as [|y|y z r Hyz Hs IH]; simpl; try constructor.
  - cbn [snd]. apply Qmult_le_0_compat; [exact Hw|]. lra.
  - exact IH.
Qed.
Lemma slab_cells_nonneg L xs : qsorted xs -> cells_nonneg (slab_cells L xs).
Proof.
  induction 1 as [|y|y z r Hyz Hs IH]; try constructor.
  rewrite slab_cells_cons2. apply Forall_app. split; [|exact IH].
  apply gap_cells_nonneg; [lra|]. unfold slab_heights. apply qsort_sorted.
Qed.

Lemma cells_area_mono cells f g :
  cells_nonneg cells -> (forall p, f p = true -> g p = true) -> cells_area cells f <= cells_area cells g.
Proof.
  intros Hn M. induction Hn as [|c cells Hc Hn IH]; simpl; [lra|].
  assert (X : (if f (fst c) then snd c else 0) <= (if g (fst c) then snd c else 0)).
  { destruct (f (fst c)) eqn:Ef; [rewrite (M _ Ef); lra|]. destruct (g (fst c)); lra. }
  lra.
Qed.

(* the area functional is non-negative and monotone: a smaller set has a smaller exact area *)
Theorem area_monotone_lemma L P f g :
  (forall p, f p = true -> g p = true) -> 0 <= area_of L P f /\ area_of L P f <= area_of L P g.
Proof.
  intros M. unfold area_of.
  assert (Hn : cells_nonneg (slab_cells L (events (vertex_set L P)))).
  { apply slab_cells_nonneg. unfold events. apply qsort_sorted. }
  split; [|apply cells_area_mono; assumption].
  rewrite <- (cells_area_false (slab_cells L (events (vertex_set L P)))).
  apply cells_area_mono; [assumption|discriminate].
Qed.
