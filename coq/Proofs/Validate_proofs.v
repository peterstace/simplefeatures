(* Property C03 - lemmas about the validation model (Model/Validate.v) and the reference
   statement (Model/ValidateSpec.v).  Statements of the theorems are repeated in Props/C03.v.
   The segment kernel (intersect_line_spec) is in Proofs/Validate_kernel.v. *)
From Coq Require Import QArith Qreduction List Bool ZArith Lia Lqa Arith Setoid Morphisms.
From SF Require Import Base.QKernel Model.Validate Model.ValidateSpec Proofs.Validate_kernel.
Import ListNotations.
Open Scope Q_scope.


(* ------------------------------------------------------------------ LineString.Validate *)
Definition Finite (p : oxy) : Prop := exists x y, p = (OFin x, OFin y).

Lemma oxy_pt_some p q : oxy_pt p = Some q -> exists x y, p = (OFin x, OFin y) /\ q = (inject_Z x, inject_Z y).
Proof.
  destruct p as [[x| | | ] [y| | | ]]; unfold oxy_pt; simpl; intros H; try discriminate.
  inversion H. exists x, y. auto.
Qed.
Lemma oxy_pt_fin x y : oxy_pt (OFin x, OFin y) = Some (inject_Z x, inject_Z y).
Proof. reflexivity. Qed.
Lemma oxy_pt_none_validate p : oxy_pt p = None <-> xy_validate p <> None.
Proof.
  destruct p as [[x| | | ] [y| | | ]]; unfold oxy_pt, xy_validate; simpl; split; intros; congruence.
Qed.

Lemma fin_pts_some vs ps : fin_pts vs = Some ps -> Forall2 (fun v p => oxy_pt v = Some p) vs ps.
Proof.
  revert ps. induction vs as [|v r IH]; simpl; intros ps H.
  - inversion H. constructor.
  - destruct (oxy_pt v) eqn:E; [|discriminate]. destruct (fin_pts r) eqn:E2; [|discriminate].
    inversion H. constructor; auto.
Qed.
Lemma fin_pts_finite vs : (exists ps, fin_pts vs = Some ps) <-> Forall Finite vs.
Proof.
  induction vs as [|v r IH]; simpl.
  - split; intros; [constructor | eauto].
  - split.
    + intros [ps H]. destruct (oxy_pt v) eqn:E; [|discriminate]. destruct (fin_pts r) eqn:E2; [|discriminate].
      constructor; [| apply IH; eauto]. apply oxy_pt_some in E. destruct E as [x [y [E _]]]. exists x, y; auto.
    + intros H. inversion H as [|? ? [x [y Hv]] Hr]; subst. apply IH in Hr. destruct Hr as [ps Hps].
      rewrite oxy_pt_fin, Hps. eauto.
Qed.
(* fin_pts fails exactly when Sequence.validate fails *)
Lemma fin_pts_seq_validate vs : fin_pts vs = None <-> seq_validate vs <> None.
Proof.
  induction vs as [|v r IH]; simpl.
  - split; intros; congruence.
  - destruct (oxy_pt v) eqn:E.
    + assert (xy_validate v = None).
      { destruct (xy_validate v) eqn:E2; auto. exfalso. assert (oxy_pt v = None) by (apply oxy_pt_none_validate; congruence). congruence. }
      rewrite H. destruct (fin_pts r); split; intros; try congruence; try (apply IH; auto); try (apply IH in H0; congruence).
    + assert (xy_validate v <> None) by (apply oxy_pt_none_validate; auto).
      destruct (xy_validate v); [split; intros; congruence | congruence].
Qed.

Lemma inject_Z_eq a b : inject_Z a == inject_Z b <-> a = b.
Proof. unfold Qeq, inject_Z; simpl. lia. Qed.

Lemma has_2_distinct_iff ps :
  has_2_distinct ps = true <-> exists p q, In p ps /\ In q ps /\ ~ pt_eq p q.
Proof.
  destruct ps as [|f r]; simpl.
  - split; [discriminate | intros [p [q [[] _]]]].
  - rewrite existsb_exists. split.
    + intros [p [Hin Hp]]. exists p, f. repeat split; auto.
      apply negb_true_iff in Hp. apply pt_eqb_false_iff in Hp. exact Hp.
    + intros [p [q [Hp [Hq Hne]]]].
      destruct (pt_eqb p f) eqn:Ep.
      * apply pt_eqb_iff in Ep. destruct (pt_eqb q f) eqn:Eq.
        -- apply pt_eqb_iff in Eq. exfalso. apply Hne. rewrite Ep, Eq. reflexivity.
        -- destruct Hq as [<-|Hq]. { apply pt_eqb_false_iff in Eq. exfalso; apply Eq; reflexivity. }
           exists q. split; auto. rewrite Eq. reflexivity.
      * destruct Hp as [<-|Hp]. { apply pt_eqb_false_iff in Ep. exfalso; apply Ep; reflexivity. }
        exists p. split; auto. rewrite Ep. reflexivity.
Qed.

Lemma Forall2_in_l {A B} (R : A -> B -> Prop) l l' x : Forall2 R l l' -> In x l -> exists y, In y l' /\ R x y.
Proof. induction 1; simpl; intros []; subst; eauto. destruct (IHForall2 H1) as [y' [? ?]]. eauto. Qed.
Lemma Forall2_in_r {A B} (R : A -> B -> Prop) l l' y : Forall2 R l l' -> In y l' -> exists x, In x l /\ R x y.
Proof. induction 1; simpl; intros []; subst; eauto. destruct (IHForall2 H1) as [y' [? ?]]. eauto. Qed.

(* LineString.Validate returns nil exactly for the empty line and for finite lines with two distinct points *)
Theorem ls_validate_spec_lemma vs :
  ls_validate vs = None <->
  (vs = [] \/ (Forall Finite vs /\ exists p q, In p vs /\ In q vs /\ p <> q)).
Proof.
  destruct vs as [|v r]; [simpl; split; auto|].
  unfold ls_validate. destruct (fin_pts (v :: r)) as [ps|] eqn:E.
  - pose proof (fin_pts_some _ _ E) as F2.
    assert (Fin : Forall Finite (v :: r)) by (apply fin_pts_finite; eauto).
    destruct (has_2_distinct ps) eqn:H2.
    + split; auto. intros _. right. split; auto.
      apply has_2_distinct_iff in H2. destruct H2 as [p [q [Hp [Hq Hne]]]].
      destruct (Forall2_in_r _ _ _ _ F2 Hp) as [a [Ha Ea]]. destruct (Forall2_in_r _ _ _ _ F2 Hq) as [b [Hb Eb]].
      exists a, b. repeat split; auto. intros ->. apply Hne. rewrite Ea in Eb. inversion Eb. reflexivity.
    + split; [discriminate|]. intros [H|[_ [a [b [Ha [Hb Hne]]]]]]; [discriminate|]. exfalso.
      assert (has_2_distinct ps = true); [|congruence].
      apply has_2_distinct_iff.
      destruct (Forall2_in_l _ _ _ _ F2 Ha) as [p [Hp Ep]]. destruct (Forall2_in_l _ _ _ _ F2 Hb) as [q [Hq Eq]].
      exists p, q. repeat split; auto. intros Hpq. apply Hne.
      apply oxy_pt_some in Ep. apply oxy_pt_some in Eq. destruct Ep as [x [y [-> ->]]]. destruct Eq as [x' [y' [-> ->]]].
      destruct Hpq as [H1 H2']. cbn [fst snd] in H1, H2'. apply (proj1 (inject_Z_eq _ _)) in H1. apply (proj1 (inject_Z_eq _ _)) in H2'. congruence.
  - split; [discriminate|]. intros [H|[Fin _]]; [discriminate|]. apply fin_pts_finite in Fin. destruct Fin. congruence.
Qed.


(* ------------------------------------------------------------------ as_lines *)
Lemma as_lines_nondegenerate ps s : In s (as_lines ps) -> ~ pt_eq (fst s) (snd s).
Proof.
  induction ps as [|a r IH]; simpl; [tauto|].
  destruct r as [|b r']; [simpl; tauto|].
  destruct (pt_eqb a b) eqn:E.
  - exact IH.
  - intros [<-|H]; [|exact (IH H)]. simpl. apply pt_eqb_false_iff. exact E.
Qed.

Lemma poly_lines_nondegenerate rings s : In s (poly_lines rings) -> ~ pt_eq (fst s) (snd s).
Proof.
  unfold poly_lines. intros H. apply in_flat_map in H. destruct H as [r [_ H]]. exact (as_lines_nondegenerate r s H).
Qed.

(* the first valid line starts at (a copy of) the first vertex *)
Lemma as_lines_head a r s L : as_lines (a :: r) = s :: L -> pt_eq (fst s) a.
Proof.
  revert a. induction r as [|b r IH]; intros a; simpl; [discriminate|].
  destruct (pt_eqb a b) eqn:E.
  - intros H. apply IH in H. apply pt_eqb_iff in E. rewrite H. symmetry. exact E.
  - intros H. inversion H. simpl. reflexivity.
Qed.

(* consecutive valid lines share an end point *)
Lemma as_lines_chain ps k sk sl :
  nth_error (as_lines ps) k = Some sk -> nth_error (as_lines ps) (S k) = Some sl -> pt_eq (snd sk) (fst sl).
Proof.
  revert k. induction ps as [|a r IH]; intros k; simpl; [destruct k; discriminate|].
  destruct r as [|b r']; [destruct k; discriminate|].
  destruct (pt_eqb a b) eqn:E.
  - apply IH.
  - destruct k as [|k].
    + cbn [nth_error]. intros H1 H2. inversion H1; subst. cbn [snd].
      destruct (as_lines (b :: r')) as [|s L] eqn:EL; [discriminate|].
      cbn [nth_error] in H2. inversion H2; subst. symmetry. eapply as_lines_head. exact EL.
    + cbn [nth_error]. apply IH.
Qed.

Lemma as_lines_cons2 a b r :
  as_lines (a :: b :: r) = if pt_eqb a b then as_lines (b :: r) else (a, b) :: as_lines (b :: r).
Proof. reflexivity. Qed.
Lemma last_cons2 {A} (x y : A) l d : last (x :: y :: l) d = last (y :: l) d.
Proof. reflexivity. Qed.
Lemma xy_uniq_cons2 a b r : xy_uniq (a :: b :: r) = if pt_eqb a b then xy_uniq (b :: r) else a :: xy_uniq (b :: r).
Proof. reflexivity. Qed.
Lemma midpoints_cons2 a b r : midpoints (a :: b :: r) = midpoint a b :: midpoints (b :: r).
Proof. reflexivity. Qed.

Lemma as_lines_nil_last b r d : as_lines (b :: r) = [] -> pt_eq b (last (b :: r) d).
Proof.
  revert b. induction r as [|c r IH]; intros b; [reflexivity|].
  rewrite as_lines_cons2, last_cons2. destruct (pt_eqb b c) eqn:E; [|discriminate].
  intros H. apply pt_eqb_iff in E. rewrite E. apply IH. exact H.
Qed.

(* the last valid line ends at (a copy of) the last vertex *)
Lemma as_lines_last ps d : as_lines ps <> [] -> pt_eq (snd (last (as_lines ps) d)) (last ps (fst d)).
Proof.
  induction ps as [|a r IH]; [simpl; congruence|].
  destruct r as [|b r']; [simpl; congruence|].
  rewrite as_lines_cons2, last_cons2. destruct (pt_eqb a b) eqn:E.
  - exact IH.
  - intros _. destruct (as_lines (b :: r')) as [|s L] eqn:EL.
    + cbn [last snd]. apply as_lines_nil_last. exact EL.
    + rewrite last_cons2. apply IH. congruence.
Qed.

Lemma nth_error_last {A} (l : list A) d : l <> [] -> nth_error l (length l - 1) = Some (last l d).
Proof.
  induction l as [|x r IH]; [congruence|]. intros _. destruct r as [|y r'].
  - reflexivity.
  - rewrite last_cons2. replace (length (x :: y :: r') - 1)%nat with (S (length (y :: r') - 1)) by (simpl; lia).
    cbn [nth_error]. apply IH. congruence.
Qed.

Lemma last_default_irrelevant {A} (l : list A) d d' : l <> [] -> last l d = last l d'.
Proof.
  induction l as [|a r IH]; [congruence|]. intros _. destruct r as [|b r']; [reflexivity|].
  rewrite !last_cons2. apply IH. discriminate.
Qed.


Lemma as_lines_closure ps s0 sl : is_closed ps = true ->
  nth_error (as_lines ps) 0 = Some s0 -> nth_error (as_lines ps) (length (as_lines ps) - 1) = Some sl ->
  pt_eq (fst s0) (snd sl).
Proof.
  intros Hc H0 Hl.
  assert (HL : as_lines ps <> []) by (intros E; rewrite E in H0; discriminate).
  assert (Esl : sl = last (as_lines ps) s0).
  { pose proof (nth_error_last (as_lines ps) s0 HL) as K. congruence. }
  unfold is_closed in Hc. destruct ps as [|p0 r]; [discriminate|]. apply pt_eqb_iff in Hc.
  assert (E0 : pt_eq (fst s0) p0).
  { destruct (as_lines (p0 :: r)) as [|s L'] eqn:EL; [congruence|]. simpl in H0. inversion H0; subst. eapply as_lines_head. exact EL. }
  assert (E1 : pt_eq (snd sl) (last (p0 :: r) (fst s0))) by (rewrite Esl; apply as_lines_last; exact HL).
  assert (E2 : last (p0 :: r) (fst s0) = last (p0 :: r) p0) by (apply last_default_irrelevant; discriminate).
  rewrite E0, Hc, <- E2, <- E1. reflexivity.
Qed.

(* ------------------------------------------------------------------ simple_from as a statement on pairs *)
Lemma simple_against_iff closed m k l sk rest :
  simple_against closed m k l sk rest = true <->
  forall j sj, nth_error rest j = Some sj -> pair_simple closed m k (l + j) sk sj = true.
Proof.
  revert l. induction rest as [|s r IH]; intros l; simpl.
  - split; auto. intros _ j sj H. destruct j; discriminate.
  - rewrite andb_true_iff, IH. split.
    + intros [H1 H2] j sj Hj. destruct j as [|j]; simpl in Hj.
      * inversion Hj; subst. rewrite Nat.add_0_r. exact H1.
      * replace (l + S j)%nat with (S l + j)%nat by lia. apply H2. exact Hj.
    + intros H. split.
      * specialize (H 0%nat s eq_refl). rewrite Nat.add_0_r in H. exact H.
      * intros j sj Hj. replace (S l + j)%nat with (l + S j)%nat by lia. apply H. exact Hj.
Qed.

(* a loop over the ordered pairs of positions of a list, [inner k s r] handling the pairs of the
   element s at position k with the elements of r that follow it *)
Lemma ordered_pairs_iff {A} (P : nat -> nat -> A -> A -> bool) (inner : nat -> A -> list A -> bool) (F : nat -> list A -> bool) :
  (forall k, F k [] = true) ->
  (forall k s r, F k (s :: r) = inner k s r && F (S k) r) ->
  (forall k s r, inner k s r = true <-> forall j sj, nth_error r j = Some sj -> P k (S k + j)%nat s sj = true) ->
  forall L k, F k L = true <->
    forall i j si sj, (i < j)%nat -> nth_error L i = Some si -> nth_error L j = Some sj -> P (k + i)%nat (k + j)%nat si sj = true.
Proof.
  intros F0 FS Hin. induction L as [|s r IH]; intros k.
  - rewrite F0. split; auto. intros _ i j si sj _ H. destruct i; discriminate.
  - rewrite FS, andb_true_iff, Hin, IH. split.
    + intros [H1 H2] i j si sj Hij Hi Hj. destruct j as [|j]; [lia|]. destruct i as [|i]; simpl in Hi, Hj.
      * inversion Hi; subst. rewrite Nat.add_0_r. replace (k + S j)%nat with (S k + j)%nat by lia. apply H1. exact Hj.
      * replace (k + S i)%nat with (S k + i)%nat by lia. replace (k + S j)%nat with (S k + j)%nat by lia.
        apply (H2 i j); auto. lia.
    + intros H. split.
      * intros j sj Hj. specialize (H 0%nat (S j) s sj). rewrite Nat.add_0_r in H.
        replace (S k + j)%nat with (k + S j)%nat by lia. apply H; auto. lia.
      * intros i j si sj Hij Hi Hj. specialize (H (S i) (S j) si sj).
        replace (S k + i)%nat with (k + S i)%nat by lia. replace (S k + j)%nat with (k + S j)%nat by lia.
        apply H; auto. lia.
Qed.

Lemma simple_from_iff closed m k L :
  simple_from closed m k L = true <->
  forall i j si sj, (i < j)%nat -> nth_error L i = Some si -> nth_error L j = Some sj ->
                    pair_simple closed m (k + i) (k + j) si sj = true.
Proof.
  apply (ordered_pairs_iff (pair_simple closed m) (fun k s r => simple_against closed m k (S k) s r) (simple_from closed m)); try reflexivity.
  intros k0 s r. apply simple_against_iff.
Qed.

(* ------------------------------------------------------------------ the definition of simplicity *)
(* Two valid lines of the curve share a point only if they are consecutive and the point is their
   common end, or they are the first and the last line of a closed curve and the point is the
   closing vertex. *)
Definition Simple (ps : list pt) : Prop :=
  let L := as_lines ps in
  forall k l sk sl, (k < l)%nat -> nth_error L k = Some sk -> nth_error L l = Some sl ->
  forall p, common sk sl p ->
    (l = S k /\ pt_eq p (snd sk))
    \/ (is_closed ps = true /\ k = 0%nat /\ S l = length L /\ pt_eq p (fst sk)).

Lemma on_seg_mid s p q : on_seg s p = true -> on_seg s q = true -> on_seg s (midpoint p q) = true.
Proof.
  destruct s as [a b]. rewrite !on_seg_iff. intros [t [[T0 T1] [Hx Hy]]] [u [[U0 U1] [Hx' Hy']]].
  exists ((t + u) * (1 # 2)). unfold seg_param, midpoint; cbn [fst snd]. rewrite !Qred_correct.
  split; [split; lra|]. split; [rewrite Hx, Hx' | rewrite Hy, Hy']; ring.
Qed.
Lemma midpoint_ne p q : ~ pt_eq p q -> ~ pt_eq (midpoint p q) p /\ ~ pt_eq (midpoint p q) q.
Proof.
  destruct p as [px py], q as [qx qy]. unfold pt_eq, midpoint; cbn [fst snd]. rewrite !Qred_correct.
  intros H. split; intros [H1 H2]; apply H; split; lra.
Qed.

Lemma nth_error_in_lines ps k s : nth_error (as_lines ps) k = Some s -> ~ pt_eq (fst s) (snd s).
Proof. intros H. apply (as_lines_nondegenerate ps). eapply nth_error_In; eauto. Qed.

(* the midpoint of two common points would be a third, and all three would be among the two ends
   of the first line *)
Lemma Simple_at_most_one ps k l sk sl : Simple ps -> (k < l)%nat ->
  nth_error (as_lines ps) k = Some sk -> nth_error (as_lines ps) l = Some sl ->
  forall p q, common sk sl p -> common sk sl q -> pt_eq p q.
Proof.
  intros HS Hkl Hk Hl p q Hp Hq.
  destruct (pt_eqb p q) eqn:E; [apply pt_eqb_iff; exact E|]. apply pt_eqb_false_iff in E. exfalso.
  assert (Cm : common sk sl (midpoint p q)) by (destruct Hp, Hq; split; apply on_seg_mid; assumption).
  destruct (midpoint_ne p q E) as [M1 M2].
  assert (Hall : forall x, common sk sl x -> pt_eq x (snd sk) \/ pt_eq x (fst sk)).
  { intros x Hx. destruct (HS k l sk sl Hkl Hk Hl x Hx) as [[_ K]|[_ [_ [_ K]]]]; auto. }
  destruct (Hall p Hp) as [A|A]; destruct (Hall q Hq) as [B|B]; destruct (Hall _ Cm) as [C|C];
    first [ apply E; etransitivity; [exact A | symmetry; exact B]
          | apply M1; etransitivity; [exact C | symmetry; exact A]
          | apply M2; etransitivity; [exact C | symmetry; exact B] ].
Qed.

Theorem ring_simple_spec_lemma ps : is_simple ps = true <-> Simple ps.
Proof.
  unfold is_simple. rewrite simple_from_iff.
  assert (Hshared : forall k sk sl, nth_error (as_lines ps) k = Some sk -> nth_error (as_lines ps) (S k) = Some sl ->
                    common sk sl (snd sk)).
  { intros k sk sl Hk Hl. pose proof (as_lines_chain ps k sk sl Hk Hl) as E.
    destruct sk as [a b], sl as [c d]. simpl in *. split; [apply on_seg_right|].
    rewrite (on_seg_eq (c, d) b c E). apply on_seg_left. }
  assert (Hclose : forall s0 l sl, is_closed ps = true -> nth_error (as_lines ps) 0 = Some s0 ->
                   nth_error (as_lines ps) l = Some sl -> S l = length (as_lines ps) -> common s0 sl (fst s0)).
  { intros s0 l sl Hc H0 Hl Hm.
    assert (E : pt_eq (fst s0) (snd sl)).
    { apply (as_lines_closure ps s0 sl Hc H0). replace (length (as_lines ps) - 1)%nat with l by lia. exact Hl. }
    destruct s0 as [a b], sl as [c d]. simpl in *. split; [apply on_seg_left|].
    rewrite (on_seg_eq (c, d) a d E). apply on_seg_right. }
  split.
  - intros H k l sk sl Hkl Hk Hl p Hp.
    specialize (H k l sk sl Hkl Hk Hl). cbn [Nat.add] in H. unfold pair_simple in H.
    pose proof (nth_error_in_lines ps k sk Hk) as Nk. pose proof (nth_error_in_lines ps l sl Hl) as Nl.
    destruct sk as [a b], sl as [c d].
    pose proof (intersect_line_spec a b c d Nk Nl) as Sp.
    destruct (intersect_line (a, b) (c, d)) as [|pa pb]; simpl in Sp.
    + exfalso. exact (Sp p Hp).
    + destruct Sp as [Ca [Cb U]].
      destruct (pt_eqb pa pb) eqn:Eab; [|cbn [negb] in H; discriminate]. cbn [negb] in H.
      apply pt_eqb_iff in Eab. specialize (U Eab).
      destruct (Nat.eqb l (S k)) eqn:E1.
      * apply Nat.eqb_eq in E1. subst l. left. split; [reflexivity|].
        rewrite (U p Hp). symmetry. apply U. apply (Hshared k (a, b) (c, d)); assumption.
      * destruct (is_closed ps && Nat.eqb k 0 && Nat.eqb (S l) (length (as_lines ps))) eqn:E2; [|discriminate].
        rewrite !andb_true_iff in E2. destruct E2 as [[Hc Ek] Em].
        apply Nat.eqb_eq in Ek, Em. subst k. right. split; [exact Hc|]. split; [reflexivity|]. split; [exact Em|].
        rewrite (U p Hp). symmetry. apply U. apply (Hclose (a, b) l (c, d)); assumption.
  - intros H i j si sj Hij Hi Hj. cbn [Nat.add]. unfold pair_simple.
    pose proof (nth_error_in_lines ps i si Hi) as Ni. pose proof (nth_error_in_lines ps j sj Hj) as Nj.
    pose proof (Simple_at_most_one ps i j si sj H Hij Hi Hj) as U.
    specialize (H i j si sj Hij Hi Hj).
    destruct si as [a b], sj as [c d].
    pose proof (intersect_line_spec a b c d Ni Nj) as Sp.
    destruct (intersect_line (a, b) (c, d)) as [|pa pb]; simpl in Sp; [reflexivity|].
    destruct Sp as [Ca [Cb _]].
    assert (Eab : pt_eqb pa pb = true) by (apply pt_eqb_iff; apply U; assumption). rewrite Eab.
    cbn [negb]. destruct (H pa Ca) as [[E _]|[Hc [Ek [Em _]]]].
    + subst j. rewrite Nat.eqb_refl. reflexivity.
    + subst i. destruct (Nat.eqb j 1); [reflexivity|]. rewrite Hc, <- Em, !Nat.eqb_refl. reflexivity.
Qed.

(* ------------------------------------------------------------------ boundary_inter as two existentials *)
Definition bi_step (la : seg) (acc' : bool * bool) (lb : seg) : bool * bool :=
  match intersect_line la lb with
  | ILEmpty => acc'
  | ILSome pa pb => if pt_eqb pa pb then (true, snd acc') else (fst acc', true)
  end.

Lemma bi_step_eq la acc lb :
  bi_step la acc lb = (fst acc || il_pt (intersect_line la lb), snd acc || il_ls (intersect_line la lb)).
Proof.
  unfold bi_step. generalize (intersect_line la lb). intros r. destruct acc as [p q]. destruct r as [|pa pb]; cbn [il_pt il_ls fst snd].
  - rewrite !orb_false_r. reflexivity.
  - destruct (pt_eqb pa pb); cbn [negb]; rewrite ?orb_true_r, ?orb_false_r; reflexivity.
Qed.

Lemma bi_inner la l : forall acc,
  fold_left (bi_step la) l acc =
  (fst acc || existsb (fun lb => il_pt (intersect_line la lb)) l,
   snd acc || existsb (fun lb => il_ls (intersect_line la lb)) l).
Proof.
  induction l as [|x r IH]; intros acc; cbn [fold_left existsb].
  - rewrite !orb_false_r. destruct acc; reflexivity.
  - rewrite IH, bi_step_eq. cbn [fst snd]. rewrite !orb_assoc. reflexivity.
Qed.

Lemma bi_outer b2 l : forall acc,
  fold_left (fun acc0 la => fold_left (bi_step la) b2 acc0) l acc =
  (fst acc || existsb (fun la => existsb (fun lb => il_pt (intersect_line la lb)) b2) l,
   snd acc || existsb (fun la => existsb (fun lb => il_ls (intersect_line la lb)) b2) l).
Proof.
  induction l as [|x r IH]; intros acc; cbn [fold_left existsb].
  - rewrite !orb_false_r. destruct acc; reflexivity.
  - rewrite IH, bi_inner. cbn [fst snd]. rewrite !orb_assoc. reflexivity.
Qed.

Lemma boundary_inter_exists b1 b2 :
  boundary_inter b1 b2 =
  (existsb (fun la => existsb (fun lb => il_pt (intersect_line la lb)) b2) b1,
   existsb (fun la => existsb (fun lb => il_ls (intersect_line la lb)) b2) b1).
Proof.
  unfold boundary_inter. change (fold_left (fun acc0 la => fold_left (bi_step la) b2 acc0) b1 (false, false) =
    (existsb (fun la => existsb (fun lb => il_pt (intersect_line la lb)) b2) b1,
     existsb (fun la => existsb (fun lb => il_ls (intersect_line la lb)) b2) b1)).
  rewrite bi_outer. reflexivity.
Qed.

Lemma existsb2_false {A B} (f : A -> B -> bool) l1 l2 : existsb (fun a => existsb (f a) l2) l1 = false ->
  forall a b, In a l1 -> In b l2 -> f a b = false.
Proof.
  intros H a b Ha Hb. apply not_true_iff_false. intros K. apply not_true_iff_false in H. apply H.
  apply existsb_exists. exists a. split; [exact Ha|]. apply existsb_exists. exists b. auto.
Qed.

(* ------------------------------------------------------------------ polys_check member by member *)
Section PolysCheck.
  Variable nested : list pt -> list pt -> option bool.

  Definition pc_member (p : list (list oxy)) : rule + list (list pt) :=
    match p with
    | [] => inr []
    | _ => match rings_check p with
           | inl e => inl e
           | inr rings => match poly_geom_validate nested rings with Some e => inl e | None => inr rings end
           end
    end.

  Lemma polys_check_cons p rest :
    polys_check nested (p :: rest) =
    match pc_member p with
    | inl e => inl e
    | inr rings => match polys_check nested rest with inl e => inl e | inr l => inr (rings :: l) end
    end.
  Proof.
    cbn [polys_check]. unfold pc_member. destruct p as [|r0 rs]; [reflexivity|].
    destruct (rings_check (r0 :: rs)) as [e|rings]; [reflexivity|].
    destruct (poly_geom_validate nested rings); reflexivity.
  Qed.
End PolysCheck.

(* ------------------------------------------------------------------ F3: the start-vertex probe *)
Definition replace_nth {A} (i : nat) (f : A -> A) (l : list A) : list A :=
  map (fun ix => if Nat.eqb (fst ix) i then f (snd ix) else snd ix) (combine (seq 0 (length l)) l).
(* the i-th ring started at its k-th vertex *)
Definition restart_ring (i k : nat) (rings : list (list oxy)) : list (list oxy) :=
  replace_nth i (rotate_ring k) rings.

Definition P (x y : Z) : oxy := (OFin x, OFin y).
Definition f3_shell : list oxy := [P 0 0; P 10 0; P 10 10; P 0 10; P 0 0].
Definition f3_hole : list oxy := [P 2 2; P 8 2; P 8 8; P 2 8; P 2 2].
Definition f3_inner : list oxy := [P 2 2; P 4 3; P 3 4; P 2 2].
Definition f3_rings := [f3_shell; f3_hole; f3_inner].
