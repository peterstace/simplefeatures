(* Property C15 - the ring-nesting hypothesis of the interior theorem DERIVED from executable
   clauses (Model/PosNesting.v: nest_okb).  One-dimensional argument on the bisector row: if the
   returned point m were inside a hole h, take the first crossing q of h to the right of m; q is a
   point of h, hence (clause hole_inside) inside the exterior ring and (clause not_nested) in no
   other hole; were m outside the exterior ring / inside another hole, that ring would cross the
   row between m and q at a point that is strictly inside h - excluded by the clauses
   shell_outside / not_nested.  The all-points meaning of the clauses is everywhere_spec of property
   C03 (Proofs/Validate_ogc.v; slab-witness sufficiency, Proofs/Planar_slab.v). *)
From Coq Require Import QArith Qreduction List Bool ZArith Lia Arith Lqa.
From SF Require Import Base.GeomAST Base.QKernel Base.Planar Proofs.Planar_proofs Proofs.Planar_slab_base
  Model.ValidateSpec Proofs.Validate_ogc
  Model.Boundary Proofs.Boundary_proofs Model.PointOnSurface Proofs.PointOnSurface_proofs Model.PosNesting.
Import ListNotations.
Open Scope Q_scope.

Lemma cgt_diff_between a b l : a <= b -> cgt a l <> cgt b l -> exists z, In z l /\ a < z /\ z <= b.
Proof.
  intros Hab. unfold cgt. induction l as [|z l IH]; [intros H; destruct H; reflexivity|]. cbn [filter].
  destruct (qltb a z) eqn:Ea, (qltb b z) eqn:Eb; cbn [length]; intros H.
  - destruct IH as [w [Hw Hb]]; [congruence|]. exists w. split; [right; exact Hw|exact Hb].
  - apply qltb_iff in Ea. apply qltb_false_iff in Eb. exists z. split; [left; reflexivity|split; assumption].
  - apply qltb_false_iff in Ea. apply qltb_iff in Eb. lra.
  - destruct (IH H) as [w [Hw Hb]]. exists w. split; [right; exact Hw|exact Hb].
Qed.

Lemma min_above m l : (0 < cgt m l)%nat ->
  exists q, In q l /\ m < q /\ forall z, In z l -> m < z -> q <= z.
Proof.
  intros H. pose proof (next_above_spec m l) as G. destruct (next_above m l) as [q|]; [exists q; exact G|].
  rewrite (cgt_all_le m l G) in H. lia.
Qed.

Lemma memq_in z l : In z l -> memq z l = true.
Proof. intros H. apply memq_iff. exists z. split; [exact H|reflexivity]. Qed.
Lemma nodupq_app a b : nodupq (a ++ b) = true ->
  nodupq a = true /\ nodupq b = true /\ forall z, In z a -> memq z b = false.
Proof.
  induction a as [|x a IH]; cbn [app nodupq]; intros H; [repeat split; auto; intros z []|].
  apply andb_prop in H. destruct H as [Hx H]. destruct (IH H) as [Ha [Hb Hd]].
  apply negb_true_iff in Hx. rewrite memq_app in Hx. apply orb_false_iff in Hx. destruct Hx as [Hxa Hxb].
  split; [rewrite Hxa, Ha; reflexivity|]. split; [exact Hb|]. intros z [<-|Hz]; auto.
Qed.
Lemma memq_sym_disjoint a b : (forall z, In z a -> memq z b = false) -> forall z, In z b -> memq z a = false.
Proof.
  intros H z Hz. apply not_true_iff_false. intros E. apply memq_iff in E. destruct E as [w [Hw Ew]].
  assert (K : memq w b = true) by (apply memq_iff; exists z; split; [exact Hz|symmetry; exact Ew]).
  rewrite (H w Hw) in K. discriminate.
Qed.

Lemma segs_line_pts (r : lineT Q) : segs (line_pts r) = line_segs r.
Proof. unfold segs, line_segs. rewrite line_pts_ring_line. reflexivity. Qed.

Lemma inG_poly1 ps p : inG (g_poly [ps]) p = on_edges (segs ps) p || (negb (on_edges (segs ps) p) && edges_parity (segs ps) p).
Proof.
  rewrite inG_poly. cbn [map rings_boundary existsb rings_interior forallb]. unfold ring_strict_in.
  rewrite orb_false_r, andb_true_r. reflexivity.
Qed.

(* (A) a point of a hole that is off the exterior ring is strictly inside it *)
Lemma hole_inside_parity sh h p : pts_closed sh = true -> hole_inside sh h = true ->
  on_edges (segs h) p = true -> on_edges (segs sh) p = false -> edges_parity (segs sh) p = true.
Proof.
  intros Hc H Hon Hoff. pose proof (proj1 (hole_inside_spec sh h Hc) H p Hon) as K.
  destruct (edges_parity (segs sh) p) eqn:E; [reflexivity|]. exfalso. apply K.
  apply locate_poly_exterior. rewrite inG_poly1, Hoff, E. reflexivity.
Qed.
Lemma off_ring_inside r p :
  on_edges (segs r) p = false -> edges_parity (segs r) p = true -> locate (g_poly [r]) p = Interior.
Proof.
  intros Hoff E. apply locate_poly_interior. rewrite inG_poly1, inG_bdry. cbn [existsb]. rewrite Hoff, E.
  split; reflexivity.
Qed.
(* (B) a point of a hole that is off another hole is not inside it *)
Lemma not_nested_parity h k p : pts_closed h = true -> pts_closed k = true -> not_nested h k = true ->
  (on_edges (segs h) p = true -> on_edges (segs k) p = false -> edges_parity (segs k) p = false) /\
  (on_edges (segs k) p = true -> on_edges (segs h) p = false -> edges_parity (segs h) p = false).
Proof.
  intros Hh Hk H. destruct (proj1 (not_nested_spec h k Hh Hk) H p) as [K1 K2].
  split; intros Hon Hoff; apply not_true_iff_false; intros E; [apply (K1 Hon)|apply (K2 Hon)];
    apply off_ring_inside; assumption.
Qed.
(* (C) a point of the exterior ring that is off a hole is not inside it *)
Theorem shell_outside_spec sh h : pts_closed h = true ->
  (shell_outside sh h = true <->
   forall p, on_edges (segs sh) p = true -> on_edges (segs h) p = false -> edges_parity (segs h) p = false).
Proof.
  intros Hc. unfold shell_outside. rewrite everywhere_spec.
  - cbn [map]. split; intros H p.
    + intros Hon Hoff. specialize (H p). rewrite !inG_line, inG_poly1, Hon, Hoff in H. cbn [negb orb andb] in H.
      destruct (edges_parity (segs h) p); [discriminate|reflexivity].
    + rewrite !inG_line, inG_poly1. destruct (on_edges (segs sh) p) eqn:E1; [|reflexivity].
      destruct (on_edges (segs h) p) eqn:E2; [reflexivity|]. cbn [negb orb andb]. rewrite (H p E1 E2). reflexivity.
  - intros g [<-|[<-|[<-|[]]]]; try apply rings_closed_line. apply rings_closed_poly. repeat constructor. exact Hc.
Qed.

Section TwoRings.
  Variables x0 x1 y0 mx : Q.
  Variables r s : lineT Q.
  Hypothesis Hr : ring_row_ok x0 x1 y0 r.
  Hypothesis Hs : ring_row_ok x0 x1 y0 s.
  Hypothesis Hdis : forall z, In z (ring_icpts x0 x1 y0 s) -> memq z (ring_icpts x0 x1 y0 r) = false.
  Let par (t : lineT Q) (p : pt) := edges_parity (line_segs t) p.
  Let on (t : lineT Q) (p : pt) := on_edges (line_segs t) p.

  (* m is inside r; q is the first crossing of r to the right of m, a point of r off s.  If the
     parity of s at q is not that at m, s crosses the row at some t in (m, q], which is off r and,
     no crossing of r lying between m and t, strictly inside r *)
  Lemma crossing_inside :
    par r (mx, y0) = true ->
    (forall p, on r p = true -> on s p = false -> par s p <> par s (mx, y0)) ->
    exists p, on s p = true /\ on r p = false /\ par r p = true.
  Proof.
    unfold par, on. intros Hin Hdiff.
    pose proof (ring_row x0 x1 y0 r Hr) as Er. pose proof (ring_row x0 x1 y0 s Hs) as Es.
    rewrite (proj1 (Er mx)) in Hin.
    destruct (min_above mx _ (odd_pos _ Hin)) as [q [Hq [Hmq Hmin]]].
    specialize (Hdiff (q, y0)). rewrite (proj2 (Er q)), (proj2 (Es q)), !(proj1 (Es _)) in Hdiff.
    specialize (Hdiff (memq_in q _ Hq) (memq_sym_disjoint _ _ Hdis q Hq)).
    destruct (cgt_diff_between mx q (ring_icpts x0 x1 y0 s)) as [t [Ht [Hmt Htq]]]; [lra|congruence|].
    exists (t, y0). rewrite (proj2 (Es t)), (proj2 (Er t)), (proj1 (Er t)).
    split; [exact (memq_in t _ Ht)|]. split; [exact (Hdis t Ht)|].
    destruct (Nat.eq_dec (cgt mx (ring_icpts x0 x1 y0 r)) (cgt t (ring_icpts x0 x1 y0 r))) as [<-|Hne]; [exact Hin|].
    exfalso. destruct (cgt_diff_between mx t _ (Qlt_le_weak _ _ Hmt) Hne) as [z [Hz [Hmz Hzt]]].
    pose proof (Hmin z Hz Hmz) as Hqz.
    assert (K : memq t (ring_icpts x0 x1 y0 r) = true) by (apply memq_iff; exists z; split; [exact Hz|lra]).
    rewrite (Hdis t Ht) in K. discriminate.
  Qed.
End TwoRings.

Definition unnested (h h' : lineT Q) : Prop := forall p,
  (on_edges (line_segs h) p = true -> on_edges (line_segs h') p = false -> edges_parity (line_segs h') p = false) /\
  (on_edges (line_segs h') p = true -> on_edges (line_segs h) p = false -> edges_parity (line_segs h) p = false).

Lemma FOP_count {A} (R1 R2 : A -> A -> Prop) (f : A -> bool) l :
  ForallOrdPairs R1 l -> ForallOrdPairs R2 l ->
  (forall a b, In a l -> In b l -> R1 a b -> R2 a b -> f a = true -> f b = true -> False) ->
  (length (filter f l) <= 1)%nat.
Proof.
  induction 1 as [|a l Ha1 _ IH]; intros H2 Hex; [cbn; lia|]. inversion H2 as [|a' l' Ha2 Hl2]; subst.
  cbn [filter]. destruct (f a) eqn:Ea.
  - destruct (filter f l) as [|b r] eqn:Ef; [cbn; lia|]. exfalso.
    assert (Hb : In b (filter f l)) by (rewrite Ef; left; reflexivity). apply filter_In in Hb. destruct Hb as [Hb Hfb].
    rewrite Forall_forall in Ha1, Ha2. exact (Hex a b (or_introl eq_refl) (or_intror Hb) (Ha1 b Hb) (Ha2 b Hb) Ea Hfb).
  - apply IH; [exact Hl2|]. intros x y Hx Hy. apply Hex; right; assumption.
Qed.
Lemma filter_one {A} (f : A -> bool) l : (0 < length (filter f l))%nat -> exists a, In a l /\ f a = true.
Proof.
  intros H. destruct (filter f l) as [|a r] eqn:E; [simpl in H; lia|].
  assert (Ha : In a (filter f l)) by (rewrite E; left; reflexivity). apply filter_In in Ha. exists a. exact Ha.
Qed.

Lemma nodupq_FOP {A} (I : A -> list Q) l : nodupq (flat_map I l) = true ->
  ForallOrdPairs (fun a b => forall z, In z (I a) -> memq z (I b) = false) l.
Proof.
  induction l as [|a l IH]; [constructor|]. cbn [flat_map]. intros H. destruct (nodupq_app _ _ H) as [_ [Hl Hd]].
  constructor; [|exact (IH Hl)]. apply Forall_forall. intros b Hb z Hz. apply not_true_iff_false. intros E.
  specialize (Hd z Hz). rewrite (memq_flat_map z I l b Hb E) in Hd. discriminate.
Qed.

Section Nesting.
  Variables x0 x1 y0 mx : Q.
  Variables (shell : lineT Q) (rest : list (lineT Q)).
  Let I := ring_icpts x0 x1 y0.
  Let par (t : lineT Q) (p : pt) := edges_parity (line_segs t) p.
  Let on (t : lineT Q) (p : pt) := on_edges (line_segs t) p.
  Hypothesis Hrow : forall r, In r (shell :: rest) -> ring_row_ok x0 x1 y0 r.
  Hypothesis Hnd : nodupq (flat_map I (shell :: rest)) = true.
  Hypothesis HA : forall h p, In h rest -> on h p = true -> on shell p = false -> par shell p = true.
  Hypothesis HC : forall h p, In h rest -> on shell p = true -> on h p = false -> par h p = false.
  Hypothesis HB : ForallOrdPairs unnested rest.

  Lemma inside_hole_inside_shell h : In h rest -> par h (mx, y0) = true -> par shell (mx, y0) = true.
  Proof.
    intros Hh Hin. destruct (par shell (mx, y0)) eqn:E; [reflexivity|]. exfalso.
    pose proof (nodupq_FOP I _ Hnd) as Hd. inversion Hd as [|s l Hds _]. rewrite Forall_forall in Hds.
    destruct (crossing_inside x0 x1 y0 mx h shell (Hrow h (or_intror Hh)) (Hrow shell (or_introl eq_refl))
                (Hds h Hh) Hin) as [p [H1 [H2 H3]]].
    - intros p Hon Hoff. pose proof (HA h p Hh Hon Hoff) as K. unfold par in E, K. congruence.
    - pose proof (HC h p Hh H1 H2) as K. unfold par in K. congruence.
  Qed.

  Lemma not_inside_two h h' : In h rest -> In h' rest ->
    (forall z, In z (I h) -> memq z (I h') = false) -> unnested h h' ->
    par h (mx, y0) = true -> par h' (mx, y0) = true -> False.
  Proof.
    intros Hh Hh' Hd Hu Hin Hin'.
    destruct (crossing_inside x0 x1 y0 mx h h' (Hrow h (or_intror Hh)) (Hrow h' (or_intror Hh'))
                (memq_sym_disjoint _ _ Hd) Hin) as [p [H1 [H2 H3]]].
    - intros p Hon Hoff. destruct (Hu p) as [K _]. specialize (K Hon Hoff). unfold par in Hin', K. congruence.
    - destruct (Hu p) as [_ K]. specialize (K H1 H2). unfold par in K. congruence.
  Qed.

  Theorem nesting_on_row :
    let k := length (filter (fun h => par h (mx, y0)) rest) in
    (k <= 1)%nat /\ (k = 1%nat -> par shell (mx, y0) = true).
  Proof.
    cbn zeta. split.
    - pose proof (nodupq_FOP I _ Hnd) as Hd. inversion Hd as [|s l _ Hdr].
      exact (FOP_count _ _ _ rest Hdr HB not_inside_two).
    - intros Hk. destruct (filter_one (fun h => par h (mx, y0)) rest) as [h [Hh Hp]]; [lia|].
      exact (inside_hole_inside_shell h Hh Hp).
  Qed.
End Nesting.

Lemma not_nested_FOP rest :
  all_pairs not_nested (map line_pts rest) = true -> (forall h, In h rest -> pts_closed (line_pts h) = true) ->
  ForallOrdPairs unnested rest.
Proof.
  induction rest as [|h rest IH]; intros Hnn Hc; [constructor|].
  cbn [map all_pairs] in Hnn. apply andb_prop in Hnn. destruct Hnn as [H1 H2]. rewrite forallb_forall in H1.
  constructor; [|apply IH; [exact H2|intros; apply Hc; right; assumption]].
  apply Forall_forall. intros h' Hh' p. rewrite <- !segs_line_pts.
  apply (not_nested_parity _ _ p (Hc h (or_introl eq_refl)) (Hc h' (or_intror Hh'))). apply H1, in_map, Hh'.
Qed.

Lemma nest_okb_clauses (y : polyT Q) shell rest :
  poly_rings y = shell :: rest -> nest_okb y = true ->
  let par (t : lineT Q) (p : pt) := edges_parity (line_segs t) p in
  let on (t : lineT Q) (p : pt) := on_edges (line_segs t) p in
  (forall h p, In h rest -> on h p = true -> on shell p = false -> par shell p = true) /\
  (forall h p, In h rest -> on shell p = true -> on h p = false -> par h p = false) /\
  ForallOrdPairs unnested rest.
Proof.
  intros Er H. unfold nest_okb, rings_of in H. rewrite Er in H. cbn [map forallb] in H.
  rewrite !andb_true_iff in H. destruct H as [[[[Hcs Hcr] Hhi] Hnn] Hso].
  rewrite forallb_forall in Hcr, Hhi, Hso.
  assert (Hc : forall h, In h rest -> pts_closed (line_pts h) = true) by (intros h Hh; apply Hcr, in_map, Hh).
  cbn zeta. split; [|split].
  - intros h p Hh Hon Hoff. rewrite <- segs_line_pts in *.
    apply (hole_inside_parity (line_pts shell) (line_pts h) p Hcs); [apply Hhi, in_map, Hh|exact Hon|exact Hoff].
  - intros h p Hh Hon Hoff. rewrite <- segs_line_pts in *.
    apply (proj1 (shell_outside_spec (line_pts shell) (line_pts h) (Hc h Hh))); [apply Hso, in_map, Hh|exact Hon|exact Hoff].
  - exact (not_nested_FOP rest Hnn Hc).
Qed.

Lemma pos_areal_interior_exec_in (y : polyT Q) (p : pt) :
  row_hyps y = true -> nest_okb y = true ->
  point_xy (fst (point_on_area y)) = Some p -> poly_interior y p = true.
Proof.
  intros Hrh Hnest Hp.
  destruct (point_on_area_row y p Hrh Hp) as (x0 & x1 & y0 & mx & -> & Hok & Hnd & Hodd & Hmem).
  unfold poly_interior, poly_ring_segs. destruct (poly_rings y) as [|shell rest] eqn:Er; [discriminate Hodd|].
  destruct (nest_okb_clauses y shell rest Er Hnest) as [HA [HC HB]].
  apply (row_point_interior x0 x1 y0 mx shell rest Hok Hodd Hmem). intros _.
  exact (nesting_on_row x0 x1 y0 mx shell rest Hok Hnd HA HC HB).
Qed.

Theorem pos_areal_interior_exec_lemma (y : polyT Q) (p : pt) :
  row_hyps y = true -> nest_okb y = true ->
  point_xy (fst (point_on_area y)) = Some p ->
  locate (GPoly y) p = Interior.
Proof. intros Hrh Hnest Hp. exact (poly_interior_locate y p (pos_areal_interior_exec_in y p Hrh Hnest Hp)). Qed.

(* MultiPolygon: every non-empty member satisfies the executable hypotheses *)
Theorem pos_mpoly_interior_exec_lemma ct (ys : list (polyT Q)) (p : pt) :
  (forall y, In y ys -> poly_empty y = false -> interior_hyps y = true) ->
  point_xy (mpoly_pos ys) = Some p ->
  locate (GMPoly ct ys) p = Interior.
Proof.
  intros Hh. apply mpoly_pos_interior. intros y Hy Hne Hp.
  pose proof (Hh y Hy Hne) as H. unfold interior_hyps in H. apply andb_prop in H. destruct H as [H1 H2].
  exact (pos_areal_interior_exec_in y p H1 H2 Hp).
Qed.

(* the link to the verified reference ogc_valid (Model/ValidateSpec.v): two of the three nesting
   clauses, and the closedness of the rings, are conjuncts of its polygon clause poly_def *)
Lemma poly_def_nest shell holes : poly_def (shell :: holes) = true ->
  (forall r, In r (shell :: holes) -> ring_def r = true) /\
  forallb (hole_inside shell) holes = true /\ all_pairs not_nested holes = true.
Proof. unfold poly_def. rewrite !andb_true_iff, forallb_forall. tauto. Qed.

Theorem nest_okb_from_ogc (y : polyT Q) shell holes :
  rings_of y = shell :: holes ->
  poly_def (shell :: holes) = true -> forallb (shell_outside shell) holes = true -> nest_okb y = true.
Proof.
  intros Er Hd Hso. unfold nest_okb. rewrite Er. destruct (poly_def_nest _ _ Hd) as [Hrd [Hhi Hnn]].
  rewrite Hhi, Hnn, Hso, !andb_true_r. apply forallb_forall. intros r Hr. apply ring_def_closed, Hrd, Hr.
Qed.
