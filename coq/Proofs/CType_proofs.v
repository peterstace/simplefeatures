(* Lemmas for property C16 (coordinates type and Z/M payload), about Model/CType.v.  Generic in the carrier F. *)
From Coq Require Import NArith List Bool.
From SF Require Import Base.GeomAST Model.CType.
Import ListNotations.

Lemma forallb_Forall' {A} (f : A -> bool) l : forallb f l = true <-> Forall (fun x => f x = true) l.
Proof. rewrite forallb_forall, Forall_forall. reflexivity. Qed.
Lemma forallb_rev {A} (f : A -> bool) l : forallb f (rev l) = forallb f l.
Proof.
  induction l; simpl; auto. rewrite forallb_app, IHl. simpl. rewrite andb_true_r. apply andb_comm.
Qed.
Lemma forallb_impl {A} (p q : A -> bool) l : (forall x, p x = true -> q x = true) -> forallb p l = true -> forallb q l = true.
Proof. rewrite !forallb_forall. auto. Qed.
Lemma forallb_map_all {A B} (f : B -> bool) (h : A -> B) l : (forall x, f (h x) = true) -> forallb f (map h l) = true.
Proof. intros H. rewrite forallb_map. apply forallb_forall. auto. Qed.
Lemma forallb_nth {A} (f : A -> bool) l i x : forallb f l = true -> nth_error l i = Some x -> f x = true.
Proof. intros H E. rewrite forallb_forall in H. eapply H, nth_error_In; eauto. Qed.
Lemma map_ext_in' {A B} (f h : A -> B) l : (forall x, In x l -> f x = h x) -> map f l = map h l.
Proof. apply map_ext_in. Qed.
Lemma map_id_ok {A} (ok : A -> bool) (f : A -> A) l : (forall x, ok x = true -> f x = x) -> forallb ok l = true -> map f l = l.
Proof. rewrite forallb_forall. intros. apply map_id_on. auto. Qed.
Lemma map_ext_ok {A B} (ok : A -> bool) (f h : A -> B) l :
  (forall x, ok x = true -> f x = h x) -> forallb ok l = true -> map f l = map h l.
Proof. rewrite forallb_forall. intros. apply map_ext_in. auto. Qed.
Lemma flat_map_image {A B} (h : B -> B) (vs : A -> list B) (k : A -> A) l :
  (forall x, In x l -> vs (k x) = map h (vs x)) -> flat_map vs (map k l) = map h (flat_map vs l).
Proof. intros H. rewrite flat_map_map, map_flat_map. now apply flat_map_ext_in. Qed.
Lemma option_map_some {A B} (f : A -> B) o r : option_map f o = Some r -> exists x, o = Some x /\ r = f x.
Proof. destruct o; simpl; intros E; inversion E; eauto. Qed.

Lemma has_z_and a b : has_z (ct_and a b) = has_z a && has_z b.
Proof. destruct a, b; reflexivity. Qed.
Lemma has_m_and a b : has_m (ct_and a b) = has_m a && has_m b.
Proof. destruct a, b; reflexivity. Qed.
Lemma ct_eqb_sym a b : ct_eqb a b = ct_eqb b a.
Proof. destruct a, b; reflexivity. Qed.
Lemma ct_and_xy_l c : ct_and XY c = XY.
Proof. destruct c; reflexivity. Qed.
Lemma ct_sub_refl c : ct_sub c c = true.
Proof. unfold ct_sub. now rewrite ct_and_idem, ct_eqb_refl. Qed.
Lemma ct_sub_xy c : ct_sub XY c = true.
Proof. unfold ct_sub. now rewrite ct_and_xy_l. Qed.
Lemma tagged_ok c ct b : ct_eqb c ct && b = true -> c = ct /\ b = true.
Proof. rewrite andb_true_iff, ct_eqb_eq. auto. Qed.
Lemma tag_refl c b : ct_eqb c c && b = b.
Proof. now rewrite ct_eqb_refl. Qed.

Lemma and_all_cons {A} (f : A -> ctype) x l : and_all f (x :: l) = ct_and (f x) (and_all f l).
Proof.
  unfold and_all. simpl. rewrite ct_and_xyzm_l. generalize (f x). induction l as [|y l IH]; intros acc; simpl.
  - now destruct acc.
  - now rewrite IH, (IH (ct_and _ _)), ct_and_xyzm_l, ct_and_assoc.
Qed.
Lemma has_z_and_all {A} (f : A -> ctype) l : has_z (and_all f l) = forallb (fun a => has_z (f a)) l.
Proof. induction l; [reflexivity|]. now rewrite and_all_cons, has_z_and, IHl. Qed.
Lemma has_m_and_all {A} (f : A -> ctype) l : has_m (and_all f l) = forallb (fun a => has_m (f a)) l.
Proof. induction l; [reflexivity|]. now rewrite and_all_cons, has_m_and, IHl. Qed.
(* a non-empty list whose members all have type ct: the AND is ct *)
Lemma and_all_same {A} (f : A -> ctype) l ct : l <> [] -> (forall x, In x l -> f x = ct) -> and_all f l = ct.
Proof.
  induction l as [|a [|b l] IH]; intros Hne H; [congruence| |]; rewrite and_all_cons, (H a) by now left.
  - now destruct ct.
  - rewrite IH; [apply ct_and_idem | discriminate | intros; apply H; now right].
Qed.
(* the AND has no dimension that some member lacks *)
Lemma and_all_sub {A} (f : A -> ctype) l x : In x l -> ct_and (and_all f l) (f x) = and_all f l.
Proof.
  induction l as [|a l IH]; [intros []|]. intros [->|Hin]; rewrite and_all_cons.
  - now rewrite (ct_and_comm (f x)), <- ct_and_assoc, ct_and_idem.
  - now rewrite <- ct_and_assoc, IH.
Qed.
Lemma and_all_map {A} (f : A -> ctype) l : and_all f l = and_all (fun c => c) (map f l).
Proof. induction l; [reflexivity|]. simpl. now rewrite !and_all_cons, IHl. Qed.

Lemma map_const_rev {A B} (b : B) (l : list A) : map (fun _ => b) (rev l) = map (fun _ => b) l.
Proof.
  induction l; simpl; auto. rewrite map_app, IHl. simpl.
  clear. induction l; simpl; auto. now rewrite IHl.
Qed.
Lemma hd_error_app_ne {A} (l m : list A) : l <> [] -> hd_error (l ++ m) = hd_error l.
Proof. destruct l; simpl; congruence. Qed.
Lemma rev_ne {A} (l : list A) : l <> [] -> rev l <> [].
Proof. intros H X. apply (f_equal (@rev A)) in X. rewrite rev_involutive in X. auto. Qed.

Section Gen.
  Variable F : Type.
  Variable zero : F.
  Variable is_zero : F -> bool.
  Hypothesis is_zero_zero : is_zero zero = true.
  Hypothesis is_zero_eq : forall x, is_zero x = true -> x = zero.

  Notation vtxF := (vtx F).
  Notation geomF := (geomT F).
  Notation vtx_ok := (vtx_ok is_zero).
  Notation point_ok := (point_ok is_zero).
  Notation line_ok := (line_ok is_zero).
  Notation poly_ok := (poly_ok is_zero).
  Notation geom_ok := (geom_ok is_zero).
  Notation consistent := (consistent is_zero).
  Notation force_vtx := (force_vtx zero).
  Notation force_point := (force_point zero).
  Notation force_line := (force_line zero).
  Notation force_poly := (force_poly zero).
  Notation force_geom := (force_geom zero).

  (* ---------------------------------------------------------------- force: always well-typed *)
  Lemma force_vtx_ok old new v : vtx_ok new (force_vtx old new v) = true.
  Proof. unfold GeomAST.vtx_ok, GeomAST.force_vtx; simpl. destruct (has_z new), (has_m new), (has_z old), (has_m old); simpl; rewrite ?is_zero_zero; auto. Qed.
  Lemma force_point_ok new p : point_ok new (force_point new p) = true.
  Proof. destruct p as [ct [v|]]; simpl; rewrite ct_eqb_refl; auto. apply force_vtx_ok. Qed.
  Lemma force_line_ok new l : line_ok new (force_line new l) = true.
  Proof. destruct l as [ct vs]; simpl. rewrite ct_eqb_refl. apply forallb_map_all, force_vtx_ok. Qed.
  Lemma force_poly_ok new p : poly_ok new (force_poly new p) = true.
  Proof. destruct p as [ct rs]; simpl. rewrite ct_eqb_refl. apply forallb_map_all, force_line_ok. Qed.
  Lemma force_geom_ok new g : geom_ok new (force_geom new g) = true.
  Proof.
    induction g using geomT_ind'; simpl; rewrite ?ct_eqb_refl; cbn [andb];
      auto using force_point_ok, force_line_ok, force_poly_ok, forallb_map_all.
    rewrite forallb_map. apply forallb_forall, Forall_forall, H.
  Qed.
  Lemma force_point_ct new p : point_ct (force_point new p) = new.
  Proof. destruct p as [ct [v|]]; reflexivity. Qed.
  Lemma force_line_ct new l : line_ct (force_line new l) = new.
  Proof. destruct l; reflexivity. Qed.
  Lemma force_poly_ct new p : poly_ct (force_poly new p) = new.
  Proof. destruct p; reflexivity. Qed.
  Lemma force_geom_ct new g : geom_ct (force_geom new g) = new.
  Proof. destruct g; simpl; auto using force_point_ct, force_line_ct, force_poly_ct. Qed.
  Lemma force_consistent new g : consistent (force_geom new g) = true.
  Proof. unfold GeomAST.consistent. rewrite force_geom_ct. apply force_geom_ok. Qed.

  (* ---------------------------------------------------------------- ok values: type, induction, identity *)
  Lemma point_ok_ct ct p : point_ok ct p = true -> point_ct p = ct.
  Proof. destruct p; simpl. intros H. now apply tagged_ok in H. Qed.
  Lemma line_ok_ct ct l : line_ok ct l = true -> line_ct l = ct.
  Proof. destruct l; simpl. intros H. now apply tagged_ok in H. Qed.
  Lemma poly_ok_ct ct p : poly_ok ct p = true -> poly_ct p = ct.
  Proof. destruct p; simpl. intros H. now apply tagged_ok in H. Qed.
  Lemma geom_ok_ind ct (P : geomF -> Prop) :
    (forall p, point_ok ct p = true -> P (GPoint p)) ->
    (forall l, line_ok ct l = true -> P (GLine l)) ->
    (forall p, poly_ok ct p = true -> P (GPoly p)) ->
    (forall ps, forallb (point_ok ct) ps = true -> P (GMPoint ct ps)) ->
    (forall ls, forallb (line_ok ct) ls = true -> P (GMLine ct ls)) ->
    (forall ps, forallb (poly_ok ct) ps = true -> P (GMPoly ct ps)) ->
    (forall gs, forallb (geom_ok ct) gs = true -> (forall x, In x gs -> P x) -> P (GColl ct gs)) ->
    forall g, geom_ok ct g = true -> P g.
  Proof.
    intros Hp Hl Hy Hmp Hml Hmy Hc. induction g using geomT_ind'; simpl; intros Hok; auto;
      apply tagged_ok in Hok as [-> Hok]; auto.
    apply Hc; auto. rewrite Forall_forall in H. rewrite forallb_forall in Hok. auto.
  Qed.
  Lemma geom_ok_ct ct g : geom_ok ct g = true -> geom_ct g = ct.
  Proof. revert g. apply geom_ok_ind; simpl; auto using point_ok_ct, line_ok_ct, poly_ok_ct. Qed.
  Lemma consistent_ok g : consistent g = true -> geom_ok (geom_ct g) g = true.
  Proof. auto. Qed.
  Lemma ok_consistent ct g : geom_ok ct g = true -> consistent g = true.
  Proof. intros H. unfold GeomAST.consistent. now rewrite (geom_ok_ct _ _ H). Qed.

  Lemma force_vtx_id ct v : vtx_ok ct v = true -> force_vtx ct ct v = v.
  Proof.
    unfold GeomAST.vtx_ok, GeomAST.force_vtx. destruct v as [x y z m]; simpl.
    rewrite andb_true_iff, !orb_true_iff. intros [Hz Hm]. f_equal.
    - destruct (has_z ct); auto. destruct Hz as [Hz|Hz]; [discriminate|]. symmetry. now apply is_zero_eq.
    - destruct (has_m ct); auto. destruct Hm as [Hm|Hm]; [discriminate|]. symmetry. now apply is_zero_eq.
  Qed.
  Lemma force_point_id ct p : point_ok ct p = true -> force_point ct p = p.
  Proof.
    destruct p as [c [v|]]; simpl; intros H; apply tagged_ok in H as [-> H]; auto. now rewrite force_vtx_id.
  Qed.
  Lemma force_line_id ct l : line_ok ct l = true -> force_line ct l = l.
  Proof.
    destruct l as [c vs]; simpl; intros H; apply tagged_ok in H as [-> H]. f_equal.
    exact (map_id_ok _ _ _ (force_vtx_id ct) H).
  Qed.
  Lemma force_poly_id ct p : poly_ok ct p = true -> force_poly ct p = p.
  Proof.
    destruct p as [c rs]; simpl; intros H; apply tagged_ok in H as [-> H]. f_equal.
    exact (map_id_ok _ _ _ (force_line_id ct) H).
  Qed.
  Lemma force_geom_id ct g : geom_ok ct g = true -> force_geom ct g = g.
  Proof.
    revert g. apply geom_ok_ind; intros; simpl; f_equal;
      eauto using force_point_id, force_line_id, force_poly_id, map_id_ok, map_id_on.
  Qed.

  Lemma new_polygon_ok rings : poly_ok (poly_ct (new_polygon zero rings)) (new_polygon zero rings) = true.
  Proof. unfold new_polygon; simpl. rewrite ct_eqb_refl. apply forallb_map_all, force_line_ok. Qed.
  Lemma new_polygon_ct rings :
    poly_ct (new_polygon zero rings) = match rings with [] => XY | _ => and_all line_ct rings end.
  Proof. reflexivity. Qed.
  Lemma new_multipoint_consistent ps : consistent (new_multipoint zero ps) = true.
  Proof.
    destruct ps as [|p ps]; [reflexivity|]. unfold new_multipoint, GeomAST.consistent.
    cbn [geom_ct GeomAST.geom_ok]. rewrite ct_eqb_refl. apply forallb_map_all, force_point_ok.
  Qed.
  Lemma new_multiline_consistent ls : consistent (new_multiline zero ls) = true.
  Proof.
    destruct ls as [|p ps]; [reflexivity|]. unfold new_multiline, GeomAST.consistent.
    cbn [geom_ct GeomAST.geom_ok]. rewrite ct_eqb_refl. apply forallb_map_all, force_line_ok.
  Qed.
  Lemma new_multipoly_consistent ps : consistent (new_multipoly zero ps) = true.
  Proof.
    destruct ps as [|p ps]; [reflexivity|]. unfold new_multipoly, GeomAST.consistent.
    cbn [geom_ct GeomAST.geom_ok]. rewrite ct_eqb_refl. apply forallb_map_all, force_poly_ok.
  Qed.
  Lemma new_collection_consistent gs : consistent (new_collection zero gs) = true.
  Proof.
    destruct gs as [|p ps]; [reflexivity|]. unfold new_collection, GeomAST.consistent.
    cbn [geom_ct GeomAST.geom_ok]. rewrite ct_eqb_refl. apply forallb_map_all, force_geom_ok.
  Qed.
  Lemma new_multipoint_ct ps : geom_ct (new_multipoint zero ps) = match ps with [] => XY | _ => and_all point_ct ps end.
  Proof. destruct ps; reflexivity. Qed.
  Lemma new_multiline_ct ls : geom_ct (new_multiline zero ls) = match ls with [] => XY | _ => and_all line_ct ls end.
  Proof. destruct ls; reflexivity. Qed.
  Lemma new_multipoly_ct ps : geom_ct (new_multipoly zero ps) = match ps with [] => XY | _ => and_all poly_ct ps end.
  Proof. destruct ps; reflexivity. Qed.
  Lemma new_collection_ct gs : geom_ct (new_collection zero gs) = match gs with [] => XY | _ => and_all geom_ct gs end.
  Proof. destruct gs; reflexivity. Qed.

  (* members that already agree are kept as they are: the AND is their type and forcing to it changes nothing *)
  Lemma agreeing_members {A} (fA : ctype -> A -> A) (ctA : A -> ctype) (okA : ctype -> A -> bool) :
    (forall c x, okA c x = true -> ctA x = c) -> (forall c x, okA c x = true -> fA c x = x) ->
    forall ct l, l <> [] -> forallb (okA ct) l = true -> and_all ctA l = ct /\ map (fA (and_all ctA l)) l = l.
  Proof.
    intros Hct Hid ct l Hne H. assert (E : and_all ctA l = ct).
    { apply and_all_same; auto. rewrite forallb_forall in H. auto. }
    rewrite E. eauto using map_id_ok.
  Qed.
  Lemma new_polygon_id ct rs : rs <> [] -> forallb (line_ok ct) rs = true -> new_polygon zero rs = MkPoly ct rs.
  Proof.
    intros Hne H. destruct (agreeing_members _ _ _ line_ok_ct force_line_id ct rs Hne H) as [E M].
    unfold new_polygon. destruct rs; [congruence|]. now rewrite M, E.
  Qed.
  Lemma new_multipoint_id ct ps : ps <> [] -> forallb (point_ok ct) ps = true -> new_multipoint zero ps = GMPoint ct ps.
  Proof.
    intros Hne H. destruct (agreeing_members _ _ _ point_ok_ct force_point_id ct ps Hne H) as [E M].
    unfold new_multipoint. destruct ps; [congruence|]. now rewrite M, E.
  Qed.
  Lemma new_multiline_id ct ls : ls <> [] -> forallb (line_ok ct) ls = true -> new_multiline zero ls = GMLine ct ls.
  Proof.
    intros Hne H. destruct (agreeing_members _ _ _ line_ok_ct force_line_id ct ls Hne H) as [E M].
    unfold new_multiline. destruct ls; [congruence|]. now rewrite M, E.
  Qed.
  Lemma new_multipoly_id ct ps : ps <> [] -> forallb (poly_ok ct) ps = true -> new_multipoly zero ps = GMPoly ct ps.
  Proof.
    intros Hne H. destruct (agreeing_members _ _ _ poly_ok_ct force_poly_id ct ps Hne H) as [E M].
    unfold new_multipoly. destruct ps; [congruence|]. now rewrite M, E.
  Qed.
  Lemma new_collection_id ct gs : gs <> [] -> forallb (geom_ok ct) gs = true -> new_collection zero gs = GColl ct gs.
  Proof.
    intros Hne H. destruct (agreeing_members _ _ _ geom_ok_ct force_geom_id ct gs Hne H) as [E M].
    unfold new_collection. destruct gs; [congruence|]. now rewrite M, E.
  Qed.
  (* NewPolygon(..).ForceCoordinatesType(ct), NewMultiPolygon(..).ForceCoordinatesType(ct) on members of type ct,
     also when there is none *)
  Lemma renew_polygon ct rs : forallb (line_ok ct) rs = true -> force_poly ct (new_polygon zero rs) = MkPoly ct rs.
  Proof.
    intros H. destruct rs as [|r rs]; [reflexivity|]. rewrite (new_polygon_id ct) by (auto; discriminate).
    apply force_poly_id. simpl in *. now rewrite ct_eqb_refl.
  Qed.
  Lemma renew_multipoly ct ps : forallb (poly_ok ct) ps = true -> force_geom ct (new_multipoly zero ps) = GMPoly ct ps.
  Proof.
    intros H. destruct ps as [|p ps]; [reflexivity|]. rewrite (new_multipoly_id ct) by (auto; discriminate).
    apply force_geom_id. simpl in *. now rewrite ct_eqb_refl.
  Qed.

  Lemma go_force_point_refines new p :
    point_ok (point_ct p) p = true -> go_force_point zero new p = force_point new p.
  Proof.
    destruct p as [old [v|]]; simpl; auto. rewrite ct_eqb_refl. simpl. unfold GeomAST.vtx_ok, GeomAST.force_vtx.
    rewrite andb_true_iff, !orb_true_iff. intros [Hz Hm]. do 2 f_equal.
    destruct v as [x y z m]; simpl in *. f_equal.
    - destruct (has_z new), (has_z old); simpl; auto. destruct Hz as [Hz|Hz]; [discriminate|]. now apply is_zero_eq.
    - destruct (has_m new), (has_m old); simpl; auto. destruct Hm as [Hm|Hm]; [discriminate|]. now apply is_zero_eq.
  Qed.
  Lemma go_force_line_refines new l :
    line_ok (line_ct l) l = true -> go_force_line zero new l = force_line new l.
  Proof.
    intros H. destruct l as [old vs]; simpl. destruct (ct_eqb old new) eqn:E.
    - apply ct_eqb_eq in E; subst. symmetry. exact (force_line_id _ _ H).
    - destruct vs; reflexivity.
  Qed.

  (* ---- NewPoint: whatever the caller put into the struct, the point meets the representation
     invariant; a struct that already meets it is stored as given *)
  Lemma new_point_ok_lemma ct (v : vtxF) : point_ok ct (new_point zero ct v) = true.
  Proof. unfold new_point. cbn [GeomAST.point_ok]. rewrite ct_eqb_refl. apply force_vtx_ok. Qed.
  Lemma new_point_fields_lemma ct (v : vtxF) :
    match point_c (new_point zero ct v) with
    | Some w => vx w = vx v /\ vy w = vy v /\ vz w = (if has_z ct then vz v else zero) /\ vm w = (if has_m ct then vm v else zero)
    | None => False
    end.
  Proof. unfold new_point, GeomAST.force_vtx; simpl. destruct (has_z ct), (has_m ct); auto. Qed.
  Lemma new_point_id_lemma ct (v : vtxF) : vtx_ok ct v = true -> new_point zero ct v = MkPoint ct (Some v).
  Proof.
    unfold new_point, GeomAST.vtx_ok, GeomAST.force_vtx. destruct v as [x y z m]; simpl. rewrite andb_true_iff, !orb_true_iff.
    intros [Hz Hm]. do 3 f_equal.
    - destruct (has_z ct); auto. destruct Hz as [Hz|Hz]; [discriminate|]. symmetry. now apply is_zero_eq.
    - destruct (has_m ct); auto. destruct Hm as [Hm|Hm]; [discriminate|]. symmetry. now apply is_zero_eq.
  Qed.

  (* ---------------------------------------------------------------- force: laws *)
  Lemma force_vtx_force c0 c1 c2 v :
    force_vtx c1 c2 (force_vtx c0 c1 v) = force_vtx (ct_and c0 c1) c2 v.
  Proof.
    unfold GeomAST.force_vtx; simpl. rewrite has_z_and, has_m_and.
    f_equal; [destruct (has_z c0), (has_z c1), (has_z c2) | destruct (has_m c0), (has_m c1), (has_m c2)]; reflexivity.
  Qed.
  Lemma force_vtx_old_and c0 c2 c v : ct_and c0 c2 = ct_and c c2 -> force_vtx c0 c2 v = force_vtx c c2 v.
  Proof.
    intros H. assert (Hz := f_equal has_z H). assert (Hm := f_equal has_m H).
    rewrite !has_z_and in Hz. rewrite !has_m_and in Hm. unfold GeomAST.force_vtx.
    f_equal; [destruct (has_z c0), (has_z c), (has_z c2) | destruct (has_m c0), (has_m c), (has_m c2)];
      simpl in *; congruence.
  Qed.
  Lemma force_vtx_twice c0 c1 c2 v :
    force_vtx c1 c2 (force_vtx c0 c1 v) = force_vtx (ct_and c1 c2) c2 (force_vtx c0 (ct_and c1 c2) v).
  Proof. rewrite !force_vtx_force. apply force_vtx_old_and. destruct c0, c1, c2; reflexivity. Qed.
  Lemma force_point_force c1 c2 p : force_point c2 (force_point c1 p) = force_point c2 (force_point (ct_and c1 c2) p).
  Proof. destruct p as [c0 [v|]]; simpl; auto. now rewrite force_vtx_twice. Qed.
  Lemma force_line_force c1 c2 l : force_line c2 (force_line c1 l) = force_line c2 (force_line (ct_and c1 c2) l).
  Proof. destruct l as [c0 vs]; simpl. f_equal. rewrite !map_map. apply map_ext, force_vtx_twice. Qed.
  Lemma force_poly_force c1 c2 p : force_poly c2 (force_poly c1 p) = force_poly c2 (force_poly (ct_and c1 c2) p).
  Proof. destruct p as [c0 rs]; simpl. f_equal. rewrite !map_map. apply map_ext, force_line_force. Qed.
  (* what survives two forcings is what is in both target types: for every value *)
  Lemma force_force_lemma c1 c2 (g : geomF) :
    force_geom c2 (force_geom c1 g) = force_geom c2 (force_geom (ct_and c1 c2) g).
  Proof.
    induction g using geomT_ind'; simpl; f_equal; rewrite ?map_map;
      auto using force_point_force, force_line_force, force_poly_force, map_ext.
    apply map_ext_in. now apply Forall_forall.
  Qed.
  Lemma force_idempotent_lemma c (g : geomF) : force_geom c (force_geom c g) = force_geom c g.
  Proof. apply force_geom_id, force_geom_ok. Qed.

  Lemma map_geom_ext c hs hs' hp hp' (g : geomF) :
    (forall s, hs s = hs' s) -> (forall v, hp v = hp' v) -> map_geom c hs hp g = map_geom c hs' hp' g.
  Proof.
    intros Hs Hp.
    assert (P : forall p, map_point c hp p = map_point c hp' p).
    { intros [k [v|]]; unfold map_point; simpl; now rewrite ?Hp. }
    assert (L : forall l, map_line c hs l = map_line c hs' l) by (intros l; unfold map_line; now rewrite Hs).
    assert (Y : forall p, map_poly c hs p = map_poly c hs' p) by (intros p; unfold map_poly; f_equal; now apply map_ext).
    induction g using geomT_ind'; simpl; f_equal; auto using map_ext. apply map_ext_in, Forall_forall, H.
  Qed.
  Lemma map_geom_compose c c' hs hs' hp hp' (g : geomF) :
    map_geom c' hs' hp' (map_geom c hs hp g) = map_geom c' (fun s => hs' (hs s)) (fun v => hp' (hp v)) g.
  Proof.
    assert (P : forall p, map_point c' hp' (map_point c hp p) = map_point c' (fun v => hp' (hp v)) p).
    { now intros [k [v|]]. }
    assert (Y : forall p, map_poly c' hs' (map_poly c hs p) = map_poly c' (fun s => hs' (hs s)) p).
    { intros [k rs]. unfold map_poly. simpl. now rewrite map_map. }
    induction g using geomT_ind'; simpl; f_equal; rewrite ?map_map; auto using map_ext.
    apply map_ext_in, Forall_forall, H.
  Qed.

  Section MapOk.
    Variables (c c' : ctype) (hs : list vtxF -> list vtxF) (hp : vtxF -> vtxF).
    Hypothesis hs_ok : forall vs, forallb (vtx_ok c) vs = true -> forallb (vtx_ok c') (hs vs) = true.
    Hypothesis hp_ok : forall v, vtx_ok c v = true -> vtx_ok c' (hp v) = true.
    Lemma map_point_ok p : point_ok c p = true -> point_ok c' (map_point c' hp p) = true.
    Proof.
      destruct p as [k [v|]]; simpl; intros H; apply tagged_ok in H as [_ H]; rewrite tag_refl; auto.
    Qed.
    Lemma map_line_ok l : line_ok c l = true -> line_ok c' (map_line c' hs l) = true.
    Proof. destruct l as [k vs]; simpl; intros H; apply tagged_ok in H as [_ H]. rewrite tag_refl. auto. Qed.
    Lemma map_points_ok ps : forallb (point_ok c) ps = true -> forallb (point_ok c') (map (map_point c' hp) ps) = true.
    Proof. rewrite forallb_map. apply forallb_impl, map_point_ok. Qed.
    Lemma map_lines_ok ls : forallb (line_ok c) ls = true -> forallb (line_ok c') (map (map_line c' hs) ls) = true.
    Proof. rewrite forallb_map. apply forallb_impl, map_line_ok. Qed.
    Lemma map_poly_ok p : poly_ok c p = true -> poly_ok c' (map_poly c' hs p) = true.
    Proof.
      destruct p as [k rs]; simpl; intros H; apply tagged_ok in H as [_ H]. rewrite tag_refl. now apply map_lines_ok.
    Qed.
    Lemma map_polys_ok ps : forallb (poly_ok c) ps = true -> forallb (poly_ok c') (map (map_poly c' hs) ps) = true.
    Proof. rewrite forallb_map. apply forallb_impl, map_poly_ok. Qed.
    Lemma map_geom_ok g : geom_ok c g = true -> geom_ok c' (map_geom c' hs hp g) = true.
    Proof.
      revert g. apply geom_ok_ind; intros; cbn [map_geom GeomAST.geom_ok]; rewrite ?tag_refl;
        auto using map_point_ok, map_line_ok, map_poly_ok, map_points_ok, map_lines_ok, map_polys_ok.
      rewrite forallb_map. apply forallb_forall. auto.
    Qed.
  End MapOk.
  Lemma map_vtx_ok c c' h vs :
    (forall v, vtx_ok c v = true -> vtx_ok c' (h v) = true) -> forallb (vtx_ok c) vs = true -> forallb (vtx_ok c') (map h vs) = true.
  Proof. rewrite forallb_map. apply forallb_impl. Qed.
  Lemma map_vertices_ok c c' h g :
    (forall v, vtx_ok c v = true -> vtx_ok c' (h v) = true) -> geom_ok c g = true -> geom_ok c' (map_vertices c' h g) = true.
  Proof. intros H. apply map_geom_ok; auto. intros vs. now apply map_vtx_ok. Qed.

  Lemma point_vs_map c h (p : pointT F) : point_vs (map_point c h p) = map h (point_vs p).
  Proof. now destruct p as [k [v|]]. Qed.
  Lemma poly_vs_map c h (p : polyT F) : poly_vs (map_poly c (map h) p) = map h (poly_vs p).
  Proof. destruct p as [k rs]. unfold poly_vs. simpl. now apply flat_map_image. Qed.
  Lemma geom_vs_map_vertices c h (g : geomF) : geom_vs (map_vertices c h g) = map h (geom_vs g).
  Proof.
    unfold map_vertices. induction g using geomT_ind'; simpl; auto using point_vs_map, poly_vs_map, flat_map_image.
    apply flat_map_image, Forall_forall, H.
  Qed.
  Lemma geom_seqs_map_geom c hs hp (g : geomF) : hs [] = [] -> (forall v, hs [v] = [hp v]) ->
    geom_seqs (map_geom c hs hp g) = map hs (geom_seqs g).
  Proof.
    intros H0 H1.
    assert (P : forall p : pointT F, point_vs (map_point c hp p) = hs (point_vs p)).
    { intros [k [v|]]; cbn; now rewrite ?H0, ?H1. }
    assert (Y : forall p : polyT F, poly_seqs (map_poly c hs p) = map hs (poly_seqs p)).
    { intros [k rs]. unfold poly_seqs. simpl. now rewrite !map_map. }
    induction g using geomT_ind'; simpl; rewrite ?map_map; auto using map_ext, flat_map_image; try now f_equal.
    apply flat_map_image, Forall_forall, H.
  Qed.

  (* ---------------------------------------------------------------- force on ok values: the map of force_vtx *)
  Lemma force_point_char old c p : point_ok old p = true -> force_point c p = map_point c (force_vtx old c) p.
  Proof. destruct p as [k [v|]]; simpl; auto. intros H. now apply tagged_ok in H as [-> _]. Qed.
  Lemma force_line_char old c l : line_ok old l = true -> force_line c l = map_line c (map (force_vtx old c)) l.
  Proof. destruct l as [k vs]; simpl. intros H. now apply tagged_ok in H as [-> _]. Qed.
  Lemma force_poly_char old c p : poly_ok old p = true -> force_poly c p = map_poly c (map (force_vtx old c)) p.
  Proof.
    destruct p as [k rs]; simpl. intros H. apply tagged_ok in H as [_ H]. unfold map_poly. f_equal.
    exact (map_ext_ok _ _ _ _ (force_line_char old c) H).
  Qed.
  Lemma force_geom_char old c g : geom_ok old g = true -> force_geom c g = map_vertices c (force_vtx old c) g.
  Proof.
    unfold map_vertices. revert g. apply geom_ok_ind; intros; simpl; f_equal;
      eauto using force_point_char, force_line_char, force_poly_char, map_ext_ok, map_ext_in.
  Qed.
  Lemma force_point_vs ct c p : point_ok ct p = true -> point_vs (force_point c p) = map (force_vtx ct c) (point_vs p).
  Proof. intros H. rewrite (force_point_char ct c p H). apply point_vs_map. Qed.
  Lemma force_line_vs ct c l : line_ok ct l = true -> line_vs (force_line c l) = map (force_vtx ct c) (line_vs l).
  Proof. intros H. now rewrite (force_line_char ct c l H). Qed.
  Lemma force_poly_vs ct c p : poly_ok ct p = true -> poly_vs (force_poly c p) = map (force_vtx ct c) (poly_vs p).
  Proof. intros H. rewrite (force_poly_char ct c p H). apply poly_vs_map. Qed.
  Lemma force_geom_vs ct c g : geom_ok ct g = true -> geom_vs (force_geom c g) = map (force_vtx ct c) (geom_vs g).
  Proof. intros H. rewrite (force_geom_char ct c g H). apply geom_vs_map_vertices. Qed.

  Lemma force_map_geom c c2 hs hp (g : geomF) :
    force_geom c2 (map_geom c hs hp g) = map_geom c2 (fun s => map (force_vtx c c2) (hs s)) (fun v => force_vtx c c2 (hp v)) g.
  Proof.
    assert (P : forall p, force_point c2 (map_point c hp p) = map_point c2 (fun v => force_vtx c c2 (hp v)) p).
    { now intros [k [v|]]. }
    assert (Y : forall p, force_poly c2 (map_poly c hs p) = map_poly c2 (fun s => map (force_vtx c c2) (hs s)) p).
    { intros [k rs]. unfold map_poly. simpl. now rewrite map_map. }
    induction g using geomT_ind'; cbn [force_geom map_geom]; f_equal; rewrite ?map_map; auto using map_ext.
    apply map_ext_in, Forall_forall, H.
  Qed.
  (* on a value of type c0, an intermediate type that keeps every dimension that both c0 and the final type have
     is invisible: both sides are the map of one vertex function *)
  Lemma force_via c0 c c2 g : geom_ok c0 g = true -> ct_and (ct_and c0 c) c2 = ct_and c0 c2 ->
    force_geom c2 (force_geom c g) = force_geom c2 g.
  Proof.
    intros Hok Hc. rewrite (force_geom_char c0 c g Hok), (force_geom_char c0 c2 g Hok). unfold map_vertices.
    rewrite force_map_geom. apply map_geom_ext; intros; rewrite ?map_map; try apply map_ext; intros;
      rewrite force_vtx_force; now apply force_vtx_old_and.
  Qed.
  Lemma force_force_absorb_lemma c1 c2 (g : geomF) :
    consistent g = true -> ct_sub (ct_and c2 (geom_ct g)) c1 = true ->
    force_geom c2 (force_geom c1 g) = force_geom c2 g.
  Proof.
    intros Hc Hs. rewrite force_force_lemma. apply (force_via (geom_ct g)); auto.
    unfold ct_sub in Hs. apply ct_eqb_eq in Hs. revert Hs. now destruct (geom_ct g), c1, c2.
  Qed.

  (* ---- Reverse: the map of rev *)
  Lemma map_point_id ct p : point_ok ct p = true -> map_point ct (fun v => v) p = p.
  Proof. destruct p as [k [v|]]; simpl; intros H; now apply tagged_ok in H as [-> _]. Qed.
  Lemma reverse_line_char ct l : line_ok ct l = true -> reverse_line l = map_line ct (@rev vtxF) l.
  Proof. destruct l as [k vs]; simpl. intros H. now apply tagged_ok in H as [-> _]. Qed.
  Lemma reverse_poly_char ct p : poly_ok ct p = true -> reverse_poly p = map_poly ct (@rev vtxF) p.
  Proof.
    destruct p as [k rs]; simpl. intros H. apply tagged_ok in H as [-> H]. unfold map_poly. f_equal.
    exact (map_ext_ok _ _ _ _ (reverse_line_char ct) H).
  Qed.
  Lemma line_empty_nil (l : lineT F) : line_empty l = true -> reverse_line l = l.
  Proof. now destruct l as [c [|v vs]]. Qed.
  Lemma poly_empty_nil (p : polyT F) : poly_empty p = true -> reverse_poly p = p.
  Proof. now destruct p as [c [|r rs]]. Qed.
  Lemma reverse_empty (g : geomF) : is_empty g = true -> reverse_geom g = g.
  Proof.
    induction g using geomT_ind'; simpl; intros He; rewrite ?He; f_equal;
      eauto using line_empty_nil, poly_empty_nil, map_id_ok.
  Qed.
  Lemma reverse_geom_char ct g : geom_ok ct g = true -> reverse_geom g = map_geom ct (@rev vtxF) (fun v => v) g.
  Proof.
    revert g. apply geom_ok_ind; intros; cbn [reverse_geom map_geom].
    - now rewrite map_point_id.
    - f_equal. now apply reverse_line_char.
    - f_equal. now apply reverse_poly_char.
    - f_equal. symmetry. exact (map_id_ok _ _ _ (map_point_id ct) H).
    - f_equal. exact (map_ext_ok _ _ _ _ (reverse_line_char ct) H).
    - f_equal. exact (map_ext_ok _ _ _ _ (reverse_poly_char ct) H).
    - (* an all-empty collection is returned as it is: reversing its members changes nothing either *)
      rewrite <- (map_ext_in _ _ _ H0). destruct (forallb is_empty gs) eqn:Em; f_equal.
      symmetry. exact (map_id_ok _ _ _ reverse_empty Em).
  Qed.
  Lemma reverse_geom_ok ct g : geom_ok ct g = true -> geom_ok ct (reverse_geom g) = true.
  Proof. intros H. rewrite (reverse_geom_char ct g H). apply (map_geom_ok ct); auto. intros. now rewrite forallb_rev. Qed.
  Lemma geom_seqs_reverse ct g : geom_ok ct g = true -> geom_seqs (reverse_geom g) = map (@rev vtxF) (geom_seqs g).
  Proof. intros H. rewrite (reverse_geom_char ct g H). now apply geom_seqs_map_geom. Qed.

  (* ---- TransformXY: the map of tx_vtx *)
  Lemma tx_vtx_ok f ct v : vtx_ok ct v = true -> vtx_ok ct (tx_vtx f v) = true.
  Proof. unfold GeomAST.vtx_ok, tx_vtx. now destruct (f (vx v) (vy v)). Qed.
  Lemma tx_vs_ok f ct vs : forallb (vtx_ok ct) vs = true -> forallb (vtx_ok ct) (map (tx_vtx f) vs) = true.
  Proof. apply map_vtx_ok, tx_vtx_ok. Qed.
  Lemma tx_point_char f ct p : point_ok ct p = true -> tx_point f p = map_point ct (tx_vtx f) p.
  Proof. destruct p as [k [v|]]; simpl; intros H; now apply tagged_ok in H as [-> _]. Qed.
  Lemma tx_line_char f ct l : line_ok ct l = true -> tx_line f l = map_line ct (map (tx_vtx f)) l.
  Proof. destruct l as [k vs]; simpl. intros H. now apply tagged_ok in H as [-> _]. Qed.
  Lemma tx_poly_char f ct p : poly_ok ct p = true -> tx_poly zero f p = map_poly ct (map (tx_vtx f)) p.
  Proof.
    destruct p as [k rs]; simpl. intros H. apply tagged_ok in H as [-> H]. unfold map_poly. simpl.
    rewrite (map_ext_ok _ _ _ _ (tx_line_char f ct) H). apply renew_polygon, (map_lines_ok ct ct _ (tx_vs_ok f ct)), H.
  Qed.
  Lemma tx_geom_char f ct g : geom_ok ct g = true -> tx_geom zero f g = map_vertices ct (tx_vtx f) g.
  Proof.
    unfold map_vertices. revert g. apply geom_ok_ind; intros; cbn [tx_geom map_geom].
    - f_equal. now apply tx_point_char.
    - f_equal. now apply tx_line_char.
    - f_equal. now apply tx_poly_char.
    - rewrite (map_ext_ok _ _ _ _ (tx_point_char f ct) H). destruct ps; [reflexivity|].
      apply new_multipoint_id; [discriminate|]. apply (map_points_ok ct ct _ (tx_vtx_ok f ct)), H.
    - rewrite (map_ext_ok _ _ _ _ (tx_line_char f ct) H). destruct ls; [reflexivity|].
      apply new_multiline_id; [discriminate|]. apply (map_lines_ok ct ct _ (tx_vs_ok f ct)), H.
    - rewrite (map_ext_ok _ _ _ _ (tx_poly_char f ct) H). apply renew_multipoly, (map_polys_ok ct ct _ (tx_vs_ok f ct)), H.
    - f_equal. now apply map_ext_in.
  Qed.
  Lemma tx_geom_ok f ct g : geom_ok ct g = true -> geom_ok ct (tx_geom zero f g) = true.
  Proof. intros H. rewrite (tx_geom_char f ct g H). apply (map_vertices_ok ct); auto using tx_vtx_ok. Qed.
  Lemma geom_vs_tx f ct g : geom_ok ct g = true -> geom_vs (tx_geom zero f g) = map (tx_vtx f) (geom_vs g).
  Proof. intros H. rewrite (tx_geom_char f ct g H). apply geom_vs_map_vertices. Qed.

  Lemma reverse_line_ok ct l : line_ok ct l = true -> line_ok ct (reverse_line l) = true.
  Proof. destruct l as [c vs]; simpl. now rewrite forallb_rev. Qed.
  Lemma orient_ring_ok o fcw first ct r : line_ok ct r = true -> line_ok ct (orient_ring o fcw first r) = true.
  Proof. unfold orient_ring. destruct (Bool.eqb _ _); auto using reverse_line_ok. Qed.
  Lemma force_orient_poly_ok o fcw ct p : poly_ok ct p = true -> poly_ok ct (force_orient_poly o fcw p) = true.
  Proof.
    destruct p as [c [|r rs]]; simpl; auto. rewrite !andb_true_iff, forallb_map. intros [Hc [H1 H2]].
    repeat split; auto using orient_ring_ok. revert H2. apply forallb_impl. auto using orient_ring_ok.
  Qed.
  Lemma force_orient_geom_ok o fcw ct g : geom_ok ct g = true -> geom_ok ct (force_orient_geom o fcw g) = true.
  Proof.
    revert g. apply geom_ok_ind; intros; simpl; rewrite ?tag_refl, ?forallb_map; auto using force_orient_poly_ok.
    - exact (forallb_impl _ _ _ (force_orient_poly_ok o fcw ct) H).
    - apply forallb_forall. auto.
  Qed.
  Lemma force_cw_geom_ok o ct g : geom_ok ct g = true -> geom_ok ct (force_cw_geom o g) = true.
  Proof. unfold force_cw_geom. destruct (geom_oriented _ _ _); auto using force_orient_geom_ok. Qed.
  Lemma force_ccw_geom_ok o ct g : geom_ok ct g = true -> geom_ok ct (force_ccw_geom o g) = true.
  Proof. unfold force_ccw_geom. destruct (geom_oriented _ _ _); auto using force_orient_geom_ok. Qed.

  Lemma as_multi_char ct g r : geom_ok ct g = true -> as_multi zero g = Some r ->
    r = match g with
        | GPoint p => GMPoint ct [p]
        | GLine l => GMLine ct [l]
        | GPoly p => GMPoly ct (if poly_empty p then [] else [p])
        | _ => r
        end.
  Proof.
    destruct g; unfold as_multi; intros Hok E; try discriminate; auto; injection E as <-; simpl in Hok.
    - apply (new_multipoint_id ct [p]); try discriminate. simpl. now rewrite Hok.
    - apply (new_multiline_id ct [l]); try discriminate. simpl. now rewrite Hok.
    - rewrite (poly_ok_ct _ _ Hok). apply renew_multipoly. destruct (poly_empty p); simpl; now rewrite ?Hok.
  Qed.
  Lemma as_multi_ok ct g r : geom_ok ct g = true -> as_multi zero g = Some r -> geom_ok ct r = true.
  Proof.
    intros Hok E. rewrite (as_multi_char ct g r Hok E). destruct g; try discriminate; simpl in *; rewrite tag_refl.
    - now rewrite Hok. - now rewrite Hok. - destruct (poly_empty p); simpl; now rewrite ?Hok.
  Qed.
  Lemma member_ok ct i g r : geom_ok ct g = true -> member i g = Some r -> geom_ok ct r = true.
  Proof.
    destruct g as [| |[c rs]|c ps|c ps|c ps|c ps]; simpl; try discriminate; intros Hok E;
      apply tagged_ok in Hok as [-> Hv].
    - destruct i, rs; try (apply option_map_some in E as [x [E ->]]; simpl; eauto using forallb_nth).
      injection E as <-. simpl. now rewrite tag_refl.
    - apply option_map_some in E as [x [E ->]]. simpl. eauto using forallb_nth.
    - apply option_map_some in E as [x [E ->]]. simpl. eauto using forallb_nth.
    - apply option_map_some in E as [x [E ->]]. simpl. eauto using forallb_nth.
    - eauto using forallb_nth.
  Qed.
  Lemma hd_error_ok ct (vs : list vtxF) :
    forallb (vtx_ok ct) vs = true -> match hd_error vs with Some v => vtx_ok ct v | None => true end = true.
  Proof. destruct vs; simpl; auto. now rewrite andb_true_iff. Qed.
  Lemma start_point_ok ct g r : geom_ok ct g = true -> start_point g = Some r -> geom_ok ct r = true.
  Proof.
    destruct g as [|[c vs]| | | | |]; try discriminate. simpl. intros Hok E. apply tagged_ok in Hok as [-> Hv].
    injection E as <-. simpl. rewrite tag_refl. now apply hd_error_ok.
  Qed.
  Lemma end_point_ok ct g r : geom_ok ct g = true -> end_point g = Some r -> geom_ok ct r = true.
  Proof.
    destruct g as [|[c vs]| | | | |]; try discriminate. simpl. intros Hok E. apply tagged_ok in Hok as [-> Hv].
    injection E as <-. simpl. rewrite tag_refl. apply hd_error_ok. now rewrite forallb_rev.
  Qed.

  Lemma dump_ok ct g : geom_ok ct g = true -> forallb (geom_ok ct) (dump g) = true.
  Proof.
    revert g. apply geom_ok_ind; intros; simpl; rewrite ?forallb_map, ?andb_true_r; auto.
    rewrite forallb_flat_map. apply forallb_forall. auto.
  Qed.
  Lemma new_collection_dump ct g : geom_ok ct g = true ->
    new_collection zero (dump g) = match dump g with [] => GColl XY [] | _ => GColl ct (dump g) end.
  Proof.
    intros Hok. destruct (dump g) eqn:E; [reflexivity|]. rewrite <- E.
    apply new_collection_id. - rewrite E; discriminate. - now apply dump_ok.
  Qed.
  Lemma point_vs_ok ct p : point_ok ct p = true -> forallb (vtx_ok ct) (point_vs p) = true.
  Proof. destruct p as [c [v|]]; simpl; auto. rewrite andb_true_iff. intros [_ H]. now rewrite H. Qed.
  Lemma line_vs_ok ct l : line_ok ct l = true -> forallb (vtx_ok ct) (line_vs l) = true.
  Proof. destruct l; simpl. now rewrite andb_true_iff. Qed.
  Lemma poly_vs_ok ct p : poly_ok ct p = true -> forallb (vtx_ok ct) (poly_vs p) = true.
  Proof.
    destruct p as [c rs]; simpl. intros H. apply tagged_ok in H as [_ H]. unfold poly_vs. simpl.
    rewrite forallb_flat_map. exact (forallb_impl _ _ _ (line_vs_ok ct) H).
  Qed.
  Lemma geom_vs_ok ct g : geom_ok ct g = true -> forallb (vtx_ok ct) (geom_vs g) = true.
  Proof.
    revert g. apply geom_ok_ind; intros; simpl; rewrite ?forallb_flat_map;
      auto using point_vs_ok, line_vs_ok, poly_vs_ok.
    - exact (forallb_impl _ _ _ (point_vs_ok ct) H).
    - exact (forallb_impl _ _ _ (line_vs_ok ct) H).
    - exact (forallb_impl _ _ _ (poly_vs_ok ct) H).
    - apply forallb_forall. auto.
  Qed.
  Lemma dump_coords_char ct g : geom_ok ct g = true -> dump_coords g = MkLine ct (geom_vs g).
  Proof.
    revert g. apply geom_ok_ind; intros; simpl; auto.
    - now rewrite (point_ok_ct _ _ H).
    - destruct l; simpl in *. now apply tagged_ok in H as [-> _].
    - now rewrite (poly_ok_ct _ _ H).
    - f_equal. apply flat_map_ext_in. intros x Hx. now rewrite (H0 x Hx).
  Qed.
  Lemma dump_coords_ok ct g : geom_ok ct g = true -> line_ok ct (dump_coords g) = true.
  Proof. intros H. rewrite (dump_coords_char ct g H). simpl. rewrite tag_refl. now apply geom_vs_ok. Qed.

  (* ---- Densify: the map of densify_vs *)
  Lemma densify_vs_cons ins ct a b (tl : list vtxF) :
    densify_vs zero ins ct (a :: b :: tl) =
    a :: map (force_vtx XYZM ct) (ins a b) ++ densify_vs zero ins ct (b :: tl).
  Proof. reflexivity. Qed.
  Lemma densify_vs_ok ins ct vs : forallb (vtx_ok ct) vs = true -> forallb (vtx_ok ct) (densify_vs zero ins ct vs) = true.
  Proof.
    induction vs as [|a tl IH]; intros H; [reflexivity|].
    destruct tl as [|b tl']; [exact H|].
    rewrite densify_vs_cons. cbn [forallb] in H |- *. apply andb_true_iff in H as [Ha Ht].
    rewrite Ha, forallb_app, (IH Ht), andb_true_r. apply forallb_map_all, force_vtx_ok.
  Qed.
  Lemma densify_line_char ins ct l : line_ok ct l = true -> densify_line zero ins l = map_line ct (densify_vs zero ins ct) l.
  Proof. destruct l as [k vs]; simpl. intros H. now apply tagged_ok in H as [-> _]. Qed.
  Lemma densify_poly_char ins ct p : poly_ok ct p = true -> densify_poly zero ins p = map_poly ct (densify_vs zero ins ct) p.
  Proof.
    destruct p as [k rs]; simpl. intros H. apply tagged_ok in H as [-> H]. unfold map_poly. f_equal.
    exact (map_ext_ok _ _ _ _ (densify_line_char ins ct) H).
  Qed.
  Lemma densify_geom_char ins ct g : geom_ok ct g = true ->
    densify_geom zero ins g = map_geom ct (densify_vs zero ins ct) (fun v => v) g.
  Proof.
    revert g. apply geom_ok_ind; intros; simpl; f_equal;
      eauto using map_point_id, densify_line_char, densify_poly_char, map_ext_ok, map_ext_in.
    - symmetry. now apply map_point_id.
    - symmetry. exact (map_id_ok _ _ _ (map_point_id ct) H).
  Qed.
  Lemma densify_geom_ok ins ct g : geom_ok ct g = true -> geom_ok ct (densify_geom zero ins g) = true.
  Proof. intros H. rewrite (densify_geom_char ins ct g H). apply (map_geom_ok ct); auto using densify_vs_ok. Qed.

  Lemma apply_xy_xy k res g : geom_ok XY (apply_xy zero k res g) = true.
  Proof.
    unfold apply_xy. destruct k, g; try destruct (is_empty _); try apply force_geom_ok; simpl; apply force_point_ok.
  Qed.

  (* ---- New* applied to members that were each forced to their own type *)
  Section Members.
    Variable A : Type.
    Variable fA : ctype -> A -> A.
    Variable ctA : A -> ctype.
    Variable vsA : A -> list vtxF.
    Variable okA : ctype -> A -> bool.
    Hypothesis ct_force : forall c x, ctA (fA c x) = c.
    Hypothesis ok_force : forall c x, okA c (fA c x) = true.
    Hypothesis vs_force : forall ct c x, okA ct x = true -> vsA (fA c x) = map (force_vtx ct c) (vsA x).

    Lemma zip_force_cts cts : forall l l', zip_force fA cts l = Some l' -> map ctA l' = cts /\ length l' = length l.
    Proof.
      induction cts as [|c cts IH]; intros [|x l] l' E; simpl in E; try discriminate.
      - inversion E. auto.
      - apply option_map_some in E as [t [E ->]]. destruct (IH _ _ E) as [H1 H2]. simpl. now rewrite ct_force, H1, H2.
    Qed.
    Lemma zip_force_vs ct c' cts : forall l l', zip_force fA cts l = Some l' ->
      forallb (okA ct) l = true -> (forall c, In c cts -> ct_and c' c = c') ->
      flat_map vsA (map (fA c') l') = map (force_vtx ct c') (flat_map vsA l).
    Proof.
      induction cts as [|c cts IH]; intros [|x l] l' E Hok Hsub; simpl in E; try discriminate.
      - inversion E. reflexivity.
      - apply option_map_some in E as [t [E ->]]. simpl in Hok. apply andb_true_iff in Hok as [Hx Hl].
        simpl. rewrite map_app. f_equal.
        + rewrite (vs_force c c') by apply ok_force. rewrite (vs_force ct c) by auto. rewrite map_map.
          apply map_ext. intros v. rewrite force_vtx_force. apply force_vtx_old_and.
          rewrite <- (Hsub c) by now left. destruct ct, c, c'; reflexivity.
        + apply IH; auto. intros. apply Hsub. now right.
    Qed.
    (* the AND of the members' types, and the vertices after the constructor forced every member to it *)
    Lemma rebuilt_members ct cts l l' : zip_force fA cts l = Some l' -> forallb (okA ct) l = true ->
      and_all ctA l' = and_all (fun c => c) cts /\
      flat_map vsA (map (fA (and_all ctA l')) l') = map (force_vtx ct (and_all ctA l')) (flat_map vsA l) /\
      length l' = length l.
    Proof.
      intros E Hok. destruct (zip_force_cts _ _ _ E) as [Hc Hlen]. split; [|split; [|exact Hlen]].
      - now rewrite and_all_map, Hc.
      - eapply zip_force_vs; eauto. intros c Hin. rewrite <- Hc in Hin. apply in_map_iff in Hin as [x [<- Hx]].
        now apply and_all_sub.
    Qed.
  End Members.

  Lemma rebuild_spec ct cts g r : geom_ok ct g = true -> rebuild zero cts g = Some r ->
    geom_ct r = match members_of g with O => XY | _ => and_all (fun c => c) cts end /\
    geom_vs r = map (force_vtx ct (geom_ct r)) (geom_vs g).
  Proof.
    intros Hok E.
    destruct g as [| |[k ms]|k ms|k ms|k ms|k ms]; simpl in E; try discriminate;
      apply option_map_some in E as [l' [E ->]]; simpl in Hok; apply tagged_ok in Hok as [_ Hv].
    - destruct (rebuilt_members _ _ _ _ _ force_line_ct force_line_ok force_line_vs ct cts ms l' E Hv) as (H1 & H2 & H3).
      destruct l', ms; try discriminate; auto.
    - destruct (rebuilt_members _ _ _ _ _ force_point_ct force_point_ok force_point_vs ct cts ms l' E Hv) as (H1 & H2 & H3).
      destruct l', ms; try discriminate; auto.
    - destruct (rebuilt_members _ _ _ _ _ force_line_ct force_line_ok force_line_vs ct cts ms l' E Hv) as (H1 & H2 & H3).
      destruct l', ms; try discriminate; auto.
    - destruct (rebuilt_members _ _ _ _ _ force_poly_ct force_poly_ok force_poly_vs ct cts ms l' E Hv) as (H1 & H2 & H3).
      destruct l', ms; try discriminate; auto.
    - destruct (rebuilt_members _ _ _ _ _ force_geom_ct force_geom_ok force_geom_vs ct cts ms l' E Hv) as (H1 & H2 & H3).
      destruct l', ms; try discriminate; auto.
  Qed.

  Lemma force_vs_same ct (vs : list vtxF) : forallb (vtx_ok ct) vs = true -> vs = map (force_vtx ct ct) vs.
  Proof. intros H. symmetry. exact (map_id_ok _ _ _ (force_vtx_id ct) H). Qed.
  Lemma new_polygon_as_force ct p : poly_ok ct p = true ->
    new_polygon zero (poly_rings p) = force_poly (if poly_empty p then XY else ct) p.
  Proof.
    destruct p as [k [|r rs]]; [reflexivity|]. intros H. cbn [poly_empty poly_rings]. rewrite (force_poly_id ct) by exact H.
    simpl in H. apply tagged_ok in H as [-> H]. apply new_polygon_id; [discriminate | exact H].
  Qed.
  Lemma coords_mpoly_zip ct ps : forallb (poly_ok ct) ps = true ->
    zip_force force_poly (map (fun p => if poly_empty p then XY else ct) ps) ps
    = Some (map (fun p => new_polygon zero (poly_rings p)) ps).
  Proof.
    induction ps as [|p ps IH]; [reflexivity|]. cbn [forallb]. rewrite andb_true_iff. intros [Hp Hps].
    cbn [map zip_force]. rewrite (IH Hps). cbn [option_map]. now rewrite (new_polygon_as_force ct p Hp).
  Qed.
  Lemma coords_spec ct g r : geom_ok ct g = true -> coords_rebuilt zero g = Some r ->
    ct_sub (geom_ct r) ct = true /\ geom_vs r = map (force_vtx ct (geom_ct r)) (geom_vs g).
  Proof.
    intros Hok E. pose proof (geom_vs_ok ct g Hok) as Hvs. pose proof Hok as Hok'.
    destruct g as [| |[k rs]|k ps|k ls|k ps|]; cbn [coords_rebuilt] in E; try discriminate; injection E as <-;
      cbn [geom_ct]; simpl in Hok; try apply tagged_ok in Hok as [-> Hv].
    - rewrite (point_ok_ct ct _ Hok). auto using ct_sub_refl, force_vs_same.
    - rewrite (line_ok_ct ct _ Hok). auto using ct_sub_refl, force_vs_same.
    - cbn [poly_rings]. destruct rs; [split; [apply ct_sub_xy | reflexivity]|].
      rewrite (new_multiline_id ct) by (auto; discriminate). auto using ct_sub_refl, force_vs_same.
    - auto using ct_sub_refl, force_vs_same.
    - destruct ls; [split; [apply ct_sub_xy | reflexivity]|].
      rewrite (new_multiline_id ct) by (auto; discriminate). auto using ct_sub_refl, force_vs_same.
    - (* the polygons are rebuilt from rings of type ct, or from no ring at all: a rebuild with types ct or XY *)
      set (cts := map (fun p => if poly_empty p then XY else ct) ps).
      assert (R : rebuild zero cts (GMPoly ct ps) = Some (new_multipoly zero (map (fun p => new_polygon zero (poly_rings p)) ps))).
      { cbn [rebuild]. unfold cts. now rewrite (coords_mpoly_zip ct ps Hv). }
      destruct (rebuild_spec ct cts _ _ Hok' R) as [H1 H2]. split; [|exact H2].
      rewrite H1. cbn [members_of]. destruct ps as [|p ps]; [apply ct_sub_xy|]. cbn [length].
      unfold cts. cbn [map]. rewrite and_all_cons. unfold ct_sub. apply ct_eqb_eq.
      destruct (poly_empty p); [now rewrite !ct_and_xy_l|]. now rewrite (ct_and_comm ct), <- ct_and_assoc, ct_and_idem.
  Qed.

  (* ---- every operation: the result is consistent and has the type the table gives *)
  Lemma same_type (g r : geomF) : geom_ok (geom_ct g) r = true -> consistent r = true /\ geom_ct r = geom_ct g.
  Proof. eauto using ok_consistent, geom_ok_ct. Qed.
  Lemma apply_typed g o r : consistent g = true -> apply zero g o = Some r -> consistent r = true /\ ctype_rule g o r.
  Proof.
    intros Hc E. pose proof (consistent_ok g Hc) as Hok. set (ct := geom_ct g) in Hok.
    destruct o; cbn [apply] in E; try (injection E as <-); cbn [ctype_rule].
    - split; [apply force_consistent | apply force_geom_ct].
    - split; [apply force_consistent | apply force_geom_ct].
    - now apply same_type, reverse_geom_ok.
    - now apply same_type, tx_geom_ok.
    - now apply same_type, force_cw_geom_ok.
    - now apply same_type, force_ccw_geom_ok.
    - eapply same_type, as_multi_ok; eauto.
    - eapply same_type, member_ok; eauto.
    - eapply same_type, start_point_ok; eauto.
    - eapply same_type, end_point_ok; eauto.
    - rewrite (new_collection_dump ct g Hok). pose proof (dump_ok ct g Hok) as D.
      destruct (dump g); [now split|]. split; [|reflexivity]. apply (ok_consistent ct). simpl. now rewrite tag_refl.
    - apply (same_type g (GLine _)). simpl. now apply dump_coords_ok.
    - destruct g as [| |[k rs]| | | |]; try discriminate. injection E as <-. split; [apply new_multiline_consistent|].
      simpl in Hok. apply tagged_ok in Hok as [_ Hv]. cbn [poly_rings members_of]. destruct rs; [reflexivity|].
      now rewrite (new_multiline_id k) by (auto; discriminate).
    - split; [|now destruct (coords_spec ct g r Hok E)].
      destruct g; try discriminate; injection E as <-; auto using new_multiline_consistent, new_multipoly_consistent.
      apply (ok_consistent ct (GLine _)). now apply (dump_coords_ok ct (GMPoint _ _)).
    - split; [|now destruct (rebuild_spec ct cts g r Hok E)].
      destruct g; try discriminate; apply option_map_some in E as [x [_ ->]];
        auto using new_multipoint_consistent, new_multiline_consistent, new_multipoly_consistent, new_collection_consistent.
      apply new_polygon_ok.
    - now apply same_type, densify_geom_ok.
    - pose proof (apply_xy_xy k res g). eauto using ok_consistent, geom_ok_ct.
  Qed.
  Lemma apply_consistent_lemma g o r : consistent g = true -> apply zero g o = Some r -> consistent r = true.
  Proof. intros Hc E. apply (apply_typed g o r Hc E). Qed.
  Lemma ctype_rule_lemma g o r : consistent g = true -> apply zero g o = Some r -> ctype_rule g o r.
  Proof. intros Hc E. apply (apply_typed g o r Hc E). Qed.
  Lemma apply_t_consistent g o : consistent g = true -> consistent (apply_t zero g o) = true.
  Proof. unfold apply_t. intros H. destruct (apply zero g o) eqn:E; auto. eapply apply_consistent_lemma; eauto. Qed.
  (* all histories *)
  Lemma run_consistent_lemma ops g : consistent g = true -> consistent (fold_left (apply_t zero) ops g) = true.
  Proof. revert g. induction ops; simpl; intros; auto. apply IHops. now apply apply_t_consistent. Qed.
  Section Spec.
    Variable feqb : F -> F -> bool.
    Hypothesis feqb_refl : forall a, feqb a a = true.

    Notation vtx_eqb := (vtx_eqb feqb).
    Notation geom_eqb := (geom_eqb feqb).
    Notation seq_eqb := (seq_eqb feqb).
    Notation subseqb := (subseqb feqb).
    Notation spec := (spec zero feqb is_zero).

    Lemma vtx_eqb_refl v : vtx_eqb v v = true.
    Proof. unfold CType.vtx_eqb. now rewrite !feqb_refl. Qed.
    Lemma list_eqb_refl {A} (e : A -> A -> bool) l : (forall x, e x x = true) -> list_eqb e l l = true.
    Proof. induction l; simpl; intros; auto. rewrite H, IHl; auto. Qed.
    Lemma seq_eqb_refl l : seq_eqb l l = true.
    Proof. apply list_eqb_refl, vtx_eqb_refl. Qed.
    Lemma point_eqb_refl p : point_eqb feqb p p = true.
    Proof. destruct p as [c [v|]]; simpl; rewrite ct_eqb_refl; auto. apply vtx_eqb_refl. Qed.
    Lemma line_eqb_refl l : line_eqb feqb l l = true.
    Proof. destruct l; simpl. rewrite ct_eqb_refl. apply seq_eqb_refl. Qed.
    Lemma poly_eqb_refl p : poly_eqb feqb p p = true.
    Proof. destruct p; simpl. rewrite ct_eqb_refl. apply list_eqb_refl, line_eqb_refl. Qed.
    Lemma geom_eqb_refl g : geom_eqb g g = true.
    Proof.
      induction g using geomT_ind'; simpl; rewrite ?ct_eqb_refl; simpl;
        auto using point_eqb_refl, line_eqb_refl, poly_eqb_refl, list_eqb_refl.
      induction H; auto. now rewrite H, IHForall.
    Qed.
    Lemma geom_eqb_eq_refl a b : a = b -> geom_eqb a b = true.
    Proof. intros ->. apply geom_eqb_refl. Qed.
    Lemma seq_eqb_eq_refl a b : a = b -> seq_eqb a b = true.
    Proof. intros ->. apply seq_eqb_refl. Qed.
    Lemma opt_vtx_eqb_refl (o : option vtxF) : opt_eqb vtx_eqb o o = true.
    Proof. destruct o; simpl; auto. apply vtx_eqb_refl. Qed.

    Lemma subseqb_nil b : subseqb [] b = true.
    Proof. destruct b; reflexivity. Qed.
    Lemma subseqb_step b : forall a, subseqb a b = true ->
      (forall y, subseqb a (y :: b) = true) /\ match a with x :: a' => subseqb a' b = true | [] => True end.
    Proof.
      induction b as [|z b IH]; intros a H.
      - destruct a; [split; auto; intros; apply subseqb_nil | discriminate].
      - destruct a as [|x a']; [split; auto|].
        assert (G2 : subseqb a' (z :: b) = true).
        { simpl in H. destruct (vtx_eqb x z).
          - apply (IH a' H).
          - destruct (IH (x :: a') H) as [_ K]. apply (IH a' K). }
        split; auto. intros y. change (subseqb (x :: a') (y :: z :: b)) with
          (if vtx_eqb x y then subseqb a' (z :: b) else subseqb (x :: a') (z :: b)).
        destruct (vtx_eqb x y); auto.
    Qed.
    Lemma subseqb_cons_r a b y : subseqb a b = true -> subseqb a (y :: b) = true.
    Proof. intros H. apply (subseqb_step b a H). Qed.
    Lemma subseqb_refl a : subseqb a a = true.
    Proof. induction a; simpl; auto. now rewrite vtx_eqb_refl. Qed.
    Lemma subseqb_app_l x a b : subseqb a b = true -> subseqb a (x ++ b) = true.
    Proof. induction x; simpl; auto. intros. now apply subseqb_cons_r, IHx. Qed.
    Lemma subseqb_app_r b : forall a y, subseqb a b = true -> subseqb a (b ++ y) = true.
    Proof.
      induction b as [|z b IH]; intros a y H.
      - destruct a; [apply subseqb_nil | discriminate].
      - destruct a as [|x a']; [apply subseqb_nil|]. simpl in *. destruct (vtx_eqb x z); auto.
    Qed.
    Lemma subseqb_cons_both v a b : subseqb a b = true -> subseqb (v :: a) (v :: b) = true.
    Proof. intros. simpl. now rewrite vtx_eqb_refl. Qed.

    Lemma forallb2_app {A B} (f : A -> B -> bool) a a' b b' :
      forallb2 f a a' = true -> forallb2 f b b' = true -> forallb2 f (a ++ b) (a' ++ b') = true.
    Proof.
      revert a'. induction a; destruct a'; simpl; intros; try discriminate; auto.
      apply andb_true_iff in H as [H1 H2]. rewrite H1. simpl. auto.
    Qed.
    Lemma forallb2_map2 {A B C} (f : B -> C -> bool) (p : A -> B) (q : A -> C) l :
      (forall x, In x l -> f (p x) (q x) = true) -> forallb2 f (map p l) (map q l) = true.
    Proof. induction l; simpl; intros; auto. rewrite H, IHl; auto. Qed.
    Lemma forallb2_map {A B} (f : A -> B -> bool) (h : A -> B) l :
      (forall x, In x l -> f x (h x) = true) -> forallb2 f l (map h l) = true.
    Proof. induction l; simpl; intros; auto. rewrite H, IHl; auto. Qed.
    Lemma forallb2_flat_map {A B C} (f : B -> C -> bool) (p : A -> list B) (q : A -> list C) l :
      (forall x, In x l -> forallb2 f (p x) (q x) = true) -> forallb2 f (flat_map p l) (flat_map q l) = true.
    Proof. induction l; simpl; intros; auto. apply forallb2_app; auto. Qed.
    Lemma forallb2_refl {A} (f : A -> A -> bool) l : (forall x, f x x = true) -> forallb2 f l l = true.
    Proof. intros H. rewrite <- (map_id l) at 2. now apply forallb2_map. Qed.

    Lemma map_geom_ct c hs hp (g : geomF) : geom_ct (map_geom c hs hp g) = c.
    Proof. destruct g; reflexivity. Qed.

    Notation K0 := (fun _ : vtxF => v0 zero).
    Notation Rseq := (fun s s' : list vtxF => seq_eqb s' s || seq_eqb s' (rev s)).

    (* ---- ForceCW / ForceCCW: every ring is kept or reversed *)
    Lemma Rseq_refl (s : list vtxF) : seq_eqb s s || seq_eqb s (rev s) = true.
    Proof. now rewrite seq_eqb_refl. Qed.
    Lemma orient_ring_shape o fcw first c r :
      map_line c (map K0) (orient_ring o fcw first r) = map_line c (map K0) r.
    Proof.
      unfold orient_ring. destruct (Bool.eqb _ _); auto. destruct r as [k vs]. unfold map_line. simpl.
      now rewrite map_const_rev.
    Qed.
    Lemma orient_ring_seq o fcw first (r : lineT F) :
      seq_eqb (line_vs (orient_ring o fcw first r)) (line_vs r) ||
      seq_eqb (line_vs (orient_ring o fcw first r)) (rev (line_vs r)) = true.
    Proof.
      unfold orient_ring. destruct (Bool.eqb _ _); [apply Rseq_refl|].
      destruct r as [k vs]. simpl. rewrite seq_eqb_refl. apply orb_true_r.
    Qed.
    Lemma force_orient_poly_shape o fcw c p :
      map_poly c (map K0) (force_orient_poly o fcw p) = map_poly c (map K0) p.
    Proof.
      destruct p as [k rs]. unfold map_poly. simpl. f_equal. destruct rs as [|r rs]; auto. simpl.
      rewrite orient_ring_shape, map_map. f_equal. apply map_ext. intros. apply orient_ring_shape.
    Qed.
    Lemma force_orient_poly_seqs o fcw p :
      forallb2 Rseq (poly_seqs p) (poly_seqs (force_orient_poly o fcw p)) = true.
    Proof.
      destruct p as [k [|r rs]]; auto. unfold poly_seqs. simpl. rewrite orient_ring_seq, map_map. simpl.
      apply forallb2_map2. intros. apply orient_ring_seq.
    Qed.
    Lemma force_orient_geom_ct o fcw (g : geomF) : geom_ct (force_orient_geom o fcw g) = geom_ct g.
    Proof. destruct g; simpl; auto. now destruct p. Qed.
    Lemma force_orient_geom_shape o fcw c (g : geomF) :
      map_geom c (map K0) K0 (force_orient_geom o fcw g) = map_geom c (map K0) K0 g.
    Proof.
      induction g using geomT_ind'; simpl; auto; f_equal; rewrite ?map_map;
        auto using force_orient_poly_shape, map_ext.
      apply map_ext_in, Forall_forall, H.
    Qed.
    Lemma force_orient_geom_seqs o fcw (g : geomF) :
      forallb2 Rseq (geom_seqs g) (geom_seqs (force_orient_geom o fcw g)) = true.
    Proof.
      induction g using geomT_ind'; simpl; rewrite ?flat_map_map;
        auto using forallb2_refl, Rseq_refl, force_orient_poly_seqs, forallb2_flat_map.
      - now rewrite seq_eqb_refl.
      - now rewrite seq_eqb_refl.
      - apply forallb2_flat_map, Forall_forall, H.
    Qed.
    Lemma force_orient_spec o fcw (g : geomF) :
      geom_eqb (shape zero (force_orient_geom o fcw g)) (shape zero g) &&
      forallb2 Rseq (geom_seqs g) (geom_seqs (force_orient_geom o fcw g)) = true.
    Proof.
      unfold shape. rewrite force_orient_geom_ct, force_orient_geom_shape, geom_eqb_refl. simpl.
      apply force_orient_geom_seqs.
    Qed.
    Lemma same_spec (g : geomF) :
      geom_eqb (shape zero g) (shape zero g) && forallb2 Rseq (geom_seqs g) (geom_seqs g) = true.
    Proof. rewrite geom_eqb_refl. simpl. apply forallb2_refl, Rseq_refl. Qed.

    Lemma nth_flat_map_subseq {A} (f : A -> list vtxF) l i x :
      nth_error l i = Some x -> subseqb (f x) (flat_map f l) = true.
    Proof.
      intros E. apply nth_error_split in E as (l1 & l2 & -> & _).
      rewrite flat_map_app. simpl. apply subseqb_app_l, subseqb_app_r, subseqb_refl.
    Qed.
    Lemma member_subseq i (g r : geomF) : member i g = Some r -> subseqb (geom_vs r) (geom_vs g) = true.
    Proof.
      destruct g as [| |[c rs]|c ps|c ps|c ps|c ps]; simpl; try discriminate; intros E.
      - destruct i, rs; try (apply option_map_some in E as [x [E ->]]; exact (nth_flat_map_subseq _ _ _ _ E)).
        now injection E as <-.
      - apply option_map_some in E as [x [E ->]]. exact (nth_flat_map_subseq _ _ _ _ E).
      - apply option_map_some in E as [x [E ->]]. exact (nth_flat_map_subseq _ _ _ _ E).
      - apply option_map_some in E as [x [E ->]]. exact (nth_flat_map_subseq _ _ _ _ E).
      - exact (nth_flat_map_subseq _ _ _ _ E).
    Qed.
    Lemma start_point_subseq (g r : geomF) : start_point g = Some r -> subseqb (geom_vs r) (geom_vs g) = true.
    Proof.
      destruct g as [|[c vs]| | | | |]; try discriminate. simpl. intros E. injection E as <-. simpl.
      destruct vs; simpl; auto. rewrite vtx_eqb_refl. apply subseqb_nil.
    Qed.
    Lemma end_point_subseq (g r : geomF) : end_point g = Some r -> subseqb (geom_vs r) (geom_vs g) = true.
    Proof.
      destruct g as [|[c vs]| | | | |]; try discriminate. simpl. intros E. injection E as <-. simpl.
      rewrite <- (rev_involutive vs) at 2. destruct (rev vs) as [|v t]; simpl; [reflexivity|].
      apply subseqb_app_l, subseqb_refl.
    Qed.

    Lemma dump_vs (g : geomF) : flat_map geom_vs (dump g) = geom_vs g.
    Proof.
      induction g using geomT_ind'; simpl; rewrite ?app_nil_r; auto; try (now rewrite flat_map_map).
      rewrite flat_map_flat_map. apply flat_map_ext_in, Forall_forall, H.
    Qed.
    Lemma dump_atoms (g : geomF) : forallb is_atom (dump g) = true.
    Proof.
      induction g using geomT_ind'; simpl; auto using forallb_map_all.
      rewrite forallb_flat_map. apply forallb_forall, Forall_forall, H.
    Qed.

    Notation Dseq := (fun s s' : list vtxF => subseqb s s' && same_ends feqb s s').
    Lemma densify_vs_subseq ins ct (vs : list vtxF) : subseqb vs (densify_vs zero ins ct vs) = true.
    Proof.
      induction vs as [|a tl IH]; [reflexivity|]. destruct tl as [|b tl']; [apply subseqb_refl|].
      rewrite densify_vs_cons. apply subseqb_cons_both, subseqb_app_l, IH.
    Qed.
    Lemma densify_vs_ne ins ct a (tl : list vtxF) : densify_vs zero ins ct (a :: tl) <> [].
    Proof. destruct tl; simpl; discriminate. Qed.
    Lemma densify_vs_last ins ct (vs : list vtxF) : hd_error (rev (densify_vs zero ins ct vs)) = hd_error (rev vs).
    Proof.
      induction vs as [|a tl IH]; [reflexivity|]. destruct tl as [|b tl']; [reflexivity|].
      rewrite densify_vs_cons. change (rev (a :: b :: tl')) with (rev (b :: tl') ++ [a]).
      rewrite (hd_error_app_ne (rev (b :: tl'))), <- IH by (apply rev_ne; discriminate).
      cbn [rev]. rewrite rev_app_distr, <- app_assoc. apply hd_error_app_ne, rev_ne, densify_vs_ne.
    Qed.
    Lemma Dseq_densify ins ct (s : list vtxF) : subseqb s (densify_vs zero ins ct s) && same_ends feqb s (densify_vs zero ins ct s) = true.
    Proof.
      unfold same_ends. rewrite densify_vs_subseq, densify_vs_last, opt_vtx_eqb_refl, andb_true_r.
      destruct s as [|a [|b tl]]; simpl; auto; apply vtx_eqb_refl.
    Qed.

    Lemma spec_sound_lemma g o r : consistent g = true -> apply zero g o = Some r -> spec g o r = true.
    Proof.
      intros Hc E. pose proof (consistent_ok g Hc) as Hok. destruct (apply_typed g o r Hc E) as [Hr T].
      unfold CType.spec. rewrite Hr. cbn [andb]. set (old := geom_ct g) in *.
      (* where the statement has a conjunct on the result's type, it is the table's entry T *)
      destruct o; cbn [apply] in E; cbn [ctype_rule] in T; fold old in T; try (injection E as <-).
      - apply geom_eqb_eq_refl. now apply force_geom_char.
      - apply geom_eqb_eq_refl. now apply force_geom_char.
      - apply geom_eqb_eq_refl. now apply reverse_geom_char.
      - apply geom_eqb_eq_refl. now apply tx_geom_char.
      - unfold force_cw_geom. destruct (geom_oriented _ _ _); [apply same_spec | apply force_orient_spec].
      - unfold force_ccw_geom. destruct (geom_oriented _ _ _); [apply same_spec | apply force_orient_spec].
      - pose proof (as_multi_char old g r Hok E) as R.
        destruct g; try discriminate; subst r; cbn [geom_ct geom_type multi_type]; rewrite ct_eqb_refl; cbn [andb gtype_eqb];
          unfold vs_eqb; apply seq_eqb_eq_refl; cbn [geom_vs flat_map]; rewrite ?app_nil_r; auto.
        destruct p as [k [|]]; [reflexivity|]. cbn [poly_empty poly_rings flat_map]. now rewrite app_nil_r.
      - rewrite T, ct_eqb_refl. now apply (member_subseq i).
      - rewrite T, ct_eqb_refl. now apply start_point_subseq.
      - rewrite T, ct_eqb_refl. now apply end_point_subseq.
      - rewrite (new_collection_dump old g Hok).
        pose proof (dump_vs g) as V. pose proof (dump_atoms g) as At. unfold vs_eqb.
        destruct (dump g) as [|d ds] eqn:D.
        + cbn [geom_ct geom_vs flat_map forallb]. simpl in V. rewrite <- V. reflexivity.
        + cbn [geom_ct geom_vs]. rewrite ct_eqb_refl, V, seq_eqb_refl, At. reflexivity.
      - apply geom_eqb_eq_refl. f_equal. now apply dump_coords_char.
      - rewrite T, ct_eqb_refl. cbn [andb]. unfold vs_eqb.
        destruct g as [| |[k rs]| | | |]; try discriminate. injection E as <-. apply seq_eqb_eq_refl.
        destruct rs; [reflexivity|]. simpl in Hok. apply (tagged_ok k) in Hok as [_ Hv].
        now rewrite (new_multiline_id k) by (auto; discriminate).
      - destruct (coords_spec old g r Hok E) as [_ H2]. rewrite T. now apply seq_eqb_eq_refl.
      - destruct (rebuild_spec old cts g r Hok E) as [_ H2]. rewrite <- T, ct_eqb_refl. now apply seq_eqb_eq_refl.
      - (* both sides are structural maps of g: the sequences erased, and densified member by member *)
        rewrite (densify_geom_char ins old g Hok). unfold shape_lines_erased.
        rewrite map_geom_ct, map_geom_compose, geom_eqb_refl, geom_seqs_map_geom by reflexivity. cbn [andb].
        apply forallb2_map. intros. apply Dseq_densify.
      - now rewrite T.
    Qed.

    Lemma history_ok_lemma ops : forall g, consistent g = true -> history_ok zero feqb is_zero g ops = true.
    Proof.
      induction ops as [|o rest IH]; intros g Hc; [reflexivity|]. cbn [history_ok].
      destruct (apply zero g o) as [r|] eqn:E; auto.
      rewrite (spec_sound_lemma g o r Hc E). cbn [andb]. apply IH.
      eapply apply_consistent_lemma; eauto.
    Qed.
  End Spec.
End Gen.

(* ---- Reverse is an involution: for every value of every carrier *)
Lemma reverse_line_invol {F} (l : lineT F) : reverse_line (reverse_line l) = l.
Proof. destruct l; simpl. now rewrite rev_involutive. Qed.
Lemma reverse_poly_invol {F} (p : polyT F) : reverse_poly (reverse_poly p) = p.
Proof. destruct p as [c rs]; simpl. f_equal. rewrite map_map. apply map_id_on. intros. apply reverse_line_invol. Qed.
Lemma reverse_keeps_empty {F} (g : geomT F) : is_empty (reverse_geom g) = is_empty g.
Proof.
  induction g using geomT_ind'; simpl; auto.
  - destruct l as [c vs]. unfold line_empty. simpl. destruct vs; simpl; auto. now destruct (rev vs).
  - destruct p as [c rs]. unfold poly_empty. simpl. now destruct rs.
  - rewrite forallb_map. apply forallb_ext_in. intros [c vs] _. unfold line_empty. simpl.
    destruct vs; simpl; auto. now destruct (rev vs).
  - rewrite forallb_map. apply forallb_ext_in. intros [c rs] _. unfold poly_empty. simpl. now destruct rs.
  - destruct (forallb is_empty gs) eqn:E; simpl; auto. rewrite forallb_map, <- E.
    apply forallb_ext_in. rewrite Forall_forall in H. auto.
Qed.
Lemma reverse_involutive_lemma {F} (g : geomT F) : reverse_geom (reverse_geom g) = g.
Proof.
  induction g using geomT_ind'; simpl; auto.
  - now rewrite reverse_line_invol. - now rewrite reverse_poly_invol.
  - f_equal. rewrite map_map. apply map_id_on. intros. apply reverse_line_invol.
  - f_equal. rewrite map_map. apply map_id_on. intros. apply reverse_poly_invol.
  - destruct (forallb is_empty gs) eqn:E; simpl.
    + now rewrite E.
    + assert (E' : forallb is_empty (map reverse_geom gs) = false).
      { rewrite forallb_map, <- E. apply forallb_ext_in. intros. apply reverse_keeps_empty. }
      rewrite E'. f_equal. rewrite map_map. apply map_id_on. rewrite Forall_forall in H. auto.
Qed.
