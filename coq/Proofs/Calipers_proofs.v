(* Property C13 - proofs about Model/Calipers.v: every candidate rectangle encloses the ring's
   vertices, the chosen one minimises the metric, and one of its sides lies on a ring edge. *)
From Coq Require Import ZArith QArith Qminmax List Bool Lia.
From SF Require Import Base.GeomAST Model.Hull Model.Calipers Proofs.Hull_proofs Proofs.Hull_chain
  Proofs.Hull_ring Proofs.Hull_idem Proofs.Hull_main.
Import ListNotations.
Open Scope Z_scope.

Lemma fold_max_ge (f : pt -> Z) l v : In v l -> f v <= fold_right Z.max 0 (map f l).
Proof. induction l as [|x l IH]; simpl; [tauto|]. intros [->|H]; [lia|specialize (IH H); lia]. Qed.

Lemma fold_max_cases (l : list Z) : fold_right Z.max 0 l = 0 \/ In (fold_right Z.max 0 l) l.
Proof.
  induction l as [|x l IH]; simpl; [left; reflexivity|].
  destruct (Z.max_spec x (fold_right Z.max 0 l)) as [[_ ->]|[_ ->]]; tauto.
Qed.

Lemma fold_max_attained (f : pt -> Z) l a : In a l -> f a = 0 ->
  exists v, In v l /\ f v = fold_right Z.max 0 (map f l).
Proof.
  intros Ha Hfa. destruct (fold_max_cases (map f l)) as [->|Hin].
  - exists a. auto.
  - apply in_map_iff in Hin. destruct Hin as [v [Ev Hv]]. exists v. auto.
Qed.

Lemma fold_min_neg_max (f : pt -> Z) l :
  fold_right Z.min 0 (map f l) = - fold_right Z.max 0 (map (fun v => - f v) l).
Proof. induction l as [|y l IH]; simpl; [reflexivity|]. rewrite IH. lia. Qed.

Lemma fold_min_le (f : pt -> Z) l v : In v l -> fold_right Z.min 0 (map f l) <= f v.
Proof.
  intros H. rewrite fold_min_neg_max.
  pose proof (fold_max_ge (fun v => - f v) l v H) as G. cbv beta in G. lia.
Qed.

Lemma fold_min_attained (f : pt -> Z) l a : In a l -> f a = 0 ->
  exists v, In v l /\ f v = fold_right Z.min 0 (map f l).
Proof.
  intros Ha Hfa. rewrite fold_min_neg_max.
  destruct (fold_max_attained (fun v => - f v) l a Ha) as [v [Hv Ev]]; [lia|].
  exists v. split; [exact Hv|lia].
Qed.

Lemma dot_rot90_cross a b v : dot (sub v a) (rot90 (sub b a)) = cross a b v.
Proof. unfold dot, sub, rot90, cross. cbn [fst snd]. ring. Qed.
Lemma dot_self_sub a d : dot (sub a a) d = 0.
Proof. unfold dot, sub. cbn [fst snd]. ring. Qed.
Lemma dot_rot90_rot90 d : dot (rot90 d) (rot90 d) = dot d d.
Proof. unfold dot, rot90. cbn [fst snd]. ring. Qed.

Lemma sq_pos (d : pt) : d <> (0, 0) -> 0 < dot d d.
Proof.
  destruct d as [x y]. unfold dot. cbn [fst snd]. intros H.
  assert (x <> 0 \/ y <> 0) by (destruct (Z.eq_dec x 0) as [->|]; [destruct (Z.eq_dec y 0) as [->|]|]; tauto).
  nia.
Qed.
Lemma sub_nz a b : a <> b -> sub b a <> (0, 0).
Proof.
  destruct a as [ax ay], b as [bx b_y]. unfold sub. cbn [fst snd]. intros H E. inversion E. apply H. f_equal; lia.
Qed.

Lemma Qfrac_nonneg (x d y : Z) : 0 <= x -> 0 < d -> 0 <= y -> (0 <= inject_Z x / inject_Z d * inject_Z y)%Q.
Proof.
  rewrite !Zle_Qle, Zlt_Qlt. intros Hx Hd Hy.
  apply Qmult_le_0_compat; [|exact Hy]. apply Qmult_le_0_compat; [exact Hx|].
  apply Qinv_le_0_compat, Qlt_le_weak, Hd.
Qed.

(* The four edge tests of a candidate rectangle on a point v, as identities over Q: in the frame
   of the edge, with t = (v-a).d and h = (v-a).rot90 d, they have the signs of h, tmax - t,
   hmax - h and t - tmin *)
Lemma cand_rect_edge_tests c v :
  0 < dot (c_d c) (c_d c) ->
  let r := cand_rect c in
  let p0 := r_origin r in
  let p1 := qadd p0 (r_span1 r) in
  let p2 := qadd p1 (r_span2 r) in
  let p3 := qadd p0 (r_span2 r) in
  let q x := (inject_Z x / inject_Z (dot (c_d c) (c_d c)))%Q in
  let t := dot (sub v (c_a c)) (c_d c) in
  let h := dot (sub v (c_a c)) (rot90 (c_d c)) in
  (qcross p0 p1 (q_of_pt v) == q (c_tmax c - c_tmin c)%Z * inject_Z h /\
   qcross p1 p2 (q_of_pt v) == q (c_hmax c) * inject_Z (c_tmax c - t)%Z /\
   qcross p2 p3 (q_of_pt v) == q (c_tmax c - c_tmin c)%Z * inject_Z (c_hmax c - h)%Z /\
   qcross p3 p0 (q_of_pt v) == q (c_hmax c) * inject_Z (t - c_tmin c)%Z)%Q.
Proof.
  destruct c as [[ax ay] [dx dy] t0 t1 h1], v as [vx vy]. cbn [c_a c_d c_tmin c_tmax c_hmax]. intros Hdd. cbv zeta.
  unfold cand_rect, proj_on. cbn [c_a c_d c_tmin c_tmax c_hmax r_origin r_span1 r_span2]. rewrite dot_rot90_rot90.
  unfold qcross, qcross2, qsub, qadd, q_of_pt, rot90, sub, dot, Z.sub in *. cbn [fst snd] in *.
  repeat rewrite ?inject_Z_plus, ?inject_Z_mult, ?inject_Z_opp.
  assert (HDD : ~ (inject_Z dx * inject_Z dx + inject_Z dy * inject_Z dy == 0)%Q).
  { apply Qnot_eq_sym, Qlt_not_eq. rewrite <- !inject_Z_mult, <- inject_Z_plus, <- (Zlt_Qlt 0). exact Hdd. }
  repeat split; field; exact HDD.
Qed.

(* each candidate rectangle of a ring whose vertices are all on or left of the edge contains
   every vertex of the ring *)
Lemma cand_rect_covers_edge ring a b v :
  a <> b -> (forall u, In u ring -> 0 <= cross a b u) -> In v ring ->
  rect_contains (rect_corners (cand_rect (candidate ring (a, b)))) (q_of_pt v) = true.
Proof.
  intros Hab Hconv Hv. pose proof (sq_pos _ (sub_nz a b Hab)) as Hdd.
  set (c := candidate ring (a, b)).
  set (t := dot (sub v a) (sub b a)). set (h := dot (sub v a) (rot90 (sub b a))).
  assert (Ht0 : c_tmin c <= t) by exact (fold_min_le (fun u => dot (sub u a) (sub b a)) ring v Hv).
  assert (Ht1 : t <= c_tmax c) by exact (fold_max_ge (fun u => dot (sub u a) (sub b a)) ring v Hv).
  assert (Hh1 : h <= c_hmax c) by exact (fold_max_ge (fun u => dot (sub u a) (rot90 (sub b a))) ring v Hv).
  assert (Hh0 : 0 <= h) by (unfold h; rewrite dot_rot90_cross; apply Hconv, Hv).
  destruct (cand_rect_edge_tests c v Hdd) as (E1 & E2 & E3 & E4).
  change (c_a c) with a in *. change (c_d c) with (sub b a) in *. fold t h in E1, E2, E3, E4.
  unfold rect_contains, rect_corners. cbn [qedges forallb fst snd].
  rewrite !andb_true_iff, !Qle_bool_iff, E1, E2, E3, E4.
  repeat split; try reflexivity; apply Qfrac_nonneg; lia.
Qed.

(* every edge of a ring with strict turns joins two different points *)
Lemma strict_turns_edge_distinct l x a b :
  strict_turns (l ++ [x]) = true -> In (a, b) (ring_edges l) -> a <> b.
Proof.
  induction l as [|a0 l IH]; [simpl; tauto|]. destruct l as [|b0 t]; [simpl; tauto|].
  rewrite ring_edges_cons2. cbn [app] in *.
  destruct (t ++ [x]) as [|c0 t'] eqn:Et; [destruct t; discriminate|].
  rewrite strict_turns_cons3, andb_true_iff, Z.ltb_lt. intros [H0 Hs] [E|Hin].
  - inversion E; subst. intros ->. rewrite cross_aab in H0. lia.
  - exact (IH Hs Hin).
Qed.

(* each candidate rectangle of the hull ring contains every hull vertex *)
Theorem cand_rect_covers_lemma : forall ps ring c v,
  hull_pts ps = HPoly ring -> In c (candidates ring) -> In v ring ->
  rect_contains (rect_corners (cand_rect c)) (q_of_pt v) = true.
Proof.
  intros ps ring c v E Hc Hv.
  apply in_map_iff in Hc. destruct Hc as [[a b] [<- He]].
  pose proof (hull_cases_lemma ps) as Hcases. rewrite E in Hcases. destruct Hcases as [Hsc Hincl].
  destruct (strictly_convex_ring_parts ring Hsc) as (v0 & v1 & rest & _ & _ & _ & _ & Hst).
  apply cand_rect_covers_edge; [exact (strict_turns_edge_distinct _ _ _ _ Hst He)| |exact Hv].
  intros u Hu. exact (hull_covers_lemma ps ring u a b E (Hincl u Hu) He).
Qed.

(* the choice: first strictly smaller metric wins, so the result is a minimum *)
Lemma first_min_spec k l : forall best,
  In (first_min k best l) (best :: l) /\
  forall c', In c' (best :: l) -> (cand_metric k (first_min k best l) <= cand_metric k c')%Q.
Proof.
  induction l as [|x l IH]; intros best.
  - split; [left; reflexivity|]. intros c' [<-|[]]. apply Qle_refl.
  - cbn [first_min]. destruct (Qlt_le_dec (cand_metric k x) (cand_metric k best)) as [H|H].
    + destruct (IH x) as [H1 H2]. split; [right; exact H1|].
      intros c' [<-|Hc']; [|exact (H2 c' Hc')].
      apply Qle_trans with (cand_metric k x); [apply H2; left; reflexivity|apply Qlt_le_weak, H].
    + destruct (IH best) as [H1 H2]. split; [destruct H1; [left|right; right]; assumption|].
      intros c' [<-|[<-|Hc']]; [apply H2; left; reflexivity| |apply H2; right; exact Hc'].
      apply Qle_trans with (cand_metric k best); [apply H2; left; reflexivity|exact H].
Qed.

Theorem mbr_is_min_candidate_lemma : forall k ring c,
  find_mbr k ring = Some c ->
  In c (candidates ring) /\ forall c', In c' (candidates ring) -> (cand_metric k c <= cand_metric k c')%Q.
Proof.
  intros k ring c. unfold find_mbr. destruct (candidates ring) as [|c0 r]; [discriminate|].
  intros E. inversion E. apply first_min_spec.
Qed.

(* a ring with at least one edge has a result *)
Lemma find_mbr_some k ring : ring_edges ring <> [] -> exists c, find_mbr k ring = Some c.
Proof.
  unfold find_mbr, candidates. destruct (ring_edges ring); [congruence|]. intros _. simpl. eexists; reflexivity.
Qed.

(* one side of every candidate (hence of the chosen one) lies on its ring edge *)
Theorem mbr_side_collinear_lemma : forall ring a b,
  a <> b ->
  let cs := rect_corners (cand_rect (candidate ring (a, b))) in
  match cs with
  | c0 :: c1 :: _ => (qcross c0 c1 (q_of_pt a) == 0)%Q /\ (qcross c0 c1 (q_of_pt b) == 0)%Q
  | _ => False
  end.
Proof.
  intros ring a b Hab. pose proof (sq_pos _ (sub_nz a b Hab)) as Hdd.
  destruct (cand_rect_edge_tests (candidate ring (a, b)) a Hdd) as [Ea _].
  destruct (cand_rect_edge_tests (candidate ring (a, b)) b Hdd) as [Eb _].
  change (c_a (candidate ring (a, b))) with a in *. change (c_d (candidate ring (a, b))) with (sub b a) in *.
  rewrite dot_self_sub in Ea. rewrite dot_rot90_cross, cross_abb in Eb.
  split; [rewrite Ea|rewrite Eb]; apply Qmult_0_r.
Qed.

Lemma ring_edges_fst_In a b l : In (a, b) (ring_edges l) -> In a l.
Proof.
  induction l as [|x l IH]; [simpl; tauto|]. destruct l as [|y t]; [simpl; tauto|].
  rewrite ring_edges_cons2. intros [E|H]; [inversion E; left; reflexivity|right; apply IH; exact H].
Qed.

(* tightness: each of the three extremes of a candidate is attained by a ring vertex, i.e. every
   side of the candidate rectangle touches the ring: no smaller rectangle with these directions
   contains the vertices *)
Theorem cand_rect_tight_lemma : forall ring a b, In (a, b) (ring_edges ring) ->
  let c := candidate ring (a, b) in
  exists v1 v2 v3, In v1 ring /\ In v2 ring /\ In v3 ring /\
    dot (sub v1 a) (c_d c) = c_tmin c /\ dot (sub v2 a) (c_d c) = c_tmax c /\
    dot (sub v3 a) (rot90 (c_d c)) = c_hmax c.
Proof.
  intros ring a b He c. pose proof (ring_edges_fst_In _ _ _ He) as Ia.
  destruct (fold_min_attained (fun v => dot (sub v a) (sub b a)) ring a Ia (dot_self_sub a _)) as [v1 [H1 E1]].
  destruct (fold_max_attained (fun v => dot (sub v a) (sub b a)) ring a Ia (dot_self_sub a _)) as [v2 [H2 E2]].
  destruct (fold_max_attained (fun v => dot (sub v a) (rot90 (sub b a))) ring a Ia (dot_self_sub a _)) as [v3 [H3 E3]].
  exists v1, v2, v3. repeat split; assumption.
Qed.
