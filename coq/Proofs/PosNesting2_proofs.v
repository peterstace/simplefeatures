(* Property C15 - the clause "the exterior ring enters no hole" DERIVED from ogc_valid's clause
   hole_inside when the hole's boundary does not meet the exterior ring: both rings are closed
   curves that avoid each other, so each looks uniform from the other (C09: ring_uniform), the
   hole is inside the exterior ring (hole_inside), and two rings cannot each lie inside the other
   (C09: no_mutual_inside).  For holes that touch the exterior ring the clause stays an
   executable hypothesis (shell_outside, decided for all points at the witnesses). *)
From Coq Require Import QArith Qreduction List Bool ZArith Lia Arith Lqa.
From SF Require Import Base.GeomAST Base.QKernel Base.Planar Proofs.Planar_proofs Proofs.Planar_slab_base
  Model.ValidateSpec Proofs.Validate_ogc Proofs.Intersects_areal Proofs.Intersects_polypoly
  Model.Boundary Proofs.Boundary_proofs Model.PointOnSurface Proofs.PointOnSurface_proofs
  Model.PosNesting Proofs.PosNesting_proofs Model.PosNesting2.
Import ListNotations.
Open Scope Q_scope.

Lemma rings_apart_no_meet a b : rings_apart a b = true -> no_meet (segs a) (segs b).
Proof.
  unfold rings_apart. rewrite forallb_forall. intros H e f w He Hf [H1 H2].
  specialize (H e He). rewrite forallb_forall in H. specialize (H f Hf).
  pose proof (seg_seg_complete e f w H1 H2) as K. destruct (seg_seg e f); [apply K; reflexivity|discriminate|discriminate].
Qed.

Lemma pts_two_ring_wf (r : lineT Q) : pts_two (line_pts r) = true -> ring_wf r = true.
Proof. unfold pts_two, ring_wf. auto. Qed.

(* a hole inside the closed exterior ring whose boundary does not meet it: the exterior ring has
   no point inside the hole (two rings cannot each lie inside the other) *)
Lemma apart_shell_outside (sh h : lineT Q) :
  pts_closed (line_pts sh) = true -> pts_closed (line_pts h) = true ->
  ring_wf sh = true -> ring_wf h = true ->
  hole_inside (line_pts sh) (line_pts h) = true ->
  rings_apart (line_pts sh) (line_pts h) = true ->
  shell_outside (line_pts sh) (line_pts h) = true.
Proof.
  intros Cs Ch Ws Wh Hin Hap. apply (shell_outside_spec _ _ Ch). rewrite !segs_line_pts.
  intros p Hon _. pose proof (rings_apart_no_meet _ _ Hap) as NM. rewrite !segs_line_pts in NM.
  pose proof (ring_uniform sh h Ws Ch NM) as U1.
  pose proof (ring_uniform h sh Wh Cs (no_meet_sym _ _ NM)) as U2.
  destruct (edges_parity (line_segs h) p) eqn:Ep; [|reflexivity]. exfalso.
  pose proof (uniform_inside _ _ p U1 Hon Ep) as I1.
  destruct (ring_wf_shape h Wh) as [a [rest [_ [_ [_ Oa]]]]].
  destruct (U2 a a Oa Oa) as [Offa _].
  assert (Pa : edges_parity (line_segs sh) a = true).
  { rewrite <- !segs_line_pts in *. apply (hole_inside_parity (line_pts sh) (line_pts h) a Cs Hin Oa Offa). }
  pose proof (uniform_inside _ _ a U2 Oa Pa) as I2.
  exact (no_mutual_inside _ _ (ring_nonempty sh Ws) I1 I2).
Qed.

Theorem nest_okb2_sound (y : polyT Q) : nest_okb2 y = true -> nest_okb y = true.
Proof.
  unfold nest_okb2, nest_okb, rings_of. destruct (poly_rings y) as [|sh rest]; [reflexivity|]. cbn [map].
  intros H. rewrite !andb_true_iff in H. destruct H as [[[[Hcl Htw] Hhi] Hnn] Hso].
  rewrite Hcl, Hhi, Hnn. cbn [andb]. rewrite forallb_forall in *. intros hp Hh.
  specialize (Hso hp Hh). apply orb_true_iff in Hso. destruct Hso as [Hap|Hso]; [|exact Hso].
  apply in_map_iff in Hh. destruct Hh as [h [<- Hh]].
  assert (Hsh : In (line_pts sh) (line_pts sh :: map line_pts rest)) by (left; reflexivity).
  assert (Hhr : In (line_pts h) (line_pts sh :: map line_pts rest)) by (right; apply in_map, Hh).
  apply apart_shell_outside; [apply Hcl, Hsh|apply Hcl, Hhr|apply pts_two_ring_wf, Htw, Hsh|
                              apply pts_two_ring_wf, Htw, Hhr|apply Hhi, in_map, Hh|exact Hap].
Qed.

Lemma distinct_2_pts_two ps : distinct_2 ps = true -> pts_two ps = true.
Proof.
  unfold distinct_2, pts_two. intros H. apply existsb_exists in H. destruct H as [p [Hp H]].
  apply existsb_exists in H. destruct H as [q [Hq Hpq]]. apply negb_true_iff in Hpq.
  destruct ps as [|a rest]; [destruct Hp|].
  (* one of p, q differs from a, and that one is in rest *)
  destruct (pt_eqb a p) eqn:Eap.
  - (* a == p, so a <> q; q is in rest *)
    assert (Eaq : pt_eqb a q = false) by (rewrite (pt_eqb_trans_l a p q Eap); exact Hpq).
    apply existsb_exists. exists q. split; [|rewrite Eaq; reflexivity].
    destruct Hq as [<-|Hq]; [rewrite pt_eqb_refl in Eaq; discriminate|exact Hq].
  - apply existsb_exists. exists p. split; [|rewrite Eap; reflexivity].
    destruct Hp as [<-|Hp]; [rewrite pt_eqb_refl in Eap; discriminate|exact Hp].
Qed.

Theorem ogc_nest_okb_sound (y : polyT Q) : ogc_nest_okb y = true -> nest_okb2 y = true.
Proof.
  unfold ogc_nest_okb, nest_okb2. destruct (rings_of y) as [|sh holes]; [reflexivity|].
  intros H. apply andb_prop in H. destruct H as [Hd Hso]. destruct (poly_def_nest _ _ Hd) as [Hrd [Hhi Hnn]].
  rewrite Hhi, Hnn, Hso, !andb_true_r. apply andb_true_iff.
  split; apply forallb_forall; intros r Hr; specialize (Hrd r Hr).
  - apply ring_def_closed, Hrd.
  - apply distinct_2_pts_two. unfold ring_def in Hrd. rewrite !andb_true_iff in Hrd. apply Hrd.
Qed.

(* the interior theorem from ogc_valid's polygon clause: for polygons whose holes do not touch the
   exterior ring no further nesting hypothesis is left *)
Theorem pos_areal_interior_ogc_lemma (y : polyT Q) (p : pt) :
  row_hyps y = true -> ogc_nest_okb y = true ->
  point_xy (fst (point_on_area y)) = Some p ->
  locate (GPoly y) p = Interior.
Proof.
  intros Hr Hn. apply pos_areal_interior_exec_lemma; [exact Hr|]. apply nest_okb2_sound, ogc_nest_okb_sound, Hn.
Qed.
