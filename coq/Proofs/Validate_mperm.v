(* Property C03 - MultiPolygon: the verdict (nil / error) of MultiPolygon.Validate does not depend on
   the ORDER in which the members are listed.
     geom/type_multi_polygon.go:Validate validates every member, then
     checkMultiPolygonConstraints runs one callback per unordered pair of non-empty members; the
     callback (mpoly_pair) is symmetric in its two members as far as nil / non-nil goes:
       - intersectionOfIndexedLines reports "some point part" / "some line part" for (i, j) exactly
         when it does for (j, i) (intersect_line computes the point-set intersection: kernel theorem
         intersect_line_spec),
       - the fast case probes one start vertex in each direction,
       - the slow case runs validatePolyNotInsidePoly in BOTH directions.
   A callback that looks at one direction only, chosen by list position (or by a comparison that can
   tie, as "the member with the smaller envelope area"), does not satisfy mpoly_pair_sym. *)
From Coq Require Import QArith List Bool ZArith Lia Permutation Setoid Morphisms.
From SF Require Import Base.QKernel Model.Validate Proofs.Validate_kernel Proofs.Validate_proofs.
Import ListNotations.
Open Scope Q_scope.

Lemma existsb2_swap {A B} (f : A -> B -> bool) (g : B -> A -> bool) l1 l2 :
  (forall a b, In a l1 -> In b l2 -> f a b = g b a) ->
  existsb (fun a => existsb (f a) l2) l1 = existsb (fun b => existsb (g b) l1) l2.
Proof.
  intros H. apply eq_iff_eq_true. rewrite !existsb_exists.
  split; intros [x [Hx K]]; apply existsb_exists in K; destruct K as [y [Hy K]]; exists y; (split; [exact Hy|]);
    apply existsb_exists; exists x; (split; [exact Hx|]).
  - rewrite <- (H x y Hx Hy). exact K.
  - rewrite (H y x Hy Hx). exact K.
Qed.

Lemma boundary_inter_sym b1 b2 :
  (forall s, In s b1 -> ~ pt_eq (fst s) (snd s)) -> (forall s, In s b2 -> ~ pt_eq (fst s) (snd s)) ->
  boundary_inter b1 b2 = boundary_inter b2 b1.
Proof.
  intros N1 N2. rewrite !boundary_inter_exists. f_equal.
  - apply (existsb2_swap (fun la lb => il_pt (intersect_line la lb)) (fun lb la => il_pt (intersect_line lb la))).
    intros a b Ha Hb. exact (proj1 (il_kind_sym a b (N1 a Ha) (N2 b Hb))).
  - apply (existsb2_swap (fun la lb => il_ls (intersect_line la lb)) (fun lb la => il_ls (intersect_line lb la))).
    intros a b Ha Hb. exact (proj2 (il_kind_sym a b (N1 a Ha) (N2 b Hb))).
Qed.

(* ------------------------------------------------------------------ the pair callback is symmetric (nil / non-nil) *)
Theorem mpoly_pair_sym (pi pj : list (list pt)) : mpoly_pair pi pj = None <-> mpoly_pair pj pi = None.
Proof.
  unfold mpoly_pair. cbv zeta.
  rewrite (boundary_inter_sym (poly_lines pj) (poly_lines pi) (poly_lines_nondegenerate pj) (poly_lines_nondegenerate pi)).
  destruct (boundary_inter (poly_lines pi) (poly_lines pj)) as [hp hl].
  destruct hl; [split; discriminate|]. destruct hp; cbn [negb].
  - destruct (poly_not_inside_poly (poly_lines pi) (poly_lines pj)); destruct (poly_not_inside_poly (poly_lines pj) (poly_lines pi));
      split; intros H; try discriminate; reflexivity.
  - destruct pi as [|[|istart ri] pi']; destruct pj as [|[|jstart rj] pj']; try (split; intros H; (discriminate || exact H)).
    destruct (side_eqb (relate_lines istart (poly_lines ((jstart :: rj) :: pj')) false) SExterior);
      destruct (side_eqb (relate_lines jstart (poly_lines ((istart :: ri) :: pi')) false) SExterior);
      cbn [negb]; split; intros H; try discriminate; reflexivity.
Qed.

(* ------------------------------------------------------------------ checkMultiPolygonConstraints as "all pairs" *)
Definition mp_ok (a b : list (list pt)) : Prop := a = [] \/ b = [] \/ mpoly_pair a b = None.

Lemma mp_ok_sym a b : mp_ok a b -> mp_ok b a.
Proof. intros [H|[H|H]]; [right; left; exact H | left; exact H | right; right; apply mpoly_pair_sym; exact H]. Qed.

Lemma mpoly_against_none pi below : pi <> [] ->
  (mpoly_against pi below = None <-> Forall (mp_ok pi) below).
Proof.
  intros Np. induction below as [|pj r IH]; cbn [mpoly_against].
  - split; [constructor | reflexivity].
  - destruct pj as [|r0 rs].
    + rewrite IH. split; [intros H; constructor; [right; left; reflexivity | exact H] | intros H; inversion H; assumption].
    + destruct (mpoly_pair pi (r0 :: rs)) eqn:E.
      * split; [discriminate|]. intros H. inversion H as [|? ? K _]. destruct K as [K|[K|K]]; [contradiction | discriminate | congruence].
      * rewrite IH. split; [intros H; constructor; [right; right; exact E | exact H] | intros H; inversion H; assumption].
Qed.

Lemma FOP_cons {A} (R : A -> A -> Prop) a l : ForallOrdPairs R (a :: l) <-> Forall (R a) l /\ ForallOrdPairs R l.
Proof. split; [intros H; inversion H; split; assumption | intros [H1 H2]; constructor; assumption]. Qed.

Lemma mpoly_constraints_none rest : forall below,
  mpoly_constraints below rest = None <->
  (Forall (fun pi => Forall (mp_ok pi) below) rest /\ ForallOrdPairs (fun a b => mp_ok b a) rest).
Proof.
  induction rest as [|pi r IH]; intros below; cbn [mpoly_constraints].
  - split; [intros _; split; constructor | reflexivity].
  - assert (X : (match pi with [] => None | _ :: _ => mpoly_against pi below end) = None <-> Forall (mp_ok pi) below).
    { destruct pi as [|r0 rs].
      - split; [intros _; apply Forall_forall; intros x _; left; reflexivity | reflexivity].
      - apply mpoly_against_none. discriminate. }
    destruct (match pi with [] => None | _ :: _ => mpoly_against pi below end) as [e|].
    + split; [discriminate|]. intros [H _]. inversion H as [|? ? K _]. apply X in K. discriminate.
    + rewrite IH, FOP_cons, !Forall_forall. setoid_rewrite Forall_forall. setoid_rewrite in_app_iff.
      pose proof (proj1 X eq_refl) as X1. rewrite Forall_forall in X1.
      split.
      * intros [H1 H2]. split; [|split; [|exact H2]].
        -- intros x [<-|Hx] y Hy; [exact (X1 y Hy) | exact (H1 x Hx y (or_introl Hy))].
        -- intros x Hx. apply (H1 x Hx pi). right. left. reflexivity.
      * intros [H1 [H2 H3]]. split; [|exact H3].
        intros x Hx y [Hy|[<-|[]]]; [exact (H1 x (or_intror Hx) y Hy) | exact (H2 x Hx)].
Qed.

(* ------------------------------------------------------------------ "all ordered pairs" of a symmetric relation and permutations *)
Lemma FOP_perm {A} (R : A -> A -> Prop) : (forall a b, R a b -> R b a) ->
  forall l l', Permutation l l' -> ForallOrdPairs R l -> ForallOrdPairs R l'.
Proof.
  intros Sym l l' P. induction P as [|x l l' P IH|x y l|l l' l'' P1 IH1 P2 IH2]; intros H.
  - exact H.
  - apply FOP_cons in H. destruct H as [H1 H2]. apply FOP_cons. split; [|exact (IH H2)].
    rewrite Forall_forall in *. intros z Hz. apply H1. apply (Permutation_in z (Permutation_sym P)). exact Hz.
  - apply FOP_cons in H. destruct H as [H1 H2]. apply FOP_cons in H2. destruct H2 as [H2 H3].
    inversion H1 as [|? ? Ryx H1']. subst.
    apply FOP_cons. split; [constructor; [exact (Sym _ _ Ryx) | exact H2]|]. apply FOP_cons. split; assumption.
  - exact (IH2 (IH1 H)).
Qed.

(* ------------------------------------------------------------------ the per-member validation and permutations *)
Section Perm.
  Variable nested : list pt -> list pt -> option bool.

  Definition pc_rel (x y : rule + list (list (list pt))) : Prop :=
    match x, y with
    | inr l, inr l' => Permutation l l'
    | inl _, inl _ => True
    | _, _ => False
    end.

  Lemma pc_rel_trans x y z : pc_rel x y -> pc_rel y z -> pc_rel x z.
  Proof. destruct x, y, z; cbn; try tauto. apply Permutation_trans. Qed.

  Lemma polys_check_perm ps ps' : Permutation ps ps' -> pc_rel (polys_check nested ps) (polys_check nested ps').
  Proof.
    intros P. induction P as [|x l l' P IH|x y l|l l' l'' P1 IH1 P2 IH2].
    - cbn. constructor.
    - rewrite !polys_check_cons. destruct (pc_member nested x); [exact I|].
      destruct (polys_check nested l); destruct (polys_check nested l'); cbn in *; try tauto. apply perm_skip. exact IH.
    - rewrite !polys_check_cons. destruct (pc_member nested x); destruct (pc_member nested y); try exact I;
        destruct (polys_check nested l); cbn; try exact I. apply perm_swap.
    - exact (pc_rel_trans _ _ _ IH1 IH2).
  Qed.

  (* geom/type_multi_polygon.go:Validate - nil for one order of the members iff nil for every order *)
  Theorem mpoly_validate_perm ps ps' : Permutation ps ps' ->
    (mpoly_validate_with nested ps = None <-> mpoly_validate_with nested ps' = None).
  Proof.
    intros P. unfold mpoly_validate_with. pose proof (polys_check_perm ps ps' P) as R.
    destruct (polys_check nested ps) as [e|l]; destruct (polys_check nested ps') as [e'|l']; cbn in R; try contradiction.
    - split; discriminate.
    - rewrite !mpoly_constraints_none.
      assert (Nil : forall m : list (list (list pt)), Forall (fun pi => Forall (mp_ok pi) []) m)
        by (intros m; apply Forall_forall; intros; constructor).
      split; intros [_ F]; (split; [apply Nil|]).
      + exact (FOP_perm _ (fun a b H => mp_ok_sym b a H) l l' R F).
      + exact (FOP_perm _ (fun a b H => mp_ok_sym b a H) l' l (Permutation_sym R) F).
  Qed.
End Perm.

Lemma none_iff_eq (a b : verdict) : (a = None <-> b = None) ->
  match a with None => true | Some _ => false end = match b with None => true | Some _ => false end.
Proof. destruct a, b; intros [H1 H2]; try reflexivity; [discriminate (H2 eq_refl) | discriminate (H1 eq_refl)]. Qed.

Theorem multipolygon_validate_perm_invariant_lemma (ps ps' : list (list (list oxy))) : Permutation ps ps' ->
  is_valid (VMPoly ps) = is_valid (VMPoly ps') /\ is_valid_v0 (VMPoly ps) = is_valid_v0 (VMPoly ps').
Proof.
  intros P. split; apply none_iff_eq; [exact (mpoly_validate_perm nested_v1 ps ps' P) | exact (mpoly_validate_perm nested_v0 ps ps' P)].
Qed.
