(* Translator tie for function bodies (DESIGN.md A.8b), property C12: coq/Model/Envelope.v against
   the bodies of geom/type_envelope.go (IsEmpty, IsPoint, IsLine, IsRectangle, Validate, MinMaxXYs,
   ExpandToIncludeXY, ExpandToIncludeEnvelope, Contains, Intersects, Covers, Width, Height, Area,
   Distance, AsBox), geom/util.go (fastMin, fastMax) and geom/xy.go (validate), as re-read from the
   Go source into Gen/Funcs.v on every run.

   The model is parametric in the carrier F and its comparison primitives ([Envelope.ops]); so is
   the first part of this tie: for EVERY such instance O (the integer lattice ZO and the float64
   key instance KO alike) and every choice A of the arithmetic operations (the methods below use
   none), the translated body computed with the primitives of O equals the model function.  The
   second part ties the arithmetic-valued methods of the Z instance (Width, Height, Area, Distance).

   Representation: Go's struct {min, max XY; nonEmpty bool} against the model's [option box]; the
   empty envelope is the zero struct (every constructor of the package leaves min = max = XY{} when
   nonEmpty is false).  An edited body in the Go source makes this file fail to compile. *)
From Coq Require Import ZArith QArith Bool Lia.
From SF Require Import Base.FOps Gen.Funcs Proofs.Funcs_tie_lib Base.GeomAST Model.Envelope.

Section Generic.
  Variable F : Type.
  Variable O : Envelope.ops F.
  Variable A : fops F.

  (* the carrier operations of the translated bodies: comparisons and NaN/Inf tests of O, zero of
     O, everything else from A *)
  Definition eops : fops F :=
    MkFOps (f_add A) (f_sub A) (f_mul A) (f_div A) (f_neg A)
           (fun z => if Z.eqb z 0 then o_zero O else f_of_Z A z)
           (o_lt O) (o_le O) (fun a b => o_lt O b a) (fun a b => o_le O b a) (o_eq O)
           (f_min A) (f_max A) (f_abs A) (f_sqrt A) (f_hypot A) (o_nan O) (o_inf O).

  Definition gxy (p : xy F) : geom_XY F := Mk_geom_XY (fst p) (snd p).
  Definition mxy (p : geom_XY F) : xy F := (geom_XY_X p, geom_XY_Y p).
  Definition zxy : geom_XY F := Mk_geom_XY (o_zero O) (o_zero O).
  Definition genv (e : env F) : geom_Envelope F :=
    match e with
    | None => Mk_geom_Envelope zxy zxy false
    | Some b => Mk_geom_Envelope (Mk_geom_XY (minx b) (miny b)) (Mk_geom_XY (maxx b) (maxy b)) true
    end.

  (* geom/util.go:fastMin, fastMax (with their math.IsNaN branch) *)
  Lemma tie_fast_min : forall a b, geom_fastMin eops a b = fast_min O a b.
  Proof. reflexivity. Qed.
  Lemma tie_fast_max : forall a b, geom_fastMax eops a b = fast_max O a b.
  Proof. reflexivity. Qed.

  (* geom/xy.go:validate() == nil  (two early returns in Go, one conjunction in the model) *)
  Lemma tie_xy_valid : forall p, geom_XY_validate eops (gxy p) = xy_valid O p.
  Proof.
    intros [x y]. unfold geom_XY_validate, xy_valid, geom_ruleViolation_errAtXY. cbn.
    destruct (o_nan O x), (o_nan O y), (o_inf O x), (o_inf O y); reflexivity.
  Qed.

  (* geom/type_envelope.go *)
  Lemma tie_is_empty : forall e, geom_Envelope_IsEmpty (genv e) = env_is_empty e.
  Proof. intros []; reflexivity. Qed.
  Lemma tie_expand_xy : forall e p, geom_Envelope_ExpandToIncludeXY eops (genv e) (gxy p) = genv (expand_xy O e p).
  Proof. intros [] []; reflexivity. Qed.
  Lemma tie_join : forall e o, geom_Envelope_ExpandToIncludeEnvelope eops (genv e) (genv o) = genv (join O e o).
  Proof. intros [] []; reflexivity. Qed.
  Lemma tie_env_valid : forall e, geom_Envelope_Validate eops (genv e) = env_valid O e.
  Proof.
    intros [b|]; [|reflexivity].
    unfold geom_Envelope_Validate, env_valid, geom_wrap. cbn [genv geom_Envelope_IsEmpty geom_Envelope_nonEmpty negb
      geom_Envelope_min geom_Envelope_max].
    change (Mk_geom_XY (minx b) (miny b)) with (gxy (minx b, miny b)).
    change (Mk_geom_XY (maxx b) (maxy b)) with (gxy (maxx b, maxy b)).
    rewrite !tie_xy_valid.
    destruct (xy_valid O (minx b, miny b)), (xy_valid O (maxx b, maxy b)); reflexivity.
  Qed.
  Lemma tie_is_point : forall e, geom_Envelope_IsPoint eops (genv e) = env_is_point O e.
  Proof. intros []; reflexivity. Qed.
  (* IsLine: Go's != on two booleans is the model's xorb *)
  Lemma tie_is_line : forall e, geom_Envelope_IsLine eops (genv e) = env_is_line O e.
  Proof. intros [b|]; [|reflexivity]. cbn.
    destruct (o_eq O (minx b) (maxx b)), (o_eq O (miny b) (maxy b)); reflexivity. Qed.
  Lemma tie_is_rectangle : forall e, geom_Envelope_IsRectangle eops (genv e) = env_is_rectangle O e.
  Proof. intros []; reflexivity. Qed.
  Lemma tie_contains : forall e p, geom_Envelope_Contains eops (genv e) (gxy p) = contains O e p.
  Proof.
    intros [b|] p; [|reflexivity].
    unfold geom_Envelope_Contains, contains. rewrite tie_xy_valid. destruct p; reflexivity.
  Qed.
  Lemma tie_intersects : forall e o, geom_Envelope_Intersects eops (genv e) (genv o) = intersects O e o.
  Proof. intros [] []; reflexivity. Qed.
  Lemma tie_covers : forall e o, geom_Envelope_Covers eops (genv e) (genv o) = covers O e o.
  Proof. intros [] []; reflexivity. Qed.
  Lemma tie_min_max_xys : forall e,
    (let '(u, v, ok) := geom_Envelope_MinMaxXYs eops (genv e) in (mxy u, mxy v, ok)) = min_max_xys O e.
  Proof. intros []; reflexivity. Qed.
  Lemma tie_as_box : forall e,
    (let '(b, ok) := geom_Envelope_AsBox (genv e) in
     ((rtree_Box_MinX b, rtree_Box_MinY b, rtree_Box_MaxX b, rtree_Box_MaxY b), ok)) = as_box O e.
  Proof. intros []; reflexivity. Qed.
End Generic.

(* ---------------------------------------------------------------- the Z instance *)
Open Scope Z_scope.
Definition zenv_g (e : zenv) : geom_Envelope Z := genv Z ZO e.

(* the generic carrier built from ZO and the arithmetic of zops is zops up to the way > and >=
   are written *)
Lemma tie_width : forall e, geom_Envelope_Width zops (zenv_g e) = width e.
Proof. intros []; reflexivity. Qed.
Lemma tie_height : forall e, geom_Envelope_Height zops (zenv_g e) = height e.
Proof. intros []; reflexivity. Qed.
Lemma tie_area : forall e, geom_Envelope_Area zops (zenv_g e) = area e.
Proof. intros []; reflexivity. Qed.

(* Distance: Go returns (math.Hypot(dx, dy), true) resp. (0, false); the model returns the sum of
   the squares of the same dx, dy resp. None.  [hyp] stands for math.Hypot. *)
Definition zops_with (hyp : Z -> Z -> Z) : fops Z :=
  MkFOps Z.add Z.sub Z.mul Z.div Z.opp (fun z => z) Z.ltb Z.leb Z.gtb Z.geb Z.eqb
         Z.min Z.max Z.abs Z.sqrt hyp (fun _ => false) (fun _ => false).
Definition gap_x (a b : zbox) : Z := fast_max ZO 0 (fast_max ZO (minx b - maxx a) (minx a - maxx b)).
Definition gap_y (a b : zbox) : Z := fast_max ZO 0 (fast_max ZO (miny b - maxy a) (miny a - maxy b)).
Lemma dist2_gaps : forall a b, dist2 (Some a) (Some b) = Some (gap_x a b * gap_x a b + gap_y a b * gap_y a b).
Proof. reflexivity. Qed.
Lemma tie_fast_max_z : forall hyp a b, geom_fastMax (zops_with hyp) a b = fast_max ZO a b.
Proof. intros. unfold geom_fastMax, fast_max. cbn. rewrite Z.gtb_ltb. reflexivity. Qed.
Lemma tie_distance : forall hyp e o,
  geom_Envelope_Distance (zops_with hyp) (zenv_g e) (zenv_g o) =
  match e, o with
  | Some a, Some b => (hyp (gap_x a b) (gap_y a b), true)
  | _, _ => (0, false)
  end.
Proof.
  intros hyp [a|] [b|]; try reflexivity.
  unfold geom_Envelope_Distance. cbn [zenv_g genv geom_Envelope_IsEmpty geom_Envelope_nonEmpty negb orb
    geom_Envelope_min geom_Envelope_max geom_XY_X geom_XY_Y].
  cbv zeta. rewrite !tie_fast_max_z. reflexivity.
Qed.
