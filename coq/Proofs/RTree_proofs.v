(* Property C11 - proofs about the R-tree model (Model/RTree.v): boxes and RangeSearch. *)
From Coq Require Import ZArith List Bool Arith Lia Permutation.
From SF Require Import Base.GeomAST Base.Outcome Model.RTree.
Import ListNotations.
Open Scope Z_scope.

Lemma fmin_spec a b : fmin a b = Z.min a b.
Proof. unfold fmin. destruct (Z.ltb_spec a b); lia. Qed.
Lemma fmax_spec a b : fmax a b = Z.max a b.
Proof. unfold fmax. rewrite Z.gtb_ltb. destruct (Z.ltb_spec b a); lia. Qed.

Lemma overlap_true_iff a b :
  overlap a b = true <->
  minx a <= maxx b /\ minx b <= maxx a /\ miny a <= maxy b /\ miny b <= maxy a.
Proof.
  unfold overlap. rewrite !andb_true_iff, !Z.leb_le, !Z.geb_le. tauto.
Qed.

Lemma inside_true_iff a b :
  inside a b = true <->
  minx b <= minx a /\ miny b <= miny a /\ maxx a <= maxx b /\ maxy a <= maxy b.
Proof. unfold inside. rewrite !andb_true_iff, !Z.leb_le. tauto. Qed.

Lemma box_eqb_eq a b : box_eqb a b = true <-> a = b.
Proof.
  unfold box_eqb. rewrite !andb_true_iff, !Z.eqb_eq. destruct a, b; simpl. split.
  - intros [[[-> ->] ->] ->]. reflexivity.
  - intros H. inversion H. auto.
Qed.

Lemma item_eqb_eq a b : item_eqb a b = true <-> a = b.
Proof.
  unfold item_eqb. rewrite andb_true_iff, box_eqb_eq, Z.eqb_eq. destruct a, b; simpl. split.
  - intros [-> ->]. reflexivity.
  - intros H. inversion H. auto.
Qed.

Lemma inside_refl a : inside a a = true.
Proof. apply inside_true_iff. lia. Qed.
Lemma inside_trans a b c : inside a b = true -> inside b c = true -> inside a c = true.
Proof. rewrite !inside_true_iff. lia. Qed.

(* two boxes overlap iff they share a point (touching counts) *)
Definition in_box (x y : Z) (b : box) : Prop := minx b <= x <= maxx b /\ miny b <= y <= maxy b.
Lemma overlap_iff_common_point_lemma a b :
  box_wf a = true -> box_wf b = true ->
  (overlap a b = true <-> exists x y, in_box x y a /\ in_box x y b).
Proof.
  unfold box_wf, in_box. rewrite !andb_true_iff, !Z.leb_le, overlap_true_iff. intros Ha Hb. split.
  - intros H. exists (Z.max (minx a) (minx b)), (Z.max (miny a) (miny b)). lia.
  - intros (x & y & H1 & H2). lia.
Qed.

Lemma overlap_sym a b : overlap a b = overlap b a.
Proof.
  apply eq_true_iff_eq. rewrite !overlap_true_iff. tauto.
Qed.

(* pruning is sound: a query overlapping a box overlaps every box that contains it *)
Lemma overlap_inside a b q : inside a b = true -> overlap a q = true -> overlap b q = true.
Proof. rewrite inside_true_iff, !overlap_true_iff. lia. Qed.

Lemma sqdist_nonneg a b : 0 <= sqdist a b.
Proof. apply Z.add_nonneg_nonneg; apply Z.square_nonneg. Qed.

(* key lemma of best-first search: distance to a box inside another one is not smaller *)
Lemma sqdist_inside_mono a b q : inside a b = true -> sqdist b q <= sqdist a q.
Proof.
  rewrite inside_true_iff. intros H. unfold sqdist. rewrite !fmax_spec.
  apply Z.add_le_mono; apply Z.mul_le_mono_nonneg; lia.
Qed.

Lemma sqdist_zero_iff_overlap_lemma a b :
  box_wf a = true -> box_wf b = true -> (sqdist a b = 0 <-> overlap a b = true).
Proof.
  unfold box_wf. rewrite !andb_true_iff, !Z.leb_le, overlap_true_iff. intros Ha Hb.
  assert (E : forall x y, x * x + y * y = 0 <-> x = 0 /\ y = 0) by (intros; nia).
  unfold sqdist. rewrite !fmax_spec, E. lia.
Qed.

Section EntryInd.
  Variable P : entry -> Prop.
  Hypothesis Hleaf : forall b id, P (ELeaf b id).
  Hypothesis Hbranch : forall b n, Forall P n -> P (EBranch b n).
  Fixpoint entry_ind' (e : entry) : P e :=
    match e with
    | ELeaf b id => Hleaf b id
    | EBranch b n =>
        Hbranch b n ((fix go (l : list entry) : Forall P l :=
                        match l with
                        | [] => Forall_nil P
                        | x :: r => Forall_cons x (entry_ind' x) (go r)
                        end) n)
    end.
End EntryInd.

Lemma remove1_perm x l l' : remove1 x l = Some l' -> Permutation l (x :: l').
Proof.
  revert l'. induction l as [|y r IH]; simpl; intros l' H; [discriminate|].
  destruct (item_eqb x y) eqn:E.
  - apply item_eqb_eq in E. inversion H. subst. reflexivity.
  - destruct (remove1 x r) as [r'|]; [|discriminate]. inversion H. subst.
    rewrite (IH r' eq_refl). apply perm_swap.
Qed.
Lemma remove1_in x l : In x l -> exists l', remove1 x l = Some l'.
Proof.
  induction l as [|y r IH]; simpl; intros H; [tauto|].
  destruct (item_eqb x y) eqn:E; [eauto|].
  destruct H as [H|H].
  - subst. assert (item_eqb x x = true) by (apply item_eqb_eq; reflexivity). congruence.
  - destruct (IH H) as [l' ->]. eauto.
Qed.
Lemma ms_diff_perm l v rest : ms_diff l v = Some rest -> Permutation (v ++ rest) l.
Proof.
  revert l. induction v as [|x v IH]; simpl; intros l H.
  - inversion H. reflexivity.
  - destruct (remove1 x l) as [l'|] eqn:E; [|discriminate].
    apply remove1_perm in E. rewrite E. constructor. auto.
Qed.
Lemma perm_ms_diff l v rest :
  Permutation (v ++ rest) l -> exists rest', ms_diff l v = Some rest' /\ Permutation rest' rest.
Proof.
  revert l. induction v as [|x v IH]; simpl; intros l H.
  - exists l. split; [reflexivity|]. symmetry. exact H.
  - assert (Hin : In x l) by (eapply Permutation_in; [exact H|left; reflexivity]).
    destruct (remove1_in _ _ Hin) as [l' E]. rewrite E.
    apply IH. apply remove1_perm in E. rewrite E in H. eapply Permutation_cons_inv. exact H.
Qed.

Definition ov (q : box) (it : item) : bool := overlap (ibox it) q.

Definition stop_clause (cb : callback) (visits rest : list item) (ret : result) : Prop :=
  match first_stop cb O visits with
  | None => rest = [] /\ ret = RNil
  | Some (k, a) => length visits = S k /\ ret = surface (Some a)
  end.
(* the callback saw a sub-multiset [visits] of the records overlapping q ([rest] = not seen) *)
Definition range_okP (items : list item) (q : box) (cb : callback)
           (visits : list item) (ret : result) : Prop :=
  exists rest, Permutation (visits ++ rest) (filter (ov q) items) /\ stop_clause cb visits rest ret.

Lemma result_eqb_eq a b : result_eqb a b = true <-> a = b.
Proof.
  destruct a, b; simpl; try rewrite Z.eqb_eq; split; intros H; try discriminate; try reflexivity.
  - subst; reflexivity.
  - inversion H; reflexivity.
Qed.
Lemma length_zero_iff {A} (l : list A) : (length l =? 0)%nat = true <-> l = [].
Proof. rewrite Nat.eqb_eq. destruct l; simpl; split; intros; try discriminate; auto. Qed.

Lemma stop_clause_bool cb visits rest ret :
  stop_clause cb visits rest ret <->
  match first_stop cb O visits with
  | None => (length rest =? 0)%nat && result_eqb ret RNil
  | Some (k, a) => (length visits =? S k)%nat && result_eqb ret (surface (Some a))
  end = true.
Proof.
  unfold stop_clause. destruct (first_stop cb 0 visits) as [[k a]|];
    rewrite andb_true_iff, result_eqb_eq, ?length_zero_iff, ?Nat.eqb_eq; tauto.
Qed.
Lemma stop_clause_perm cb visits rest rest' ret :
  Permutation rest' rest -> stop_clause cb visits rest ret -> stop_clause cb visits rest' ret.
Proof.
  unfold stop_clause. intros P. destruct (first_stop cb 0 visits) as [[k a]|]; auto.
  intros [-> H]. symmetry in P. apply Permutation_nil in P. auto.
Qed.

Lemma range_ok_iff items q cb visits ret :
  range_ok items q cb visits ret = true <-> range_okP items q cb visits ret.
Proof.
  unfold range_ok, range_okP. fold (ov q). split.
  - destruct (ms_diff (filter (ov q) items) visits) as [rest|] eqn:E; [|discriminate].
    intros H. exists rest. split; [apply ms_diff_perm; exact E|]. apply stop_clause_bool. exact H.
  - intros (rest & P & H). destruct (perm_ms_diff _ _ _ P) as (rest' & -> & P').
    apply stop_clause_bool. eapply stop_clause_perm; eauto.
Qed.

Lemma filter_perm {A} (f : A -> bool) l l' : Permutation l l' -> Permutation (filter f l) (filter f l').
Proof.
  induction 1; simpl.
  - constructor.
  - destruct (f x); auto.
  - destruct (f x), (f y); auto. apply perm_swap.
  - etransitivity; eauto.
Qed.
Lemma range_okP_perm items items' q cb visits ret :
  Permutation items items' -> range_okP items q cb visits ret -> range_okP items' q cb visits ret.
Proof.
  intros P (rest & H & S). exists rest. split; auto. rewrite H. apply filter_perm. exact P.
Qed.

(* a callback script consuming a list of records in order *)
Fixpoint run (cb : callback) (k : nat) (l : list item) : list item * option action :=
  match l with
  | [] => ([], None)
  | x :: r =>
      match err_of (cb k (iid x)) with
      | None => let (v, res) := run cb (S k) r in (x :: v, res)
      | Some a => ([x], Some a)
      end
  end.

Lemma run_app cb l1 : forall k l2,
  run cb k (l1 ++ l2) =
  match run cb k l1 with
  | (v, None) => let (v', r) := run cb (k + length v)%nat l2 in (v ++ v', r)
  | (v, Some a) => (v, Some a)
  end.
Proof.
  induction l1 as [|x r IH]; intros k l2; simpl.
  - rewrite Nat.add_0_r. destruct (run cb k l2). reflexivity.
  - destruct (err_of (cb k (iid x))); [reflexivity|].
    rewrite IH. destruct (run cb (S k) r) as [v [a|]]; [reflexivity|].
    simpl. rewrite Nat.add_succ_r.
    destruct (run cb (S (k + length v)) l2). reflexivity.
Qed.

(* what a search presenting the records [l] to the callback in this order visits and returns *)
Definition visit (cb : callback) (l : list item) : list item * result :=
  let (v, r) := run cb O l in (v, surface r).

Lemma run_spec cb l : forall k,
  exists rest, l = fst (run cb k l) ++ rest /\
  match first_stop cb k (fst (run cb k l)) with
  | None => rest = [] /\ snd (run cb k l) = None
  | Some (j, a) => (k + length (fst (run cb k l)) = S j)%nat /\ snd (run cb k l) = Some a
  end.
Proof.
  induction l as [|x r IH]; intros k; [exists []; cbn; auto|]. cbn [run].
  destruct (cb k (iid x)) eqn:E; cbn [err_of].
  2-4: exists r; cbn; rewrite E; split; [reflexivity|split; [lia|reflexivity]].
  destruct (IH (S k)) as (rest & H1 & H2). destruct (run cb (S k) r) as [v res]; cbn [fst snd first_stop app length] in *.
  rewrite E. exists rest. split; [congruence|].
  destruct (first_stop cb (S k) v) as [[j a]|]; [|exact H2]. destruct H2; split; [lia|auto].
Qed.

Lemma visit_spec cb l :
  exists rest, l = fst (visit cb l) ++ rest /\ stop_clause cb (fst (visit cb l)) rest (snd (visit cb l)).
Proof.
  unfold visit, stop_clause. destruct (run_spec cb l 0) as (rest & E & H).
  destruct (run cb 0 l) as [v r]; cbn [fst snd] in *. exists rest. split; [exact E|].
  destruct (first_stop cb 0 v) as [[j a]|].
  - destruct H as [H ->]. auto.
  - destruct H as [-> ->]. auto.
Qed.

(* the records RangeSearch reaches: depth first, subtrees whose box misses q are pruned *)
Fixpoint hits (q : box) (e : entry) : list item :=
  match e with
  | ELeaf b id => if overlap b q then [MkItem b id] else []
  | EBranch b n => if overlap b q then flat_map (hits q) n else []
  end.

Lemma rs_entry_branch q cb b n k :
  rs_entry q cb (EBranch b n) k = if overlap b q then rs_node q cb n k else ([], None).
Proof. simpl. destruct (overlap b q); reflexivity. Qed.

Lemma rs_node_run_if q cb n :
  Forall (fun e => forall k, rs_entry q cb e k = run cb k (hits q e)) n ->
  forall k, rs_node q cb n k = run cb k (flat_map (hits q) n).
Proof.
  induction 1 as [|e r He Hr IH]; intros k; [reflexivity|].
  cbn [rs_node flat_map]. rewrite run_app, He.
  destruct (run cb k (hits q e)) as [v [a|]]; [reflexivity|]. rewrite IH. reflexivity.
Qed.
Lemma rs_entry_run q cb e : forall k, rs_entry q cb e k = run cb k (hits q e).
Proof.
  induction e as [b id|b n IH] using entry_ind'; intros k.
  - simpl. destruct (overlap b q); [|reflexivity]. simpl. destruct (err_of (cb k id)); reflexivity.
  - rewrite rs_entry_branch. cbn [hits]. destruct (overlap b q); [|reflexivity].
    apply rs_node_run_if. exact IH.
Qed.
Lemma rs_node_run q cb n k : rs_node q cb n k = run cb k (flat_map (hits q) n).
Proof. apply rs_node_run_if. apply Forall_forall. intros e _. apply rs_entry_run. Qed.

(* calculateBound contains every entry's box *)
Lemma combine_inside_l a b : inside a (combine a b) = true.
Proof. apply inside_true_iff. unfold combine; simpl. rewrite !fmin_spec, !fmax_spec. lia. Qed.
Lemma combine_inside_r a b : inside b (combine a b) = true.
Proof. apply inside_true_iff. unfold combine; simpl. rewrite !fmin_spec, !fmax_spec. lia. Qed.
Lemma fold_combine_contains (r : list entry) : forall b0,
  inside b0 (fold_left (fun b e' => combine b (ebox e')) r b0) = true /\
  forall e, In e r -> inside (ebox e) (fold_left (fun b e' => combine b (ebox e')) r b0) = true.
Proof.
  induction r as [|x r IH]; intros b0; simpl.
  - split; [apply inside_refl|tauto].
  - destruct (IH (combine b0 (ebox x))) as [H1 H2]. split.
    + eapply inside_trans; [apply combine_inside_l|exact H1].
    + intros e [<-|H]; [|auto]. eapply inside_trans; [apply combine_inside_r|exact H1].
Qed.
Lemma calc_bound_contains n e : In e n -> inside (ebox e) (calc_bound n) = true.
Proof.
  destruct n as [|x r]; simpl; [tauto|]. destruct (fold_combine_contains r (ebox x)) as [H1 H2].
  intros [<-|H]; auto.
Qed.

Lemma entry_inv_branch b n :
  entry_inv (EBranch b n) = true <->
  b = calc_bound n /\ node_shape n = true /\ Forall (fun e => entry_inv e = true) n.
Proof.
  cbn [entry_inv]. rewrite !andb_true_iff, box_eqb_eq, forallb_forall, Forall_forall. tauto.
Qed.
Lemma node_inv_forall n : node_inv n = true -> Forall (fun e => entry_inv e = true) n.
Proof.
  unfold node_inv. rewrite andb_true_iff, forallb_forall, Forall_forall. tauto.
Qed.

Lemma leaves_inside e :
  entry_inv e = true -> forall it, In it (leaves e) -> inside (ibox it) (ebox e) = true.
Proof.
  induction e as [b id|b n IH] using entry_ind'; intros Hinv it Hin.
  - simpl in Hin. destruct Hin as [<-|[]]. apply inside_refl.
  - apply entry_inv_branch in Hinv. destruct Hinv as (-> & _ & Hall).
    simpl in Hin. apply in_flat_map in Hin. destruct Hin as (e & He & Hit).
    rewrite Forall_forall in IH, Hall.
    eapply inside_trans; [apply (IH e He (Hall e He) it Hit)|]. simpl. apply calc_bound_contains. exact He.
Qed.

Lemma filter_flat_map {A B} (f : B -> bool) (g : A -> list B) l :
  filter f (flat_map g l) = flat_map (fun x => filter f (g x)) l.
Proof.
  induction l as [|x r IH]; simpl; [reflexivity|]. rewrite filter_app, IH. reflexivity.
Qed.
Lemma filter_none {A} (f : A -> bool) l : (forall x, In x l -> f x = false) -> filter f l = [].
Proof.
  induction l as [|x r IH]; intros H; [reflexivity|]. cbn [filter].
  rewrite (H x (or_introl eq_refl)). apply IH. intros y Hy. apply H. right. exact Hy.
Qed.

(* under the invariant pruning loses nothing: the reached records are exactly the overlapping ones *)
Lemma hits_filter q e : entry_inv e = true -> hits q e = filter (ov q) (leaves e).
Proof.
  induction e as [b id|b n IH] using entry_ind'; intros Hinv.
  - simpl. unfold ov; simpl. destruct (overlap b q); reflexivity.
  - cbn [hits]. destruct (overlap b q) eqn:E.
    + apply entry_inv_branch in Hinv. destruct Hinv as (_ & _ & Hall). rewrite Forall_forall in IH, Hall.
      cbn [leaves]. rewrite filter_flat_map. apply flat_map_ext_in. auto.
    + symmetry. apply filter_none. intros it Hit. unfold ov.
      destruct (overlap (ibox it) q) eqn:E'; [|reflexivity].
      pose proof (overlap_inside _ _ _ (leaves_inside _ Hinv it Hit) E') as O. cbn [ebox] in O. congruence.
Qed.
Lemma hits_node_filter q n :
  Forall (fun e => entry_inv e = true) n ->
  flat_map (hits q) n = filter (ov q) (leaves_node n).
Proof.
  intros H. unfold leaves_node. rewrite filter_flat_map. apply flat_map_ext_in.
  rewrite Forall_forall in H. intros e He. apply hits_filter. auto.
Qed.

Lemma range_search_visit t q cb :
  tree_inv t = true -> range_search q cb t = visit cb (filter (ov q) (tree_leaves t)).
Proof.
  unfold tree_inv, range_search, tree_leaves. destruct (root t) as [n|]; [|reflexivity].
  rewrite andb_true_iff. intros [Hinv _].
  rewrite rs_node_run, hits_node_filter by (apply node_inv_forall, Hinv). reflexivity.
Qed.

Lemma range_search_okP t q cb :
  tree_inv t = true ->
  range_okP (tree_leaves t) q cb (fst (range_search q cb t)) (snd (range_search q cb t)).
Proof.
  intros H. rewrite range_search_visit by exact H.
  destruct (visit_spec cb (filter (ov q) (tree_leaves t))) as (rest & E & C).
  exists rest. split; [rewrite <- E; reflexivity|exact C].
Qed.

Lemma range_search_spec_lemma t q cb :
  tree_inv t = true ->
  range_ok (tree_leaves t) q cb (fst (range_search q cb t)) (snd (range_search q cb t)) = true.
Proof. intros H. apply range_ok_iff. apply range_search_okP. exact H. Qed.

(* visits are in fact a prefix of the overlapping records in tree order: no record twice *)
Lemma range_search_prefix t q cb :
  tree_inv t = true ->
  exists rest, filter (ov q) (tree_leaves t) = fst (range_search q cb t) ++ rest.
Proof.
  intros H. rewrite range_search_visit by exact H.
  destruct (visit_spec cb (filter (ov q) (tree_leaves t))) as (rest & E & _). exists rest. exact E.
Qed.
