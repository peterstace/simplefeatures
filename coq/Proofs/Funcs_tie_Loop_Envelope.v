(* Translator tie for functions WITH LOOPS (DESIGN.md A.8b), property C12: the envelope of a list of
   XYs, coq/Model/Envelope.v:new_envelope (a fold of expand_xy), against the body of
   geom/type_envelope.go:NewEnvelope (a range loop over the variadic argument calling
   ExpandToIncludeXY), as re-read from the Go source into Gen/FuncsLoop.v on every run.  As in
   Proofs/Funcs_tie_Envelope.v the lemma holds for EVERY instance O of the model's comparison
   primitives and every choice A of the arithmetic operations; it is for ALL lists.  Also tied:
   ExpandToIncludeEnvelope against [join], and the Envelope methods of geom/type_point.go and
   geom/type_multi_point.go against [point_env] and [env_of (GMPoint ..)].  An edited loop in the Go
   source makes this file fail to compile. *)
From Coq Require Import String ZArith List Bool Lia.
From SF Require Import Base.FOps Base.FLoop Gen.FuncsLoop Proofs.Funcs_tie_lib Proofs.Funcs_tie_Loop_lib
  Base.GeomAST Model.Envelope.
Import ListNotations.

Section Generic.
  Variable F : Type.
  Variable O : Envelope.ops F.
  Variable A : fops F.

  Definition eops : fops F :=
    MkFOps (f_add A) (f_sub A) (f_mul A) (f_div A) (f_neg A)
           (fun z => if Z.eqb z 0 then o_zero O else f_of_Z A z)
           (o_lt O) (o_le O) (fun a b => o_lt O b a) (fun a b => o_le O b a) (o_eq O)
           (f_min A) (f_max A) (f_abs A) (f_sqrt A) (f_hypot A) (o_nan O) (o_inf O).

  Definition gxy (p : xy F) : geom_XY F := Mk_geom_XY (fst p) (snd p).
  Definition zxy : geom_XY F := Mk_geom_XY (o_zero O) (o_zero O).
  Definition genv (e : env F) : geom_Envelope F :=
    match e with
    | None => Mk_geom_Envelope zxy zxy false
    | Some b => Mk_geom_Envelope (Mk_geom_XY (minx b) (miny b)) (Mk_geom_XY (maxx b) (maxy b)) true
    end.

  (* geom/type_envelope.go:ExpandToIncludeXY as translated into Gen/FuncsLoop.v *)
  Lemma tie_expand_xy : forall e p, geom_Envelope_ExpandToIncludeXY eops (genv e) (gxy p) = genv (expand_xy O e p).
  Proof. intros [] []; reflexivity. Qed.

  (* geom/type_envelope.go:NewEnvelope *)
  Lemma tie_NewEnvelope : forall ps, geom_NewEnvelope eops (map gxy ps) = Known (genv (new_envelope O ps)).
  Proof.
    intros ps. unfold geom_NewEnvelope. cbv zeta.
    rewrite (range_loop_fold_tie gxy genv _ (expand_xy O)) with (s := None); [reflexivity|].
    intros i p e. rewrite tie_expand_xy. reflexivity.
  Qed.

  (* ---- geom/type_point.go:Envelope and geom/type_multi_point.go:Envelope (a range loop joining the members'
     envelopes, empty points contributing the empty envelope), against Model/Envelope.v:point_env and
     env_of (GMPoint ..) = fold_env point_env; for MultiPoints with ANY number of members *)
  Lemma tie_join_loop : forall e o, geom_Envelope_ExpandToIncludeEnvelope eops (genv e) (genv o) = genv (join O e o).
  Proof. intros [] []; reflexivity. Qed.

  Definition gpoint (p : pointT F) : geom_Point F :=
    match point_c p with
    | None => Mk_geom_Point (Mk_geom_Coordinates zxy (o_zero O) (o_zero O) 0%Z) false
    | Some v => Mk_geom_Point (Mk_geom_Coordinates (Mk_geom_XY (vx v) (vy v)) (vz v) (vm v) 0%Z) true
    end.
  Lemma tie_Point_Envelope : forall p, geom_Point_Envelope eops (gpoint p) = genv (point_env O p).
  Proof.
    intros p. unfold geom_Point_Envelope, geom_Point_XY, gpoint, point_env. destruct (point_c p) as [v|]; cbn.
    - exact (tie_expand_xy None (vx v, vy v)).
    - reflexivity.
  Qed.

  Lemma tie_MultiPoint_Envelope : forall ct ps z,
    geom_MultiPoint_Envelope eops (Mk_geom_MultiPoint (map gpoint ps) z) = Known (genv (env_of O (GMPoint ct ps))).
  Proof.
    intros ct ps z. unfold geom_MultiPoint_Envelope. cbn [geom_MultiPoint_points env_of]. cbv zeta.
    rewrite (range_loop_fold_tie gpoint genv _ (fun e a => join O e (point_env O a))) with (s := None); [reflexivity|].
    intros i p e. rewrite tie_Point_Envelope, tie_join_loop. reflexivity.
  Qed.
End Generic.
