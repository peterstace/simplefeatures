(* Lemmas about the abstract labelled cell complex of the overlay (Model/OverlayComplex.v):
   what the selection rules of geom/dcel_extract_geometry.go extract, on EVERY complex that satisfies
   the structural invariants [dcel_ok] (which the driver evaluates on the real dumped structure). *)
From Coq Require Import List Bool Arith Lia.
From SF Require Import Base.GeomAST Model.SetOpSpec Model.OverlayComplex.
Import ListNotations.

(* ================================================================ indexing =================== *)
Lemma in_indexed_from {A} (l : list A) : forall k i x,
  In (i, x) (indexed_from k l) <-> k <= i /\ nth_error l (i - k) = Some x.
Proof.
  induction l as [|y r IH]; intros k i x; simpl.
  - split; [tauto|]. intros [_ H]. destruct (i - k); discriminate.
  - rewrite IH. split.
    + intros [H|[H1 H2]].
      * inversion H; subst. split; [lia|]. rewrite Nat.sub_diag. reflexivity.
      * split; [lia|]. replace (i - k) with (S (i - S k)) by lia. exact H2.
    + intros [H1 H2]. destruct (Nat.eq_dec i k) as [->|Hne].
      * left. rewrite Nat.sub_diag in H2. simpl in H2. inversion H2. reflexivity.
      * right. split; [lia|]. replace (i - k) with (S (i - S k)) in H2 by lia. exact H2.
Qed.
Lemma in_indexed_0 {A} (l : list A) i x : In (i, x) (indexed_from 0 l) <-> nth_error l i = Some x.
Proof. rewrite in_indexed_from, Nat.sub_0_r. intuition lia. Qed.
Lemma in_edges_ix c i e : In (i, e) (edges_ix c) <-> get_e c i = Some e.
Proof. apply in_indexed_0. Qed.
Lemma in_verts_ix c i v : In (i, v) (verts_ix c) <-> get_v c i = Some v.
Proof. apply in_indexed_0. Qed.
Lemma forallb_indexed {A} (p : nat * A -> bool) (l : list A) i x :
  forallb p (indexed_from 0 l) = true -> nth_error l i = Some x -> p (i, x) = true.
Proof. intros H Hx. rewrite forallb_forall in H. apply H, in_indexed_0, Hx. Qed.
Lemma get_e_in c i e : get_e c i = Some e -> In e (c_edges c).
Proof. apply nth_error_In. Qed.
Lemma in_get_e c e : In e (c_edges c) -> exists i, get_e c i = Some e.
Proof. apply In_nth_error. Qed.

Lemma field_is_spec c i proj v :
  field_is c i proj v = true <-> exists e, get_e c i = Some e /\ proj e = v.
Proof.
  unfold field_is. destruct (get_e c i) as [e|].
  - rewrite Nat.eqb_eq. split; [eauto|]. intros (e' & [= <-] & <-). reflexivity.
  - split; [discriminate|]. intros (e' & [=] & _).
Qed.

Lemma lab_eqb_eq l m : lab_eqb l m = true <-> l = m.
Proof.
  destruct l as [a b], m as [a' b']. unfold lab_eqb. simpl. rewrite andb_true_iff, !eqb_true_iff.
  split; [intros [-> ->]; reflexivity|intros [= -> ->]; auto].
Qed.

Lemma sel_twin_face_eq o c e t : get_e c (e_twin e) = Some t -> sel_twin_face o c e = sel_face o c (e_face t).
Proof. intros H. unfold sel_twin_face, twin_face_in, twin_face. rewrite H. reflexivity. Qed.

(* ================================================================ consequences of dcel_ok ===== *)
(* the facts about a half edge that the proofs below use, in Prop form *)
Record edge_facts (c : complex) (i : nat) (e : hedgeR) : Prop := {
  ef_twin : exists t, get_e c (e_twin e) = Some t /\ e_twin t = i /\ e_twin e <> i /\
                      e_srcEdge t = e_srcEdge e /\
                      exists n, get_e c (e_next e) = Some n /\ e_origin n = e_origin t /\
                                e_prev n = i /\ e_face n = e_face e;
  ef_prev : exists p, get_e c (e_prev e) = Some p /\ e_next p = i
}.

Lemma dcel_ok_edge c i e : dcel_ok c = true -> get_e c i = Some e -> edge_facts c i e.
Proof.
  unfold dcel_ok. rewrite !andb_true_iff. intros [[[[[_ Ht] Hn] _] _] _] He.
  apply forallb_indexed with (i := i) (x := e) in Ht, Hn; try exact He.
  cbn [fst snd] in Ht, Hn. rewrite !andb_true_iff in Ht, Hn.
  destruct Ht as [[Hne Htt] Ht]. destruct Hn as [[Hnp Hpn] Hnf].
  apply negb_true_iff, Nat.eqb_neq in Hne.
  apply field_is_spec in Htt as (t & Hgt & Htw).
  rewrite Hgt in Ht. rewrite !andb_true_iff in Ht. destruct Ht as [Hsrc Hor].
  apply lab_eqb_eq in Hsrc.
  apply field_is_spec in Hor as (n & Hgn & Hon).
  apply field_is_spec in Hnp as (n' & Hgn' & Hnp). rewrite Hgn in Hgn'. injection Hgn' as <-.
  apply field_is_spec in Hnf as (n' & Hgn' & Hnf). rewrite Hgn in Hgn'. injection Hgn' as <-.
  apply field_is_spec in Hpn as (p & Hgp & Hpn).
  split.
  - exists t. repeat split; auto. exists n. auto.
  - exists p. auto.
Qed.

(* ================================================================ selection: Boolean facts ==== *)
(* shouldExtractLine: the test of the [extracted] mark is implied by the two face tests *)
Theorem sel_line_simpl_lemma o c e : sel_line o c e = inc o (e_in e) && negb (adj_sel o c e).
Proof.
  unfold sel_line, adj_sel.
  destruct (sel_face o c (e_face e)), (sel_twin_face o c e), (inc o (e_in e)); reflexivity.
Qed.

(* the faces on the two sides of an edge are the same two faces seen from the twin *)
Lemma adj_sel_twin o c i e t :
  dcel_ok c = true -> get_e c i = Some e -> get_e c (e_twin e) = Some t -> adj_sel o c t = adj_sel o c e.
Proof.
  intros Hok He Ht. destruct (dcel_ok_edge c i e Hok He) as [(t' & Ht' & Htw & _) _].
  rewrite Ht in Ht'. injection Ht' as <-. rewrite <- Htw in He.
  unfold adj_sel. rewrite (sel_twin_face_eq o c e t Ht), (sel_twin_face_eq o c t e He). apply orb_comm.
Qed.

Lemma line_extracted_eq o c i e :
  dcel_ok c = true -> get_e c i = Some e -> line_extracted o c e = edge_inc o c e && negb (adj_sel o c e).
Proof.
  intros Hok He. unfold line_extracted, twin_sel_line, edge_inc.
  destruct (dcel_ok_edge c i e Hok He) as [(t & Ht & _) _]. rewrite Ht.
  rewrite !sel_line_simpl_lemma, (adj_sel_twin o c i e t Hok He Ht). symmetry. apply andb_orb_distrib_l.
Qed.

(* select_closure at an edge: it is in the result iff the label of one of its half edges is selected
   or a face on one of its sides is selected *)
Theorem select_edge_closure_lemma o c i e :
  dcel_ok c = true -> get_e c i = Some e -> res_edge o c e = edge_inc o c e || adj_sel o c e.
Proof.
  intros Hok He. unfold res_edge. rewrite (line_extracted_eq o c i e Hok He).
  destruct (edge_inc o c e), (adj_sel o c e); reflexivity.
Qed.

(* lower-dimensional remainders are extracted only where not already covered *)
Theorem remainders_uncovered_lemma o c :
  dcel_ok c = true ->
  (forall i e, get_e c i = Some e -> line_extracted o c e = true -> adj_sel o c e = false) /\
  (forall iv, sel_point o c iv = true -> v_covered o c (fst iv) = false).
Proof.
  intros Hok. split.
  - intros i e He H. rewrite (line_extracted_eq o c i e Hok He) in H.
    apply andb_true_iff in H as [_ H]. apply negb_true_iff in H. exact H.
  - intros iv H. unfold sel_point in H. apply andb_true_iff in H as [_ H]. apply negb_true_iff in H. exact H.
Qed.

(* a vertex is marked as covered iff an edge of the result starts at it *)
Lemma v_covered_spec o c v :
  dcel_ok c = true ->
  v_covered o c v = existsb (fun e => Nat.eqb (e_origin e) v && res_edge o c e) (c_edges c).
Proof.
  intros Hok. apply eq_true_iff_eq. unfold v_covered. rewrite !existsb_exists. split.
  - intros (e & Hin & H). exists e. split; [exact Hin|].
    apply andb_true_iff in H as [Ho H]. rewrite Ho. simpl.
    unfold res_edge, adj_sel. apply orb_true_iff in H as [H|H]; rewrite H; [reflexivity|apply orb_true_r].
  - intros (e & Hin & H). apply andb_true_iff in H as [Ho H].
    destruct (in_get_e c e Hin) as (i & He).
    unfold res_edge, adj_sel in H. rewrite !orb_true_iff in H. destruct H as [[H|H]|H].
    + exists e. split; [exact Hin|]. rewrite Ho, H. reflexivity.
    + (* the face on the other side is selected: the half edge after the twin starts at v on that face *)
      destruct (dcel_ok_edge c i e Hok He) as [(t & Ht & Htw & _) _].
      destruct (dcel_ok_edge c (e_twin e) t Hok Ht) as [(e' & He' & _ & _ & _ & n & Hn & Hon & _ & Hnf) _].
      rewrite Htw, He in He'. injection He' as <-.
      exists n. split; [eapply get_e_in; exact Hn|].
      rewrite (sel_twin_face_eq o c e t Ht) in H. rewrite Hon, Ho, Hnf, H. reflexivity.
    + exists e. split; [exact Hin|]. rewrite Ho, H. simpl. apply orb_true_r.
Qed.

(* select_closure at a vertex: it is in the result iff its own label is selected or an edge of the
   result starts at it *)
Theorem select_vertex_closure_lemma o c i v :
  dcel_ok c = true ->
  res_vertex o c (i, v) =
  inc o (v_in v) || existsb (fun e => Nat.eqb (e_origin e) i && res_edge o c e) (c_edges c).
Proof.
  intros Hok. unfold res_vertex, sel_point. cbn [fst snd]. rewrite <- (v_covered_spec o c i Hok).
  destruct (v_covered o c i), (inc o (v_in v)); reflexivity.
Qed.

(* ================================================================ label closure =============== *)
Lemma lab_le_trans a b c : lab_le a b = true -> lab_le b c = true -> lab_le a c = true.
Proof. destruct a as [[|] [|]], b as [[|] [|]], c as [[|] [|]]; simpl; auto. Qed.

(* the label bounds of dcel_ok contain label closure: face <= boundary edge <= end vertices *)
Theorem labels_closed_lemma c : dcel_ok c = true -> label_closed c.
Proof.
  unfold dcel_ok. rewrite !andb_true_iff. intros [_ Hl]. unfold labels_ok in Hl.
  apply andb_true_iff in Hl as [He _]. rewrite forallb_forall in He. repeat split.
  - intros e Hin. specialize (He e Hin). rewrite !andb_true_iff in He. tauto.
  - intros e v Hin Hgv. specialize (He e Hin). rewrite !andb_true_iff in He.
    destruct He as [[[_ H] _] _]. unfold vert_in in H. rewrite Hgv in H. exact H.
  - intros e t w Hin Ht Hw. specialize (He e Hin). rewrite !andb_true_iff in He.
    destruct He as [[_ H] _]. unfold twin_origin, vert_in in H. rewrite Ht, Hw in H. exact H.
Qed.

(* union and intersection are monotone in the labels *)
Lemma inc_mono o l m : (o = OpUnion \/ o = OpInter) -> lab_le l m = true -> inc o m = false -> inc o l = false.
Proof.
  intros [->| ->]; destruct l as [[|] [|]], m as [[|] [|]]; simpl; auto.
Qed.

(* for union and intersection the result at an edge is the Boolean combination of the edge's own
   labels (no closure needed: the sets are closed) *)
Theorem select_monotone_edge_lemma o c i e :
  (o = OpUnion \/ o = OpInter) -> dcel_ok c = true -> get_e c i = Some e ->
  res_edge o c e = edge_inc o c e.
Proof.
  intros Ho Hok He. rewrite (select_edge_closure_lemma o c i e Hok He).
  destruct (edge_inc o c e) eqn:E; [reflexivity|]. simpl.
  destruct (labels_closed_lemma c Hok) as [Hc _].
  destruct (dcel_ok_edge c i e Hok He) as [(t & Ht & _) _].
  unfold edge_inc in E. rewrite Ht in E. apply orb_false_iff in E as [E1 E2].
  unfold adj_sel. rewrite (sel_twin_face_eq o c e t Ht). unfold sel_face.
  rewrite (inc_mono o _ _ Ho (Hc e (get_e_in c i e He)) E1), (inc_mono o _ _ Ho (Hc t (get_e_in c _ t Ht)) E2).
  reflexivity.
Qed.
(* ... and at a vertex *)
Theorem select_monotone_vertex_lemma o c i v :
  (o = OpUnion \/ o = OpInter) -> dcel_ok c = true -> get_v c i = Some v ->
  res_vertex o c (i, v) = inc o (v_in v).
Proof.
  intros Ho Hok Hv. rewrite (select_vertex_closure_lemma o c i v Hok).
  destruct (inc o (v_in v)) eqn:E; [reflexivity|]. simpl.
  apply not_true_is_false. intros Ex.
  apply existsb_exists in Ex as (e & Hin & H). apply andb_true_iff in H as [Hor H].
  apply Nat.eqb_eq in Hor. subst i.
  destruct (in_get_e c e Hin) as (j & He).
  rewrite (select_monotone_edge_lemma o c j e Ho Hok He) in H.
  destruct (labels_closed_lemma c Hok) as (_ & Hcv & Hcw).
  destruct (dcel_ok_edge c j e Hok He) as [(t & Ht & Htw & _) _].
  unfold edge_inc in H. rewrite Ht in H. apply orb_true_iff in H as [H|H].
  - rewrite (inc_mono o _ _ Ho (Hcv e v Hin Hv) E) in H. discriminate.
  - (* the twin's label reaches the origin of e, which is the end point of the twin *)
    rewrite <- Htw in He.
    rewrite (inc_mono o _ _ Ho (Hcw t e v (get_e_in c _ t Ht) He Hv) E) in H. discriminate.
Qed.

(* ================================================================ operation-level laws ======== *)
Lemma face_in_swap c f : face_in (swap_c c) f = lab_swap (face_in c f).
Proof.
  unfold face_in, get_f, swap_c. cbn [c_faces]. rewrite nth_error_map.
  destruct (nth_error (c_faces c) f); reflexivity.
Qed.

(* selection of faces is the Boolean combination of the two label families *)
Theorem sel_face_ops_lemma c f :
  let a := fst (face_in c f) in let b := snd (face_in c f) in
  sel_face OpUnion c f = a || b /\ sel_face OpInter c f = a && b /\
  sel_face OpDiff c f = a && negb b /\ sel_face OpSym c f = xorb a b /\
  sel_face OpSym c f = sel_face OpDiff c f || sel_face OpDiff (swap_c c) f /\
  sel_face OpUnion c f = sel_face OpSym c f || sel_face OpInter c f /\
  a = sel_face OpDiff c f || sel_face OpInter c f.
Proof.
  unfold sel_face. rewrite face_in_swap. unfold inc.
  destruct (face_in c f) as [[|] [|]]; simpl; repeat split; reflexivity.
Qed.

Lemma inc_swap o l : o <> OpDiff -> inc o (lab_swap l) = inc o l.
Proof.
  intros H. destruct l as [a b]. unfold inc, lab_swap. simpl.
  destruct o; try (exfalso; apply H; reflexivity); simpl.
  - apply orb_comm. - apply andb_comm. - apply xorb_comm.
Qed.
Lemma get_e_swap c i : get_e (swap_c c) i = option_map swap_e (get_e c i).
Proof. apply nth_error_map. Qed.
Lemma twin_face_in_swap c e : twin_face_in (swap_c c) (swap_e e) = lab_swap (twin_face_in c e).
Proof.
  unfold twin_face_in, twin_face. rewrite get_e_swap. cbn [swap_e e_twin].
  destruct (get_e c (e_twin e)) as [t|]; simpl; [apply face_in_swap|reflexivity].
Qed.
Lemma sel_face_swap o c f : o <> OpDiff -> sel_face o (swap_c c) f = sel_face o c f.
Proof. intros H. unfold sel_face. rewrite face_in_swap. apply inc_swap. exact H. Qed.
Lemma sel_twin_face_swap o c e : o <> OpDiff -> sel_twin_face o (swap_c c) (swap_e e) = sel_twin_face o c e.
Proof. intros H. unfold sel_twin_face. rewrite twin_face_in_swap. apply inc_swap. exact H. Qed.
Lemma adj_sel_swap o c e : o <> OpDiff -> adj_sel o (swap_c c) (swap_e e) = adj_sel o c e.
Proof. intros H. unfold adj_sel. rewrite sel_twin_face_swap, sel_face_swap by exact H. reflexivity. Qed.
Lemma sel_line_swap o c e : o <> OpDiff -> sel_line o (swap_c c) (swap_e e) = sel_line o c e.
Proof.
  intros H. rewrite !sel_line_simpl_lemma, adj_sel_swap by exact H. cbn [swap_e e_in].
  rewrite inc_swap by exact H. reflexivity.
Qed.
Lemma line_extracted_swap o c e : o <> OpDiff -> line_extracted o (swap_c c) (swap_e e) = line_extracted o c e.
Proof.
  intros H. unfold line_extracted, twin_sel_line. rewrite get_e_swap, sel_line_swap by exact H. cbn [swap_e e_twin].
  destruct (get_e c (e_twin e)) as [t|]; simpl; [rewrite sel_line_swap by exact H|]; reflexivity.
Qed.
Lemma v_covered_swap o c v : o <> OpDiff -> v_covered o (swap_c c) v = v_covered o c v.
Proof.
  intros H. unfold v_covered. cbn [swap_c c_edges]. rewrite existsb_map. apply existsb_ext_in. intros e _.
  rewrite line_extracted_swap, sel_face_swap by exact H. reflexivity.
Qed.

Lemma indexed_from_map {A B} (g : A -> B) l : forall k,
  indexed_from k (map g l) = map (fun ix => (fst ix, g (snd ix))) (indexed_from k l).
Proof. induction l; intros k; simpl; [reflexivity|]. rewrite IHl. reflexivity. Qed.
Lemma filter_map_fst {A B} (g : A -> B) (p : nat * B -> bool) (q : nat * A -> bool) l :
  (forall ix, p (fst ix, g (snd ix)) = q ix) ->
  map fst (filter p (map (fun ix => (fst ix, g (snd ix))) l)) = map fst (filter q l).
Proof.
  intros E. induction l as [|x r IH]; [reflexivity|]. simpl. rewrite E.
  destruct (q x); simpl; rewrite IH; reflexivity.
Qed.
Lemma selected_map {A B} (g : A -> B) (p : nat * B -> bool) (q : nat * A -> bool) l :
  (forall ix, p (fst ix, g (snd ix)) = q ix) ->
  map fst (filter p (indexed_from 0 (map g l))) = map fst (filter q (indexed_from 0 l)).
Proof. intros E. rewrite indexed_from_map. apply filter_map_fst, E. Qed.

(* union, intersection and symmetric difference select the same cells when the operands are swapped *)
Theorem select_comm_lemma o c :
  o <> OpDiff ->
  faces_selected o (swap_c c) = faces_selected o c /\
  boundary_edges o (swap_c c) = boundary_edges o c /\
  lines_selected o (swap_c c) = lines_selected o c /\
  points_selected o (swap_c c) = points_selected o c.
Proof.
  intros H. repeat split; apply selected_map; intros ix; cbn [fst snd].
  - apply sel_face_swap, H.
  - rewrite sel_twin_face_swap, sel_face_swap by exact H. reflexivity.
  - rewrite line_extracted_swap by exact H. reflexivity.
  - unfold sel_point. cbn [fst snd]. rewrite v_covered_swap by exact H.
    cbn [swap_v v_in]. rewrite inc_swap by exact H. reflexivity.
Qed.

(* ================================================================ the half edges of a face ==== *)
Lemma map_fst_indexed_from {A} (l : list A) : forall k, map fst (indexed_from k l) = seq k (length l).
Proof. induction l; intros k; simpl; [reflexivity|]. rewrite IHl. reflexivity. Qed.
Lemma nodup_map_fst_filter {A} (p : nat * A -> bool) (l : list (nat * A)) :
  NoDup (map fst l) -> NoDup (map fst (filter p l)).
Proof.
  induction l as [|x r IH]; simpl; intros H; [constructor|]. inversion H; subst.
  destruct (p x); simpl; [|auto]. constructor; [|auto].
  intros Hin. apply H2. apply in_map_iff in Hin as (y & Hy & Hf). apply filter_In in Hf as [Hf _].
  apply in_map_iff. exists y. auto.
Qed.
Lemma length_filter_indexed {A} (p : A -> bool) (l : list A) : forall k,
  length (filter (fun ix => p (snd ix)) (indexed_from k l)) = length (filter p l).
Proof. induction l; intros k; simpl; [reflexivity|]. destruct (p a); simpl; rewrite IHl; reflexivity. Qed.

Definition face_edges (c : complex) (j : nat) : list nat :=
  map fst (filter (fun ie => Nat.eqb (e_face (snd ie)) j) (edges_ix c)).
Lemma face_edges_spec c j i : In i (face_edges c j) <-> exists e, get_e c i = Some e /\ e_face e = j.
Proof.
  unfold face_edges. rewrite in_map_iff. split.
  - intros ([i' e] & <- & H). apply filter_In in H as [H1 H2]. apply in_edges_ix in H1.
    apply Nat.eqb_eq in H2. eauto.
  - intros (e & He & Hf). exists (i, e). split; [reflexivity|]. apply filter_In. split.
    + apply in_edges_ix. exact He.
    + apply Nat.eqb_eq. exact Hf.
Qed.
Lemma face_edges_length c j : length (face_edges c j) = count_face c j.
Proof. unfold face_edges. rewrite map_length. apply (length_filter_indexed (fun e => Nat.eqb (e_face e) j)). Qed.
