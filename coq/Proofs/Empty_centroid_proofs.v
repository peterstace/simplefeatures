(* Lemmas for property C20: Centroid (Model/Measure.v: geom_centroid, the transcription of the
   Centroid methods of all types and of GeometryCollection.{point,linear,areal}Centroid) does not
   see empty members.  Equality of results is oxy_eq (both empty, or both present with Qeq ordinates). *)
From Coq Require Import List Bool Arith Lia QArith Qabs ZArith.
From SF Require Import Base.GeomAST Model.Empty Proofs.Empty_proofs Proofs.Empty_obs_proofs.
From SF Require Import Model.Measure Proofs.Measure_proofs.
From SF Require Proofs.Empty_ix_proofs.
Import ListNotations.

Notation geom := (geomT Q).

Lemma xy_eq_add_zero (a z : xy) : xy_eq z xy0 -> xy_eq (xy_add a z) a.
Proof. intros [H1 H2]. unfold xy_eq, xy_add, xy0 in *. cbn [fst snd] in *. rewrite H1, H2. split; ring. Qed.
Lemma oxy_eq_none (o : option xy) : oxy_eq None o -> o = None.
Proof. destruct o; [intros [] | reflexivity]. Qed.

Lemma point_xy_empty (p : pointT Q) : point_empty p = true -> point_xy p = None.
Proof. intros E. unfold point_xy. rewrite (point_empty_c p E). reflexivity. Qed.
Lemma points_sum_keep ps acc : points_sum (keep_points ps) acc = points_sum ps acc.
Proof. apply fold_left_keep. intros a b K. rewrite (point_xy_empty a K). reflexivity. Qed.
Lemma points_sum_all_empty ps acc : forallb (@point_empty Q) ps = true -> points_sum ps acc = acc.
Proof. intros E. rewrite <- points_sum_keep. unfold keep_points. rewrite keep_none by exact E. reflexivity. Qed.

Section WithSqrt.
  Variable sq : Q -> Q.

  Lemma scl_empty (l : lineT Q) : line_empty l = true -> sum_centroid_length sq l = (xy0, 0).
  Proof. intros E. unfold sum_centroid_length, line_xys. rewrite (line_empty_vs l E). reflexivity. Qed.
  Lemma line_centroid_empty (l : lineT Q) : line_empty l = true -> line_centroid sq l = None.
  Proof. intros E. unfold line_centroid. rewrite (scl_empty l E). reflexivity. Qed.
  Lemma lin_step_empty (l : lineT Q) acc : line_empty l = true -> lin_step sq acc l = acc.
  Proof. intros E. unfold lin_step. rewrite (line_centroid_empty l E). reflexivity. Qed.

  Definition pair_rel (a b : xy * Q) : Prop := xy_eq (fst a) (fst b) /\ snd a == snd b.
  Definition mline_step (acc : xy * Q) (l : lineT Q) : xy * Q :=
    let '(c, n) := sum_centroid_length sq l in (xy_add (fst acc) c, snd acc + n).

  Lemma mline_fold_keep ls :
    pair_rel (fold_left mline_step (keep_lines ls) (xy0, 0)) (fold_left mline_step ls (xy0, 0)).
  Proof.
    apply (fold_left_keep_R line_empty pair_rel).
    - intros x y z [A1 A2] [B1 B2]. split; [eapply xy_eq_trans; eauto | rewrite A2; exact B2].
    - intros x y [A1 A2]. split; [apply xy_eq_sym; exact A1 | symmetry; exact A2].
    - intros l b b' [H1 H2]. unfold mline_step. destruct (sum_centroid_length sq l) as [c n].
      split; cbn [fst snd]; [apply xy_add_eq; [exact H1 | apply xy_eq_refl] | rewrite H2; reflexivity].
    - intros l b K. unfold mline_step. rewrite (scl_empty l K).
      split; cbn [fst snd]; [apply xy_eq_add_zero, xy_eq_refl | ring].
    - split; [apply xy_eq_refl | reflexivity].
  Qed.
  Lemma mline_centroid_unfold ls :
    mline_centroid sq ls =
    let '(sumXY, sumLen) := fold_left mline_step ls (xy0, 0) in
    if Qeq_bool sumLen 0 then None else Some (xy_scale sumXY (1 / sumLen)).
  Proof. reflexivity. Qed.
  Lemma mline_centroid_keep ls : oxy_eq (mline_centroid sq (keep_lines ls)) (mline_centroid sq ls).
  Proof.
    rewrite !mline_centroid_unfold. pose proof (mline_fold_keep ls) as H.
    destruct (fold_left mline_step (keep_lines ls) (xy0, 0)) as [c n].
    destruct (fold_left mline_step ls (xy0, 0)) as [c' n']. destruct H as [H1 H2]. cbn [fst snd] in H1, H2.
    rewrite (Qeq_bool_eq n n' 0 0 H2 (Qeq_refl 0)). destruct (Qeq_bool n' 0); [exact I|].
    cbn [oxy_eq]. apply xy_scale_eq; [exact H1 | rewrite H2; reflexivity].
  Qed.
  Lemma mline_centroid_all_empty ls : forallb (@line_empty Q) ls = true -> mline_centroid sq ls = None.
  Proof.
    intros E. apply oxy_eq_none. pose proof (mline_centroid_keep ls) as H. unfold keep_lines in H.
    rewrite keep_none in H by exact E. exact H.
  Qed.

  Lemma poly_centroid_empty (y : polyT Q) : poly_empty y = true -> poly_centroid y = None.
  Proof. intros E. unfold poly_centroid. rewrite (poly_empty_rings y E). reflexivity. Qed.

  Definition wstep (total : Q) (w : xy) (y : polyT Q) : xy :=
    match poly_centroid y with
    | Some c => xy_add w (xy_scale c (poly_area false None y / total))
    | None => w
    end.
  (* the weighted sums run over the members paired with their areas *)
  Lemma fold_combine_map {A X} (f : A -> Q) (step : X -> A * Q -> X) L : forall w,
    fold_left step (combine L (map f L)) w = fold_left (fun w g => step w (g, f g)) L w.
  Proof. induction L as [|l r IH]; intros w; simpl; [reflexivity | apply IH]. Qed.
  (* the total the weights are divided by is the area of the MultiPolygon / of the collection *)
  Lemma fold_Qplus_map {A} (f : A -> Q) l : fold_left Qplus (map f l) 0 == fold_left (fun s a => s + f a) l 0.
  Proof. rewrite fold_left_Qplus, fold_left_qsum. reflexivity. Qed.
  Lemma area_total_keep ys :
    fold_left Qplus (map (poly_area false None) (filter (fun y => negb (poly_empty y)) ys)) 0 ==
    fold_left Qplus (map (poly_area false None) ys) 0.
  Proof. rewrite !fold_Qplus_map. exact (strip_area false None (GMPoly XY ys)). Qed.
  Lemma area_total_strip L :
    fold_left Qplus (map (geom_area false None) (flat_map strip_member L)) 0 ==
    fold_left Qplus (map (geom_area false None) L) 0.
  Proof. rewrite !fold_Qplus_map. exact (strip_area false None (GColl XY L)). Qed.
  Lemma mpoly_centroid_unfold ps :
    mpoly_centroid ps =
    if forallb (@poly_empty Q) ps then None
    else Some (fold_left (wstep (fold_left Qplus (map (poly_area false None) ps) 0)) ps xy0).
  Proof. unfold mpoly_centroid. rewrite fold_combine_map. reflexivity. Qed.
  Lemma mpoly_centroid_keep ys : oxy_eq (mpoly_centroid (keep_polys ys)) (mpoly_centroid ys).
  Proof.
    rewrite !mpoly_centroid_unfold. unfold keep_polys. rewrite keep_all_empty.
    destruct (forallb (@poly_empty Q) ys); [exact I|].
    cbn [oxy_eq].
    apply (fold_left_keep_R poly_empty xy_eq); [exact xy_eq_trans | exact xy_eq_sym | | | apply xy_eq_refl].
    - intros y w w' Hw. unfold wstep. destruct (poly_centroid y); [|exact Hw].
      apply xy_add_eq; [exact Hw|]. apply xy_scale_eq; [apply xy_eq_refl|].
      rewrite area_total_keep. reflexivity.
    - intros y w K. unfold wstep. rewrite (poly_centroid_empty y K). apply xy_eq_refl.
  Qed.

  Lemma leaf_centroid_strip (g : geom) : oxy_eq (leaf_centroid sq (strip_empties g)) (leaf_centroid sq g).
  Proof.
    destruct g as [p|l|y|c mp|c ls|c ys|c gs]; cbn [strip_empties leaf_centroid]; try apply oxy_eq_refl.
    - unfold mpoint_centroid. rewrite points_sum_keep. apply oxy_eq_refl.
    - apply mline_centroid_keep.
    - apply mpoly_centroid_keep.
  Qed.
  Lemma leaf_centroid_empty (g : geom) : is_empty g = true -> leaf_centroid sq g = None.
  Proof.
    destruct g as [p|l|y|c mp|c ls|c ys|c gs]; cbn [leaf_centroid is_empty]; intros E; try reflexivity.
    - apply point_xy_empty, E.
    - apply line_centroid_empty, E.
    - apply poly_centroid_empty, E.
    - unfold mpoint_centroid. rewrite (points_sum_all_empty mp _ E). reflexivity.
    - apply mline_centroid_all_empty, E.
    - rewrite mpoly_centroid_unfold, E. reflexivity.
  Qed.

  Lemma hdim_empty (g : geom) : is_empty g = true -> hdim g = 0%nat.
  Proof. intros E. destruct g; simpl in *; rewrite E; reflexivity. Qed.
  Lemma hdim_strip (g : geom) : hdim (strip_empties g) = hdim g.
  Proof.
    induction g using geomT_ind'; try reflexivity.
    - simpl. unfold keep_points. rewrite keep_all_empty. reflexivity.
    - simpl. unfold keep_lines. rewrite keep_all_empty. reflexivity.
    - simpl. unfold keep_polys. rewrite keep_all_empty. reflexivity.
    - simpl. rewrite strip_members_all_empty. destruct (forallb _ gs); [reflexivity|].
      apply (fold_left_strip Q (fun d g' => Nat.max d (hdim g'))).
      + intros x b E. rewrite (hdim_empty x E). apply Nat.max_0_r.
      + eapply Forall_impl; [|exact H]. intros x Hx b. simpl in Hx. rewrite Hx. reflexivity.
  Qed.

  Definition pstep (sn : xy * Z) (g : geom) : xy * Z :=
    match g with
    | GPoint p => points_sum [p] sn
    | GMPoint _ ps => points_sum ps sn
    | _ => sn
    end.
  Lemma pstep_empty (g : geom) sn : is_empty g = true -> pstep sn g = sn.
  Proof.
    destruct g; cbn [pstep is_empty]; intros E; try reflexivity.
    - apply points_sum_all_empty. simpl. rewrite E. reflexivity.
    - apply points_sum_all_empty. exact E.
  Qed.
  Lemma pstep_strip sn (g : geom) : pstep sn (strip_empties g) = pstep sn g.
  Proof. destruct g; cbn [pstep strip_empties]; try reflexivity. apply points_sum_keep. Qed.
  Lemma point_centroid_strip L : coll_point_centroid (flat_map strip_member L) = coll_point_centroid L.
  Proof.
    unfold coll_point_centroid. fold pstep.
    rewrite (fold_left_strip Q pstep L pstep_empty) by (apply Forall_forall; intros l _ sn; apply pstep_strip).
    reflexivity.
  Qed.

  Definition lstep (acc : Q * xy) (g : geom) : Q * xy :=
    match g with
    | GLine l => lin_step sq acc l
    | GMLine _ ls => fold_left (lin_step sq) ls acc
    | _ => acc
    end.
  Lemma lstep_strip acc (g : geom) : lstep acc (strip_empties g) = lstep acc g.
  Proof. destruct g; cbn [lstep strip_empties]; try reflexivity. apply fold_left_keep, lin_step_empty. Qed.
  Lemma lstep_empty (g : geom) acc : is_empty g = true -> lstep acc g = acc.
  Proof.
    destruct g; cbn [lstep is_empty]; intros E; try reflexivity.
    - apply lin_step_empty, E.
    - rewrite <- (fold_left_keep line_empty) by exact lin_step_empty. rewrite keep_none by exact E. reflexivity.
  Qed.
  Lemma linear_centroid_strip L : coll_linear_centroid sq (flat_map strip_member L) = coll_linear_centroid sq L.
  Proof.
    unfold coll_linear_centroid. fold lstep.
    rewrite (fold_left_strip Q lstep L lstep_empty) by (apply Forall_forall; intros l _ acc; apply lstep_strip).
    reflexivity.
  Qed.

  Definition astep (total : Q) (w : xy) (g : geom) : xy :=
    match leaf_centroid sq g with
    | Some c => xy_add w (xy_scale c (geom_area false None g / total))
    | None => w
    end.
  Lemma areal_unfold L :
    coll_areal_centroid sq L = fold_left (astep (fold_left Qplus (map (geom_area false None) L) 0)) L xy0.
  Proof. unfold coll_areal_centroid. rewrite fold_combine_map. reflexivity. Qed.

  Lemma areal_centroid_strip L : xy_eq (coll_areal_centroid sq (flat_map strip_member L)) (coll_areal_centroid sq L).
  Proof.
    rewrite !areal_unfold.
    apply (fold_left_strip_R Q xy_eq); [exact xy_eq_trans | exact xy_eq_sym | | | apply xy_eq_refl].
    - intros l w E. unfold astep. rewrite (leaf_centroid_empty l E). apply xy_eq_refl.
    - apply Forall_forall. intros l _ w w' Hw. unfold astep. pose proof (leaf_centroid_strip l) as C.
      destruct (leaf_centroid sq (strip_empties l)) as [c'|], (leaf_centroid sq l) as [c|]; cbn [oxy_eq] in C; try contradiction.
      + apply xy_add_eq; [exact Hw|]. apply xy_scale_eq; [exact C|].
        rewrite (strip_area false None l), area_total_strip. reflexivity.
      + exact Hw.
  Qed.

  Lemma strip_centroid (g : geom) : oxy_eq (geom_centroid sq (strip_empties g)) (geom_centroid sq g).
  Proof.
    destruct g as [p|l|y|c mp|c ls|c ys|c gs];
      try exact (leaf_centroid_strip _).
    pose proof (hdim_strip (GColl c gs)) as D. cbn [strip_empties] in D.
    cbn [strip_empties geom_centroid]. unfold coll_centroid. rewrite D. fold (@strip_member Q). rewrite strip_members_all_empty.
    destruct (forallb (@is_empty Q) gs); [exact I|].
    rewrite (Empty_ix_proofs.leaves_strip_members gs : flat_map leaves _ = _).
    destruct (hdim (GColl c gs)) as [|[|n]]; cbn [oxy_eq].
    - rewrite point_centroid_strip. apply xy_eq_refl.
    - rewrite linear_centroid_strip. apply xy_eq_refl.
    - apply areal_centroid_strip.
  Qed.

  Lemma ins_centroid (g : geom) p : oxy_eq (geom_centroid sq (insert_empties g p)) (geom_centroid sq g).
  Proof.
    apply (obs_factors_through_parts_lemma Q oxy_eq (geom_centroid sq)).
    - apply oxy_eq_sym.
    - apply oxy_eq_trans.
    - apply strip_centroid.
  Qed.

  (* neutral answer: the centroid of an empty geometry is the empty point *)
  Lemma empty_centroid (g : geom) : is_empty g = true -> geom_centroid sq g = None.
  Proof.
    destruct g as [p|l|y|c mp|c ls|c ys|c gs]; intros E; try exact (leaf_centroid_empty _ E).
    cbn [geom_centroid]. unfold coll_centroid. cbn [is_empty] in E. rewrite E. reflexivity.
  Qed.
End WithSqrt.
