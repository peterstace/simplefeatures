(* Property C17 - Simplify around the sequence algorithm (LineString, Polygon, MultiPolygon,
   collections), the negative-threshold witness, and the degenerate inputs of Densify. *)
From Coq Require Import ZArith NArith QArith Qabs List Bool Permutation Lia Lqa.
From SF Require Import Base.Outcome Base.GeomAST Model.TrCommon Model.TrReverse Model.TrSnap Model.TrForce
  Model.TrSimplify Model.TrDensify Model.TrInterp
  Proofs.TrReverse_proofs Proofs.TrSnap_proofs Proofs.TrForce_proofs Proofs.TrSimplify_proofs
  Proofs.TrDensify_proofs Proofs.TrInterp_proofs.
From SF Require Proofs.CType_proofs.
Import ListNotations.

(* ---- Simplify ---- *)
Lemma rdp_negative_threshold_refuted_lemma : exists (t : Q) (vs : list qv), rdp_unfixed t vs = None.
Proof.
  exists (-1 # 1), [Build_vtx 0 0 0 0; Build_vtx 1 1 0 0; Build_vtx 2 0 0 0]. vm_compute. reflexivity.
Qed.

(* geometry level: what Simplify does around the sequence algorithm *)
Section SimplifyGeom.
  Variable t : Q.
  Variable poly_valid : polyT Q -> bool.
  Variable mpoly_valid : list (polyT Q) -> bool.
  Variable validate : bool.

  (* LineString: the RDP result, or the empty LineString when that has fewer than two distinct
     points; coordinates type kept; the result always passes LineString validation *)
  Lemma simplify_line_lemma (l : lineT Q) :
    line_ct (simplify_line t l) = line_ct l
    /\ (line_vs (simplify_line t l) = rdp t (line_vs l) \/ line_vs (simplify_line t l) = [])
    /\ line_valid_vs (line_vs (simplify_line t l)) = true.
  Proof.
    destruct l as [ct vs]. unfold simplify_line.
    destruct (line_valid_vs (rdp t vs)) eqn:V; simpl; auto.
  Qed.

  (* Polygon: collapse rule, coordinates type, and the validation gate *)
  Lemma simplify_poly_collapse (ct : ctype) (rs : list (lineT Q)) :
    collapsed (match rs with [] => MkLine ct [] | r :: _ => simplify_line t r end) = true ->
    simplify_poly t poly_valid validate (MkPoly ct rs) = Ok (MkPoly ct []).
  Proof. intros H. unfold simplify_poly. now rewrite H. Qed.


  Lemma simplify_poly_ok (ct : ctype) (rs : list (lineT Q)) (p' : polyT Q) :
    simplify_poly t poly_valid validate (MkPoly ct rs) = Ok p' ->
    let ext := match rs with [] => MkLine ct [] | r :: _ => simplify_line t r end in
    (collapsed ext = true /\ p' = MkPoly ct []) \/
    (collapsed ext = false /\ (validate = true -> poly_valid p' = true) /\
     p' = new_polygon 0 (ext :: filter (fun r => negb (collapsed r)) (map (simplify_line t) (tl rs)))).
  Proof.
    unfold simplify_poly. intros H. cbv zeta.
    set (ext := match rs with [] => MkLine ct [] | r :: _ => simplify_line t r end) in *.
    destruct (collapsed ext).
    - left. inversion H. auto.
    - right. destruct validate; [destruct (poly_valid _) eqn:G; [|discriminate]|];
        injection H as <-; repeat split; auto. discriminate.
  Qed.

  Lemma simplify_poly_gate (p p' : polyT Q) :
    simplify_poly t poly_valid validate p = Ok p' -> validate = true ->
    poly_rings p' = [] \/ poly_valid p' = true.
  Proof.
    destruct p as [ct rs]. intros H V.
    destruct (simplify_poly_ok ct rs p' H) as [[_ ->]|[_ [G _]]]; auto.
  Qed.

  Lemma simplify_poly_ct (ct : ctype) (rs : list (lineT Q)) (p' : polyT Q) :
    Forall (fun r => line_ct r = ct) rs ->
    simplify_poly t poly_valid validate (MkPoly ct rs) = Ok p' -> poly_ct p' = ct.
  Proof.
    intros F H. destruct (simplify_poly_ok ct rs p' H) as [[_ ->]|[_ [_ ->]]]; [reflexivity|].
    assert (C : forall r, In r rs -> line_ct (simplify_line t r) = ct).
    { intros r Hr. destruct (simplify_line_lemma r) as [-> _]. rewrite Forall_forall in F. auto. }
    unfold new_polygon. simpl poly_ct. apply CType_proofs.and_all_same; [discriminate|].
    intros x [<-|Hx].
    - destruct rs as [|r rest]; [reflexivity | apply C; now left].
    - apply filter_In in Hx as [Hx _]. apply in_map_iff in Hx as (r & <- & Hr).
      apply C. destruct rs; [destruct Hr | now right].
  Qed.

  (* every ring of a non-collapsed result has at least 4 points *)
  Lemma simplify_poly_rings (p p' : polyT Q) :
    simplify_poly t poly_valid validate p = Ok p' ->
    Forall (fun r => (4 <= length (line_vs r))%nat) (poly_rings p').
  Proof.
    destruct p as [ct rs]. intros H.
    destruct (simplify_poly_ok ct rs p' H) as [[_ ->]|[CE [_ ->]]]; [constructor|].
    set (ext := match rs with [] => MkLine ct [] | r :: _ => simplify_line t r end) in *.
    set (holes := filter (fun r => negb (collapsed r)) (map (simplify_line t) (tl rs))).
    change (poly_rings (new_polygon 0 (ext :: holes)))
      with (map (force_line 0 (and_all (@line_ct Q) (ext :: holes))) (ext :: holes)).
    apply Forall_forall. intros x Hx.
    apply in_map_iff in Hx as (r & <- & Hr).
    assert (collapsed r = false) as NC.
    { destruct Hr as [<-|Hr]; auto. unfold holes in Hr. apply filter_In in Hr as [_ Hr].
      now apply negb_true_iff in Hr. }
    unfold collapsed in NC. apply Nat.ltb_ge in NC.
    destruct r as [c vs]. simpl. rewrite map_length. exact NC.
  Qed.

  (* MultiPolygon: the gate *)
  Lemma simplify_mpoly_gate (ct : ctype) (ps : list (polyT Q)) (g : geomT Q) :
    simplify_mpoly t poly_valid mpoly_valid validate ct ps = Ok g -> validate = true ->
    exists c qs, g = force_geom 0 ct (GMPoly c qs) /\ mpoly_valid qs = true.
  Proof.
    unfold simplify_mpoly. destruct (omap_list _ ps) as [ps'| |]; try discriminate.
    intros H V. rewrite V in H. simpl in H.
    set (polys := filter (fun p => negb (poly_empty p)) ps') in *.
    destruct polys as [|q qs'] eqn:E.
    - simpl in H. destruct (mpoly_valid []) eqn:G; [|discriminate]. simpl in H.
      inversion H. exists XY, []. auto.
    - unfold new_multipoly in H.
      set (c := and_all (@poly_ct Q) (q :: qs')) in *.
      destruct (mpoly_valid (map (force_poly 0 c) (q :: qs'))) eqn:G; [|discriminate]. simpl in H.
      inversion H. exists c, (map (force_poly 0 c) (q :: qs')). auto.
  Qed.

  (* Simplify never panics: it returns a geometry or an error *)
  Lemma omap_list_no_panic {A B} (f : A -> outcome B) (l : list A) :
    (forall x, is_panic (f x) = false) -> is_panic (omap_list f l) = false.
  Proof.
    intros H. induction l as [|x r IH]; [reflexivity|]. simpl.
    specialize (H x). destruct (f x); try discriminate; auto.
    destruct (omap_list f r); auto.
  Qed.
  Lemma simplify_poly_no_panic p : is_panic (simplify_poly t poly_valid validate p) = false.
  Proof.
    destruct p as [ct rs]. unfold simplify_poly. destruct (collapsed _); [reflexivity|].
    destruct validate; [destruct (poly_valid _)|]; reflexivity.
  Qed.
  Lemma simplify_geom_no_panic (g : geomT Q) :
    is_panic (simplify_geom t poly_valid mpoly_valid validate g) = false.
  Proof.
    induction g using geomT_ind'; simpl; auto.
    - pose proof (simplify_poly_no_panic p). destruct (simplify_poly _ _ _ p); auto.
    - unfold simplify_mpoly.
      pose proof (omap_list_no_panic (simplify_poly t poly_valid validate) ps simplify_poly_no_panic) as P.
      destruct (omap_list _ ps); auto; try discriminate.
      destruct (validate && _); reflexivity.
    - match goal with |- is_panic (match ?X with _ => _ end) = false => assert (is_panic X = false) as P end.
      { induction H as [|x r Hx Hr IH]; [reflexivity|].
        destruct (simplify_geom _ _ _ _ x); try discriminate; auto.
        match goal with |- is_panic (match ?Y with _ => _ end) = false => destruct Y end; auto. }
      match goal with |- is_panic (match ?X with _ => _ end) = false => destruct X end; auto; discriminate.
  Qed.
End SimplifyGeom.

(* ---- Densify ---- *)
Lemma densify_degenerate_lemma : forall (kf : qv -> qv -> Z) (d : Q) (a b : qv),
  densify_seq kf [] = [] /\ densify_seq kf [a] = [a]
  /\ (d2 a b == 0 -> k_exact d a b = 0%Z /\ densify_seq (k_exact d) [a; b] = [a; b]).
Proof.
  intros kf d a b. split; [reflexivity|]. split; [reflexivity|].
  intros Z. pose proof (k_exact_zero d a b Z) as K. split; auto.
  simpl. rewrite K. reflexivity.
Qed.
