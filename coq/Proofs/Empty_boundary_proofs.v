(* Lemmas for property C20: Boundary (Model/Boundary.v, the transcription of the Boundary methods)
   of a non-empty geometry does not see empty members - the result is the same value; the
   boundary of an empty geometry is empty (Proofs/Boundary_proofs.v: boundary_of_empty). *)
From Coq Require Import List Bool Arith Lia QArith.
From SF Require Import Base.GeomAST Base.QKernel Base.Planar Model.Empty Proofs.Empty_proofs Proofs.Empty_obs_proofs.
From SF Require Import Model.Boundary Proofs.Boundary_proofs.
Import ListNotations.

Lemma filter_flat_map_keep {A B} (f : B -> bool) (g : A -> list B) (e : A -> bool) l :
  (forall a, e a = true -> filter f (g a) = []) ->
  filter f (flat_map g (filter (fun a => negb (e a)) l)) = filter f (flat_map g l).
Proof.
  intros H. induction l as [|a r IH]; simpl; [reflexivity|].
  destruct (e a) eqn:K; simpl; rewrite !filter_app, IH; [|reflexivity]. rewrite (H a K). reflexivity.
Qed.

(* the end points of an empty line string are empty points, which mline_endpoints drops *)
Lemma mline_endpoints_keep ls : mline_endpoints (keep_lines ls) = mline_endpoints ls.
Proof.
  apply (filter_flat_map_keep _ _ line_empty). intros [ct [|v vs]] K; [reflexivity | discriminate].
Qed.

Lemma strip_boundary (g : geomT Q) : is_empty g = false -> boundary (strip_empties g) = boundary g.
Proof.
  induction g using geomT_ind'; intros E; try reflexivity.
  - cbn [strip_empties boundary]. unfold mline_boundary, mod2_points. rewrite mline_endpoints_keep. reflexivity.
  - cbn [strip_empties boundary]. unfold mpoly_boundary. f_equal.
    apply flat_map_keep. intros y K. rewrite (poly_empty_rings y K). reflexivity.
  - cbn [strip_empties is_empty boundary] in *. rewrite strip_members_all_empty, E. f_equal. clear E.
    induction H as [|x r Hx Hr IH]; simpl; [reflexivity|].
    destruct (is_empty x) eqn:Ex; simpl.
    + unfold force2d at 2. rewrite is_empty_force, (boundary_of_empty x Ex). simpl. exact IH.
    + rewrite (Hx eq_refl), IH. reflexivity.
Qed.

Lemma ins_boundary (g : geomT Q) p : is_empty g = false -> boundary (insert_empties g p) = boundary g.
Proof.
  intros E. rewrite <- (strip_boundary g E).
  rewrite <- (strip_boundary (insert_empties g p)) by (rewrite ins_is_empty; exact E).
  rewrite strip_ins. reflexivity.
Qed.
