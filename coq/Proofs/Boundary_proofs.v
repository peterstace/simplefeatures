(* Property C15 - lemmas about Model/Boundary.v.
   Point sets and locations are the definitions of Base/Planar.v (inG, locate). *)
From Coq Require Import QArith Qreduction List Bool ZArith Lia Arith.
From SF Require Import Base.GeomAST Base.QKernel Base.Planar Proofs.Planar_proofs Proofs.Planar_slab_base.
From SF Require Export Proofs.SetOpSpec_proofs.
From SF Require Import Model.Boundary.
Import ListNotations.
Open Scope Q_scope.

Lemma pt_eqb_trans_l p q r : pt_eqb p q = true -> pt_eqb p r = pt_eqb q r.
Proof. intros H. apply pt_eqb_proper; [now apply pt_eqb_iff | reflexivity]. Qed.
Lemma pt_eqb_trans_r p q r : pt_eqb q r = true -> pt_eqb p q = pt_eqb p r.
Proof. intros H. apply pt_eqb_proper; [reflexivity | now apply pt_eqb_iff]. Qed.

Lemma vpt_force old new v : vpt (force_vtx 0 old new v) = vpt v.
Proof. reflexivity. Qed.

Lemma fold_xorb_odd {A} (f : A -> bool) l acc :
  fold_left (fun acc e => xorb acc (f e)) l acc = xorb acc (Nat.odd (length (filter f l))).
Proof.
  revert acc. induction l as [|e l IH]; intros acc; simpl; [now rewrite xorb_false_r|].
  rewrite IH. destruct (f e); simpl; [|now rewrite xorb_false_r].
  rewrite Nat.odd_succ, <- Nat.negb_odd. now destruct acc, (Nat.odd _).
Qed.

Lemma fold_max_le (A : Type) (f : A -> nat) l d0 :
  (d0 <= fold_left (fun d x => Nat.max d (f x)) l d0)%nat.
Proof. revert d0. induction l as [|a l IH]; intros d0; simpl; [lia|]. specialize (IH (Nat.max d0 (f a))). lia. Qed.
Lemma fold_max_ge (A : Type) (f : A -> nat) l d0 x :
  In x l -> (f x <= fold_left (fun d x => Nat.max d (f x)) l d0)%nat.
Proof.
  revert d0. induction l as [|a l IH]; intros d0 Hin; simpl; [destruct Hin|].
  destruct Hin as [->|Hin]; [|apply IH; exact Hin].
  pose proof (fold_max_le A f l (Nat.max d0 (f x))). lia.
Qed.
Lemma fold_max_bound (A : Type) (f : A -> nat) l d0 b :
  (d0 <= b)%nat -> (forall x, In x l -> (f x <= b)%nat) ->
  (fold_left (fun d x => Nat.max d (f x)) l d0 <= b)%nat.
Proof.
  revert d0. induction l as [|a l IH]; intros d0 H0 H; simpl; [exact H0|].
  apply IH; [|intros; apply H; right; assumption].
  pose proof (H a (or_introl eq_refl)). lia.
Qed.
Lemma fold_max_ext (A : Type) (f g : A -> nat) l d0 :
  (forall x, In x l -> f x = g x) ->
  fold_left (fun d x => Nat.max d (f x)) l d0 = fold_left (fun d x => Nat.max d (g x)) l d0.
Proof.
  revert d0. induction l as [|a l IH]; intros d0 H; simpl; [reflexivity|].
  rewrite (H a (or_introl eq_refl)). apply IH. intros; apply H; right; assumption.
Qed.
Lemma fold_max_map (A B : Type) (f : B -> nat) (h : A -> B) l d0 :
  fold_left (fun d x => Nat.max d (f x)) (map h l) d0 = fold_left (fun d x => Nat.max d (f (h x))) l d0.
Proof. revert d0. induction l; simpl; auto. Qed.

Lemma dimension_force new (g : geom) : dimension (force_geom 0 new g) = dimension g.
Proof.
  induction g using geomT_ind'; simpl; try reflexivity.
  rewrite fold_max_map. apply fold_max_ext, Forall_forall, H.
Qed.

(* dim_ie: 0 for an empty value, else the dimension with empty members left out *)
Definition dim_body (g : geom) : nat :=
  match g with
  | GPoint _ | GMPoint _ _ => 0%nat
  | GLine _ | GMLine _ _ => 1%nat
  | GPoly _ | GMPoly _ _ => 2%nat
  | GColl _ gs => fold_left (fun d g' => Nat.max d (dim_ie g')) gs 0%nat
  end.
Lemma dim_ie_eq g : dim_ie g = if is_empty g then 0%nat else dim_body g.
Proof. destruct g; reflexivity. Qed.
Lemma dim_ie_nonempty g : is_empty g = false -> dim_ie g = dim_body g.
Proof. intros H. now rewrite dim_ie_eq, H. Qed.

Lemma dim_ie_force new (g : geom) : dim_ie (force_geom 0 new g) = dim_ie g.
Proof.
  induction g using geomT_ind'; rewrite !dim_ie_eq, is_empty_force; destruct (is_empty _); try reflexivity.
  cbn [force_geom dim_body]. rewrite fold_max_map. apply fold_max_ext, Forall_forall, H.
Qed.

Lemma new_multipoint_shape ps : exists ct, new_multipoint 0 ps = GMPoint ct (map (force_point 0 ct) ps).
Proof. destruct ps as [|p ps]; [exists XY; reflexivity|]. eexists. reflexivity. Qed.
Lemma new_multiline_shape ls : exists ct, new_multiline 0 ls = GMLine ct (map (force_line 0 ct) ls).
Proof. destruct ls as [|l ls]; [exists XY; reflexivity|]. eexists. reflexivity. Qed.

Lemma is_empty_new_multipoint ps : is_empty (new_multipoint 0 ps) = forallb (@point_empty Q) ps.
Proof.
  destruct (new_multipoint_shape ps) as [ct ->]. simpl. apply forallb_map_ext. intros; apply point_empty_force.
Qed.
Lemma is_empty_new_multiline ls : is_empty (new_multiline 0 ls) = forallb (@line_empty Q) ls.
Proof.
  destruct (new_multiline_shape ls) as [ct ->]. simpl. apply forallb_map_ext. intros; apply line_empty_force.
Qed.
(* Force2D after the constructor's own forcing is Force2D *)
Lemma force_line_twice ct (l : lineT Q) :
  force_line 0 XY (force_line 0 ct l) = force_line 0 XY l.
Proof.
  destruct l as [old vs]. simpl. f_equal. rewrite map_map. apply map_ext. intros v. reflexivity.
Qed.
Lemma poly_boundary_mls_eq y : poly_boundary_mls y = GMLine XY (map line2d (poly_rings y)).
Proof.
  unfold poly_boundary_mls, force2d. destruct (poly_rings y) as [|r rs]; [reflexivity|].
  unfold new_multiline. cbn [force_geom]. f_equal. rewrite map_map. apply map_ext.
  intros l. apply force_line_twice.
Qed.

Lemma line_is_closed_force new (l : lineT Q) : line_is_closed (force_line 0 new l) = line_is_closed l.
Proof.
  destruct l as [old vs]. unfold line_is_closed; simpl. destruct vs as [|a r]; [reflexivity|]. simpl map.
  cbn [line_vs]. rewrite (last_map (force_vtx 0 old new)). reflexivity.
Qed.

Lemma mline_endpoints_all_skipped ls :
  (forall l, In l ls -> line_empty l = true \/ line_is_closed l = true) -> mline_endpoints ls = [].
Proof.
  unfold mline_endpoints. induction ls as [|l ls IH]; intros H; [reflexivity|].
  simpl. rewrite filter_app. rewrite IH by (intros; apply H; right; assumption). rewrite app_nil_r.
  destruct (H l (or_introl eq_refl)) as [He|Hc].
  - destruct l as [ct [|v vs]]; [|discriminate]. reflexivity.
  - rewrite Hc. reflexivity.
Qed.

Lemma boundary_of_empty (g : geom) : is_empty g = true -> is_empty (boundary g) = true.
Proof.
  destruct g; cbn [boundary]; intros He; cbn [is_empty] in He; try reflexivity.
  - unfold line_boundary. rewrite He. reflexivity.
  - destruct p as [ct [|r rs]]; [reflexivity|discriminate].
  - unfold mline_boundary, mod2_points. rewrite mline_endpoints_all_skipped; [reflexivity|].
    rewrite forallb_forall in He. intros; left; auto.
  - unfold mpoly_boundary. rewrite is_empty_new_multiline. rewrite forallb_forall in *.
    intros l Hl. apply in_flat_map in Hl. destruct Hl as [y [Hy Hl]]. apply He in Hy.
    destruct y as [c [|r rs]]; [destruct Hl|discriminate].
  - rewrite He. exact He.
Qed.

Lemma boundary_collection_structure_lemma ct gs :
  boundary (GColl ct gs) =
  if forallb (@is_empty Q) gs then GColl ct gs
  else GColl XY (filter (fun b => negb (is_empty b)) (map (fun g' => force2d (boundary g')) gs)).
Proof. reflexivity. Qed.

Lemma existsb_filter_nonempty (bs : list geom) p :
  existsb (fun b => inG b p) (filter (fun b => negb (is_empty b)) bs) = existsb (fun b => inG b p) bs.
Proof.
  induction bs as [|b bs IH]; [reflexivity|]. simpl. destruct (is_empty b) eqn:E; simpl.
  - rewrite (empty_no_points_lemma b p E). exact IH.
  - rewrite IH. reflexivity.
Qed.

Lemma boundary_collection_lemma ct gs p :
  inG (boundary (GColl ct gs)) p = existsb (fun g' => inG (boundary g') p) gs.
Proof.
  rewrite boundary_collection_structure_lemma. destruct (forallb (@is_empty Q) gs) eqn:E.
  - rewrite (empty_no_points_lemma (GColl ct gs) p E). symmetry. apply existsb_all_false.
    rewrite forallb_forall in E. intros x Hx. apply empty_no_points_lemma. apply boundary_of_empty. auto.
  - cbn [inG]. rewrite existsb_filter_nonempty, existsb_map. apply existsb_ext_in.
    intros x _. apply inG_force_lemma.
Qed.

Lemma coll_boundary_members gs b :
  In b (filter (fun b => negb (is_empty b)) (map (fun g' => force2d (boundary g')) gs)) <->
  exists x, In x gs /\ is_empty (boundary x) = false /\ b = force2d (boundary x).
Proof.
  rewrite filter_In, in_map_iff. split.
  - intros [[x [<- Hx]] Hne]. unfold force2d in Hne. rewrite is_empty_force in Hne. apply negb_true_iff in Hne. eauto.
  - intros [x [Hx [Hne ->]]]. split; [eauto|]. unfold force2d. now rewrite is_empty_force, Hne.
Qed.

(* the shape of every Boundary result: empty, or points, closed (or empty) lines, collections of those *)
Definition closed_or_empty (l : lineT Q) : bool := line_empty l || line_is_closed l.
Definition bshape_body (rec : geom -> bool) (b : geom) : bool :=
  match b with
  | GPoint _ | GMPoint _ _ => true
  | GLine l => closed_or_empty l
  | GMLine _ ls => forallb closed_or_empty ls
  | GPoly _ | GMPoly _ _ => false
  | GColl _ bs => forallb rec bs
  end.
Fixpoint bshape (b : geom) : bool := is_empty b || bshape_body bshape b.
Lemma bshape_eq b : bshape b = is_empty b || bshape_body bshape b.
Proof. destruct b; reflexivity. Qed.

Lemma closed_or_empty_force new l : closed_or_empty (force_line 0 new l) = closed_or_empty l.
Proof. unfold closed_or_empty. rewrite line_empty_force, line_is_closed_force. reflexivity. Qed.

Lemma bshape_force new (b : geom) : bshape (force_geom 0 new b) = bshape b.
Proof.
  induction b using geomT_ind'; rewrite !bshape_eq, is_empty_force; f_equal; cbn [force_geom bshape_body]; try reflexivity.
  - apply closed_or_empty_force.
  - apply forallb_map_ext. intros; apply closed_or_empty_force.
  - apply forallb_map_ext. rewrite Forall_forall in H. exact H.
Qed.

Lemma ring_ok_closed l : ring_ok l = true -> closed_or_empty l = true.
Proof. unfold ring_ok, closed_or_empty. intros H. apply andb_prop in H. destruct H as [_ ->]. apply orb_true_r. Qed.

Lemma bshape_new_multipoint ps : bshape (new_multipoint 0 ps) = true.
Proof. destruct (new_multipoint_shape ps) as [ct ->]. rewrite bshape_eq. apply orb_true_r. Qed.

Lemma rings2d_closed y : poly_wf y = true -> forallb closed_or_empty (map line2d (poly_rings y)) = true.
Proof.
  unfold poly_wf. rewrite forallb_map, !forallb_forall. intros H l Hl.
  unfold line2d. rewrite closed_or_empty_force. auto using ring_ok_closed.
Qed.
Lemma bshape_boundary (g : geom) : geom_wf g = true -> bshape (boundary g) = true.
Proof.
  induction g using geomT_ind'; cbn [boundary geom_wf]; intros Hwf; try reflexivity.
  - unfold line_boundary. destruct (line_empty l || line_is_closed l); [reflexivity|apply bshape_new_multipoint].
  - unfold poly_boundary_geom. rewrite poly_boundary_mls_eq. pose proof (rings2d_closed p Hwf) as Hall.
    destruct (map line2d (poly_rings p)) as [|l [|l2 rest]]; rewrite bshape_eq; cbn [bshape_body]; rewrite ?Hall; try apply orb_true_r.
    simpl in Hall. rewrite andb_true_r in Hall. rewrite Hall. apply orb_true_r.
  - apply bshape_new_multipoint.
  - unfold mpoly_boundary. destruct (new_multiline_shape (flat_map (fun y => map line2d (poly_rings y)) ps)) as [c ->].
    rewrite bshape_eq. cbn [bshape_body]. apply orb_true_iff. right. rewrite forallb_map. rewrite forallb_forall in *. intros l Hl.
    rewrite closed_or_empty_force. apply in_flat_map in Hl as [y [Hy Hl]].
    pose proof (rings2d_closed y (Hwf y Hy)) as Hall. rewrite forallb_forall in Hall. auto.
  - destruct (forallb (@is_empty Q) gs) eqn:E.
    + rewrite bshape_eq. cbn [is_empty]. rewrite E. reflexivity.
    + rewrite bshape_eq. cbn [bshape_body]. apply orb_true_iff. right. rewrite forallb_forall. intros b Hb.
      apply coll_boundary_members in Hb as [x [Hx [_ ->]]]. unfold force2d. rewrite bshape_force.
      rewrite Forall_forall in H. apply H; auto. rewrite forallb_forall in Hwf. auto.
Qed.

Lemma bshape_boundary_empty (b : geom) : bshape b = true -> is_empty (boundary b) = true.
Proof.
  induction b using geomT_ind'; rewrite bshape_eq; intros Hs;
    apply orb_true_iff in Hs; destruct Hs as [He|Hs]; try (apply boundary_of_empty; exact He);
    cbn [boundary bshape_body] in *; try reflexivity; try discriminate.
  - unfold line_boundary. unfold closed_or_empty in Hs. rewrite Hs. reflexivity.
  - unfold mline_boundary, mod2_points. rewrite mline_endpoints_all_skipped; [reflexivity|].
    rewrite forallb_forall in Hs. intros l Hl. apply Hs in Hl. unfold closed_or_empty in Hl.
    apply orb_true_iff in Hl. exact Hl.
  - destruct (forallb (@is_empty Q) gs) eqn:E; [exact E|].
    cbn [is_empty]. rewrite forallb_forall. intros b Hb. apply coll_boundary_members in Hb as [x [Hx [Hne _]]].
    rewrite Forall_forall in H. rewrite forallb_forall in Hs. rewrite (H x Hx (Hs x Hx)) in Hne. discriminate.
Qed.

Theorem boundary_of_boundary_empty_lemma (g : geom) :
  geom_wf g = true -> is_empty (boundary (boundary g)) = true.
Proof. intros H. apply bshape_boundary_empty, bshape_boundary, H. Qed.

(* points and closed lines have an empty boundary *)
Lemma boundary_puntal_empty_lemma (g : geom) :
  (forall ct gs, g <> GColl ct gs) -> dimension g = 0%nat -> is_empty (boundary g) = true.
Proof. destruct g; simpl; intros Hn Hd; try discriminate; try reflexivity. exfalso; eapply Hn; reflexivity. Qed.
Lemma boundary_closed_line_empty_lemma (l : lineT Q) :
  line_is_closed l = true -> is_empty (boundary (GLine l)) = true.
Proof. intros H. cbn [boundary]. unfold line_boundary. rewrite H, orb_true_r. reflexivity. Qed.

Lemma dim_ie_le2 (g : geom) : (dim_ie g <= 2)%nat.
Proof.
  induction g using geomT_ind'; rewrite dim_ie_eq; destruct (is_empty _); cbn [dim_body]; try lia.
  apply fold_max_bound; [lia|]. rewrite Forall_forall in H. exact H.
Qed.

Lemma fold_max_attained (A : Type) (f : A -> nat) l :
  (0 < fold_left (fun d x => Nat.max d (f x)) l 0)%nat ->
  exists x, In x l /\ f x = fold_left (fun d x => Nat.max d (f x)) l 0%nat.
Proof.
  assert (G : forall l d0, fold_left (fun d x => Nat.max d (f x)) l d0 = d0 \/
                           exists x, In x l /\ f x = fold_left (fun d x => Nat.max d (f x)) l d0).
  { induction l0 as [|a l0 IH]; intros d0; simpl; [left; reflexivity|].
    destruct (IH (Nat.max d0 (f a))) as [E|[x [Hx E]]].
    - destruct (Nat.max_spec d0 (f a)) as [[_ M]|[_ M]].
      + right. exists a. split; [left; reflexivity|]. rewrite E. symmetry. exact M.
      + left. rewrite E. exact M.
    - right. exists x. split; [right; exact Hx|exact E]. }
  intros Hpos. destruct (G l 0%nat) as [E|E]; [lia|exact E].
Qed.

Lemma dimension_new_multipoint ps : dimension (new_multipoint 0 ps) = 0%nat.
Proof. destruct (new_multipoint_shape ps) as [ct ->]. reflexivity. Qed.
Lemma dimension_new_multiline ls : dimension (new_multiline 0 ls) = 1%nat.
Proof. destruct (new_multiline_shape ls) as [ct ->]. reflexivity. Qed.

(* with Go's Dimension(), for the six non-collection types and without any hypothesis *)
Lemma boundary_dim_go_lemma (g : geom) :
  (forall ct gs, g <> GColl ct gs) ->
  match dimension g with
  | O => is_empty (boundary g) = true
  | S d => dimension (boundary g) = d
  end.
Proof.
  destruct g; cbn [dimension boundary]; intros Hn; try reflexivity.
  - unfold line_boundary. destruct (_ || _); [reflexivity|apply dimension_new_multipoint].
  - unfold poly_boundary_geom. rewrite poly_boundary_mls_eq.
    destruct (map line2d (poly_rings p)) as [|l [|l2 r]]; reflexivity.
  - apply dimension_new_multipoint.
  - apply dimension_new_multiline.
  - exfalso. eapply Hn. reflexivity.
Qed.

(* the boundary of a well-formed geometry of dimension 2 is not empty *)
Lemma ring_ok_nonempty l : ring_ok l = true -> line_empty l = false.
Proof. unfold ring_ok. intros H. apply andb_prop in H. destruct H as [H _]. apply negb_true_iff in H. exact H. Qed.

Lemma forallb_false_in {A} (f : A -> bool) l x : In x l -> f x = false -> forallb f l = false.
Proof. intros Hx Hf. apply not_true_iff_false. rewrite forallb_forall. intros H. now rewrite (H x Hx) in Hf. Qed.

Lemma wf_rings_empty y : poly_wf y = true -> forallb (fun l => line_empty (line2d l)) (poly_rings y) = poly_empty y.
Proof.
  destruct y as [c [|r rs]]; [reflexivity|]. unfold poly_wf. cbn [poly_rings forallb poly_empty]. intros H.
  apply andb_prop in H as [Hr _]. unfold line2d. now rewrite line_empty_force, (ring_ok_nonempty r Hr).
Qed.
Lemma is_empty_poly_boundary y : poly_wf y = true -> is_empty (boundary (GPoly y)) = poly_empty y.
Proof.
  intros H. rewrite <- (wf_rings_empty y H), <- forallb_map. cbn [boundary]. unfold poly_boundary_geom.
  rewrite poly_boundary_mls_eq. destruct (map line2d (poly_rings y)) as [|l [|l2 r]]; cbn [is_empty forallb]; auto using andb_true_r.
Qed.
Lemma is_empty_mpoly_boundary ct ys : forallb poly_wf ys = true -> is_empty (boundary (GMPoly ct ys)) = forallb (@poly_empty Q) ys.
Proof.
  intros H. cbn [boundary]. unfold mpoly_boundary. rewrite is_empty_new_multiline, forallb_flat_map.
  apply forallb_ext_in. intros y Hy. rewrite forallb_map. rewrite forallb_forall in H. auto using wf_rings_empty.
Qed.

Lemma dim2_boundary_nonempty (g : geom) :
  geom_wf g = true -> dim_ie g = 2%nat -> is_empty (boundary g) = false.
Proof.
  induction g using geomT_ind'; rewrite dim_ie_eq; cbn [geom_wf dim_body]; intros Hwf;
    destruct (is_empty _) eqn:He; try discriminate; intros Hd; try discriminate.
  - now rewrite is_empty_poly_boundary.
  - now rewrite is_empty_mpoly_boundary.
  - cbn [boundary is_empty] in *. rewrite He.
    destruct (fold_max_attained _ dim_ie gs) as [x [Hx Ex]]; [lia|]. rewrite Hd in Ex.
    rewrite Forall_forall in H. rewrite forallb_forall in Hwf. specialize (H x Hx (Hwf x Hx) Ex).
    apply (forallb_false_in _ _ (force2d (boundary x))); [apply coll_boundary_members; eauto|].
    unfold force2d. now rewrite is_empty_force.
Qed.

Lemma boundary_nonempty (g : geom) : is_empty (boundary g) = false -> is_empty g = false.
Proof. intros Eb. destruct (is_empty g) eqn:E; [|reflexivity]. now rewrite (boundary_of_empty _ E) in Eb. Qed.
Lemma boundary_dim_nonempty (g : geom) :
  geom_wf g = true -> is_empty (boundary g) = false -> S (dim_ie (boundary g)) = dim_ie g.
Proof.
  induction g using geomT_ind'; intros Hwf Eb; pose proof (boundary_nonempty _ Eb) as Hg;
    rewrite (dim_ie_nonempty _ Hg), (dim_ie_nonempty _ Eb); cbn [boundary dim_body] in *; try discriminate.
  - unfold line_boundary in *. destruct (_ || _); [discriminate|].
    now destruct (new_multipoint_shape [start_point l; end_point l]) as [c ->].
  - unfold poly_boundary_geom. rewrite poly_boundary_mls_eq.
    now destruct (map line2d (poly_rings p)) as [|a [|b r]].
  - unfold mline_boundary. now destruct (new_multipoint_shape (mod2_points ls)) as [c ->].
  - unfold mpoly_boundary. now destruct (new_multiline_shape (flat_map (fun y => map line2d (poly_rings y)) ps)) as [c ->].
  - cbn [is_empty] in Hg. rewrite Hg in *. cbn [dim_body is_empty] in *.
    set (bs := filter (fun b => negb (is_empty b)) (map (fun g' => force2d (boundary g')) gs)) in *.
    set (D := fold_left (fun d g' => Nat.max d (dim_ie g')) gs 0%nat).
    rewrite Forall_forall in H. cbn [geom_wf] in Hwf. rewrite forallb_forall in Hwf.
    (* the members of bs are the non-empty boundaries of members: one dimension lower *)
    assert (Hin : forall x, In x gs -> is_empty (boundary x) = false ->
                  In (force2d (boundary x)) bs /\ S (dim_ie (force2d (boundary x))) = dim_ie x).
    { intros x Hx Hne. split; [apply coll_boundary_members; eauto | unfold force2d; rewrite dim_ie_force; auto]. }
    assert (Hb : forall b, In b bs -> (S (dim_ie b) <= D)%nat).
    { intros b Hb. apply coll_boundary_members in Hb as [x [Hx [Hne ->]]].
      destruct (Hin x Hx Hne) as [_ ->]. now apply fold_max_ge. }
    apply Nat.le_antisymm.
    + destruct bs as [|b0 bs0]; [discriminate|].
      pose proof (Hb b0 (or_introl eq_refl)).
      enough (fold_left (fun d g' => Nat.max d (dim_ie g')) (b0 :: bs0) 0 <= pred D)%nat by lia.
      apply fold_max_bound; [lia|]. intros b Hb'. specialize (Hb b Hb'). lia.
    + (* only a member of dimension 2 matters: its boundary is not empty *)
      pose proof (dim_ie_le2 (GColl ct gs)) as H2. rewrite (dim_ie_nonempty (GColl ct gs) Hg) in H2. cbn [dim_body] in H2. fold D in H2.
      destruct (Nat.eq_dec D 2) as [E2|N2]; [|lia].
      destruct (fold_max_attained _ dim_ie gs) as [x [Hx Ex]]; [fold D; lia|]. fold D in Ex. rewrite E2 in Ex.
      destruct (Hin x Hx (dim2_boundary_nonempty x (Hwf x Hx) Ex)) as [Hi Ei].
      pose proof (fold_max_ge _ dim_ie bs 0%nat _ Hi). lia.
Qed.
Theorem boundary_dim_lemma (g : geom) :
  geom_wf g = true -> is_empty (boundary g) = true \/ S (dim_ie (boundary g)) = dim_ie g.
Proof.
  intros Hwf. destruct (is_empty (boundary g)) eqn:Eb; [now left | right; now apply boundary_dim_nonempty].
Qed.

(* ordinates of the non-empty points of a list, in order *)
Definition xys (ps : list (pointT Q)) : list pt :=
  flat_map (fun q => match point_xy q with Some c => [c] | None => [] end) ps.
Definition cnt (p : pt) (l : list pt) : nat := length (filter (pt_eqb p) l).

Lemma cnt_app p a b : cnt p (a ++ b) = (cnt p a + cnt p b)%nat.
Proof. unfold cnt. rewrite filter_app, app_length. reflexivity. Qed.
Lemma cnt_eq p q l : pt_eqb p q = true -> cnt p l = cnt q l.
Proof.
  intros H. unfold cnt. induction l as [|a l IH]; [reflexivity|]. simpl.
  rewrite (pt_eqb_trans_l p q a H). destruct (pt_eqb q a); simpl; congruence.
Qed.
Lemma cnt_pos_iff p l : (0 < cnt p l)%nat <-> existsb (pt_eqb p) l = true.
Proof.
  unfold cnt. induction l as [|a l IH]; simpl; [split; [lia|discriminate]|].
  destruct (pt_eqb p a); simpl; [split; [reflexivity|lia]|exact IH].
Qed.

Lemma count_xy_cnt ps p : count_xy ps p = cnt p (xys ps).
Proof.
  unfold count_xy, cnt, xys. induction ps as [|q ps IH]; [reflexivity|]. simpl.
  destruct (point_xy q) as [c|]; simpl; [|exact IH]. destruct (pt_eqb p c); simpl; rewrite IH; reflexivity.
Qed.

Lemma in_point_xy q p : in_point q p = match point_xy q with Some c => pt_eqb p c | None => false end.
Proof. destruct q as [ct [v|]]; simpl; [apply orb_false_r|reflexivity]. Qed.

Lemma existsb_pt_proper p c l : pt_eqb p c = true -> existsb (pt_eqb p) l = existsb (pt_eqb c) l.
Proof. intros H. apply existsb_ext_in. intros s _. now apply pt_eqb_trans_l. Qed.

(* first occurrences: one representative of every ordinate pair not yet seen *)
Lemma first_occurrences_exists seen ps p :
  existsb (fun q => in_point q p) (first_occurrences seen ps) =
  negb (existsb (pt_eqb p) seen) && existsb (pt_eqb p) (xys ps).
Proof.
  revert seen. induction ps as [|q ps IH]; intros seen; [simpl; now rewrite andb_false_r|].
  change (xys (q :: ps)) with ((match point_xy q with Some c => [c] | None => [] end) ++ xys ps).
  cbn [first_occurrences]. destruct (point_xy q) as [c|] eqn:Ec; cbn [app existsb]; [|apply IH].
  destruct (existsb (pt_eqb c) seen) eqn:Es; cbn [existsb]; rewrite ?in_point_xy, ?Ec, IH; cbn [existsb];
    destruct (pt_eqb p c) eqn:Epc; try reflexivity.
  - now rewrite (existsb_pt_proper p c seen Epc), Es.
  - now rewrite (existsb_pt_proper p c seen Epc), Es.
Qed.

Lemma existsb_filter {A} (f g : A -> bool) l : existsb f (filter g l) = existsb (fun x => g x && f x) l.
Proof. induction l as [|a l IH]; [reflexivity|]. simpl. destruct (g a); simpl; rewrite IH; reflexivity. Qed.

Lemma odd_pos n : Nat.odd n = true -> (0 < n)%nat.
Proof. destruct n; [discriminate|lia]. Qed.

Lemma mod2_points_spec ls p :
  existsb (fun q => in_point q p) (mod2_points ls) = Nat.odd (cnt p (xys (mline_endpoints ls))).
Proof.
  unfold mod2_points. set (eps := mline_endpoints ls). rewrite existsb_filter.
  transitivity (Nat.odd (cnt p (xys eps)) && existsb (fun q => in_point q p) (first_occurrences [] eps)).
  - induction (first_occurrences [] eps) as [|q l IH]; simpl; [rewrite andb_false_r; reflexivity|].
    rewrite IH. rewrite in_point_xy. destruct (point_xy q) as [c|]; simpl.
    + destruct (pt_eqb p c) eqn:E; simpl.
      * rewrite count_xy_cnt, <- (cnt_eq p c _ E). rewrite andb_true_r.
        destruct (Nat.odd (cnt p (xys eps))); reflexivity.
      * rewrite andb_false_r. reflexivity.
    + reflexivity.
  - rewrite first_occurrences_exists. simpl.
    destruct (Nat.odd (cnt p (xys eps))) eqn:Eo; [|reflexivity]. simpl.
    apply cnt_pos_iff. apply odd_pos. exact Eo.
Qed.

(* per member: the end points the loop emits are Planar.line_ends *)
Lemma pts_closed_line l : line_empty l = false -> pts_closed (line_pts l) = line_is_closed l.
Proof.
  destruct l as [ct [|a r]]; [discriminate|]. intros _. unfold line_pts, line_is_closed, pts_closed. cbn [line_vs map].
  rewrite (last_map vpt). reflexivity.
Qed.

Lemma member_endpoints l :
  xys (filter (fun p => negb (point_empty p)) (if line_is_closed l then [] else [start_point l; end_point l]))
  = line_ends l.
Proof.
  destruct l as [ct [|a r]]; [reflexivity|].
  unfold line_ends. rewrite pts_closed_line by reflexivity.
  destruct (line_is_closed (MkLine ct (a :: r))); [reflexivity|].
  unfold line_pts. cbn [line_vs map start_point end_point hd_error filter point_empty point_c negb xys flat_map point_xy option_map app].
  rewrite (last_map vpt). reflexivity.
Qed.

Lemma xys_app a b : xys (a ++ b) = xys a ++ xys b.
Proof. unfold xys. apply flat_map_app. Qed.

Lemma mline_endpoints_ends ls : xys (mline_endpoints ls) = flat_map line_ends ls.
Proof.
  unfold mline_endpoints. induction ls as [|l ls IH]; [reflexivity|].
  simpl. rewrite filter_app, xys_app, IH, member_endpoints. reflexivity.
Qed.

Lemma line_ends_cnt l p : cnt p (line_ends l) = if open_end_of l p then 1%nat else 0%nat.
Proof.
  destruct l as [ct [|a r]]; [reflexivity|].
  unfold line_ends, open_end_of. rewrite pts_closed_line by reflexivity.
  destruct (line_is_closed (MkLine ct (a :: r))) eqn:Ec; [reflexivity|].
  unfold line_pts. cbn [line_vs map negb andb]. rewrite (last_map vpt). unfold cnt. cbn [filter].
  unfold line_is_closed in Ec. cbn [line_vs] in Ec.
  destruct (pt_eqb p (vpt a)) eqn:E1; destruct (pt_eqb p (vpt (last r a))) eqn:E2; try reflexivity.
  (* both: a == last, contradiction with not closed *)
  exfalso. rewrite (pt_eqb_sym p (vpt a)) in E1. rewrite (pt_eqb_trans_l _ _ _ E1) in Ec. congruence.
Qed.

Lemma ends_cnt ls p : cnt p (flat_map line_ends ls) = length (filter (fun l => open_end_of l p) ls).
Proof.
  induction ls as [|l ls IH]; [reflexivity|]. simpl. rewrite cnt_app, IH, line_ends_cnt.
  destruct (open_end_of l p); reflexivity.
Qed.

Theorem boundary_mod2_spec_lemma ls p : inG (mline_boundary ls) p = odd_open_ends ls p.
Proof.
  unfold mline_boundary, odd_open_ends. rewrite inG_new_multipoint, mod2_points_spec, mline_endpoints_ends, ends_cnt.
  reflexivity.
Qed.

Lemma odd_ends_cnt ends p : odd_ends ends p = Nat.odd (cnt p ends).
Proof. unfold odd_ends, cnt. rewrite fold_xorb_odd. apply xorb_false_l. Qed.

(* every control point of a line string is on it *)
Lemma ring_edges_vertex ps q : (2 <= length ps)%nat -> In q ps ->
  exists e, In e (ring_edges ps) /\ (fst e = q \/ snd e = q).
Proof.
  induction ps as [|a [|b r] IH]; simpl; intros Hl Hin; try lia.
  destruct Hin as [<-|Hin].
  - exists (a, b). split; [left; reflexivity|left; reflexivity].
  - destruct r as [|c r].
    + destruct Hin as [<-|[]]. exists (a, b). split; [left; reflexivity|right; reflexivity].
    + destruct IH as [e [He Hq]]; [simpl; lia|exact Hin|]. exists e. split; [right; exact He|exact Hq].
Qed.

Lemma vertex_on_line l v : In v (line_vs l) -> on_line l (vpt v) = true.
Proof.
  intros Hin. unfold on_line, line_segs, on_edges. apply existsb_exists.
  assert (Hq : In (vpt v) (line_pts l)) by (unfold line_pts; apply in_map; exact Hin).
  destruct (line_pts l) as [|a [|b r]] eqn:E.
  - destruct Hq.
  - destruct Hq as [<-|[]]. exists (a, a). split; [left; reflexivity|apply on_seg_left].
  - unfold segs_of_pts. destruct (ring_edges_vertex (a :: b :: r) (vpt v)) as [e [He Hq']]; [simpl; lia|exact Hq|].
    exists e. split; [exact He|]. destruct e as [e1 e2]. cbn [fst snd] in Hq'.
    destruct Hq' as [<-|<-]; [apply on_seg_left|apply on_seg_right].
Qed.

Lemma on_line_proper l p q : pt_eqb p q = true -> on_line l p = on_line l q.
Proof.
  intros H. apply pt_eqb_iff in H. unfold on_line, on_edges. apply existsb_ext_in. intros [a b] _.
  apply on_seg_proper; [reflexivity|reflexivity|exact H].
Qed.

Lemma open_end_on_line l p : open_end_of l p = true -> on_line l p = true.
Proof.
  unfold open_end_of. destruct l as [ct [|a r]]; cbn [line_vs]; intros H; apply andb_prop in H; destruct H as [_ H]; [discriminate|].
  apply orb_true_iff in H. destruct H as [H|H]; rewrite (on_line_proper _ _ _ H); apply vertex_on_line; cbn [line_vs].
  - left; reflexivity.
  - apply last_in.
Qed.

Lemma odd_length_filter_exists {A} (f : A -> bool) l : Nat.odd (length (filter f l)) = true -> exists x, In x l /\ f x = true.
Proof.
  intros H. apply odd_pos in H. destruct (filter f l) as [|x r] eqn:E; [simpl in H; lia|].
  assert (Hin : In x (filter f l)) by (rewrite E; left; reflexivity). apply filter_In in Hin. exists x. exact Hin.
Qed.

(* lineal: membership in Boundary(g) is exactly "locates as Boundary" *)
Lemma locate_mline ct ls p :
  locate (GMLine ct ls) p = Boundary <-> odd_open_ends ls p = true.
Proof.
  unfold locate, prep, locate_p. cbn [g_polys g_lines g_points map existsb pg_polys pg_lines pg_ends pg_points].
  rewrite odd_ends_cnt, ends_cnt. fold (odd_open_ends ls p).
  destruct (odd_open_ends ls p) eqn:Eo.
  - assert (Hon : existsb (fun es => on_edges es p) (map line_segs ls) = true).
    { unfold odd_open_ends in Eo. apply odd_length_filter_exists in Eo. destruct Eo as [l [Hl He]].
      rewrite existsb_map. apply existsb_exists. exists l. split; [exact Hl|]. apply open_end_on_line in He. exact He. }
    rewrite Hon. split; reflexivity.
  - destruct (existsb _ (map line_segs ls)); split; intros; discriminate.
Qed.

Lemma locate_line_mline l p : locate (GLine l) p = locate (GMLine XY [l]) p.
Proof. reflexivity. Qed.

Lemma inG_line_boundary l p : inG (line_boundary l) p = open_end_of l p.
Proof.
  unfold line_boundary, open_end_of. destruct l as [ct [|a r]]; [reflexivity|].
  cbn [line_empty line_vs orb]. destruct (line_is_closed (MkLine ct (a :: r))); [reflexivity|].
  rewrite inG_new_multipoint. cbn [existsb negb andb]. rewrite !in_point_xy.
  cbn [start_point end_point line_vs hd_error point_xy point_c option_map line_ct]. rewrite orb_false_r. reflexivity.
Qed.

Theorem boundary_locate_lineal_lemma (g : geom) p :
  (exists l, g = GLine l) \/ (exists ct ls, g = GMLine ct ls) ->
  (inG (boundary g) p = true <-> locate g p = Boundary).
Proof.
  intros [[l ->]|[ct [ls ->]]]; cbn [boundary].
  - rewrite inG_line_boundary, locate_line_mline, locate_mline. unfold odd_open_ends. cbn [filter].
    destruct (open_end_of l p); simpl; split; auto.
  - rewrite boundary_mod2_spec_lemma, locate_mline. reflexivity.
Qed.

(* areal *)
Lemma rings_boundary_not_interior rs p : rings_boundary rs p = true -> rings_interior rs p = false.
Proof.
  destruct rs as [|sh hs]; [reflexivity|]. cbn [rings_boundary existsb rings_interior]. intros H.
  apply orb_true_iff in H. destruct H as [H|H].
  - unfold ring_strict_in. rewrite H. reflexivity.
  - apply andb_false_iff. right. apply existsb_exists in H. destruct H as [h [Hh Hon]].
    apply not_true_iff_false. intro Hall. rewrite forallb_forall in Hall. specialize (Hall h Hh).
    unfold ring_strict_out in Hall. rewrite Hon in Hall. discriminate.
Qed.

Lemma inG_poly_boundary y p : inG (boundary (GPoly y)) p = poly_boundary y p.
Proof.
  cbn [boundary]. unfold poly_boundary_geom. rewrite poly_boundary_mls_eq.
  unfold poly_boundary, rings_boundary, poly_ring_segs. rewrite existsb_map.
  assert (E : inG (GMLine XY (map line2d (poly_rings y))) p = existsb (fun l => on_edges (line_segs l) p) (poly_rings y)).
  { cbn [inG]. rewrite existsb_map. apply existsb_ext_in. intros l _. unfold line2d. apply on_line_force. }
  rewrite <- E. destruct (map line2d (poly_rings y)) as [|l [|l2 r]]; cbn [inG existsb]; rewrite ?orb_false_r; reflexivity.
Qed.

Theorem boundary_locate_polygon_lemma y p :
  inG (boundary (GPoly y)) p = true <-> locate (GPoly y) p = Boundary.
Proof.
  rewrite inG_poly_boundary. unfold locate, prep, locate_p, poly_boundary.
  cbn [g_polys g_lines g_points map existsb pg_polys pg_lines pg_ends pg_points]. rewrite !orb_false_r.
  destruct (rings_boundary (poly_ring_segs y) p) eqn:Eb.
  - rewrite (rings_boundary_not_interior _ _ Eb). split; reflexivity.
  - destruct (rings_interior (poly_ring_segs y) p); split; intros; discriminate.
Qed.

Lemma inG_mpoly_boundary ct ys p :
  inG (boundary (GMPoly ct ys)) p = existsb (fun y => poly_boundary y p) ys.
Proof.
  cbn [boundary]. unfold mpoly_boundary. rewrite inG_new_multiline.
  induction ys as [|y ys IH]; [reflexivity|]. cbn [flat_map existsb]. rewrite existsb_app, IH. f_equal.
  unfold poly_boundary, rings_boundary, poly_ring_segs. rewrite !existsb_map.
  apply existsb_ext_in. intros l _. unfold line2d. apply on_line_force.
Qed.

(* MultiPolygon: a point of Boundary(g) locates as Boundary unless it is strictly inside another
   member (excluded for valid input: members have disjoint interiors and touch at points only) *)
Theorem boundary_locate_multipolygon_lemma ct ys p :
  locate (GMPoly ct ys) p = Boundary <->
  inG (boundary (GMPoly ct ys)) p = true /\ existsb (fun y => poly_interior y p) ys = false.
Proof.
  rewrite inG_mpoly_boundary. unfold locate, prep, locate_p.
  cbn [g_polys g_lines g_points map existsb pg_polys pg_lines pg_ends pg_points]. rewrite !existsb_map.
  change (existsb (fun x => rings_interior (poly_ring_segs x) p) ys) with (existsb (fun y => poly_interior y p) ys).
  change (existsb (fun x => rings_boundary (poly_ring_segs x) p) ys) with (existsb (fun y => poly_boundary y p) ys).
  destruct (existsb (fun y => poly_interior y p) ys); [split; [discriminate|intros [_ H]; discriminate]|].
  destruct (existsb (fun y => poly_boundary y p) ys); split; try reflexivity; try discriminate; auto.
  intros [H _]. discriminate.
Qed.
