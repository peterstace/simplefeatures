(* Property C03 - what a nil verdict of the polygon validation guarantees (local OGC rules), and
   the start-vertex independence of the nested-ring probe after fixes/F3.patch.
   Main results: polygon_validate_sound_partial_lemma, nested_probe_start_invariant_lemma. *)
From Coq Require Import QArith Qreduction List Bool ZArith Lia Lqa Arith Setoid Morphisms.
From SF Require Import Base.QKernel Model.Validate Model.ValidateSpec Proofs.Validate_kernel Proofs.Validate_proofs Proofs.Validate_graph.
Import ListNotations.
Open Scope Q_scope.


(* [first_off_boundary vs other] is the side of the first vertex of vs that is not on [other] *)
Lemma first_off_in vs other s : first_off_boundary vs other = s -> s <> SBoundary ->
  exists p, In p vs /\ relate_lines p other false = s.
Proof.
  intros F N. induction vs as [|a r IH]; simpl in F; [congruence|].
  destruct (relate_lines a other false) eqn:E; try (exists a; split; [left; reflexivity | congruence]).
  destruct (IH F) as [p [Hp Ep]]. exists p. split; [right; exact Hp | exact Ep].
Qed.

Lemma first_off_all_boundary vs other : first_off_boundary vs other = SBoundary ->
  forall p, In p vs -> relate_lines p other false = SBoundary.
Proof.
  induction vs as [|a r IH]; simpl; intros F p Hp; [destruct Hp|].
  destruct (relate_lines a other false) eqn:E; try discriminate.
  destruct Hp as [<-|Hp]; [exact E | exact (IH F p Hp)].
Qed.

(* all vertices of vs that are not on [other] lie on the same side s of it (what holds when the
   two rings do not cross) *)
Definition uniform_side (vs : list pt) (other : list seg) (s : side) : Prop :=
  forall p, In p vs -> relate_lines p other false = SBoundary \/ relate_lines p other false = s.

Lemma first_off_boundary_uniform vs other s :
  s <> SBoundary -> uniform_side vs other s ->
  (exists p, In p vs /\ relate_lines p other false = s) ->
  first_off_boundary vs other = s.
Proof.
  intros Hs Hu [p [Hp Ep]].
  assert (N : first_off_boundary vs other <> SBoundary).
  { intros K. rewrite (first_off_all_boundary vs other K p Hp) in Ep. congruence. }
  destruct (first_off_in vs other _ eq_refl N) as [q [Hq Eq]]. destruct (Hu q Hq); congruence.
Qed.

(* Start-vertex independence of the fixed probe: when the vertices of a ring that are off the other
   ring all lie on one side of it, the probe returns that side for every list with the same
   vertices - in particular for the ring started at any other vertex or reversed. *)
Theorem nested_probe_start_invariant_lemma vs vs' other s :
  s <> SBoundary -> uniform_side vs other s ->
  (forall p, In p vs' <-> In p vs) ->
  (exists p, In p vs /\ relate_lines p other false = s) ->
  first_off_boundary vs' other = first_off_boundary vs other.
Proof.
  intros Hs Hu Hperm Hex.
  rewrite (first_off_boundary_uniform vs other s Hs Hu Hex).
  apply first_off_boundary_uniform; [exact Hs| |].
  - intros p Hp. apply Hu. apply Hperm. exact Hp.
  - destruct Hex as [p [Hp Ep]]. exists p. split; [apply Hperm; exact Hp | exact Ep].
Qed.


Definition nondeg (s : seg) : Prop := ~ pt_eq (fst s) (snd s).

(* what a summary says about the set S of segment pairs processed so far *)
Definition Sum (r : isum) (S : seg -> seg -> Prop) : Prop :=
  match r with
  | INone => forall la lb, S la lb -> forall p, ~ common la lb p
  | ISingle x => (exists la lb, S la lb /\ common la lb x)
                 /\ forall la lb, S la lb -> forall p, common la lb p -> pt_eq p x
  | IMulti => exists la lb p la' lb' q, S la lb /\ common la lb p /\ S la' lb' /\ common la' lb' q /\ ~ pt_eq p q
  end.

Lemma Sum_ext r (S S' : seg -> seg -> Prop) : (forall a b, S a b <-> S' a b) -> Sum r S -> Sum r S'.
Proof.
  intros H. destruct r; simpl.
  - intros K la lb Hs. apply K. apply H. exact Hs.
  - intros [[la [lb [K1 K2]]] K]. split; [exists la, lb; split; [apply H; exact K1 | exact K2]|].
    intros la' lb' Hs. apply K. apply H. exact Hs.
  - intros [la [lb [p [la' [lb' [q [K1 [K2 [K3 [K4 K5]]]]]]]]]]. exists la, lb, p, la', lb', q.
    split; [apply H; exact K1|]. split; [exact K2|]. split; [apply H; exact K3|]. split; assumption.
Qed.

Lemma isum_step_sum acc S la lb : nondeg la -> nondeg lb -> Sum acc S ->
  Sum (isum_step acc la lb) (fun a b => S a b \/ (a = la /\ b = lb)).
Proof.
  intros Na Nb Hs. unfold isum_step. destruct la as [a b], lb as [c d].
  pose proof (intersect_line_spec a b c d Na Nb) as Sp.
  destruct acc as [|x|].
  - destruct (intersect_line (a, b) (c, d)) as [|pa pb]; simpl in Sp.
    + simpl. intros la lb [H|[-> ->]]; [apply Hs; exact H | exact Sp].
    + destruct Sp as [Ca [Cb U]]. destruct (pt_eqb pa pb) eqn:E; simpl.
      * apply pt_eqb_iff in E. split; [exists (a, b), (c, d); auto|].
        intros la lb [H|[-> ->]] p Hp; [exfalso; exact (Hs la lb H p Hp) | exact (U E p Hp)].
      * apply pt_eqb_false_iff in E. exists (a, b), (c, d), pa, (a, b), (c, d), pb. auto 10.
  - destruct Hs as [[l1 [l2 [W1 W2]]] Hc].
    destruct (intersect_line (a, b) (c, d)) as [|pa pb]; simpl in Sp.
    + simpl. split; [exists l1, l2; auto|].
      intros la lb [H|[-> ->]] p Hp; [exact (Hc la lb H p Hp) | exfalso; exact (Sp p Hp)].
    + destruct Sp as [Ca [Cb U]]. destruct (pt_eqb pa pb) eqn:E; simpl.
      * apply pt_eqb_iff in E. destruct (pt_eqb x pa) eqn:E2; simpl.
        -- apply pt_eqb_iff in E2. split; [exists l1, l2; auto|].
           intros la lb [H|[-> ->]] p Hp; [exact (Hc la lb H p Hp)|]. rewrite E2. exact (U E p Hp).
        -- apply pt_eqb_false_iff in E2. exists l1, l2, x, (a, b), (c, d), pa. auto 10.
      * apply pt_eqb_false_iff in E. exists (a, b), (c, d), pa, (a, b), (c, d), pb. auto 10.
  - destruct Hs as [l1 [l2 [p [l1' [l2' [q [K1 [K2 [K3 [K4 K5]]]]]]]]]]. exists l1, l2, p, l1', l2', q. auto 10.
Qed.

(* an invariant of a step function on pairs, indexed by the set of pairs seen so far, holds of the
   fold over all pairs of two lists *)
Lemma fold_pairs_inv {A X Y} (f : A -> X -> Y -> A) (I : A -> (X -> Y -> Prop) -> Prop) (QX : X -> Prop) (QY : Y -> Prop) :
  (forall acc P P', (forall x y, P x y <-> P' x y) -> I acc P -> I acc P') ->
  (forall acc P x y, QX x -> QY y -> I acc P -> I (f acc x y) (fun a b => P a b \/ (a = x /\ b = y))) ->
  forall ly, Forall QY ly -> forall lx, Forall QX lx -> forall acc P, I acc P ->
  I (fold_left (fun acc0 x => fold_left (fun acc1 y => f acc1 x y) ly acc0) lx acc)
    (fun a b => P a b \/ (In a lx /\ In b ly)).
Proof.
  intros Hext Hstep ly Hy.
  assert (Hin : forall x, QX x -> forall l, Forall QY l -> forall acc P, I acc P ->
            I (fold_left (fun acc1 y => f acc1 x y) l acc) (fun a b => P a b \/ (a = x /\ In b l))).
  { intros x Hx. induction 1 as [|y r Hy0 Hr IH]; intros acc P HI; simpl.
    - eapply Hext; [|exact HI]. intros a b. tauto.
    - eapply Hext; [|apply IH; apply Hstep; eassumption]. intros a b. simpl. split.
      + intros [[H|[-> ->]]|[-> H]]; auto.
      + intros [H|[-> [<-|H]]]; auto. }
  induction 1 as [|x r Hx Hr IH]; intros acc P HI; simpl.
  - eapply Hext; [|exact HI]. intros a b. tauto.
  - eapply Hext; [|apply IH; apply Hin; eassumption]. intros a b. simpl. split.
    + intros [[H|[-> H]]|[H H']]; auto.
    + intros [H|[[<-|H] H']]; auto.
Qed.

Lemma inter_summary_sum l1 l2 : Forall nondeg l1 -> Forall nondeg l2 ->
  Sum (inter_summary l1 l2) (fun la lb => In la l2 /\ In lb l1).
Proof.
  intros N1 N2. unfold inter_summary.
  eapply Sum_ext; [|apply (fold_pairs_inv isum_step Sum nondeg nondeg Sum_ext isum_step_sum l1 N1 l2 N2 INone (fun _ _ => False))].
  - intros a b. tauto.
  - intros la lb [].
Qed.

Lemma as_lines_all_nondeg ps : Forall nondeg (as_lines ps).
Proof. apply Forall_forall. intros s Hs. exact (as_lines_nondegenerate ps s Hs). Qed.

(* a point of the curve through the vertices ps (on one of its valid lines) *)
Definition on_curve (ps : list pt) (p : pt) : Prop := exists s, In s (as_lines ps) /\ on_seg s p = true.

(* two rings are summarised as "multiple" exactly when they share two distinct points *)
Lemma inter_summary_at_most_one ri rj :
  inter_summary (as_lines ri) (as_lines rj) <> IMulti ->
  forall p q, on_curve ri p -> on_curve rj p -> on_curve ri q -> on_curve rj q -> pt_eq p q.
Proof.
  intros H p q [s1 [I1 O1]] [t1 [J1 P1]] [s2 [I2 O2]] [t2 [J2 P2]].
  pose proof (inter_summary_sum _ _ (as_lines_all_nondeg ri) (as_lines_all_nondeg rj)) as C.
  destruct (inter_summary (as_lines ri) (as_lines rj)) as [|x|]; simpl in C; [| |congruence].
  - exfalso. apply (C t1 s1 (conj J1 I1) p). split; assumption.
  - destruct C as [_ C]. rewrite (C t1 s1 (conj J1 I1) p), (C t2 s2 (conj J2 I2) q); [reflexivity | split; assumption | split; assumption].
Qed.
Lemma at_most_one_not_multi ri rj :
  (forall p q, on_curve ri p -> on_curve rj p -> on_curve ri q -> on_curve rj q -> pt_eq p q) ->
  inter_summary (as_lines ri) (as_lines rj) <> IMulti.
Proof.
  intros H E. pose proof (inter_summary_sum _ _ (as_lines_all_nondeg ri) (as_lines_all_nondeg rj)) as W.
  rewrite E in W. simpl in W. destruct W as [la [lb [p [la' [lb' [q [[I1 I2] [[C1 C2] [[I3 I4] [[C3 C4] N]]]]]]]]]].
  apply N. apply H; [exists lb | exists la | exists lb' | exists la']; auto.
Qed.


Fixpoint indexed {A} (i : nat) (l : list A) : list (nat * A) :=
  match l with [] => [] | x :: r => (i, x) :: indexed (S i) r end.
Lemma indexed_in {A} (l : list A) : forall i j x, In (j, x) (indexed i l) <-> (i <= j)%nat /\ nth_error l (j - i) = Some x.
Proof.
  induction l as [|a r IH]; intros i j x; simpl.
  - split; [tauto|]. intros [_ H]. destruct (j - i)%nat; discriminate.
  - rewrite IH. split.
    + intros [H|[H1 H2]].
      * inversion H; subst. rewrite Nat.sub_diag. simpl. auto.
      * split; [lia|]. replace (j - i)%nat with (S (j - S i)) by lia. exact H2.
    + intros [H1 H2]. destruct (Nat.eq_dec i j) as [->|Hne].
      * rewrite Nat.sub_diag in H2. simpl in H2. inversion H2. left; reflexivity.
      * right. split; [lia|]. replace (j - i)%nat with (S (j - S i)) in H2 by lia. exact H2.
Qed.
Lemma indexed_app {A} (l1 l2 : list A) i : indexed i (l1 ++ l2) = indexed i l1 ++ indexed (i + length l1) l2.
Proof.
  revert i. induction l1 as [|a r IH]; intros i; simpl; [rewrite Nat.add_0_r; reflexivity|].
  rewrite IH. replace (S i + length r)%nat with (i + S (length r))%nat by lia. reflexivity.
Qed.

Lemma nth_error_firstn_lt {A} (l : list A) : forall k j, (j < k)%nat -> nth_error (firstn k l) j = nth_error l j.
Proof.
  induction l as [|a r IH]; intros k j H; [destruct k, j; reflexivity|].
  destruct k as [|k]; [lia|]. destruct j as [|j]; [reflexivity|]. simpl. apply IH. lia.
Qed.

Section Loops.
  Variable nested : list pt -> list pt -> option bool.

  Definition PairOK (i j : nat) (ri rj : list pt) : Prop :=
    ((0 < i)%nat -> (0 < j)%nat -> nested ri rj = Some false)
    /\ inter_summary (as_lines ri) (as_lines rj) <> IMulti.

  Lemma pair_step_ok i j ri rj st st' : pair_step nested i j ri rj st = inr st' -> PairOK i j ri rj.
  Proof.
    unfold pair_step, PairOK. intros H. split.
    - intros Hi Hj. apply Nat.ltb_lt in Hi, Hj. rewrite Hi, Hj in H. simpl in H.
      destruct (nested ri rj) as [[|]|]; try discriminate. reflexivity.
    - destruct (if (0 <? i)%nat && (0 <? j)%nat then nested ri rj else Some false) as [[|]|]; try discriminate.
      destruct (inter_summary (as_lines ri) (as_lines rj)); congruence.
  Qed.

  Lemma loop_j_ok i ri below : forall st st', loop_j nested i ri below st = inr st' ->
    forall j rj, In (j, rj) below -> PairOK i j ri rj.
  Proof.
    induction below as [|[j0 r0] t IH]; intros st st' H j rj Hin; [destruct Hin|].
    simpl in H. destruct (pair_step nested i j0 ri r0 st) as [e|st1] eqn:E; [discriminate|].
    destruct Hin as [Heq|Hin]; [inversion Heq; subst; eapply pair_step_ok; eauto | eapply IH; eauto].
  Qed.

  Lemma loop_i_ok rest : forall i below st st', loop_i nested i below rest st = inr st' ->
    forall k ri, nth_error rest k = Some ri ->
    forall j rj, In (j, rj) (below ++ indexed i (firstn k rest)) -> PairOK (i + k) j ri rj.
  Proof.
    induction rest as [|r0 t IH]; intros i below st st' H k ri Hk j rj Hin; [destruct k; discriminate|].
    simpl in H. destruct (loop_j nested i r0 below st) as [e|st1] eqn:E; [discriminate|].
    destruct k as [|k].
    - simpl in Hk. inversion Hk; subst. simpl in Hin. rewrite app_nil_r in Hin. rewrite Nat.add_0_r.
      eapply loop_j_ok; eauto.
    - simpl in Hk. replace (i + S k)%nat with (S i + k)%nat by lia.
      apply (IH (S i) (below ++ [(i, r0)]) st1 st' H k ri Hk j rj).
      simpl in Hin. rewrite <- app_assoc. exact Hin.
  Qed.

  (* the invariant of the touch-graph bookkeeping: intersection vertices are numbered from n,
     ring vertices are below n *)
  Definition GInv (n : nat) (st : pstate) : Prop :=
    (n <= ps_next st)%nat
    /\ (forall p k, In (p, k) (ps_ivs st) -> (n <= k < ps_next st)%nat)
    /\ (forall e, In e (ps_edges st) -> (snd e < n <= fst e)%nat).

  Lemma lookup_pt_in p d k : lookup_pt p d = Some k -> exists q, In (q, k) d.
  Proof.
    induction d as [|[q k0] r IH]; simpl; [discriminate|].
    destruct (pt_eqb q p); [intros H; inversion H; subst; eauto|].
    intros H. destruct (IH H) as [q' Hq]. eauto.
  Qed.

  Lemma pair_step_inv n i j ri rj st st' : (i < n)%nat -> (j < n)%nat -> GInv n st ->
    pair_step nested i j ri rj st = inr st' -> GInv n st'.
  Proof.
    intros Hi Hj [G1 [G2 G3]] H. unfold pair_step in H.
    destruct (if (0 <? i)%nat && (0 <? j)%nat then nested ri rj else Some false) as [[|]|]; try discriminate.
    destruct (inter_summary (as_lines ri) (as_lines rj)) as [|p|]; try discriminate.
    - inversion H; subst. split; auto.
    - destruct (lookup_pt p (ps_ivs st)) as [k|] eqn:L; inversion H; subst; clear H.
      + destruct (lookup_pt_in _ _ _ L) as [q Hq]. pose proof (G2 q k Hq) as Hk.
        split; [exact G1|]. split; [exact G2|]. simpl. intros e [<-|[<-|He]]; simpl; [lia | lia | exact (G3 e He)].
      + split; [simpl; lia|]. split.
        * simpl. intros q k [Heq|Hin]; [inversion Heq; subst; lia | pose proof (G2 q k Hin); lia].
        * simpl. intros e [<-|[<-|He]]; simpl; [lia | lia | exact (G3 e He)].
  Qed.
  Lemma loop_j_inv n i ri below : (i < n)%nat -> (forall j rj, In (j, rj) below -> (j < n)%nat) ->
    forall st st', GInv n st -> loop_j nested i ri below st = inr st' -> GInv n st'.
  Proof.
    intros Hi. induction below as [|[j0 r0] t IH]; intros Hb st st' G H; [simpl in H; inversion H; subst; exact G|].
    simpl in H. destruct (pair_step nested i j0 ri r0 st) as [e|st1] eqn:E; [discriminate|].
    apply (IH (fun j rj Hin => Hb j rj (or_intror Hin)) st1 st'); [|exact H].
    eapply pair_step_inv; [exact Hi | apply (Hb j0 r0); left; reflexivity | exact G | exact E].
  Qed.
  Lemma loop_i_inv n rest : forall i below st st', (i + length rest <= n)%nat ->
    (forall j rj, In (j, rj) below -> (j < n)%nat) -> GInv n st ->
    loop_i nested i below rest st = inr st' -> GInv n st'.
  Proof.
    induction rest as [|r0 t IH]; intros i below st st' Hlen Hb G H; [simpl in H; inversion H; subst; exact G|].
    simpl in H, Hlen. destruct (loop_j nested i r0 below st) as [e|st1] eqn:E; [discriminate|].
    apply (IH (S i) (below ++ [(i, r0)]) st1 st'); [lia| | |exact H].
    - intros j rj Hin. apply in_app_or in Hin. destruct Hin as [Hin|[Heq|[]]]; [eapply Hb; eauto | inversion Heq; subst; lia].
    - eapply loop_j_inv; [|exact Hb|exact G|exact E]. lia.
  Qed.
End Loops.

Lemma ring_geom_validate_None ps :
  ring_geom_validate ps = None <-> has_2_distinct ps = true /\ is_closed ps = true /\ Simple ps.
Proof.
  unfold ring_geom_validate. rewrite <- ring_simple_spec_lemma.
  destruct (has_2_distinct ps), (is_closed ps), (is_simple ps); cbn [negb]; intuition discriminate.
Qed.

Lemma hole_in_shell_first_off shell vs :
  hole_in_shell shell vs = negb (side_eqb (first_off_boundary vs shell) SExterior).
Proof.
  induction vs as [|a r IH]; [reflexivity|]. simpl. destruct (relate_lines a shell false); auto.
Qed.

Lemma nested_v1_false ri rj :
  nested_v1 ri rj = Some false <->
  ri <> [] /\ rj <> [] /\ first_off_boundary ri (as_lines rj) <> SInterior /\ first_off_boundary rj (as_lines ri) <> SInterior.
Proof.
  destruct ri as [|a ra], rj as [|b rb]; cbn [nested_v1]; try (split; [discriminate | intuition congruence]).
  destruct (first_off_boundary (a :: ra) (as_lines (b :: rb))), (first_off_boundary (b :: rb) (as_lines (a :: ra)));
    cbn [side_eqb orb]; intuition congruence.
Qed.

(* What a nil verdict of the (fixed) polygon validation guarantees about finite rings, rule by rule.
   FULL STATEMENT NOT PROVED: poly_geom_validate nested_v1 rings = None (with valid rings) <->
   poly_def rings = true (ValidateSpec), i.e. equivalence with the OGC definition including
   "holes lie inside the shell at EVERY point" and "the interior is connected".  The first (a
   non-crossing ring lies on one side of another) is proved without topology in
   Proofs/Validate_sound_all.v (polygon_validate_sound_everywhere_lemma, on Validate_jordan.v); the
   second (acyclic touch graph <-> connected interior) is not proved and is covered by the
   correspondence run (model verdict = ogc_valid on every generated case). *)
Theorem polygon_validate_sound_partial_lemma (rings : list (list pt)) :
  Forall (fun r => ring_geom_validate r = None) rings ->
  poly_geom_validate nested_v1 rings = None ->
  (* 1. every ring has two distinct points, is closed and is simple by the definition *)
  Forall (fun r => has_2_distinct r = true /\ is_closed r = true /\ Simple r) rings
  (* 2. two rings share at most one point *)
  /\ (forall i j ri rj, (j < i)%nat -> nth_error rings i = Some ri -> nth_error rings j = Some rj ->
        forall p q, on_curve ri p -> on_curve rj p -> on_curve ri q -> on_curve rj q -> pt_eq p q)
  (* 3. no hole is seen nested in another hole by the probe (first vertex off the other ring) *)
  /\ (forall i j ri rj, (0 < j < i)%nat -> nth_error rings i = Some ri -> nth_error rings j = Some rj ->
        first_off_boundary ri (as_lines rj) <> SInterior /\ first_off_boundary rj (as_lines ri) <> SInterior)
  (* 4. the first vertex of every hole that is off the shell is inside the shell *)
  /\ (forall shell holes, rings = shell :: holes ->
        Forall (fun h => first_off_boundary h (as_lines shell) <> SExterior) holes)
  (* 5. the touch graph (rings and touch points as vertices) has no simple cycle *)
  /\ (exists st, loop_i nested_v1 0 [] rings (MkPS (length rings) [] []) = inr st
                 /\ no_self_loops (ps_edges st) /\ ~ exists c, Cycle (ps_edges st) c).
Proof.
  intros Hr Hv.
  assert (R1 : Forall (fun r => has_2_distinct r = true /\ is_closed r = true /\ Simple r) rings).
  { eapply Forall_impl; [|exact Hr]. intros r. apply ring_geom_validate_None. }
  split; [exact R1|].
  (* the loop ran to completion *)
  assert (HL : exists st, loop_i nested_v1 0 [] rings (MkPS (length rings) [] []) = inr st
                /\ (forall shell holes, rings = shell :: holes -> forallb (hole_in_shell (as_lines shell)) holes = true)
                /\ has_cycle (ps_edges st) = false).
  { unfold poly_geom_validate in Hv. destruct rings as [|shell holes].
    - exists (MkPS 0 [] []). split; [reflexivity|]. split; [intros s h E; discriminate | reflexivity].
    - destruct (loop_i nested_v1 0 [] (shell :: holes) (MkPS (length (shell :: holes)) [] [])) as [e|st]; [discriminate|].
      exists st. split; [reflexivity|].
      destruct (forallb (hole_in_shell (as_lines shell)) holes) eqn:F; [|discriminate].
      destruct (has_cycle (ps_edges st)) eqn:C; [discriminate|].
      split; [|reflexivity]. intros s h E. inversion E; subst. exact F. }
  destruct HL as [st [HLoop [HHoles HCyc]]].
  assert (HPairs : forall i j ri rj, (j < i)%nat -> nth_error rings i = Some ri -> nth_error rings j = Some rj ->
                   PairOK nested_v1 i j ri rj).
  { intros i j ri rj Hji Hi Hj.
    apply (loop_i_ok nested_v1 rings 0 [] (MkPS (length rings) [] []) st HLoop i ri Hi j rj). simpl.
    apply indexed_in. split; [lia|]. rewrite Nat.sub_0_r.
    rewrite nth_error_firstn_lt by exact Hji. exact Hj. }
  split.
  { intros i j ri rj Hji Hi Hj. destruct (HPairs i j ri rj Hji Hi Hj) as [_ H]. apply inter_summary_at_most_one. exact H. }
  split.
  { intros i j ri rj [H0j Hji] Hi Hj. destruct (HPairs i j ri rj Hji Hi Hj) as [H _].
    destruct (proj1 (nested_v1_false ri rj) (H ltac:(lia) H0j)) as [_ [_ K]]. exact K. }
  split.
  { intros shell holes E. specialize (HHoles shell holes E). rewrite forallb_forall in HHoles.
    apply Forall_forall. intros h Hh. specialize (HHoles h Hh). rewrite hole_in_shell_first_off in HHoles.
    intros K. rewrite K in HHoles. discriminate. }
  exists st. split; [exact HLoop|].
  assert (G : GInv (length rings) st).
  { apply (loop_i_inv nested_v1 (length rings) rings 0 [] (MkPS (length rings) [] []) st); [simpl; lia | intros j rj [] | | exact HLoop].
    split; [simpl; lia|]. split; [intros p k []|intros e []]. }
  assert (Hns : no_self_loops (ps_edges st)).
  { intros e He. destruct G as [_ [_ G3]]. specialize (G3 e He). lia. }
  split; [exact Hns|]. intros Hc. apply (has_cycle_spec_lemma _ Hns) in Hc. congruence.
Qed.


Definition no_overlap (la lb : seg) : Prop :=
  match intersect_line la lb with ILEmpty => True | ILSome pa pb => pt_eqb pa pb = true end.

Lemma no_overlap_iff la lb : no_overlap la lb <-> il_ls (intersect_line la lb) = false.
Proof. unfold no_overlap. destruct (intersect_line la lb); cbn [il_ls]; [|rewrite negb_false_iff]; tauto. Qed.

Lemma boundary_inter_no_overlap b1 b2 : snd (boundary_inter b1 b2) = false ->
  forall la lb, In la b1 -> In lb b2 -> no_overlap la lb.
Proof.
  rewrite boundary_inter_exists. cbn [snd]. intros H la lb Ha Hb. apply no_overlap_iff.
  exact (existsb2_false (fun la lb => il_ls (intersect_line la lb)) _ _ H la lb Ha Hb).
Qed.

Lemma no_overlap_at_most_one la lb : nondeg la -> nondeg lb -> no_overlap la lb ->
  forall p q, common la lb p -> common la lb q -> pt_eq p q.
Proof.
  intros Na Nb H p q Hp Hq. destruct la as [a b], lb as [c d]. unfold no_overlap in H.
  pose proof (intersect_line_spec a b c d Na Nb) as Sp.
  destruct (intersect_line (a, b) (c, d)) as [|pa pb]; simpl in Sp; [exfalso; exact (Sp p Hp)|].
  destruct Sp as [_ [_ U]]. apply pt_eqb_iff in H. rewrite (U H p Hp), (U H q Hq). reflexivity.
Qed.

Lemma mpoly_pair_boundaries pi pj : mpoly_pair pi pj = None ->
  forall s t, In s (poly_lines pi) -> In t (poly_lines pj) ->
  forall p q, common s t p -> common s t q -> pt_eq p q.
Proof.
  unfold mpoly_pair. intros H s t Hs Ht.
  destruct (boundary_inter (poly_lines pi) (poly_lines pj)) as [hp hl] eqn:E.
  destruct hl; [discriminate|].
  assert (K : snd (boundary_inter (poly_lines pi) (poly_lines pj)) = false) by (rewrite E; reflexivity).
  pose proof (boundary_inter_no_overlap _ _ K s t Hs Ht) as No.
  apply no_overlap_at_most_one; [| |exact No].
  - exact (poly_lines_nondegenerate pi s Hs).
  - exact (poly_lines_nondegenerate pj t Ht).
Qed.

Lemma mpoly_against_ok pi below : mpoly_against pi below = None ->
  forall pj, In pj below -> pj <> [] -> mpoly_pair pi pj = None.
Proof.
  induction below as [|x r IH]; intros H pj Hin Hne; [destruct Hin|].
  simpl in H. destruct x as [|r0 rt].
  - destruct Hin as [<-|Hin]; [congruence | exact (IH H pj Hin Hne)].
  - destruct (mpoly_pair pi (r0 :: rt)) eqn:E; [discriminate|].
    destruct Hin as [<-|Hin]; [exact E | exact (IH H pj Hin Hne)].
Qed.

Lemma mpoly_constraints_ok rest : forall below, mpoly_constraints below rest = None ->
  forall k pi, nth_error rest k = Some pi -> pi <> [] ->
  forall pj, In pj (below ++ firstn k rest) -> pj <> [] -> mpoly_pair pi pj = None.
Proof.
  induction rest as [|x r IH]; intros below H k pi Hk Hne pj Hin Hnj; [destruct k; discriminate|].
  simpl in H.
  destruct (match x with [] => None | _ :: _ => mpoly_against x below end) eqn:E; [discriminate|].
  destruct k as [|k].
  - simpl in Hk. inversion Hk; subst x. simpl in Hin. rewrite app_nil_r in Hin.
    destruct pi as [|r0 rt]; [congruence|]. exact (mpoly_against_ok _ _ E pj Hin Hnj).
  - simpl in Hk. apply (IH (below ++ [x]) H k pi Hk Hne pj); [|exact Hnj].
    simpl in Hin. rewrite <- app_assoc. exact Hin.
Qed.

(* A nil verdict of the MultiPolygon constraints implies: the boundaries of two non-empty members
   never share a piece of positive length (every pair of boundary segments has at most one common
   point).  That the interiors are disjoint is proved only for the fast case of two members without
   holes (Proofs/Validate_mpoly.v); otherwise it is covered by the correspondence with ogc_valid's
   arrangement test. *)
Theorem multipolygon_validate_sound_partial_lemma (polys : list (list (list pt))) :
  mpoly_constraints [] polys = None ->
  forall i j pi pj, (j < i)%nat -> nth_error polys i = Some pi -> nth_error polys j = Some pj ->
  forall s t, In s (poly_lines pi) -> In t (poly_lines pj) ->
  forall p q, common s t p -> common s t q -> pt_eq p q.
Proof.
  intros H i j pi pj Hji Hi Hj s t Hs Ht.
  assert (Ni : pi <> []) by (intros E; subst pi; destruct Hs).
  assert (Nj : pj <> []) by (intros E; subst pj; destruct Ht).
  apply (mpoly_pair_boundaries pi pj); [|exact Hs|exact Ht].
  apply (mpoly_constraints_ok polys [] H i pi Hi Ni pj); [|exact Nj].
  simpl. apply (nth_error_In _ j). rewrite nth_error_firstn_lt by exact Hji. exact Hj.
Qed.
