(* Lemmas for property C19: inverses and geometric character of the projections of Model/Carto.v
   (prefixes: er_ equirectangular, sn_ sinusoidal, lc_ Lambert cylindrical equal area, wm_ Web
   Mercator, lcc_ Lambert conformal conic, alb_ Albers, eqdc_ equidistant conic, azeq_ azimuthal
   equidistant, or_ orthographic). *)
From Coq Require Import Reals Lra.
From Coquelicot Require Import Coquelicot.
From Interval Require Import Tactic.
From SF Require Import Model.Carto Proofs.Carto_base.
Local Open Scope R_scope.

Lemma PI_neq0' : PI <> 0. Proof. apply PI_neq0. Qed.

Lemma rtod_dtor d : rtod (dtor d) = d.
Proof. unfold rtod, dtor. field. apply PI_neq0. Qed.

Lemma dtor_rtod r : dtor (rtod r) = r.
Proof. unfold rtod, dtor. field. apply PI_neq0. Qed.

Lemma rtod_eq x d : x = dtor d -> rtod x = d.
Proof. intros ->. apply rtod_dtor. Qed.

Lemma sin_cos_1 x : sin x * sin x + cos x * cos x = 1.
Proof. exact (sin2_cos2 x). Qed.

Lemma dtor_lt a b : a < b -> dtor a < dtor b.
Proof. intros H. unfold dtor. pose proof PI_RGT_0. apply Rmult_lt_compat_r with (r := PI) in H; lra. Qed.

Lemma dtor_le a b : a <= b -> dtor a <= dtor b.
Proof. intros H. unfold dtor. pose proof PI_RGT_0. apply Rmult_le_compat_r with (r := PI) in H; lra. Qed.

Lemma dtor_90 : dtor 90 = PI / 2. Proof. unfold dtor. field. Qed.
Lemma dtor_m90 : dtor (-90) = - (PI / 2). Proof. unfold dtor. field. Qed.
Lemma dtor_180 : dtor 180 = PI. Proof. unfold dtor. field. Qed.
Lemma dtor_0 : dtor 0 = 0. Proof. unfold dtor. field. Qed.
Lemma dtor_30 : dtor 30 = PI / 6. Proof. unfold dtor. field. Qed.
Lemma dtor_45 : dtor 45 = PI / 4. Proof. unfold dtor. field. Qed.
Lemma dtor_60 : dtor 60 = PI / 3. Proof. unfold dtor. field. Qed.
Lemma dtor_minus a b : dtor a - dtor b = dtor (a - b). Proof. unfold dtor. field. Qed.

Lemma dtor_open d : -90 < d < 90 -> - (PI / 2) < dtor d < PI / 2.
Proof. intros [H1 H2]. pose proof dtor_90. pose proof dtor_m90. apply dtor_lt in H1, H2. lra. Qed.

Lemma dtor_closed d : -90 <= d <= 90 -> - (PI / 2) <= dtor d <= PI / 2.
Proof. intros [H1 H2]. pose proof dtor_90. pose proof dtor_m90. apply dtor_le in H1, H2. lra. Qed.

Lemma cos_dtor_pos d : -90 < d < 90 -> 0 < cos (dtor d).
Proof. intros H. apply dtor_open in H. apply cos_gt_0; lra. Qed.

Lemma asin_sin_dtor d : -90 <= d <= 90 -> asin (sin (dtor d)) = dtor d.
Proof. intros H. apply dtor_closed in H. apply asin_sin. lra. Qed.

Definition er_dom (c : er_cfg) : Prop := 0 < er_R c /\ -90 < er_lat1 c < 90.

Lemma er_inverse_lemma c lon lat : er_dom c -> er_rev c (er_fwd c (lon, lat)) = (lon, lat).
Proof.
  intros [HR H1]. pose proof (cos_dtor_pos _ H1) as Hc.
  unfold er_rev, er_fwd, mk2; cbn [fst snd].
  unfold er_rev_lon, er_rev_lat, er_fwd_x, er_fwd_y, er_lam0, er_cosphi1.
  f_equal; apply rtod_eq; field; lra.
Qed.

Definition sn_dom (c : sn_cfg) (lon lat : R) : Prop := 0 < sn_R c /\ -90 < lat < 90.

Lemma sn_inverse_lemma c lon lat : sn_dom c lon lat -> sn_rev c (sn_fwd c (lon, lat)) = (lon, lat).
Proof.
  intros [HR H1]. pose proof (cos_dtor_pos _ H1) as Hc.
  unfold sn_rev, sn_fwd, mk2; cbn [fst snd].
  unfold sn_rev_lon, sn_rev_lat, sn_fwd_x, sn_fwd_y, sn_lam0.
  replace (sn_R c * dtor lat / sn_R c) with (dtor lat) by (field; lra).
  f_equal; apply rtod_eq; field; lra.
Qed.

Definition lc_dom (c : lc_cfg) (lon lat : R) : Prop := 0 < lc_R c /\ -90 <= lat <= 90.

Lemma lc_inverse_lemma c lon lat : lc_dom c lon lat -> lc_rev c (lc_fwd c (lon, lat)) = (lon, lat).
Proof.
  intros [HR H1].
  unfold lc_rev, lc_fwd, mk2; cbn [fst snd].
  unfold lc_rev_lon, lc_rev_lat, lc_fwd_x, lc_fwd_y, lc_lam0.
  f_equal; apply rtod_eq.
  - field. lra.
  - replace (lc_R c * sin (dtor lat) / lc_R c) with (sin (dtor lat)) by (field; lra).
    apply asin_sin_dtor, H1.
Qed.

Definition wm_dom (c : wm_cfg) (lon lat : R) : Prop := (wm_zoom c <= 62)%nat /\ -90 < lat < 90.

Lemma wm_P_pos c : 0 < wm_P c.
Proof. unfold wm_P. apply pow_lt. lra. Qed.

(* the angle of the half-latitude tangent, pi/4 + phi/2, lies in (0, pi/2) *)
Lemma wm_angle lat : -90 < lat < 90 -> 0 < PI / 4 + dtor lat / 2 < PI / 2.
Proof. intros H. apply dtor_open in H. lra. Qed.

Lemma tan_half_pos lat : -90 < lat < 90 -> 0 < tan (PI / 4 + dtor lat / 2).
Proof. intros H. apply wm_angle in H. apply tan_gt_0; lra. Qed.

(* g(lat) = ln (tan (pi/4 + phi/2)), the Mercator ordinate *)
Definition merc (lat : R) : R := ln (tan (PI / 4 + dtor lat / 2)).

(* how Web Mercator and the Lambert conic get the latitude back from the ordinate *)
Lemma atan_exp_merc lat : -90 < lat < 90 -> atan (exp (merc lat)) = PI / 4 + dtor lat / 2.
Proof.
  intros H. unfold merc. rewrite exp_ln by apply tan_half_pos, H.
  apply wm_angle in H. apply atan_tan. lra.
Qed.

Lemma wm_fwd_y_merc c lon lat : wm_fwd_y c lon lat = (PI - merc lat) * wm_P c / (2 * PI).
Proof. reflexivity. Qed.

Lemma wm_inverse_any_zoom c lon lat : -90 < lat < 90 -> wm_rev c (wm_fwd c (lon, lat)) = (lon, lat).
Proof.
  intros H1. pose proof (wm_P_pos c) as HP. pose proof PI_RGT_0 as Hpi.
  unfold wm_rev, wm_fwd, mk2; cbn [fst snd].
  unfold wm_rev_lon, wm_rev_lat, wm_fwd_x, wm_fwd_y.
  f_equal.
  - field. lra.
  - apply rtod_eq.
    replace (PI - 2 * PI * ((PI - ln (tan (PI / 4 + dtor lat / 2))) * wm_P c / (2 * PI)) / wm_P c)
      with (merc lat) by (unfold merc; field; lra).
    rewrite atan_exp_merc by exact H1. field.
Qed.

Lemma wm_inverse_lemma c lon lat : wm_dom c lon lat -> wm_rev c (wm_fwd c (lon, lat)) = (lon, lat).
Proof. intros [_ H]. apply wm_inverse_any_zoom, H. Qed.

Lemma polar_norm rho th : sq (rho * sin th) + sq (rho * cos th) = rho * rho.
Proof. unfold sq. rewrite <- (Rmult_1_r (rho * rho)), <- (sin_cos_1 th). ring. Qed.

Lemma polar_sqrt rho th : sqrt (sq (rho * sin th) + sq (rho * cos th)) = Rabs rho.
Proof. rewrite polar_norm. apply sqrt_Rsqr_abs. Qed.

Lemma sign_abs n rho : 0 < n * rho -> sign n * Rabs rho = rho.
Proof.
  intros H. destruct (Rlt_dec 0 n) as [Hn|Hn].
  - rewrite sign_pos by exact Hn. assert (0 < rho) by nra. rewrite Rabs_right; lra.
  - assert (n < 0) by (destruct (Req_dec n 0); [subst; lra | lra]).
    rewrite sign_neg by assumption. assert (rho < 0) by nra. rewrite Rabs_left; lra.
Qed.

(* Forward is x = rho sin th, y = rho0 - rho cos th with th = n (lam - lam0) inside the cone angle;
   Reverse recovers th by atan, hence the longitude lam0 + th / n, and |rho| by the norm *)
Lemma conic_rev_core rho rho0 n lam0 lon : rho <> 0 -> n <> 0 ->
  - (PI / 2) < n * (dtor lon - lam0) < PI / 2 ->
  let x := rho * sin (n * (dtor lon - lam0)) in
  let y := rho0 - rho * cos (n * (dtor lon - lam0)) in
  rtod (lam0 + atan (x / (rho0 - y)) / n) = lon /\ sqrt (sq x + sq (rho0 - y)) = Rabs rho.
Proof.
  intros Hr Hn Hth x y.
  replace (rho0 - y) with (rho * cos (n * (dtor lon - lam0))) by (unfold y; ring).
  split; [|apply polar_sqrt]. unfold x. rewrite polar_atan by assumption. apply rtod_eq. field. exact Hn.
Qed.

Lemma sin_open a : - (PI / 2) < a < PI / 2 -> -1 < sin a < 1.
Proof.
  intros [H1 H2]. split.
  - assert (H : sin (- (PI / 2)) < sin a) by (apply sin_increasing_1; lra).
    rewrite sin_neg, sin_PI2 in H. lra.
  - assert (H : sin a < sin (PI / 2)) by (apply sin_increasing_1; lra).
    rewrite sin_PI2 in H. lra.
Qed.

Definition cn_parallels_ok (c : cn_cfg) : Prop :=
  0 < cn_R c /\ -90 < cn_lat1 c < 90 /\ -90 < cn_lat2 c < 90 /\ -90 < cn_lat0 c < 90.

Definition lcc_dom (c : cn_cfg) (lon lat : R) : Prop :=
  cn_parallels_ok c /\ lcc_n c <> 0 /\ -90 < lat < 90 /\
  - (PI / 2) < lcc_n c * (dtor lon - cn_lam0 c) < PI / 2.

Lemma pow_gt_0 x y : 0 < pow x y.
Proof. apply exp_pos. Qed.

Lemma lcc_F_sign c : cn_parallels_ok c -> lcc_n c <> 0 -> 0 < lcc_n c * lcc_F c.
Proof.
  intros (HR & H1 & H2 & H0) Hn. unfold lcc_F.
  replace (lcc_n c * (cos (cn_phi1 c) * pow (tan (PI / 4 + cn_phi1 c / 2)) (lcc_n c) / lcc_n c))
    with (cos (cn_phi1 c) * pow (tan (PI / 4 + cn_phi1 c / 2)) (lcc_n c)) by (field; exact Hn).
  apply Rmult_lt_0_compat; [apply cos_dtor_pos, H1 | apply pow_gt_0].
Qed.

Lemma lcc_rho_sign c phi : cn_parallels_ok c -> lcc_n c <> 0 -> 0 < lcc_n c * lcc_rho c phi.
Proof.
  intros Hc Hn. pose proof (lcc_F_sign c Hc Hn) as HF. destruct Hc as (HR & _).
  unfold lcc_rho.
  replace (lcc_n c * (cn_R c * lcc_F c * pow (cot (PI / 4 + phi / 2)) (lcc_n c)))
    with (cn_R c * (lcc_n c * lcc_F c) * pow (cot (PI / 4 + phi / 2)) (lcc_n c)) by ring.
  apply Rmult_lt_0_compat; [apply Rmult_lt_0_compat; assumption | apply pow_gt_0].
Qed.

Lemma lcc_rho_merc c lat : -90 < lat < 90 ->
  lcc_rho c (dtor lat) = cn_R c * lcc_F c * exp (- lcc_n c * merc lat).
Proof.
  intros H. pose proof (tan_half_pos _ H) as Ht.
  unfold lcc_rho, pow, Rpower, cot, merc. unfold Rdiv at 1. rewrite Rmult_1_l, ln_Rinv by exact Ht.
  f_equal. f_equal. ring.
Qed.

Lemma lcc_inverse_lemma c lon lat : lcc_dom c lon lat -> lcc_rev c (lcc_fwd c (lon, lat)) = (lon, lat).
Proof.
  intros (Hc & Hn & Hlat & Hth).
  pose proof (lcc_rho_sign c (dtor lat) Hc Hn) as Hrho.
  pose proof (lcc_F_sign c Hc Hn) as HF. destruct Hc as (HR & _).
  assert (Hr0 : lcc_rho c (dtor lat) <> 0) by (intro E; rewrite E in Hrho; lra).
  destruct (conic_rev_core _ (lcc_rho0 c) _ _ lon Hr0 Hn Hth) as [Elon Erho].
  unfold lcc_rev, lcc_fwd, mk2; cbn [fst snd]. f_equal; [exact Elon|].
  unfold lcc_rev_lat, lcc_rev_rho, lcc_fwd_x, lcc_fwd_y. rewrite Erho, sign_abs by assumption.
  apply rtod_eq. rewrite lcc_rho_merc by exact Hlat.
  assert (HF0 : lcc_F c <> 0) by (intro E; rewrite E in HF; lra).
  pose proof (exp_pos (lcc_n c * merc lat)) as He.
  replace (cn_R c * lcc_F c / (cn_R c * lcc_F c * exp (- lcc_n c * merc lat))) with (exp (lcc_n c * merc lat))
    by (rewrite <- Ropp_mult_distr_l, exp_Ropp; field; repeat split; lra).
  unfold pow, Rpower. rewrite ln_exp.
  replace (1 / lcc_n c * (lcc_n c * merc lat)) with (merc lat) by (field; exact Hn).
  rewrite atan_exp_merc by exact Hlat. field.
Qed.

Definition alb_dom (c : cn_cfg) (lon lat : R) : Prop :=
  cn_parallels_ok c /\ alb_n c <> 0 /\ -90 <= lat <= 90 /\
  - (PI / 2) < alb_n c * (dtor lon - cn_lam0 c) < PI / 2.

(* the radicand is positive for every latitude when both parallels are off the poles *)
Lemma alb_radicand_pos c phi : cn_parallels_ok c -> 0 < alb_C c - 2 * alb_n c * sin phi.
Proof.
  intros (HR & H1 & H2 & H0). apply dtor_open, sin_open in H1. apply dtor_open, sin_open in H2.
  unfold alb_C, alb_n, sq, cn_phi1, cn_phi2.
  pose proof (sin_cos_1 (dtor (cn_lat1 c))) as Ec.
  set (s1 := sin (dtor (cn_lat1 c))) in *. set (s2 := sin (dtor (cn_lat2 c))) in *.
  pose proof (SIN_bound phi) as [Hs1 Hs2]. set (s := sin phi) in *.
  replace (cos (dtor (cn_lat1 c)) * cos (dtor (cn_lat1 c))) with (1 - s1 * s1) by lra.
  replace (1 - s1 * s1 + 2 * ((s1 + s2) / 2) * s1 - 2 * ((s1 + s2) / 2) * s)
    with ((1 + s) / 2 * ((1 - s1) * (1 - s2)) + (1 - s) / 2 * ((1 + s1) * (1 + s2))) by field.
  assert (HP : 0 < (1 - s1) * (1 - s2)) by (apply Rmult_lt_0_compat; lra).
  assert (HQ : 0 < (1 + s1) * (1 + s2)) by (apply Rmult_lt_0_compat; lra).
  destruct (Rle_dec s 0); nra.
Qed.

Lemma Rabs_square x : Rabs x * Rabs x = x * x.
Proof. symmetry. apply (Rsqr_abs x). Qed.

Lemma alb_rho_sq c phi : cn_parallels_ok c -> alb_n c <> 0 ->
  alb_rho c phi * alb_rho c phi * sq (alb_n c) = sq (cn_R c) * (alb_C c - 2 * alb_n c * sin phi).
Proof.
  intros Hc Hn. pose proof (alb_radicand_pos c phi Hc) as HD. unfold alb_rho, sq.
  rewrite <- (sqrt_sqrt (alb_C c - 2 * alb_n c * sin phi)) at 3 by lra. field. exact Hn.
Qed.

Lemma alb_rho_neq0 c phi : cn_parallels_ok c -> alb_n c <> 0 -> alb_rho c phi <> 0.
Proof.
  intros Hc Hn E. pose proof (alb_rho_sq c phi Hc Hn) as H. rewrite E, !Rmult_0_l in H.
  pose proof (alb_radicand_pos c phi Hc) as HD. destruct Hc as (HR & _).
  assert (0 < sq (cn_R c) * (alb_C c - 2 * alb_n c * sin phi))
    by (apply Rmult_lt_0_compat; [apply Rmult_lt_0_compat|]; assumption).
  lra.
Qed.

Lemma alb_inverse_lemma c lon lat : alb_dom c lon lat -> alb_rev c (alb_fwd c (lon, lat)) = (lon, lat).
Proof.
  intros (Hc & Hn & Hlat & Hth). pose proof (alb_rho_neq0 c (dtor lat) Hc Hn) as Hr0.
  pose proof (alb_rho_sq c (dtor lat) Hc Hn) as Esq. destruct Hc as (HR & _).
  destruct (conic_rev_core _ (alb_rho0 c) _ _ lon Hr0 Hn Hth) as [Elon Erho].
  unfold alb_rev, alb_fwd, mk2; cbn [fst snd]. f_equal; [exact Elon|].
  unfold alb_rev_lat, alb_rev_rho, alb_fwd_x, alb_fwd_y. rewrite Erho. apply rtod_eq.
  replace (Rabs (alb_rho c (dtor lat)) / cn_R c * (Rabs (alb_rho c (dtor lat)) / cn_R c) * alb_n c * alb_n c)
    with (Rabs (alb_rho c (dtor lat)) * Rabs (alb_rho c (dtor lat)) * sq (alb_n c) / sq (cn_R c))
    by (unfold sq; field; lra).
  rewrite Rabs_square, Esq.
  replace ((alb_C c - sq (cn_R c) * (alb_C c - 2 * alb_n c * sin (dtor lat)) / sq (cn_R c)) / (2 * alb_n c))
    with (sin (dtor lat)) by (unfold sq; field; split; lra).
  apply asin_sin_dtor, Hlat.
Qed.

Definition eqdc_dom (c : cn_cfg) (lon lat : R) : Prop :=
  0 < cn_R c /\ eqdc_n c <> 0 /\
  0 < eqdc_n c * eqdc_rho c (dtor lat) /\       (* the point is on the near side of the apex *)
  - (PI / 2) < eqdc_n c * (dtor lon - cn_lam0 c) < PI / 2.

Lemma eqdc_inverse_lemma c lon lat : eqdc_dom c lon lat -> eqdc_rev c (eqdc_fwd c (lon, lat)) = (lon, lat).
Proof.
  intros (HR & Hn & Hrho & Hth).
  assert (Hr0 : eqdc_rho c (dtor lat) <> 0) by (intro E; rewrite E in Hrho; lra).
  destruct (conic_rev_core _ (eqdc_rho0 c) _ _ lon Hr0 Hn Hth) as [Elon Erho]. unfold sq in Erho.
  unfold eqdc_rev, eqdc_fwd, mk2; cbn [fst snd].
  unfold eqdc_rev_lon, eqdc_rev_lat, eqdc_rev_theta, eqdc_rev_rho, eqdc_fwd_x, eqdc_fwd_y.
  set (th := eqdc_n c * (dtor lon - cn_lam0 c)) in *.
  (* the outer factor R of Forward is divided out first *)
  replace (cn_R c * (eqdc_rho c (dtor lat) * sin th) / cn_R c) with (eqdc_rho c (dtor lat) * sin th) by (field; lra).
  replace (cn_R c * (eqdc_rho0 c - eqdc_rho c (dtor lat) * cos th) / cn_R c)
    with (eqdc_rho0 c - eqdc_rho c (dtor lat) * cos th) by (field; lra).
  rewrite Elon, Erho, sign_abs by assumption. f_equal. apply rtod_eq. unfold eqdc_rho. ring.
Qed.

(* the four partial derivatives of a forward map with respect to longitude and latitude (degrees) *)
Definition jacobian (fx fy : R -> R -> R) (lon lat a b c d : R) : Prop :=
  is_derive (fun l => fx l lat) lon a /\ is_derive (fun p => fx lon p) lat b /\
  is_derive (fun l => fy l lat) lon c /\ is_derive (fun p => fy lon p) lat d.

(* one degree in radians *)
Definition deg1 : R := PI / 180.

Lemma lc_equal_area_lemma c lon lat :
  exists a b c' d, jacobian (lc_fwd_x c) (lc_fwd_y c) lon lat a b c' d /\
                   a * d - b * c' = (lc_R c * deg1) * (lc_R c * deg1) * cos (dtor lat).
Proof.
  exists (lc_R c * deg1), 0, 0, (lc_R c * deg1 * cos (dtor lat)).
  unfold jacobian, lc_fwd_x, lc_fwd_y, lc_lam0, dtor, deg1.
  refine (conj (conj _ (conj _ (conj _ _))) _); try (auto_derive; [trivial | unfold Rdiv; ring]).
  ring.
Qed.

Lemma sn_equal_area_lemma c lon lat :
  exists a b c' d, jacobian (sn_fwd_x c) (sn_fwd_y c) lon lat a b c' d /\
                   a * d - b * c' = (sn_R c * deg1) * (sn_R c * deg1) * cos (dtor lat).
Proof.
  exists (sn_R c * deg1 * cos (dtor lat)),
         (- (sn_R c * deg1 * sin (dtor lat) * (dtor lon - sn_lam0 c))), 0, (sn_R c * deg1).
  unfold jacobian, sn_fwd_x, sn_fwd_y, sn_lam0, dtor, deg1.
  refine (conj (conj _ (conj _ (conj _ _))) _); try (auto_derive; [trivial | unfold Rdiv; ring]).
  ring.
Qed.

Lemma cos_half_angle phi : cos phi = 2 * sin (PI / 4 + phi / 2) * cos (PI / 4 + phi / 2).
Proof.
  rewrite <- sin_2a. replace (2 * (PI / 4 + phi / 2)) with (PI / 2 + phi) by field.
  apply cos_sin.
Qed.

Lemma merc_derive lat : -90 < lat < 90 -> is_derive merc lat (deg1 / cos (dtor lat)).
Proof.
  intros H. pose proof (wm_angle _ H) as Ha.
  rewrite (cos_half_angle (dtor lat)).
  assert (Hs : 0 < sin (PI / 4 + dtor lat / 2)) by (apply sin_gt_0; lra).
  assert (Hco : 0 < cos (PI / 4 + dtor lat / 2)) by (apply cos_gt_0; lra).
  unfold merc, tan, dtor, deg1 in *.
  auto_derive; change (PI / 4 + lat * PI * / 180 * / 2) with (PI / 4 + lat * PI / 180 / 2);
    set (a := PI / 4 + lat * PI / 180 / 2) in *.
  - split; [lra | split; [apply Rdiv_lt_0_compat; assumption | trivial]].
  - pose proof (sin_cos_1 a) as E. set (s := sin a) in *. set (co := cos a) in *.
    transitivity (PI / 180 / 2 * (s * s + co * co) / (s * co)); [field; lra | rewrite E; field; lra].
Qed.

Lemma wm_dy c lon lat : -90 < lat < 90 ->
  is_derive (fun p => wm_fwd_y c lon p) lat (- (wm_P c / 360 / cos (dtor lat))).
Proof.
  intros H. pose proof (merc_derive lat H) as Hm. pose proof (cos_dtor_pos _ H) as Hc. pose proof PI_RGT_0 as Hpi.
  change (is_derive (fun p => (PI - merc p) * wm_P c / (2 * PI)) lat (- (wm_P c / 360 / cos (dtor lat)))).
  auto_derive.
  - exists (deg1 / cos (dtor lat)). exact Hm.
  - rewrite (is_derive_unique (fun x : R => merc x) _ _ Hm). unfold deg1. field. lra.
Qed.

Lemma wm_dx c lon lat : is_derive (fun l => wm_fwd_x c l lat) lon (wm_P c / 360).
Proof. unfold wm_fwd_x. auto_derive; [trivial | field]. Qed.

Lemma wm_dx_lat c lon lat : is_derive (fun p => wm_fwd_x c lon p) lat 0.
Proof. unfold wm_fwd_x. auto_derive; [trivial | ring]. Qed.

Lemma wm_dy_lon c lon lat : is_derive (fun l => wm_fwd_y c l lat) lon 0.
Proof. unfold wm_fwd_y. auto_derive; [trivial | ring]. Qed.

Lemma merc_increasing l1 l2 : -90 < l1 -> l1 < l2 -> l2 < 90 -> merc l1 < merc l2.
Proof.
  intros H1 H12 H2.
  assert (Ha1 : 0 < PI / 4 + dtor l1 / 2 < PI / 2) by (apply wm_angle; lra).
  assert (Ha2 : 0 < PI / 4 + dtor l2 / 2 < PI / 2) by (apply wm_angle; lra).
  pose proof (dtor_lt _ _ H12) as Hd.
  unfold merc. apply ln_increasing.
  - apply tan_gt_0; lra.
  - apply tan_increasing; lra.
Qed.

Lemma merc_le l1 l2 : -90 < l1 -> l1 <= l2 -> l2 < 90 -> merc l1 <= merc l2.
Proof.
  intros H1 [H12|E] H2.
  - left. apply merc_increasing; assumption.
  - subst. right. reflexivity.
Qed.

(* the latitude at which the Mercator ordinate reaches pi: atan (sinh pi) = 85.0511287798... *)
Definition wm_latmax : R := rtod (2 * atan (exp PI) - PI / 2).

Lemma wm_latmax_bound : 0 < wm_latmax < 90.
Proof.
  pose proof PI_RGT_0 as Hpi. pose proof (atan_bound (exp PI)) as [_ Hb].
  assert (H1 : 1 < exp PI) by (rewrite <- exp_0; apply exp_increasing; lra).
  apply atan_increasing in H1. rewrite atan_1 in H1.
  pose proof (Rinv_0_lt_compat PI Hpi) as Hk. pose proof (Rinv_r PI (Rgt_not_eq _ _ Hpi)) as Ek.
  unfold wm_latmax, rtod, Rdiv. split; nra.
Qed.

Lemma merc_latmax : merc wm_latmax = PI.
Proof.
  unfold merc, wm_latmax. rewrite dtor_rtod.
  replace (PI / 4 + (2 * atan (exp PI) - PI / 2) / 2) with (atan (exp PI)) by field.
  rewrite tan_atan. apply ln_exp.
Qed.

Lemma merc_neg_latmax : merc (- wm_latmax) = - PI.
Proof.
  unfold merc, wm_latmax.
  replace (dtor (- rtod (2 * atan (exp PI) - PI / 2))) with (- (2 * atan (exp PI) - PI / 2))
    by (rewrite <- (dtor_rtod (2 * atan (exp PI) - PI / 2)) at 1; unfold dtor; field).
  replace (PI / 4 + - (2 * atan (exp PI) - PI / 2) / 2) with (PI / 2 - atan (exp PI)) by field.
  rewrite <- atan_inv by apply exp_pos.
  rewrite tan_atan, ln_Rinv by apply exp_pos. rewrite ln_exp. reflexivity.
Qed.

Lemma wm_range_lemma c lon lat :
  -180 <= lon <= 180 -> - wm_latmax <= lat <= wm_latmax ->
  0 <= wm_fwd_x c lon lat <= wm_P c /\ 0 <= wm_fwd_y c lon lat <= wm_P c.
Proof.
  intros Hlon Hlat. pose proof (wm_P_pos c) as HP. pose proof wm_latmax_bound as Hm.
  pose proof PI_RGT_0 as Hpi.
  assert (Hu : merc lat <= PI) by (rewrite <- merc_latmax; apply merc_le; lra).
  assert (Hl : - PI <= merc lat) by (rewrite <- merc_neg_latmax; apply merc_le; lra).
  rewrite wm_fwd_y_merc. unfold wm_fwd_x, Rdiv.
  pose proof (Rinv_0_lt_compat (2 * PI) ltac:(lra)) as Hk. pose proof (Rinv_r (2 * PI) ltac:(lra)) as Ek.
  assert (Hy : 0 <= (PI - merc lat) * / (2 * PI) <= 1) by (split; nra).
  split; split; nra.
Qed.

Lemma wm_north_up_lemma c lon l1 l2 : -90 < l1 -> l1 < l2 -> l2 < 90 ->
  wm_fwd_y c lon l2 < wm_fwd_y c lon l1.
Proof.
  intros H1 H12 H2. pose proof (merc_increasing _ _ H1 H12 H2) as Hm.
  pose proof (wm_P_pos c) as HP. pose proof PI_RGT_0 as Hpi.
  rewrite !wm_fwd_y_merc. unfold Rdiv.
  apply Rmult_lt_compat_r; [apply Rinv_0_lt_compat; lra|].
  apply Rmult_lt_compat_r; lra.
Qed.

(* the whole world: x = 0 and x = P at the date line, y = 0 and y = P at +-latmax *)
Lemma wm_corners_lemma c :
  wm_fwd_x c (-180) 0 = 0 /\ wm_fwd_x c 180 0 = wm_P c /\
  wm_fwd_y c 0 wm_latmax = 0 /\ wm_fwd_y c 0 (- wm_latmax) = wm_P c.
Proof.
  pose proof PI_RGT_0 as Hpi.
  rewrite !wm_fwd_y_merc, merc_latmax, merc_neg_latmax. unfold wm_fwd_x.
  repeat split; field; lra.
Qed.

(* the three direction cosines form a unit vector *)
Lemma az_unit c lon lat : sq (az_A c lon lat) + sq (az_B c lon lat) + sq (az_C c lon lat) = 1.
Proof.
  unfold az_A, az_B, az_C, sq.
  pose proof (sin_cos_1 (az_phi0 c)) as E0. pose proof (sin_cos_1 (dtor lat)) as E.
  pose proof (sin_cos_1 (dtor lon - az_lam0 c)) as El.
  set (s0 := sin (az_phi0 c)) in *. set (c0 := cos (az_phi0 c)) in *.
  set (s := sin (dtor lat)) in *. set (co := cos (dtor lat)) in *.
  set (sl := sin (dtor lon - az_lam0 c)) in *. set (cl := cos (dtor lon - az_lam0 c)) in *.
  transitivity ((s0 * s0 + c0 * c0) * (s * s + co * co * (cl * cl)) + co * co * (sl * sl)); [ring|].
  rewrite E0. transitivity (s * s + co * co * (sl * sl + cl * cl)); [ring|]. rewrite El. lra.
Qed.

Lemma az_C_bound c lon lat : -1 <= az_C c lon lat <= 1.
Proof.
  pose proof (az_unit c lon lat) as H. unfold sq in H.
  pose proof (Rle_0_sqr (az_A c lon lat)) as HA. pose proof (Rle_0_sqr (az_B c lon lat)) as HB.
  unfold Rsqr in *. split; nra.
Qed.

Lemma atan2_acos x : -1 <= x <= 1 -> atan2 (sqrt (1 - x²)) x = acos x.
Proof.
  intros Hx. pose proof (acos_bound x) as Hb. pose proof PI_RGT_0 as Hpi.
  rewrite <- (atan2_polar 1 (acos x)) by lra.
  rewrite sin_acos, cos_acos, !Rmult_1_l by exact Hx. reflexivity.
Qed.

(* F81 does not change the function over the reals: atan2(sin c, cos c) = acos(cos c) *)
Lemma azeq_rho_acos c lon lat : azeq_rho c lon lat = azeq_rho_orig c lon lat.
Proof.
  unfold azeq_rho, azeq_rho_orig.
  replace (sq (az_A c lon lat) + sq (az_B c lon lat)) with (1 - (az_C c lon lat)²)
    by (generalize (az_unit c lon lat); unfold sq, Rsqr; lra).
  rewrite atan2_acos by apply az_C_bound. reflexivity.
Qed.

(* the angular distance between the centre and the point (spherical law of cosines) *)
Definition az_dist (c : az_cfg) (lon lat : R) : R := acos (az_C c lon lat).

Lemma azeq_radial_isometry_lemma c lon lat : 0 < az_R c ->
  sqrt (sq (azeq_fwd_x c lon lat) + sq (azeq_fwd_y c lon lat)) = az_R c * az_dist c lon lat.
Proof.
  intros HR. unfold azeq_fwd_x, azeq_fwd_y. rewrite polar_sqrt, azeq_rho_acos.
  unfold azeq_rho_orig, az_dist.
  pose proof (acos_bound (az_C c lon lat)) as [Hb _].
  apply Rabs_right. apply Rle_ge, Rmult_le_pos; lra.
Qed.

Lemma eqdc_meridian_isometry_lemma c lon la lb : 0 < cn_R c ->
  sqrt (sq (eqdc_fwd_x c lon la - eqdc_fwd_x c lon lb) + sq (eqdc_fwd_y c lon la - eqdc_fwd_y c lon lb))
  = cn_R c * Rabs (dtor la - dtor lb).
Proof.
  intros HR. unfold eqdc_fwd_x, eqdc_fwd_y, eqdc_rho.
  set (th := eqdc_n c * (dtor lon - cn_lam0 c)).
  transitivity (sqrt (sq (cn_R c * (dtor lb - dtor la) * sin th) + sq (cn_R c * (dtor lb - dtor la) * cos th)));
    [f_equal; unfold sq; ring|].
  rewrite polar_sqrt, Rabs_mult, (Rabs_right (cn_R c)) by lra.
  rewrite Rabs_minus_sym. reflexivity.
Qed.

(* x = rho(lat) sin(n (dtor lon - lam0)),  y = rho0 - rho(lat) cos(...) *)
Lemma conic_dlon (r rho0 n lam0 lon : R) :
  let th := n * (dtor lon - lam0) in
  is_derive (fun l => r * sin (n * (dtor l - lam0))) lon (r * n * deg1 * cos th) /\
  is_derive (fun l => rho0 - r * cos (n * (dtor l - lam0))) lon (r * n * deg1 * sin th).
Proof.
  unfold dtor, deg1. split.
  - auto_derive; [trivial | unfold Rdiv, Rminus; ring].
  - auto_derive; [trivial | unfold Rdiv, Rminus; ring].
Qed.

Lemma conic_jacobian (rho : R -> R) (rho0 n lam0 lon lat drho : R) :
  is_derive rho lat drho ->
  let th := n * (dtor lon - lam0) in
  jacobian (fun l p => rho p * sin (n * (dtor l - lam0)))
           (fun l p => rho0 - rho p * cos (n * (dtor l - lam0))) lon lat
           (rho lat * n * deg1 * cos th) (drho * sin th)
           (rho lat * n * deg1 * sin th) (- (drho * cos th)).
Proof.
  intros Hd th. destruct (conic_dlon (rho lat) rho0 n lam0 lon) as [Dx Dy].
  assert (E : Derive (fun x : R => rho x) lat = drho) by (apply is_derive_unique, Hd).
  refine (conj Dx (conj _ (conj Dy _))).
  - auto_derive; [exists drho; exact Hd | rewrite E; subst th; ring].
  - auto_derive; [exists drho; exact Hd | rewrite E; subst th; ring].
Qed.

Lemma sq_polar r th : (r * cos th) * (r * cos th) + (r * sin th) * (r * sin th) = r * r.
Proof. rewrite Rplus_comm. apply polar_norm. Qed.

Lemma polar_det r n k dr th :
  (r * n * k * cos th) * (- (dr * cos th)) - (dr * sin th) * (r * n * k * sin th) = - (r * n * k * dr).
Proof. rewrite <- (Rmult_1_r (r * n * k * dr)), <- (sin_cos_1 th). ring. Qed.

Lemma alb_drho c lat : cn_parallels_ok c -> alb_n c <> 0 ->
  is_derive (fun p => alb_rho c (dtor p)) lat
            (- (cn_R c * deg1 * cos (dtor lat) / sqrt (alb_C c - 2 * alb_n c * sin (dtor lat)))).
Proof.
  intros Hc Hn. pose proof (alb_radicand_pos c (dtor lat) Hc) as HD.
  assert (HsD : 0 < sqrt (alb_C c - 2 * alb_n c * sin (dtor lat))) by (apply sqrt_lt_R0, HD).
  unfold alb_rho, dtor, deg1 in *.
  auto_derive; change (alb_C c + - (2 * alb_n c * sin (lat * PI * / 180)))
                 with (alb_C c - 2 * alb_n c * sin (lat * PI / 180)).
  - exact HD.
  - change (lat * PI * / 180) with (lat * PI / 180). field. split; lra.
Qed.

Lemma alb_equal_area_lemma c lon lat : cn_parallels_ok c -> alb_n c <> 0 ->
  exists a b c' d, jacobian (alb_fwd_x c) (alb_fwd_y c) lon lat a b c' d /\
                   a * d - b * c' = (cn_R c * deg1) * (cn_R c * deg1) * cos (dtor lat).
Proof.
  intros Hc Hn. pose proof (alb_radicand_pos c (dtor lat) Hc) as HD.
  assert (HsD : 0 < sqrt (alb_C c - 2 * alb_n c * sin (dtor lat))) by (apply sqrt_lt_R0, HD).
  pose proof (conic_jacobian (fun p => alb_rho c (dtor p)) (alb_rho0 c) (alb_n c) (cn_lam0 c) lon lat _
                (alb_drho c lat Hc Hn)) as HJ.
  cbv zeta in HJ.
  eexists _, _, _, _. split; [exact HJ|].
  rewrite polar_det. unfold alb_rho. field. split; lra.
Qed.

Lemma lcc_drho c lat : -90 < lat < 90 ->
  is_derive (fun p => lcc_rho c (dtor p)) lat
            (- (lcc_rho c (dtor lat) * lcc_n c * deg1 / cos (dtor lat))).
Proof.
  intros H. pose proof (merc_derive lat H) as Hm. pose proof (cos_dtor_pos _ H) as Hc.
  apply (is_derive_ext_loc (fun p => cn_R c * lcc_F c * exp (- lcc_n c * merc p))).
  - apply (locally_interval _ lat (-90) 90); try apply H.
    intros y Hy1 Hy2. symmetry. apply lcc_rho_merc. split; assumption.
  - rewrite lcc_rho_merc by exact H. auto_derive.
    + exists (deg1 / cos (dtor lat)). exact Hm.
    + rewrite (is_derive_unique (fun x : R => merc x) _ _ Hm). field. lra.
Qed.

(* With h = cos(lat): the columns of J * diag(1/h, 1) (scale along the parallel, scale along the
   meridian) have equal length and are orthogonal, i.e. J * diag(1/h, 1) is a scalar times an
   orthogonal matrix. *)
Definition conformal_at (a b c d h : R) : Prop :=
  (a / h) * (a / h) + (c / h) * (c / h) = b * b + d * d /\ (a / h) * b + (c / h) * d = 0.

Lemma wm_conformal_lemma c lon lat : -90 < lat < 90 ->
  exists a d, jacobian (wm_fwd_x c) (wm_fwd_y c) lon lat a 0 0 d /\
              0 < a /\ d < 0 /\ conformal_at a 0 0 d (cos (dtor lat)).
Proof.
  intros H. pose proof (cos_dtor_pos _ H) as Hc. pose proof (wm_P_pos c) as HP.
  exists (wm_P c / 360), (- (wm_P c / 360 / cos (dtor lat))).
  split; [|split; [|split]].
  - unfold jacobian. auto using wm_dx, wm_dx_lat, wm_dy_lon, wm_dy.
  - lra.
  - assert (0 < wm_P c / 360 / cos (dtor lat)) by (apply Rdiv_lt_0_compat; lra). lra.
  - unfold conformal_at. split; field; lra.
Qed.

Lemma lcc_conformal_lemma c lon lat : -90 < lat < 90 ->
  exists a b c' d, jacobian (lcc_fwd_x c) (lcc_fwd_y c) lon lat a b c' d /\
                   conformal_at a b c' d (cos (dtor lat)).
Proof.
  intros H. pose proof (cos_dtor_pos _ H) as Hc.
  pose proof (conic_jacobian (fun p => lcc_rho c (dtor p)) (lcc_rho0 c) (lcc_n c) (cn_lam0 c) lon lat _
                (lcc_drho c lat H)) as HJ.
  cbv zeta in HJ.
  eexists _, _, _, _. split; [exact HJ|].
  unfold conformal_at. split; field; lra.
Qed.

(* the scale along the parallel through (lon, lat): |d(x,y)/d lon| = R cos(lat) per radian *)
Definition parallel_true_scale (fx fy : R -> R -> R) (radius lon lat : R) : Prop :=
  exists a c, is_derive (fun l => fx l lat) lon a /\ is_derive (fun l => fy l lat) lon c /\
              a * a + c * c = (radius * deg1 * cos (dtor lat)) * (radius * deg1 * cos (dtor lat)).

(* a vanishing denominator would make the cone constant 0 (x / 0 = 0) *)
Lemma eqdc_n_den c : eqdc_n c <> 0 -> cn_phi1 c <> cn_phi2 c.
Proof.
  intros Hn E. apply Hn. unfold eqdc_n, Rdiv. replace (cn_phi2 c - cn_phi1 c) with 0 by lra.
  rewrite Rinv_0. ring.
Qed.

Lemma lcc_n_den c : lcc_n c <> 0 -> ln (tan (PI / 4 + cn_phi2 c / 2) * cot (PI / 4 + cn_phi1 c / 2)) <> 0.
Proof. intros Hn E. apply Hn. unfold lcc_n. rewrite E. unfold Rdiv. rewrite Rinv_0. ring. Qed.

(* a conic is true to scale along the parallels where rho n = R cos(lat) *)
Lemma conic_parallel (rho : R -> R) (rho0 n lam0 radius lon lat : R) :
  sq (rho lat * n) = sq (radius * cos (dtor lat)) ->
  parallel_true_scale (fun l p => rho p * sin (n * (dtor l - lam0)))
                      (fun l p => rho0 - rho p * cos (n * (dtor l - lam0))) radius lon lat.
Proof.
  intros E. destruct (conic_dlon (rho lat) rho0 n lam0 lon) as [Dx Dy].
  eexists _, _. split; [exact Dx|]. split; [exact Dy|].
  rewrite sq_polar. unfold sq in E.
  replace (rho lat * n * deg1 * (rho lat * n * deg1)) with (deg1 * deg1 * (rho lat * n * (rho lat * n))) by ring.
  rewrite E. ring.
Qed.

Lemma er_parallel_lemma c lon lat : lat = er_lat1 c \/ lat = - er_lat1 c ->
  parallel_true_scale (er_fwd_x c) (er_fwd_y c) (er_R c) lon lat.
Proof.
  intros H. exists (er_R c * deg1 * er_cosphi1 c), 0.
  unfold er_fwd_x, er_fwd_y, er_lam0, dtor, deg1. split; [|split].
  - auto_derive; [trivial | unfold Rdiv, Rminus; ring].
  - auto_derive; [trivial | ring].
  - assert (E : cos (lat * PI / 180) = er_cosphi1 c).
    { unfold er_cosphi1, dtor. destruct H as [-> | ->]; [reflexivity|].
      replace (- er_lat1 c * PI / 180) with (- (er_lat1 c * PI / 180)) by field. apply cos_neg. }
    rewrite E. ring.
Qed.

Lemma alb_parallel_lemma c lon lat : cn_parallels_ok c -> alb_n c <> 0 ->
  lat = cn_lat1 c \/ lat = cn_lat2 c ->
  parallel_true_scale (alb_fwd_x c) (alb_fwd_y c) (cn_R c) lon lat.
Proof.
  intros Hc Hn H.
  refine (conic_parallel (fun p => alb_rho c (dtor p)) (alb_rho0 c) (alb_n c) (cn_lam0 c) (cn_R c) lon lat _).
  replace (sq (alb_rho c (dtor lat) * alb_n c)) with (alb_rho c (dtor lat) * alb_rho c (dtor lat) * sq (alb_n c))
    by (unfold sq; ring).
  rewrite (alb_rho_sq c (dtor lat) Hc Hn).
  (* at a standard parallel the radicand is the squared cosine *)
  assert (E : alb_C c - 2 * alb_n c * sin (dtor lat) = cos (dtor lat) * cos (dtor lat)).
  { unfold alb_C, alb_n, sq, cn_phi1, cn_phi2.
    pose proof (sin_cos_1 (dtor (cn_lat1 c))). pose proof (sin_cos_1 (dtor (cn_lat2 c))).
    destruct H as [-> | ->]; nra. }
  rewrite E. unfold sq. ring.
Qed.

Lemma parallel_true_scale_scal (fx fy : R -> R -> R) k lon lat :
  parallel_true_scale fx fy 1 lon lat ->
  parallel_true_scale (fun l p => k * fx l p) (fun l p => k * fy l p) k lon lat.
Proof.
  intros (a & c & Da & Dc & E). exists (k * a), (k * c).
  split; [exact (is_derive_scal _ _ k _ Da)|]. split; [exact (is_derive_scal _ _ k _ Dc)|].
  replace (k * a * (k * a) + k * c * (k * c)) with (k * k * (a * a + c * c)) by ring. rewrite E. ring.
Qed.

Lemma eqdc_parallel_lemma c lon lat : eqdc_n c <> 0 -> cn_phi1 c <> cn_phi2 c ->
  lat = cn_lat1 c \/ lat = cn_lat2 c ->
  parallel_true_scale (eqdc_fwd_x c) (eqdc_fwd_y c) (cn_R c) lon lat.
Proof.
  intros Hn _ H. pose proof (eqdc_n_den c Hn) as H12.
  refine (parallel_true_scale_scal _ _ (cn_R c) lon lat
            (conic_parallel (fun p => eqdc_rho c (dtor p)) (eqdc_rho0 c) (eqdc_n c) (cn_lam0 c) 1 lon lat _)).
  rewrite Rmult_1_l. f_equal. unfold eqdc_rho, eqdc_G. destruct H as [-> | ->].
  - fold (cn_phi1 c). field. exact Hn.
  - fold (cn_phi2 c).
    replace ((cos (cn_phi1 c) / eqdc_n c + cn_phi1 c - cn_phi2 c) * eqdc_n c)
      with (cos (cn_phi1 c) - eqdc_n c * (cn_phi2 c - cn_phi1 c)) by (field; exact Hn).
    unfold eqdc_n. field. lra.
Qed.

Lemma az_lat_identity c lon lat :
  az_C c lon lat * sin (az_phi0 c) + az_B c lon lat * cos (az_phi0 c) = sin (dtor lat).
Proof.
  transitivity (sin (dtor lat) * (sin (az_phi0 c) * sin (az_phi0 c) + cos (az_phi0 c) * cos (az_phi0 c)));
    [unfold az_C, az_B; ring | rewrite sin_cos_1; ring].
Qed.

Lemma az_lon_identity c lon lat :
  az_C c lon lat * cos (az_phi0 c) - az_B c lon lat * sin (az_phi0 c)
  = cos (dtor lat) * cos (dtor lon - az_lam0 c).
Proof.
  transitivity (cos (dtor lat) * cos (dtor lon - az_lam0 c)
                * (sin (az_phi0 c) * sin (az_phi0 c) + cos (az_phi0 c) * cos (az_phi0 c)));
    [unfold az_C, az_B; ring | rewrite sin_cos_1; ring].
Qed.

(* the domain of the azimuthal inverses: the centre itself, or a point off the centre (and off the
   antipode), not a pole, with its longitude within (-180, 180] degrees of the central meridian *)
Definition az_off_centre (c : az_cfg) (lon lat : R) : Prop :=
  -90 < lat < 90 /\ - PI < dtor lon - az_lam0 c <= PI /\ 0 < sq (az_A c lon lat) + sq (az_B c lon lat).

Definition az_cfg_ok (c : az_cfg) : Prop := 0 < az_R c /\ -90 <= az_lat0 c <= 90.

(* off the centre and off the antipode *)
Lemma az_off_centre_C c lon lat : -1 < az_C c lon lat < 1 -> 0 < sq (az_A c lon lat) + sq (az_B c lon lat).
Proof. intros H. generalize (az_unit c lon lat). unfold sq. nra. Qed.

Lemma az_off_centre_intro c lon lat : -90 < lat < 90 -> -180 < lon - az_lon0 c <= 180 ->
  -1 < az_C c lon lat < 1 -> az_off_centre c lon lat.
Proof.
  intros Hlat Hlon HC. split; [exact Hlat|]. split; [|apply az_off_centre_C, HC].
  unfold az_lam0. rewrite dtor_minus. unfold dtor. pose proof PI_RGT_0. split; nra.
Qed.

(* how both azimuthal inverses end: the projected point is (K A, K B), at distance K S from the
   origin, and the angular distance from the centre has sine S and cosine C *)
Lemma az_rev_core c lon lat K : 0 < K -> az_off_centre c lon lat ->
  let A := az_A c lon lat in let B := az_B c lon lat in let C := az_C c lon lat in
  let S := sqrt (sq A + sq B) in
  rtod (az_lam0 c + atan2 (K * A * S) (K * S * C * cos (az_phi0 c) - K * B * S * sin (az_phi0 c))) = lon /\
  rtod (asin (C * sin (az_phi0 c) + K * B * S * cos (az_phi0 c) / (K * S))) = lat.
Proof.
  intros HK (Hlat & Hdl & Hpos) A B C S.
  assert (HS : 0 < S) by (apply sqrt_lt_R0, Hpos). pose proof (cos_dtor_pos _ Hlat) as Hc.
  split; apply rtod_eq.
  - replace (K * S * C * cos (az_phi0 c) - K * B * S * sin (az_phi0 c))
      with (K * S * (C * cos (az_phi0 c) - B * sin (az_phi0 c))) by ring.
    unfold A, B, C. rewrite az_lon_identity. unfold az_A.
    replace (K * (cos (dtor lat) * sin (dtor lon - az_lam0 c)) * S)
      with (K * S * cos (dtor lat) * sin (dtor lon - az_lam0 c)) by ring.
    rewrite <- Rmult_assoc.
    rewrite atan2_polar; [ring | repeat apply Rmult_lt_0_compat; assumption | exact Hdl].
  - replace (C * sin (az_phi0 c) + K * B * S * cos (az_phi0 c) / (K * S))
      with (C * sin (az_phi0 c) + B * cos (az_phi0 c)) by (field; lra).
    unfold B, C. rewrite az_lat_identity. apply asin_sin_dtor. lra.
Qed.

Lemma or_fwd_x_A c lon lat : or_fwd_x c lon lat = az_R c * az_A c lon lat.
Proof. unfold or_fwd_x, az_A. ring. Qed.

Lemma or_fwd_y_B c lon lat : or_fwd_y c lon lat = az_R c * az_B c lon lat.
Proof. reflexivity. Qed.

Lemma az_S_facts c lon lat : 0 < sq (az_A c lon lat) + sq (az_B c lon lat) ->
  let S := sqrt (sq (az_A c lon lat) + sq (az_B c lon lat)) in
  0 < S /\ S * S = 1 - (az_C c lon lat)² /\ -1 < az_C c lon lat < 1.
Proof.
  intros H S. assert (HS : 0 < S) by (apply sqrt_lt_R0, H).
  assert (E : S * S = 1 - (az_C c lon lat)²).
  { unfold S. rewrite sqrt_sqrt by lra. generalize (az_unit c lon lat). unfold sq, Rsqr. lra. }
  split; [exact HS|]. split; [exact E|].
  unfold Rsqr in E. split; nra.
Qed.

Lemma scaled_norm K A B : 0 < K -> 0 < sq A + sq B ->
  0 < K * A * (K * A) + K * B * (K * B) /\
  sqrt (K * A * (K * A) + K * B * (K * B)) = K * sqrt (sq A + sq B).
Proof.
  intros HK H. replace (K * A * (K * A) + K * B * (K * B)) with (K * K * (sq A + sq B)) by (unfold sq; ring).
  split; [apply Rmult_lt_0_compat; nra|]. rewrite sqrt_mult by nra. rewrite sqrt_square by lra. reflexivity.
Qed.

Lemma or_inverse_off c lon lat : az_cfg_ok c -> az_off_centre c lon lat -> 0 <= az_C c lon lat ->
  or_rev c (or_fwd c (lon, lat)) = (lon, lat).
Proof.
  intros [HR H0] Hoff HC. pose proof Hoff as (Hlat & Hdl & Hpos).
  pose proof (az_S_facts c lon lat Hpos) as (HS & ES & HCb).
  destruct (scaled_norm (az_R c) _ _ HR Hpos) as [Hxy Erho]. cbv zeta in *.
  set (S := sqrt (sq (az_A c lon lat) + sq (az_B c lon lat))) in *.
  unfold or_rev, or_fwd, mk2; cbn [fst snd].
  rewrite or_fwd_x_A, or_fwd_y_B.
  set (A := az_A c lon lat) in *. set (B := az_B c lon lat) in *. set (C := az_C c lon lat) in *.
  assert (HS1 : -1 <= S <= 1) by (unfold Rsqr in ES; split; nra).
  assert (Ec : or_rev_c c (az_R c * A) (az_R c * B) = asin S).
  { unfold or_rev_c, or_rev_rho. rewrite Erho. f_equal. field. lra. }
  assert (Ecos : cos (asin S) = C).
  { rewrite cos_asin by exact HS1. replace (1 - S²) with (C²) by (unfold Rsqr in *; lra).
    apply sqrt_Rsqr. exact HC. }
  rewrite or_rev_lon_off, or_rev_lat_off by exact Hxy.
  rewrite Ec, Erho, Ecos, sin_asin by exact HS1. unfold or_cosphi0, or_sinphi0.
  destruct (az_rev_core c lon lat (az_R c) HR Hoff) as [Elon Elat]. f_equal; assumption.
Qed.

Lemma or_inverse_centre c : az_cfg_ok c ->
  or_rev c (or_fwd c (az_lon0 c, az_lat0 c)) = (az_lon0 c, az_lat0 c).
Proof.
  intros [HR H0]. unfold or_rev, or_fwd, mk2; cbn [fst snd].
  rewrite or_fwd_x_A, or_fwd_y_B, az_A_centre, az_B_centre, !Rmult_0_r.
  rewrite or_rev_lon_centre, or_rev_lat_centre. unfold or_sinphi0, or_cosphi0.
  rewrite atan2_sin_cos by (apply dtor_closed, H0).
  unfold az_lam0, az_phi0. rewrite !rtod_dtor. reflexivity.
Qed.

Definition or_dom (c : az_cfg) (lon lat : R) : Prop :=
  az_cfg_ok c /\
  ((lon = az_lon0 c /\ lat = az_lat0 c) \/ (az_off_centre c lon lat /\ 0 <= az_C c lon lat)).

Lemma or_inverse_lemma c lon lat : or_dom c lon lat -> or_rev c (or_fwd c (lon, lat)) = (lon, lat).
Proof.
  intros [Hc [[-> ->] | [Hoff HC]]].
  - apply or_inverse_centre, Hc.
  - apply or_inverse_off; assumption.
Qed.

Lemma acos_pos x : -1 <= x < 1 -> 0 < acos x.
Proof.
  intros Hx. pose proof (acos_bound x) as [Hb _].
  destruct Hb as [Hb|Hb]; [exact Hb|]. exfalso.
  assert (E : cos (acos x) = x) by (apply cos_acos; lra).
  rewrite <- Hb, cos_0 in E. lra.
Qed.

(* off the centre Forward is (K A, K B) with K = R dl / sin dl, dl the angular distance *)
Lemma azeq_fwd_off c lon lat : 0 < sq (az_A c lon lat) + sq (az_B c lon lat) ->
  let K := az_R c * acos (az_C c lon lat) / sqrt (sq (az_A c lon lat) + sq (az_B c lon lat)) in
  azeq_fwd_x c lon lat = K * az_A c lon lat /\ azeq_fwd_y c lon lat = K * az_B c lon lat.
Proof.
  intros Hpos K. destruct (atan2_sin_cos_of _ _ Hpos) as [Es Ec]. apply sqrt_lt_R0 in Hpos.
  unfold azeq_fwd_x, azeq_fwd_y, azeq_theta. rewrite azeq_rho_acos, Es, Ec.
  unfold azeq_rho_orig, K. split; field; lra.
Qed.

Lemma azeq_inverse_off c lon lat : az_cfg_ok c -> az_off_centre c lon lat ->
  azeq_rev c (azeq_fwd c (lon, lat)) = (lon, lat).
Proof.
  intros [HR H0] Hoff. pose proof Hoff as (Hlat & Hdl & Hpos).
  pose proof (az_S_facts c lon lat Hpos) as (HS & ES & HCb).
  destruct (azeq_fwd_off c lon lat Hpos) as [Ex Ey]. cbv zeta in *.
  assert (Hdl0 : 0 < acos (az_C c lon lat)) by (apply acos_pos; lra).
  assert (Esd : sin (acos (az_C c lon lat)) = sqrt (sq (az_A c lon lat) + sq (az_B c lon lat))).
  { rewrite sin_acos by lra. f_equal. generalize (az_unit c lon lat). unfold sq, Rsqr. lra. }
  set (S := sqrt (sq (az_A c lon lat) + sq (az_B c lon lat))) in *.
  set (A := az_A c lon lat) in *. set (B := az_B c lon lat) in *. set (C := az_C c lon lat) in *.
  set (dl := acos C) in *. set (K := az_R c * dl / S) in *.
  assert (HK : 0 < K) by (apply Rdiv_lt_0_compat; [apply Rmult_lt_0_compat|]; assumption).
  unfold azeq_rev, azeq_fwd, mk2; cbn [fst snd]. rewrite Ex, Ey.
  destruct (scaled_norm K A B HK Hpos) as [Hxy Er]. fold S in Er.
  rewrite azeq_rev_lon_off, azeq_rev_lat_off by exact Hxy.
  (* the angular distance comes back as rho / R = dl, with sine S and cosine C *)
  rewrite Er. replace (K * S / az_R c) with dl by (unfold K; field; lra).
  rewrite Esd. replace (cos dl) with C by (symmetry; apply cos_acos; lra).
  destruct (az_rev_core c lon lat K HK Hoff) as [Elon Elat]. f_equal; [|exact Elat].
  replace (K * S * cos (az_phi0 c) * C - K * B * sin (az_phi0 c) * S)
    with (K * S * C * cos (az_phi0 c) - K * B * S * sin (az_phi0 c)) by ring.
  exact Elon.
Qed.

Lemma azeq_inverse_centre c :
  azeq_rev c (azeq_fwd c (az_lon0 c, az_lat0 c)) = (az_lon0 c, az_lat0 c).
Proof.
  unfold azeq_rev, azeq_fwd, mk2; cbn [fst snd].
  rewrite azeq_fwd_x_centre, azeq_fwd_y_centre, azeq_rev_lon_centre, azeq_rev_lat_centre. reflexivity.
Qed.

Definition azeq_dom (c : az_cfg) (lon lat : R) : Prop :=
  az_cfg_ok c /\ ((lon = az_lon0 c /\ lat = az_lat0 c) \/ az_off_centre c lon lat).

Lemma azeq_inverse_lemma c lon lat : azeq_dom c lon lat -> azeq_rev c (azeq_fwd c (lon, lat)) = (lon, lat).
Proof.
  intros [Hc [[-> ->] | Hoff]].
  - apply azeq_inverse_centre.
  - apply azeq_inverse_off; assumption.
Qed.

(* F12: Reverse multiplied the distance from the apex by the radius instead of dividing by it: the
   argument of asin has R^4 where 1 should be *)
Lemma alb_rev_arg_orig_fwd c lon lat : cn_parallels_ok c -> alb_n c <> 0 ->
  alb_rev_arg_orig c (alb_fwd_x c lon lat) (alb_fwd_y c lon lat)
  = (alb_C c - cn_R c ^ 4 * (alb_C c - 2 * alb_n c * sin (dtor lat))) / (2 * alb_n c).
Proof.
  intros Hc Hn. unfold alb_rev_arg_orig, alb_rev_rho_orig, alb_fwd_x, alb_fwd_y.
  set (th := alb_n c * (dtor lon - cn_lam0 c)).
  replace (alb_rho0 c - (alb_rho0 c - alb_rho c (dtor lat) * cos th)) with (alb_rho c (dtor lat) * cos th) by ring.
  rewrite polar_sqrt.
  replace (cn_R c * Rabs (alb_rho c (dtor lat)) * (cn_R c * Rabs (alb_rho c (dtor lat))) * alb_n c * alb_n c)
    with (sq (cn_R c) * (Rabs (alb_rho c (dtor lat)) * Rabs (alb_rho c (dtor lat)) * sq (alb_n c))) by (unfold sq; ring).
  rewrite Rabs_square, (alb_rho_sq c (dtor lat) Hc Hn). unfold sq. f_equal. ring.
Qed.

(* outside [-1, 1] the total asin answers -pi/2: the South Pole *)
Lemma alb_rev_lat_orig_clamped c x y : alb_rev_arg_orig c x y <= -1 -> alb_rev_lat_orig c x y = -90.
Proof.
  intros H. unfold alb_rev_lat_orig, asin. destruct (Rle_dec _ (-1)); [|contradiction].
  unfold rtod. field. apply PI_neq0.
Qed.

Lemma alb_C_lat1_30 c : cn_lat1 c = 30 -> alb_C c = 3 / 4 + alb_n c.
Proof.
  intros E. unfold alb_C, cn_phi1, sq. rewrite E, dtor_30, sin_PI6, cos_PI6.
  replace (sqrt 3 / 2 * (sqrt 3 / 2)) with (sqrt 3 * sqrt 3 / 4) by field.
  rewrite sqrt_sqrt by lra. field.
Qed.

(* radius 2, parallels 30/60, origin (0,0), the point (0, 45) *)
Definition f12_cfg : cn_cfg := Build_cn_cfg 2 0 0 30 60.

Lemma f12_n : alb_n f12_cfg = (1 + sqrt 3) / 4.
Proof. unfold alb_n, cn_phi1, cn_phi2, f12_cfg; cbn [cn_lat1 cn_lat2]. rewrite dtor_30, dtor_60, sin_PI6, sin_PI3. field. Qed.

Lemma f12_in_domain : alb_dom f12_cfg 0 45.
Proof.
  unfold alb_dom, cn_parallels_ok. rewrite f12_n.
  unfold f12_cfg, cn_lam0; cbn [cn_R cn_lat0 cn_lat1 cn_lat2 cn_lon0].
  rewrite Rminus_diag_eq, Rmult_0_r by reflexivity.
  pose proof PI_RGT_0. pose proof (sqrt_pos 3). repeat split; lra.
Qed.

Lemma f12_arg : alb_rev_arg_orig f12_cfg (alb_fwd_x f12_cfg 0 45) (alb_fwd_y f12_cfg 0 45) < -4.
Proof.
  destruct f12_in_domain as (Hc & Hn & _). rewrite (alb_rev_arg_orig_fwd _ _ _ Hc Hn).
  rewrite (alb_C_lat1_30 f12_cfg eq_refl), f12_n, dtor_45, sin_PI4. unfold f12_cfg; cbn [cn_R].
  interval with (i_prec 20).
Qed.

Lemma alb_orig_refuted_lemma : exists c lon lat,
  alb_dom c lon lat /\
  alb_rev_arg_orig c (alb_fwd_x c lon lat) (alb_fwd_y c lon lat) < -1 /\
  alb_rev_lat_orig c (alb_fwd_x c lon lat) (alb_fwd_y c lon lat) <> lat.
Proof.
  exists f12_cfg, 0, 45. pose proof f12_arg as H. split; [exact f12_in_domain|]. split; [lra|].
  rewrite alb_rev_lat_orig_clamped; lra.
Qed.

(* F13: at Forward(centre) the latitude formula of the pinned tree is (..) + 0/0 *)
Lemma azeq_orig_centre_refuted_lemma c :
  let x := azeq_fwd_x c (az_lon0 c) (az_lat0 c) in
  let y := azeq_fwd_y c (az_lon0 c) (az_lat0 c) in
  azeq_rev_lat_orig_num c x y = 0 /\ azeq_rev_lat_orig_den x y = 0.
Proof.
  cbv zeta. rewrite azeq_fwd_x_centre, azeq_fwd_y_centre.
  unfold azeq_rev_lat_orig_num, azeq_rev_lat_orig_den, azeq_rev_rho. rewrite rho_zero.
  split; [ring | reflexivity].
Qed.

(* F14: at Forward(centre) both quotients of the pinned tree's Reverse are 0/0 *)
Lemma or_orig_centre_refuted_lemma c :
  let x := or_fwd_x c (az_lon0 c) (az_lat0 c) in
  let y := or_fwd_y c (az_lon0 c) (az_lat0 c) in
  x = 0 /\ y = 0 /\ or_rev_lat_orig_den x y = 0 /\
  or_rev_lon_orig_num c x y = 0 /\ or_rev_lon_orig_den c x y = 0.
Proof.
  cbv zeta. rewrite or_fwd_x_A, or_fwd_y_B, az_A_centre, az_B_centre, !Rmult_0_r.
  unfold or_rev_lat_orig_den, or_rev_lon_orig_num, or_rev_lon_orig_den, or_rev_rho. rewrite rho_zero.
  repeat split; ring.
Qed.

(* F80: atan in place of atan2 only answers longitudes within 90 degrees of the central meridian *)
Lemma or_rev_lon_orig_far c lon x y :
  PI / 2 <= Rabs (dtor lon - az_lam0 c) -> or_rev_lon_orig c x y <> lon.
Proof.
  intros H E. apply (f_equal dtor) in E. unfold or_rev_lon_orig in E. rewrite dtor_rtod in E.
  rewrite <- E in H.
  pose proof (atan_bound (or_rev_lon_orig_num c x y / or_rev_lon_orig_den c x y)) as [B1 B2].
  replace (az_lam0 c + atan (or_rev_lon_orig_num c x y / or_rev_lon_orig_den c x y) - az_lam0 c)
    with (atan (or_rev_lon_orig_num c x y / or_rev_lon_orig_den c x y)) in H by ring.
  apply Rabs_def1 in B2; lra.
Qed.

(* centre (10, 80), the point (-160, 70) lies across the pole, 30 degrees of arc away *)
Definition f80_cfg : az_cfg := Build_az_cfg 1 10 80.

Lemma f80_in_domain : or_dom f80_cfg (-160) 70.
Proof.
  assert (HC : 0 <= az_C f80_cfg (-160) 70 <= 9 / 10) by (unfold f80_cfg; c19_unfold; interval with (i_prec 20)).
  split; [unfold az_cfg_ok, f80_cfg; cbn [az_R az_lat0]; lra|].
  right. split; [|lra]. apply az_off_centre_intro; [| unfold f80_cfg; cbn [az_lon0] |]; lra.
Qed.

Lemma or_atan_refuted_lemma : exists c lon lat,
  or_dom c lon lat /\ or_rev_lon_orig c (or_fwd_x c lon lat) (or_fwd_y c lon lat) <> lon.
Proof.
  exists f80_cfg, (-160), 70. split; [exact f80_in_domain|].
  apply or_rev_lon_orig_far. pose proof PI_RGT_0 as Hpi.
  unfold az_lam0, dtor, f80_cfg; cbn [az_lon0]. rewrite Rabs_left; lra.
Qed.

Lemma er_dom_example : er_dom (Build_er_cfg WGS84MeanRadius (-105) 35).
Proof. unfold er_dom, WGS84MeanRadius; cbn [er_R er_lat1]. lra. Qed.

Lemma sn_dom_example : sn_dom (Build_sn_cfg WGS84MeanRadius 151) (-78.5) 9.4.
Proof. unfold sn_dom, WGS84MeanRadius; cbn [sn_R]. lra. Qed.

Lemma lc_dom_example : lc_dom (Build_lc_cfg 1 37.5) (-74.3) (-90).
Proof. unfold lc_dom; cbn [lc_R]. lra. Qed.

Lemma wm_dom_example : wm_dom (Build_wm_cfg 17) 151.2 (-33.9).
Proof. unfold wm_dom; cbn [wm_zoom]. split; [repeat constructor | lra]. Qed.

Definition conic_example : cn_cfg := Build_cn_cfg WGS84MeanRadius (-96) 23 (-10) 40.
Definition conic_example_south : cn_cfg := Build_cn_cfg 1 135 (-40) (-30) (-60).

Lemma cn_ok_example : cn_parallels_ok conic_example.
Proof. unfold cn_parallels_ok, conic_example, WGS84MeanRadius; cbn [cn_R cn_lat0 cn_lat1 cn_lat2]. lra. Qed.

Lemma cn_ok_example_south : cn_parallels_ok conic_example_south.
Proof. unfold cn_parallels_ok, conic_example_south; cbn [cn_R cn_lat0 cn_lat1 cn_lat2]. lra. Qed.

(* a cone constant of modulus at most 1 keeps every point within 90 degrees of the central meridian
   inside the cone angle; each example evaluates its cone constant once *)
Lemma cone_angle n lon lon0 : -1 <= n <= 1 -> -90 < lon - lon0 < 90 ->
  - (PI / 2) < n * (dtor lon - dtor lon0) < PI / 2.
Proof.
  intros Hn Hd. rewrite dtor_minus. apply dtor_open in Hd.
  destruct (Rle_dec 0 (dtor (lon - lon0))); split; nra.
Qed.

Lemma lcc_n_example : 1 / 10 <= lcc_n conic_example <= 1.
Proof. unfold conic_example. c19_unfold. interval with (i_prec 20). Qed.

Lemma lcc_dom_example : lcc_dom conic_example (-50.5) 56.25.
Proof.
  pose proof lcc_n_example as Hn. unfold lcc_dom. split; [exact cn_ok_example|]. split; [lra|]. split; [lra|].
  apply cone_angle; [lra|]. unfold conic_example; cbn [cn_lon0]. lra.
Qed.

(* cone constant negative: both parallels in the southern hemisphere *)
Lemma lcc_dom_example_south : lcc_dom conic_example_south 100 (-56.25) /\ lcc_n conic_example_south < 0.
Proof.
  assert (Hn : -1 <= lcc_n conic_example_south <= -1 / 10)
    by (unfold conic_example_south; c19_unfold; interval with (i_prec 20)).
  split; [|lra]. unfold lcc_dom. split; [exact cn_ok_example_south|]. split; [lra|]. split; [lra|].
  apply cone_angle; [lra|]. unfold conic_example_south; cbn [cn_lon0]. lra.
Qed.

Lemma alb_n_example : alb_n conic_example <> 0.
Proof.
  assert (1 / 10 <= alb_n conic_example <= 1) by (unfold conic_example; c19_unfold; interval with (i_prec 20)).
  lra.
Qed.

Lemma alb_dom_example : alb_dom conic_example (-50.5) 56.25.
Proof.
  pose proof (sin_open _ (dtor_open (-10) ltac:(lra))). pose proof (sin_open _ (dtor_open 40 ltac:(lra))).
  unfold alb_dom. split; [exact cn_ok_example|]. split; [exact alb_n_example|]. split; [lra|].
  apply cone_angle; [|unfold conic_example; cbn [cn_lon0]; lra].
  unfold alb_n, cn_phi1, cn_phi2, conic_example; cbn [cn_lat1 cn_lat2]. lra.
Qed.

Lemma eqdc_n_example : 1 / 10 <= eqdc_n conic_example <= 1.
Proof. unfold conic_example. c19_unfold. interval with (i_prec 20). Qed.

Lemma eqdc_dom_example : eqdc_dom conic_example (-50.5) 56.25.
Proof.
  pose proof eqdc_n_example as Hn.
  assert (Hrho : 1 <= eqdc_rho conic_example (dtor 56.25) <= 4)
    by (unfold conic_example; c19_unfold; interval with (i_prec 20)).
  unfold eqdc_dom. split; [unfold conic_example, WGS84MeanRadius; cbn [cn_R]; lra|]. split; [lra|].
  split; [apply Rmult_lt_0_compat; lra|].
  apply cone_angle; [lra|]. unfold conic_example; cbn [cn_lon0]. lra.
Qed.

Lemma eqdc_parallel_example : eqdc_n conic_example <> 0 /\ cn_phi1 conic_example <> cn_phi2 conic_example.
Proof.
  assert (Hn : eqdc_n conic_example <> 0) by (pose proof eqdc_n_example; lra).
  split; [exact Hn | apply eqdc_n_den, Hn].
Qed.

Definition az_example : az_cfg := Build_az_cfg WGS84MeanRadius 151 (-34).

(* Sydney as centre, London as point: about 153 degrees of arc away (beyond the visible hemisphere) *)
Lemma azeq_dom_example : azeq_dom az_example (-0.1) 51.5 /\ az_C az_example (-0.1) 51.5 < 0.
Proof.
  assert (HC : -99 / 100 <= az_C az_example (-0.1) 51.5 <= -1 / 10)
    by (unfold az_example; c19_unfold; interval with (i_prec 20)).
  split; [|lra]. split; [unfold az_cfg_ok, az_example, WGS84MeanRadius; cbn [az_R az_lat0]; lra|].
  right. apply az_off_centre_intro; [| unfold az_example; cbn [az_lon0] |]; lra.
Qed.

Lemma azeq_dom_example_centre : azeq_dom az_example 151 (-34).
Proof.
  unfold azeq_dom, az_cfg_ok, az_example, WGS84MeanRadius; cbn [az_R az_lat0 az_lon0].
  split; [lra|]. left. split; reflexivity.
Qed.

(* centre at the north pole *)
Lemma or_dom_example : or_dom (Build_az_cfg 1 0 90) 123 45.
Proof.
  assert (HC : 1 / 2 <= az_C (Build_az_cfg 1 0 90) 123 45 <= 9 / 10) by (c19_unfold; interval with (i_prec 20)).
  split; [unfold az_cfg_ok; cbn [az_R az_lat0]; lra|].
  right. split; [|lra]. apply az_off_centre_intro; [| cbn [az_lon0] |]; lra.
Qed.

Lemma wm_latmax_value : Rabs (wm_latmax - 85.0511287798066) <= 1e-12.
Proof. unfold wm_latmax, rtod. interval with (i_prec 50). Qed.

Lemma lcc_rho_n c lat : lcc_n c <> 0 -> -90 < lat < 90 ->
  lcc_rho c (dtor lat) * lcc_n c
  = cn_R c * cos (cn_phi1 c)
    * exp (lcc_n c * (ln (tan (PI / 4 + cn_phi1 c / 2)) - ln (tan (PI / 4 + dtor lat / 2)))).
Proof.
  intros Hn Hlat. rewrite lcc_rho_merc by exact Hlat. unfold lcc_F, pow, Rpower, merc.
  replace (lcc_n c * (ln (tan (PI / 4 + cn_phi1 c / 2)) - ln (tan (PI / 4 + dtor lat / 2))))
    with (lcc_n c * ln (tan (PI / 4 + cn_phi1 c / 2)) + - lcc_n c * ln (tan (PI / 4 + dtor lat / 2))) by ring.
  rewrite exp_plus. field. exact Hn.
Qed.

Lemma ln_quot x y : 0 < x -> 0 < y -> ln (x * (1 / y)) = ln x - ln y.
Proof.
  intros Hx Hy. rewrite ln_mult; [| exact Hx | apply Rdiv_lt_0_compat; lra].
  unfold Rdiv. rewrite Rmult_1_l, ln_Rinv by exact Hy. ring.
Qed.

Lemma lcc_rho_n_phi1 c : cn_parallels_ok c -> lcc_n c <> 0 ->
  lcc_rho c (cn_phi1 c) * lcc_n c = cn_R c * cos (cn_phi1 c).
Proof.
  intros Hc Hn. unfold cn_phi1 at 1. rewrite lcc_rho_n by (assumption || apply Hc).
  rewrite Rminus_diag_eq, Rmult_0_r, exp_0 by reflexivity. ring.
Qed.

Lemma lcc_rho_n_phi2 c : cn_parallels_ok c -> lcc_n c <> 0 ->
  lcc_rho c (cn_phi2 c) * lcc_n c = cn_R c * cos (cn_phi2 c).
Proof.
  intros Hc Hn. pose proof (lcc_n_den c Hn) as Hden. unfold cn_phi2 at 1. rewrite lcc_rho_n by (assumption || apply Hc).
  destruct Hc as (HR & H1 & H2 & H0).
  pose proof (tan_half_pos _ H1) as Ht1. pose proof (tan_half_pos _ H2) as Ht2.
  pose proof (cos_dtor_pos _ H1) as Hc1. pose proof (cos_dtor_pos _ H2) as Hc2.
  fold (cn_phi1 c) in Ht1, Hc1 |- *. fold (cn_phi2 c) in Ht2, Hc2 |- *.
  set (t1 := tan (PI / 4 + cn_phi1 c / 2)) in *. set (t2 := tan (PI / 4 + cn_phi2 c / 2)) in *.
  (* the defining equation of n:  n (ln t2 - ln t1) = ln cos phi1 - ln cos phi2 *)
  assert (En : lcc_n c * (ln t2 - ln t1) = ln (cos (cn_phi1 c)) - ln (cos (cn_phi2 c))).
  { unfold lcc_n, sec, cot in *. fold t1 t2 in Hden |- *.
    rewrite ln_quot in Hden |- * by assumption. rewrite ln_quot by assumption. field. exact Hden. }
  replace (lcc_n c * (ln t1 - ln t2)) with (ln (cos (cn_phi2 c)) + - ln (cos (cn_phi1 c))) by lra.
  rewrite exp_plus, exp_Ropp, !exp_ln by assumption. field. lra.
Qed.

Lemma lcc_parallel_lemma c lon lat : cn_parallels_ok c -> lcc_n c <> 0 ->
  ln (tan (PI / 4 + cn_phi2 c / 2) * cot (PI / 4 + cn_phi1 c / 2)) <> 0 ->
  lat = cn_lat1 c \/ lat = cn_lat2 c ->
  parallel_true_scale (lcc_fwd_x c) (lcc_fwd_y c) (cn_R c) lon lat.
Proof.
  intros Hc Hn _ H.
  refine (conic_parallel (fun p => lcc_rho c (dtor p)) (lcc_rho0 c) (lcc_n c) (cn_lam0 c) (cn_R c) lon lat _).
  f_equal. destruct H as [-> | ->]; [apply lcc_rho_n_phi1 | apply lcc_rho_n_phi2]; assumption.
Qed.

Lemma lcc_parallel_example :
  lcc_n conic_example <> 0 /\
  ln (tan (PI / 4 + cn_phi2 conic_example / 2) * cot (PI / 4 + cn_phi1 conic_example / 2)) <> 0.
Proof.
  assert (Hn : lcc_n conic_example <> 0) by (pose proof lcc_n_example; lra).
  split; [exact Hn | apply lcc_n_den, Hn].
Qed.

Lemma setters_lemma :
  (forall c l l', er_set_meridian (er_set_meridian c l) l' = er_set_meridian c l') /\
  (forall c p p', er_set_parallels (er_set_parallels c p) p' = er_set_parallels c p') /\
  (forall c l p, er_set_meridian (er_set_parallels c p) l = er_set_parallels (er_set_meridian c l) p) /\
  (forall c l l', sn_set_meridian (sn_set_meridian c l) l' = sn_set_meridian c l') /\
  (forall c l l', lc_set_meridian (lc_set_meridian c l) l' = lc_set_meridian c l') /\
  (forall c l p l' p', cn_set_origin (cn_set_origin c l p) l' p' = cn_set_origin c l' p') /\
  (forall c a b a' b', cn_set_parallels (cn_set_parallels c a b) a' b' = cn_set_parallels c a' b') /\
  (forall c l p a b, cn_set_origin (cn_set_parallels c a b) l p = cn_set_parallels (cn_set_origin c l p) a b) /\
  (forall c l p l' p', az_set_center (az_set_center c l p) l' p' = az_set_center c l' p').
Proof. repeat split; reflexivity. Qed.

(* every configuration is reached from any value of the same radius by one call of each setter *)
Lemma setters_reach_lemma :
  (forall c c', er_R c = er_R c' -> er_set_parallels (er_set_meridian c (er_lon0 c')) (er_lat1 c') = c') /\
  (forall c c', cn_R c = cn_R c' ->
     cn_set_parallels (cn_set_origin c (cn_lon0 c') (cn_lat0 c')) (cn_lat1 c') (cn_lat2 c') = c') /\
  (forall c c', az_R c = az_R c' -> az_set_center c (az_lon0 c') (az_lat0 c') = c').
Proof.
  repeat split; intros c c' E; destruct c, c'; cbn in *; subst; reflexivity.
Qed.

(* F12 and F80 again, with witnesses whose
   trigonometric values are exact (no interval arithmetic: the statements in Props/C19.v then depend on
   the assumptions of Coq.Reals only) *)

(* F12: radius 2, both parallels and the origin at latitude 30 (sin = 1/2 exactly), the origin itself *)
Definition f12x_cfg : cn_cfg := Build_cn_cfg 2 0 30 30 30.

Lemma f12x_n : alb_n f12x_cfg = 1 / 2.
Proof. unfold alb_n, cn_phi1, cn_phi2, f12x_cfg; cbn [cn_lat1 cn_lat2]. rewrite dtor_30, sin_PI6. field. Qed.

Lemma f12x_in_domain : alb_dom f12x_cfg 0 30.
Proof.
  unfold alb_dom, cn_parallels_ok. rewrite f12x_n.
  unfold f12x_cfg, cn_lam0; cbn [cn_R cn_lat0 cn_lat1 cn_lat2 cn_lon0].
  rewrite Rminus_diag_eq, Rmult_0_r by reflexivity.
  pose proof PI_RGT_0. repeat split; lra.
Qed.

Lemma f12x_arg : alb_rev_arg_orig f12x_cfg (alb_fwd_x f12x_cfg 0 30) (alb_fwd_y f12x_cfg 0 30) = 5 / 4 - 12.
Proof.
  destruct f12x_in_domain as (Hc & Hn & _). rewrite (alb_rev_arg_orig_fwd _ _ _ Hc Hn).
  rewrite (alb_C_lat1_30 f12x_cfg eq_refl), f12x_n, dtor_30, sin_PI6. unfold f12x_cfg; cbn [cn_R]. field.
Qed.

Lemma alb_orig_refuted_exact : exists c lon lat,
  alb_dom c lon lat /\
  alb_rev_arg_orig c (alb_fwd_x c lon lat) (alb_fwd_y c lon lat) < -1 /\
  alb_rev_lat_orig c (alb_fwd_x c lon lat) (alb_fwd_y c lon lat) <> lat.
Proof.
  exists f12x_cfg, 0, 30. pose proof f12x_arg as H. split; [exact f12x_in_domain|]. split; [lra|].
  rewrite alb_rev_lat_orig_clamped; lra.
Qed.

(* F80: centre (0, 60), the point (180, 60): straight across the pole, 60 degrees of arc away *)
Definition f80x_cfg : az_cfg := Build_az_cfg 1 0 60.

Lemma f80x_in_domain : or_dom f80x_cfg 180 60.
Proof.
  pose proof PI_RGT_0 as Hpi.
  assert (Ed : dtor 180 - az_lam0 f80x_cfg = PI) by (unfold az_lam0, f80x_cfg, dtor; cbn [az_lon0]; field).
  assert (EC : az_C f80x_cfg 180 60 = 1 / 2).
  { unfold az_C, az_phi0. rewrite Ed, cos_PI. unfold f80x_cfg; cbn [az_lat0].
    rewrite dtor_60, sin_PI3, cos_PI3.
    replace (sqrt 3 / 2 * (sqrt 3 / 2) + 1 / 2 * (1 / 2) * -1) with (sqrt 3 * sqrt 3 / 4 - 1 / 4) by field.
    rewrite sqrt_sqrt by lra. field. }
  unfold or_dom, az_cfg_ok, az_off_centre. rewrite Ed, EC.
  split; [unfold f80x_cfg; cbn [az_R az_lat0]; lra|]. right. repeat split; try lra.
  apply az_off_centre_C. rewrite EC. lra.
Qed.

Lemma or_atan_refuted_exact : exists c lon lat,
  or_dom c lon lat /\ or_rev_lon_orig c (or_fwd_x c lon lat) (or_fwd_y c lon lat) <> lon.
Proof.
  exists f80x_cfg, 180, 60. split; [exact f80x_in_domain|].
  apply or_rev_lon_orig_far. pose proof PI_RGT_0 as Hpi.
  unfold az_lam0, dtor, f80x_cfg; cbn [az_lon0]. rewrite Rabs_right; lra.
Qed.
