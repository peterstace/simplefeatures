(* Lemmas of property C02, layers (b) and (c): transposition of the whole model, the closed form
   for empty operands, transparency of empty collection members (F8). *)
From Coq Require Import QArith List Bool ZArith NArith Lia.
From SF Require Import Base.GeomAST Base.QKernel Base.Planar Proofs.Planar_proofs Model.RelatePatterns Model.Relate.
Import ListNotations.
Local Close Scope Q_scope.
Local Open Scope nat_scope.
Local Open Scope list_scope.


Lemma transpose_invol m : transpose (transpose m) = m.
Proof. destruct m; reflexivity. Qed.

(* ---------------- Relate(b,a) is the transpose of Relate(a,b), for the whole model *)
Lemma relate_with_transpose dimf a b : relate_with dimf b a = transpose (relate_with dimf a b).
Proof.
  unfold relate_with, relate_empty_branch. rewrite (orb_comm (is_empty b)), (andb_comm (is_empty b)).
  destruct (is_empty a), (is_empty b); cbn [orb andb]; rewrite ?transpose_invol; try reflexivity.
  apply de9im_ref_transpose.
Qed.

(* ---------------- the closed form for an empty operand *)
Lemma relate_both_empty dimf a b : is_empty a = true -> is_empty b = true ->
  relate_with dimf a b = m_all_F_but_EE.
Proof. intros Ea Eb. unfold relate_with, relate_empty_branch. rewrite Ea, Eb. reflexivity. Qed.

(* nothing meets the interior or boundary of an empty operand; the two exteriors always meet in an area *)
Lemma relate_empty_right dimf a b : is_empty b = true ->
  forall l, mget (relate_with dimf a b) l Interior = DF /\ mget (relate_with dimf a b) l Boundary = DF.
Proof.
  intros Eb l. unfold relate_with, relate_empty_branch. rewrite Eb, orb_true_r, andb_true_r.
  destruct (is_empty a); [destruct l; split; reflexivity|].
  destruct (dimf a) as [|[|[|n]]]; destruct l; split; try reflexivity.
Qed.
Lemma relate_empty_EE dimf a b : is_empty a || is_empty b = true -> mEE (relate_with dimf a b) = D2.
Proof.
  intros E. unfold relate_with, relate_empty_branch. rewrite E.
  destruct (is_empty a && is_empty b); [reflexivity|].
  destruct (is_empty b); destruct (dimf _) as [|[|[|n]]]; reflexivity.
Qed.

(* ---------------- the parts of an empty geometry *)
Lemma point_empty_pts_nil (q : pointT Q) : point_empty q = true -> point_pts q = [].
Proof. unfold point_empty, point_pts. destruct (point_c q); [discriminate | reflexivity]. Qed.
Lemma line_empty_vs_nil (l : lineT Q) : line_empty l = true -> line_vs l = [].
Proof. unfold line_empty. destruct (line_vs l); [reflexivity | discriminate]. Qed.
Lemma poly_empty_rings_nil (y : polyT Q) : poly_empty y = true -> poly_rings y = [].
Proof. unfold poly_empty. destruct (poly_rings y); [reflexivity | discriminate]. Qed.

Lemma empty_parts g : is_empty g = true ->
  g_points g = [] /\ (forall l, In l (g_lines g) -> line_vs l = []) /\ (forall y, In y (g_polys g) -> poly_rings y = []).
Proof.
  induction g using geomT_ind'; simpl; intros E.
  - rewrite (point_empty_pts_nil p E). split; [reflexivity|]. split; intros ? [].
  - split; [reflexivity|]. split; [|intros ? []]. intros l9 [<-|[]]. apply line_empty_vs_nil, E.
  - split; [reflexivity|]. split; [intros ? []|]. intros y [<-|[]]. apply poly_empty_rings_nil, E.
  - rewrite forallb_forall in E. split; [|split; intros ? []]. apply flat_map_nil. intros q Hq. apply point_empty_pts_nil, E, Hq.
  - rewrite forallb_forall in E. split; [reflexivity|]. split; [|intros ? []]. intros l Hl. apply line_empty_vs_nil, E, Hl.
  - rewrite forallb_forall in E. split; [reflexivity|]. split; [intros ? []|]. intros y Hy. apply poly_empty_rings_nil, E, Hy.
  - rewrite forallb_forall in E. rewrite Forall_forall in H.
    split; [apply flat_map_nil; intros g Hg; apply (H g Hg), E, Hg|].
    split; intros x Hx; apply in_flat_map in Hx; destruct Hx as [g [Hg Hx]];
      destruct (H g Hg (E g Hg)) as [_ [Lg Yg]]; auto.
Qed.

Lemma empty_line_facts l : line_vs l = [] -> line_segs l = [] /\ line_ends l = [].
Proof. intros E. unfold line_segs, line_ends, line_pts. rewrite E. split; reflexivity. Qed.
Lemma empty_poly_facts y : poly_rings y = [] -> poly_ring_segs y = [].
Proof. intros E. unfold poly_ring_segs. rewrite E. reflexivity. Qed.

Lemma empty_arr g : is_empty g = true -> arr_segments g = [] /\ arr_points g = [].
Proof.
  intros E. destruct (empty_parts g E) as [P [L Y]]. unfold arr_segments, arr_points. split; [|exact P].
  rewrite (flat_map_nil _ (g_polys g)), (flat_map_nil _ (g_lines g)); auto.
  - intros l Hl. apply empty_line_facts. auto.
  - intros y Hy. rewrite (empty_poly_facts y) by auto. reflexivity.
Qed.

Lemma empty_locate_tests g p : is_empty g = true ->
  existsb (fun y => rings_interior (poly_ring_segs y) p) (g_polys g) = false /\
  existsb (fun y => rings_boundary (poly_ring_segs y) p) (g_polys g) = false /\
  existsb (fun l => on_edges (line_segs l) p) (g_lines g) = false.
Proof.
  intros E. destruct (empty_parts g E) as [_ [L Y]]. repeat split; apply existsb_all_false; intros x Hx.
  - rewrite (empty_poly_facts x (Y x Hx)). reflexivity.
  - rewrite (empty_poly_facts x (Y x Hx)). reflexivity.
  - rewrite (proj1 (empty_line_facts x (L x Hx))). reflexivity.
Qed.
(* every point is exterior to an empty geometry *)
Lemma locate_empty g p : is_empty g = true -> locate g p = Exterior.
Proof.
  intros E. unfold locate, locate_p, prep; cbn [pg_polys pg_lines pg_ends pg_points].
  rewrite !existsb_map, (proj1 (empty_parts g E)). destruct (empty_locate_tests g p E) as [-> [-> ->]]. reflexivity.
Qed.

(* the definitional matrix, too, has nothing in the columns of an empty second operand *)
Lemma de9im_ref_empty_right a b l : is_empty b = true ->
  mget (de9im_ref a b) l Interior = DF /\ mget (de9im_ref a b) l Boundary = DF.
Proof.
  intros E. assert (K : forall lb, lb <> Exterior -> mget (de9im_ref a b) l lb = DF).
  { intros lb Hl. destruct (mget (de9im_ref a b) l lb) eqn:M; [reflexivity| | |]; exfalso;
      (destruct (de9im_ref_entry_witnessed a b l lb) as [w [_ [_ Hb]]]; [congruence|]; apply Hl; rewrite <- Hb;
       apply locate_empty; exact E). }
  split; apply K; discriminate.
Qed.


(* everything Relate and the predicates consult about an operand *)
Definition same_sig (g g' : geom) : Prop :=
  is_empty g = is_empty g' /\ dimension_ie g = dimension_ie g' /\ boundary_empty g = boundary_empty g' /\
  arr_segments g = arr_segments g' /\ arr_points g = arr_points g' /\ (forall p, locate g p = locate g' p).

Lemma relate_same_sig g g' h : same_sig g g' -> relate g h = relate g' h.
Proof.
  intros [E [D [B [S [P L]]]]]. unfold relate, relate_with. rewrite E.
  destruct (is_empty g' || is_empty h) eqn:Em.
  - unfold relate_empty_branch. rewrite E. destruct (is_empty g' && is_empty h); [reflexivity|].
    destruct (is_empty h); [rewrite D, B; reflexivity | reflexivity].
  - unfold de9im_ref, pair_witnesses. rewrite S, P. f_equal. unfold classify.
    apply map_ext. intros w. fold (locate g (fst w)). fold (locate g' (fst w)). rewrite L. reflexivity.
Qed.
Lemma preds_same_sig g g' h : same_sig g g' -> preds g h = preds g' h.
Proof.
  intros H. unfold preds, preds_with. fold (relate g h). fold (relate g' h).
  rewrite (relate_same_sig g g' h H). destruct H as [E [D _]]. rewrite E, D. reflexivity.
Qed.

Lemma empty_dim_ie g : is_empty g = true -> dimension_ie g = 0.
Proof.
  induction g using geomT_ind'; intros E; try (simpl in *; rewrite E; reflexivity).
  simpl in *. induction H as [|g gs Hg Hgs IH]; simpl; auto.
  simpl in E. apply andb_true_iff in E. destruct E as [E1 E2]. rewrite (Hg E1), (IH E2). reflexivity.
Qed.
Lemma empty_boundary_empty g : is_empty g = true -> boundary_empty g = true.
Proof.
  induction g using geomT_ind'; intros E; simpl in *; auto.
  - unfold line_pts. rewrite (line_empty_vs_nil l E). reflexivity.
  - rewrite (poly_empty_rings_nil p E). reflexivity.
  - unfold mline_boundary_empty. rewrite (flat_map_nil (@line_ends) ls); [reflexivity|].
    intros l Hl. rewrite forallb_forall in E. apply empty_line_facts, line_empty_vs_nil, E, Hl.
  - apply forallb_forall. intros y Hy. rewrite forallb_forall in E. rewrite (poly_empty_rings_nil y (E y Hy)). reflexivity.
  - rewrite E. reflexivity.
Qed.

(* ---- a collection with an empty member inserted anywhere *)
Section Insert.
  Variable ct : ctype.
  Variables gs1 gs2 : list geom.
  Variable e : geom.
  Hypothesis He : is_empty e = true.
  Let G' := GColl ct (gs1 ++ e :: gs2).
  Let G := GColl ct (gs1 ++ gs2).

  Lemma ins_points : g_points G' = g_points G.
  Proof.
    unfold G', G; simpl. rewrite !flat_map_app. simpl. destruct (empty_parts e He) as [-> _]. reflexivity.
  Qed.
  Lemma ins_lines : g_lines G' = flat_map g_lines gs1 ++ g_lines e ++ flat_map g_lines gs2 /\
                    g_lines G = flat_map g_lines gs1 ++ flat_map g_lines gs2.
  Proof. unfold G', G; simpl. rewrite !flat_map_app. simpl. auto. Qed.
  Lemma ins_polys : g_polys G' = flat_map g_polys gs1 ++ g_polys e ++ flat_map g_polys gs2 /\
                    g_polys G = flat_map g_polys gs1 ++ flat_map g_polys gs2.
  Proof. unfold G', G; simpl. rewrite !flat_map_app. simpl. auto. Qed.

  Lemma ins_same_sig : same_sig G' G.
  Proof.
    destruct (empty_parts e He) as [P [L Y]].
    destruct ins_lines as [L1 L2]. destruct ins_polys as [Y1 Y2].
    pose proof (proj1 (empty_arr e He)) as Sa. apply app_eq_nil in Sa. destruct Sa as [Sy Sl].
    assert (Se : flat_map line_ends (g_lines e) = []).
    { apply flat_map_nil. intros l Hl. apply empty_line_facts, L, Hl. }
    split; [|split; [|split; [|split; [|split]]]].
    - unfold G', G; simpl. rewrite !forallb_app. simpl. rewrite He. reflexivity.
    - unfold G', G; simpl. clear L1 L2 Y1 Y2. induction gs1 as [|x xs IH]; simpl.
      + rewrite (empty_dim_ie e He). reflexivity.
      + rewrite IH. reflexivity.
    - unfold G', G; simpl. rewrite !forallb_app. simpl. rewrite He, (empty_boundary_empty e He). reflexivity.
    - unfold arr_segments. rewrite L1, L2, Y1, Y2, !flat_map_app, Sy, Sl. reflexivity.
    - unfold arr_points. apply ins_points.
    - intros p. unfold locate, locate_p, prep; cbn [pg_polys pg_lines pg_ends pg_points].
      rewrite ins_points, L1, L2, Y1, Y2, !map_app, !existsb_app, !flat_map_app.
      rewrite Se, !existsb_map. destruct (empty_locate_tests e p He) as [-> [-> ->]]. reflexivity.
  Qed.
End Insert.

(* ---- a collection with a single member is that member *)
Lemma singleton_same_sig ct g : same_sig (GColl ct [g]) g.
Proof.
  split; [|split; [|split; [|split; [|split]]]].
  - simpl. apply andb_true_r.
  - destruct g; simpl; try apply Nat.max_0_r.
  - simpl. rewrite !andb_true_r. destruct (is_empty g) eqn:E; [|reflexivity].
    symmetry. apply empty_boundary_empty. exact E.
  - unfold arr_segments. simpl. rewrite !app_nil_r. reflexivity.
  - unfold arr_points. simpl. apply app_nil_r.
  - intros p. unfold locate, prep. simpl. rewrite !app_nil_r. reflexivity.
Qed.

(* the empty-member transparency theorem over the repaired model (F8) *)
Lemma relate_empty_member_transparent_lemma ct gs1 e gs2 h :
  is_empty e = true ->
  relate (GColl ct (gs1 ++ e :: gs2)) h = relate (GColl ct (gs1 ++ gs2)) h /\
  relate h (GColl ct (gs1 ++ e :: gs2)) = relate h (GColl ct (gs1 ++ gs2)) /\
  preds (GColl ct (gs1 ++ e :: gs2)) h = preds (GColl ct (gs1 ++ gs2)) h.
Proof.
  intros He. pose proof (ins_same_sig ct gs1 gs2 e He) as S.
  split; [|split].
  - apply relate_same_sig. exact S.
  - unfold relate. rewrite (relate_with_transpose dimension_ie (GColl ct (gs1 ++ e :: gs2)) h).
    rewrite (relate_with_transpose dimension_ie (GColl ct (gs1 ++ gs2)) h). f_equal.
    apply relate_same_sig. exact S.
  - apply preds_same_sig. exact S.
Qed.
Lemma relate_singleton_collection_lemma ct g h :
  relate (GColl ct [g]) h = relate g h /\ preds (GColl ct [g]) h = preds g h.
Proof. split; [apply relate_same_sig | apply preds_same_sig]; apply singleton_same_sig. Qed.

(* the pinned code violates it (F8): POINT(1 1) with a POLYGON EMPTY sibling against POINT EMPTY;
   LINESTRING(0 0,2 2) with a POLYGON EMPTY sibling against LINESTRING(1 1,3 3) (Overlaps) *)
Definition vq (x y : Z) : vtx Q := Build_vtx (inject_Z x) (inject_Z y) (inject_Z 0) (inject_Z 0).
Definition f8_g : geom := GPoint (MkPoint XY (Some (vq 1 1))).
Definition f8_e : geom := GPoly (MkPoly XY []).
Definition f8_h : geom := GPoint (MkPoint XY None).
Definition f8_l1 : geom := GLine (MkLine XY [vq 0 0; vq 2 2]).
Definition f8_l2 : geom := GLine (MkLine XY [vq 1 1; vq 3 3]).
Lemma relate_empty_member_refuted_lemma :
  exists ct gs1 e gs2 h, is_empty e = true /\
    relate_unfixed (GColl ct (gs1 ++ e :: gs2)) h <> relate_unfixed (GColl ct (gs1 ++ gs2)) h.
Proof.
  exists XY, [f8_g], f8_e, [], f8_h. split; [reflexivity|]. vm_compute. discriminate.
Qed.
Lemma preds_empty_member_refuted_lemma :
  exists ct gs1 e gs2 h, is_empty e = true /\
    preds_unfixed (GColl ct (gs1 ++ e :: gs2)) h <> preds_unfixed (GColl ct (gs1 ++ gs2)) h.
Proof.
  exists XY, [f8_l1], f8_e, [], f8_l2. split; [reflexivity|]. vm_compute. discriminate.
Qed.
