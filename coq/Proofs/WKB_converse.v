(* The converse direction of the WKB codec (properties C04 and C08): everything the decoder of
   Model/WKB.v accepts - from ANY byte string, foreign byte orders and mixed member types
   included - is a well-formed value (wf_wkb: every node carries one coordinates type, unused Z/M
   are zero, ordinates are 64-bit patterns, counts fit a uint32, a full point has non-NaN X and Y),
   hence it re-encodes canonically and that encoding decodes to the same value.
   The description of what the decoder returns is proved in Proofs/WKB_image.v ([dec_rel]). *)
From Coq Require Import NArith List Bool.
From SF Require Import Base.Outcome Base.Bytes Base.GeomAST Model.WKB Proofs.WKB_proofs Proofs.WKB_image.
Import ListNotations.
Local Open Scope N_scope.

(* everything the decoder accepts is a well-formed value; the unread rest still consists of bytes *)
Lemma wkb_dec_wf_lemma : forall bs g r,
  bytes_ok bs -> dec bs = Ok (g, r) -> wf_wkb g = true /\ bytes_ok r.
Proof.
  intros bs g r Hbs E. destruct (dec_rel bs g r Hbs E) as (u & _ & ([Hwf Hc] & _) & Hr).
  split; [|exact Hr]. unfold wf_wkb. rewrite Hc, Hwf. reflexivity.
Qed.

(* decode . encode . decode = decode: the canonical (little-endian) re-encoding of any accepted
   document - foreign byte orders and mixed member coordinate types included - decodes to the
   same value, whatever follows it; and so does every other byte-order choice *)
Lemma wkb_dec_enc_dec_lemma : forall bs g r,
  bytes_ok bs -> dec bs = Ok (g, r) ->
  forall bo r', dec (enc_bo bo g ++ r') = Ok (g, r').
Proof.
  intros bs g r Hbs E bo r'. apply wkb_roundtrip_lemma.
  exact (proj1 (wkb_dec_wf_lemma bs g r Hbs E)).
Qed.

(* decoded values are determined by their canonical encodings *)
Lemma wkb_canonical_lemma : forall bs bs' g g' r r',
  bytes_ok bs -> bytes_ok bs' -> dec bs = Ok (g, r) -> dec bs' = Ok (g', r') ->
  (enc g = enc g' <-> g = g').
Proof.
  intros bs bs' g g' r r' Hb Hb' E E'. split; [|intros ->; reflexivity]. intros Henc.
  pose proof (proj1 (wkb_dec_wf_lemma _ _ _ Hb E)) as Hg.
  pose proof (proj1 (wkb_dec_wf_lemma _ _ _ Hb' E')) as Hg'.
  destruct (wkb_injective_lemma (fun _ => LE) (fun _ => LE) g g' [] [] Hg Hg') as [H _]; [|exact H].
  unfold enc in Henc. rewrite Henc. reflexivity.
Qed.

(* re-encoding is idempotent on accepted documents: enc (dec (enc (dec bs))) = enc (dec bs) *)
Lemma wkb_reencode_fixpoint_lemma : forall bs g r,
  bytes_ok bs -> dec bs = Ok (g, r) -> dec (enc g) = Ok (g, []).
Proof.
  intros bs g r Hbs E. rewrite <- (app_nil_r (enc g)).
  exact (wkb_dec_enc_dec_lemma bs g r Hbs E (fun _ => LE) []).
Qed.
