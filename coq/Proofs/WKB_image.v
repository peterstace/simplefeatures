(* What the WKB decoder accepts (properties C04 and C08): whenever [dec bs] succeeds on a string of
   bytes, (1) the consumed prefix of bs is EXACTLY [enc_bo bo g'] for some per-element byte-order
   choice bo and some raw document tree g' (the nodes as written: declared coordinate types, members
   of any coordinate type, NaN/NaN points spelled with whatever payload), and the value returned is
   the normalisation of g' by the constructors (NaN/NaN point -> empty point, NewPolygon,
   NewMultiPoint, ... AND the member types and force the members); (2) the value is well-formed
   (wf_wkb).
   Technique: a postcondition over parser computations that also describes the consumed bytes
   ([satU R m]), closed under bind; per-member byte-order oracles are joined into one oracle on
   paths ([join]), and [enc_at] only looks at the oracle below the current path ([enc_at_ext]). *)
From Coq Require Import NArith List Bool Lia ZArith.
From Coq Require Import ZifyN ZifyNat ZifyBool.
From SF Require Import Base.Outcome Base.Bytes Base.GeomAST Model.WKB Proofs.CType_proofs Proofs.WKB_proofs.
Import ListNotations.
Local Open Scope N_scope.

Notation is0 := (N.eqb 0) (only parsing).

(* ------------------------------------------------------------------ normalisation *)
Definition norm_point (p : pointT N) : pointT N :=
  match p with
  | MkPoint ct (Some v) => if is_nan (vx v) && is_nan (vy v) then MkPoint ct None else p
  | _ => p
  end.
Definition norm_poly (p : polyT N) : polyT N :=
  let 'MkPoly ct rs := p in match rs with [] => MkPoly ct [] | _ :: _ => new_polygon 0 rs end.
(* what wkbParser makes of a document tree *)
Fixpoint normalise (g : geom) : geom :=
  match g with
  | GPoint p => GPoint (norm_point p)
  | GLine l => GLine l
  | GPoly p => GPoly (norm_poly p)
  | GMPoint ct ps => match ps with [] => GMPoint ct [] | _ :: _ => new_multipoint 0 (map norm_point ps) end
  | GMLine ct ls => match ls with [] => GMLine ct [] | _ :: _ => new_multiline 0 ls end
  | GMPoly ct ps => match ps with [] => GMPoly ct [] | _ :: _ => new_multipoly 0 (map norm_poly ps) end
  | GColl ct gs => match gs with [] => GColl ct [] | _ :: _ => new_collection 0 (map normalise gs) end
  end.

Lemma normalise_atom_inv g :
  match normalise g with
  | GPoint p => exists p', g = GPoint p' /\ p = norm_point p'
  | GLine l => g = GLine l
  | GPoly p => exists p', g = GPoly p' /\ p = norm_poly p'
  | _ => True
  end.
Proof.
  destruct g as [p|l|p|ct ps|ct ls|ct ps|ct gs]; cbn [normalise]; eauto;
    match goal with |- context [match ?l with [] => _ | _ :: _ => _ end] => destruct l end; exact I.
Qed.

(* ------------------------------------------------------------------ forcing and the constructors *)
Lemma count_ok_map {A B} (h : A -> B) (l : list A) : count_ok (map h l) = count_ok l.
Proof. unfold count_ok. rewrite map_length. reflexivity. Qed.

Lemma count_ok_len {A} (l : list A) n : N.of_nat (length l) = n -> n < two32 -> count_ok l = true.
Proof. intros <- H. apply N.ltb_lt. exact H. Qed.


Lemma force_point_ok ct (p : pointT N) : point_ok is0 ct (force_point 0 ct p) = true.
Proof. exact (CType_proofs.force_point_ok N 0 _ eq_refl ct p). Qed.

Lemma force_line_ok ct (l : lineT N) : line_ok is0 ct (force_line 0 ct l) = true.
Proof. exact (CType_proofs.force_line_ok N 0 _ eq_refl ct l). Qed.

Lemma force_poly_ok ct (p : polyT N) : poly_ok is0 ct (force_poly 0 ct p) = true.
Proof. exact (CType_proofs.force_poly_ok N 0 _ eq_refl ct p). Qed.

Lemma force_vtx_bits old new (v : vtx N) : vtx_bits_ok v = true -> vtx_bits_ok (force_vtx 0 old new v) = true.
Proof.
  unfold vtx_bits_ok, force_vtx. cbn [vx vy vz vm]. intros H.
  apply andb_prop in H; destruct H as [H Hm]. apply andb_prop in H; destruct H as [H Hz].
  rewrite H. cbn [andb].
  destruct (has_z new), (has_z old), (has_m new), (has_m old); rewrite ?Hz, ?Hm; reflexivity.
Qed.

Lemma members_wf {A} (wf : A -> bool) (force : A -> A) l :
  (forall x, In x l -> wf x = true -> wf (force x) = true) ->
  count_ok l && forallb wf l = true -> count_ok (map force l) && forallb wf (map force l) = true.
Proof.
  intros Hf H. apply andb_prop in H; destruct H as [Hc Hv]. rewrite forallb_forall in Hv.
  rewrite count_ok_map, Hc. apply forallb_forall. intros y Hy.
  apply in_map_iff in Hy. destruct Hy as [x [<- Hx]]. auto.
Qed.

Lemma force_point_wf ct (p : pointT N) : point_wf p = true -> point_wf (force_point 0 ct p) = true.
Proof.
  destruct p as [c [v|]]; cbn [force_point]; unfold point_wf; cbn [point_c]; [|reflexivity].
  intros H. apply andb_prop in H; destruct H as [H Hy]. apply andb_prop in H; destruct H as [Hb Hx].
  rewrite (force_vtx_bits _ _ _ Hb). unfold force_vtx; cbn [vx vy]. rewrite Hx, Hy. reflexivity.
Qed.

Lemma force_line_wf ct (l : lineT N) : line_wf l = true -> line_wf (force_line 0 ct l) = true.
Proof. destruct l as [c vs]. apply members_wf. intros v _. apply force_vtx_bits. Qed.

Lemma force_poly_wf ct (p : polyT N) : poly_wf p = true -> poly_wf (force_poly 0 ct p) = true.
Proof. destruct p as [c rs]. apply members_wf. intros l _. apply force_line_wf. Qed.

Lemma force_geom_wf ct (g : geom) : geom_wf g = true -> geom_wf (force_geom 0 ct g) = true.
Proof.
  induction g as [p|l|p|c ps|c ls|c ps|c gs IH] using geomT_ind'; cbn [force_geom geom_wf].
  - apply force_point_wf.
  - apply force_line_wf.
  - apply force_poly_wf.
  - apply members_wf. intros x _. apply force_point_wf.
  - apply members_wf. intros x _. apply force_line_wf.
  - apply members_wf. intros x _. apply force_poly_wf.
  - apply members_wf. rewrite Forall_forall in IH. exact IH.
Qed.

Definition poly_good (p : polyT N) : Prop := poly_wf p = true /\ poly_ok is0 (poly_ct p) p = true.
Definition wfg (g : geom) : Prop := geom_wf g = true /\ consistent is0 g = true.

Lemma new_polygon_wf (rs : list (lineT N)) :
  count_ok rs = true -> Forall (fun l => line_wf l = true) rs -> poly_good (new_polygon 0 rs).
Proof.
  intros Hc Hv. apply forallb_Forall' in Hv. split; [|apply new_polygon_ok; reflexivity].
  apply members_wf; [intros; apply force_line_wf; assumption|cbn [poly_rings]; rewrite Hc, Hv; reflexivity].
Qed.

Lemma new_multipoint_wf ps :
  count_ok ps = true -> Forall (fun p => point_wf p = true) ps -> wfg (new_multipoint 0 ps).
Proof.
  intros Hc Hv. apply forallb_Forall' in Hv. split; [|apply new_multipoint_consistent; reflexivity].
  destruct ps as [|p r]; [reflexivity|].
  apply members_wf; [intros; apply force_point_wf; assumption|rewrite Hc, Hv; reflexivity].
Qed.

Lemma new_multiline_wf ls :
  count_ok ls = true -> Forall (fun l => line_wf l = true) ls -> wfg (new_multiline 0 ls).
Proof.
  intros Hc Hv. apply forallb_Forall' in Hv. split; [|apply new_multiline_consistent; reflexivity].
  destruct ls as [|p r]; [reflexivity|].
  apply members_wf; [intros; apply force_line_wf; assumption|rewrite Hc, Hv; reflexivity].
Qed.

Lemma new_multipoly_wf ps :
  count_ok ps = true -> Forall poly_good ps -> wfg (new_multipoly 0 ps).
Proof.
  intros Hc Hv. split; [|apply new_multipoly_consistent; reflexivity].
  assert (Hw : forallb poly_wf ps = true).
  { apply forallb_Forall'. eapply Forall_impl; [|exact Hv]. intros p [H _]. exact H. }
  destruct ps as [|p r]; [reflexivity|].
  apply members_wf; [intros; apply force_poly_wf; assumption|rewrite Hc, Hw; reflexivity].
Qed.

Lemma new_collection_wf gs :
  count_ok gs = true -> Forall wfg gs -> wfg (new_collection 0 gs).
Proof.
  intros Hc Hv. split; [|apply new_collection_consistent; reflexivity].
  assert (Hw : forallb geom_wf gs = true).
  { apply forallb_Forall'. eapply Forall_impl; [|exact Hv]. intros g [H _]. exact H. }
  destruct gs as [|p r]; [reflexivity|]. unfold new_collection. cbn [geom_wf].
  apply members_wf; [intros; apply force_geom_wf; assumption|rewrite Hc, Hw; reflexivity].
Qed.

(* ------------------------------------------------------------------ byte-order oracles *)
Definition oracle := list nat -> endian.
Definition odflt : oracle := fun _ => LE.
(* the oracle of a node from its own byte order and the oracles of its members *)
Definition join (e : endian) (bos : list oracle) : oracle :=
  fun p => match rev p with [] => e | i :: a => nth i bos odflt (rev a) end.

Lemma join_nil e bos : join e bos [] = e.
Proof. reflexivity. Qed.
Lemma join_member e bos i q : join e bos (q ++ [i]) = nth i bos odflt q.
Proof. unfold join. rewrite rev_app_distr. cbn [rev app]. rewrite rev_involutive. reflexivity. Qed.

Lemma enc_members_ext {A} (f : endian -> A -> list N) bo1 bo2 p1 p2 :
  (forall i, bo1 (i :: p1) = bo2 (i :: p2)) ->
  forall l i, enc_members bo1 f p1 i l = enc_members bo2 f p2 i l.
Proof.
  intros H. induction l as [|x r IH]; intros i; cbn [enc_members]; [reflexivity|].
  rewrite H, IH. reflexivity.
Qed.

(* enc_at looks at the oracle only at and below the current path *)
Lemma enc_at_ext : forall g bo1 bo2 p1 p2,
  (forall q, bo1 (q ++ p1) = bo2 (q ++ p2)) -> enc_at bo1 p1 g = enc_at bo2 p2 g.
Proof.
  induction g as [p|l|p|ct ps|ct ls|ct ps|ct gs IH] using geomT_ind'; intros bo1 bo2 p1 p2 H;
    cbn [enc_at]; pose proof (H []) as H0; cbn [app] in H0; rewrite H0; try reflexivity.
  1-3: f_equal; f_equal; apply enc_members_ext; intros i; apply (H [i]).
  f_equal. f_equal. generalize 0%nat.
  induction IH as [|x r Hx Hr IHr]; intros i; [reflexivity|].
  rewrite IHr. f_equal. apply Hx. intros q.
  replace (q ++ i :: p1) with ((q ++ [i]) ++ p1) by (rewrite <- app_assoc; reflexivity).
  replace (q ++ i :: p2) with ((q ++ [i]) ++ p2) by (rewrite <- app_assoc; reflexivity).
  apply H.
Qed.

(* members written under a joined oracle: member k uses the k-th oracle ([encs]: enc_members and the
   collection's loop) *)
Lemma members_join {A} (hm : oracle -> nat -> A -> list N) (h : oracle -> A -> list N)
      (encs : oracle -> nat -> list A -> list N) e :
  (forall bo i, encs bo i [] = []) ->
  (forall bo i x r, encs bo i (x :: r) = hm bo i x ++ encs bo (S i) r) ->
  (forall bos i x, hm (join e bos) i x = h (nth i bos odflt) x) ->
  forall (items : list (oracle * A)) pre,
  encs (join e (pre ++ map fst items)) (length pre) (map snd items) =
  concat (map (fun it => h (fst it) (snd it)) items).
Proof.
  intros Hnil Hcons Hjoin.
  induction items as [|[b x] r IH]; intros pre; cbn [map concat fst snd]; [apply Hnil|].
  rewrite Hcons, Hjoin. f_equal.
  - rewrite app_nth2 by lia. rewrite Nat.sub_diag. reflexivity.
  - specialize (IH (pre ++ [b])). rewrite <- app_assoc in IH. cbn [app] in IH.
    rewrite app_length in IH. cbn [length] in IH. rewrite Nat.add_1_r in IH. exact IH.
Qed.

(* ------------------------------------------------------------------ postconditions with bytes *)
Definition satU {A} (R : A -> list N -> Prop) (m : P A) : Prop := forall s,
  bytes_ok (fst s) ->
  match m s with
  | POk a s' => exists used, fst s = used ++ fst s' /\ R a used /\ bytes_ok (fst s')
  | _ => True
  end.

Lemma satU_ret {A} (R : A -> list N -> Prop) a : R a [] -> satU R (pret a).
Proof. intros H s Hs. unfold pret. exists []. auto. Qed.
Lemma satU_fail {A} (R : A -> list N -> Prop) e : satU R (pfail e).
Proof. intros s Hs. exact I. Qed.
Lemma satU_bind {A B} (R1 : A -> list N -> Prop) (R2 : B -> list N -> Prop) (m : P A) (f : A -> P B) :
  satU R1 m -> (forall a u1, R1 a u1 -> satU (fun b u2 => R2 b (u1 ++ u2)) (f a)) -> satU R2 (pbind m f).
Proof.
  intros H1 H2 s Hs. unfold pbind. specialize (H1 s Hs). destruct (m s) as [a s'|e al|p al]; auto.
  destruct H1 as [u1 (E1 & Ha & Hs')]. specialize (H2 a u1 Ha s' Hs').
  destruct (f a s') as [b s''|e al|p al]; auto.
  destruct H2 as [u2 (E2 & Hb & Hs'')]. exists (u1 ++ u2). rewrite E1, E2, app_assoc. auto.
Qed.
Lemma satU_weaken {A} (R1 R2 : A -> list N -> Prop) (m : P A) :
  (forall a u, R1 a u -> R2 a u) -> satU R1 m -> satU R2 m.
Proof.
  intros H H1 s Hs. specialize (H1 s Hs). destruct (m s); auto.
  destruct H1 as [u (E & Ha & Hs')]. exists u. auto.
Qed.
Lemma satU_remaining {A} (R : A -> list N -> Prop) (f : nat -> P A) :
  (forall len, satU R (f len)) -> satU R (pbind remaining f).
Proof. intros H s Hs. unfold pbind, remaining. apply (H _ s Hs). Qed.
Lemma satU_palloc k : satU (fun _ u => u = []) (palloc k).
Proof. intros s Hs. unfold palloc. exists []. cbn [fst]. auto. Qed.

Lemma get_bound e h : bytes_ok h -> get e h < 256 ^ N.of_nat (length h).
Proof.
  intros H. destruct e; unfold get, rd_be.
  - rewrite <- rev_length. apply rd_le_bound. apply Forall_rev. exact H.
  - apply rd_le_bound. exact H.
Qed.

Lemma satU_rd_u k e : satU (fun n u => u = put e k n /\ n < 256 ^ N.of_nat k) (rd_u k e).
Proof.
  intros s Hs. unfold rd_u. destruct (take k (fst s)) as [[h t]|] eqn:E; auto.
  apply take_spec in E. destruct E as [E L]. cbn [fst]. unfold bytes_ok in *.
  rewrite E in Hs. apply Forall_app in Hs. destruct Hs as [Hh Ht].
  exists h. split; [exact E|]. split; [|exact Ht]. rewrite <- L.
  split; [symmetry; apply put_get; exact Hh|apply get_bound; exact Hh].
Qed.
Lemma satU_u32 e : satU (fun n u => u = put e 4 n /\ n < two32) (rd_u 4 e).
Proof. exact (satU_rd_u 4 e). Qed.
Lemma satU_u64 e : satU (fun n u => u = put e 8 n /\ n < two64) (rd_u 8 e).
Proof. exact (satU_rd_u 8 e). Qed.

Lemma satU_rd_byte : satU (fun b u => u = [b]) rd_byte.
Proof.
  intros s Hs. unfold rd_byte. destruct (fst s) as [|b r] eqn:E; auto. cbn [fst].
  exists [b]. split; [reflexivity|]. split; [reflexivity|]. inversion Hs; assumption.
Qed.

Lemma satU_rd_header : satU (fun h u => let '(e, t, ct) := h in u = header e t ct) rd_header.
Proof.
  unfold rd_header.
  eapply satU_bind; [apply satU_rd_byte|intros b u0 ->].
  eapply satU_bind with (R1 := fun e u => u = [] /\ b = bo_byte e).
  { destruct (N.eqb_spec b 0) as [->|]; [apply satU_ret; split; reflexivity|].
    destruct (N.eqb_spec b 1) as [->|]; [apply satU_ret; split; reflexivity|apply satU_fail]. }
  intros e u1 [-> Hb].
  eapply satU_bind; [apply (satU_rd_u 4 e)|intros code u2 [-> _]].
  eapply satU_bind with (R1 := fun t u => u = [] /\ code mod 1000 = gcode t).
  { generalize (code mod 1000). intros c. destruct c as [|p]; [apply satU_fail|].
    do 3 (try (destruct p as [p|p|])); first [apply satU_fail | apply satU_ret; split; reflexivity]. }
  intros t u3 [-> Ht].
  eapply satU_bind with (R1 := fun ct u => u = [] /\ code / 1000 = ct_code ct).
  { generalize (code / 1000). intros c. destruct c as [|p]; [apply satU_ret; split; reflexivity|].
    do 2 (try (destruct p as [p|p|])); first [apply satU_fail | apply satU_ret; split; reflexivity]. }
  intros ct u4 [-> Hct]. apply satU_ret.
  rewrite !app_nil_r. unfold header. cbn [app]. rewrite Hb. f_equal. f_equal.
  rewrite <- Hct, <- Ht. lia.
Qed.

Definition vtx_good (ct : ctype) (v : vtx N) : Prop :=
  vtx_bits_ok v = true /\ vtx_ok is0 ct v = true.

Lemma satU_ordinate e (h : bool) :
  satU (fun z u => (u = if h then put e 8 z else []) /\ z < two64 /\ (h = false -> z = 0))
       (if h then rd_u 8 e else pret 0).
Proof.
  destruct h.
  - eapply satU_weaken; [|apply satU_u64]. intros z u [-> Hz].
    split; [reflexivity|]. split; [exact Hz|discriminate].
  - apply satU_ret. split; [reflexivity|]. split; reflexivity.
Qed.

Lemma satU_rd_vtx e ct :
  satU (fun v u => vtx_good ct v /\ u = enc_floats e (vtx_floats ct v)) (rd_vtx e ct).
Proof.
  unfold rd_vtx.
  eapply satU_bind; [apply satU_u64|intros x u1 [-> Hx]].
  eapply satU_bind; [apply satU_u64|intros y u2 [-> Hy]].
  eapply satU_bind; [apply satU_ordinate|intros z u3 (-> & Hz & Hz0)].
  eapply satU_bind; [apply satU_ordinate|intros m u4 (-> & Hm & Hm0)].
  apply satU_ret. split; [split|].
  - unfold vtx_bits_ok. cbn [vx vy vz vm].
    apply N.ltb_lt in Hx, Hy, Hz, Hm. rewrite Hx, Hy, Hz, Hm. reflexivity.
  - unfold vtx_ok. cbn [vz vm].
    destruct (has_z ct); [|rewrite (Hz0 eq_refl)]; (destruct (has_m ct); [|rewrite (Hm0 eq_refl)]); reflexivity.
  - unfold enc_floats, vtx_floats. cbn [vx vy vz vm].
    destruct ct; cbn [has_z has_m flat_map app]; rewrite ?app_nil_r; reflexivity.
Qed.

Lemma satU_rd_point e ct :
  satU (fun p u => (point_wf p = true /\ point_ok is0 ct p = true) /\
                   exists v, u = enc_floats e (vtx_floats ct v) /\ p = norm_point (MkPoint ct (Some v)))
       (rd_point e ct).
Proof.
  unfold rd_point. eapply satU_bind; [apply satU_rd_vtx|intros v u1 [[Hb Hok] ->]].
  destruct (is_nan (vx v)) eqn:Nx, (is_nan (vy v)) eqn:Ny; cbn [andb orb];
    try apply satU_fail; apply satU_ret; rewrite app_nil_r;
    (split; [|exists v; split; [reflexivity|]; cbn [norm_point]; rewrite Nx, Ny; reflexivity]).
  - split; [reflexivity|]. cbn [point_ok]. rewrite ct_eqb_refl. reflexivity.
  - split.
    + unfold point_wf; cbn [point_c]. rewrite Hb, Nx, Ny. reflexivity.
    + cbn [point_ok]. rewrite ct_eqb_refl, Hok. reflexivity.
Qed.

Lemma satU_rd_vtxs e ct : forall n,
  satU (fun vs u => length vs = n /\ forallb vtx_bits_ok vs = true /\ forallb (vtx_ok is0 ct) vs = true /\
                    u = enc_floats e (flat_map (vtx_floats ct) vs))
       (rd_vtxs n e ct).
Proof.
  induction n as [|n IH]; cbn [rd_vtxs].
  - apply satU_ret. auto.
  - eapply satU_bind; [apply satU_rd_vtx|intros v u1 [[Hb Hok] ->]].
    eapply satU_bind; [exact IH|intros vs u2 (L & Hbs & Hoks & ->)].
    apply satU_ret. cbn [length forallb flat_map].
    rewrite L, Hb, Hok, Hbs, Hoks, enc_floats_app, app_nil_r. auto.
Qed.

Definition line_good (ct : ctype) (l : lineT N) : Prop :=
  line_wf l = true /\ line_ok is0 ct l = true.

Lemma satU_rd_seq e ct : satU (fun l u => line_good ct l /\ u = enc_seq e l) (rd_seq e ct).
Proof.
  unfold rd_seq. eapply satU_bind; [apply satU_u32|intros n u1 [-> Hn]].
  apply satU_remaining. intros len. destruct (_ <? _); [apply satU_fail|].
  eapply satU_bind; [apply satU_palloc|intros _ u2 ->].
  eapply satU_bind; [apply satU_rd_vtxs|intros vs u3 (L & Hb & Hok & ->)].
  apply satU_ret. split; [split|].
  - unfold line_wf, count_ok; cbn [line_vs]. rewrite L, N2Nat.id.
    apply N.ltb_lt in Hn. rewrite Hn, Hb. reflexivity.
  - cbn [line_ok]. rewrite ct_eqb_refl, Hok. reflexivity.
  - cbn [enc_seq]. rewrite L, N2Nat.id, !app_nil_r. reflexivity.
Qed.

(* loops: the members in order, each with the bytes it consumed *)
Lemma satU_loopN {A} (Rm : A -> list N -> Prop) (step : P A) : satU Rm step ->
  forall fuel n acc,
  satU (fun l u => exists new us, l = rev acc ++ new /\ Forall2 Rm new us /\ u = concat us /\
                                  N.of_nat (length new) = n)
       (loopN fuel n step acc).
Proof.
  intros Hstep. induction fuel as [|f IH]; intros n acc; cbn [loopN].
  - destruct (N.eqb_spec n 0) as [->|Hn]; [|apply satU_fail].
    apply satU_ret. exists [], []. rewrite app_nil_r. repeat split; constructor.
  - destruct (N.eqb_spec n 0) as [->|Hn].
    + apply satU_ret. exists [], []. rewrite app_nil_r. repeat split; constructor.
    + eapply satU_bind; [exact Hstep|intros a u1 Ha].
      eapply satU_weaken; [|apply (IH (n - 1) (a :: acc))].
      intros l u (new & us & El & HF & Eu & Hlen). exists (a :: new), (u1 :: us).
      cbn [rev] in El. rewrite <- app_assoc in El. cbn [app] in El.
      split; [exact El|]. split; [constructor; assumption|].
      split; [cbn [concat]; rewrite Eu; reflexivity|]. cbn [length]. lia.
Qed.

Lemma satU_loop {A} (Rm : A -> list N -> Prop) (step : P A) n : satU Rm step ->
  satU (fun l u => exists us, Forall2 Rm l us /\ u = concat us /\ N.of_nat (length l) = n) (loop n step).
Proof.
  intros Hstep. unfold loop. apply satU_remaining. intros len.
  eapply satU_weaken; [|apply (satU_loopN Rm step Hstep (S len) n [])].
  intros l u (new & us & El & HF & Eu & Hlen). cbn [rev app] in El. subst l. exists us. auto.
Qed.

(* a list of members, each described by an oracle and a raw member *)
Lemma Forall2_items {A} (good : A -> Prop) (F : oracle -> A -> list N) (G : A -> A) l us :
  Forall2 (fun a u => good a /\ exists b x, u = F b x /\ a = G x) l us ->
  Forall good l /\
  exists items : list (oracle * A),
    l = map (fun it => G (snd it)) items /\ us = map (fun it => F (fst it) (snd it)) items.
Proof.
  induction 1 as [|a u l us (Hg & b & x & Eu & Ea) HF (Hgs & items & El & Eus)].
  - split; [constructor|]. exists []. split; reflexivity.
  - split; [constructor; assumption|]. exists ((b, x) :: items). cbn [map fst snd]. subst. split; reflexivity.
Qed.

Lemma concat_seq e ct (rs : list (lineT N)) us :
  Forall2 (fun l u => line_good ct l /\ u = enc_seq e l) rs us ->
  concat us = flat_map (enc_seq e) rs /\ Forall (fun l => line_wf l = true) rs.
Proof.
  induction 1 as [|l u rs us [[Hw _] Hu] HF [IH1 IH2]]; [split; [reflexivity|constructor]|].
  cbn [concat flat_map]. rewrite IH1, Hu. split; [reflexivity|constructor; assumption].
Qed.

Lemma satU_rd_poly e ct :
  satU (fun p u => poly_good p /\
                   exists rs, u = put e 4 (N.of_nat (length rs)) ++ flat_map (enc_seq e) rs /\
                              p = norm_poly (MkPoly ct rs))
       (rd_poly e ct).
Proof.
  unfold rd_poly. eapply satU_bind; [apply satU_u32|intros n u1 [-> Hn]].
  destruct (N.eqb_spec n 0) as [->|Hn0].
  { apply satU_ret. split.
    - split; [reflexivity|]. cbn [poly_ct poly_ok]. rewrite ct_eqb_refl. reflexivity.
    - exists []. split; reflexivity. }
  eapply satU_bind; [apply satU_loop, satU_rd_seq|].
  intros rs u2 (us & HF & -> & Hlen). apply satU_ret.
  destruct (concat_seq e ct rs us HF) as [Ec Hw]. split.
  - apply new_polygon_wf; [eapply count_ok_len; eassumption|exact Hw].
  - exists rs. rewrite app_nil_r, Hlen, Ec. split; [reflexivity|].
    destruct rs; [cbn [length] in Hlen; lia|reflexivity].
Qed.

(* ------------------------------------------------------------------ the recursion *)
Definition geom_rel (g : geom) (u : list N) : Prop :=
  wfg g /\ exists (bo : oracle) (g' : geom), u = enc_at bo [] g' /\ g = normalise g'.

(* a member of a Multi*: the recursive call, then the cast to the member type [wrap] builds *)
Lemma satU_member {A} (inner : P geom) (cast : geom -> outcome A) (wrap : A -> geom)
      (good : A -> Prop) (G : A -> A) (f : endian -> A -> list N) :
  (forall g a, cast g = Ok a -> g = wrap a) ->
  (forall a, wfg (wrap a) -> good a) ->
  (forall g' a, normalise g' = wrap a -> exists x, g' = wrap x /\ a = G x) ->
  (forall bo x, enc_at bo [] (wrap x) = f (bo []) x) ->
  satU geom_rel inner ->
  satU (fun a u => good a /\ exists (b : oracle) x, u = f (b []) x /\ a = G x) (member inner cast).
Proof.
  intros Hcast Hgood Hinv Henc Hi. unfold member.
  eapply satU_bind; [exact Hi|intros g u1 (Hw & bo & g' & -> & Eg)].
  intros s Hs. unfold plift. destruct (cast g) as [a|er|p] eqn:E; try exact I.
  apply Hcast in E. rewrite E in Eg, Hw. symmetry in Eg. destruct (Hinv g' a Eg) as (x & -> & ->).
  exists []. rewrite app_nil_r. split; [reflexivity|]. split; [|exact Hs].
  split; [apply Hgood, Hw|]. exists bo, x. split; [apply Henc|reflexivity].
Qed.

(* the count and the member loop of the three Multi* types and the collection: [rawc] builds the raw
   node, [mk] is the constructor the decoder applies, [G] normalises a member, [h b x] are the bytes
   of member x under its own oracle b *)
Lemma satU_counted {A} e t ct (step : P A) (good : A -> Prop) (G : A -> A)
      (h : oracle -> A -> list N) (hm : oracle -> nat -> A -> list N)
      (encs : oracle -> nat -> list A -> list N) (mk rawc : list A -> geom) :
  (forall bo i, encs bo i [] = []) ->
  (forall bo i x r, encs bo i (x :: r) = hm bo i x ++ encs bo (S i) r) ->
  (forall bos i x, hm (join e bos) i x = h (nth i bos odflt) x) ->
  (forall bo xs, enc_at bo [] (rawc xs) =
                 header (bo []) t ct ++ put (bo []) 4 (N.of_nat (length xs)) ++ encs bo 0%nat xs) ->
  (forall x xs, normalise (rawc (x :: xs)) = mk (map G (x :: xs))) ->
  normalise (rawc []) = rawc [] -> wfg (rawc []) ->
  (forall l, count_ok l = true -> Forall good l -> wfg (mk l)) ->
  satU (fun a u => good a /\ exists b x, u = h b x /\ a = G x) step ->
  satU (fun g u => geom_rel g (header e t ct ++ u))
       (doP n <- rd_u 4 e;
        if n =? 0 then pret (rawc []) else doP ps <- loop n step; pret (mk ps)).
Proof.
  intros Hnil Hcons Hjoin Henc Hnorm Hnorm0 Hwf0 Hwf Hstep.
  eapply satU_bind; [apply satU_u32|intros n u1 [-> Hn]].
  destruct (N.eqb_spec n 0) as [->|Hn0].
  { apply satU_ret. split; [exact Hwf0|]. exists (fun _ => e), (rawc []).
    rewrite Henc, Hnil, Hnorm0. split; reflexivity. }
  eapply satU_bind; [apply satU_loop, Hstep|].
  intros ps u2 (us & HF & -> & Hlen). apply satU_ret. rewrite app_nil_r.
  destruct (Forall2_items good h G ps us HF) as (Hg & items & -> & ->).
  split; [apply Hwf; [eapply count_ok_len; eassumption|exact Hg]|].
  rewrite map_length in Hlen.
  exists (join e (map fst items)), (rawc (map snd items)). split.
  - rewrite Henc, join_nil, map_length, Hlen. f_equal. f_equal.
    symmetry. apply (members_join hm h encs e Hnil Hcons Hjoin items []).
  - destruct items as [|it r]; [cbn [length] in Hlen; lia|].
    cbn [map]. rewrite Hnorm. cbn [map]. rewrite map_map. reflexivity.
Qed.

Lemma satU_rd_geom : forall fuel, satU geom_rel (rd_geom fuel).
Proof.
  induction fuel as [|f IH]; cbn [rd_geom]; [apply satU_fail|].
  eapply satU_bind; [apply satU_rd_header|intros [[e t] ct] u0 ->].
  destruct t.
  - (* collection *)
    apply (satU_counted e TColl ct _ wfg normalise (fun b => enc_at b []) (fun bo i => enc_at bo [i])
             (fun bo => fix go (i : nat) (l : list geom) {struct l} : list N :=
                          match l with [] => [] | x :: r => enc_at bo [i] x ++ go (S i) r end)
             (new_collection 0) (GColl ct)); try reflexivity.
    + intros bos i x. apply enc_at_ext. intros q. rewrite join_member, app_nil_r. reflexivity.
    + destruct ct; split; reflexivity.
    + exact new_collection_wf.
    + eapply satU_bind; [exact IH|intros g u2 Hg].
      destruct (ct_eqb (geom_ct g) ct); [|apply satU_fail].
      apply satU_ret. rewrite app_nil_r. destruct Hg as (Hw & b & x & -> & ->).
      split; [exact Hw|]. exists b, x. split; reflexivity.
  - (* point *)
    eapply satU_bind; [apply satU_rd_point|intros p u1 ([Hwf Hok] & v & -> & ->)]. apply satU_ret. split.
    + split; [exact Hwf|]. unfold consistent. cbn [geom_ct geom_ok].
      destruct (force_point_id ct _ Hok) as [_ ->]. exact Hok.
    + exists (fun _ => e), (GPoint (MkPoint ct (Some v))). rewrite app_nil_r. split; reflexivity.
  - (* line string *)
    eapply satU_bind; [apply satU_rd_seq|intros l u1 [[Hwf Hok] ->]]. apply satU_ret.
    destruct (force_line_id ct l Hok) as [_ Hc]. split.
    + split; [exact Hwf|]. unfold consistent. cbn [geom_ct geom_ok]. rewrite Hc. exact Hok.
    + exists (fun _ => e), (GLine l). rewrite app_nil_r. cbn [enc_at]. unfold enc_line. rewrite Hc.
      split; reflexivity.
  - (* polygon *)
    eapply satU_bind; [apply satU_rd_poly|intros p u1 (Hg & rs & -> & ->)]. apply satU_ret.
    split; [exact Hg|]. exists (fun _ => e), (GPoly (MkPoly ct rs)). rewrite app_nil_r. split; reflexivity.
  - (* multipoint *)
    apply (satU_counted e TMPoint ct _ (fun p => point_wf p = true) norm_point
             (fun b => enc_point (b [])) (fun bo i => enc_point (bo [i]))
             (fun bo => enc_members bo enc_point []) (new_multipoint 0) (GMPoint ct)); try reflexivity.
    + destruct ct; split; reflexivity.
    + exact new_multipoint_wf.
    + apply (satU_member _ as_point GPoint); try reflexivity.
      * intros [] a E; inversion E; reflexivity.
      * intros a [H _]. exact H.
      * intros g' a E. pose proof (normalise_atom_inv g') as H. rewrite E in H. exact H.
      * exact IH.
  - (* multilinestring *)
    apply (satU_counted e TMLine ct _ (fun l => line_wf l = true) (fun l => l)
             (fun b => enc_line (b [])) (fun bo i => enc_line (bo [i]))
             (fun bo => enc_members bo enc_line []) (new_multiline 0) (GMLine ct)); try reflexivity.
    + intros x xs. rewrite map_id. reflexivity.
    + destruct ct; split; reflexivity.
    + exact new_multiline_wf.
    + apply (satU_member _ as_line GLine); try reflexivity.
      * intros [] a E; inversion E; reflexivity.
      * intros a [H _]. exact H.
      * intros g' a E. pose proof (normalise_atom_inv g') as H. rewrite E in H. eauto.
      * exact IH.
  - (* multipolygon *)
    apply (satU_counted e TMPoly ct _ poly_good norm_poly
             (fun b => enc_poly (b [])) (fun bo i => enc_poly (bo [i]))
             (fun bo => enc_members bo enc_poly []) (new_multipoly 0) (GMPoly ct)); try reflexivity.
    + destruct ct; split; reflexivity.
    + exact new_multipoly_wf.
    + apply (satU_member _ as_poly GPoly); try reflexivity.
      * intros [] a E; inversion E; reflexivity.
      * intros a H. exact H.
      * intros g' a E. pose proof (normalise_atom_inv g') as H. rewrite E in H. exact H.
      * exact IH.
Qed.

(* ------------------------------------------------------------------ the statements *)
Lemma dec_rel : forall bs g r,
  bytes_ok bs -> dec bs = Ok (g, r) -> exists u, bs = u ++ r /\ geom_rel g u /\ bytes_ok r.
Proof.
  intros bs g r Hbs E. unfold dec, dec_full in E.
  pose proof (satU_rd_geom (S (length bs)) (bs, 0) Hbs) as H.
  destruct (rd_geom (S (length bs)) (bs, 0)) as [g0 s'|e a|p a]; try discriminate.
  inversion E; subst. exact H.
Qed.

Lemma wkb_dec_is_some_encoding_lemma : forall bs g r,
  bytes_ok bs -> dec bs = Ok (g, r) ->
  exists (bo : list nat -> endian) (g' : geom), bs = enc_bo bo g' ++ r /\ g = normalise g'.
Proof.
  intros bs g r Hbs E. destruct (dec_rel bs g r Hbs E) as (u & -> & (_ & bo & g' & -> & ->) & _).
  exists bo, g'. split; reflexivity.
Qed.
