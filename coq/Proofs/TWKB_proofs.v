(* Proofs about the TWKB model.
   Part A: the parser is total: it never panics, never runs out of fuel, and the bytes it
           requests through count-sized make() calls are bounded by 8 * input length
           (for every ordinate carrier, so also for the float instance = UnmarshalTWKB).
   Part B: round trip of the integer layer and truth of the headers. *)
From Coq Require Import NArith ZArith List Bool Lia.
From Coq Require Import ZifyN ZifyNat ZifyBool.
From SF Require Import Base.Outcome Base.Bytes Base.GeomAST Base.Varint Model.TWKB Proofs.CType_proofs.
From SF Require Proofs.Empty_proofs.
Import ListNotations.

Ltac Zify.zify_post_hook ::= Z.div_mod_to_equations.

(* ================================================================== Part A *)
Definition len (s : pst) : N := N.of_nat (length (s_in s)).

(* [safe_at k Q p s]: run on s, p does not panic, does not fail for lack of fuel, on success
   returns a value satisfying Q and has consumed at least k bytes, and the allocation counter
   plus 8 * (unread bytes) never grows *)
Definition safe_at {A} (k : nat) (Q : A -> Prop) (p : TP A) (s : pst) : Prop :=
  match p s with
  | TOk a s' => Q a /\ (length (s_in s') + k <= length (s_in s))%nat /\
                (s_alloc s' + 8 * len s' <= s_alloc s + 8 * len s)%N
  | TErr e a => e <> EFuel /\ (a <= s_alloc s + 8 * len s)%N
  | TPanic _ _ => False
  end.

(* c bytes of allocation allowed per byte of input: c = 8 is [safe_at], c = 0 holds of the readers that never allocate *)
Definition costs {A} (c : N) (k : nat) (Q : A -> Prop) (p : TP A) (s : pst) : Prop :=
  match p s with
  | TOk a s' => Q a /\ (length (s_in s') + k <= length (s_in s))%nat /\
                (s_alloc s' + c * len s' <= s_alloc s + c * len s)%N
  | TErr e a => e <> EFuel /\ (a <= s_alloc s + c * len s)%N
  | TPanic _ _ => False
  end.

Lemma costs_weaken {A} c c' k k' (Q Q' : A -> Prop) p s :
  (c <= c')%N -> (k' <= k)%nat -> (forall a, Q a -> Q' a) -> costs c k Q p s -> costs c' k' Q' p s.
Proof.
  unfold costs, len. intros Hc Hk HQ. destruct (p s) as [a s'|e a|pc a]; [|intros [H1 H2]; split; [exact H1|nia]|auto].
  intros [H1 [H2 H3]]. split; [auto|]. split; [lia|nia].
Qed.

Lemma pure_safe {A} k (Q : A -> Prop) p s : costs 0 k Q p s -> safe_at k Q p s.
Proof. apply costs_weaken; [lia|apply le_n|auto]. Qed.

Lemma costs_ret {A} c (Q : A -> Prop) (a : A) s : Q a -> costs c 0 Q (tret a) s.
Proof. unfold costs, tret. intros H. split; [exact H|]. split; lia. Qed.

Lemma costs_fail {A} c (Q : A -> Prop) e s k : e <> EFuel -> costs c k Q (@tfail A e) s.
Proof. unfold costs, tfail. intros H. split; [exact H|lia]. Qed.

Lemma costs_bind {A B} c k k1 k2 (Q1 : A -> Prop) (Q2 : B -> Prop) (m : TP A) (f : A -> TP B) s :
  costs c k1 Q1 m s ->
  (forall a s', Q1 a -> (length (s_in s') + k1 <= length (s_in s))%nat -> costs c k2 Q2 (f a) s') ->
  (k <= k1 + k2)%nat ->
  costs c k Q2 (tbind m f) s.
Proof.
  unfold costs, tbind. intros Hm Hf Hk.
  destruct (m s) as [a s1|e a|pc a]; auto.
  destruct Hm as [Hq [Hl Ha]]. specialize (Hf a s1 Hq ltac:(lia)).
  destruct (f a s1) as [b s2|e a2|pc a2]; auto.
  - destruct Hf as [Hq2 [Hl2 Ha2]]. split; [exact Hq2|]. split; lia.
  - destruct Hf as [He Ha2]. split; [exact He|lia].
Qed.

Lemma advance_in s rest : s_in (advance s rest) = rest.
Proof. reflexivity. Qed.
Lemma advance_alloc s rest : s_alloc (advance s rest) = s_alloc s.
Proof. reflexivity. Qed.

Lemma safe_rd_byte s : safe_at 1 (fun _ => True) rd_byte s.
Proof.
  unfold safe_at, rd_byte, len. destruct (s_in s) as [|b r] eqn:E.
  - split; [discriminate|lia].
  - cbn [s_in s_alloc advance length]. split; [exact I|]. split; lia.
Qed.

Lemma safe_rd_uv s : safe_at 1 (fun _ => True) rd_uv s.
Proof.
  unfold safe_at, rd_uv, len. destruct (uv_dec (s_in s)) as [v rest| |] eqn:E.
  - apply uv_dec_length in E. cbn [s_in s_alloc advance]. split; [exact I|]. split; lia.
  - split; [discriminate|lia].
  - split; [discriminate|lia].
Qed.

Lemma pure_rd_sv s : costs 0 1 (fun _ => True) rd_sv s.
Proof.
  unfold costs, rd_sv, len. destruct (sv_dec (s_in s)) as [v rest| |] eqn:E.
  - apply sv_dec_length in E. cbn [s_in s_alloc advance]. split; [exact I|]. split; lia.
  - split; [discriminate|lia].
  - split; [discriminate|lia].
Qed.

Lemma safe_rd_sv s : safe_at 1 (fun _ => True) rd_sv s.
Proof. apply pure_safe, pure_rd_sv. Qed.

Lemma pure_rd_svs n s : costs 0 n (fun l => length l = n) (rd_svs n) s.
Proof.
  revert s. induction n as [|n IH]; intros s; cbn [rd_svs].
  - apply costs_ret. reflexivity.
  - eapply (costs_bind _ _ 1%nat n); [apply pure_rd_sv| |lia].
    intros v s1 _ _. eapply (costs_bind _ _ n 0%nat); [apply IH| |lia].
    intros l s2 Hl _. apply costs_ret. cbn [length]. congruence.
Qed.

Lemma pure_rd_pt ref s : costs 0 (length ref) (fun p => length p = length ref) (rd_pt ref) s.
Proof.
  revert s. induction ref as [|r ref IH]; intros s; cbn [rd_pt length].
  - apply costs_ret. reflexivity.
  - eapply (costs_bind _ _ 1%nat (length ref)); [apply pure_rd_sv| |lia].
    intros v s1 _ _. eapply (costs_bind _ _ (length ref) 0%nat); [apply IH| |lia].
    intros l s2 Hl _. apply costs_ret. cbn [length]. congruence.
Qed.

Definition pts_ok (d : nat) (n : nat) (r : list (list Z) * list Z) : Prop :=
  Forall (fun p => length p = d) (fst r) /\ length (snd r) = d /\ length (fst r) = n.

Lemma pure_rd_pts n : forall ref s,
  costs 0 (n * length ref) (pts_ok (length ref) n) (rd_pts n ref) s.
Proof.
  induction n as [|n IH]; intros ref s; cbn [rd_pts].
  - apply costs_ret. repeat split; constructor.
  - eapply (costs_bind _ _ (length ref) (n * length ref)%nat); [apply pure_rd_pt| |lia].
    intros p s1 Hp _. eapply (costs_bind _ _ (n * length p)%nat 0%nat); [apply IH| |rewrite Hp; lia].
    intros r s2 [H1 [H2 H3]] _. apply costs_ret. rewrite Hp in *.
    repeat split; cbn [fst snd length]; auto.
Qed.

(* checkCount (fix F7) *)
Lemma check_count_spec cnt minb s :
  match check_count cnt minb s with
  | TOk _ s' => s' = s /\ (N.to_nat cnt * minb <= length (s_in s))%nat
  | TErr e a => e <> EFuel /\ a = s_alloc s
  | TPanic _ _ => False
  end.
Proof.
  unfold check_count. destruct (N.ltb_spec (N.of_nat (length (s_in s) / minb)) cnt).
  - split; [discriminate|reflexivity].
  - split; [reflexivity|]. destruct minb as [|m]; [lia|].
    pose proof (Nat.div_mod_eq (length (s_in s)) (S m)).
    assert (N.to_nat cnt <= length (s_in s) / S m)%nat by lia. nia.
Qed.

Lemma safe_check_count cnt minb s : safe_at 0 (fun _ => True) (check_count cnt minb) s.
Proof.
  pose proof (check_count_spec cnt minb s) as H. unfold safe_at.
  destruct (check_count cnt minb s) as [u s'|e a|pc a]; [|destruct H as [H1 H2]; split; [exact H1|unfold len; lia]|exact H].
  destruct H as [-> _]. split; [exact I|]. split; lia.
Qed.

(* parsePointCountAndArray: the count-sized make() is covered by the bytes the points need *)
Lemma safe_parse_count_array ref s :
  safe_at 1 (fun r => exists n, pts_ok (length ref) n (fst r)) (parse_count_array ref) s.
Proof.
  unfold parse_count_array.
  eapply (costs_bind 8 _ 1%nat 0%nat); [apply safe_rd_uv| |lia].
  intros cnt s1 _ _. unfold costs, tbind at 1.
  pose proof (check_count_spec cnt (length ref) s1) as Hc.
  destruct (check_count cnt (length ref) s1) as [u s2|e a|pc a];
    [|destruct Hc as [H1 H2]; split; [exact H1|unfold len; lia]|destruct Hc].
  destruct Hc as [-> Hb].
  pose proof (pure_rd_pts (N.to_nat cnt) ref
                {| s_in := s_in s1; s_pos := s_pos s1;
                   s_alloc := (s_alloc s1 + 8 * cnt * N.of_nat (length ref))%N |}) as Hp.
  unfold tbind, talloc. unfold costs, len in *. cbn [s_in s_alloc] in Hp.
  destruct (rd_pts (N.to_nat cnt) ref _) as [r s'|e a|pc a]; auto.
  - destruct Hp as [H1 [H2 H3]]. unfold tret. split; [exists (N.to_nat cnt); exact H1|]. split; [lia|nia].
  - destruct Hp as [H1 H2]. split; [exact H1|nia].
Qed.

Lemma safe_parse_ids cnt s : safe_at 0 (fun _ => True) (parse_ids cnt) s.
Proof.
  unfold parse_ids. unfold safe_at, tbind at 1.
  pose proof (check_count_spec cnt 1 s) as Hc.
  destruct (check_count cnt 1 s) as [u s2|e a|pc a];
    [|destruct Hc as [H1 H2]; split; [exact H1|unfold len; lia]|destruct Hc].
  destruct Hc as [-> Hb].
  pose proof (pure_rd_svs (N.to_nat cnt)
                {| s_in := s_in s; s_pos := s_pos s; s_alloc := (s_alloc s + 8 * cnt)%N |}) as Hp.
  unfold tbind, talloc. unfold costs, len in *. cbn [s_in s_alloc] in Hp.
  destruct (rd_svs (N.to_nat cnt) _) as [r s'|e a|pc a]; auto.
  - destruct Hp as [H1 [H2 H3]]. split; [exact I|]. split; lia.
  - destruct Hp as [H1 H2]. split; [exact H1|lia].
Qed.

Lemma safe_count_and_ids b minb s : safe_at 1 (fun _ => True) (count_and_ids b minb) s.
Proof.
  unfold count_and_ids.
  eapply (costs_bind 8 _ 1%nat 0%nat); [apply safe_rd_uv| |lia].
  intros cnt s1 _ _. eapply (costs_bind 8 _ 0%nat 0%nat) with (Q1 := fun _ => True); [| |lia].
  - destruct b; [apply safe_parse_ids|apply costs_ret; exact I].
  - intros ids s2 _ _. eapply (costs_bind 8 _ 0%nat 0%nat); [apply safe_check_count| |lia].
    intros u s3 _ _. apply costs_ret. exact I.
Qed.

Lemma safe_parse_size s : safe_at 1 (fun _ => True) parse_size s.
Proof.
  unfold parse_size.
  eapply (costs_bind 8 _ 1%nat 0%nat) with (Q1 := fun _ => True); [apply safe_rd_uv| |lia].
  intros rem s1 _ _. unfold costs. destruct (_ <? _)%N.
  - split; [discriminate|lia].
  - split; [exact I|]. split; lia.
Qed.

Lemma safe_parse_headers s : safe_at 2 (fun _ => True) parse_headers s.
Proof.
  unfold parse_headers.
  eapply (costs_bind 8 _ 1%nat 1%nat); [apply safe_rd_byte| |lia].
  intros tp s1 _ _. eapply (costs_bind 8 _ 1%nat 0%nat); [apply safe_rd_byte| |lia].
  intros mh s2 _ _.
  destruct (bit mh 4 && _); [apply costs_fail; discriminate|].
  eapply (costs_bind 8 _ 0%nat 0%nat) with (Q1 := fun _ => True); [| |lia].
  - destruct (bit mh 8).
    + eapply (costs_bind 8 _ 1%nat 0%nat); [apply safe_rd_byte| |lia].
      intros e s3 _ _. apply costs_ret. exact I.
    + apply costs_ret. exact I.
  - intros [[[hz hm] pz] pm] s3 _ _.
    eapply (costs_bind 8 _ 0%nat 0%nat) with (Q1 := fun _ => True); [| |lia].
    + destruct (bit mh 2).
      * eapply (costs_weaken 8); [lia|lia|auto|apply safe_parse_size].
      * apply costs_ret. exact I.
    + intros size s4 _ _. eapply (costs_bind 8 _ 0%nat 0%nat) with (Q1 := fun _ => True); [| |lia].
      * destruct (bit mh 1).
        -- eapply (costs_weaken 0); [lia|lia|auto|apply pure_rd_svs].
        -- apply costs_ret. exact I.
      * intros bbox s5 _ _. apply costs_ret. exact I.
Qed.

(* ---- the geometry-building part, for every ordinate carrier ---- *)
Section ParserSafe.
  Variable F : Type.
  Variable fzero : F.
  Variable feqb : F -> F -> bool.
  Variable deq : Z -> Z -> F.

  Lemma precs_length h : length (precs h) = dim (h_ct h).
  Proof. unfold precs, h_ct. destruct (h_hasz h), (h_hasm h); reflexivity. Qed.

  Lemma deq_pt_length ps pt : length (deq_pt F deq ps pt) = Nat.min (length ps) (length pt).
  Proof.
    revert pt. induction ps as [|p ps IH]; intros [|k pt]; cbn [deq_pt length Nat.min]; auto.
  Qed.

  Lemma ovtx_ok ct (l : list F) : length l = dim ct -> exists v, ovtx fzero ct l = Ok v.
  Proof.
    destruct ct; cbn [dim]; intros H;
      repeat (destruct l as [|? l]; cbn [length] in H; try discriminate);
      eexists; reflexivity.
  Qed.

  Lemma vtxs_of_ok ct (pts : list (list F)) :
    Forall (fun p => length p = dim ct) pts -> exists vs, vtxs_of F fzero ct pts = Ok vs.
  Proof.
    induction 1 as [|p pts Hp HF [vs IH]]; cbn [vtxs_of].
    - eexists; reflexivity.
    - destruct (ovtx_ok ct p Hp) as [v ->]. cbn [bind]. rewrite IH. cbn [bind]. eexists; reflexivity.
  Qed.

  Lemma deq_pts_ok h (pts : list (list Z)) :
    Forall (fun p => length p = dim (h_ct h)) pts ->
    Forall (fun p => length p = dim (h_ct h)) (map (deq_pt F deq (precs h)) pts).
  Proof.
    intros H. apply Forall_map. eapply Forall_impl; [|exact H].
    intros p Hp. cbv beta. rewrite deq_pt_length, precs_length, Hp. apply Nat.min_id.
  Qed.

  Lemma reclose_ok d n (pts : list (list F)) :
    Forall (fun p => length p = d) pts -> Forall (fun p => length p = d) (reclose F feqb n pts).
  Proof.
    intros H. unfold reclose. destruct (2 <=? n)%Z; [|exact H].
    destruct pts as [|p0 [|p1 tl]]; try exact H.
    destruct (pt_eqb F feqb p0 _); [exact H|].
    apply Forall_app. split; [exact H|]. constructor; [|constructor]. inversion H; assumption.
  Qed.

  Definition ref_ok (d : nat) {A} (r : A * list Z) : Prop := length (snd r) = d.

  Lemma safe_next_point h ref s :
    length ref = dim (h_ct h) ->
    safe_at 1 (ref_ok (dim (h_ct h))) (next_point F fzero deq h ref) s.
  Proof.
    intros Hr. unfold next_point.
    eapply (costs_bind 8 _ (1 * length ref)%nat 0%nat); [apply pure_safe, pure_rd_pts| |].
    - intros [pts ref'] s1 [H1 [H2 H3]] _. cbn [fst snd] in *.
      destruct pts as [|p [|q pts]]; cbn [length] in H3; try discriminate.
      inversion H1 as [|? ? Hp _]; subst.
      destruct (ovtx_ok (h_ct h) (deq_pt F deq (precs h) p)) as [v Hv].
      { rewrite deq_pt_length, precs_length, Hp, Hr. apply Nat.min_id. }
      rewrite Hv. apply (costs_ret 8 (ref_ok _) (MkPoint (h_ct h) (Some v), ref') s1).
      unfold ref_ok. cbn [snd]. congruence.
    - rewrite Hr. destruct (h_ct h); cbn [dim]; lia.
  Qed.

  Lemma safe_next_line h ref s :
    length ref = dim (h_ct h) ->
    safe_at 1 (ref_ok (dim (h_ct h))) (next_line F fzero deq h ref) s.
  Proof.
    intros Hr. unfold next_line.
    eapply (costs_bind 8 _ 1%nat 0%nat); [apply safe_parse_count_array| |lia].
    intros [[pts ref'] n] s1 [m [H1 [H2 H3]]] _. cbn [fst snd] in *.
    rewrite Hr in *.
    destruct (vtxs_of_ok (h_ct h) _ (deq_pts_ok h pts H1)) as [vs Hvs]. rewrite Hvs.
    exact (costs_ret 8 (ref_ok _) (MkLine (h_ct h) vs, ref') s1 H2).
  Qed.

  Lemma safe_next_ring h ref s :
    length ref = dim (h_ct h) ->
    safe_at 1 (ref_ok (dim (h_ct h))) (next_ring F fzero feqb deq h ref) s.
  Proof.
    intros Hr. unfold next_ring.
    eapply (costs_bind 8 _ 1%nat 0%nat); [apply safe_parse_count_array| |lia].
    intros [[pts ref'] n] s1 [m [H1 [H2 H3]]] _. cbn [fst snd] in *.
    rewrite Hr in *.
    destruct (vtxs_of_ok (h_ct h) _ (reclose_ok _ n _ (deq_pts_ok h pts H1))) as [vs Hvs].
    rewrite Hvs. exact (costs_ret 8 (ref_ok _) (MkLine (h_ct h) vs, ref') s1 H2).
  Qed.

  (* loops: every iteration consumes at least one byte, so fuel > unread bytes suffices *)
  Lemma safe_tloop {A} d (step : list Z -> TP (A * list Z)) :
    forall fuel n ref s, length ref = d -> (length (s_in s) < fuel)%nat ->
    (forall ref s', (length (s_in s') <= length (s_in s))%nat -> length ref = d ->
                    safe_at 1 (ref_ok d) (step ref) s') ->
    safe_at 0 (ref_ok d) (tloop fuel n step ref) s.
  Proof.
    induction fuel as [|f IH]; intros n ref s Hr Hf Hstep; [lia|].
    cbn [tloop]. destruct (n <=? 0)%Z.
    - apply costs_ret. exact Hr.
    - eapply (costs_bind 8 _ 1%nat 0%nat); [apply Hstep; [lia|exact Hr]| |lia].
      intros a s1 Ha Hl1. unfold ref_ok in Ha.
      eapply (costs_bind 8 _ 0%nat 0%nat); [| |lia].
      + apply IH; [exact Ha|lia|]. intros ref' s' Hl' Hr'. apply Hstep; [lia|exact Hr'].
      + intros r s2 Hr2 _. apply costs_ret. exact Hr2.
  Qed.

  Lemma safe_tloop_in {A} d (step : list Z -> TP (A * list Z)) n ref s :
    length ref = d ->
    (forall ref s', (length (s_in s') <= length (s_in s))%nat -> length ref = d ->
                    safe_at 1 (ref_ok d) (step ref) s') ->
    safe_at 0 (ref_ok d) (tloop_in n step ref) s.
  Proof. intros Hr Hstep. unfold tloop_in. apply safe_tloop; [exact Hr|lia|exact Hstep]. Qed.

  Lemma safe_next_poly h ref s :
    length ref = dim (h_ct h) ->
    safe_at 1 (ref_ok (dim (h_ct h))) (next_poly F fzero feqb deq h ref) s.
  Proof.
    intros Hr. unfold next_poly.
    eapply (costs_bind 8 _ 1%nat 0%nat); [apply safe_rd_uv| |lia].
    intros cnt s1 _ _.
    eapply (costs_bind 8 _ 0%nat 0%nat); [apply (safe_tloop_in (dim (h_ct h))); [exact Hr|]| |lia].
    - intros ref' s' _ Hr'. apply safe_next_ring. exact Hr'.
    - intros [rings ref'] s2 Hr2 _. cbn [fst snd]. unfold ref_ok in Hr2. cbn [snd] in Hr2.
      destruct rings; apply costs_ret; exact Hr2.
  Qed.

  (* nextGeometry: enough fuel is more fuel than unread bytes (every nesting level consumes
     its two header bytes) *)
  Lemma safe_rd_geom : forall fuel s, (length (s_in s) < fuel)%nat ->
    safe_at 2 (fun _ => True) (rd_geom F fzero feqb deq fuel) s.
  Proof.
    induction fuel as [|f IH]; intros s Hf; [lia|].
    cbn [rd_geom].
    eapply (costs_bind 8 _ 2%nat 0%nat); [apply safe_parse_headers| |lia].
    intros h s1 _ Hl1.
    assert (Hr0 : length (repeat 0%Z (dim (h_ct h))) = dim (h_ct h)) by apply repeat_length.
    set (ct := h_ct h) in *. set (ref0 := repeat 0%Z (dim ct)) in *.
    destruct (h_kind h) as [|[[[|[]|]|[|[]|]|]|[[|[]|]|[|[]|]|]|]];
      try (apply costs_fail; discriminate);
      destruct (h_empty h); try (apply costs_ret; exact I);
      try (eapply (costs_bind 8 _ 1%nat 0%nat);
           [ first [apply safe_next_point|apply safe_next_line|apply safe_next_poly]; exact Hr0
           | intros; apply costs_ret; exact I | lia ]);
      try (eapply (costs_bind 8 _ 1%nat 0%nat); [apply safe_count_and_ids| |lia];
           intros ci s2 _ _;
           eapply (costs_bind 8 _ 0%nat 0%nat);
           [ apply (safe_tloop_in (dim ct)); [exact Hr0|];
             intros ref s'' _ Hr;
             first [apply safe_next_point|apply safe_next_line|apply safe_next_poly]; exact Hr
           | intros; apply costs_ret; exact I | lia ]).
    (* 7: collection *)
    eapply (costs_bind 8 _ 1%nat 0%nat); [apply safe_count_and_ids| |lia].
    intros ci s2 _ Hl2.
    eapply (costs_bind 8 _ 0%nat 0%nat); [apply (safe_tloop_in 0%nat); [reflexivity|]| |lia].
    - intros ref s' Hl' _. unfold safe_at.
      assert (Hf' : (length (s_in s') < f)%nat) by lia.
      pose proof (IH {| s_in := s_in s'; s_pos := 0; s_alloc := s_alloc s' |} Hf') as Hc.
      unfold safe_at in Hc. cbn [s_in s_alloc] in Hc. unfold len in *. cbn [s_in] in Hc.
      destruct (rd_geom F fzero feqb deq f _) as [[[g hs] ids] s3|e a|pc a]; auto.
      destruct Hc as [_ [Hc1 Hc2]]. cbn [s_in s_alloc]. split; [reflexivity|]. split; lia.
    - intros r s3 _ _. apply costs_ret. exact I.
  Qed.

  Definition res_alloc {A} (r : tres A) : N :=
    match r with TOk _ s => s_alloc s | TErr _ a => a | TPanic _ a => a end.

  (* the three facts C08 cites, for any carrier *)
  Theorem dec_full_total bs :
    match dec_full F fzero feqb deq bs with
    | TOk _ s => (s_alloc s <= 8 * N.of_nat (length bs))%N
    | TErr e a => e <> EFuel /\ (a <= 8 * N.of_nat (length bs))%N
    | TPanic _ _ => False
    end.
  Proof.
    unfold dec_full.
    pose proof (safe_rd_geom (S (length bs)) {| s_in := bs; s_pos := 0; s_alloc := 0 |}) as H.
    cbn [s_in] in H. specialize (H ltac:(lia)). unfold safe_at, len in H. cbn [s_in s_alloc] in H.
    destruct (rd_geom F fzero feqb deq (S (length bs)) _) as [a s|e a|pc a].
    - destruct H as [_ [_ H]]. lia.
    - destruct H as [H1 H2]. split; [exact H1|lia].
    - exact H.
  Qed.
End ParserSafe.

(* integer layer *)
Lemma tdec_no_panic_lemma bs : forall p, tdec bs <> Panic p.
Proof.
  intros p. unfold tdec, tdec_full. pose proof (dec_full_total Z 0%Z Z.eqb (fun _ k => k) bs) as H.
  destruct (dec_full Z 0%Z Z.eqb (fun _ k => k) bs) as [[[g h] ids] s|e a|pc a];
    try discriminate. destruct H.
Qed.

Lemma tdec_fuel_enough_lemma bs : tdec bs <> Err EFuel.
Proof.
  unfold tdec, tdec_full. pose proof (dec_full_total Z 0%Z Z.eqb (fun _ k => k) bs) as H.
  destruct (dec_full Z 0%Z Z.eqb (fun _ k => k) bs) as [[[g h] ids] s|e a|pc a];
    try discriminate. destruct H as [H _]. congruence.
Qed.

Lemma tdec_alloc_linear_lemma bs : (tdec_alloc bs <= 8 * N.of_nat (length bs))%N.
Proof.
  unfold tdec_alloc, tdec_full. pose proof (dec_full_total Z 0%Z Z.eqb (fun _ k => k) bs) as H.
  destruct (dec_full Z 0%Z Z.eqb (fun _ k => k) bs) as [[[g h] ids] s|e a|pc a];
    [exact H|destruct H as [_ H]; exact H|destruct H].
Qed.

(* ================================================================== Part B *)
(* [parses p bs x]: on any input that starts with bs, from any position and allocation count,
   p returns x, consumes exactly bs and advances the position by its length *)
Definition parses {A} (p : TP A) (bs : list N) (x : A) : Prop :=
  forall rest pos a, exists a',
    p {| s_in := bs ++ rest; s_pos := pos; s_alloc := a |} =
    TOk x {| s_in := rest; s_pos := (pos + N.of_nat (length bs))%N; s_alloc := a' |}.

(* [reads k pos p bs x]: only for inputs on which at least k bytes follow bs: the size header records a position and,
   like the count checks of fix F7, compares a number with the bytes that are left *)
Definition reads {A} (k : nat) (pos : N) (p : TP A) (bs : list N) (x : A) : Prop :=
  forall rest a, (k <= length rest)%nat -> exists a',
    p {| s_in := bs ++ rest; s_pos := pos; s_alloc := a |} =
    TOk x {| s_in := rest; s_pos := (pos + N.of_nat (length bs))%N; s_alloc := a' |}.

Lemma parses_reads {A} (p : TP A) bs x : parses p bs x <-> forall k pos, reads k pos p bs x.
Proof.
  split.
  - intros H k pos rest a _. apply H.
  - intros H rest pos a. apply (H 0%nat pos rest a). lia.
Qed.

Lemma reads_ret {A} k pos (x y : A) : x = y -> reads k pos (tret x) [] y.
Proof. intros -> rest a _. exists a. unfold tret. cbn [app length]. rewrite N.add_0_r. reflexivity. Qed.

Lemma reads_bind {A B} k1 k2 pos (p : TP A) (f : A -> TP B) b1 b2 x y :
  reads k1 pos p b1 x -> reads k2 (pos + N.of_nat (length b1)) (f x) b2 y ->
  (k1 <= length b2 + k2)%nat -> reads k2 pos (tbind p f) (b1 ++ b2) y.
Proof.
  intros H1 H2 Hk rest a Hr. unfold tbind. rewrite <- app_assoc.
  destruct (H1 (b2 ++ rest) a) as [a1 E1]; [rewrite app_length; lia|]. rewrite E1.
  destruct (H2 rest a1 Hr) as [a2 E2]. rewrite E2.
  exists a2. rewrite app_length, Nat2N.inj_add, N.add_assoc. reflexivity.
Qed.

Lemma reads_map {A B} k pos (p : TP A) (g : A -> B) bs x y :
  reads k pos p bs x -> g x = y -> reads k pos (doT v <- p; tret (g v)) bs y.
Proof.
  intros H E. rewrite <- (app_nil_r bs). eapply reads_bind; [exact H|apply reads_ret; exact E|lia].
Qed.

Lemma parses_ret {A} (x : A) : parses (tret x) [] x.
Proof. apply parses_reads. intros k pos. apply reads_ret. reflexivity. Qed.

Lemma parses_bind {A B} (p : TP A) (f : A -> TP B) b1 b2 x y :
  parses p b1 x -> parses (f x) b2 y -> parses (tbind p f) (b1 ++ b2) y.
Proof.
  rewrite !parses_reads. intros H1 H2 k pos.
  apply (reads_bind k k pos p f b1 b2 x y); [apply H1|apply H2|lia].
Qed.

Lemma parses_bind_nil {A B} (p : TP A) (f : A -> TP B) b x y :
  parses p [] x -> parses (f x) b y -> parses (tbind p f) b y.
Proof. apply (parses_bind p f [] b). Qed.

Lemma parses_map {A B} (p : TP A) (g : A -> B) bs x y :
  parses p bs x -> g x = y -> parses (doT v <- p; tret (g v)) bs y.
Proof. rewrite !parses_reads. intros H E k pos. apply (reads_map k pos p g bs x); [apply H|exact E]. Qed.

Lemma parses_lift {A} (o : outcome A) x : o = Ok x -> parses (tlift o) [] x.
Proof. intros ->. exact (parses_ret x). Qed.

Lemma advance_app bs rest pos a :
  advance {| s_in := bs ++ rest; s_pos := pos; s_alloc := a |} rest =
  {| s_in := rest; s_pos := (pos + N.of_nat (length bs))%N; s_alloc := a |}.
Proof. unfold advance. cbn [s_in s_pos s_alloc]. f_equal. rewrite app_length. f_equal. lia. Qed.

Lemma parses_byte b : parses rd_byte [b] b.
Proof.
  intros rest pos a. exists a. unfold rd_byte. cbn [s_in app].
  change (b :: rest) with ([b] ++ rest). rewrite advance_app. reflexivity.
Qed.

Lemma parses_uv x : (x < two64N)%N -> parses rd_uv (uv_enc x) x.
Proof.
  intros H rest pos a. exists a. unfold rd_uv. cbn [s_in].
  rewrite uvarint_roundtrip_lemma by exact H. rewrite advance_app. reflexivity.
Qed.

Lemma parses_sv x : in_i64 x -> parses rd_sv (sv_enc x) x.
Proof.
  intros H rest pos a. exists a. unfold rd_sv. cbn [s_in].
  rewrite svarint_roundtrip_lemma by exact H. rewrite advance_app. reflexivity.
Qed.

Lemma parses_svs l : Forall in_i64 l -> parses (rd_svs (length l)) (flat_map sv_enc l) l.
Proof.
  induction 1 as [|x l Hx HF IH]; cbn [rd_svs length flat_map].
  - apply parses_ret.
  - eapply parses_bind; [apply parses_sv; exact Hx|]. eapply parses_map; [exact IH|reflexivity].
Qed.

Lemma reads_check cnt minb k pos :
  (0 < minb)%nat -> (N.to_nat cnt * minb <= k)%nat -> reads k pos (check_count cnt minb) [] tt.
Proof.
  intros Hm Hk rest a Hr. exists a. cbn [app length]. rewrite N.add_0_r. unfold check_count. cbn [s_in].
  destruct (N.ltb_spec (N.of_nat (length rest / minb)) cnt); [|reflexivity].
  assert (N.to_nat cnt <= length rest / minb)%nat by (apply Nat.div_le_lower_bound; lia). lia.
Qed.

(* a passed count check in front of a parser that consumes at least the promised bytes *)
Lemma parses_guard {A} cnt minb (p : TP A) bs x :
  (0 < minb)%nat -> (N.to_nat cnt * minb <= length bs)%nat -> parses p bs x ->
  parses (tbind (check_count cnt minb) (fun _ => p)) bs x.
Proof.
  rewrite !parses_reads. intros Hm Hl Hp k pos.
  apply (reads_bind (length bs) k pos _ _ [] bs tt x); [apply reads_check; [exact Hm|exact Hl]|apply Hp|lia].
Qed.

Lemma parses_alloc {A} n (p : TP A) bs x : parses p bs x -> parses (tbind (talloc n) (fun _ => p)) bs x.
Proof. intros Hp rest pos a. unfold tbind, talloc. cbn [s_in s_pos s_alloc]. apply Hp. Qed.

(* ---- writer state invariant and the bounding box as a fold ---- *)
Definition i64pair (mm : Z * Z) : Prop := in_i64 (fst mm) /\ in_i64 (snd mm) /\ (fst mm <= snd mm)%Z.
Definition wst_ok (d : nat) (st : wst) : Prop :=
  length (ws_ref st) = d /\ length (ws_bb st) = d /\ Forall i64pair (ws_bb st).
Definition bb_state (st : wst) : option (list (Z * Z)) :=
  if ws_valid st then Some (ws_bb st) else None.

Lemma init_wst_ok d : wst_ok d (init_wst d).
Proof.
  unfold wst_ok, init_wst. cbn [ws_ref ws_bb]. rewrite !repeat_length. repeat split.
  apply Forall_forall. intros x Hx. apply repeat_spec in Hx. subst x.
  unfold i64pair, in_i64, two63. cbn [fst snd]. lia.
Qed.

Lemma bb_upd_spec valid m v :
  in_i64 v -> (valid = true -> i64pair m) ->
  i64pair (bb_upd valid m v) /\
  bb_upd valid m v = (if valid then (Z.min (fst m) v, Z.max (snd m) v) else (v, v)).
Proof.
  intros Hv Hm. unfold bb_upd, i64pair, in_i64 in *. destruct valid; cbn [negb fst snd].
  - specialize (Hm eq_refl). destruct m as [mn mx]. cbn [fst snd] in *.
    destruct (Z.ltb_spec v mn); [|destruct (Z.ltb_spec mx v)]; cbn [fst snd]; (split; [lia|f_equal; lia]).
  - split; [lia|reflexivity].
Qed.

(* one point *)
Lemma wr_ords_spec valid : forall pt ref bb,
  length pt = length ref -> length ref = length bb -> Forall in_i64 pt ->
  (valid = true -> Forall i64pair bb) ->
  exists bs bbo, wr_ords valid pt ref bb = (bs, pt, bbo) /\
    parses (rd_pt ref) bs pt /\ (length pt <= length bs)%nat /\
    length bbo = length bb /\ Forall i64pair bbo /\
    Some bbo = env_step (if valid then Some bb else None) pt.
Proof.
  induction pt as [|v pt IH]; intros ref bb Hl1 Hl2 Hr Hbb.
  - destruct ref; [|discriminate]. destruct bb; [|discriminate].
    exists [], []. cbn [wr_ords rd_pt length]. repeat split; try constructor.
    + apply parses_ret.
    + destruct valid; reflexivity.
  - destruct ref as [|r ref]; [discriminate|]. destruct bb as [|m bb]; [discriminate|].
    cbn [length] in *. inversion Hr as [|? ? Hv Hr']; subst.
    destruct (IH ref bb ltac:(lia) ltac:(lia) Hr') as [bs [bbo [E [Hp [Hlen [Hlb [Hok Henv]]]]]]].
    { intros E. specialize (Hbb E). inversion Hbb; assumption. }
    destruct (bb_upd_spec valid m v Hv) as [Hup1 Hup2].
    { intros Ev. specialize (Hbb Ev). inversion Hbb; assumption. }
    cbn [wr_ords]. rewrite E.
    exists (sv_enc (wrap64 (v - r)) ++ bs), (bb_upd valid m v :: bbo).
    rewrite wrap64_delta by exact Hv. repeat split.
    + cbn [rd_pt]. eapply parses_bind; [apply parses_sv; apply wrap64_range|].
      rewrite wrap64_delta by exact Hv. eapply parses_map; [exact Hp|reflexivity].
    + rewrite app_length. pose proof (sv_enc_nonempty (wrap64 (v - r))). cbn [length]. lia.
    + cbn [length]. lia.
    + constructor; assumption.
    + rewrite Hup2. destruct valid; cbn [env_step map combine fst snd] in *; congruence.
Qed.

Definition pt_ok (d : nat) (p : list Z) : Prop := length p = d /\ Forall in_i64 p.

Lemma in_i64_forallb p : Forall in_i64 p -> forallb in_i64b p = true.
Proof.
  intros H. apply forallb_Forall'. eapply Forall_impl; [|exact H]. intros x Hx. apply in_i64b_iff. exact Hx.
Qed.

Lemma wr_points_spec d : forall pts st, wst_ok d st -> Forall (pt_ok d) pts ->
  exists bs st', wr_points st pts = Ok (bs, st') /\ wst_ok d st' /\
    parses (rd_pts (length pts) (ws_ref st)) bs (pts, ws_ref st') /\
    (length pts * d <= length bs)%nat /\
    bb_state st' = fold_left env_step pts (bb_state st).
Proof.
  induction pts as [|p pts IH]; intros st Hst Hp.
  - exists [], st. cbn [wr_points length fold_left rd_pts]. repeat split; try apply Hst.
    + apply parses_ret.
    + cbn. lia.
  - inversion Hp as [|? ? [Hpl Hpi] Hp']; subst.
    destruct Hst as [Hs1 [Hs2 Hs3]].
    destruct (wr_ords_spec (ws_valid st) p (ws_ref st) (ws_bb st) ltac:(lia) ltac:(lia) Hpi
                (fun _ => Hs3)) as [bs1 [bbo [E [Hpar [Hlen [Hlb [Hok Henv]]]]]]].
    set (st1 := {| ws_ref := p; ws_valid := true; ws_bb := bbo |}).
    assert (Hst1 : wst_ok (length p) st1).
    { unfold wst_ok, st1. cbn [ws_ref ws_bb]. repeat split; [lia|exact Hok]. }
    destruct (IH st1 Hst1 Hp') as [bs2 [st2 [E2 [Hst2 [Hpar2 [Hlen2 Hbb2]]]]]].
    exists (bs1 ++ bs2), st2.
    cbn [wr_points]. rewrite in_i64_forallb by exact Hpi. rewrite E. fold st1. rewrite E2.
    cbn [bind]. repeat split; try apply Hst2.
    + cbn [length rd_pts]. eapply parses_bind; [exact Hpar|].
      eapply parses_map; [exact Hpar2|reflexivity].
    + rewrite app_length. cbn [length]. lia.
    + rewrite Hbb2. cbn [fold_left]. f_equal. unfold bb_state, st1. cbn [ws_valid ws_bb].
      rewrite Henv. unfold bb_state. reflexivity.
Qed.

(* ---- envelope folds ---- *)
Definition covers (A : option (list (Z * Z))) (p : list Z) : Prop :=
  exists mm, A = Some mm /\ Forall2 (fun m v => (fst m <= v <= snd m)%Z) mm p.
Definition env_len (d : nat) (A : option (list (Z * Z))) : Prop :=
  match A with None => True | Some mm => length mm = d end.

Lemma env_step_len d A p : env_len d A -> length p = d -> env_len d (env_step A p).
Proof.
  destruct A as [mm|]; cbn [env_len env_step]; intros H1 H2.
  - rewrite map_length, combine_length. lia.
  - rewrite map_length. exact H2.
Qed.

Lemma env_step_covers_self d A p : env_len d A -> length p = d -> covers (env_step A p) p.
Proof.
  destruct A as [mm|]; cbn [env_len env_step]; intros H1 H2.
  - eexists; split; [reflexivity|]. rewrite <- H2 in H1. clear H2. revert mm H1.
    induction p as [|v p IH]; intros [|m mm] H; cbn [length] in H; try discriminate;
      cbn [combine map]; constructor.
    + cbn [fst snd]. lia.
    + apply IH. lia.
  - eexists; split; [reflexivity|]. clear. induction p; cbn [map]; constructor; auto.
    cbn [fst snd]. lia.
Qed.

Lemma env_step_covers_mono A p q : covers A p -> length q = length p -> covers (env_step A q) p.
Proof.
  intros [mm [-> H]] Hl. cbn [env_step]. eexists; split; [reflexivity|].
  revert q Hl. induction H as [|m v mm p Hmv HF IH]; intros [|w q] Hl; cbn [length] in Hl;
    try discriminate; cbn [combine map]; constructor.
  - cbn [fst snd]. lia.
  - apply IH. lia.
Qed.

Lemma env_step_covered A p : covers A p -> env_step A p = A.
Proof.
  intros [mm [-> H]]. cbn [env_step]. f_equal.
  induction H as [|m v mm p Hmv HF IH]; cbn [combine map]; [reflexivity|].
  rewrite IH. f_equal. destruct m as [mn mx]. cbn [fst snd] in *. f_equal; lia.
Qed.

Lemma fold_env_len d l : forall A, env_len d A -> Forall (fun p => length p = d) l ->
  env_len d (fold_left env_step l A).
Proof.
  induction l as [|p l IH]; intros A HA Hl; cbn [fold_left]; [exact HA|].
  inversion Hl; subst. apply IH; [apply env_step_len; auto|assumption].
Qed.

Lemma fold_env_covers d l : forall A p, covers A p -> length p = d ->
  Forall (fun q => length q = d) l -> covers (fold_left env_step l A) p.
Proof.
  induction l as [|q l IH]; intros A p HA Hp Hl; cbn [fold_left]; [exact HA|].
  inversion Hl; subst. apply IH; [apply env_step_covers_mono; [exact HA|congruence]|reflexivity|assumption].
Qed.

(* a point that already occurred does not change the envelope *)
Lemma fold_env_dup d p l A :
  env_len d A -> length p = d -> Forall (fun q => length q = d) l ->
  fold_left env_step ((p :: l) ++ [p]) A = fold_left env_step (p :: l) A.
Proof.
  intros HA Hp Hl. rewrite fold_left_app. cbn [fold_left].
  apply env_step_covered.
  apply (fold_env_covers d); [|exact Hp|exact Hl].
  apply (env_step_covers_self d); assumption.
Qed.

(* ---- the integer instance of the parser ---- *)
Local Notation zdeq := (fun (_ k : Z) => k).
Local Notation znext_point := (next_point Z 0%Z zdeq).
Local Notation znext_line := (next_line Z 0%Z zdeq).
Local Notation znext_ring := (next_ring Z 0%Z Z.eqb zdeq).
Local Notation znext_poly := (next_poly Z 0%Z Z.eqb zdeq).
Local Notation zrd_geom := (rd_geom Z 0%Z Z.eqb zdeq).

Lemma deq_pt_id ps p : length p = length ps -> deq_pt Z zdeq ps p = p.
Proof.
  revert p. induction ps as [|q ps IH]; intros [|k p] H; cbn [length] in H; try discriminate;
    cbn [deq_pt]; [reflexivity|]. rewrite IH by lia. reflexivity.
Qed.

Lemma vords_length ct v : length (vords ct v) = dim ct.
Proof. unfold vords. destruct ct; reflexivity. Qed.

Lemma ovtx_vords ct v : vtx_ok (Z.eqb 0) ct v = true -> ovtx 0%Z ct (vords ct v) = Ok v.
Proof.
  unfold vtx_ok, vords. destruct v as [x y z m]. cbn [vx vy vz vm].
  destruct ct; cbn [has_z has_m orb andb app ovtx]; intros H; f_equal; f_equal; lia.
Qed.

Lemma vtxs_of_vords ct vs :
  forallb (vtx_ok (Z.eqb 0) ct) vs = true -> vtxs_of Z 0%Z ct (map (vords ct) vs) = Ok vs.
Proof.
  induction vs as [|v vs IH]; cbn [forallb map vtxs_of]; intros H; [reflexivity|].
  apply andb_true_iff in H. destruct H as [H1 H2].
  rewrite ovtx_vords by exact H1. cbn [bind]. rewrite IH by exact H2. reflexivity.
Qed.

Lemma map_deq_id h pts :
  Forall (fun p => length p = dim (h_ct h)) pts -> map (deq_pt Z zdeq (precs h)) pts = pts.
Proof.
  induction 1 as [|p pts Hp HF IH]; cbn [map]; [reflexivity|].
  rewrite IH. rewrite deq_pt_id; [reflexivity|]. rewrite precs_length. exact Hp.
Qed.

Lemma vords_pt_ok ct v : vtx_i64 v = true -> pt_ok (dim ct) (vords ct v).
Proof.
  unfold vtx_i64. rewrite !andb_true_iff, !in_i64b_iff. intros [[[Hx Hy] Hz] Hm].
  split; [apply vords_length|]. unfold vords.
  constructor; [exact Hx|]. constructor; [exact Hy|].
  apply Forall_app. split; [destruct (has_z ct)|destruct (has_m ct)]; try (constructor; [assumption|]); constructor.
Qed.

Lemma pts_of_line_ok ct vs :
  forallb vtx_i64 vs = true -> Forall (pt_ok (dim ct)) (map (vords ct) vs).
Proof.
  intros H. apply Forall_map. apply forallb_Forall' in H. eapply Forall_impl; [|exact H].
  intros v Hv. apply vords_pt_ok. exact Hv.
Qed.

Lemma pt_ok_len d pts : Forall (pt_ok d) pts -> Forall (fun p => length p = d) pts.
Proof. intros H. eapply Forall_impl; [|exact H]. intros p [Hp _]. exact Hp. Qed.

Lemma dim_pos ct : (0 < dim ct)%nat.
Proof. destruct ct; cbn; lia. Qed.

Lemma cnt_N n : (N.of_nat n <? two63N)%N = true -> (N.of_nat n < two64N)%N /\ Z.of_N (N.of_nat n) = Z.of_nat n.
Proof. intros H. apply N.ltb_lt in H. unfold two63N, two64N in *. split; lia. Qed.

Lemma cnt_wrap n : (N.of_nat n <? two63N)%N = true -> wrap64 (Z.of_N (N.of_nat n)) = Z.of_nat n.
Proof.
  intros H. apply N.ltb_lt in H. rewrite wrap64_id; [lia|]. unfold in_i64, two63, two63N in *. lia.
Qed.

(* count + point array, writer against reader *)
Lemma count_array_spec d pts st :
  (0 < d)%nat -> wst_ok d st -> Forall (pt_ok d) pts -> cnt_ok pts = true ->
  exists bs st', wr_points st pts = Ok (bs, st') /\ wst_ok d st' /\
    parses (parse_count_array (ws_ref st)) (count_bytes pts ++ bs)
           (pts, ws_ref st', Z.of_nat (length pts)) /\
    bb_state st' = fold_left env_step pts (bb_state st).
Proof.
  intros Hd Hst Hp Hc. destruct (cnt_N _ Hc) as [Hc64 HcZ].
  destruct (wr_points_spec d pts st Hst Hp) as [bs [st' [E [Hst' [Hpar [Hlen Hbb]]]]]].
  exists bs, st'. repeat split; try assumption; try apply Hst'.
  unfold parse_count_array, count_bytes.
  eapply parses_bind; [apply parses_uv; exact Hc64|].
  destruct Hst as [Hs1 _]. rewrite Hs1.
  apply parses_guard; [exact Hd|rewrite Nat2N.id; exact Hlen|].
  apply parses_alloc. rewrite Nat2N.id.
  eapply parses_map; [exact Hpar|cbn [fst snd]; rewrite HcZ; reflexivity].
Qed.

Lemma Forall_firstn' {A} (P : A -> Prop) k l : Forall P l -> Forall P (firstn k l).
Proof.
  revert k. induction l as [|x l IH]; intros [|k] H; cbn [firstn]; try constructor.
  - inversion H; assumption.
  - apply IH. inversion H; assumption.
Qed.

Lemma forallb2_Forall {A} (p q : A -> bool) (P : A -> Prop) l :
  (forall x, p x = true -> q x = true -> P x) -> forallb p l = true -> forallb q l = true -> Forall P l.
Proof. rewrite !forallb_forall, Forall_forall. auto. Qed.

(* for the members of a collection the reader is a sub-parser with fuel fu that needs more fuel than bytes,
   returns the member in the form [T] and has no reference point ([rf]) *)
Definition mspec {A B} (ct : ctype) (k : nat) (f : wst -> A -> outcome (list N * wst))
           (step : thdr -> nat -> list Z -> TP (B * list Z)) (rf : wst -> list Z) (T : A -> B)
           (pts_of : A -> list (list Z)) (x : A) : Prop :=
  forall st, wst_ok (dim ct) st -> exists bs st',
    f st x = Ok (bs, st') /\ wst_ok (dim ct) st' /\ (k <= length bs)%nat /\
    bb_state st' = fold_left env_step (pts_of x) (bb_state st) /\
    forall h fu, h_ct h = ct -> (length bs < fu)%nat -> (Z.of_nat (length bs) < two63)%Z ->
      parses (step h fu (rf st)) bs (T x, rf st').
Definition wspec {A} (ct : ctype) (k : nat) (f : wst -> A -> outcome (list N * wst))
           (step : thdr -> list Z -> TP (A * list Z)) : (A -> list (list Z)) -> A -> Prop :=
  mspec ct k f (fun h _ => step h) ws_ref (fun x => x).

(* the writer sends the part [sel], the reader applies [T]: LineString (everything, nothing) and ring (implicit closure, re-closure) *)
Lemma sent_wspec ct (sel : list (list Z) -> list (list Z)) (T : Z -> list (list Z) -> list (list Z)) l :
  line_ok (Z.eqb 0) ct l = true -> line_dom l = true ->
  let all := map (vords ct) (line_vs l) in
  (exists k, sel all = firstn k all) -> T (Z.of_nat (length (sel all))) (sel all) = all ->
  (forall A, env_len (dim ct) A -> fold_left env_step (sel all) A = fold_left env_step all A) ->
  wspec ct 1
    (fun st l => let pts := sel (map (vords ct) (line_vs l)) in
                 do (bs, st') <- wr_points st pts; Ok (count_bytes pts ++ bs, st'))
    (fun h ref => doT r <- parse_count_array ref;
                  let '(pts, ref', n) := r in
                  doT vs <- tlift (vtxs_of Z 0%Z (h_ct h) (T n (map (deq_pt Z zdeq (precs h)) pts)));
                  tret (MkLine (h_ct h) vs, ref'))
    (fun l => map (vords ct) (line_vs l)) l.
Proof.
  intros Hok Hdom all [k Hk] HT Henv st Hst. destruct l as [c vs]. unfold line_dom in Hdom.
  cbn [line_ok line_vs] in *.
  apply andb_true_iff in Hok. destruct Hok as [Hc Hvs]. apply ct_eqb_eq in Hc. subst c.
  apply andb_true_iff in Hdom. destruct Hdom as [Hcnt Hi64].
  assert (Hw : Forall (pt_ok (dim ct)) (sel all)).
  { rewrite Hk. apply Forall_firstn'. apply pts_of_line_ok. exact Hi64. }
  destruct (count_array_spec (dim ct) (sel all) st (dim_pos ct) Hst Hw) as [bs [st' [E [Hst' [Hpar Hbb]]]]].
  { unfold cnt_ok in *. rewrite Hk, firstn_length. unfold all. rewrite map_length.
    apply N.ltb_lt in Hcnt. apply N.ltb_lt. lia. }
  exists (count_bytes (sel all) ++ bs), st'. cbv zeta. fold all. rewrite E. cbn [bind].
  split; [reflexivity|]. split; [exact Hst'|]. split.
  { rewrite app_length. pose proof (uv_enc_nonempty (N.of_nat (length (sel all)))). unfold count_bytes. lia. }
  split.
  { rewrite Hbb. apply Henv. destruct Hst as [_ [Hs2 _]]. unfold bb_state, env_len. destruct (ws_valid st); auto. }
  intros h _ <- _ _. rewrite <- (app_nil_r (count_bytes _ ++ bs)).
  eapply parses_bind; [exact Hpar|]. cbv beta iota.
  rewrite map_deq_id by (apply pt_ok_len; exact Hw). rewrite HT.
  eapply parses_bind_nil; [apply parses_lift; apply vtxs_of_vords; exact Hvs|]. apply parses_ret.
Qed.

Lemma line_wspec ct l :
  line_ok (Z.eqb 0) ct l = true -> line_dom l = true ->
  wspec ct 1 (wr_line ct) znext_line (fun l => map (vords ct) (line_vs l)) l.
Proof.
  intros Hok Hdom. apply (sent_wspec ct (fun p => p) (fun _ p => p) l Hok Hdom); [|reflexivity|reflexivity].
  eexists. symmetry. apply firstn_all.
Qed.

(* ---- rings: implicit closure on write, re-closure on read ---- *)
Lemma pt_eqb_iff a b : pt_eqb Z Z.eqb a b = true <-> a = b.
Proof.
  revert b. induction a as [|x a IH]; intros [|y b]; cbn [pt_eqb]; split; intros H;
    try reflexivity; try discriminate.
  - apply andb_true_iff in H. destruct H as [H1 H2]. apply Z.eqb_eq in H1. apply IH in H2. congruence.
  - inversion H; subst. rewrite Z.eqb_refl. cbn [andb]. apply IH. reflexivity.
Qed.

Lemma removelast_map {A B} (f : A -> B) l : removelast (map f l) = map f (removelast l).
Proof. induction l as [|x [|y l] IH]; cbn [map removelast] in *; auto. rewrite IH. reflexivity. Qed.

Lemma ring_pts_open (pts : list (list Z)) : (2 <= length pts)%nat -> ring_pts false pts = removelast pts.
Proof.
  intros H. unfold ring_pts. cbn [negb andb]. apply Nat.leb_le in H. rewrite H.
  rewrite removelast_firstn_len, Nat.sub_1_r. reflexivity.
Qed.

Lemma ring_pts_all close (pts : list (list Z)) :
  close = true \/ (length pts < 2)%nat -> ring_pts close pts = pts.
Proof.
  unfold ring_pts. intros [->|H]; [reflexivity|]. apply Nat.leb_gt in H. rewrite H, andb_false_r. reflexivity.
Qed.

Lemma reclose_closed n (p0 : list Z) tl : last tl p0 = p0 -> reclose Z Z.eqb n (p0 :: tl) = p0 :: tl.
Proof.
  intros H. unfold reclose. destruct (2 <=? n)%Z; [|reflexivity]. destruct tl as [|t tl]; [reflexivity|].
  rewrite (proj2 (pt_eqb_iff _ _)) by congruence. reflexivity.
Qed.

Lemma reclose_open (p0 : list Z) mid :
  mid <> [] -> last mid p0 <> p0 ->
  reclose Z Z.eqb (Z.of_nat (length (p0 :: mid))) (p0 :: mid) = (p0 :: mid) ++ [p0].
Proof.
  intros Hne Hl. unfold reclose. destruct mid as [|m mid]; [congruence|]. cbn [length].
  destruct (Z.leb_spec 2 (Z.of_nat (S (S (length mid))))); [|lia].
  destruct (pt_eqb Z Z.eqb p0 (last (m :: mid) p0)) eqn:E; [|reflexivity].
  apply pt_eqb_iff in E. congruence.
Qed.

Lemma vtx_eqb_iff (a b : vtx Z) : vtx_eqb a b = true <-> a = b.
Proof.
  unfold vtx_eqb. destruct a as [x1 y1 z1 m1], b as [x2 y2 z2 m2]. cbn [vx vy vz vm]. split; intros H.
  - repeat (apply andb_true_iff in H; destruct H as [H ?]). f_equal; lia.
  - inversion H; subst. rewrite !Z.eqb_refl. reflexivity.
Qed.

Lemma vords_inj ct a b :
  vtx_ok (Z.eqb 0) ct a = true -> vtx_ok (Z.eqb 0) ct b = true -> vords ct a = vords ct b -> a = b.
Proof.
  intros Ha Hb H. apply ovtx_vords in Ha. apply ovtx_vords in Hb. rewrite H in Ha. congruence.
Qed.

Lemma last_In' {A} (l : list A) d : l <> [] -> In (last l d) l.
Proof. destruct l as [|x l]; [congruence|]. intros _. rewrite last_cons_default. apply last_in. Qed.
Lemma In_removelast {A} (l : list A) x : In x (removelast l) -> In x l.
Proof.
  induction l as [|y [|z l] IH]; cbn [removelast]; intros H; [exact H|destruct H|].
  destruct H as [H|H]; [left; exact H|right; apply IH; exact H].
Qed.

(* what the ring hypothesis (finding F19) says of the points sent *)
Lemma ring_sent close ct vs :
  forallb (vtx_ok (Z.eqb 0) ct) vs = true -> ring_dom close (MkLine ct vs) = true ->
  let all := map (vords ct) vs in
  let w := ring_pts close all in
  (w = all /\ forall n, reclose Z Z.eqb n all = all) \/
  (exists p0 mid, w = p0 :: mid /\ all = w ++ [p0] /\ mid <> [] /\ last mid p0 <> p0).
Proof.
  intros Hok Hdom. unfold ring_dom in Hdom. apply andb_true_iff in Hdom. destruct Hdom as [_ Hdom].
  cbn [line_vs] in Hdom. cbv zeta.
  destruct vs as [|v0 [|t1 tl]]; [discriminate| |].
  - left. split; [apply ring_pts_all; right; cbn; lia|]. intros n. apply reclose_closed. reflexivity.
  - set (tl1 := t1 :: tl) in *. cbn [map].
    apply andb_true_iff in Hdom. destruct Hdom as [Hc Ho]. apply vtx_eqb_iff in Hc.
    assert (Hlast : last (map (vords ct) tl1) (vords ct v0) = vords ct v0) by (rewrite last_map; congruence).
    destruct close.
    + left. split; [apply ring_pts_all; left; reflexivity|]. intros n. apply reclose_closed. exact Hlast.
    + right. cbn [orb] in Ho. apply andb_true_iff in Ho. destruct Ho as [Hp Hl]. apply Nat.leb_le in Hl.
      exists (vords ct v0), (removelast (map (vords ct) tl1)).
      assert (Ew : ring_pts false (vords ct v0 :: map (vords ct) tl1)
                   = vords ct v0 :: removelast (map (vords ct) tl1)).
      { rewrite ring_pts_open by (cbn [length]; rewrite map_length; lia). reflexivity. }
      rewrite Ew. split; [reflexivity|]. split; [|split].
      * cbn [app]. f_equal. rewrite <- Hlast at 1. apply app_removelast_last. discriminate.
      * unfold tl1 in *. destruct tl; [cbn [length] in Hl; lia|discriminate].
      * rewrite removelast_map, last_map. intros E.
        assert (Hoks : forall v, In v (v0 :: tl1) -> vtx_ok (Z.eqb 0) ct v = true)
          by (apply forallb_forall; exact Hok).
        apply vords_inj in E.
        -- rewrite E in Hp. rewrite (proj2 (vtx_eqb_iff v0 v0) eq_refl) in Hp. discriminate.
        -- destruct (removelast tl1) as [|x r] eqn:Er.
           ++ apply Hoks. left. reflexivity.
           ++ apply Hoks. right. apply In_removelast. rewrite Er. apply last_In'. discriminate.
        -- apply Hoks. left. reflexivity.
Qed.

Lemma ring_reclose close ct vs :
  forallb (vtx_ok (Z.eqb 0) ct) vs = true -> ring_dom close (MkLine ct vs) = true ->
  let w := ring_pts close (map (vords ct) vs) in
  reclose Z Z.eqb (Z.of_nat (length w)) w = map (vords ct) vs.
Proof.
  intros Hok Hdom. destruct (ring_sent close ct vs Hok Hdom) as [[-> H]|[p0 [mid [-> [-> [Hne Hl]]]]]]; cbv zeta.
  - apply H.
  - apply reclose_open; assumption.
Qed.

Lemma ring_pts_sub close (pts : list (list Z)) :
  exists k, ring_pts close pts = firstn k pts.
Proof.
  unfold ring_pts. destruct (negb close && (2 <=? length pts)%nat).
  - eexists; reflexivity.
  - exists (length pts). rewrite firstn_all. reflexivity.
Qed.

Lemma ring_env close ct vs A :
  env_len (dim ct) A -> forallb (vtx_ok (Z.eqb 0) ct) vs = true ->
  ring_dom close (MkLine ct vs) = true ->
  fold_left env_step (ring_pts close (map (vords ct) vs)) A =
  fold_left env_step (map (vords ct) vs) A.
Proof.
  intros HA Hok Hdom.
  assert (Hlen : Forall (fun p => length p = dim ct) (map (vords ct) vs)).
  { apply Forall_map, Forall_forall. intros v _. apply vords_length. }
  pose proof (ring_sent close ct vs Hok Hdom) as Hs. cbv zeta in Hs.
  set (w := ring_pts close (map (vords ct) vs)) in *. clearbody w.
  destruct Hs as [[-> _]|[p0 [mid [-> [Ea _]]]]]; [reflexivity|].
  rewrite Ea in *. symmetry.
  apply Forall_app in Hlen. destruct Hlen as [Hlen _]. inversion Hlen; subst.
  apply (fold_env_dup (dim ct)); assumption.
Qed.

Lemma ring_dom_line close l : ring_dom close l = true -> line_dom l = true.
Proof. unfold ring_dom. intros H. apply andb_true_iff in H. apply H. Qed.

Lemma ring_wspec close ct l :
  line_ok (Z.eqb 0) ct l = true -> ring_dom close l = true ->
  wspec ct 1 (wr_ring close ct) znext_ring (fun l => map (vords ct) (line_vs l)) l.
Proof.
  intros Hok Hdom.
  apply (sent_wspec ct (ring_pts close) (reclose Z Z.eqb) l Hok (ring_dom_line _ _ Hdom));
    destruct l as [c vs]; cbn [line_ok line_vs] in *;
    apply andb_true_iff in Hok; destruct Hok as [Hc Hvs]; apply ct_eqb_eq in Hc; subst c.
  - apply ring_pts_sub.
  - apply ring_reclose; assumption.
  - intros A HA. apply ring_env; assumption.
Qed.

Lemma point_wspec ct p :
  point_ok (Z.eqb 0) ct p = true ->
  match point_c p with None => false | Some v => vtx_i64 v end = true ->
  wspec ct (dim ct) (wr_mpoint_member ct) znext_point
        (fun p => match point_c p with Some v => [vords ct v] | None => [] end) p.
Proof.
  intros Hok Hdom st Hst. destruct p as [c [v|]]; cbn [point_c] in Hdom; [|discriminate].
  cbn [point_ok] in Hok. apply andb_true_iff in Hok. destruct Hok as [Hc Hv].
  apply ct_eqb_eq in Hc. subst c.
  pose proof (vords_pt_ok ct v Hdom) as Hp.
  destruct (wr_points_spec (dim ct) [vords ct v] st Hst (Forall_cons _ Hp (Forall_nil _)))
    as [bs [st' [E [Hst' [Hpar [Hlen Hbb]]]]]].
  exists bs, st'. unfold wr_mpoint_member. cbn [point_c]. rewrite E.
  repeat split; try assumption; try apply Hst'; [cbn [length] in Hlen; lia|].
  intros h _ <- _ _. unfold next_point. rewrite <- (app_nil_r bs).
  eapply parses_bind; [exact Hpar|].
  cbn [fst snd]. rewrite deq_pt_id by (rewrite precs_length; apply vords_length).
  rewrite ovtx_vords by exact Hv.
  eapply parses_bind_nil; [apply parses_lift; reflexivity|]. apply parses_ret.
Qed.

(* a sequence of members written with the threaded state is read back by the counted loop *)
Lemma wr_seq_spec {A B} ct k (f : wst -> A -> outcome (list N * wst)) step rf (T : A -> B) pts_of :
  (1 <= k)%nat ->
  forall l st, Forall (mspec ct k f step rf T pts_of) l -> wst_ok (dim ct) st ->
  exists bs st', wr_seq f st l = Ok (bs, st') /\ wst_ok (dim ct) st' /\
    (length l * k <= length bs)%nat /\
    bb_state st' = fold_left env_step (flat_map pts_of l) (bb_state st) /\
    forall h fu, h_ct h = ct -> (length bs < fu)%nat -> (Z.of_nat (length bs) < two63)%Z ->
      parses (tloop_in (Z.of_nat (length l)) (step h fu) (rf st)) bs (map T l, rf st').
Proof.
  intros Hk1 l st Hl Hst.
  enough (exists bs st', wr_seq f st l = Ok (bs, st') /\ wst_ok (dim ct) st' /\
    (length l * k <= length bs)%nat /\
    bb_state st' = fold_left env_step (flat_map pts_of l) (bb_state st) /\
    forall h fu fuel, h_ct h = ct -> (length bs < fu)%nat -> (Z.of_nat (length bs) < two63)%Z ->
      (length l <= fuel)%nat ->
      parses (tloop fuel (Z.of_nat (length l)) (step h fu) (rf st)) bs (map T l, rf st'))
    as [bs [st' [E [Hst' [Hn [Hbb Hp]]]]]].
  { exists bs, st'. repeat split; try assumption; try apply Hst'.
    intros h fu Hh Hf H63 rest pos a. unfold tloop_in. cbn [s_in]. apply Hp; try assumption. rewrite app_length. nia. }
  revert st Hl Hst. induction l as [|x l IH]; intros st Hl Hst.
  - exists [], st. cbn [wr_seq length flat_map fold_left map]. repeat split; try apply Hst; try lia.
    intros h fu fuel _ _ _ _. destruct fuel; cbn [tloop Z.of_nat Z.leb Z.compare]; apply parses_ret.
  - inversion Hl as [|? ? Hx Hl']; subst.
    destruct (Hx st Hst) as [b1 [s1 [E1 [Hs1 [Hn1 [Hb1 Hp1]]]]]].
    destruct (IH s1 Hl' Hs1) as [b2 [s2 [E2 [Hs2 [Hn2 [Hb2 Hp2]]]]]].
    exists (b1 ++ b2), s2. cbn [wr_seq]. rewrite E1. cbn [bind]. rewrite E2. cbn [bind].
    repeat split; try apply Hs2.
    + rewrite app_length. cbn [length]. lia.
    + rewrite Hb2, Hb1. cbn [flat_map]. rewrite fold_left_app. reflexivity.
    + intros h fu fuel Hh Hf H63 Hfu. rewrite app_length in Hf, H63.
      destruct fuel as [|fuel]; [cbn [length] in Hfu; lia|].
      cbn [tloop length map]. destruct (Z.leb_spec (Z.of_nat (S (length l))) 0); [lia|].
      eapply parses_bind; [apply Hp1; [exact Hh|lia|lia]|]. cbn [fst snd].
      replace (Z.of_nat (S (length l)) - 1)%Z with (Z.of_nat (length l)) by lia.
      eapply parses_map; [apply Hp2; [exact Hh|lia|lia|cbn [length] in Hfu; lia]|reflexivity].
Qed.

Lemma zero_eq x : (0 =? x)%Z = true -> x = 0%Z.
Proof. lia. Qed.
Lemma znew_polygon_id ct rs : rs <> [] -> forallb (line_ok (Z.eqb 0) ct) rs = true -> new_polygon 0%Z rs = MkPoly ct rs.
Proof. intros Hne H. eapply (new_polygon_id Z 0%Z (Z.eqb 0)); first [exact zero_eq|reflexivity|eassumption]. Qed.
Lemma znew_multipoint_id ct ps : ps <> [] -> forallb (point_ok (Z.eqb 0) ct) ps = true -> new_multipoint 0%Z ps = GMPoint ct ps.
Proof. intros Hne H. eapply (new_multipoint_id Z 0%Z (Z.eqb 0)); first [exact zero_eq|reflexivity|eassumption]. Qed.
Lemma znew_multiline_id ct ls : ls <> [] -> forallb (line_ok (Z.eqb 0) ct) ls = true -> new_multiline 0%Z ls = GMLine ct ls.
Proof. intros Hne H. eapply (new_multiline_id Z 0%Z (Z.eqb 0)); first [exact zero_eq|reflexivity|eassumption]. Qed.
Lemma znew_multipoly_id ct ps : ps <> [] -> forallb (poly_ok (Z.eqb 0) ct) ps = true -> new_multipoly 0%Z ps = GMPoly ct ps.
Proof. intros Hne H. eapply (new_multipoly_id Z 0%Z (Z.eqb 0)); first [exact zero_eq|reflexivity|eassumption]. Qed.
Lemma znew_collection_id ct gs : gs <> [] -> forallb (geom_ok (Z.eqb 0) ct) gs = true -> new_collection 0%Z gs = GColl ct gs.
Proof. intros Hne H. eapply (new_collection_id Z 0%Z (Z.eqb 0)); first [exact zero_eq|reflexivity|eassumption]. Qed.

(* ---- polygons ---- *)
Definition ring_ptsof (ct : ctype) (l : lineT Z) : list (list Z) := map (vords ct) (line_vs l).
Definition poly_ptsof (ct : ctype) (p : polyT Z) : list (list Z) :=
  flat_map (ring_ptsof ct) (poly_rings p).

Lemma poly_wspec close ct p :
  poly_ok (Z.eqb 0) ct p = true -> poly_dom (ring_dom close) p = true ->
  wspec ct 1 (wr_poly close ct) znext_poly (poly_ptsof ct) p.
Proof.
  intros Hok Hdom st Hst. destruct p as [c rs]. cbn [poly_ok] in Hok.
  apply andb_true_iff in Hok. destruct Hok as [Hc Hrs]. apply ct_eqb_eq in Hc. subst c.
  unfold poly_dom in Hdom. cbn [poly_rings] in Hdom. apply andb_true_iff in Hdom.
  destruct Hdom as [Hcnt Hrd].
  pose proof (forallb2_Forall _ _ _ rs (ring_wspec close ct) Hrs Hrd) as HF.
  destruct (wr_seq_spec ct 1 _ _ _ _ _ (le_n 1) rs st HF Hst) as [bs [st' [E [Hst' [Hlen [Hbb Hpar]]]]]].
  exists (count_bytes rs ++ bs), st'. unfold wr_poly. cbn [poly_rings]. rewrite E. cbn [bind].
  destruct (cnt_N (length rs) Hcnt) as [Hc64 HcZ].
  repeat split; try assumption; try apply Hst'.
  - rewrite app_length. unfold count_bytes. pose proof (uv_enc_nonempty (N.of_nat (length rs))). lia.
  - intros h fu Hh Hf H63. unfold next_poly, count_bytes. rewrite app_length in Hf, H63.
    eapply parses_bind; [apply parses_uv; exact Hc64|].
    rewrite <- (app_nil_r bs). rewrite HcZ.
    eapply parses_bind; [apply (Hpar h fu Hh); lia|].
    cbn [fst snd]. rewrite map_id. destruct rs as [|r rs'].
    + rewrite Hh. apply parses_ret.
    + rewrite (znew_polygon_id ct (r :: rs')) by (try discriminate; exact Hrs).
      apply parses_ret.
Qed.

(* ---- ID lists ---- *)
Lemma flat_sv_len ids : (length ids <= length (flat_map sv_enc ids))%nat.
Proof.
  induction ids as [|x ids IH]; cbn [flat_map length]; [lia|].
  rewrite app_length. pose proof (sv_enc_nonempty x). lia.
Qed.

Lemma parses_ids ids :
  Forall in_i64 ids -> parses (parse_ids (N.of_nat (length ids))) (flat_map sv_enc ids) ids.
Proof.
  intros Hi. unfold parse_ids.
  apply parses_guard; [lia|rewrite Nat2N.id; pose proof (flat_sv_len ids); lia|].
  apply parses_alloc. rewrite Nat2N.id. apply parses_svs. exact Hi.
Qed.

(* minb: the member-count check looks ahead at the bytes of the members *)
Lemma ids_spec c n minb :
  (0 < minb)%nat -> (N.of_nat n <? two63N)%N = true -> Forall in_i64 (w_ids c) ->
  (w_hasids c = true -> length (w_ids c) = n) ->
  exists idb, wr_ids c n = Ok idb /\
    forall pos, reads (n * minb) pos (count_and_ids (w_hasids c) minb) (uv_enc (N.of_nat n) ++ idb)
                      (Z.of_nat n, w_ids c).
Proof.
  intros Hm Hcnt Hi Hlen. destruct (cnt_N n Hcnt) as [Hc64 HcZ].
  assert (Hopt : exists idb, wr_ids c n = Ok idb /\
            parses (if w_hasids c then parse_ids (N.of_nat n) else tret []) idb (w_ids c)).
  { unfold wr_ids. destruct (w_hasids c) eqn:Eh; cbn [negb].
    - rewrite <- (Hlen eq_refl), Nat.eqb_refl. eexists; split; [reflexivity|]. apply parses_ids; exact Hi.
    - exists []. split; [reflexivity|]. unfold w_hasids in Eh.
      destruct (w_ids c); [apply parses_ret|discriminate]. }
  destruct Hopt as [idb [E Hp]]. exists idb. split; [exact E|]. intros pos. unfold count_and_ids.
  rewrite <- (app_nil_r idb).
  eapply (reads_bind 0); [apply parses_reads, parses_uv, Hc64| |lia].
  eapply (reads_bind 0); [apply parses_reads, Hp| |lia].
  apply (reads_map _ _ _ (fun _ => (Z.of_N (N.of_nat n), w_ids c)) [] tt);
    [apply reads_check; [exact Hm|lia]|rewrite HcZ; reflexivity].
Qed.

(* ---- headers ---- *)
Definition cfg_ok (c : wcfg) : Prop :=
  (-8 <= w_pxy c <= 7)%Z /\ (0 <= w_pz c <= 7)%Z /\ (0 <= w_pm c <= 7)%Z /\ Forall in_i64 (w_ids c).

Lemma typeprec_dec pxy kind :
  (-8 <= pxy <= 7)%Z -> (kind < 16)%N ->
  ((typeprec pxy kind) mod 16 = kind)%N /\ zz_dec (typeprec pxy kind / 16) = pxy.
Proof.
  intros Hp Hk. unfold typeprec.
  assert (Hu : (zz_enc pxy <= 15)%N).
  { unfold zz_enc. destruct (Z.ltb_spec pxy 0); lia. }
  assert (Hz : zz_dec (zz_enc pxy) = pxy).
  { apply zigzag_roundtrip_lemma. unfold in_i64, two63. lia. }
  remember (zz_enc pxy) as u. clear Hequ.
  split; [lia|]. replace ((u * 16) mod 256 + kind)%N with (u * 16 + kind)%N by lia.
  replace ((u * 16 + kind) / 16)%N with u by lia. exact Hz.
Qed.

Lemma meta_bits c :
  bit (meta_byte c) 1 = w_bbox c /\ bit (meta_byte c) 2 = w_size c /\
  bit (meta_byte c) 4 = w_hasids c /\ bit (meta_byte c) 8 = w_hasext c /\
  bit (meta_byte c) 16 = false.
Proof.
  unfold meta_byte, bit. destruct (w_bbox c), (w_size c), (w_hasids c), (w_hasext c);
    repeat split; reflexivity.
Qed.

Lemma ext_bits c :
  (0 <= w_pz c <= 7)%Z -> (0 <= w_pm c <= 7)%Z ->
  bit (ext_byte c) 1 = w_hasz c /\ bit (ext_byte c) 2 = w_hasm c /\
  (w_hasz c = true -> ((ext_byte c / 4) mod 8)%N = Z.to_N (w_pz c)) /\
  (w_hasm c = true -> ((ext_byte c / 32) mod 8)%N = Z.to_N (w_pm c)).
Proof.
  intros Hz Hm. unfold ext_byte, bit.
  remember (Z.to_N (w_pz c)) as pz. remember (Z.to_N (w_pm c)) as pm.
  assert (pz <= 7)%N by lia. assert (pm <= 7)%N by lia. clear Heqpz Heqpm.
  destruct (w_hasz c), (w_hasm c); repeat split; intros; try discriminate;
    try (apply N.eqb_eq; lia); try (apply N.eqb_neq; lia); lia.
Qed.

Definition raw_bbox (bb : list (Z * Z)) : list Z :=
  flat_map (fun mm => [fst mm; wrap64 (snd mm - fst mm)]) bb.

Definition hdr_of (c : wcfg) (kind : N) (st : wst) (size : Z) : thdr :=
  {| h_kind := kind; h_pxy := w_pxy c; h_hasbbox := w_bbox c; h_hassize := w_size c;
     h_hasids := w_hasids c; h_hasext := w_hasext c; h_empty := false;
     h_hasz := w_hasz c; h_hasm := w_hasm c;
     h_pz := if w_hasz c then Z.to_N (w_pz c) else 0%N;
     h_pm := if w_hasm c then Z.to_N (w_pm c) else 0%N;
     h_size := size;
     h_bbox := if w_bbox c then raw_bbox (ws_bb st) else [] |}.

Definition empty_hdr (c : wcfg) (kind : N) : thdr :=
  {| h_kind := kind; h_pxy := w_pxy c; h_hasbbox := false; h_hassize := false; h_hasids := false;
     h_hasext := false; h_empty := true; h_hasz := false; h_hasm := false; h_pz := 0%N; h_pm := 0%N;
     h_size := 0%Z; h_bbox := [] |}.

Lemma bbox_bytes_raw bb : bbox_bytes bb = flat_map sv_enc (raw_bbox bb).
Proof.
  unfold bbox_bytes, raw_bbox. induction bb as [|m bb IH]; cbn [flat_map]; [reflexivity|].
  rewrite IH. cbn [app fst snd flat_map]. rewrite <- app_assoc. reflexivity.
Qed.

Lemma raw_bbox_ok bb : Forall i64pair bb -> Forall in_i64 (raw_bbox bb) /\ length (raw_bbox bb) = (2 * length bb)%nat.
Proof.
  induction 1 as [|m bb [H1 _] HF [IH1 IH2]]; cbn [raw_bbox flat_map length]; [split; [constructor|reflexivity]|].
  split.
  - cbn [app]. constructor; [exact H1|]. constructor; [apply wrap64_range|exact IH1].
  - cbn [app length]. fold (raw_bbox bb). rewrite IH2. lia.
Qed.

Lemma empty_headers_spec c kind :
  (-8 <= w_pxy c <= 7)%Z -> (kind < 16)%N -> parses parse_headers (empty_doc c kind) (empty_hdr c kind).
Proof.
  intros Hp Hk. destruct (typeprec_dec (w_pxy c) kind Hp Hk) as [Hk1 Hk2].
  unfold parse_headers, empty_doc.
  change [typeprec (w_pxy c) kind; 16%N] with ([typeprec (w_pxy c) kind] ++ [16%N] ++ []).
  eapply parses_bind; [apply parses_byte|]. cbv beta zeta. rewrite Hk1, Hk2.
  eapply parses_bind; [apply parses_byte|]. exact (parses_ret (empty_hdr c kind)).
Qed.

Lemma ext_parses c :
  (0 <= w_pz c <= 7)%Z -> (0 <= w_pm c <= 7)%Z ->
  parses (if w_hasext c then
            doT e <- rd_byte;
            let hz := bit e 1 in let hm := bit e 2 in
            tret (hz, hm, if hz then ((e / 4) mod 8)%N else 0%N, if hm then ((e / 32) mod 8)%N else 0%N)
          else tret (false, false, 0%N, 0%N))
         (if w_hasext c then [ext_byte c] else [])
         (w_hasz c, w_hasm c, (if w_hasz c then Z.to_N (w_pz c) else 0%N),
          (if w_hasm c then Z.to_N (w_pm c) else 0%N)).
Proof.
  intros Hz Hm. apply parses_reads. intros k pos. generalize (ext_bits c Hz Hm). unfold w_hasext.
  destruct (w_hasz c), (w_hasm c); intros [He1 [He2 [Hepz Hepm]]]; cbn [orb];
    [| | |apply reads_ret; reflexivity];
    (eapply reads_map; [apply parses_reads, parses_byte|]); cbv beta zeta;
    rewrite He1, He2, ?Hepz, ?Hepm by reflexivity; reflexivity.
Qed.

Lemma size_reads (b : bool) n pos :
  (N.of_nat n < two64N)%N ->
  reads n pos (if b then parse_size else tret 0%Z) (if b then uv_enc (N.of_nat n) else [])
        (if b then Z.of_N pos + Z.of_nat (length (uv_enc (N.of_nat n)) + n) else 0)%Z.
Proof.
  intros Hn. destruct b; [|apply reads_ret; reflexivity]. intros rest a Hk. unfold parse_size, tbind.
  destruct (parses_uv _ Hn rest pos a) as [a' E]. rewrite E. exists a'. cbn [s_in s_pos].
  destruct (N.ltb_spec (N.of_nat (length rest)) (N.of_nat n)); [lia|]. f_equal. lia.
Qed.

Lemma bbox_parses (b : bool) bb d :
  Forall i64pair bb -> length bb = d ->
  parses (if b then rd_svs (2 * d) else tret []) (if b then bbox_bytes bb else [])
         (if b then raw_bbox bb else []).
Proof.
  intros H Hl. destruct b; [|apply parses_ret]. destruct (raw_bbox_ok bb H) as [H1 H2].
  rewrite bbox_bytes_raw, <- Hl, <- H2. apply parses_svs, H1.
Qed.

Definition hdr_bytes (c : wcfg) (kind : N) (st : wst) (n : nat) : list N :=
  let bboxb := if w_bbox c then bbox_bytes (ws_bb st) else [] in
  [typeprec (w_pxy c) kind] ++ [meta_byte c] ++ (if w_hasext c then [ext_byte c] else []) ++
  (if w_size c then uv_enc (N.of_nat (length bboxb + n)) else []) ++ bboxb.

Lemma form_split c kind st contents :
  form c kind st contents = hdr_bytes c kind st (length contents) ++ contents.
Proof. unfold form, hdr_bytes. cbn [app]. rewrite <- !app_assoc. reflexivity. Qed.

Lemma headers_reads c kind st n pos :
  cfg_ok c -> (kind < 16)%N ->
  (w_hasids c = true -> ((kind =? 1) || (kind =? 2) || (kind =? 3))%N = false) ->
  wst_ok (dim (w_ct c)) st ->
  (Z.of_nat (length (hdr_bytes c kind st n) + n) < two63)%Z ->
  reads n pos parse_headers (hdr_bytes c kind st n)
        (hdr_of c kind st (if w_size c then Z.of_N pos + Z.of_nat (length (hdr_bytes c kind st n) + n) else 0)%Z).
Proof.
  intros [Hp [Hz [Hm Hids]]] Hk Hkid [Hs1 [Hs2 Hs3]] Hlen.
  destruct (typeprec_dec (w_pxy c) kind Hp Hk) as [Hk1 Hk2].
  destruct (meta_bits c) as [Hb1 [Hb2 [Hb4 [Hb8 Hb16]]]].
  unfold hdr_bytes in *. cbv zeta in *.
  set (bboxb := if w_bbox c then bbox_bytes (ws_bb st) else []) in *.
  set (extb := if w_hasext c then [ext_byte c] else []) in *.
  rewrite !app_length in Hlen. cbn [length] in Hlen.
  unfold parse_headers.
  eapply (reads_bind 0); [apply parses_reads, parses_byte| |lia]. cbv beta zeta. rewrite Hk1, Hk2.
  eapply (reads_bind 0); [apply parses_reads, parses_byte| |lia]. cbv beta zeta.
  rewrite Hb1, Hb2, Hb4, Hb8, Hb16.
  replace (w_hasids c && _) with false
    by (destruct (w_hasids c); [symmetry; apply Hkid; reflexivity|reflexivity]).
  eapply (reads_bind 0); [apply parses_reads, ext_parses; assumption| |lia]. cbv beta iota.
  eapply (reads_bind (length bboxb + n)); [apply size_reads; unfold two63, two64N in *; lia| |lia].
  eapply reads_map; [apply parses_reads, bbox_parses; assumption|].
  unfold hdr_of. f_equal. rewrite !app_length. cbn [length]. fold extb. destruct (w_size c); lia.
Qed.

(* ---- merging bounding boxes (fix F6) ---- *)
Definition mergeL (A B : list (Z * Z)) : list (Z * Z) :=
  map (fun ab => (Z.min (fst (fst ab)) (fst (snd ab)), Z.max (snd (fst ab)) (snd (snd ab)))) (combine A B).
Definition merge_opt (A B : option (list (Z * Z))) : option (list (Z * Z)) :=
  match A, B with
  | None, X => X
  | X, None => X
  | Some a, Some b => Some (mergeL a b)
  end.

Lemma bb_state_merge st sub : bb_state (merge_bb st sub) = merge_opt (bb_state st) (bb_state sub).
Proof.
  unfold merge_bb, bb_state. destruct (ws_valid sub); cbn [negb]; [|destruct (ws_valid st); reflexivity].
  cbn [ws_valid ws_bb]. destruct (ws_valid st); reflexivity.
Qed.

Lemma mergeL_step a : forall b p,
  mergeL a (map (fun x : Z * Z * Z => (Z.min (fst (fst x)) (snd x), Z.max (snd (fst x)) (snd x))) (combine b p)) =
  map (fun x : Z * Z * Z => (Z.min (fst (fst x)) (snd x), Z.max (snd (fst x)) (snd x))) (combine (mergeL a b) p).
Proof.
  unfold mergeL. induction a as [|m a IH]; intros [|n b] [|v p]; cbn [combine map]; try reflexivity.
  rewrite IH. f_equal. cbn [fst snd]. f_equal; lia.
Qed.

Lemma mergeL_single a : forall p,
  mergeL a (map (fun v : Z => (v, v)) p) =
  map (fun x : Z * Z * Z => (Z.min (fst (fst x)) (snd x), Z.max (snd (fst x)) (snd x))) (combine a p).
Proof.
  unfold mergeL. induction a as [|m a IH]; intros [|v p]; cbn [combine map]; try reflexivity.
  rewrite IH. reflexivity.
Qed.

Lemma merge_step A B p : merge_opt A (env_step B p) = env_step (merge_opt A B) p.
Proof.
  destruct A as [a|], B as [b|]; cbn [merge_opt env_step]; try reflexivity.
  - f_equal. apply mergeL_step.
  - f_equal. apply mergeL_single.
Qed.

Lemma fold_merge pts : forall A, merge_opt A (fold_left env_step pts None) = fold_left env_step pts A.
Proof.
  induction pts as [|p pts IH] using rev_ind; intros A.
  - cbn [fold_left]. destruct A; reflexivity.
  - rewrite !fold_left_app. cbn [fold_left]. rewrite merge_step, IH. reflexivity.
Qed.

Lemma merge_bb_ok d st sub : wst_ok d st -> wst_ok d sub -> wst_ok d (merge_bb st sub).
Proof.
  intros [H1 [H2 H3]] [G1 [G2 G3]]. unfold merge_bb.
  destruct (ws_valid sub); cbn [negb]; [|repeat split; assumption].
  unfold wst_ok. cbn [ws_ref ws_bb]. destruct (ws_valid st); cbn [negb].
  - split; [exact H1|]. split.
    + rewrite map_length, combine_length. lia.
    + clear H1 G1. revert H2 G2 H3 G3. generalize (ws_bb st) (ws_bb sub). intros a. revert d.
      induction a as [|m a IH]; intros d [|n b] Ha Hb Hfa Hfb; cbn [combine map]; constructor.
      * inversion Hfa as [|? ? [A1 [A2 A3]] _]; subst. inversion Hfb as [|? ? [B1 [B2 B3]] _]; subst.
        unfold i64pair, in_i64 in *. cbn [fst snd]. lia.
      * cbn [length] in *. apply (IH (pred d)); try lia; [inversion Hfa|inversion Hfb]; assumption.
  - repeat split; assumption.
Qed.

(* ---- the main statement ---- *)
Definition gpts (ct : ctype) (g : zgeom) : list (list Z) := map (vords ct) (geom_vs g).

Definition dec_ids (c : wcfg) (g : zgeom) : list Z :=
  if is_empty g then []
  else match g with
       | GMPoint _ _ | GMLine _ _ | GMPoly _ _ | GColl _ _ => w_ids c
       | _ => []
       end.

Definition ids_ok (c : wcfg) (g : zgeom) : Prop :=
  w_hasids c = true -> is_empty g = false ->
  match g with
  | GMPoint _ l => length (w_ids c) = length l
  | GMLine _ l => length (w_ids c) = length l
  | GMPoly _ l => length (w_ids c) = length l
  | GColl _ l => length (w_ids c) = length l
  | _ => False
  end.

Definition expected_hdr (c : wcfg) (g : zgeom) (st : wst) (doclen : nat) : thdr :=
  if is_empty g then empty_hdr c (kind_of (geom_type g))
  else hdr_of c (kind_of (geom_type g)) st (if w_size c then Z.of_nat doclen else 0%Z).

Definition gspec (c : wcfg) (g : zgeom) : Prop :=
  exists doc st, twrite c g = Ok (doc, st) /\ wst_ok (dim (w_ct c)) st /\ (2 <= length doc)%nat /\
    bb_state st = fold_left env_step (gpts (w_ct c) g) None /\
    forall fuel rest a, (length doc < fuel)%nat -> (Z.of_nat (length doc) < two63)%Z ->
      exists a', zrd_geom fuel {| s_in := doc ++ rest; s_pos := 0; s_alloc := a |} =
        TOk (tolerated g, expected_hdr c g st (length doc), dec_ids c g)
            {| s_in := rest; s_pos := N.of_nat (length doc); s_alloc := a' |}.

Lemma kind_lt t : (kind_of t < 16)%N.
Proof. destruct t; cbn; lia. Qed.

Lemma form_len c kind st contents : (2 + length contents <= length (form c kind st contents))%nat.
Proof. rewrite form_split, app_length. unfold hdr_bytes. cbn [app length]. lia. Qed.

(* headers followed by a body parser *)
Lemma glue c kind st contents (K : thdr -> TP (zgeom * thdr * list Z)) gres ids rest a :
  cfg_ok c -> (kind < 16)%N ->
  (w_hasids c = true -> ((kind =? 1) || (kind =? 2) || (kind =? 3))%N = false) ->
  wst_ok (dim (w_ct c)) st ->
  (Z.of_nat (length (form c kind st contents)) < two63)%Z ->
  (forall sz, parses (K (hdr_of c kind st sz)) contents (gres, hdr_of c kind st sz, ids)) ->
  exists a', tbind parse_headers K {| s_in := form c kind st contents ++ rest; s_pos := 0; s_alloc := a |} =
    TOk (gres, hdr_of c kind st (if w_size c then Z.of_nat (length (form c kind st contents)) else 0%Z), ids)
        {| s_in := rest; s_pos := N.of_nat (length (form c kind st contents)); s_alloc := a' |}.
Proof.
  intros Hc Hk Hkid Hst Hlen HK. rewrite form_split in *. rewrite app_length in Hlen.
  set (hb := hdr_bytes c kind st (length contents)) in *.
  assert (H : reads 0 0 (tbind parse_headers K) (hb ++ contents)
                (gres, hdr_of c kind st (if w_size c then Z.of_nat (length (hb ++ contents)) else 0%Z), ids)).
  { rewrite app_length. eapply reads_bind; [apply headers_reads; eassumption|apply parses_reads, HK|lia]. }
  exact (H rest a (Nat.le_0_l _)).
Qed.

Lemma init_ref d : ws_ref (init_wst d) = repeat 0%Z d.
Proof. reflexivity. Qed.

Lemma gspec_empty c g :
  (-8 <= w_pxy c <= 7)%Z -> geom_ct g = w_ct c -> is_empty g = true -> gspec c g.
Proof.
  intros Hp Hct He. unfold gspec.
  exists (empty_doc c (kind_of (geom_type g))), (init_wst (dim (w_ct c))).
  split; [|split; [apply init_wst_ok|split; [cbn; lia|split]]].
  - destruct g; cbn [twrite geom_ct is_empty]; cbn [geom_ct is_empty] in Hct, He;
      rewrite Hct, ct_eqb_refl; cbn [negb]; rewrite He; reflexivity.
  - unfold gpts. rewrite (Empty_proofs.empty_vs Z g He). reflexivity.
  - intros fuel rest a Hf _. destruct fuel as [|f]; [lia|]. cbn [rd_geom].
    destruct (empty_headers_spec c _ Hp (kind_lt (geom_type g)) rest 0%N a) as [a' E].
    exists a'. unfold tbind. rewrite E.
    unfold tolerated, expected_hdr, dec_ids. rewrite He.
    cbn [h_kind h_empty empty_hdr h_ct h_hasz h_hasm mk_ct].
    destruct g; cbn [geom_type kind_of plain_empty]; unfold tret; reflexivity.
Qed.

Lemma gspec_form c g st body :
  cfg_ok c -> is_empty g = false ->
  (w_hasids c = true -> (4 <= kind_of (geom_type g))%N) ->
  twrite c g = Ok (form c (kind_of (geom_type g)) st body, st) ->
  wst_ok (dim (w_ct c)) st -> bb_state st = fold_left env_step (gpts (w_ct c) g) None ->
  (forall f, (length body < f)%nat -> (Z.of_nat (length body) < two63)%Z ->
     exists K, zrd_geom (S f) = tbind parse_headers K /\
       forall sz, let h := hdr_of c (kind_of (geom_type g)) st sz in
                  parses (K h) body (tol_member g, h, dec_ids c g)) ->
  gspec c g.
Proof.
  intros Hc He Hkid Htw Hst Hbb Hrd. pose proof (form_len c (kind_of (geom_type g)) st body) as Hl.
  exists (form c (kind_of (geom_type g)) st body), st.
  split; [exact Htw|]. split; [exact Hst|]. split; [lia|]. split; [exact Hbb|].
  intros fuel rest a Hf H63. destruct fuel as [|f]; [lia|].
  destruct (Hrd f ltac:(lia) ltac:(lia)) as [K [EK HK]]. rewrite EK.
  unfold tolerated, expected_hdr. rewrite He.
  apply glue; try assumption; [apply kind_lt|].
  intros Hh. specialize (Hkid Hh). clear - Hkid. lia.
Qed.

Lemma gspec_point c p :
  cfg_ok c -> ids_ok c (GPoint p) -> point_ok (Z.eqb 0) (w_ct c) p = true ->
  is_empty (GPoint p) = false ->
  match point_c p with None => true | Some v => vtx_i64 v end = true -> gspec c (GPoint p).
Proof.
  intros Hc Hnoid Hok Hne Hdom.
  assert (Hpc : match point_c p with None => false | Some v => vtx_i64 v end = true).
  { destruct p as [c' [v|]]; cbn in *; [exact Hdom|discriminate]. }
  destruct (point_wspec _ p Hok Hpc _ (init_wst_ok _)) as [bs [st [E [Hst [_ [Hbb Hpar]]]]]].
  apply (gspec_form c (GPoint p) st bs); try assumption.
  - intros Hh. destruct (Hnoid Hh Hne).
  - cbn [twrite geom_ct geom_type kind_of]. rewrite (point_ok_ct _ _ _ _ Hok), ct_eqb_refl. cbn [negb].
    rewrite Hne. unfold wr_mpoint_member in E. destruct (point_c p) as [v|]; [|discriminate].
    rewrite E. reflexivity.
  - rewrite Hbb. unfold gpts. cbn [geom_vs]. unfold point_vs. destruct (point_c p); reflexivity.
  - intros f Hf H63. eexists. split; [reflexivity|]. intros sz h. cbv beta zeta. cbn [h_kind hdr_of h_empty].
    unfold dec_ids. cbn [tol_member]. rewrite Hne.
    eapply parses_map; [apply (Hpar h f); [reflexivity|exact Hf|exact H63]|reflexivity].
Qed.

Lemma gspec_line c l :
  cfg_ok c -> ids_ok c (GLine l) -> line_ok (Z.eqb 0) (w_ct c) l = true ->
  is_empty (GLine l) = false -> line_dom l = true -> gspec c (GLine l).
Proof.
  intros Hc Hnoid Hok Hne Hdom.
  destruct (line_wspec _ l Hok Hdom _ (init_wst_ok _)) as [bs [st [E [Hst [_ [Hbb Hpar]]]]]].
  apply (gspec_form c (GLine l) st bs); try assumption.
  - intros Hh. destruct (Hnoid Hh Hne).
  - cbn [twrite geom_ct geom_type kind_of]. rewrite (line_ok_ct _ _ _ _ Hok), ct_eqb_refl. cbn [negb].
    rewrite Hne, E. reflexivity.
  - intros f Hf H63. eexists. split; [reflexivity|]. intros sz h. cbv beta zeta. cbn [h_kind hdr_of h_empty].
    unfold dec_ids. cbn [tol_member]. rewrite Hne.
    eapply parses_map; [apply (Hpar h f); [reflexivity|exact Hf|exact H63]|reflexivity].
Qed.

Lemma poly_gpts ct p : poly_ptsof ct p = map (vords ct) (poly_vs p).
Proof. unfold poly_ptsof, poly_vs, ring_ptsof. rewrite map_flat_map. reflexivity. Qed.

Lemma gspec_poly c p :
  cfg_ok c -> ids_ok c (GPoly p) -> poly_ok (Z.eqb 0) (w_ct c) p = true ->
  is_empty (GPoly p) = false -> poly_dom (ring_dom (w_close c)) p = true -> gspec c (GPoly p).
Proof.
  intros Hc Hnoid Hok Hne Hdom.
  destruct (poly_wspec _ _ p Hok Hdom _ (init_wst_ok _)) as [bs [st [E [Hst [_ [Hbb Hpar]]]]]].
  apply (gspec_form c (GPoly p) st bs); try assumption.
  - intros Hh. destruct (Hnoid Hh Hne).
  - cbn [twrite geom_ct geom_type kind_of]. rewrite (poly_ok_ct _ _ _ _ Hok), ct_eqb_refl. cbn [negb].
    rewrite Hne, E. reflexivity.
  - rewrite Hbb. unfold gpts. cbn [geom_vs]. rewrite poly_gpts. reflexivity.
  - intros f Hf H63. eexists. split; [reflexivity|]. intros sz h. cbv beta zeta. cbn [h_kind hdr_of h_empty].
    unfold dec_ids. cbn [tol_member]. rewrite Hne.
    eapply parses_map; [apply (Hpar h f); [reflexivity|exact Hf|exact H63]|reflexivity].
Qed.

Lemma multi_body {A B C} c k (f : wst -> A -> outcome (list N * wst)) step rf (T : A -> B) pts_of (l : list A) :
  Forall in_i64 (w_ids c) -> (1 <= k)%nat -> cnt_ok l = true ->
  (w_hasids c = true -> length (w_ids c) = length l) ->
  Forall (mspec (w_ct c) k f step rf T pts_of) l ->
  exists idb bs st,
    wr_ids c (length l) = Ok idb /\ wr_seq f (init_wst (dim (w_ct c))) l = Ok (bs, st) /\
    wst_ok (dim (w_ct c)) st /\ bb_state st = fold_left env_step (flat_map pts_of l) None /\
    forall h fu (g : list B -> list Z -> C), h_ct h = w_ct c ->
      (length bs < fu)%nat -> (Z.of_nat (length bs) < two63)%Z ->
      parses (doT ci <- count_and_ids (w_hasids c) k;
              doT r <- tloop_in (fst ci) (step h fu) (rf (init_wst (dim (w_ct c))));
              tret (g (fst r) (snd ci)))
             (count_bytes l ++ idb ++ bs) (g (map T l) (w_ids c)).
Proof.
  intros Hi Hk Hcnt Hlen HF.
  destruct (wr_seq_spec _ k f step rf T pts_of Hk l _ HF (init_wst_ok _)) as [bs [st [E [Hst [Hn [Hbb Hpar]]]]]].
  destruct (ids_spec c (length l) k Hk Hcnt Hi Hlen) as [idb [Eids Hrd]].
  exists idb, bs, st. split; [exact Eids|]. split; [exact E|]. split; [exact Hst|]. split; [exact Hbb|].
  intros h fu g Hh Hf H63. unfold count_bytes. rewrite app_assoc. apply parses_reads. intros k' pos.
  eapply reads_bind; [apply Hrd| |lia]. cbn [fst snd]. apply parses_reads.
  eapply parses_map; [apply Hpar; assumption|reflexivity].
Qed.

Lemma gspec_multi {A B} c (g : zgeom) k (f : wst -> A -> outcome (list N * wst)) step rf (T : A -> B) pts_of l
      (newf : list B -> zgeom) :
  cfg_ok c -> is_empty g = false -> (4 <= kind_of (geom_type g))%N -> (1 <= k)%nat -> cnt_ok l = true ->
  (w_hasids c = true -> length (w_ids c) = length l) ->
  Forall (mspec (w_ct c) k f step rf T pts_of) l ->
  twrite c g = (do ids <- wr_ids c (length l);
                do (bs, st) <- wr_seq f (init_wst (dim (w_ct c))) l;
                Ok (form c (kind_of (geom_type g)) st (count_bytes l ++ ids ++ bs), st)) ->
  gpts (w_ct c) g = flat_map pts_of l -> dec_ids c g = w_ids c -> tol_member g = newf (map T l) ->
  (forall fu, exists K, zrd_geom (S fu) = tbind parse_headers K /\
     forall st sz, let h := hdr_of c (kind_of (geom_type g)) st sz in
       K h = doT ci <- count_and_ids (w_hasids c) k;
             doT r <- tloop_in (fst ci) (step h fu) (rf (init_wst (dim (w_ct c))));
             tret (newf (fst r), h, snd ci)) ->
  gspec c g.
Proof.
  intros Hc Hne Hkind Hk Hcnt Hlen HF Htw Hpts Hids Htol Hrd.
  destruct (multi_body (C := zgeom * thdr * list Z) c k f step rf T pts_of l (proj2 (proj2 (proj2 Hc))) Hk Hcnt Hlen HF)
    as [idb [bs [st [Eids [E [Hst [Hbb Hpar]]]]]]].
  apply (gspec_form c g st (count_bytes l ++ idb ++ bs)); try assumption.
  - intros _. exact Hkind.
  - rewrite Htw, Eids. cbn [bind]. rewrite E. reflexivity.
  - rewrite Hbb, Hpts. reflexivity.
  - intros fu Hf H63. rewrite !app_length in Hf, H63. destruct (Hrd fu) as [K [EK HK]].
    exists K. split; [exact EK|]. intros sz h. unfold h. rewrite (HK st sz), Hids, Htol.
    apply (Hpar h fu (fun xs ids => (newf xs, h, ids))); [reflexivity|lia|lia].
Qed.

Lemma gspec_mline c ls :
  cfg_ok c -> forallb (line_ok (Z.eqb 0) (w_ct c)) ls = true -> is_empty (GMLine (w_ct c) ls) = false ->
  cnt_ok ls = true -> forallb line_dom ls = true -> ids_ok c (GMLine (w_ct c) ls) ->
  gspec c (GMLine (w_ct c) ls).
Proof.
  intros Hc Hoks Hne Hcnt Hdoms Hids.
  apply (gspec_multi c _ 1 (wr_line (w_ct c)) (fun h _ => znext_line h) ws_ref (fun l => l)
           (fun l => map (vords (w_ct c)) (line_vs l)) ls (new_multiline 0%Z));
    try assumption; try exact (fun Hh => Hids Hh Hne).
  - cbn. lia.
  - lia.
  - exact (forallb2_Forall _ _ _ ls (line_wspec (w_ct c)) Hoks Hdoms).
  - cbn [twrite geom_ct geom_type kind_of]. rewrite ct_eqb_refl, Hne. reflexivity.
  - unfold gpts. cbn [geom_vs]. apply map_flat_map.
  - unfold dec_ids. rewrite Hne. reflexivity.
  - cbn [tol_member]. rewrite Hne, map_id. symmetry.
    apply znew_multiline_id; [intros ->; discriminate|exact Hoks].
  - intros fu. eexists. split; [reflexivity|]. intros st sz. reflexivity.
Qed.

Lemma gspec_mpoly c ps :
  cfg_ok c -> forallb (poly_ok (Z.eqb 0) (w_ct c)) ps = true -> is_empty (GMPoly (w_ct c) ps) = false ->
  cnt_ok ps = true -> forallb (poly_dom (ring_dom (w_close c))) ps = true -> ids_ok c (GMPoly (w_ct c) ps) ->
  gspec c (GMPoly (w_ct c) ps).
Proof.
  intros Hc Hoks Hne Hcnt Hdoms Hids.
  apply (gspec_multi c _ 1 (wr_poly (w_close c) (w_ct c)) (fun h _ => znext_poly h) ws_ref (fun p => p)
           (poly_ptsof (w_ct c)) ps (new_multipoly 0%Z));
    try assumption; try exact (fun Hh => Hids Hh Hne).
  - cbn. lia.
  - lia.
  - exact (forallb2_Forall _ _ _ ps (poly_wspec (w_close c) (w_ct c)) Hoks Hdoms).
  - cbn [twrite geom_ct geom_type kind_of]. rewrite ct_eqb_refl, Hne. reflexivity.
  - unfold gpts. cbn [geom_vs]. rewrite map_flat_map. apply flat_map_ext. intros p. symmetry. apply poly_gpts.
  - unfold dec_ids. rewrite Hne. reflexivity.
  - cbn [tol_member]. rewrite Hne, map_id. symmetry.
    apply znew_multipoly_id; [intros ->; discriminate|exact Hoks].
  - intros fu. eexists. split; [reflexivity|]. intros st sz. reflexivity.
Qed.

Lemma gspec_mpoint c ps :
  cfg_ok c -> forallb (point_ok (Z.eqb 0) (w_ct c)) ps = true -> is_empty (GMPoint (w_ct c) ps) = false ->
  cnt_ok ps = true ->
  forallb point_empty ps || forallb (fun p => match point_c p with None => false | Some v => vtx_i64 v end) ps = true ->
  ids_ok c (GMPoint (w_ct c) ps) -> gspec c (GMPoint (w_ct c) ps).
Proof.
  intros Hc Hoks Hne Hcnt Hdoms Hids.
  pose proof Hne as Hne'. cbn [is_empty] in Hne'. rewrite Hne' in Hdoms. cbn [orb] in Hdoms.
  apply (gspec_multi c _ (dim (w_ct c)) (wr_mpoint_member (w_ct c)) (fun h _ => znext_point h) ws_ref (fun p => p)
           (fun p => match point_c p with Some v => [vords (w_ct c) v] | None => [] end) ps (new_multipoint 0%Z));
    try assumption; try exact (fun Hh => Hids Hh Hne).
  - cbn. lia.
  - apply dim_pos.
  - exact (forallb2_Forall _ _ _ ps (point_wspec (w_ct c)) Hoks Hdoms).
  - cbn [twrite geom_ct geom_type kind_of]. rewrite ct_eqb_refl, Hne. reflexivity.
  - unfold gpts. cbn [geom_vs]. rewrite map_flat_map. apply flat_map_ext. intros p.
    unfold point_vs. destruct (point_c p); reflexivity.
  - unfold dec_ids. rewrite Hne. reflexivity.
  - cbn [tol_member]. rewrite Hne, map_id. symmetry.
    apply znew_multipoint_id; [intros ->; discriminate|exact Hoks].
  - intros fu. eexists. split; [reflexivity|]. intros st sz. reflexivity.
Qed.

(* collections: each member is a document of its own, written from a fresh state whose box
   is merged into the collection's, and read by a sub-parser that restarts at position 0 *)
Definition wr_child (c : wcfg) (st : wst) (x : zgeom) : outcome (list N * wst) :=
  do (b, s) <- twrite (sub_cfg c) x; Ok (b, merge_bb st s).

Lemma twrite_coll c ct' gs :
  twrite c (GColl ct' gs) =
  if negb (ct_eqb ct' (w_ct c)) then Err ECollDims
  else if is_empty (GColl ct' gs) then Ok (empty_doc c 7%N, init_wst (dim (w_ct c)))
  else do ids <- wr_ids c (length gs);
       do (bs, st) <- wr_seq (wr_child c) (init_wst (dim (w_ct c))) gs;
       Ok (form c 7%N st (count_bytes gs ++ ids ++ bs), st).
Proof.
  cbn [twrite geom_ct geom_type kind_of].
  destruct (negb (ct_eqb ct' (w_ct c))); [reflexivity|].
  destruct (is_empty (GColl ct' gs)); [reflexivity|].
  destruct (wr_ids c (length gs)); cbn [bind]; try reflexivity.
  match goal with |- bind (?F _ gs) _ = _ => assert (HE : forall l st, F st l = wr_seq (wr_child c) st l) end.
  { induction l as [|x l IH]; intros st; cbn [wr_seq]; [reflexivity|]. unfold wr_child at 1.
    destruct (twrite (sub_cfg c) x) as [[b1 s1]| |]; cbn [bind]; try reflexivity.
    rewrite IH. reflexivity. }
  rewrite HE. reflexivity.
Qed.

Definition stepf (f : nat) (ct : ctype) : list Z -> TP (zgeom * list Z) := fun (_ : list Z) (s : pst) =>
  match zrd_geom f {| s_in := s_in s; s_pos := 0; s_alloc := s_alloc s |} with
  | TOk (g, hs, _) s' =>
      TOk (if h_empty hs then force_geom 0%Z ct g else g, [])
          {| s_in := s_in s'; s_pos := (s_pos s + s_pos s')%N; s_alloc := s_alloc s' |}
  | TErr e a => TErr e a
  | TPanic p a => TPanic p a
  end.

Definition tol_child (ct : ctype) (x : zgeom) : zgeom :=
  if is_empty x then force_geom 0%Z ct (tolerated x) else tolerated x.

Lemma sub_cfg_ok c : cfg_ok c -> cfg_ok (sub_cfg c).
Proof. intros [H1 [H2 [H3 H4]]]. unfold cfg_ok, sub_cfg. cbn. repeat split; try lia; try constructor. Qed.

Lemma child_mspec c x : gspec (sub_cfg c) x ->
  mspec (w_ct c) 2 (wr_child c) (fun h fu => stepf fu (h_ct h)) (fun _ => []) (tol_child (w_ct c)) (gpts (w_ct c)) x.
Proof.
  intros [doc [cst [E [Hcst [Hl [Hbb Hdec]]]]]] st Hst. exists doc, (merge_bb st cst). unfold wr_child. rewrite E.
  split; [reflexivity|]. split; [apply merge_bb_ok; assumption|]. split; [exact Hl|]. split.
  - rewrite bb_state_merge, Hbb. apply fold_merge.
  - intros h fu -> Hf H63 rest pos a. unfold stepf. cbn [s_in s_alloc s_pos].
    destruct (Hdec fu rest a Hf H63) as [a' Ed]. rewrite Ed. exists a'.
    unfold tol_child, expected_hdr. destruct (is_empty x); cbn [h_empty empty_hdr hdr_of]; reflexivity.
Qed.

Lemma plain_empty_ok ct t : geom_ok (Z.eqb 0) ct (plain_empty t ct) = true.
Proof. destruct t; cbn; rewrite ct_eqb_refl; reflexivity. Qed.

Lemma force_plain ct t : force_geom 0%Z ct (plain_empty t XY) = plain_empty t ct.
Proof. destruct t; reflexivity. Qed.

Lemma tol_member_ok ct : forall x : zgeom, geom_ok (Z.eqb 0) ct x = true -> geom_ok (Z.eqb 0) ct (tol_member x) = true.
Proof.
  induction x as [p|l|p|c ps|c ls|c ps|c gs IH] using geomT_ind'; intros H;
    pose proof (geom_ok_ct _ _ _ _ H) as Hct.
  1-6: (cbn [tol_member]; match goal with |- context [is_empty ?g] => destruct (is_empty g) end;
        [rewrite Hct; apply plain_empty_ok|exact H]).
  cbn [tol_member]. destruct (is_empty (GColl c gs)); [rewrite Hct; apply plain_empty_ok|].
  cbn [geom_ok] in *. apply andb_true_iff in H. destruct H as [H1 H2]. rewrite H1. cbn [andb].
  apply forallb_Forall'. apply Forall_map. apply forallb_Forall' in H2.
  rewrite Forall_forall in *. intros x Hx. apply IH; [exact Hx|apply H2; exact Hx].
Qed.

Lemma tol_child_member ct x : geom_ok (Z.eqb 0) ct x = true -> tol_child ct x = tol_member x.
Proof.
  intros H. pose proof (geom_ok_ct _ _ _ _ H) as Hct.
  unfold tol_child, tolerated. destruct x; cbn [tol_member];
    match goal with |- context [is_empty ?g] => destruct (is_empty g) eqn:E end; try reflexivity;
    rewrite force_plain, Hct; reflexivity.
Qed.

Lemma gspec_coll c gs :
  cfg_ok c -> forallb (geom_ok (Z.eqb 0) (w_ct c)) gs = true -> is_empty (GColl (w_ct c) gs) = false ->
  cnt_ok gs = true -> ids_ok c (GColl (w_ct c) gs) -> Forall (gspec (sub_cfg c)) gs ->
  gspec c (GColl (w_ct c) gs).
Proof.
  intros Hc Hoks Hne Hcnt Hids HF. apply forallb_Forall' in Hoks.
  apply (gspec_multi c _ 2 (wr_child c) (fun h fu => stepf fu (h_ct h)) (fun _ => []) (tol_child (w_ct c))
           (gpts (w_ct c)) gs (new_collection 0%Z));
    try assumption; try exact (fun Hh => Hids Hh Hne).
  - cbn. lia.
  - lia.
  - eapply Forall_impl; [|exact HF]. apply child_mspec.
  - rewrite twrite_coll, ct_eqb_refl, Hne. reflexivity.
  - unfold gpts at 1. cbn [geom_vs]. apply map_flat_map.
  - unfold dec_ids. rewrite Hne. reflexivity.
  - cbn [tol_member]. rewrite Hne.
    rewrite (map_ext_in _ _ gs (fun x Hx => tol_child_member _ x (proj1 (Forall_forall _ _) Hoks x Hx))).
    symmetry. apply znew_collection_id.
    + destruct gs; [discriminate Hne|discriminate].
    + apply forallb_Forall', Forall_map. eapply Forall_impl; [|exact Hoks]. intros x. apply tol_member_ok.
  - intros fu. eexists. split; [reflexivity|]. intros st sz. reflexivity.
Qed.

(* the induction over nested geometries *)
Theorem twrite_gspec : forall (g : zgeom) c,
  cfg_ok c -> geom_ok (Z.eqb 0) (w_ct c) g = true ->
  geom_dom (ring_dom (w_close c)) g = true -> ids_ok c g -> gspec c g.
Proof.
  induction g as [p|l|p|ct' ps|ct' ls|ct' ps|ct' gs IH] using geomT_ind'; intros c Hc Hok Hdom Hids;
    pose proof (geom_ok_ct _ _ _ _ Hok) as Hct;
    pose proof Hc as [Hc1 _];
    match goal with |- gspec _ ?g => destruct (is_empty g) eqn:He end;
    try (apply gspec_empty; assumption).
  4-7: (cbn [geom_ok geom_dom] in Hok, Hdom; apply andb_true_iff in Hok, Hdom;
        destruct Hok as [Hct' Hoks], Hdom as [Hcnt Hdoms]; apply ct_eqb_eq in Hct'; subst ct').
  - apply gspec_point; assumption.
  - apply gspec_line; assumption.
  - apply gspec_poly; assumption.
  - apply gspec_mpoint; assumption.
  - apply gspec_mline; assumption.
  - apply gspec_mpoly; assumption.
  - apply gspec_coll; try assumption.
    apply forallb_Forall' in Hoks. apply forallb_Forall' in Hdoms.
    rewrite Forall_forall in *. intros x Hx.
    apply IH; [exact Hx|apply sub_cfg_ok; exact Hc|apply Hoks; exact Hx|apply Hdoms; exact Hx|].
    intros H. discriminate H.
Qed.

(* ---- from MarshalTWKB's options to the writer ---- *)
Definition cfg_of (o : topts) (g : zgeom) : wcfg :=
  let ct := geom_ct g in
  {| w_hasz := has_z ct; w_hasm := has_m ct; w_pxy := o_pxy o;
     w_pz := if has_z ct then match o_pz o with Some z => z | None => o_pxy o end else 0%Z;
     w_pm := if has_m ct then match o_pm o with Some m => m | None => o_pxy o end else 0%Z;
     w_size := o_size o; w_bbox := o_bbox o; w_close := o_close o; w_ids := o_ids o |}.

Lemma cfg_of_ct o g : w_ct (cfg_of o g) = geom_ct g.
Proof. unfold w_ct, cfg_of. cbn. apply mk_ct_eta. Qed.

Lemma prec_bad_false lo p : prec_bad lo p = false -> (lo <= p <= 7)%Z.
Proof. unfold prec_bad. intros H. apply orb_false_iff in H. lia. Qed.

(* a non-empty geometry of the domain has a vertex *)
Lemma nonempty_has_vs rp : (forall l, rp l = true -> line_vs l <> []) ->
  forall g : zgeom, geom_dom rp g = true -> is_empty g = false -> geom_vs g <> [].
Proof.
  intros Hrp.
  assert (Hfm : forall {A} (e : A -> bool) (vs : A -> list (vtx Z)) l,
             (forall x, In x l -> e x = false -> vs x <> []) -> forallb e l = false -> flat_map vs l <> []).
  { intros A e vs l H. induction l as [|x l IH]; cbn [forallb flat_map]; intros Hl; [discriminate|].
    destruct (e x) eqn:Ex.
    - cbn [andb] in Hl. intros E. apply app_eq_nil in E. destruct E as [_ E]. revert E.
      apply IH; [intros y Hy; apply H; right; exact Hy|exact Hl].
    - intros E. apply app_eq_nil in E. destruct E as [E _]. revert E. apply H; [left; reflexivity|exact Ex]. }
  assert (Hpoly : forall p : polyT Z, poly_dom rp p = true -> poly_empty p = false -> poly_vs p <> []).
  { intros [c' rs] Hd He. unfold poly_dom in Hd. cbn [poly_rings] in Hd.
    apply andb_true_iff in Hd. destruct Hd as [_ Hd]. unfold poly_vs. cbn [poly_rings].
    destruct rs as [|r rs]; [cbn in He; discriminate|]. cbn [flat_map forallb] in *.
    apply andb_true_iff in Hd. destruct Hd as [Hr _]. intros E. apply app_eq_nil in E.
    destruct E as [E _]. exact (Hrp r Hr E). }
  induction g as [p|l|p|c ps|c ls|c ps|c gs IH] using geomT_ind'; cbn [is_empty geom_vs geom_dom]; intros Hd He.
  - destruct p as [c' [v|]]; cbn in *; [discriminate|discriminate].
  - destruct l as [c' [|v vs]]; cbn in *; [discriminate|discriminate].
  - apply Hpoly; assumption.
  - apply (Hfm _ (@point_empty Z)); [|exact He]. intros [c' [v|]] _; cbn; [discriminate|discriminate].
  - apply (Hfm _ (@line_empty Z)); [|exact He]. intros [c' [|v vs]] _; cbn; [discriminate|discriminate].
  - apply andb_true_iff in Hd. destruct Hd as [_ Hd].
    apply (Hfm _ (@poly_empty Z)); [|exact He]. intros p Hp Hpe. apply Hpoly; [|exact Hpe].
    apply forallb_Forall' in Hd. rewrite Forall_forall in Hd. apply Hd. exact Hp.
  - apply andb_true_iff in Hd. destruct Hd as [_ Hd].
    apply (Hfm _ (@is_empty Z)); [|exact He]. intros x Hx Hxe.
    rewrite Forall_forall in IH. apply IH; [exact Hx| |exact Hxe].
    apply forallb_Forall' in Hd. rewrite Forall_forall in Hd. apply Hd. exact Hx.
Qed.

Lemma ring_dom_nonempty close l : ring_dom close l = true -> line_vs l <> [].
Proof.
  unfold ring_dom. intros H. apply andb_true_iff in H. destruct H as [_ H].
  destruct (line_vs l); [discriminate|discriminate].
Qed.

Lemma fold_env_some l : l <> [] -> forall A, exists mm, fold_left env_step l A = Some mm.
Proof.
  induction l as [|p l IH]; intros Hne A; [congruence|]. cbn [fold_left].
  destruct l as [|q l].
  - cbn [fold_left]. destruct A; cbn [env_step]; eexists; reflexivity.
  - apply IH. discriminate.
Qed.

Lemma dom_env close g :
  geom_dom (ring_dom close) g = true -> is_empty g = false -> exists mm, env_of (geom_pts g) = Some mm.
Proof.
  intros Hd He. apply fold_env_some. intros E. apply map_eq_nil in E. revert E.
  apply (nonempty_has_vs (ring_dom close)); [apply ring_dom_nonempty|exact Hd|exact He].
Qed.

Lemma bbox_pairs_raw mm : Forall i64pair mm -> bbox_pairs (length mm) (raw_bbox mm) = Ok mm.
Proof.
  induction 1 as [|m mm [H1 [H2 H3]] HF IH]; [reflexivity|].
  cbn [length raw_bbox flat_map app bbox_pairs]. fold (raw_bbox mm). rewrite IH. cbn [bind].
  destruct m as [mn mx]. cbn [fst snd] in *. rewrite wrap64_delta by exact H2.
  f_equal. f_equal. f_equal; lia.
Qed.

Lemma opts_cfg_ok o g : opts_dom o g = true -> cfg_ok (cfg_of o g) /\ ids_ok (cfg_of o g) g /\
  match o_ids o, geom_type g with
  | _ :: _, (TPoint | TLine | TPoly) => true
  | _, _ => false
  end = false /\
  match o_ids o with
  | [] => false
  | ids => negb (Nat.eqb (member_count g) (length ids))
  end = false.
Proof.
  unfold opts_dom. intros H.
  apply andb_true_iff in H. destruct H as [H Hm].
  apply andb_true_iff in H. destruct H as [H Hi].
  apply andb_true_iff in H. destruct H as [H Hpm].
  apply andb_true_iff in H. destruct H as [Hpxy Hpz].
  apply negb_true_iff in Hpxy, Hpz, Hpm.
  apply prec_bad_false in Hpxy, Hpz, Hpm. unfold prec_of in *.
  split; [|split; [|split]].
  - unfold cfg_ok, cfg_of. cbn [w_pxy w_pz w_pm w_ids]. repeat split; try lia.
    apply forallb_Forall' in Hi. eapply Forall_impl; [|exact Hi]. intros x Hx. apply in_i64b_iff. exact Hx.
  - unfold ids_ok, cfg_of, w_hasids. cbn [w_ids]. intros Hh He.
    destruct (o_ids o) as [|i ids]; [discriminate|].
    destruct g; try discriminate; cbn [member_count] in Hm; apply Nat.eqb_eq in Hm; symmetry; exact Hm.
  - destruct (o_ids o) as [|i ids]; [reflexivity|]. destruct g; try discriminate; reflexivity.
  - destruct (o_ids o) as [|i ids]; [reflexivity|]. destruct g; try discriminate; rewrite Hm; reflexivity.
Qed.

Lemma info_expected o g st len :
  opts_dom o g = true -> geom_dom (ring_dom (o_close o)) g = true ->
  bb_state st = env_of (geom_pts g) ->
  info_of (expected_hdr (cfg_of o g) g st len) (dec_ids (cfg_of o g) g) = expected_info o g len.
Proof.
  intros Ho Hd Hbb. unfold expected_hdr, expected_info, dec_ids.
  destruct (is_empty g) eqn:He.
  - unfold info_of, empty_hdr. cbn. reflexivity.
  - unfold info_of, hdr_of, h_ct. cbn [h_kind h_pxy h_hasz h_hasm h_pz h_pm h_empty h_hassize h_size
                                      h_hasbbox h_bbox h_hasids cfg_of w_hasz w_hasm w_pxy w_pz w_pm
                                      w_size w_bbox w_ids].
    rewrite mk_ct_eta.
    f_equal; try (destruct (has_z (geom_ct g)); reflexivity);
      try (destruct (has_m (geom_ct g)); reflexivity); try (destruct (o_size o); reflexivity).
    + destruct (o_bbox o); [|reflexivity].
      destruct (dom_env _ g Hd He) as [mm Emm]. rewrite Emm in *.
      unfold bb_state in Hbb. destruct (ws_valid st); [|discriminate]. inversion Hbb; subst mm.
      reflexivity.
    + destruct (opts_cfg_ok o g Ho) as [_ [_ [Hm _]]].
      unfold w_hasids, cfg_of. cbn [w_ids]. destruct (o_ids o) as [|i ids] eqn:Ei; [reflexivity|].
      destruct g; cbn [geom_type] in Hm; try discriminate; reflexivity.
Qed.

Lemma wf_dom o g : wf_twkb o g = true -> geom_dom (ring_dom (o_close o)) g = true.
Proof. unfold wf_twkb. rewrite !andb_true_iff. tauto. Qed.

Lemma tmarshal_spec o g :
  wf_twkb o g = true ->
  exists b st, tmarshal o g = Ok b /\ wst_ok (dim (geom_ct g)) st /\ bb_state st = env_of (geom_pts g) /\
    ((Z.of_nat (length b) < two63)%Z ->
     tdec b = Ok (tolerated g, info_of (expected_hdr (cfg_of o g) g st (length b)) (dec_ids (cfg_of o g) g))).
Proof.
  intros H. pose proof (wf_dom o g H) as Hd. unfold wf_twkb in H.
  apply andb_true_iff in H. destruct H as [H Ho]. apply andb_true_iff in H. destruct H as [Hcons _].
  destruct (opts_cfg_ok o g Ho) as [Hc [Hids [Hm Hm2]]].
  unfold consistent in Hcons. rewrite <- (cfg_of_ct o g) in Hcons at 1.
  destruct (twrite_gspec g (cfg_of o g) Hc Hcons Hd Hids) as [doc [st [E [Hst [Hl [Hbb Hdec]]]]]].
  rewrite cfg_of_ct in Hst, Hbb.
  exists doc, st. split; [|split; [exact Hst|split; [exact Hbb|]]].
  - unfold tmarshal. destruct Hc as [Hc1 [Hc2 [Hc3 _]]]. cbn [cfg_of w_pxy w_pz w_pm] in Hc1, Hc2, Hc3.
    assert (Hp : prec_bad (-8) (o_pxy o) = false) by (unfold prec_bad; lia).
    rewrite Hp. cbn [orb].
    match goal with |- (if prec_bad 0 ?a || prec_bad 0 ?b then _ else _) = _ =>
      assert (Hp2 : prec_bad 0 a = false) by (unfold prec_bad; lia);
      assert (Hp3 : prec_bad 0 b = false) by (unfold prec_bad; lia) end.
    rewrite Hp2, Hp3. cbn [orb]. rewrite Hm, Hm2.
    change (twrite _ g) with (twrite (cfg_of o g) g). rewrite E. reflexivity.
  - intros H63. unfold tdec, tdec_full, dec_full.
    destruct (Hdec (S (length doc)) [] 0%N ltac:(lia) H63) as [a' Ed].
    rewrite app_nil_r in Ed. rewrite Ed. reflexivity.
Qed.

Theorem twkb_roundtrip_lemma o g :
  wf_twkb o g = true ->
  exists b, tmarshal o g = Ok b /\
    ((Z.of_nat (length b) < two63)%Z ->
     tdec b = Ok (tolerated g, expected_info o g (length b))).
Proof.
  intros H. destruct (tmarshal_spec o g H) as [b [st [E [_ [Hbb Hdec]]]]].
  exists b. split; [exact E|]. intros H63. rewrite (Hdec H63), (info_expected o g st).
  - reflexivity.
  - unfold wf_twkb in H. rewrite !andb_true_iff in H. tauto.
  - apply wf_dom. exact H.
  - exact Hbb.
Qed.

(* ---- header-only readers agree with the full decode, for every byte string ---- *)
Definition env_view (i : tinfo) : outcome (option (ctype * list (Z * Z))) :=
  match i_bbox i with
  | None => Ok None
  | Some l => do ps <- bbox_pairs (dim (i_ct i)) l; Ok (Some (i_ct i, ps))
  end.

Lemma tbind_ok {A B} (m : TP A) (f : A -> TP B) s b s' :
  tbind m f s = TOk b s' -> exists a s1, m s = TOk a s1 /\ f a s1 = TOk b s'.
Proof. unfold tbind. destruct (m s) as [a s1| |]; try discriminate. eauto. Qed.

Lemma count_ids_inv k s n ids s' :
  count_and_ids true k s = TOk (n, ids) s' ->
  exists cnt s1 s2, rd_uv s = TOk cnt s1 /\ parse_ids cnt s1 = TOk ids s2.
Proof.
  unfold count_and_ids. intros H.
  apply tbind_ok in H. destruct H as [cnt [s1 [E1 H]]].
  apply tbind_ok in H. destruct H as [ids' [s2 [E2 H]]].
  apply tbind_ok in H. destruct H as [u [s3 [E3 H]]].
  unfold tret in H. inversion H; subst. exists cnt, s1, s2. split; assumption.
Qed.

Lemma rd_geom_inv f s g h ids s' :
  zrd_geom (S f) s = TOk (g, h, ids) s' ->
  exists s1, parse_headers s = TOk h s1 /\
    (h_empty h = false -> (4 <= h_kind h)%N -> h_hasids h = true ->
     exists cnt s2 s3, rd_uv s1 = TOk cnt s2 /\ parse_ids cnt s2 = TOk ids s3).
Proof.
  cbn [rd_geom]. intros H. apply tbind_ok in H. destruct H as [h0 [s1 [E1 H]]]. exists s1.
  assert (Hmulti : forall {A} k (step : list Z -> TP (A * list Z)) (mk : list A -> zgeom) ref,
    (doT ci <- count_and_ids (h_hasids h0) k;
     doT r <- tloop_in (fst ci) step ref; tret (mk (fst r), h0, snd ci)) s1 = TOk (g, h, ids) s' ->
    h = h0 /\ (h_hasids h0 = true ->
               exists cnt s2 s3, rd_uv s1 = TOk cnt s2 /\ parse_ids cnt s2 = TOk ids s3)).
  { intros A k step mk ref Hm. apply tbind_ok in Hm. destruct Hm as [[n ids'] [s2 [E2 Hm]]].
    apply tbind_ok in Hm. destruct Hm as [r [s3 [E3 Hm]]]. unfold tret in Hm. inversion Hm; subst.
    split; [reflexivity|]. intros Eh. rewrite Eh in E2. exact (count_ids_inv _ _ _ _ _ E2). }
  destruct (h_kind h0) as [|[[[|[]|]|[|[]|]|]|[[|[]|]|[|[]|]|]|]] eqn:Ek; try discriminate;
    destruct (h_empty h0) eqn:Eemp.
  (* empty: nothing follows the headers *)
  all: try (unfold tret in H; inversion H; subst; split; [exact E1|]; intros Hne; congruence).
  (* Point, LineString, Polygon: kind < 4 *)
  all: try (apply tbind_ok in H; destruct H as [r [s2 [_ H]]]; unfold tret in H; inversion H; subst;
            split; [exact E1|]; intros _ Hk; rewrite Ek in Hk; lia).
  all: (destruct (Hmulti _ _ _ _ _ H) as [-> Hi]; split; [exact E1|]; intros _ _; exact Hi).
Qed.

Theorem twkb_header_readers_agree_lemma b g i :
  tdec b = Ok (g, i) ->
  tread_size b = Ok (i_size i) /\ tread_env b = env_view i /\
  (i_empty i = false -> (4 <= i_kind i)%N -> tread_ids b = Ok (i_ids i)).
Proof.
  unfold tdec, tdec_full, dec_full. intros H.
  destruct (zrd_geom (S (length b)) _) as [[[g' h] ids] s'| |] eqn:E; try discriminate.
  inversion H; subst g' i. clear H.
  destruct (rd_geom_inv _ _ _ _ _ _ E) as [s1 [Eh Hids]].
  repeat split.
  - unfold tread_size, run, tbind. rewrite Eh. reflexivity.
  - unfold tread_env, run, tbind, env_view, info_of. cbn [i_bbox i_ct]. rewrite Eh.
    destruct (h_hasbbox h); [|reflexivity].
    unfold tlift. destruct (bbox_pairs (dim (h_ct h)) (h_bbox h)); reflexivity.
  - unfold info_of. cbn [i_empty i_kind i_ids]. intros Hne Hk.
    unfold tread_ids, run, tbind. rewrite Eh.
    destruct (h_hasids h) eqn:Ehi; [|reflexivity].
    destruct (Hids Hne Hk eq_refl) as [cnt [s2 [s3 [E1 E2]]]]. rewrite E1, E2. reflexivity.
Qed.

(* ---- truth of the headers on the writer's output ---- *)
Theorem twkb_headers_lemma o g b :
  wf_twkb o g = true -> tmarshal o g = Ok b -> (Z.of_nat (length b) < two63)%Z ->
  let i := expected_info o g (length b) in
  tread_size b = Ok (i_size i) /\ tread_env b = env_view i /\
  (is_empty g = false -> match g with GMPoint _ _ | GMLine _ _ | GMPoly _ _ | GColl _ _ => True | _ => False end ->
   tread_ids b = Ok (i_ids i)).
Proof.
  intros Hwf Hm H63 i.
  destruct (twkb_roundtrip_lemma o g Hwf) as [b' [Hm' Hdec]]. rewrite Hm in Hm'. inversion Hm'; subst b'.
  destruct (twkb_header_readers_agree_lemma b _ _ (Hdec H63)) as [H1 [H2 H3]].
  split; [exact H1|]. split; [exact H2|].
  intros He Hk. apply H3.
  - unfold i, expected_info. rewrite He. reflexivity.
  - unfold i, expected_info. rewrite He. cbn [i_kind]. destruct g; try contradiction; cbn; lia.
Qed.

(* size header = number of bytes of the whole document; bbox header = envelope and Z/M ranges *)
Corollary twkb_size_header_lemma o g b :
  wf_twkb o g = true -> tmarshal o g = Ok b -> (Z.of_nat (length b) < two63)%Z ->
  o_size o = true -> is_empty g = false -> tread_size b = Ok (Some (Z.of_nat (length b))).
Proof.
  intros Hwf Hm H63 Hs He. destruct (twkb_headers_lemma o g b Hwf Hm H63) as [H _].
  rewrite H. unfold expected_info. rewrite He, Hs. reflexivity.
Qed.

(* the bounding-box header is the envelope and the Z/M ranges of the (decoded) integers *)
Theorem twkb_bbox_header_lemma o g b :
  wf_twkb o g = true -> tmarshal o g = Ok b -> (Z.of_nat (length b) < two63)%Z ->
  o_bbox o = true -> is_empty g = false ->
  exists mm, env_of (geom_pts g) = Some mm /\ tread_env b = Ok (Some (geom_ct g, mm)).
Proof.
  intros Hwf Hm H63 Hb He. destruct (twkb_headers_lemma o g b Hwf Hm H63) as [_ [H _]].
  (* the envelope is the box the writer has accumulated *)
  destruct (tmarshal_spec o g Hwf) as [_ [st [_ [[_ [Hl Hi]] [Hbb _]]]]].
  destruct (dom_env _ g (wf_dom o g Hwf) He) as [mm Emm]. exists mm. split; [exact Emm|].
  rewrite H. unfold env_view, expected_info. rewrite He, Hb. cbn [i_bbox i_ct]. rewrite Emm.
  rewrite Emm in Hbb. unfold bb_state in Hbb. destruct (ws_valid st); [|discriminate]. injection Hbb as <-.
  fold (raw_bbox (ws_bb st)). rewrite <- Hl, bbox_pairs_raw by exact Hi. reflexivity.
Qed.

(* ---- rejection ---- *)
Lemma wr_ids_mismatch c n : w_hasids c = true -> Nat.eqb n (length (w_ids c)) = false -> wr_ids c n = Err EOther.
Proof. intros H1 H2. unfold wr_ids. rewrite H1, H2. reflexivity. Qed.

Lemma twrite_id_mismatch c g :
  w_hasids c = true -> is_empty g = false ->
  match g with
  | GMPoint _ l => Nat.eqb (length l) (length (w_ids c)) = false
  | GMLine _ l => Nat.eqb (length l) (length (w_ids c)) = false
  | GMPoly _ l => Nat.eqb (length l) (length (w_ids c)) = false
  | GColl _ l => Nat.eqb (length l) (length (w_ids c)) = false
  | _ => False
  end -> exists e, twrite c g = Err e.
Proof.
  intros Hh He Hm. destruct g as [p|l|p|ct ps|ct ls|ct ps|ct gs]; try contradiction.
  1-3: (cbn [twrite geom_ct is_empty]; destruct (negb (ct_eqb ct (w_ct c))); [eexists; reflexivity|];
        cbn [is_empty] in He; rewrite He, (wr_ids_mismatch c _ Hh Hm); eexists; reflexivity).
  rewrite twrite_coll. destruct (negb (ct_eqb ct (w_ct c))); [eexists; reflexivity|].
  rewrite He. rewrite (wr_ids_mismatch c _ Hh Hm). eexists; reflexivity.
Qed.

Theorem twkb_rejects_lemma o g : must_reject o g = true -> exists e, tmarshal o g = Err e.
Proof.
  unfold must_reject, tmarshal, prec_of. cbv zeta. intros H.
  destruct (prec_bad (-8) (o_pxy o) || _ || _) eqn:Ep; [eexists; reflexivity|].
  cbn [orb] in H.
  destruct (o_ids o) as [|i ids] eqn:Ei; [discriminate|].
  destruct g as [p|l|p|ct ps|ct ls|ct ps|ct gs]; cbn [geom_type]; try (eexists; reflexivity);
    rewrite H; eexists; reflexivity.
Qed.

(* ---- the executable statement is true of the model's own output ---- *)
Lemma list_eqb_refl {A} (f : A -> A -> bool) l : (forall x, f x x = true) -> list_eqb f l l = true.
Proof. intros H. induction l as [|x l IH]; cbn [list_eqb]; [reflexivity|]. rewrite H, IH. reflexivity. Qed.
Lemma vtx_eqb_refl v : vtx_eqb v v = true.
Proof. apply vtx_eqb_iff. reflexivity. Qed.
Lemma point_eqb_refl p : point_eqb p p = true.
Proof.
  destruct p as [c [v|]]; unfold point_eqb; cbn [point_ct point_c ovtx_eqb]; rewrite ct_eqb_refl;
    [apply vtx_eqb_refl|reflexivity].
Qed.
Lemma line_eqb_refl l : line_eqb l l = true.
Proof.
  destruct l as [c vs]. unfold line_eqb. cbn [line_ct line_vs]. rewrite ct_eqb_refl.
  apply list_eqb_refl, vtx_eqb_refl.
Qed.
Lemma poly_eqb_refl p : poly_eqb p p = true.
Proof.
  destruct p as [c rs]. unfold poly_eqb. cbn [poly_ct poly_rings]. rewrite ct_eqb_refl.
  apply list_eqb_refl, line_eqb_refl.
Qed.
Lemma geom_eqb_refl : forall g : zgeom, geom_eqb g g = true.
Proof.
  induction g as [p|l|p|c ps|c ls|c ps|c gs IH] using geomT_ind'; cbn [geom_eqb].
  - apply point_eqb_refl.
  - apply line_eqb_refl.
  - apply poly_eqb_refl.
  - rewrite ct_eqb_refl. apply list_eqb_refl, point_eqb_refl.
  - rewrite ct_eqb_refl. apply list_eqb_refl, line_eqb_refl.
  - rewrite ct_eqb_refl. apply list_eqb_refl, poly_eqb_refl.
  - rewrite ct_eqb_refl. cbn [andb]. induction IH as [|x gs Hx HF IHg]; [reflexivity|].
    rewrite Hx, IHg. reflexivity.
Qed.
Lemma oeqb_refl {A} (f : A -> A -> bool) o : (forall x, f x x = true) -> oeqb f o o = true.
Proof. intros H. destruct o; cbn; auto. Qed.
Lemma zlist_eqb_refl (l : list Z) : list_eqb Z.eqb l l = true.
Proof. apply list_eqb_refl, Z.eqb_refl. Qed.
Lemma info_eqb_refl i : info_eqb i i = true.
Proof.
  unfold info_eqb. rewrite N.eqb_refl, Z.eqb_refl, ct_eqb_refl, !N.eqb_refl, eqb_reflx.
  rewrite (oeqb_refl Z.eqb _ Z.eqb_refl), !(oeqb_refl (list_eqb Z.eqb) _ zlist_eqb_refl). reflexivity.
Qed.

(* the executable statement S evaluated by the driver is true of the model's own output *)
Theorem twkb_ok_model_lemma o g b :
  wf_twkb o g = true -> tmarshal o g = Ok b -> (Z.of_nat (length b) < two63)%Z -> twkb_ok o g b = true.
Proof.
  intros Hwf Hm H63. destruct (twkb_roundtrip_lemma o g Hwf) as [b' [Hm' Hd]].
  rewrite Hm in Hm'. inversion Hm'; subst b'. unfold twkb_ok. rewrite (Hd H63).
  rewrite geom_eqb_refl, info_eqb_refl. reflexivity.
Qed.
