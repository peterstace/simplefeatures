(* Property C17 - lemmas about Simplify / Ramer-Douglas-Peucker (Model/TrSimplify.v). *)
From Coq Require Import ZArith QArith Qfield Lqa List Bool Lia.
From SF Require Import Base.Outcome Base.GeomAST Model.TrCommon Model.TrForce Model.TrSimplify
  Proofs.TrForce_proofs.
Import ListNotations.

(* subsequence: s is obtained from l by deleting elements *)
Inductive Subseq {A} : list A -> list A -> Prop :=
| SS_nil : Subseq [] []
| SS_keep : forall x s l, Subseq s l -> Subseq (x :: s) (x :: l)
| SS_drop : forall x s l, Subseq s l -> Subseq s (x :: l).

Lemma Subseq_refl {A} (l : list A) : Subseq l l.
Proof. induction l; constructor; auto. Qed.
Lemma Subseq_app_l {A} (m s l : list A) : Subseq s l -> Subseq s (m ++ l).
Proof. intros H; induction m; simpl; auto. now constructor. Qed.
Lemma Subseq_In {A} (s l : list A) x : Subseq s l -> In x s -> In x l.
Proof. induction 1; simpl; intuition. Qed.
Lemma Subseq_length {A} (s l : list A) : Subseq s l -> (length s <= length l)%nat.
Proof. induction 1; simpl; lia. Qed.

Section RDPProofs.
  Variable t : Q.
  Hypothesis t_nonneg : 0 <= t.

  Lemma thr_ok_zero : thr_ok t 0 = true.
  Proof.
    unfold thr_ok. apply andb_true_intro. split; apply Qle_bool_iff; auto. nra.
  Qed.
  Lemma thr_ok_le best : thr_ok t best = true -> best <= t * t.
  Proof. unfold thr_ok. intros H. apply andb_prop in H as [_ H]. now apply Qle_bool_iff. Qed.

  (* ---- the scan ---- *)
  Lemma scan_max_spec a b : forall mids pre best bi best' bi',
    scan_max a b pre mids best bi = (best', bi') ->
    best <= best' /\ Forall (fun p => pd2 a b p <= best') mids
    /\ (bi' = bi /\ best' = best
        \/ exists m1 p m2, mids = m1 ++ p :: m2 /\ bi' = Some (pre ++ m1, p, m2)).
  Proof.
    induction mids as [|p r IH]; intros pre best bi best' bi' E; simpl in E.
    - inversion E; subst. split; [lra|]. split; [constructor | now left].
    - destruct (Qltb best (pd2 a b p)) eqn:L; [apply Qltb_true in L | apply Qltb_false in L];
        apply IH in E as (E1 & E2 & E3).
      + split; [lra|]. split; [constructor; auto|]. right.
        destruct E3 as [[-> ->]|(m1 & q & m2 & -> & ->)].
        * exists [], p, r. now rewrite app_nil_r.
        * exists (p :: m1), q, m2. now rewrite <- app_assoc.
      + split; [lra|]. split; [constructor; auto; lra|].
        destruct E3 as [E3|(m1 & q & m2 & -> & ->)]; [now left|].
        right. exists (p :: m1), q, m2. now rewrite <- app_assoc.
  Qed.

  Lemma scan_max_start a b mids best' bi' :
    scan_max a b [] mids 0 None = (best', bi') ->
    Forall (fun p => pd2 a b p <= best') mids
    /\ (bi' = None /\ best' = 0 \/ exists m1 p m2, mids = m1 ++ p :: m2 /\ bi' = Some (m1, p, m2)).
  Proof. intros E. now apply scan_max_spec in E as (_ & E2 & E3). Qed.

  Lemma unsnoc_spec {A} (l : list A) :
    match unsnoc l with None => l = [] | Some (m, e) => l = m ++ [e] end.
  Proof.
    induction l as [|x r IH]; [reflexivity|].
    destruct r as [|y r']; [reflexivity|].
    change (unsnoc (x :: y :: r')) with
      (match unsnoc (y :: r') with Some (m, e) => Some (x :: m, e) | None => None end).
    destruct (unsnoc (y :: r')) as [[m e]|].
    - rewrite IH. reflexivity.
    - discriminate.
  Qed.

  Lemma RdpRel_head a rest o : RdpRel t (a :: rest) o -> exists o', o = a :: o'.
  Proof. intros H; inversion H; subst; eauto. Qed.

  (* ---- the two loops: given fuel beyond the number of vertices still to look at, the loop ends, with
     the same result whichever way "no winner and threshold failed" is treated (for 0 <= t it never
     arises) ---- *)
  Lemma inner_spec : forall fuel a mids b after, (length mids < fuel)%nat ->
    exists mids' b' after',
      (forall fixed, inner t fixed fuel a mids b after = Some (b', after'))
      /\ mids' ++ b' :: after' = mids ++ b :: after /\ Forall (within t a b') mids'.
  Proof.
    induction fuel as [|f IH]; intros a mids b after L; [lia|]. cbn [inner].
    destruct (scan_max a b [] mids 0 None) as [best bi] eqn:S.
    apply scan_max_start in S as (S2 & S3).
    destruct (thr_ok t best) eqn:T.
    - exists mids, b, after. split; [reflexivity|]. split; [reflexivity|].
      apply thr_ok_le in T. eapply Forall_impl; [|exact S2]. intros p Hp. unfold within. simpl in Hp. lra.
    - destruct S3 as [[-> ->]|(pre & p & suf & -> & ->)].
      + rewrite thr_ok_zero in T. discriminate.
      + destruct (IH a pre p (suf ++ b :: after)) as (mids' & b' & after' & E & E1 & E2).
        { rewrite app_length in L. simpl in L. lia. }
        exists mids', b', after'. split; [exact E|]. split; [|exact E2].
        rewrite E1, <- app_assoc. reflexivity.
  Qed.

  Lemma outer_spec : forall fuel a tail, (length tail < fuel)%nat ->
    exists out, (forall fixed, outer t fixed fuel a tail = Some out) /\ RdpRel t (a :: tail) out.
  Proof.
    induction fuel as [|f IH]; intros a tail L; [lia|]. cbn [outer].
    pose proof (unsnoc_spec tail) as U. destruct (unsnoc tail) as [[mids e]|]; subst tail.
    - destruct (inner_spec (S (length mids)) a mids e []) as (mids' & b & after & I & I1 & I2); [lia|].
      destruct (IH b after) as (o & O & R).
      { apply (f_equal (@length _)) in I1. rewrite !app_length in *. simpl in *. lia. }
      destruct (RdpRel_head _ _ _ R) as (o' & ->).
      exists (a :: b :: o'). split.
      + intros fixed. now rewrite I, O.
      + rewrite <- I1. now constructor.
    - exists [a]. split; [reflexivity | constructor].
  Qed.

  (* ---- ramerDouglasPeucker: the pinned code and the repaired code agree for every non-negative
     threshold ---- *)
  Lemma rdp_gen_rel fixed (vs : list qv) :
    rdp_gen t fixed vs = Some (rdp t vs) /\ (vs <> [] -> RdpRel t vs (rdp t vs)).
  Proof.
    unfold rdp. destruct vs as [|a [|b [|c r]]]; cbn [rdp_gen].
    - split; [reflexivity | congruence].
    - split; [reflexivity | constructor].
    - split; [reflexivity|]. intros _. apply (RR_step t a [] b [] []); constructor.
    - destruct (outer_spec (length (a :: b :: c :: r)) a (b :: c :: r)) as (out & E & R); [simpl; lia|].
      rewrite !E. auto.
  Qed.

  Theorem rdp_unfixed_agrees (vs : list qv) : rdp_unfixed t vs = Some (rdp t vs).
  Proof. apply rdp_gen_rel. Qed.

  Theorem rdp_rel (vs : list qv) : vs <> [] -> RdpRel t vs (rdp t vs).
  Proof. apply (rdp_gen_rel true). Qed.

  Theorem rdp_short (vs : list qv) : (length vs <= 2)%nat -> rdp t vs = vs.
  Proof.
    intros L. unfold rdp, rdp_gen. destruct vs as [|a [|b [|c r]]]; auto. simpl in L. lia.
  Qed.

  (* ---- consequences of the relation ---- *)
  Lemma RdpRel_subseq i o : RdpRel t i o -> Subseq o i.
  Proof.
    induction 1.
    - apply Subseq_refl.
    - constructor. now apply Subseq_app_l.
  Qed.

  Lemma RdpRel_first i o : RdpRel t i o -> hd_error o = hd_error i.
  Proof. induction 1; reflexivity. Qed.

  Lemma last_app_cons {A} (m : list A) x r d : last (m ++ x :: r) d = last (x :: r) d.
  Proof. induction m as [|y m IH]; [reflexivity|]. rewrite <- IH. destruct m; reflexivity. Qed.

  Lemma RdpRel_last i o d : RdpRel t i o -> last o d = last i d.
  Proof.
    induction 1 as [|a mids b rest out _ _ IH]; [reflexivity|].
    change (a :: mids ++ b :: rest) with ((a :: mids) ++ b :: rest). rewrite last_app_cons. exact IH.
  Qed.

  (* every input vertex is retained, or lies within t of the line through two consecutive
     retained vertices that bracket it *)
  Lemma RdpRel_dropped i o : RdpRel t i o ->
    forall p, In p i -> In p o \/ exists a b, In (a, b) (line_segs o) /\ within t a b p.
  Proof.
    induction 1; intros p Hp.
    - now left.
    - destruct Hp as [->|Hp]; [left; now left|].
      apply in_app_or in Hp as [Hp|Hp].
      + right. exists a, b. split; [now left|]. rewrite Forall_forall in H. now apply H.
      + destruct (IHRdpRel p Hp) as [I|(x & y & I1 & I2)].
        * left. now right.
        * right. exists x, y. split; auto. simpl. right. exact I1.
  Qed.

  Theorem rdp_subseq (vs : list qv) : Subseq (rdp t vs) vs.
  Proof. destruct vs; [constructor | apply RdpRel_subseq, rdp_rel; discriminate]. Qed.

  Theorem rdp_endpoints (vs : list qv) (d : qv) : vs <> [] ->
    hd_error (rdp t vs) = hd_error vs /\ last (rdp t vs) d = last vs d.
  Proof. intros NE. apply rdp_rel in NE. split; [now apply RdpRel_first | now apply RdpRel_last]. Qed.

  Theorem rdp_dropped (vs : list qv) (p : qv) : In p vs ->
    In p (rdp t vs) \/ exists a b, In (a, b) (line_segs (rdp t vs)) /\ within t a b p.
  Proof. intros I. apply (RdpRel_dropped vs); [apply rdp_rel; intros ->; destruct I | exact I]. Qed.

  Lemma RdpRel_length i o : RdpRel t i o -> (length o <= length i)%nat.
  Proof. intros H. apply Subseq_length. now apply RdpRel_subseq. Qed.

  (* ---- the executable relation accepts what the relation allows ---- *)
  Lemma veqb_refl (a : qv) : veqb a a = true.
  Proof. unfold veqb. rewrite !Qeq_bool_refl. reflexivity. Qed.

  Lemma within_b_iff a b p : within_b t a b p = true <-> within t a b p.
  Proof. unfold within_b, within. apply Qle_bool_iff. Qed.

  Lemma rr_scan_cons a b out' x r :
    rr_scan t a (b :: out') (x :: r) =
    (veqb x b && match out' with [] => match r with [] => true | _ => false end | _ => rr_scan t b out' r end)
    || (within_b t a b x && rr_scan t a (b :: out') r).
  Proof. reflexivity. Qed.

  Lemma rr_scan_skip a b out mids i :
    Forall (within t a b) mids -> rr_scan t a (b :: out) i = true -> rr_scan t a (b :: out) (mids ++ i) = true.
  Proof.
    intros F H. induction F as [|x m Hx _ IH]; [exact H|].
    apply within_b_iff in Hx. simpl app. rewrite rr_scan_cons, Hx, IH. apply orb_true_r.
  Qed.

  Lemma rr_scan_complete i o : RdpRel t i o -> forall a', rr_scan t a' o i = true.
  Proof.
    induction 1 as [a|a mids b rest out F _ IH]; intros a'; rewrite rr_scan_cons, veqb_refl.
    - reflexivity.
    - simpl. now rewrite rr_scan_skip.
  Qed.

  Theorem rdp_rel_b_complete i o : RdpRel t i o -> rdp_rel_b t i o = true.
  Proof.
    intros H. destruct H as [a|a mids b rest out F R].
    - apply veqb_refl.
    - unfold rdp_rel_b. rewrite veqb_refl. simpl andb.
      pose proof (rr_scan_skip a b out mids _ F (rr_scan_complete _ _ R a)) as X.
      destruct (mids ++ b :: rest); exact X.
  Qed.

  (* ... and nothing else: an accepted pair is related by RdpRelV *)
  Lemma rr_scan_sound : forall inp a' out x,
    veqb x a' = true -> out <> [] -> rr_scan t a' out inp = true -> RdpRelV t (x :: inp) (a' :: out).
  Proof.
    induction inp as [|x0 r IH]; intros a' out x VX NE H.
    - destruct out; simpl in H; discriminate.
    - destruct out as [|b' out']; [congruence|].
      rewrite rr_scan_cons in H.
      apply orb_prop in H as [H|H]; apply andb_prop in H as [H1 H2].
      + destruct out' as [|c out''].
        * destruct r; [|discriminate].
          apply (RV_step t x a' [] x0 b' [] []); auto. now constructor.
        * apply (RV_step t x a' [] x0 b' r (c :: out'')); auto.
          apply IH; auto. discriminate.
      + specialize (IH a' (b' :: out') x VX NE H2).
        inversion IH as [|? ? mids b ? rest ? V0 F0 R0]; subst.
        apply (RV_step t x a' (x0 :: mids) b b' rest out'); auto.
  Qed.

  Theorem rdp_rel_b_sound i o : rdp_rel_b t i o = true -> RdpRelV t i o.
  Proof.
    unfold rdp_rel_b. destruct i as [|a r]; [discriminate|].
    destruct o as [|a' o']; [destruct r; discriminate|].
    destruct o' as [|b' o''].
    - destruct r; [|discriminate]. intros H. now constructor.
    - intros H.
      assert (veqb a a' && rr_scan t a' (b' :: o'') r = true) as H' by (destruct r; exact H).
      apply andb_prop in H' as [H1 H2]. apply rr_scan_sound; auto. discriminate.
  Qed.

  Corollary rdp_rel_b_model (vs : list qv) : vs <> [] -> rdp_rel_b t vs (rdp t vs) = true.
  Proof. intros NE. apply rdp_rel_b_complete. now apply rdp_rel. Qed.
End RDPProofs.
