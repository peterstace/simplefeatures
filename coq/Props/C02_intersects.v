(* C02, clause "Disjoint is the negation of Intersects" - statements only; proofs are in
   Proofs/Relate_intersects.v, over Proofs/RelateMatch_proofs.v (the meaning of the Disjoint pattern) and
   Proofs/Intersects_areal.v, Intersects_polypoly.v (C09: Intersects is exact).
   geom.Disjoint is read off the DE-9IM matrix of the overlay (alg_relate.go; Model/Relate.v);
   geom.Intersects is a separate pairwise algorithm (alg_intersects.go; Model/Intersects.v, the model
   C09 proves exact).  The correspondence run of C02 observes BOTH functions of the implementation on
   every generated pair (checks intersects_is_not_disjoint, intersects_is_common_point). *)
From Coq Require Import QArith List Bool ZArith.
From SF Require Import Base.GeomAST Base.QKernel Base.Planar Model.Relate Model.Intersects
  Proofs.RelateMatch_proofs Proofs.Intersects_areal Proofs.Intersects_polypoly Proofs.Relate_intersects.
Import ListNotations.

(* for every pair of operands satisfying the validity hypotheses of C09's intersects_exact (closed rings,
   lines with two distinct points, rings with an interior, holes nested in shells): the Disjoint of the
   model is exactly the negation of the Intersects of the model - never an error *)
Theorem disjoint_is_not_intersects : forall a b : geom, operand_ok a -> operand_ok b ->
  go_disjoint (enc_matrix (relate a b)) = RM (negb (intersects a b)).
Proof. exact disjoint_is_not_intersects_lemma. Qed.
Print Assumptions disjoint_is_not_intersects.

(* the same with executable hypotheses (what the drivers evaluate) *)
Theorem disjoint_is_not_intersects_exec : forall a b : geom, operand_okb a = true -> operand_okb b = true ->
  go_disjoint (enc_matrix (relate a b)) = RM (negb (intersects a b)).
Proof. exact disjoint_is_not_intersects_exec. Qed.
Print Assumptions disjoint_is_not_intersects_exec.

(* the II/IB/BI/BB entries of Relate's matrix decide Intersects *)
Theorem relate_matrix_decides_intersects : forall a b : geom, operand_ok a -> operand_ok b ->
  m_intersects (relate a b) = intersects a b.
Proof. exact m_intersects_relate_is_intersects. Qed.
Print Assumptions relate_matrix_decides_intersects.

(* Disjoint is symmetric in its operands - here a corollary of the symmetry of the Intersects algorithm *)
Theorem disjoint_symmetric_via_intersects : forall a b : geom, operand_ok a -> operand_ok b ->
  go_disjoint (enc_matrix (relate a b)) = go_disjoint (enc_matrix (relate b a)).
Proof. exact disjoint_sym_via_intersects. Qed.
Print Assumptions disjoint_symmetric_via_intersects.

(* non-vacuity: a square with a hole against a square inside the hole (disjoint, boundaries apart) and
   against a square inside the shell's body (intersecting, boundaries apart) *)
Definition vq (x y : Z) : vtx Q := Build_vtx (inject_Z x) (inject_Z y) (inject_Z 0) (inject_Z 0).
Definition ringz (x0 y0 x1 y1 : Z) := MkLine XY [vq x0 y0; vq x1 y0; vq x1 y1; vq x0 y1; vq x0 y0].
Definition holed : geom := GPoly (MkPoly XY [ringz 0 0 10 10; ringz 2 2 8 8]).
Definition two (x0 y0 : Z) : geom :=
  GMPoly XY [MkPoly XY [ringz 40 40 50 50]; MkPoly XY [ringz x0 y0 (x0 + 1) (y0 + 1)]].
Example ex_hyps : operand_okb holed = true /\ operand_okb (two 4 4) = true /\ operand_okb (two 0 0) = true.
Proof. vm_compute. repeat split; reflexivity. Qed.
Example ex_in_hole : intersects holed (two 4 4) = false /\ go_disjoint (enc_matrix (relate holed (two 4 4))) = RM true.
Proof. vm_compute. split; reflexivity. Qed.
Example ex_in_body : intersects holed (two 0 0) = true /\ go_disjoint (enc_matrix (relate holed (two 0 0))) = RM false.
Proof. vm_compute. split; reflexivity. Qed.
