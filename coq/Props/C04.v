(* Property C04 - WKB encoding is lossless and decoding is its exact inverse.
   This file contains statements only; proofs are in Proofs/WKB_proofs.v (round trip),
   Proofs/WKB_converse.v (what the decoder accepts is well-formed and re-encodes) and
   Proofs/WKB_image.v (what the decoder accepts is an encoding of a document tree). *)
From Coq Require Import NArith List Bool.
From SF Require Import Base.Outcome Base.Bytes Base.GeomAST Model.WKB Proofs.WKB_proofs Proofs.WKB_converse.
From SF Require Proofs.WKB_image.
Import ListNotations.

(* Round trip at full strength: for every well-formed value g (all 7 types, all 4 coordinate
   types, arbitrarily nested, empty members anywhere, every 64-bit ordinate pattern including
   NaN/Inf in Z and M), for every per-element byte-order choice bo and every trailing byte string,
   decoding the encoding returns exactly g and leaves exactly the trailing bytes unread. *)
Theorem wkb_roundtrip : forall (bo : list nat -> endian) (g : geom) (rest : list N),
  wf_wkb g = true -> dec (enc_bo bo g ++ rest) = Ok (g, rest).
Proof. exact wkb_roundtrip_lemma. Qed.
Print Assumptions wkb_roundtrip.

Theorem wkb_endian_independent : forall (bo : list nat -> endian) (g : geom) (rest : list N),
  wf_wkb g = true -> dec (enc_bo bo g ++ rest) = dec (enc g ++ rest).
Proof. exact wkb_endian_independent_lemma. Qed.
Print Assumptions wkb_endian_independent.

(* encoding a decoded value yields the same bytes again *)
Theorem wkb_reencode : forall (g g' : geom) (r : list N),
  wf_wkb g = true -> dec (enc g) = Ok (g', r) -> enc g' = enc g /\ r = [].
Proof. exact wkb_reencode_lemma. Qed.
Print Assumptions wkb_reencode.

(* no information is lost: distinct values have distinct encodings, and member streams are
   unambiguous (no encoding is a prefix of another value's encoding) *)
Theorem wkb_injective : forall bo1 bo2 (g h : geom) (r1 r2 : list N),
  wf_wkb g = true -> wf_wkb h = true -> enc_bo bo1 g ++ r1 = enc_bo bo2 h ++ r2 -> g = h /\ r1 = r2.
Proof. exact wkb_injective_lemma. Qed.
Print Assumptions wkb_injective.

(* database adapters: scanning Value(g) into type t succeeds with g iff g has type t *)
Theorem wkb_scan_value : forall (t : gtype) (g : geom),
  wf_wkb g = true ->
  scan t (enc g) = if gtype_eqb (geom_type g) t then Ok g else Err EMemberType.
Proof. exact scan_value_lemma. Qed.
Print Assumptions wkb_scan_value.

(* ---- the converse direction: "decoding is the exact inverse of encoding" on EVERY accepted document,
   also foreign ones (mixed byte orders, member types that the constructors normalise).
   bytes_ok bs: every list element is a byte (< 256); necessary (see Props/C08.v, bytes_ok_needed). ---- *)

(* everything the decoder accepts is a well-formed value (the domain of wkb_roundtrip) *)
Theorem wkb_decoded_is_wellformed : forall (bs : list N) (g : geom) (r : list N),
  bytes_ok bs -> dec bs = Ok (g, r) -> wf_wkb g = true /\ bytes_ok r.
Proof. exact wkb_dec_wf_lemma. Qed.
Print Assumptions wkb_decoded_is_wellformed.

(* decode . encode . decode = decode, for every byte-order choice of the re-encoding *)
Theorem wkb_dec_enc_dec : forall bs g r, bytes_ok bs -> dec bs = Ok (g, r) ->
  forall (bo : list nat -> endian) (r' : list N), dec (enc_bo bo g ++ r') = Ok (g, r').
Proof. exact wkb_dec_enc_dec_lemma. Qed.
Print Assumptions wkb_dec_enc_dec.

Theorem wkb_reencode_fixpoint : forall bs g r, bytes_ok bs -> dec bs = Ok (g, r) -> dec (enc g) = Ok (g, []).
Proof. exact wkb_reencode_fixpoint_lemma. Qed.
Print Assumptions wkb_reencode_fixpoint.

(* decoded values are determined by their canonical encodings *)
Theorem wkb_canonical : forall bs bs' g g' r r', bytes_ok bs -> bytes_ok bs' ->
  dec bs = Ok (g, r) -> dec bs' = Ok (g', r') -> (enc g = enc g' <-> g = g').
Proof. exact wkb_canonical_lemma. Qed.
Print Assumptions wkb_canonical.

(* every accepted prefix IS an encoding (under some per-element byte-order choice) of a document tree
   whose constructor normal form is the decoded value *)
Theorem wkb_dec_is_some_encoding : forall bs g r, bytes_ok bs -> dec bs = Ok (g, r) ->
  exists (bo : list nat -> endian) (g' : geom), bs = enc_bo bo g' ++ r /\ g = WKB_image.normalise g'.
Proof. exact WKB_image.wkb_dec_is_some_encoding_lemma. Qed.
Print Assumptions wkb_dec_is_some_encoding.

(* non-vacuity: a depth-3 XYZM collection with empty members at several positions, a NaN in M
   and an infinity in Z meets the hypothesis *)
Definition ex_vtx : vtx N := Build_vtx 4607182418800017408%N 4611686018427387904%N 9218868437227405312%N go_nan.
Definition ex_geom : geom :=
  GColl XYZM [ GPoint (MkPoint XYZM None);
               GPoint (MkPoint XYZM (Some ex_vtx));
               GMPoint XYZM [MkPoint XYZM None; MkPoint XYZM (Some ex_vtx)];
               GColl XYZM [ GLine (MkLine XYZM []); GPoly (MkPoly XYZM [MkLine XYZM [ex_vtx; ex_vtx]]);
                            GColl XYZM [] ];
               GMPoly XYZM [MkPoly XYZM []] ].
Example wf_example : wf_wkb ex_geom = true.
Proof. vm_compute. reflexivity. Qed.
(* the NaN hypothesis on X/Y of full points is tight: the format reserves NaN,NaN for EMPTY *)
Example nan_xy_is_empty :
  dec (enc (GPoint (MkPoint XY (Some (Build_vtx go_nan go_nan 0%N 0%N))))) = Ok (GPoint (MkPoint XY None), []).
Proof. vm_compute. reflexivity. Qed.
