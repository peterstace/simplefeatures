(* Property C09 - Intersects and Distance agree with exact geometry and with Relate.
   Statements only; proofs are in Proofs/Intersects_proofs.v, Proofs/Intersects_areal.v (the witness
   oracle; areal against non-areal operands), Proofs/Intersects_polypoly.v (polygon against polygon),
   Proofs/Distance_proofs.v, Proofs/Distance_lower.v (lower bound of the segment-segment kernel) and
   Proofs/Distance_full.v (Distance is the minimum over the point sets, areal operands included).
   Models: Model/Intersects.v, Model/Distance.v (transcriptions of geom/alg_intersects.go,
   alg_distance.go, line.go, alg_point_in_ring.go over Q); reference semantics: Base/Planar.v (inG). *)
From Coq Require Import QArith List Bool.
From SF Require Import Base.GeomAST Base.QKernel Base.Planar Model.Intersects Model.Distance
  Proofs.Intersects_proofs Proofs.Distance_proofs Proofs.Distance_lower Proofs.Intersects_areal Proofs.Intersects_polypoly Proofs.Distance_full.
Import ListNotations.
Open Scope Q_scope.

(* ---- Intersects ---- *)

(* every `true` exit of Intersects has a witness: a point that belongs to both point sets (an
   intersection point of two segments, or a probe vertex inside a polygon). ALL type pairs,
   collections included; the only hypothesis is that polygon rings are closed (first = last) *)
Theorem intersects_sound : forall a b : geom,
  rings_closed a = true -> rings_closed b = true ->
  intersects a b = true -> exists p, inG a p = true /\ inG b p = true.
Proof. exact intersects_sound. Qed.
Print Assumptions intersects_sound.

(* `false` means no common point: EVERY pair of operands (points, line strings, polygons with holes,
   their multis, nested collections).  operand_ok asks what OGC validity gives: line strings with
   two distinct vertices, rings closed with two distinct vertices, rings properly nested (holes in
   the closed shell, shell and holes not entering a hole); it is decidable (operand_okb below).
   For two polygons whose boundaries do not meet the proof shows that a common point forces the
   start vertex of one shell into the other polygon - the two probes of the Go code - from:
   parity constancy along ring-avoiding segments, the leftmost hit of a horizontal segment with
   finitely many edges, and three facts about closed rings with disjoint boundaries (no mutual
   containment, containment is transitive, mutually exterior rings have disjoint interiors). *)
Theorem intersects_complete : forall (a b : geom) (p : pt),
  operand_ok a -> operand_ok b -> inG a p = true -> inG b p = true -> intersects a b = true.
Proof. exact intersects_complete. Qed.
Print Assumptions intersects_complete.

(* together with soundness: Intersects on the model is exactly "the point sets share a point", and
   it equals the verified witness oracle *)
Theorem intersects_exact : forall a b : geom,
  operand_ok a -> operand_ok b ->
  (intersects a b = true <-> exists p, inG a p = true /\ inG b p = true) /\
  intersects a b = share_witness a b.
Proof. exact intersects_exact. Qed.
Print Assumptions intersects_exact.

(* the hypotheses are decidable: the nesting conditions, which quantify over all points, need only
   be tested at the witnesses of the polygon's own arrangement (slab-witness sufficiency) *)
Theorem operand_ok_decidable : forall g : geom, operand_okb g = true -> operand_ok g.
Proof. exact operand_okb_sound. Qed.
Print Assumptions operand_ok_decidable.

Theorem intersects_sym : forall a b : geom, intersects a b = intersects b a.
Proof. exact intersects_sym. Qed.
Print Assumptions intersects_sym.

Theorem intersects_empty : forall a b : geom,
  is_empty a = true \/ is_empty b = true -> intersects a b = false.
Proof. exact intersects_empty. Qed.
Print Assumptions intersects_empty.

(* ---- the oracle of the correspondence is a verified decision procedure ---- *)

(* share_witness evaluates inG of both operands at the witnesses of their exact arrangement
   (Base/Planar.v).  By the sufficiency theorem of the slab decomposition (Proofs/Planar_slab.v,
   Props/C02.v:slab_witnesses_sufficient) it decides "the two point sets share a point". So the
   SPEC check `Go's Intersects = share_witness` compares against the exact answer. *)
Theorem oracle_intersects_exact : forall a b : geom,
  rings_closed a = true -> rings_closed b = true ->
  (share_witness a b = true <-> exists p, inG a p = true /\ inG b p = true).
Proof. exact share_witness_iff. Qed.
Print Assumptions oracle_intersects_exact.

(* the planar fact behind every containment probe: a segment that meets no edge of a closed ring
   has the same crossing parity at both ends (staircase of axis-parallel moves below the exact
   clearance of segment and ring; no continuity, no Jordan curve theorem) *)
Theorem ring_parity_constant_off_ring : forall (ring : list pt) (u v : pt),
  pts_closed ring = true ->
  (forall e, In e (segs_of_pts ring) -> forall w, ~ (on_seg e w = true /\ on_seg (u, v) w = true)) ->
  edges_parity (segs_of_pts ring) u = edges_parity (segs_of_pts ring) v.
Proof. exact path_parity. Qed.
Print Assumptions ring_parity_constant_off_ring.

(* ---- distance kernels ---- *)

(* distBetweenXYAndLine (squared; the code after fix F91: perpendicular distance by the cross
   product when the foot is inside the segment): a lower bound for the distance to every point
   of the segment, attained at a point of the segment *)
Theorem pt_seg_d2_spec : forall (p a b : pt), ~ pt_eq a b ->
  (forall q, on_seg (a, b) q = true -> d2_xy_line p (a, b) <= d2_xy p q) /\
  (exists q, on_seg (a, b) q = true /\ d2_xy_line p (a, b) == d2_xy p q).
Proof.
  intros p a b H. split.
  - intros q Hq. apply d2_xy_line_le; assumption.
  - exists (closest_on_line p (a, b)). split; [apply closest_on_seg; exact H | apply d2_xy_line_closest; exact H].
Qed.
Print Assumptions pt_seg_d2_spec.

(* distBetweenLineAndLine (squared), for non-degenerate segments: the value is attained by an end
   point of one segment and a point of the other, it is symmetric, it is zero only if the segments
   meet, and for segments WITHOUT a common point it is a lower bound of the distance between any
   two of their points (the constrained minimum of the convex quadratic is on the boundary of the
   unit square of the two segment coordinates).  Together: the exact squared distance of two disjoint segments. *)
Theorem seg_seg_d2_spec : forall s t : seg,
  ~ pt_eq (fst s) (snd s) -> ~ pt_eq (fst t) (snd t) ->
  (exists p q, on_seg s p = true /\ on_seg t q = true /\ d2_line_line s t == d2_xy p q) /\
  d2_line_line s t == d2_line_line t s /\
  (d2_line_line s t == 0 -> exists w, on_seg s w = true /\ on_seg t w = true) /\
  ((forall w, ~ (on_seg s w = true /\ on_seg t w = true)) ->
   forall p q, on_seg s p = true -> on_seg t q = true -> d2_line_line s t <= d2_xy p q).
Proof.
  intros s t Hs Ht. split; [apply d2_line_line_attained; assumption|].
  split; [apply d2_line_line_sym|]. split; [apply d2_line_line_zero; assumption|].
  destruct s as [a b], t as [c d]. intros Hdis p q Hp Hq. apply seg_seg_d2_lower; assumption.
Qed.
Print Assumptions seg_seg_d2_spec.

(* ---- the search ---- *)

(* searchBody: on a stream of records in priority order (sorted by the squared distance [key] of
   the record's box to the query box, which is a lower bound of the part distance [val]),
   stopping at the first record with key > best returns the minimum over the whole stream.
   This is what lets the model take the minimum over all pairs of parts (with C11: PrioritySearch
   enumerates all records in that order). *)
Theorem pruned_search_is_min : forall (R : Type) (key val : R -> Q) (recs : list R) (best : option Q),
  Sorted.StronglySorted (fun r s => key r <= key s) recs ->
  (forall r, In r recs -> key r <= val r) ->
  pruned_search key val recs best = full_search val recs best.
Proof. exact @pruned_search_is_min. Qed.
Print Assumptions pruned_search_is_min.

(* the lower bound used by the pruning: boxes of parts against the parts themselves (and, with
   the boxes of all control points, the envelope bound of the property): in the search branch
   Distance is never below the distance of the boxes *)
Theorem distance_ge_envelope_distance : forall (a b : geom) (ea eb : box) (d : Q),
  parts_box a = Some ea -> parts_box b = Some eb -> dist2 a b = Some d ->
  intersects a b = false \/ (no_polys a = true /\ no_polys b = true /\ lines_wf a = true /\ lines_wf b = true) ->
  box_d2 ea eb <= d.
Proof.
  intros a b ea eb d Ea Eb Hd [H|[Na [Nb [Wa Wb]]]].
  - exact (distance_ge_envelope_search a b ea eb d Ea Eb H Hd).
  - exact (distance_ge_envelope_lineal a b ea eb d Na Nb Wa Wb Ea Eb Hd).
Qed.
Print Assumptions distance_ge_envelope_distance.

(* ---- Distance ---- *)
Theorem distance_sym : forall a b : geom,
  match dist2 a b, dist2 b a with
  | Some x, Some y => x == y
  | None, None => True
  | _, _ => False
  end.
Proof. exact distance_sym. Qed.
Print Assumptions distance_sym.

(* undefined exactly when the search has nothing to compare, in particular for an empty operand *)
Theorem distance_undefined_iff : forall a b : geom,
  (dist2 a b = None <->
   intersects a b = false /\ ((part_xys a = [] /\ part_lines a = []) \/ (part_xys b = [] /\ part_lines b = []))) /\
  (is_empty a = true \/ is_empty b = true -> dist2 a b = None).
Proof. intros a b. split; [apply dist2_none_iff | apply distance_undefined_of_empty]. Qed.
Print Assumptions distance_undefined_iff.

(* zero exactly when intersecting: every pair of operands *)
Theorem distance_zero_iff_intersects : forall a b : geom,
  operand_ok a -> operand_ok b ->
  ((exists d, dist2 a b = Some d /\ d == 0) <-> intersects a b = true).
Proof. exact distance_zero_iff_intersects_all. Qed.
Print Assumptions distance_zero_iff_intersects.

Theorem distance_zero_witness : forall (a b : geom) (d : Q),
  (intersects a b = true -> dist2 a b = Some 0) /\
  (dist2 a b = Some d -> d == 0 ->
   intersects a b = true \/ exists p, inG a p = true /\ inG b p = true).
Proof.
  intros a b d. split.
  - intros H. unfold dist2. rewrite H. reflexivity.
  - apply distance_zero_witness.
Qed.
Print Assumptions distance_zero_witness.

(* "equals the minimum Euclidean distance between the two point sets", on the model (squared):
   attained by two points of the operands and a lower bound for every pair of points; every pair
   of operands, areal ones included (an interior point of a polygon is joined to the other operand
   by a segment that must reach a ring at a closer point, else the operands would intersect) *)
Theorem distance_is_min : forall (a b : geom) (d : Q),
  operand_ok a -> operand_ok b -> dist2 a b = Some d ->
  (exists p q, inG a p = true /\ inG b q = true /\ d == d2_xy p q) /\
  (forall p q, inG a p = true -> inG b q = true -> d <= d2_xy p q).
Proof. exact distance_is_min. Qed.
Print Assumptions distance_is_min.

(* the final panic of the Intersects switch is unreachable *)
Theorem intersects_never_panics : forall a b : geom, intersects_panics a b = false.
Proof. exact intersects_never_panics. Qed.
Print Assumptions intersects_never_panics.

(* ---- hypotheses are satisfiable by non-trivial values ---- *)
Definition qv (x y : Z) : vtx Q := Build_vtx (inject_Z x) (inject_Z y) 0 0.
Definition ex_square : geom :=
  GPoly (MkPoly XY [MkLine XY [qv 0 0; qv 4 0; qv 4 4; qv 0 4; qv 0 0];
                    MkLine XY [qv 1 1; qv 1 2; qv 2 2; qv 2 1; qv 1 1]]).
Definition ex_line : geom := GLine (MkLine XY [qv 3 3; qv 3 9]).
Example ex_sound_hyp : rings_closed ex_square = true /\ rings_closed ex_line = true /\
  intersects ex_square ex_line = true /\ intersects ex_line ex_square = true.
Proof. vm_compute. auto. Qed.
Example ex_lineal_hyp :
  let a := GMLine XY [MkLine XY [qv 0 0; qv 4 4]; MkLine XY []] in
  let b := GColl XY [GPoint (MkPoint XY (Some (qv 2 2))); GLine (MkLine XY [qv 0 4; qv 4 0])] in
  no_polys a = true /\ no_polys b = true /\ lines_wf a = true /\ lines_wf b = true /\
  inG a (2, 2) = true /\ inG b (2, 2) = true /\ intersects a b = true.
Proof. vm_compute. repeat split; reflexivity. Qed.

Example ex_dist :
  dist2 ex_square (GPoint (MkPoint XY (Some (qv 7 8)))) = Some 25
  /\ dist2 ex_line (GLine (MkLine XY [])) = None
  /\ match dist2 (GPoint (MkPoint XY (Some (qv 0 2)))) (GLine (MkLine XY [qv 1 0; qv 3 4])) with
     | Some d => d == 16 # 5 | None => False end.
Proof. vm_compute. auto. Qed.
(* the stream is sorted by key, every key is below its value; the search stops at key 3 > best 2 *)
Example ex_pruned :
  pruned_search (fun r => fst r) (fun r => snd r) [(0, 4); (1, 2); (3, 9); (5, 6)] None = Some 2
  /\ full_search (fun r : Q * Q => snd r) [(0, 4); (1, 2); (3, 9); (5, 6)] None = Some 2.
Proof. vm_compute. auto. Qed.

(* operand_ok holds of a polygon with a hole (decided by operand_okb); two polygons whose
   boundaries do not meet, one inside the other: the answer comes from a start-vertex probe; and a
   polygon inside the hole of the other: disjoint *)
Definition ex_small : geom := GPoly (MkPoly XY [MkLine XY [qv 3 3; qv 3 7 ; qv 35 10; qv 3 3]]).
Definition ex_big : geom :=
  GPoly (MkPoly XY [MkLine XY [qv 0 0; qv 40 0; qv 40 40; qv 0 40; qv 0 0];
                    MkLine XY [qv 10 20; qv 10 30; qv 20 30; qv 20 20; qv 10 20]]).
Definition ex_in_hole : geom := GPoly (MkPoly XY [MkLine XY [qv 12 22; qv 18 22; qv 15 28; qv 12 22]]).
Example ex_operand_ok : operand_okb ex_big = true /\ operand_okb ex_small = true /\ operand_okb ex_in_hole = true /\
  intersects ex_big ex_small = true /\ share_witness ex_big ex_small = true /\
  intersects ex_big ex_in_hole = false /\ share_witness ex_big ex_in_hole = false.
Proof. vm_compute. repeat split; reflexivity. Qed.
