(* Property C20 - every operation is total on empty, zero-value and mixed-empty geometries; empty
   members are transparent; the zero Geometry is the empty GeometryCollection.
   Statements only; proofs in Proofs/Empty_proofs.v (carrier-generic part),
   Proofs/Empty_obs_proofs.v (the observables of the other properties' models: envelope, area,
   length, hull, membership, Relate, set-operation dispatch), Empty_ix_proofs.v (Intersects, Distance),
   Empty_centroid_proofs.v, Empty_boundary_proofs.v, Empty_codec_proofs.v (WKB, WKT, GeoJSON),
   Empty_transform_proofs.v (Reverse, Force*, IsCW / IsCCW), Empty_ee_proofs.v (ExactEquals),
   Empty_pos_proofs.v (PointOnSurface), Empty_twkb_proofs.v (the TWKB bounding box) and
   Empty_refresh_proofs.v (the same against the point sets of the plane); cited from the sibling
   properties: Proofs/Boundary_proofs.v, Relate_proofs.v, Intersects_proofs.v, Intersects_areal.v,
   Planar_slab_base.v.
   Model: Model/Empty.v (insert_empties, strip_empties, gvalue, neutral). *)
From Coq Require Import List Bool Arith QArith ZArith.
From SF Require Import Base.GeomAST Base.QKernel Base.Planar Model.Empty Proofs.Empty_proofs
  Proofs.Empty_obs_proofs Proofs.Empty_ix_proofs Proofs.Empty_centroid_proofs Proofs.Empty_boundary_proofs Proofs.Empty_codec_proofs
  Proofs.Empty_refresh_proofs Proofs.Empty_transform_proofs Proofs.Empty_ee_proofs Proofs.Empty_pos_proofs Proofs.Empty_twkb_proofs.
From SF Require Model.Envelope Model.Measure Model.Hull Model.Relate Model.SetOpSpec Model.Intersects Model.Distance
  Model.Boundary Proofs.Boundary_proofs Proofs.Relate_proofs Proofs.Intersects_proofs
  Base.Outcome Model.WKB Model.WKT Model.GeoJSON Base.Varint Model.TWKB Model.EmptyObs
  Proofs.Intersects_areal Proofs.Planar_slab_base Model.TrReverse Model.TrForce Model.ExactEq Model.PointOnSurface Model.Calipers.
Import ListNotations.
Local Close Scope Q_scope.
Local Open Scope nat_scope.
Local Open Scope list_scope.

(* ---------------------------------------------------------------- the factoring, proved once *)
(* An observable that cannot tell g from g without its empty members (strip_empties g) cannot see
   inserted empty members either - for every geometry, every plan (every position of every
   Multi*/collection node at every depth, every shape of empty member), every carrier F and every
   notion of equality R of the observable's values. *)
Theorem obs_factors_through_parts :
  forall (F A : Type) (R : A -> A -> Prop) (obs : geomT F -> A),
    (forall x y, R x y -> R y x) -> (forall x y z, R x y -> R y z -> R x z) ->
    (forall g, R (obs (strip_empties g)) (obs g)) ->
    forall g p, R (obs (insert_empties g p)) (obs g).
Proof. exact obs_factors_through_parts_lemma. Qed.
Print Assumptions obs_factors_through_parts.

Theorem obs2_factors_through_parts :
  forall (F A : Type) (R : A -> A -> Prop) (obs : geomT F -> geomT F -> A),
    (forall x y, R x y -> R y x) -> (forall x y z, R x y -> R y z -> R x z) ->
    (forall g h, R (obs (strip_empties g) h) (obs g h)) -> (forall g h, R (obs g (strip_empties h)) (obs g h)) ->
    forall g h p q, R (obs (insert_empties g p) (insert_empties h q)) (obs g h).
Proof. exact obs2_factors_through_parts_lemma. Qed.
Print Assumptions obs2_factors_through_parts.

(* stripping undoes insertion; stripped geometries have no empty members and are fixed points *)
Theorem strip_insert : forall F (g : geomT F) p, strip_empties (insert_empties g p) = strip_empties g.
Proof. exact strip_ins. Qed.
Print Assumptions strip_insert.

Theorem strip_spec : forall F (g : geomT F),
  no_empty_members (strip_empties g) = true /\
  (no_empty_members g = true -> strip_empties g = g) /\
  strip_empties (strip_empties g) = strip_empties g.
Proof. intros F g. split; [apply strip_no_empty_members | split; [apply strip_fixpoint | apply strip_idem]]. Qed.
Print Assumptions strip_spec.

(* the inserted members are empty geometries of the node's coordinates type at every node *)
Theorem typed_empties : forall F (isz : F -> bool) ct e,
  is_empty (@emp_geom F ct e) = true /\ geom_vs (@emp_geom F ct e) = [] /\
  geom_ct (@emp_geom F ct e) = ct /\ geom_ok isz ct (@emp_geom F ct e) = true.
Proof. intros. repeat split; [apply emp_geom_empty | apply emp_geom_vs | apply emp_geom_ct | apply emp_geom_ok]. Qed.
Print Assumptions typed_empties.

(* ---------------------------------------------------------------- transparency, generic carrier *)
Theorem insert_is_empty : forall F (g : geomT F) p, is_empty (insert_empties g p) = is_empty g.
Proof. exact ins_is_empty. Qed.
Print Assumptions insert_is_empty.

Theorem insert_dimension_ignoring_empties : forall F (g : geomT F) p,
  dimension_ie (insert_empties g p) = dimension_ie g.
Proof.
  intros F g p. apply (obs_factors_through_parts_lemma F eq (@dimension_ie F)); try congruence.
  apply strip_dimension_ie.
Qed.
Print Assumptions insert_dimension_ignoring_empties.

(* Dimension() as documented counts empty members: it is NOT transparent (this is why Relate,
   Crosses and Overlaps must not use it - F8) *)
Theorem dimension_counts_empties_refuted : forall F (v : vtx F),
  exists g p, @dimension F (insert_empties g p) <> dimension g.
Proof.
  intros F v. exists (GColl XY [GPoint (MkPoint XY (Some v))]), (EP [(1, EPg)] []).
  exact (ins_dimension_not_transparent F v).
Qed.
Print Assumptions dimension_counts_empties_refuted.

Theorem insert_control_points : forall F (g : geomT F) p, geom_vs (insert_empties g p) = geom_vs g.
Proof.
  intros F g p. apply (obs_factors_through_parts_lemma F eq (@geom_vs F)); try congruence.
  apply strip_vs.
Qed.
Print Assumptions insert_control_points.

(* type, coordinates type and the all-nodes-agree invariant (C16) are kept *)
Theorem insert_keeps_types : forall F (isz : F -> bool) (g : geomT F) p,
  geom_type (insert_empties g p) = geom_type g /\ geom_ct (insert_empties g p) = geom_ct g /\
  consistent isz (insert_empties g p) = consistent isz g.
Proof. intros. repeat split; [apply ins_geom_type | apply ins_geom_ct | apply ins_consistent]. Qed.
Print Assumptions insert_keeps_types.

(* ================================================================ transparency of the cited models *)
(* Each statement: for ALL geometries, ALL plans (every position of every Multi*/collection node at
   every depth, every shape of typed empty member). *)

(* Envelope (Model/Envelope.v, C12), for every carrier and every float-primitive structure O
   (NaN/Inf behaviour included: an empty member contributes the neutral element of join) *)
Theorem insert_envelope : forall F (O : Envelope.ops F) (g : geomT F) p,
  Envelope.env_of O (insert_empties g p) = Envelope.env_of O g.
Proof.
  intros F O g p. apply (obs_factors_through_parts_lemma F eq (Envelope.env_of O)); try congruence.
  apply strip_env.
Qed.
Print Assumptions insert_envelope.

(* Area and Length (Model/Measure.v, C14); equality of rationals is Qeq *)
Theorem insert_area : forall s tr (g : geomT Q) p,
  (Measure.geom_area s tr (insert_empties g p) == Measure.geom_area s tr g)%Q.
Proof.
  intros s tr g p. apply (obs_factors_through_parts_lemma Q Qeq (Measure.geom_area s tr)).
  - intros x y. apply Qeq_sym.
  - intros x y z. apply Qeq_trans.
  - apply strip_area.
Qed.
Print Assumptions insert_area.

Theorem insert_length : forall (sq : Q -> Q) (g : geomT Q) p,
  (Measure.geom_length sq (insert_empties g p) == Measure.geom_length sq g)%Q.
Proof.
  intros sq g p. apply (obs_factors_through_parts_lemma Q Qeq (Measure.geom_length sq)).
  - intros x y. apply Qeq_sym.
  - intros x y z. apply Qeq_trans.
  - apply strip_length.
Qed.
Print Assumptions insert_length.

(* ConvexHull (Model/Hull.v, C13): the same input point list, hence the same hull, for non-empty g;
   an empty g is returned as it is (forced to XY) - empty either way *)
Theorem insert_hull : forall (g : Hull.geomZ) p,
  Hull.point_set (insert_empties g p) = Hull.point_set g /\
  (is_empty g = false -> Hull.convex_hull (insert_empties g p) = Hull.convex_hull g) /\
  (is_empty g = true -> exists h, Hull.convex_hull (insert_empties g p) = Some h /\ is_empty h = true).
Proof.
  intros g p. split; [|split].
  - apply (obs_factors_through_parts_lemma Z eq Hull.point_set); try congruence. apply strip_point_set.
  - intros E. rewrite <- (strip_convex_hull g E).
    rewrite <- (strip_convex_hull (insert_empties g p)) by (rewrite ins_is_empty; exact E).
    rewrite strip_ins. reflexivity.
  - intros E. destruct (empty_convex_hull (insert_empties g p)) as [h [H1 [_ H3]]].
    + rewrite ins_is_empty. exact E.
    + exists h. auto.
Qed.
Print Assumptions insert_hull.

(* the definitional point set and location (Base/Planar.v): what "the point set of a set-operation
   result", "a predicate" and "a DE-9IM matrix" are judged against *)
Theorem insert_point_set : forall (g : geomT Q) p x,
  inG (insert_empties g p) x = inG g x /\ locate (insert_empties g p) x = locate g x.
Proof.
  intros g p x. split.
  - apply ins_inG.
  - apply (obs_factors_through_parts_lemma Q eq (fun g => locate g x)); try congruence.
    intros g0. apply strip_locate.
Qed.
Print Assumptions insert_point_set.

(* Relate and the nine named predicates (Model/Relate.v, C02; the repaired code, F8), both operands *)
Theorem insert_relate : forall (a b : geomT Q) p q,
  Relate.relate (insert_empties a p) (insert_empties b q) = Relate.relate a b /\
  Relate.preds (insert_empties a p) (insert_empties b q) = Relate.preds a b.
Proof. exact ins_relate. Qed.
Print Assumptions insert_relate.

(* F8: the pinned code (Dimension() counts empty members) is refuted, for the matrix and for a predicate *)
Theorem insert_relate_unfixed_refuted :
  exists (a b : geomT Q) p,
    Relate.relate_unfixed (insert_empties a p) b <> Relate.relate_unfixed a b /\
  exists (a' b' : geomT Q) p',
    Relate.preds_unfixed (insert_empties a' p') b' <> Relate.preds_unfixed a' b'.
Proof. exact ins_relate_unfixed_refuted. Qed.
Print Assumptions insert_relate_unfixed_refuted.

(* set operations (Model/SetOpSpec.v, C01): the empty-operand dispatch and the set-theoretic
   result every overlay output is judged against, at every witness *)
Theorem insert_set_operations : forall o (a b : geomT Q) p q w,
  SetOpSpec.dispatch o (SetOpSpec.g_empty (insert_empties a p)) (SetOpSpec.g_empty (insert_empties b q))
    = SetOpSpec.dispatch o (SetOpSpec.g_empty a) (SetOpSpec.g_empty b) /\
  SetOpSpec.expected o (insert_empties a p) (insert_empties b q) w = SetOpSpec.expected o a b w.
Proof. intros. split; [apply ins_dispatch | apply ins_expected]. Qed.
Print Assumptions insert_set_operations.

(* UnionMany / UnaryUnion: an empty operand or member adds no point *)
Theorem union_many_ignores_empty : forall ct (gs1 gs2 : list (geomT Q)) e x,
  is_empty e = true -> inG (GColl ct (gs1 ++ e :: gs2)) x = inG (GColl ct (gs1 ++ gs2)) x.
Proof. exact union_many_empty_operand. Qed.
Print Assumptions union_many_ignores_empty.

(* Intersects and Distance (Model/Intersects.v, Model/Distance.v, C09): the transcription of the
   Go dispatch, both operands; Distance is Leibniz-equal (same parts lists, same search) *)
Theorem insert_intersects : forall (a b : geomT Q) p q,
  Intersects.intersects (insert_empties a p) (insert_empties b q) = Intersects.intersects a b.
Proof. exact ins_intersects. Qed.
Print Assumptions insert_intersects.

Theorem insert_distance : forall (a b : geomT Q) p q,
  Distance.dist2 (insert_empties a p) (insert_empties b q) = Distance.dist2 a b.
Proof. exact ins_dist2. Qed.
Print Assumptions insert_distance.

(* Centroid (Model/Measure.v, C14: Centroid of all seven types and the point / linear / areal
   centroid of collections, chosen by the highest dimension ignoring empties); results are equal as
   optional rational points (both POINT EMPTY, or Qeq ordinates) *)
Theorem insert_centroid : forall (sq : Q -> Q) (g : geomT Q) p,
  Measure.oxy_eq (Measure.geom_centroid sq (insert_empties g p)) (Measure.geom_centroid sq g).
Proof. exact ins_centroid. Qed.
Print Assumptions insert_centroid.

(* Boundary (Model/Boundary.v, C15): for a non-empty g the very same value; for an empty g an empty
   geometry either way (neutral_boundary below) *)
Theorem insert_boundary : forall (g : geomT Q) p,
  is_empty g = false -> Boundary.boundary (insert_empties g p) = Boundary.boundary g.
Proof. exact ins_boundary. Qed.
Print Assumptions insert_boundary.

(* ================================================================ the neutral answer table *)
(* Each theorem pairs a row of Model/Empty.v:neutral with the fact about the cited model, for ALL
   empty geometries (any type, any nesting of empty members, any coordinates type). *)
Theorem neutral_envelope : forall F (O : Envelope.ops F) (g : geomT F),
  neutral OEnvelope WBoth = AEmptyEnvelope /\ (is_empty g = true -> Envelope.env_of O g = None).
Proof. intros. split; [reflexivity | apply empty_env]. Qed.
Print Assumptions neutral_envelope.

Theorem neutral_measures : forall (sq : Q -> Q) s tr (g : geomT Q), is_empty g = true ->
  neutral OArea WBoth = AZero /\ neutral OLength WBoth = AZero /\ neutral OCentroid WBoth = AEmptyPoint /\
  (Measure.geom_area s tr g == 0)%Q /\ Measure.geom_length sq g = 0%Q /\ Measure.geom_centroid sq g = None.
Proof.
  intros sq s tr g E. repeat split; [apply empty_area | apply empty_length | apply empty_centroid]; exact E.
Qed.
Print Assumptions neutral_measures.

Theorem neutral_hull : forall g : Hull.geomZ, is_empty g = true ->
  neutral OConvexHull WBoth = ASameForce2D /\
  exists h, Hull.convex_hull g = Some h /\ h = force_geom 0%Z XY g /\ is_empty h = true.
Proof. intros g E. split; [reflexivity | apply empty_convex_hull; exact E]. Qed.
Print Assumptions neutral_hull.

Theorem neutral_boundary : forall g : geomT Q, is_empty g = true ->
  neutral OBoundary WBoth = AEmptyGeometry /\ is_empty (Boundary.boundary g) = true.
Proof. intros g E. split; [reflexivity | apply Boundary_proofs.boundary_of_empty; exact E]. Qed.
Print Assumptions neutral_boundary.

Theorem neutral_intersects_distance : forall (a b : geomT Q) w,
  is_empty a = true \/ is_empty b = true ->
  neutral OIntersects w = ABool false /\ neutral ODistance w = AUndefined /\
  Intersects.intersects a b = false /\ Distance.dist2 a b = None.
Proof.
  intros a b w H. repeat split; try (destruct w; reflexivity).
  - apply Intersects_proofs.intersects_empty. exact H.
  - apply empty_dist2. exact H.
Qed.
Print Assumptions neutral_intersects_distance.

(* Relate: FFFFFFFF2 when both are empty, else the closed form of the other operand (rows ORelate);
   the predicates: Equals iff both empty, Disjoint always, the other seven never *)
Theorem neutral_relate : forall a b : geomT Q, is_empty a || is_empty b = true ->
  neutral ORelate WBoth = AMatrix [0; 0; 0; 0; 0; 0; 0; 0; 3] /\ neutral ORelate WLeft = AMatrixOfOther /\
  (is_empty a = true -> is_empty b = true -> Relate.relate a b = Relate.m_all_F_but_EE) /\
  Relate.relate a b = Relate.relate_empty_branch Relate.dimension_ie a b /\
  Relate.preds a b = [Relate.RM (is_empty a && is_empty b); Relate.RM true; Relate.RM false; Relate.RM false;
                      Relate.RM false; Relate.RM false; Relate.RM false; Relate.RM false; Relate.RM false].
Proof.
  intros a b H. split; [reflexivity|]. split; [reflexivity|]. split; [|split].
  - intros Ea Eb. apply Relate_proofs.relate_both_empty; assumption.
  - unfold Relate.relate, Relate.relate_with. rewrite H. reflexivity.
  - apply preds_empty. exact H.
Qed.
Print Assumptions neutral_relate.

Theorem neutral_predicates_table :
  (forall w, neutral ODisjoint w = ABool true) /\
  neutral OEquals WBoth = ABool true /\ neutral OEquals WLeft = ABool false /\ neutral OEquals WRight = ABool false /\
  (forall w, neutral OTouches w = ABool false /\ neutral OContains w = ABool false /\ neutral OCovers w = ABool false /\
             neutral OWithin w = ABool false /\ neutral OCoveredBy w = ABool false /\
             neutral OCrosses w = ABool false /\ neutral OOverlaps w = ABool false).
Proof. repeat split; destruct w; reflexivity. Qed.
Print Assumptions neutral_predicates_table.

(* set operations: the rows of the table are the dispatch of Model/SetOpSpec.v *)
Theorem neutral_set_operations : forall o ea eb,
  let w := if ea && eb then WBoth else if ea then WLeft else WRight in
  let op := match o with SetOpSpec.OpUnion => OUnion | SetOpSpec.OpInter => OIntersection
                       | SetOpSpec.OpDiff => ODifference | SetOpSpec.OpSym => OSymDiff end in
  ea || eb = true ->
  match SetOpSpec.dispatch o ea eb with
  | SetOpSpec.DEmpty => neutral op w = AEmptyCollection
  | SetOpSpec.DUnaryA | SetOpSpec.DUnaryB => neutral op w = AUnaryUnionOfOther
  | SetOpSpec.DEngine => False
  end.
Proof. intros o ea eb. destruct o, ea, eb; simpl; intros H; try reflexivity; discriminate. Qed.
Print Assumptions neutral_set_operations.

(* ================================================================ against the point sets of the plane *)
(* The sibling properties prove their models exact against ALL points of Q^2 (C09:
   intersects_exact, distance_is_min; C02: slab sufficiency, de9im_ref_sufficient,
   disjoint_iff_no_common_point; C01: judge_everywhere).  Combined with the transparency above: *)

(* Intersects of operands with inserted empties <-> the point sets share a point (taken with or
   without the empty members); hypotheses on the operands WITHOUT the inserted members only *)
Theorem insert_intersects_pointset : forall (a b : geomT Q) p q,
  Intersects_areal.operand_ok a -> Intersects_areal.operand_ok b ->
  (Intersects.intersects (insert_empties a p) (insert_empties b q) = true <->
   exists x, inG (insert_empties a p) x = true /\ inG (insert_empties b q) x = true) /\
  (Intersects.intersects (insert_empties a p) (insert_empties b q) = true <->
   exists x, inG a x = true /\ inG b x = true).
Proof. exact ins_intersects_pointset. Qed.
Print Assumptions insert_intersects_pointset.

(* Distance (squared) of operands with inserted empties is attained by, and is a lower bound for,
   the pairs of points of the two point sets; it is zero exactly when they share a point *)
Theorem insert_distance_pointset : forall (a b : geomT Q) p q d,
  Intersects_areal.operand_ok a -> Intersects_areal.operand_ok b ->
  Distance.dist2 (insert_empties a p) (insert_empties b q) = Some d ->
  (exists x y, inG (insert_empties a p) x = true /\ inG (insert_empties b q) y = true /\ (d == Distance.d2_xy x y)%Q) /\
  (forall x y, inG (insert_empties a p) x = true -> inG (insert_empties b q) y = true -> (d <= Distance.d2_xy x y)%Q).
Proof. exact ins_distance_pointset. Qed.
Print Assumptions insert_distance_pointset.

Theorem insert_distance_zero_iff_common_point : forall (a b : geomT Q) p q,
  Intersects_areal.operand_ok a -> Intersects_areal.operand_ok b ->
  ((exists d, Distance.dist2 (insert_empties a p) (insert_empties b q) = Some d /\ (d == 0)%Q) <->
   exists x, inG (insert_empties a p) x = true /\ inG (insert_empties b q) x = true).
Proof. exact ins_distance_zero. Qed.
Print Assumptions insert_distance_zero_iff_common_point.

(* Relate of non-empty operands with inserted empties IS the reference matrix of the operands, and an
   entry is set iff some point of the plane has that pair of locations in the operands as given *)
Theorem insert_relate_all_points : forall (a b : geomT Q) p q la lb,
  is_empty a = false -> is_empty b = false -> Planar_slab_base.rings_closed a -> Planar_slab_base.rings_closed b ->
  (mget (Relate.relate (insert_empties a p) (insert_empties b q)) la lb <> DF <->
   exists x, locate (insert_empties a p) x = la /\ locate (insert_empties b q) x = lb) /\
  Relate.relate (insert_empties a p) (insert_empties b q) = de9im_ref a b.
Proof. exact ins_relate_all_points. Qed.
Print Assumptions insert_relate_all_points.

(* Disjoint, every pair of operands (empty ones included) *)
Theorem insert_disjoint_all_points : forall (a b : geomT Q) p q,
  Planar_slab_base.rings_closed a -> Planar_slab_base.rings_closed b ->
  (Relate.go_disjoint (Relate.enc_matrix (Relate.relate (insert_empties a p) (insert_empties b q))) = Relate.RM true <->
   forall x, ~ (inG (insert_empties a p) x = true /\ inG (insert_empties b q) x = true)).
Proof. exact ins_disjoint_all_points. Qed.
Print Assumptions insert_disjoint_all_points.

(* Union / Intersection: a result that passes C01's judgement against operands WITH inserted empties
   is the Boolean combination of the point sets of the operands WITHOUT them at EVERY point of the
   plane, and the other way round *)
Theorem insert_set_operation_all_points : forall o (a b r : geomT Q) p q,
  (o = SetOpSpec.OpUnion \/ o = SetOpSpec.OpInter) ->
  forallb SetOpSpec.rings_closed_b [a; b; r] = true ->
  (SetOpSpec.v_agree (SetOpSpec.judge o (insert_empties a p) (insert_empties b q) r) = true ->
   forall x, inG r x = SetOpSpec.op_bool o (inG a x) (inG b x)) /\
  (SetOpSpec.v_agree (SetOpSpec.judge o a b r) = true ->
   forall x, inG r x = SetOpSpec.op_bool o (inG (insert_empties a p) x) (inG (insert_empties b q) x)).
Proof. intros o a b r p q Ho Hc. split; [apply ins_judge_everywhere | apply ins_judge_everywhere']; assumption. Qed.
Print Assumptions insert_set_operation_all_points.

(* ================================================================ transformations (C17) and the rest of the API *)
(* A transformation that commutes with the removal of empty members gives, on a geometry with
   inserted empties, its result on the geometry itself up to empty members - which is what the
   correspondence compares.  Reverse, ForceCoordinatesType / Force2D, ForceCW / ForceCCW: *)
Theorem insert_reverse : forall F (g : geomT F) p,
  strip_empties (TrReverse.rev_geom (insert_empties g p)) = strip_empties (TrReverse.rev_geom g).
Proof. intros F g p. apply commuting_transform_transparent. intros g0. apply rev_geom_strip. Qed.
Print Assumptions insert_reverse.

Theorem insert_force_coordinates_type : forall F (zero : F) ct (g : geomT F) p,
  strip_empties (force_geom zero ct (insert_empties g p)) = strip_empties (force_geom zero ct g).
Proof. intros F zero ct g p. apply commuting_transform_transparent. intros g0. apply force_geom_strip. Qed.
Print Assumptions insert_force_coordinates_type.

Theorem insert_force_orientation : forall (g : geomT Q) p,
  strip_empties (TrForce.geom_force_cw (insert_empties g p)) = strip_empties (TrForce.geom_force_cw g) /\
  strip_empties (TrForce.geom_force_ccw (insert_empties g p)) = strip_empties (TrForce.geom_force_ccw g) /\
  TrForce.geom_is_cw (insert_empties g p) = TrForce.geom_is_cw g /\
  TrForce.geom_is_ccw (insert_empties g p) = TrForce.geom_is_ccw g.
Proof.
  intros g p. repeat split.
  - apply commuting_transform_transparent. intros g0. apply force_cw_strip.
  - apply commuting_transform_transparent. intros g0. apply force_cw_strip.
  - apply (obs_factors_through_parts_lemma Q eq TrForce.geom_is_cw); try congruence.
    intros g0. apply geom_is_strip. intros y Hy. apply (is_cw_empty_poly y Hy).
  - apply (obs_factors_through_parts_lemma Q eq TrForce.geom_is_ccw); try congruence.
    intros g0. apply geom_is_strip. intros y Hy. apply (is_cw_empty_poly y Hy).
Qed.
Print Assumptions insert_force_orientation.

(* rotated minimum bounding rectangles (Model/Calipers.v, C13): a function of the hull input *)
Theorem insert_rotated_rectangles : forall k (g : Hull.geomZ) p,
  Calipers.mbr_pts k (Hull.point_set (insert_empties g p)) = Calipers.mbr_pts k (Hull.point_set g).
Proof.
  intros k g p. f_equal. apply (obs_factors_through_parts_lemma Z eq Hull.point_set); try congruence.
  apply strip_point_set.
Qed.
Print Assumptions insert_rotated_rectangles.

(* ExactEquals (Model/ExactEq.v, C18) is structural: NOT transparent by design (row OExactEquals of the
   table promises nothing), but total and reflexive on geometries with inserted typed empties *)
Theorem exact_equals_on_inserted : forall (simple : lineT N -> bool),
  neutral OExactEquals WBoth = ANotApplicable /\
  (forall tol io (g : geomT N) p, ExactEq.nan_free g = true ->
     ExactEq.exact_equals simple tol io (insert_empties g p) (insert_empties g p) = true) /\
  (exists (g : geomT N) p, ExactEq.nan_free g = true /\
     ExactEq.exact_equals simple 0 false (insert_empties g p) g = false).
Proof.
  intros simple. split; [reflexivity|]. split; [intros; apply ins_ee_refl; assumption | apply ee_sees_empty_members].
Qed.
Print Assumptions exact_equals_on_inserted.

(* PointOnSurface (Model/PointOnSurface.v, C15): C15's domain is closed under insertion and the result
   is POINT EMPTY exactly when the geometry is empty (row OPointOnSurface) *)
Theorem point_on_surface_on_inserted : forall (cen : geomT Q -> option pt) (g : geomT Q) p,
  (forall x, is_empty x = false -> cen x <> None) -> Boundary.geom_wf g = true ->
  neutral OPointOnSurface WBoth = AEmptyPoint /\
  Boundary.geom_wf (insert_empties g p) = true /\
  point_empty (PointOnSurface.pos cen (insert_empties g p)) = is_empty g.
Proof.
  intros cen g p Hc W. split; [reflexivity|]. split; [rewrite ins_geom_bwf; exact W | apply ins_pos_empty_iff; assumption].
Qed.
Print Assumptions point_on_surface_on_inserted.

(* rows OReverse, OForceCW, OForceCCW, OIsCW, OIsCCW of the neutral answer table *)
Theorem neutral_transformations : forall (g : geomT Q), is_empty g = true ->
  neutral OReverse WBoth = ASame /\ neutral OForceCW WBoth = ASame /\ neutral OForceCCW WBoth = ASame /\
  neutral OIsCW WBoth = ABool true /\ neutral OIsCCW WBoth = ABool true /\
  TrReverse.rev_geom g = g /\ TrForce.geom_force_cw g = g /\ TrForce.geom_force_ccw g = g /\
  TrForce.geom_is_cw g = true /\ TrForce.geom_is_ccw g = true.
Proof.
  intros g E. destruct (force_cw_of_empty g E) as [A B]. destruct (geom_is_cw_of_empty g E) as [C D].
  repeat split; try assumption. apply TrReverse_proofs.rev_geom_of_empty. exact E.
Qed.
Print Assumptions neutral_transformations.

(* ================================================================ codecs accept them *)
(* The domains of the round-trip theorems of C04, C05, C06 are closed under insertion of typed empty
   members (the members carry the node's coordinates type, so "all nodes agree" is kept): *)
Theorem insert_wkt_roundtrip : forall (g : geomT N) p,
  WKT.wkt_dom g = true ->
  WKT.wkt_dom (insert_empties g p) = true /\
  WKT.unmarshal_wkt (WKT.as_text (insert_empties g p)) = Outcome.Ok (insert_empties g p).
Proof. intros g p H. split; [rewrite ins_wkt_dom; exact H | apply ins_wkt_roundtrip; exact H]. Qed.
Print Assumptions insert_wkt_roundtrip.

(* WKB: besides consistency the domain bounds member counts by 2^32 - the only hypothesis left *)
Theorem insert_wkb_roundtrip : forall bo (g : geomT N) p rest,
  WKB.wf_wkb g = true -> WKB.geom_wf (insert_empties g p) = true ->
  WKB.dec (WKB.enc_bo bo (insert_empties g p) ++ rest) = Outcome.Ok (insert_empties g p, rest).
Proof. exact ins_wkb_roundtrip. Qed.
Print Assumptions insert_wkb_roundtrip.

(* GeoJSON: decodes to the value up to the format's documented losses (gj_lossy: among them, empty
   Points inside MultiPoints cannot be written) *)
Theorem insert_geojson_roundtrip : forall (g : geomT N) p,
  GeoJSON.same_ct g = true ->
  GeoJSON.gj_unmarshal (GeoJSON.to_json (insert_empties g p)) = Outcome.Ok (GeoJSON.gj_lossy (insert_empties g p)).
Proof. exact ins_gj_roundtrip. Qed.
Print Assumptions insert_geojson_roundtrip.

(* TWKB (Model/TWKB.v, C07), the bounding-box header: the box the encoder must announce (per wire
   dimension X Y [Z] [M] the minimum and maximum over all vertices: EmptyObs.twkb_bbox_z, which is
   TWKB.expected_info's box) cannot see inserted empty members ... *)
Theorem insert_twkb_bbox : forall (g : geomT Z) p,
  EmptyObs.twkb_bbox_z (insert_empties g p) = EmptyObs.twkb_bbox_z g /\
  EmptyObs.twkb_bbox_z (strip_empties g) = EmptyObs.twkb_bbox_z g.
Proof. intros g p. split; [apply twkb_bbox_z_insert | apply twkb_bbox_z_strip]. Qed.
Print Assumptions insert_twkb_bbox.

(* ... and, with C07's header theorem, UnmarshalTWKBEnvelope answers the same box (the one above, with
   the same coordinates type) on the document written for the geometry with inserted members and on
   the one written for the geometry itself - for ANY two admissible option sets with the bounding-box
   header on (they may differ in precisions, size header, ring closing, and must differ in the ID
   list when one is given: one ID per member, empty members included).  Hypotheses: the domain of
   C07's round trip for both (it excludes an empty Point inside a non-empty MultiPoint, which the
   encoder refuses: F5) and documents shorter than 2^63 bytes. *)
Theorem insert_twkb_bbox_header : forall (o o' : TWKB.topts) (g : geomT Z) p (b b' : list N),
  TWKB.wf_twkb o (insert_empties g p) = true -> TWKB.wf_twkb o' g = true ->
  TWKB.tmarshal o (insert_empties g p) = Outcome.Ok b -> TWKB.tmarshal o' g = Outcome.Ok b' ->
  (Z.of_nat (length b) < Varint.two63)%Z -> (Z.of_nat (length b') < Varint.two63)%Z ->
  TWKB.o_bbox o = true -> TWKB.o_bbox o' = true -> is_empty g = false ->
  exists mm, EmptyObs.twkb_bbox_z g = Some mm /\
             TWKB.tread_env b = Outcome.Ok (Some (geom_ct g, mm)) /\
             TWKB.tread_env b' = Outcome.Ok (Some (geom_ct g, mm)).
Proof. exact insert_twkb_bbox_header_lemma. Qed.
Print Assumptions insert_twkb_bbox_header.

(* ---------------------------------------------------------------- the zero Geometry *)
(* every method of geom.Geometry reaches the payload through MustAsGeometryCollection, which maps
   the nil payload to GeometryCollection{}: every observable of the zero value is that of the
   explicit empty collection *)
Theorem gnil_as_empty_collection : forall F A (obs : geomT F -> A),
  lift obs GZero = lift obs (GVal (GColl XY [])).
Proof. exact gnil_lemma. Qed.
Print Assumptions gnil_as_empty_collection.

(* F4 (repaired in /repo): AppendWKT cast the nil payload *)
Theorem gnil_append_wkt_unfixed_refuted : forall F A (wkt : geomT F -> A),
  append_wkt_unfixed wkt GZero <> append_wkt_unfixed wkt (GVal (GColl XY [])).
Proof. exact gnil_unfixed_refuted_lemma. Qed.
Print Assumptions gnil_append_wkt_unfixed_refuted.

(* ---------------------------------------------------------------- non-vacuity *)
Definition ex_v (x y : nat) : vtx nat := Build_vtx x y 0 0.
Definition ex_g : geomT nat :=
  GColl XYZ [ GMPoint XYZ [MkPoint XYZ (Some (ex_v 1 2))];
              GColl XYZ [GLine (MkLine XYZ [ex_v 0 0; ex_v 3 3]); GMPoly XYZ [MkPoly XYZ [MkLine XYZ [ex_v 0 0; ex_v 1 0; ex_v 0 1; ex_v 0 0]]]] ].
Definition ex_p : eplan :=
  EP [(0, EPg); (3, EGC [EPt; EGC [EMLn 2]]); (1, EMPt 0)]
     [EP [(1, EPt); (0, EPt)] []; EP [(2, ELn)] [EP [] []; EP [(0, EPg)] []]].
Example ex_insert :
  insert_empties ex_g ex_p =
  GColl XYZ [ GPoly (MkPoly XYZ []); GMPoint XYZ [];
              GMPoint XYZ [MkPoint XYZ None; MkPoint XYZ (Some (ex_v 1 2)); MkPoint XYZ None];
              GColl XYZ [GLine (MkLine XYZ [ex_v 0 0; ex_v 3 3]);
                         GMPoly XYZ [MkPoly XYZ []; MkPoly XYZ [MkLine XYZ [ex_v 0 0; ex_v 1 0; ex_v 0 1; ex_v 0 0]]];
                         GLine (MkLine XYZ [])];
              GColl XYZ [GPoint (MkPoint XYZ None); GColl XYZ [GMLine XYZ [MkLine XYZ []; MkLine XYZ []]]] ].
Proof. vm_compute. reflexivity. Qed.
Example ex_strip : strip_empties (insert_empties ex_g ex_p) = ex_g.
Proof. vm_compute. reflexivity. Qed.
Example ex_dims : dimension (insert_empties ex_g ex_p) = 2 /\ dimension_ie ex_g = 2 /\
                  dimension (insert_empties (GColl XY [GPoint (MkPoint XY (Some (ex_v 1 1)))]) (EP [(1, EPg)] [])) = 2.
Proof. vm_compute. auto. Qed.

(* the codec hypotheses are satisfiable by a geometry with inserted members of every shape *)
Definition ex_n (x y : N) : vtx N := Build_vtx x y 0%N 0%N.
Definition ex_gn : geomT N :=
  GColl XY [GMPoint XY [MkPoint XY (Some (ex_n 4607182418800017408 4611686018427387904))];
            GColl XY [GLine (MkLine XY [ex_n 0 0; ex_n 4607182418800017408 4607182418800017408])]].
Example ex_codecs :
  WKB.wf_wkb ex_gn = true /\ WKB.geom_wf (insert_empties ex_gn ex_p) = true /\
  WKT.wkt_dom ex_gn = true /\ GeoJSON.same_ct ex_gn = true /\ is_empty (insert_empties ex_gn ex_p) = false.
Proof. vm_compute. auto. Qed.

(* the hypotheses of the point-set level theorems are satisfiable by a collection holding a polygon
   with a hole, a line string and a point (and decidable: C09 operand_ok_decidable) *)
Definition ex_q (x y : Z) : vtx Q := Build_vtx (inject_Z x) (inject_Z y) 0%Q 0%Q.
Definition ex_gq : geomT Q :=
  GColl XY [GPoly (MkPoly XY [MkLine XY [ex_q 0 0; ex_q 6 0; ex_q 6 6; ex_q 0 6; ex_q 0 0];
                               MkLine XY [ex_q 2 2; ex_q 2 4; ex_q 4 4; ex_q 4 2; ex_q 2 2]]);
            GMLine XY [MkLine XY [ex_q 7 0; ex_q 9 3]]; GPoint (MkPoint XY (Some (ex_q 3 3)))].
Example ex_pointset_hyps :
  Intersects_polypoly.operand_okb ex_gq = true /\ SetOpSpec.rings_closed_b ex_gq = true /\
  Boundary.geom_wf ex_gq = true /\ is_empty (insert_empties ex_gq ex_p) = false.
Proof. vm_compute. auto. Qed.

(* the hypotheses of insert_twkb_bbox_header are satisfiable: MULTILINESTRING ZM ((5 5 3 2,6 7 4 1),(8 6 5 2,9 9 3 3))
   with an empty line string in front, between and behind, an ID list of five resp. two entries; the
   box excludes 0 in every dimension *)
Definition ex_zv (x y z m : Z) : vtx Z := Build_vtx x y z m.
Definition ex_gz : geomT Z :=
  GMLine XYZM [MkLine XYZM [ex_zv 5 5 3 2; ex_zv 6 7 4 1]; MkLine XYZM [ex_zv 8 6 5 2; ex_zv 9 9 3 3]].
Definition ex_pz : eplan := EP [(0, ELn); (2, ELn); (4, ELn)] [].
Definition ex_o (ids : list Z) : TWKB.topts :=
  {| TWKB.o_pxy := 0; TWKB.o_pz := Some 1%Z; TWKB.o_pm := None; TWKB.o_size := true; TWKB.o_bbox := true;
     TWKB.o_close := false; TWKB.o_ids := ids |}.
Example ex_twkb_bbox :
  insert_empties ex_gz ex_pz =
    GMLine XYZM [MkLine XYZM []; MkLine XYZM [ex_zv 5 5 3 2; ex_zv 6 7 4 1]; MkLine XYZM [];
                 MkLine XYZM [ex_zv 8 6 5 2; ex_zv 9 9 3 3]; MkLine XYZM []] /\
  TWKB.wf_twkb (ex_o [1; 2; 3; 4; 5]%Z) (insert_empties ex_gz ex_pz) = true /\
  TWKB.wf_twkb (ex_o [7; 8]%Z) ex_gz = true /\
  EmptyObs.twkb_bbox_z ex_gz = Some [(5, 9); (5, 9); (3, 5); (1, 3)]%Z /\
  (exists b, TWKB.tmarshal (ex_o [1; 2; 3; 4; 5]%Z) (insert_empties ex_gz ex_pz) = Outcome.Ok b /\
             TWKB.tread_env b = Outcome.Ok (Some (XYZM, [(5, 9); (5, 9); (3, 5); (1, 3)]%Z))).
Proof.
  split; [vm_compute; reflexivity|]. split; [vm_compute; reflexivity|]. split; [vm_compute; reflexivity|].
  split; [vm_compute; reflexivity|].
  exists (match TWKB.tmarshal (ex_o [1; 2; 3; 4; 5]%Z) (insert_empties ex_gz ex_pz) with Outcome.Ok b => b | _ => [] end).
  split; vm_compute; reflexivity.
Qed.
