(* Property C15 - Boundary and PointOnSurface are consistent with the interior/boundary model.
   Statements only; proofs are in Proofs/Boundary_proofs.v, Proofs/PointOnSurface_proofs.v,
   Proofs/PosNesting_proofs.v and PosNesting2_proofs.v (the nesting hypothesis of the interior theorem
   derived from executable clauses; Model/PosNesting.v, PosNesting2.v), Proofs/BoundaryExact_proofs.v
   (the witness-evaluated "exactly the boundary set" decides it for all points; Model/BoundaryExact.v)
   and Proofs/BoundaryMod2_proofs.v (the mod-2 statements; Model/BoundaryMod2.v).
   Models: Model/Boundary.v, Model/PointOnSurface.v (transcriptions of the Go code over Q).
   Interior / Boundary / Exterior and point-set membership are the DEFINITIONS of Base/Planar.v
   (locate, inG: OGC mod-2 rule for lines, crossing parity for rings). *)
From Coq Require Import QArith List Bool ZArith.
From SF Require Import Base.GeomAST Base.QKernel Base.Planar Model.Boundary Model.PointOnSurface
  Proofs.Boundary_proofs Proofs.PointOnSurface_proofs
  Model.ValidateSpec Model.PosNesting Proofs.PosNesting_proofs
  Model.BoundaryExact Proofs.BoundaryExact_proofs
  Model.PosNesting2 Proofs.PosNesting2_proofs
  Model.BoundaryMod2 Proofs.BoundaryMod2_proofs.
Import ListNotations.
Open Scope Q_scope.

(* ---- concrete values for the non-vacuity examples ---- *)
Definition zv (p : Z * Z) : vtx Q := Build_vtx (inject_Z (fst p)) (inject_Z (snd p)) 0 0.
Definition zline (l : list (Z * Z)) : lineT Q := MkLine XY (map zv l).
Definition zpt (p : Z * Z) : pt := (inject_Z (fst p), inject_Z (snd p)).
(* three open lines sharing the end point (1,1), one closed line through it *)
Definition ex_star : list (lineT Q) :=
  [zline [(0,0);(1,1)]; zline [(1,1);(2,2)]; zline [(1,1);(3,0)]; zline [(1,1);(5,1);(5,5);(1,1)]]%Z.
(* square with a triangular hole whose apex is on the centre row of the envelope *)
Definition ex_holed : polyT Q :=
  MkPoly XY [zline [(0,0);(4,0);(4,4);(0,4);(0,0)]; zline [(1,1);(3,1);(2,2);(1,1)]]%Z.
(* U shape: the centre of the envelope is outside the polygon and its row hits two vertices *)
Definition ex_u : polyT Q :=
  MkPoly XY [zline [(0,0);(6,0);(6,4);(4,4);(4,2);(2,2);(2,4);(0,4);(0,0)]]%Z.
Definition ex_coll : geom :=
  GColl XY [GPoly (MkPoly XY []); GLine (zline [(0,0);(2,0);(2,2)]%Z); GPoint (MkPoint XY (Some (zv (7,7)%Z)))].

(* ================================================================ Boundary *)

(* dimension: the boundary is empty or exactly one dimension lower (dimension of the point set,
   empty parts not counted) - every type, nested collections included *)
Theorem boundary_dim : forall g : geom,
  geom_wf g = true -> is_empty (boundary g) = true \/ S (dim_ie (boundary g)) = dim_ie g.
Proof. exact boundary_dim_lemma. Qed.
Print Assumptions boundary_dim.
Example boundary_dim_ex :
  geom_wf (GPoly ex_holed) = true /\ dim_ie (boundary (GPoly ex_holed)) = 1%nat /\
  geom_wf ex_coll = true /\ dim_ie ex_coll = 1%nat /\ dim_ie (boundary ex_coll) = 0%nat /\
  dimension ex_coll = 2%nat.
Proof. vm_compute. repeat split. Qed.

(* the same with Go's Dimension() (empty members count) for the six non-collection types *)
Theorem boundary_dim_go : forall g : geom,
  (forall ct gs, g <> GColl ct gs) ->
  match dimension g with
  | O => is_empty (boundary g) = true
  | S d => dimension (boundary g) = d
  end.
Proof. exact boundary_dim_go_lemma. Qed.
Print Assumptions boundary_dim_go.

(* nothing for points; closed lines have none *)
Theorem boundary_puntal_empty : forall g : geom,
  (forall ct gs, g <> GColl ct gs) -> dimension g = 0%nat -> is_empty (boundary g) = true.
Proof. exact boundary_puntal_empty_lemma. Qed.
Print Assumptions boundary_puntal_empty.
Theorem boundary_closed_line_empty : forall l : lineT Q,
  line_is_closed l = true -> is_empty (boundary (GLine l)) = true.
Proof. exact boundary_closed_line_empty_lemma. Qed.
Print Assumptions boundary_closed_line_empty.
Example boundary_closed_line_ex : line_is_closed (zline [(1,1);(5,1);(5,5);(1,1)]%Z) = true.
Proof. reflexivity. Qed.

(* the boundary of a boundary is empty *)
Theorem boundary_of_boundary_empty : forall g : geom,
  geom_wf g = true -> is_empty (boundary (boundary g)) = true.
Proof. exact boundary_of_boundary_empty_lemma. Qed.
Print Assumptions boundary_of_boundary_empty.
Example boundary_of_boundary_ex :
  is_empty (boundary (GPoly ex_holed)) = false /\ is_empty (boundary (GMLine XY ex_star)) = false.
Proof. vm_compute. split; reflexivity. Qed.

(* mod-2 rule: a point belongs to the boundary of a MultiLineString iff it is an end point of an
   odd number of non-closed members - all inputs, no hypothesis *)
Theorem boundary_mod2_spec : forall (ls : list (lineT Q)) (p : pt),
  inG (mline_boundary ls) p = odd_open_ends ls p.
Proof. exact boundary_mod2_spec_lemma. Qed.
Print Assumptions boundary_mod2_spec.
Example boundary_mod2_ex :
  odd_open_ends ex_star (zpt (1,1)%Z) = true /\ odd_open_ends ex_star (zpt (5,5)%Z) = false /\
  odd_open_ends (tl ex_star) (zpt (1,1)%Z) = false /\ odd_open_ends ex_star (zpt (3,0)%Z) = true.
Proof. vm_compute. repeat split. Qed.

(* The SPEC check the driver evaluates on the implementation's Boundary(g) = b for a LineString or
   MultiLineString g of ANY size (agreement of "p in b" with "p is an end point of an odd number
   of non-closed members" at every end point of a member and at every point of b, b made of
   points only) decides that agreement for EVERY point of Q^2; and the model passes both checks. *)
Theorem mod2_exact_everywhere : forall g b : geom,
  (exists l, g = GLine l) \/ (exists ct ls, g = GMLine ct ls) ->
  puntalb b = true -> mod2_exact g b = true ->
  forall p, inG b p = odd_open_ends (lineal_members g) p.
Proof. exact mod2_exact_everywhere_lemma. Qed.
Print Assumptions mod2_exact_everywhere.
Theorem mod2_exact_model : forall g : geom, mod2_exact g (boundary g) = true.
Proof. exact mod2_exact_model_lemma. Qed.
Print Assumptions mod2_exact_model.
(* collections: every odd end point of every lineal leaf is a point of the boundary *)
Theorem mod2_complete_model : forall g : geom, mod2_complete g (boundary g) = true.
Proof. exact mod2_complete_model_lemma. Qed.
Print Assumptions mod2_complete_model.
Example mod2_exact_ex :
  puntalb (boundary (GMLine XY ex_star)) = true /\ mod2_exact (GMLine XY ex_star) (boundary (GMLine XY ex_star)) = true /\
  mod2_exact (GMLine XY ex_star) (GMPoint XY []) = false /\
  mod2_exact (GMLine XY ex_star) (boundary (GMLine XY (tl ex_star))) = false /\
  mod2_complete (GColl XY [GColl XY [GMLine XY ex_star]]) (GColl XY []) = false /\
  mod2_complete (GColl XY [GColl XY [GMLine XY ex_star]]) (boundary (GMLine XY ex_star)) = true.
Proof. vm_compute. repeat split. Qed.

(* every point of Boundary(g) relates to g as boundary, and nothing else does: lineal *)
Theorem boundary_locate_lineal : forall (g : geom) (p : pt),
  (exists l, g = GLine l) \/ (exists ct ls, g = GMLine ct ls) ->
  (inG (boundary g) p = true <-> locate g p = Boundary).
Proof. exact boundary_locate_lineal_lemma. Qed.
Print Assumptions boundary_locate_lineal.

(* ... Polygon (the rings, as LineString or MultiLineString) *)
Theorem boundary_locate_polygon : forall (y : polyT Q) (p : pt),
  inG (boundary (GPoly y)) p = true <-> locate (GPoly y) p = Boundary.
Proof. exact boundary_locate_polygon_lemma. Qed.
Print Assumptions boundary_locate_polygon.
Example boundary_locate_polygon_ex :
  locate (GPoly ex_holed) (zpt (2,2)%Z) = Boundary /\ locate (GPoly ex_holed) (zpt (2,3)%Z) = Interior /\
  inG (boundary (GPoly ex_holed)) (zpt (2,2)%Z) = true.
Proof. vm_compute. repeat split. Qed.

(* ... MultiPolygon: Boundary iff on a ring of a member and strictly inside no member (the second
   conjunct is automatic for valid input, whose members have disjoint interiors) *)
Theorem boundary_locate_multipolygon : forall ct (ys : list (polyT Q)) (p : pt),
  locate (GMPoly ct ys) p = Boundary <->
  inG (boundary (GMPoly ct ys)) p = true /\ existsb (fun y => poly_interior y p) ys = false.
Proof. exact boundary_locate_multipolygon_lemma. Qed.
Print Assumptions boundary_locate_multipolygon.

(* a collection's boundary is the collection of its members' non-empty boundaries *)
Theorem boundary_collection_structure : forall ct (gs : list geom),
  boundary (GColl ct gs) =
  if forallb (@is_empty Q) gs then GColl ct gs
  else GColl XY (filter (fun b => negb (is_empty b)) (map (fun g' => force2d (boundary g')) gs)).
Proof. exact boundary_collection_structure_lemma. Qed.
Print Assumptions boundary_collection_structure.
(* as point sets: the union of the members' boundaries *)
Theorem boundary_collection : forall ct (gs : list geom) (p : pt),
  inG (boundary (GColl ct gs)) p = existsb (fun g' => inG (boundary g') p) gs.
Proof. exact boundary_collection_lemma. Qed.
Print Assumptions boundary_collection.
Example boundary_collection_ex :
  inG (boundary ex_coll) (zpt (2,2)%Z) = true /\ inG (boundary ex_coll) (zpt (2,0)%Z) = false.
Proof. vm_compute. split; reflexivity. Qed.

(* ================================================================ PointOnSurface *)
(* every statement holds for EVERY centroid oracle cen (Centroid() is an argument of the model) *)

(* empty iff the input is empty, for every well-formed geometry of every type (cen defined on
   non-empty geometries). For MultiPolygons this needs fix F151 (before it, a MultiPolygon whose
   members all take the fall-back gave the empty Point). *)
Theorem pos_empty_iff : forall (cen : geom -> option pt),
  (forall x, is_empty x = false -> cen x <> None) ->
  forall g : geom, geom_wf g = true -> point_empty (pos cen g) = is_empty g.
Proof. exact pos_empty_iff_lemma. Qed.
Print Assumptions pos_empty_iff.
Example pos_empty_iff_ex :
  geom_wf (GMPoly XY [ex_holed; ex_u]) = true /\ geom_wf ex_coll = true /\ is_empty ex_coll = false /\
  point_empty (pos (fun _ => Some (0, 0)) ex_coll) = false.
Proof. vm_compute. repeat split. Qed.

(* lineal: the point is on the line string (it is one of its control points) *)
Theorem pos_lineal_on_line : forall (cen : geom -> option pt) (l : lineT Q) (p : pt),
  point_xy (pos cen (GLine l)) = Some p -> on_line l p = true.
Proof. exact pos_line_on_line_lemma. Qed.
Print Assumptions pos_lineal_on_line.
Theorem pos_multilineal_on_line : forall (cen : geom -> option pt) ct (ls : list (lineT Q)) (p : pt),
  point_xy (pos cen (GMLine ct ls)) = Some p -> inG (GMLine ct ls) p = true.
Proof. exact pos_mline_on_line_lemma. Qed.
Print Assumptions pos_multilineal_on_line.
Example pos_lineal_ex :
  point_xy (pos (fun _ => Some (zpt (2,1)%Z)) (GLine (zline [(0,0);(2,0);(2,2)]%Z))) = Some (zpt (2,0)%Z) /\
  point_xy (pos (fun _ => Some (zpt (2,1)%Z)) (GMLine XY ex_star)) = Some (zpt (5,1)%Z).
Proof. vm_compute. split; reflexivity. Qed.

(* puntal: one of the member points *)
Theorem pos_multipoint_member : forall (cen : geom -> option pt) ct (ps : list (pointT Q)) (p : pt),
  point_xy (pos cen (GMPoint ct ps)) = Some p -> exists q, In q ps /\ point_xy q = Some p.
Proof. exact pos_mpoint_member_lemma. Qed.
Print Assumptions pos_multipoint_member.
Theorem pos_point : forall (cen : geom -> option pt) (q : pointT Q),
  point_xy (pos cen (GPoint q)) = point_xy q.
Proof. exact pos_point_lemma. Qed.
Print Assumptions pos_point.

(* collections: the result is the point-on-surface of a non-empty leaf of the highest dimension *)
Theorem pos_collection_highest_dim : forall (cen : geom -> option pt) ct (gs : list geom) (p : pt),
  point_xy (pos cen (GColl ct gs)) = Some p ->
  exists l, In l (leaves (GColl ct gs)) /\ is_empty l = false /\
            dim_ie l = dim_ie (GColl ct gs) /\ pos cen (GColl ct gs) = leaf_pos cen l.
Proof. exact pos_collection_lemma. Qed.
Print Assumptions pos_collection_highest_dim.
Example pos_collection_ex :
  point_xy (pos (fun _ => Some (zpt (7,7)%Z)) ex_coll) = Some (zpt (2,0)%Z).
Proof. vm_compute. reflexivity. Qed.

(* areal, step 1 (all polygons, no hypothesis): the bisector passes through no control point of
   any ring - the adjustment "mean with the next higher control point" does what it is meant to *)
Theorem pos_row_avoids_vertices : forall (y : polyT Q) (ri : row_info),
  poly_row y = Some ri ->
  forall r q, In r (poly_rings y) -> In q (line_pts r) -> ~ snd q == r_y ri.
Proof. exact row_avoids_vertices_lemma. Qed.
Print Assumptions pos_row_avoids_vertices.
Example pos_row_ex :
  option_map r_y (poly_row ex_holed) = Some (12 # 4) /\ option_map r_y (poly_row ex_u) = Some (12 # 4) /\
  option_map r_xs (poly_row ex_u) = Some [0; 2 # 1; 4 # 1; 6 # 1].
Proof. vm_compute. repeat split. Qed.

(* the bisector is horizontal at that ordinate; the intercepts are the abscissae where ring edges
   meet it, sorted (not de-duplicated: fix F150), strictly increasing when they are distinct *)
Theorem pos_row_shape : forall (y : polyT Q) (ri : row_info),
  poly_row y = Some ri ->
  snd (fst (r_bis ri)) = r_y ri /\ snd (snd (r_bis ri)) = r_y ri /\
  r_xs ri = isort (raw_intercepts (r_bis ri) (poly_rings y)) /\
  (nodupq (raw_intercepts (r_bis ri) (poly_rings y)) = true -> ssorted (r_xs ri)).
Proof. exact row_shape_lemma. Qed.
Print Assumptions pos_row_shape.

(* areal, step 2: the returned point is STRICTLY INTERIOR. Parity argument on the one horizontal
   line: no control point on the row => every ring edge either misses the row or crosses it
   properly at one point; the crossings to the right of the midpoint of the (2k+1)-th .. (2k+2)-th
   sorted intercept are odd in number, so the crossing parities of the rings at the point XOR to
   odd, and the point is on no ring. Hypotheses = what polygon validity provides, stated with the
   model's quantities: the bisector reaches every crossing (row_spans: holes do not leave the
   shell's envelope), distinct edges meet the row in distinct points (nodupq), holes lie inside the
   shell and are not nested in one another, in the crossing-parity sense (valid_nesting). *)
Theorem pos_areal_interior : forall (y : polyT Q) (ri : row_info) (p : pt),
  poly_row y = Some ri ->
  xs_regular (r_xs ri) = true ->
  row_spans (fst (fst (r_bis ri))) (fst (snd (r_bis ri))) (r_y ri) (poly_rings y) = true ->
  nodupq (raw_intercepts (r_bis ri) (poly_rings y)) = true ->
  valid_nesting y ->
  point_xy (fst (point_on_area y)) = Some p ->
  poly_interior y p = true /\ locate (GPoly y) p = Interior.
Proof. exact pos_areal_interior_lemma. Qed.
Print Assumptions pos_areal_interior.
(* the hypotheses hold for the U shape (holeless: the nesting condition is immediate), whose
   envelope centre (3,2) is outside the polygon and on a vertex row; the result is (1,3),
   printed unreduced as (2/2, 12/4) *)
Example pos_areal_interior_ex :
  row_hyps ex_u = true /\ valid_nesting ex_u /\ point_xy (fst (point_on_area ex_u)) = Some (2 # 2, 12 # 4).
Proof.
  split; [vm_compute; reflexivity|]. split; [|vm_compute; reflexivity].
  intros p _. unfold nesting_at. cbn. split; [apply le_S, le_n|intros H; discriminate H].
Qed.
(* with a hole: decidable hypotheses, and the nesting condition at the returned point (2,3) *)
Example pos_areal_interior_ex2 :
  row_hyps ex_holed = true /\ point_xy (fst (point_on_area ex_holed)) = Some (4 # 2, 12 # 4) /\
  nesting_atb ex_holed (4 # 2, 12 # 4) = true /\ locate (GPoly ex_holed) (4 # 2, 12 # 4) = Interior.
Proof. vm_compute. repeat split. Qed.

(* MultiPolygon: the point is the point of a member, strictly interior *)
Theorem pos_multipolygon_interior : forall ct (ys : list (polyT Q)) (p : pt),
  (forall y, In y ys -> poly_empty y = false -> row_hyps y = true /\ valid_nesting y) ->
  point_xy (mpoly_pos ys) = Some p ->
  locate (GMPoly ct ys) p = Interior.
Proof. exact pos_mpoly_interior_lemma. Qed.
Print Assumptions pos_multipolygon_interior.

(* ================================================================ the interior theorem with EXECUTABLE hypotheses only *)
(* valid_nesting is not assumed: it is derived, at the returned point, from the executable
   predicate nest_okb (Model/PosNesting.v): rings closed, every hole in the closed exterior ring and
   no hole entering another (clauses hole_inside / not_nested of the verified reference ogc_valid,
   Model/ValidateSpec.v), the exterior ring entering no hole (shell_outside) - each evaluated at the
   witnesses of the exact arrangement, which decides it for ALL points of Q^2 (Proofs/Planar_slab.v
   via Validate_ogc.everywhere_spec).  row_hyps (Model/PointOnSurface.v) is the decidable rest:
   even number >= 2 of intercepts, the bisector reaches every crossing, crossings pairwise distinct.
   The driver evaluates interior_hyps = row_hyps && nest_okb on every valid generated polygon. *)
Theorem pos_areal_interior_exec : forall (y : polyT Q) (p : pt),
  row_hyps y = true -> nest_okb y = true ->
  point_xy (fst (point_on_area y)) = Some p ->
  locate (GPoly y) p = Interior.
Proof. exact pos_areal_interior_exec_lemma. Qed.
Print Assumptions pos_areal_interior_exec.
Example pos_areal_interior_exec_ex :
  interior_hyps ex_holed = true /\ interior_hyps ex_u = true /\
  point_xy (fst (point_on_area ex_holed)) = Some (4 # 2, 12 # 4).
Proof. vm_compute. repeat split. Qed.

Theorem pos_multipolygon_interior_exec : forall ct (ys : list (polyT Q)) (p : pt),
  (forall y, In y ys -> poly_empty y = false -> interior_hyps y = true) ->
  point_xy (mpoly_pos ys) = Some p ->
  locate (GMPoly ct ys) p = Interior.
Proof. exact pos_mpoly_interior_exec_lemma. Qed.
Print Assumptions pos_multipolygon_interior_exec.

(* the third clause means what it says, for all points *)
Theorem shell_outside_meaning : forall sh h : list pt, pts_closed h = true ->
  (shell_outside sh h = true <->
   forall p, on_edges (segs sh) p = true -> on_edges (segs h) p = false -> edges_parity (segs h) p = false).
Proof. exact shell_outside_spec. Qed.
Print Assumptions shell_outside_meaning.

(* link to ogc_valid: its polygon clause gives all of nest_okb except shell_outside *)
Theorem nest_ok_from_ogc_polygon_clause : forall (y : polyT Q) shell holes,
  rings_of y = shell :: holes ->
  poly_def (shell :: holes) = true -> forallb (shell_outside shell) holes = true -> nest_okb y = true.
Proof. exact nest_okb_from_ogc. Qed.
Print Assumptions nest_ok_from_ogc_polygon_clause.

(* ================================================================ "exactly the set", for ALL points *)
(* The SPEC check the driver evaluates on the implementation's Boundary(g) = b (agreement of
   "p in b" with "p is Boundary of a leaf of g" at the witnesses of the exact arrangement of g and
   b, rings closed) decides that agreement for EVERY point of Q^2 - nothing is left to sampling. *)
Theorem boundary_exact_everywhere : forall g b : geom,
  boundary_exact_ok g b = true ->
  forall p, inG b p = on_leaf_boundary (leaf_preps g) p.
Proof. exact boundary_exact_everywhere_lemma. Qed.
Print Assumptions boundary_exact_everywhere.
Example boundary_exact_everywhere_ex :
  boundary_exact_ok (GPoly ex_holed) (boundary (GPoly ex_holed)) = true /\
  boundary_exact_ok ex_coll (boundary ex_coll) = true /\
  boundary_exact_ok (GPoly ex_holed) (GLine (zline [(0,0);(4,0);(4,4);(0,4);(0,0)]%Z)) = false.
Proof. vm_compute. repeat split. Qed.

(* ================================================================ from ogc_valid's polygon clause *)
(* For a hole whose boundary does not meet the exterior ring (rings_apart, exact seg_seg on all
   segment pairs) the clause shell_outside is DERIVED from ogc_valid's hole_inside: closed rings
   that avoid each other look uniform from one another, and two rings cannot each lie inside the
   other.  shell_outside remains an executable hypothesis only for holes that touch the exterior
   ring.  nest_okb2 (Model/PosNesting2.v) is nest_okb with shell_outside asked only of the holes
   that are not rings_apart from the exterior ring (and every ring having two different vertices);
   ogc_nest_okb y, the hypothesis of
   pos_areal_interior_ogc below, = poly_def (rings of y) && forall holes h, rings_apart || shell_outside. *)
Theorem nest_ok_from_apart_holes : forall y : polyT Q, nest_okb2 y = true -> nest_okb y = true.
Proof. exact nest_okb2_sound. Qed.
Print Assumptions nest_ok_from_apart_holes.

Theorem pos_areal_interior_ogc : forall (y : polyT Q) (p : pt),
  row_hyps y = true -> ogc_nest_okb y = true ->
  point_xy (fst (point_on_area y)) = Some p ->
  locate (GPoly y) p = Interior.
Proof. exact pos_areal_interior_ogc_lemma. Qed.
Print Assumptions pos_areal_interior_ogc.
(* a hole apart from the exterior ring: poly_def alone (ex_holed); U shape: no hole at all *)
Example pos_areal_interior_ogc_ex :
  ogc_nest_okb ex_holed = true /\ ogc_nest_okb ex_u = true /\
  forallb (fun h => rings_apart (hd [] (rings_of ex_holed)) h) (tl (rings_of ex_holed)) = true.
Proof. vm_compute. repeat split. Qed.
