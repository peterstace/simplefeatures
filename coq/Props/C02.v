(* Property C02 - Relate returns the true DE-9IM matrix and the named predicates follow from it.
   Statements only; proofs in Proofs/RelateMatch_proofs.v (matcher, predicates), Proofs/Relate_proofs.v
   (empty operands, transposition), Proofs/Planar_proofs.v (witnesses of the arrangement),
   Proofs/Planar_slab_base.v, Planar_slab.v, Planar_slab_dim.v (sufficiency of the witnesses),
   Proofs/Relate_slab_proofs.v (its consequences for Relate and Disjoint) and
   Proofs/RelateComplex_proofs.v (extraction of the matrix from the labelled overlay).  Model: Model/Relate.v (+ Model/RelatePatterns.v) over Base/Planar.v.

   Three layers (DESIGN.md "C02"):
   (a) the pattern matcher and the nine predicates as functions of Relate's string: full proofs;
       the facts about the predicates hold for ALL 4^9 = 262144 matrices (m ranges over the finite
       type matrix = dimv^9): each pattern list is reduced cell by cell to its entry-by-entry meaning
       and the dualities, symmetries and implications follow from the meanings;
   (b) empty operands: closed form, transposition, transparency of empty collection members (F8:
       refuted for the pinned code, proved for the repaired code): full proofs;
   (c) two non-empty operands: the model IS the reference semantics de9im_ref (exact arrangement +
       definitional locate).  The witnesses are SUFFICIENT (Proofs/Planar_slab*.v):
       every point of Q^2 has a witness with the same location w.r.t. every geometry of the
       arrangement (hypothesis: polygon rings are closed vertex lists), hence every entry of the
       model's matrix is characterised in terms of ALL points of the plane (section (c'), below).
       The ..._partial theorems state the witness-level facts.  What remains unformalised is only the passage from
       the combinatorial characterisation (only vertices / a non-vertex point / a point off every
       segment) to topological dimension, and the construction and labelling of the overlay by the
       Go code: section (c'') models the extraction of the matrix from the labelled overlay and
       proves it right for sound labels; the labels of every real overlay are judged by the driver. *)
From Coq Require Import QArith List Bool ZArith NArith.
From SF Require Import Model.SetOpSpec Model.OverlayComplex.
From SF Require Import Base.GeomAST Base.QKernel Base.Planar Proofs.Planar_proofs
  Model.RelatePatterns Model.Relate Proofs.RelateMatch_proofs Proofs.Relate_proofs
  Proofs.Planar_slab_base Proofs.Planar_slab Proofs.Planar_slab_dim Proofs.Relate_slab_proofs
  Model.RelateComplex Proofs.RelateComplex_proofs.
Import ListNotations.
Local Close Scope Q_scope.
Local Open Scope nat_scope.
Local Open Scope list_scope.

(* ------------------------------------------------------------------ (a) RelateMatches *)
(* for ALL byte strings: error iff a length is not 9 or the first position that does not match is an
   invalid character (pattern character examined before the matrix character); false iff both
   lengths are 9 and the first non-matching position is a plain mismatch; true iff everything matches *)
Theorem relate_matches_spec : forall mat pat : bytes,
  (relate_matches mat pat = RMErr <->
     List.length mat <> 9 \/ List.length pat <> 9 \/ first_bad mat pat (Some CellErr)) /\
  (relate_matches mat pat = RM false <->
     List.length mat = 9 /\ List.length pat = 9 /\ first_bad mat pat (Some CellMismatch)) /\
  (relate_matches mat pat = RM true <->
     List.length mat = 9 /\ List.length pat = 9 /\ first_bad mat pat None).
Proof. exact relate_matches_spec_lemma. Qed.
Print Assumptions relate_matches_spec.

(* on well-formed input the matcher is the cell-wise rule F~{F,*}, d~{d,T,*} *)
Theorem relate_matches_typed : forall (m : matrix) (pats : list bytes) (tps : list (list pchar)),
  typed_pats pats = Some tps -> match_any (enc_matrix m) pats = RM (pmatch_any m tps).
Proof. exact match_any_typed. Qed.
Print Assumptions relate_matches_typed.

(* the enumeration used below is complete: every matrix is in the list of 4^9 *)
Theorem all_matrices_enumerated : (forall m : matrix, In m all_matrices) /\
  N.of_nat (List.length all_matrices) = 262144%N.
Proof. exact (conj all_matrices_complete all_matrices_length). Qed.
Print Assumptions all_matrices_enumerated.

(* ---- the predicates, for every one of the 262144 matrices m *)
Theorem contains_within_dual : forall m : matrix,
  go_contains (enc_matrix m) = go_within (enc_matrix (transpose m)) /\
  go_within (enc_matrix m) = go_contains (enc_matrix (transpose m)).
Proof. exact (fun m => conj (contains_within_dual_lemma m) (within_contains_dual_lemma m)). Qed.
Print Assumptions contains_within_dual.

Theorem covers_coveredby_dual : forall m : matrix,
  go_covers (enc_matrix m) = go_coveredby (enc_matrix (transpose m)) /\
  go_coveredby (enc_matrix m) = go_covers (enc_matrix (transpose m)).
Proof. exact (fun m => conj (covers_coveredby_dual_lemma m) (coveredby_covers_dual_lemma m)). Qed.
Print Assumptions covers_coveredby_dual.

(* Disjoint is the negation of "the two sets share a point" (some entry of II, IB, BI, BB is set) *)
Theorem disjoint_iff_not_intersects : forall m : matrix,
  go_disjoint (enc_matrix m) = RM (negb (m_intersects m)).
Proof. exact disjoint_iff_not_intersects_lemma. Qed.
Print Assumptions disjoint_iff_not_intersects.

Theorem equals_sym : forall (m : matrix) (ea eb : bool),
  go_equals (enc_matrix m) ea eb = go_equals (enc_matrix (transpose m)) eb ea.
Proof. exact equals_sym_lemma. Qed.
Print Assumptions equals_sym.
Theorem touches_sym : forall m : matrix, go_touches (enc_matrix m) = go_touches (enc_matrix (transpose m)).
Proof. exact touches_sym_lemma. Qed.
Print Assumptions touches_sym.
Theorem disjoint_sym : forall m : matrix, go_disjoint (enc_matrix m) = go_disjoint (enc_matrix (transpose m)).
Proof. exact disjoint_sym_lemma. Qed.
Print Assumptions disjoint_sym.
(* for all dimensions da, db (any natural numbers) *)
Theorem overlaps_sym : forall (m : matrix) (da db : nat),
  go_overlaps (enc_matrix m) da db = go_overlaps (enc_matrix (transpose m)) db da.
Proof. exact overlaps_sym_lemma. Qed.
Print Assumptions overlaps_sym.
Theorem crosses_sym : forall (m : matrix) (da db : nat),
  go_crosses (enc_matrix m) da db = go_crosses (enc_matrix (transpose m)) db da.
Proof. exact crosses_sym_lemma. Qed.
Print Assumptions crosses_sym.

Theorem within_implies_coveredby : forall m : matrix,
  (go_within (enc_matrix m) = RM true -> go_coveredby (enc_matrix m) = RM true) /\
  (go_contains (enc_matrix m) = RM true -> go_covers (enc_matrix m) = RM true) /\
  (go_equals (enc_matrix m) false false = RM true ->
   go_within (enc_matrix m) = RM true /\ go_contains (enc_matrix m) = RM true).
Proof.
  exact (fun m => conj (within_implies_coveredby_lemma m)
                   (conj (contains_implies_covers_lemma m) (equals_implies_within_contains_lemma m))).
Qed.
Print Assumptions within_implies_coveredby.

(* dimension rules: for ALL strings and all dimensions *)
Theorem crosses_dim_rule : forall (mat : bytes) (da db : nat),
  (da = db -> da <> 1 -> go_crosses mat da db = RM false) /\
  (da <> db -> go_overlaps mat da db = RM false).
Proof. exact (fun mat da db => conj (crosses_dim_rule_lemma mat da db) (overlaps_dim_rule_lemma mat da db)). Qed.
Print Assumptions crosses_dim_rule.

(* no predicate can fail on a matrix Relate produces *)
Theorem preds_no_error : forall (m : matrix) (da db : nat) (ea eb : bool),
  ~ In RMErr (go_preds (enc_matrix m) da db ea eb).
Proof. exact preds_no_error_lemma. Qed.
Print Assumptions preds_no_error.

(* the transcribed pattern lists mean what the documentation (OGC 06-103r4, JTS) says, entry by entry *)
Theorem predicates_match_ogc_patterns : forall m : matrix,
  go_equals (enc_matrix m) false false = RM (isT (mII m) && isF (mIE m) && isF (mBE m) && isF (mEI m) && isF (mEB m)) /\
  go_disjoint (enc_matrix m) = RM (isF (mII m) && isF (mIB m) && isF (mBI m) && isF (mBB m)) /\
  go_touches (enc_matrix m) = RM (isF (mII m) && (isT (mIB m) || isT (mBI m) || isT (mBB m))) /\
  go_contains (enc_matrix m) = RM (isT (mII m) && isF (mEI m) && isF (mEB m)) /\
  go_covers (enc_matrix m) = RM (m_intersects m && isF (mEI m) && isF (mEB m)) /\
  go_within (enc_matrix m) = RM (isT (mII m) && isF (mIE m) && isF (mBE m)) /\
  go_coveredby (enc_matrix m) = RM (m_intersects m && isF (mIE m) && isF (mBE m)) /\
  (forall da db, da < db -> go_crosses (enc_matrix m) da db = RM (isT (mII m) && isT (mIE m))) /\
  (forall da db, db < da -> go_crosses (enc_matrix m) da db = RM (isT (mII m) && isT (mEI m))) /\
  go_crosses (enc_matrix m) 1 1 = RM (match mII m with D0 => true | _ => false end) /\
  go_overlaps (enc_matrix m) 0 0 = RM (isT (mII m) && isT (mIE m) && isT (mEI m)) /\
  go_overlaps (enc_matrix m) 2 2 = RM (isT (mII m) && isT (mIE m) && isT (mEI m)) /\
  go_overlaps (enc_matrix m) 1 1 = RM ((match mII m with D1 => true | _ => false end) && isT (mIE m) && isT (mEI m)).
Proof. exact predicates_match_ogc_lemma. Qed.
Print Assumptions predicates_match_ogc_patterns.

(* the byte patterns used by the model are the string literals of Model/RelatePatterns.v *)
Theorem patterns_are_the_transcribed_ones :
  bp_equals = map str_bytes pats_equals /\ bp_disjoint = map str_bytes pats_disjoint /\
  bp_touches = map str_bytes pats_touches /\ bp_contains = map str_bytes pats_contains /\
  bp_covers = map str_bytes pats_covers /\ bp_within = map str_bytes pats_within /\
  bp_coveredby = map str_bytes pats_coveredby /\ bp_crosses_lt = map str_bytes pats_crosses_lt /\
  bp_crosses_gt = map str_bytes pats_crosses_gt /\ bp_crosses_11 = map str_bytes pats_crosses_11 /\
  bp_overlaps_00_22 = map str_bytes pats_overlaps_00_22 /\ bp_overlaps_11 = map str_bytes pats_overlaps_11.
Proof. exact bp_spec. Qed.
Print Assumptions patterns_are_the_transcribed_ones.

(* ------------------------------------------------------------------ (b) and whole-model facts *)
(* Relate(b,a) is the transpose of Relate(a,b): for ALL pairs of geometries of the model (empty or
   not, any nesting), for the pinned and for the repaired dimension function *)
Theorem relate_transpose : forall (a b : geom),
  relate b a = transpose (relate a b) /\ relate_unfixed b a = transpose (relate_unfixed a b).
Proof. exact (fun a b => conj (relate_with_transpose dimension_ie a b) (relate_with_transpose dimension a b)). Qed.
Print Assumptions relate_transpose.

(* consequently the dualities hold for geometries: Contains(a,b) = Within(b,a), Covers(a,b) =
   CoveredBy(b,a), through the strings Relate returns *)
Theorem contains_within_dual_geom : forall a b : geom,
  go_contains (enc_matrix (relate a b)) = go_within (enc_matrix (relate b a)) /\
  go_covers (enc_matrix (relate a b)) = go_coveredby (enc_matrix (relate b a)).
Proof.
  exact (fun a b =>
    conj (eq_trans (contains_within_dual_lemma (relate a b))
                   (f_equal (fun m => go_within (enc_matrix m)) (eq_sym (relate_with_transpose dimension_ie a b))))
         (eq_trans (covers_coveredby_dual_lemma (relate a b))
                   (f_equal (fun m => go_coveredby (enc_matrix m)) (eq_sym (relate_with_transpose dimension_ie a b))))).
Qed.
Print Assumptions contains_within_dual_geom.

(* empty operands: both empty -> FFFFFFFF2; nothing meets the interior/boundary of an empty operand
   (in the code's closed form AND in the definitional matrix); the exteriors meet in an area *)
Theorem relate_empty_spec : forall (a b : geom),
  (is_empty a = true -> is_empty b = true -> relate a b = MkM DF DF DF DF DF DF DF DF D2) /\
  (is_empty b = true -> forall l,
     mget (relate a b) l Interior = DF /\ mget (relate a b) l Boundary = DF /\
     mget (de9im_ref a b) l Interior = DF /\ mget (de9im_ref a b) l Boundary = DF) /\
  (is_empty a || is_empty b = true -> mEE (relate a b) = D2).
Proof.
  exact (fun a b =>
    conj (relate_both_empty dimension_ie a b)
   (conj (fun E l => conj (proj1 (relate_empty_right dimension_ie a b E l))
                    (conj (proj2 (relate_empty_right dimension_ie a b E l))
                          (de9im_ref_empty_right a b l E)))
         (relate_empty_EE dimension_ie a b))).
Qed.
Print Assumptions relate_empty_spec.
(* NOT proved (rests on the correspondence run, check relate_is_de9im): that the remaining entries
   EI/EB (IE/BE) of the closed form - dimension of the non-empty operand and of its boundary - equal
   those of the definitional matrix; it needs that the non-empty operand has interior and boundary
   points of the dimension the closed form names (section (c') reduces the claim to that). *)

(* F8. The pinned code: an empty member of a collection changes Relate and the predicates *)
Theorem relate_empty_member_refuted :
  (exists ct gs1 e gs2 h, is_empty e = true /\
     relate_unfixed (GColl ct (gs1 ++ e :: gs2)) h <> relate_unfixed (GColl ct (gs1 ++ gs2)) h) /\
  (exists ct gs1 e gs2 h, is_empty e = true /\
     preds_unfixed (GColl ct (gs1 ++ e :: gs2)) h <> preds_unfixed (GColl ct (gs1 ++ gs2)) h).
Proof. exact (conj relate_empty_member_refuted_lemma preds_empty_member_refuted_lemma). Qed.
Print Assumptions relate_empty_member_refuted.

(* F8 repaired: empty members are transparent, wherever they are inserted, on either side, for
   Relate and for all nine predicates; and a one-member collection is its member *)
Theorem relate_empty_member_transparent : forall ct (gs1 : list geom) (e : geom) (gs2 : list geom) (h : geom),
  is_empty e = true ->
  relate (GColl ct (gs1 ++ e :: gs2)) h = relate (GColl ct (gs1 ++ gs2)) h /\
  relate h (GColl ct (gs1 ++ e :: gs2)) = relate h (GColl ct (gs1 ++ gs2)) /\
  preds (GColl ct (gs1 ++ e :: gs2)) h = preds (GColl ct (gs1 ++ gs2)) h.
Proof. exact relate_empty_member_transparent_lemma. Qed.
Print Assumptions relate_empty_member_transparent.
Theorem relate_singleton_collection : forall ct (g h : geom),
  relate (GColl ct [g]) h = relate g h /\ preds (GColl ct [g]) h = preds g h.
Proof. exact relate_singleton_collection_lemma. Qed.
Print Assumptions relate_singleton_collection.

(* ------------------------------------------------------------------ (c) non-empty operands *)
(* FULL STATEMENT (not proved in this form: topological dimension is not formalised): for valid a, b
   in the property's domain and every entry (la,lb),
     mget (relate a b) la lb = the dimension of { p in Q^2 | locate a p = la /\ locate b p = lb }.
   Proved here: the entries are exactly the maxima over the witnesses of the exact arrangement
   (each set entry is attained at a concrete rational point with those two definitional locations
   and that cell dimension; no witness exceeds its entry); dimension-0 witnesses are arrangement
   vertices; membership and location agree.  That every point of Q^2 has the location pair of
   some witness, and the characterisation of every entry over all points of the plane, are in section
   (c') below (slab_witnesses_sufficient, relate_entries_characterised). *)
Theorem relate_nonempty_witnessed_partial : forall (a b : geom) (la lb : loc),
  is_empty a = false -> is_empty b = false ->
  (mget (relate a b) la lb <> DF ->
     exists w, In (w, mget (relate a b) la lb) (pair_witnesses a b) /\ locate a w = la /\ locate b w = lb) /\
  (forall w d, In (w, d) (pair_witnesses a b) -> locate a w = la -> locate b w = lb ->
     dim_rank d <= dim_rank (mget (relate a b) la lb)).
Proof.
  intros a b la lb Ea Eb. unfold relate, relate_with. rewrite Ea, Eb. simpl. split.
  - exact (de9im_ref_entry_witnessed a b la lb).
  - intros w d H <- <-. exact (de9im_ref_entry_ge a b w d H).
Qed.
Print Assumptions relate_nonempty_witnessed_partial.

Theorem witness_vertices_partial : forall (L : list seg) (P : list pt) (w : pt),
  In (w, D0) (witnesses L P) ->
  exists v, pt_eq v w /\
    ((exists s, In s L /\ (v = fst s \/ v = snd s)) \/
     (exists s t, In s L /\ In t L /\ In v (ssr_points (seg_seg s t)) /\ on_seg s v = true /\ on_seg t v = true) \/
     In v P).
Proof.
  intros L P w H. destruct (witness_dim0_is_vertex L P w H) as [v [Hv E]].
  exists v. split; [exact E | exact (vertex_set_spec L P v Hv)].
Qed.
Print Assumptions witness_vertices_partial.

(* locate is a total function into three exclusive classes, and agrees with membership *)
Theorem locate_total_exclusive : forall (g : geom) (p : pt),
  (locate g p = Interior \/ locate g p = Boundary \/ locate g p = Exterior) /\
  (inG g p = true <-> locate g p <> Exterior).
Proof. exact (fun g p => conj (locate_total g p) (inG_locate g p)). Qed.
Print Assumptions locate_total_exclusive.

(* the kernel under the arrangement: reported intersection points lie on both segments, and two
   segments with a common point are never classified as disjoint *)
Theorem seg_seg_correct : forall (s t : seg),
  (forall p, In p (ssr_points (seg_seg s t)) -> on_seg s p = true /\ on_seg t p = true) /\
  (forall p, on_seg s p = true -> on_seg t p = true -> seg_seg s t <> SSEmpty).
Proof. exact (fun s t => conj (seg_seg_sound s t) (seg_seg_complete s t)). Qed.
Print Assumptions seg_seg_correct.

(* ------------------------------------------------------------------ examples (non-vacuity) *)
Definition sq (x0 y0 x1 y1 : Z) : geom :=
  GPoly (MkPoly XY [MkLine XY [vq x0 y0; vq x1 y0; vq x1 y1; vq x0 y1; vq x0 y0]]).
(* two overlapping squares: 212101212, and the transposed call *)
Example ex_overlapping_squares :
  enc_matrix (relate (sq 0 0 2 2) (sq 1 1 3 3)) = map N.of_nat [50; 49; 50; 49; 48; 49; 50; 49; 50] /\
  preds (sq 0 0 2 2) (sq 1 1 3 3) = [RM false; RM false; RM false; RM false; RM false; RM false; RM false; RM false; RM true].
Proof. vm_compute. split; reflexivity. Qed.
(* a square containing a smaller one: Contains/Covers true; the transposed pair: Within/CoveredBy true *)
Example ex_contains :
  preds (sq 0 0 4 4) (sq 1 1 2 2) = [RM false; RM false; RM false; RM true; RM true; RM false; RM false; RM false; RM false] /\
  preds (sq 1 1 2 2) (sq 0 0 4 4) = [RM false; RM false; RM false; RM false; RM false; RM true; RM true; RM false; RM false].
Proof. vm_compute. split; reflexivity. Qed.
(* the F8 witness on the repaired model: the empty member does not matter *)
Example ex_f8_repaired :
  relate (GColl XY [f8_g; f8_e]) f8_h = relate f8_g f8_h /\
  preds (GColl XY [f8_l1; f8_e]) f8_l2 = preds f8_l1 f8_l2 /\
  nth 8 (preds f8_l1 f8_l2) RMErr = RM true.
Proof. vm_compute. repeat split; reflexivity. Qed.
(* the matcher's three outcomes are all reachable *)
Example ex_matcher :
  relate_matches (map N.of_nat [50;49;50;49;48;49;50;49;50]) (map N.of_nat [84;42;84;42;42;42;84;42;42]) = RM true /\
  relate_matches (map N.of_nat [70;49;50;49;48;49;50;49;50]) (map N.of_nat [84;42;84;42;42;42;84;42;42]) = RM false /\
  relate_matches (map N.of_nat [70;49;50;49;48;49;50;49;50]) (map N.of_nat [84;42;84;42;42;42;84;42;120]) = RM false /\
  relate_matches (map N.of_nat [50;49;50;49;48;49;50;49;50]) (map N.of_nat [84;42;84;42;42;42;84;42;120]) = RMErr /\
  relate_matches (map N.of_nat [50;49;50]) (map N.of_nat [84;42;84;42;42;42;84;42;42]) = RMErr.
Proof. vm_compute. repeat split; reflexivity. Qed.

(* ------------------------------------------------------------------ (c') sufficiency of the witnesses *)
(* S3, uniform: for ANY finite set of segments L and isolated points P, every point p of Q^2 has a
   witness w (of the list the oracle enumerates) such that locate g p = locate g w for EVERY geometry g
   whose segments are in L and points in P and whose polygon rings are closed.  No other validity is
   assumed: rings may self-intersect, members may overlap. *)
Theorem slab_witnesses_sufficient : forall (L : list seg) (P : list pt) (p : pt),
  exists w d, In (w, d) (witnesses L P) /\
    forall g, covers_geom L P g -> rings_closed g -> locate g p = locate g w.
Proof. exact witnesses_sufficient. Qed.
Print Assumptions slab_witnesses_sufficient.

(* S1 (cell constancy), in the two forms the construction uses: two points of the same open slab that
   compare alike with every spanning segment, or two points of the same vertical line that compare alike
   with every ordinate of the line, cannot be told apart by any segment or vertex of the arrangement ... *)
Theorem cell_constancy : forall (L : list seg) (P : list pt),
  (forall x0 x1 p w, In (x0, x1) (consec (events (vertex_set L P))) ->
     (x0 < fst p < x1)%Q -> (x0 < fst w < x1)%Q ->
     (forall e, In e L -> spans x0 x1 e -> (snd p ?= y_at e (fst p))%Q = (snd w ?= y_at e (fst w))%Q) ->
     same_cell L (vertex_set L P) p w) /\
  (forall x p w, (fst p == x)%Q -> (fst w == x)%Q ->
     (forall y, In y (line_ordinates L (vertex_set L P) x) -> (snd p ?= y)%Q = (snd w ?= y)%Q) ->
     same_cell L (vertex_set L P) p w) /\
  (* ... and then have the same location w.r.t. every geometry of the arrangement *)
  (forall g p w, covers_geom L P g -> rings_closed g -> same_cell L (vertex_set L P) p w ->
     locate g p = locate g w).
Proof.
  exact (fun L P => conj (fun x0 x1 p w H => slab_same_cell L P x0 x1 H p w)
                   (conj (event_same_cell L P) (fun g p w => locate_same_cell L P g p w))).
Qed.
Print Assumptions cell_constancy.

(* the parity fact underneath: for a closed ring and a point not on it, the crossing parity of the
   horizontal ray (used by locate) equals that of the vertical ray (constant on slab cells) *)
Theorem closed_ring_parity_hv : forall (ps : list pt) (p : pt),
  pts_closed ps = true -> on_edges (segs_of_pts ps) p = false ->
  edges_parity (segs_of_pts ps) p = vparity (segs_of_pts ps) p.
Proof. exact closed_ring_parity. Qed.
Print Assumptions closed_ring_parity_hv.

(* S2 (coverage): every point of the plane is in the same cell as some enumerated witness *)
Theorem witness_coverage : forall (L : list seg) (P : list pt) (p : pt),
  exists w d, In (w, d) (witnesses L P) /\ same_cell L (vertex_set L P) p w.
Proof. exact witness_cover. Qed.
Print Assumptions witness_coverage.

(* the reference matrix: an entry is set iff SOME POINT OF THE PLANE has that pair of locations *)
Theorem de9im_ref_sufficient : forall (a b : geom) (la lb : loc),
  rings_closed a -> rings_closed b ->
  (mget (de9im_ref a b) la lb <> DF <-> exists p, locate a p = la /\ locate b p = lb).
Proof. exact Planar_slab.de9im_ref_sufficient. Qed.
Print Assumptions de9im_ref_sufficient.

(* and its value is pinned down by all points of the plane: with S = { p | locate a p = la, locate b p = lb }
   and the arrangement of both operands' segments and points,
     0  iff S is non-empty and consists of arrangement vertices only (finitely many points);
    >=1 iff S contains a point that is not a vertex;
     2  iff S contains a point that lies on no segment of either operand and is no vertex *)
Theorem relate_entries_characterised : forall (a b : geom) (la lb : loc),
  is_empty a = false -> is_empty b = false -> rings_closed a -> rings_closed b ->
  let L := canon_segs (arr_segments a ++ arr_segments b) in
  let V := vertex_set L (canon_pts (arr_points a ++ arr_points b)) in
  (mget (relate a b) la lb <> DF <-> exists p, locate a p = la /\ locate b p = lb) /\
  (mget (relate a b) la lb = D0 <->
     (exists p, locate a p = la /\ locate b p = lb) /\
     (forall p, locate a p = la -> locate b p = lb -> is_vertex V p = true)) /\
  (mget (relate a b) la lb = D1 \/ mget (relate a b) la lb = D2 <->
     exists p, locate a p = la /\ locate b p = lb /\ is_vertex V p = false) /\
  (mget (relate a b) la lb = D2 <->
     exists p, locate a p = la /\ locate b p = lb /\ on_some_seg L p = false /\ is_vertex V p = false).
Proof.
  intros a b la lb Ea Eb Ra Rb. cbv zeta. rewrite (relate_nonempty a b Ea Eb).
  exact (conj (Planar_slab.de9im_ref_sufficient a b la lb Ra Rb)
        (conj (entry_D0_iff a b Ra Rb la lb) (conj (entry_ge_D1_iff a b Ra Rb la lb) (entry_D2_iff a b Ra Rb la lb)))).
Qed.
Print Assumptions relate_entries_characterised.

(* Disjoint of the model is true iff the two point sets share no point of Q^2 (all pairs, empties included) *)
Theorem disjoint_iff_no_common_point : forall (a b : geom), rings_closed a -> rings_closed b ->
  (go_disjoint (enc_matrix (relate a b)) = RM true <-> forall p, ~ (inG a p = true /\ inG b p = true)).
Proof. exact disjoint_iff_no_common_point_lemma. Qed.
Print Assumptions disjoint_iff_no_common_point.

(* for users of the oracle (C01, C03, C09, C15): agreement at the witnesses is agreement everywhere *)
Theorem witnesses_decide_everywhere : forall (L : list seg) (P : list pt),
  (forall g1 g2, covers_geom L P g1 -> covers_geom L P g2 -> rings_closed g1 -> rings_closed g2 ->
     (forall w d, In (w, d) (witnesses L P) -> inG g1 w = inG g2 w) -> forall p, inG g1 p = inG g2 p) /\
  (forall g1 g2, covers_geom L P g1 -> covers_geom L P g2 -> rings_closed g1 -> rings_closed g2 ->
     (forall w d, In (w, d) (witnesses L P) -> locate g1 w = locate g2 w) -> forall p, locate g1 p = locate g2 p) /\
  (forall (gs : list geom) (F : list bool -> bool),
     (forall g, In g gs -> covers_geom L P g /\ rings_closed g) ->
     (forall w d, In (w, d) (witnesses L P) -> F (map (fun g => inG g w) gs) = true) ->
     forall p, F (map (fun g => inG g p) gs) = true).
Proof.
  exact (fun L P => conj (inG_agree_everywhere L P) (conj (locate_agree_everywhere L P) (pointwise_everywhere L P))).
Qed.
Print Assumptions witnesses_decide_everywhere.

(* non-vacuity: the hypothesis rings_closed holds of the example square (entries 0, 1 and 2 all occur in
   ex_overlapping_squares) *)
Example ex_rings_closed : forall y, In y (g_polys (sq 0 0 2 2)) -> forall r, In r (poly_rings y) -> pts_closed (line_pts r) = true.
Proof. intros y [<-|[]] r [<-|[]]. vm_compute. reflexivity. Qed.

(* ------------------------------------------------------------------ (c'') Go's extraction from the labelled overlay *)
(* Model/RelateComplex.v transcribes geom/dcel_extract_intersection_matrix.go on the overlay complex
   (C01's Model/OverlayComplex.v + the per-vertex location flags).  That the labels the engine computes
   are sound is not proved (re-noding, radial sort and flood fill are modelled in exact arithmetic for C01,
   Props/C01_renode.v, C01_fixup.v, C01_pipeline.v; the mod-2 location flags of the vertices are not): it
   is checked on every real overlay, cell by cell, by the driver (SPEC dcel_labels_sound).  Given sound
   labels, the extraction is proved right. *)

(* the matrix depends only on the SETS of location pairs: no dependence on Go's map iteration order *)
Theorem extraction_order_free : forall vs vs' es es' fs fs' : list (loc * loc),
  Permutation.Permutation vs vs' -> Permutation.Permutation es es' -> Permutation.Permutation fs fs' ->
  matrix_of_cells vs es fs = matrix_of_cells vs' es' fs'.
Proof. exact matrix_of_cells_order_free. Qed.
Print Assumptions extraction_order_free.

(* the three overwriting loops compute the max-by-dimension matrix *)
Theorem extraction_is_max : forall vs es fs : list (loc * loc),
  matrix_of_cells vs es fs = de9im_of (tagged vs es fs) /\
  forall la lb, mget (matrix_of_cells vs es fs) la lb =
    if memb la lb fs then D2 else if memb la lb es then D1 else if memb la lb vs then D0 else DF.
Proof. exact (fun vs es fs => conj (matrix_of_cells_is_max vs es fs) (mget_matrix_of_cells vs es fs)). Qed.
Print Assumptions extraction_is_max.

(* exchanging the operands on the same overlay transposes the matrix (None = the panic of a vertex without incident edge) *)
Theorem extraction_transpose : forall x : xcomplex,
  matrix_of_complex (swap_x x) = option_map transpose (matrix_of_complex x).
Proof. exact matrix_of_complex_swap. Qed.
Print Assumptions extraction_transpose.

(* vertexRecord.location takes the location of an ARBITRARY incident half edge: any choice gives the
   same answer when the incident half edges agree (checked on every real overlay: SPEC dcel_incidents_agree) *)
Theorem extraction_pick_free : forall (x : xcomplex) (i : nat) (l : vloc * vloc) (op : bool) (e : hedgeR),
  incidents_agree x = true -> nth_error (x_locs x) i = Some l ->
  vl_boundary (op_loc l op) = false -> vl_interior (op_loc l op) = false ->
  In e (incidents (x_c x) i) -> vertex_loc (x_c x) i l op = Some (edge_loc (x_c x) e op).
Proof. exact pick_any_incident. Qed.
Print Assumptions extraction_pick_free.

(* MAIN: if the cells of the overlay (vertices, half edges, faces; with any assignment of a witness point
   and a point set to each) cover the plane, the operands do not change location inside a cell, the
   dimensions are honest (0-cells are arrangement vertices, 1-cells lie on segments, witnesses of 1-cells
   are no vertices, witnesses of 2-cells lie on no segment) and the LABELS ARE SOUND - the pair of
   locations Go computed for the cell equals the definitional locate of the two operands at the cell's
   witness - then the matrix Go extracts is the reference matrix de9im_ref a b, whose entries are
   characterised by all points of the plane (relate_entries_characterised).  Closed rings are the only
   hypothesis on the operands. *)
Theorem relate_engine_right_if_labels_sound :
  forall (a b : geom) (x : xcomplex) (m : matrix) (vs : list (loc * loc))
         (wit : ccell -> pt) (inC : ccell -> pt -> Prop),
  rings_closed a -> rings_closed b ->
  let L := canon_segs (arr_segments a ++ arr_segments b) in
  let V := vertex_set L (canon_pts (arr_points a ++ arr_points b)) in
  let cells := cells_of (List.length vs) (List.length (edge_cells x)) (List.length (face_cells x)) in
  let lab := ccell_lab vs (edge_cells x) (face_cells x) in
  vertex_cells x = Some vs ->
  matrix_of_complex x = Some m ->
  (forall p, exists c, In c cells /\ inC c p) ->
  (forall c p, In c cells -> inC c p -> locate a p = locate a (wit c) /\ locate b p = locate b (wit c)) ->
  (forall c p, In c cells -> ccell_dim c = D0 -> inC c p -> is_vertex V p = true) ->
  (forall c p, In c cells -> ccell_dim c = D1 -> inC c p -> on_some_seg L p = true \/ is_vertex V p = true) ->
  (forall c, In c cells -> ccell_dim c = D1 -> is_vertex V (wit c) = false) ->
  (forall c, In c cells -> ccell_dim c = D2 -> on_some_seg L (wit c) = false /\ is_vertex V (wit c) = false) ->
  (forall c, In c cells -> lab c = (locate a (wit c), locate b (wit c))) ->
  m = de9im_ref a b.
Proof. exact relate_of_sound_overlay. Qed.
Print Assumptions relate_engine_right_if_labels_sound.
