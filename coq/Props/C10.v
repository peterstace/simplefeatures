(* Property C10 - geometries are immutable values: operations are pure, deterministic, race-free.
   Statements only; proofs are in Proofs/Canon_proofs.v, definitions in Model/Canon.v.

   What is proved here is the LOGIC part of the property:
   (a) the order-canonicalisation steps of the overlay result extraction return the same lists
       whatever order Go's randomised map iteration delivers faces, rings, ring starts, half edges
       and vertices in (sections 1-4);
   (b) the folds performed while ranging over maps are order-free (section 5);
   (c) the meaning of the check that the harness applies to observed call histories (section 6).
   Data races, aliasing of returned slices with operand storage, scheduler interleavings and order
   leaks in code outside the modelled steps are properties of the Go runtime execution: they are
   EXPLORED by the harness (race detector, before/after observation, repetition), not proved. *)
From Coq Require Import List Bool ZArith NArith Arith Permutation Sorted.
From SF Require Import Model.Canon Proofs.Canon_proofs.
Import ListNotations.

(* ---------------------------------------------------------------------------------------------
   1. sort.Slice with the code's comparisons *)

(* sort.Slice's contract determines its result: two sorted arrangements of the same members are
   the same list. Duplicates are allowed: for a strict total order "neither is less" means equal,
   so equal keys are equal values and their relative order cannot be observed. Hence neither the
   (unstable) algorithm nor the arrival order matters. *)
Theorem sort_perm_unique : forall (A : Type) (ltb : A -> A -> bool),
  (forall x y z, ltb x y = true -> ltb y z = true -> ltb x z = true) ->
  (forall x y, ltb x y = false -> ltb y x = false -> x = y) ->
  forall l l', Sorted (le A ltb) l -> Sorted (le A ltb) l' -> Permutation l l' -> l = l'.
Proof. exact sort_perm_unique_lemma. Qed.
Print Assumptions sort_perm_unique.

(* what the code's comparison guarantees: Sequence.less over XY.Less is a strict total order on
   XY sequences (irreflexive, transitive, and incomparable sequences are equal) - including its
   unusual rule that a longer sequence with an equal prefix is the smaller one *)
Theorem seq_less_strict_total :
  (forall s, sq_ltb s s = false) /\
  (forall a b c, sq_ltb a b = true -> sq_ltb b c = true -> sq_ltb a c = true) /\
  (forall a b, sq_ltb a b = false -> sq_ltb b a = false -> a = b).
Proof. exact (conj sq_ltb_irrefl (conj sq_ltb_trans sq_ltb_total)). Qed.
Print Assumptions seq_less_strict_total.

(* sorting members by a KEY (polygons by exterior ring only): if distinct members have distinct
   keys the result is determined ... *)
Theorem sort_by_perm_unique : forall (B K : Type) (ltb : K -> K -> bool) (key : B -> K),
  (forall x y z, ltb x y = true -> ltb y z = true -> ltb x z = true) ->
  (forall x y, ltb x y = false -> ltb y x = false -> x = y) ->
  forall l l',
  (forall x y, In x l -> In y l -> key x = key y -> x = y) ->
  Sorted (le B (fun x y => ltb (key x) (key y))) l -> Sorted (le B (fun x y => ltb (key x) (key y))) l' ->
  Permutation l l' -> l = l'.
Proof. exact sort_by_perm_unique_lemma. Qed.
Print Assumptions sort_by_perm_unique.

(* ... and without that hypothesis only up to the comparison's equivalence: the sequence of keys
   is determined, members with the same key may come in either order. *)
Theorem sort_by_keys_unique : forall (B K : Type) (ltb : K -> K -> bool) (key : B -> K),
  (forall x y z, ltb x y = true -> ltb y z = true -> ltb x z = true) ->
  (forall x y, ltb x y = false -> ltb y x = false -> x = y) ->
  forall l l',
  Sorted (le B (fun x y => ltb (key x) (key y))) l -> Sorted (le B (fun x y => ltb (key x) (key y))) l' ->
  Permutation l l' -> map key l = map key l'.
Proof. exact sort_by_keys_unique_lemma. Qed.
Print Assumptions sort_by_keys_unique.

(* the hypothesis is needed: for two polygons with the same exterior ring and different holes the
   result depends on the arrival order *)
Example sort_by_key_ties_depend_on_arrival_order :
  let p := [[(0,0);(1,0);(0,0)]; [(5,5)]]%Z in let q := [[(0,0);(1,0);(0,0)]; [(7,7)]]%Z in
  isort_by sq_ltb ext_ring [p; q] = [q; p] /\ isort_by sq_ltb ext_ring [q; p] = [p; q].
Proof. vm_compute. split; reflexivity. Qed.

(* ---------------------------------------------------------------------------------------------
   2. Ring start *)

(* Starting the ring walk at another edge of the same cycle does not change the ring that is
   built, when the edges of the cycle are pairwise different (then the least one is unique).
   In the code they are: two half edges of one cycle differ in their first two points, which is
   the key of the halfEdges map. *)
Theorem rotate_to_min_invariant : forall (A : Type) (ltb : A -> A -> bool),
  (forall x, ltb x x = false) ->
  (forall x y z, ltb x y = true -> ltb y z = true -> ltb x z = true) ->
  (forall x y, ltb x y = false -> ltb y x = false -> x = y) ->
  forall k l, NoDup l -> rotate_to_min ltb (rotn k l) = rotate_to_min ltb l.
Proof. exact rotate_to_min_invariant_lemma. Qed.
Print Assumptions rotate_to_min_invariant.

(* rotn k is "skip k, then the first k" (for k up to the length) *)
Theorem rotn_is_rotation : forall (A : Type) k (l : list A),
  k <= length l -> rotn k l = skipn k l ++ firstn k l.
Proof. exact rotn_skipn_firstn. Qed.
Print Assumptions rotn_is_rotation.

(* Without uniqueness of the least edge what remains true: the result is a rotation of the input
   (the same cyclic sequence) and starts with a least element - but WHICH occurrence depends on
   where the walk started. *)
Theorem rotate_to_min_when_not_unique : forall (A : Type) (ltb : A -> A -> bool),
  (forall x, ltb x x = false) ->
  (forall x y z, ltb x y = true -> ltb y z = true -> ltb x z = true) ->
  (forall x y, ltb x y = false -> ltb y x = false -> x = y) ->
  forall l, l <> [] ->
  (exists k, k <= length l /\ rotate_to_min ltb l = skipn k l ++ firstn k l) /\
  (exists x rest, rotate_to_min ltb l = x :: rest /\ forall y, In y l -> ltb y x = false).
Proof.
  intros A ltb Hi Ht Ho l Hne. split.
  - exact (rotate_to_min_is_rotation_lemma A ltb l).
  - exact (rotate_to_min_head_least_lemma A ltb Hi Ht Ho l Hne).
Qed.
Print Assumptions rotate_to_min_when_not_unique.
Example rotate_to_min_not_unique_leaks :
  rotate_to_min Z.ltb [1; 2; 1; 3]%Z = [1; 2; 1; 3]%Z /\
  rotate_to_min Z.ltb (rotn 2 [1; 2; 1; 3]%Z) = [1; 3; 1; 2]%Z.
Proof. vm_compute. split; reflexivity. Qed.

(* ---------------------------------------------------------------------------------------------
   3. Edge orientation and ring order *)

(* whichever twin the halfEdges map yields first, the same orientation is extracted *)
Theorem orient_edge_twin_invariant : forall e : seqT, orient_edge (rev e) = orient_edge e.
Proof. exact orient_edge_rev_lemma. Qed.
Print Assumptions orient_edge_twin_invariant.

(* outer ring first, then the holes in sorted order: independent of the discovery order of the
   rings. The model follows orderPolygonRings as repaired by fix F141 (the LEAST counter-clockwise
   ring goes first; the least ring if there is none): no hypothesis on the rings is needed. Before
   the fix the FIRST counter-clockwise ring found went first, and the statement needed "exactly one
   ring is counter-clockwise" - which invalid operands break (finding F141: the text of the error
   then reported by the set operation varied between identical calls). *)
Theorem order_rings_perm_invariant : forall (A : Type) (ltb : A -> A -> bool) (ccw : A -> bool),
  (forall x, ltb x x = false) ->
  (forall x y z, ltb x y = true -> ltb y z = true -> ltb x z = true) ->
  (forall x y, ltb x y = false -> ltb y x = false -> x = y) ->
  forall l l', Permutation l l' -> order_rings ltb ccw l = order_rings ltb ccw l'.
Proof. exact order_rings_perm_invariant_lemma. Qed.
Print Assumptions order_rings_perm_invariant.
(* what comes first: the least counter-clockwise ring when there is one; the result is a
   rearrangement of the rings *)
Theorem order_rings_head : forall (A : Type) (ltb : A -> A -> bool) (ccw : A -> bool),
  (forall x, ltb x x = false) ->
  (forall x y z, ltb x y = true -> ltb y z = true -> ltb x z = true) ->
  (forall x y, ltb x y = false -> ltb y x = false -> x = y) ->
  forall l o rest, order_rings ltb ccw l = Some (o :: rest) ->
  (filter ccw l <> [] -> ccw o = true /\ forall y, In y l -> ccw y = true -> le A ltb o y) /\
  Permutation (o :: rest) l.
Proof. exact order_rings_head_lemma. Qed.
Print Assumptions order_rings_head.
Example order_rings_examples :
  (* one counter-clockwise ring (the even number): first, the rest sorted *)
  order_rings Z.ltb Z.even [3; 1; 4; 5]%Z = Some [4; 1; 3; 5]%Z /\
  (* several: the least of them, whatever the arrival order *)
  order_rings Z.ltb Z.even [3; 8; 4; 5]%Z = Some [4; 3; 5; 8]%Z /\
  order_rings Z.ltb Z.even [5; 4; 3; 8]%Z = Some [4; 3; 5; 8]%Z /\
  (* none: the least ring *)
  order_rings Z.ltb (fun _ => false) [3; 1; 2]%Z = Some [1; 2; 3]%Z /\
  order_rings Z.ltb (fun _ => false) [2; 3; 1]%Z = Some [1; 2; 3]%Z.
Proof. vm_compute. repeat split; reflexivity. Qed.

(* ---------------------------------------------------------------------------------------------
   4. The extraction pipeline *)

(* cells = polygons as discovered (a list of ring cycles each, a cycle = edge sequences from an
   arbitrary start), es = linear edges (either twin), ps = isolated vertices. Equivalent inputs
   (cells permuted, rings of a cell permuted, every ring walk started anywhere, edges permuted and
   reversed, points permuted) give the identical extracted geometry. Hypotheses: the edges of a
   cycle are pairwise different ([cell_ok]); distinct polygons have distinct exterior rings. *)
Theorem canon_perm_invariant : forall (ccw : seqT -> bool) cells cells' es es' ps ps',
  Forall cell_ok cells ->
  (forall polys, canon_cells ccw cells = Some polys ->
     forall p q, In p polys -> In q polys -> ext_ring p = ext_ring q -> p = q) ->
  cells_equiv cells cells' -> edges_equiv es es' -> Permutation ps ps' ->
  canon ccw cells es ps = canon ccw cells' es' ps'.
Proof. exact canon_perm_invariant_lemma. Qed.
Print Assumptions canon_perm_invariant.

(* non-vacuity: a triangle and a square with a square hole, discovered in two different ways *)
Definition shoelace (r : seqT) : Z :=
  (fix go (l : seqT) : Z :=
     match l with
     | (x0, y0) :: (((x1, y1) :: _) as t) => (x1 + x0) * (y1 - y0) + go t
     | _ => 0
     end)%Z r.
Definition ccwZ (r : seqT) : bool := (0 <? shoelace r)%Z.
Definition t1 : seqT := [(10,0);(12,0)]%Z. Definition t2 : seqT := [(12,0);(10,2)]%Z.
Definition t3 : seqT := [(10,2);(10,0)]%Z.
Definition e1 : seqT := [(0,0);(2,0);(4,0)]%Z. Definition e2 : seqT := [(4,0);(4,4)]%Z.
Definition e3 : seqT := [(4,4);(0,4)]%Z. Definition e4 : seqT := [(0,4);(0,0)]%Z.
Definition h1 : seqT := [(1,1);(1,2)]%Z. Definition h2 : seqT := [(1,2);(2,2)]%Z.
Definition h3 : seqT := [(2,2);(2,1)]%Z. Definition h4 : seqT := [(2,1);(1,1)]%Z.
Definition ex_cells : list (list (list seqT)) := [ [[t1;t2;t3]]; [[e3;e4;e1;e2]; [h2;h3;h4;h1]] ].
Definition ex_cells' : list (list (list seqT)) := [ [[h4;h1;h2;h3]; [e1;e2;e3;e4]]; [[t2;t3;t1]] ].
Definition ex_edges : list seqT := [ [(5,5);(6,6)]; [(9,9);(8,7);(7,7)] ]%Z.
Definition ex_edges' : list seqT := [ [(7,7);(8,7);(9,9)]; [(6,6);(5,5)] ]%Z.
Example canon_example_value :
  canon ccwZ ex_cells ex_edges [(3,3);(1,9)]%Z =
  Some ([ [ [(0,0);(2,0);(4,0);(4,4);(0,4);(0,0)]; [(1,1);(1,2);(2,2);(2,1);(1,1)] ];
          [ [(10,0);(12,0);(10,2);(10,0)] ] ],
        [ [(5,5);(6,6)]; [(7,7);(8,7);(9,9)] ],
        [ (1,9); (3,3) ])%Z.
Proof. vm_compute. reflexivity. Qed.
Example canon_example_hypotheses :
  Forall cell_ok ex_cells /\ cells_equiv ex_cells ex_cells' /\ edges_equiv ex_edges ex_edges'.
Proof.
  split; [|split].
  - repeat constructor; simpl; intuition discriminate.
  - exists [ [[t2;t3;t1]]; [[h4;h1;h2;h3]; [e1;e2;e3;e4]] ]. split; [|apply perm_swap].
    constructor; [|constructor; [|constructor]].
    + exists [[t2;t3;t1]]. split; [|reflexivity]. constructor; [exists 1; reflexivity|constructor].
    + exists [[e1;e2;e3;e4]; [h4;h1;h2;h3]]. split; [|apply perm_swap].
      constructor; [exists 2; reflexivity|constructor; [exists 2; reflexivity|constructor]].
  - exists [ [(6,6);(5,5)]; [(7,7);(8,7);(9,9)] ]%Z. split; [|apply perm_swap].
    constructor; [right; reflexivity|constructor; [right; reflexivity|constructor]].
Qed.
Example canon_example_invariant :
  canon ccwZ ex_cells ex_edges [(3,3);(1,9)]%Z = canon ccwZ ex_cells' ex_edges' [(1,9);(3,3)]%Z.
Proof. vm_compute. reflexivity. Qed.

(* ---------------------------------------------------------------------------------------------
   5. Folds performed while ranging over maps *)

(* a fold with a commutative, associative operation (max of dimensions, boolean or) gives the same
   result for every order of the members *)
Theorem fold_max_order_free : forall (X : Type) (op : X -> X -> X),
  (forall a b, op a b = op b a) -> (forall a b c, op a (op b c) = op (op a b) c) ->
  forall l l', Permutation l l' -> forall s, fold_left op l s = fold_left op l' s.
Proof. exact @fold_op_order_free_lemma. Qed.
Print Assumptions fold_max_order_free.
Example fold_max_instance : forall l l' : list Z, Permutation l l' -> fold_left Z.max l (-1)%Z = fold_left Z.max l' (-1)%Z.
Proof. intros l l' P. apply fold_max_order_free; [apply Z.max_comm|apply Z.max_assoc|exact P]. Qed.

(* extractIntersectionMatrix: vertices, half edges and faces may be visited in any order ... *)
Theorem intersection_matrix_order_free : forall vs vs' es es' fs fs',
  Permutation vs vs' -> Permutation es es' -> Permutation fs fs' ->
  extract_im vs es fs = extract_im vs' es' fs'.
Proof. exact intersection_matrix_order_free_lemma. Qed.
Print Assumptions intersection_matrix_order_free.
(* ... because the three phases of plain assignments compute the maximum dimension per entry *)
Theorem intersection_matrix_is_max_dimension : forall vs es fs c,
  Forall loc_ok vs -> Forall loc_ok es -> Forall loc_ok fs -> loc_ok c ->
  nth (im_index c) (extract_im vs es fs) (-1)%Z = im_spec_entry vs es fs c.
Proof. exact extract_im_is_max_lemma. Qed.
Print Assumptions intersection_matrix_is_max_dimension.
Example intersection_matrix_example :
  extract_im [(0,2);(1,1)] [(0,2);(2,0)] [(2,2);(0,0)] = [2; -1; 1; -1; 0; -1; 1; -1; 2]%Z.
Proof. vm_compute. reflexivity. Qed.

(* populateInSetLabels reads e.prev.inSet, which is still unset when e.prev comes later in the
   iteration; the result is nevertheless independent of the order, because that term is subsumed
   by the label of e.prev's twin, an edge leaving the same vertex ([prev_subsumed]). *)
Theorem populate_labels_order_free : forall (origin prev : nat -> nat) (lbl : nat -> bool) src order order',
  prev_subsumed origin prev lbl order -> Permutation order order' ->
  forall v, populate_labels origin prev lbl src order v = populate_labels origin prev lbl src order' v.
Proof. exact populate_labels_order_free_lemma. Qed.
Print Assumptions populate_labels_order_free.
Theorem populate_labels_is_spec : forall (origin prev : nat -> nat) (lbl : nat -> bool) src order,
  prev_subsumed origin prev lbl order ->
  forall v, populate_labels origin prev lbl src order v = labels_spec origin lbl src order v.
Proof. exact populate_labels_spec_lemma. Qed.
Print Assumptions populate_labels_is_spec.
(* non-vacuity: one dangling edge 0 -> 1 (half edges 0 and 1, each the other's prev), both half
   edges labelled: the hypothesis holds because twins carry the same label here *)
Example populate_labels_example :
  let origin := fun e => e in let prev := fun e => 1 - e in let lbl := fun _ : nat => true in
  prev_subsumed origin prev lbl [0; 1] /\
  map (populate_labels origin prev lbl (fun _ => false) [0; 1]) [0; 1; 2] = [true; true; false] /\
  map (populate_labels origin prev lbl (fun _ => false) [1; 0]) [0; 1; 2] = [true; true; false].
Proof.
  split; [|split; reflexivity].
  intros e He _. exists e. repeat split. exact He.
Qed.
(* without the subsumption the stale read leaks: vertex 0 gets its label from edge 1 = prev 0 only
   when edge 1 was visited before edge 0 *)
Example populate_labels_stale_read_leaks :
  let origin := fun e : nat => e in let prev := fun e => 1 - e in let lbl := fun e => e =? 1 in
  populate_labels origin prev lbl (fun _ => false) [0; 1] 0 = false /\
  populate_labels origin prev lbl (fun _ => false) [1; 0] 0 = true.
Proof. split; reflexivity. Qed.

(* fixVertex sorts the incident edges of a vertex (collected in map order) with radialLess, which is
   a strict total order on direction vectors (integer carrier: exact on the lattice) ... *)
Theorem radial_less_strict_total :
  (forall a, radial_ltb a a = false) /\
  (forall a b c, radial_ltb a b = true -> radial_ltb b c = true -> radial_ltb a c = true) /\
  (forall a b, radial_ltb a b = false -> radial_ltb b a = false -> a = b).
Proof. exact (conj radial_ltb_irrefl (conj radial_ltb_trans radial_ltb_total)). Qed.
Print Assumptions radial_less_strict_total.
(* ... so the successor relation it installs around the vertex is the same for every order
   (incident edges with pairwise different directions; with <= 2 edges no sort is done and the
   cyclic order is unique anyway) *)
Theorem fix_vertex_order_free : forall inc inc' : list (nat * (Z * Z)),
  (forall x y, In x inc -> In y inc -> snd x = snd y -> x = y) ->
  Permutation inc inc' -> Permutation (fix_vertex inc) (fix_vertex inc').
Proof. exact fix_vertex_order_free_lemma. Qed.
Print Assumptions fix_vertex_order_free.
Example fix_vertex_example :
  fix_vertex [(7, (0, 1)%Z); (8, (1, 0)%Z); (9, (-1, 0)%Z); (5, (0, -2)%Z)] = [(5, 8); (8, 7); (7, 9); (9, 5)] /\
  fix_vertex [(9, (-1, 0)%Z); (5, (0, -2)%Z); (7, (0, 1)%Z); (8, (1, 0)%Z)] = [(5, 8); (8, 7); (7, 9); (9, 5)].
Proof. vm_compute. split; reflexivity. Qed.

(* vertexRecord.location returns the location of whichever incident edge the map yields first:
   harmless iff all incident edges agree (they do when the face labels around the vertex are
   consistent; that the overlay construction computes consistent labels is not proved, see
   Props/C01_pipeline.v (d); explored by the harness) *)
Theorem pick_location_order_free : forall l l' : list nat,
  (forall x y, In x l -> In y l -> x = y) -> Permutation l l' -> pick_location l = pick_location l'.
Proof. exact pick_location_order_free_lemma. Qed.
Print Assumptions pick_location_order_free.
Example pick_location_leaks_when_incidents_disagree : pick_location [0; 2] <> pick_location [2; 0].
Proof. discriminate. Qed.

(* ---------------------------------------------------------------------------------------------
   6. Histories. [run sem s cs] is the history of a pure-function model: the store is threaded
   through unchanged and every result is a function of (store, call). Both statements below are
   immediate for such a model - that is the point: they are exactly what the harness checks the
   IMPLEMENTATION against (operands re-observed after every call must be bit-identical to their
   initial observation; equal calls anywhere in a history must return bit-identical results). *)
Theorem history_operands_unchanged : forall (store call result : Type) (sem : store -> call -> result) s cs,
  Forall (fun ev => snd ev = s) (run sem s cs).
Proof. exact history_operands_unchanged_lemma. Qed.
Print Assumptions history_operands_unchanged.

Theorem history_equal_calls_equal_results :
  forall (store call result : Type) (sem : store -> call -> result) s cs i j c r st c' r' st',
  nth_error (run sem s cs) i = Some (c, r, st) -> nth_error (run sem s cs) j = Some (c', r', st') ->
  c = c' -> r = r'.
Proof. exact history_equal_calls_equal_results_lemma. Qed.
Print Assumptions history_equal_calls_equal_results.

(* The executable check the driver runs on every observed history is sound and complete for
   "explainable by a pure model": it accepts iff SOME function of (store, call) reproduces the
   observed history on the initial store. *)
Theorem history_ok_iff_explainable :
  forall (store call result : Type) (store_eqb : store -> store -> bool) (call_eqb : call -> call -> bool)
         (result_eqb : result -> result -> bool),
  (forall x y, store_eqb x y = true <-> x = y) -> (forall x y, call_eqb x y = true <-> x = y) ->
  (forall x y, result_eqb x y = true <-> x = y) ->
  forall (r0 : result) s0 evs,
  history_ok store_eqb call_eqb result_eqb s0 evs = true <->
  exists sem : store -> call -> result, evs = run sem s0 (map (fun ev => fst (fst ev)) evs).
Proof. exact history_ok_iff_explainable_lemma. Qed.
Print Assumptions history_ok_iff_explainable.
(* the instance the driver uses (interned byte strings) *)
Theorem history_ok_N_iff_explainable : forall s0 evs,
  history_ok_N s0 evs = true <-> exists sem : N -> N -> N, evs = run sem s0 (map (fun ev => fst (fst ev)) evs).
Proof. exact (history_ok_iff_explainable N N N N.eqb N.eqb N.eqb N.eqb_eq N.eqb_eq N.eqb_eq 0%N). Qed.
Print Assumptions history_ok_N_iff_explainable.
Example history_examples :
  history_ok_N 7 [(1, 10, 7); (2, 20, 7); (1, 10, 7)]%N = true /\      (* explainable *)
  history_ok_N 7 [(1, 10, 7); (2, 20, 7); (1, 11, 7)]%N = false /\     (* same call, other result *)
  history_ok_N 7 [(1, 10, 7); (2, 20, 8); (1, 10, 8)]%N = false.       (* an operand changed *)
Proof. vm_compute. repeat split; reflexivity. Qed.
