(* Property C08 - decoders are total on untrusted input: error or valid geometry, never a crash.
   This file contains statements only, in six parts:
     WKB part               proofs in Proofs/WKB_total.v
     WKT part               Proofs/WKT_total.v
     TWKB and GeoJSON parts Proofs/TWKB_proofs.v, TWKBQuant_proofs.v, GeoJSON_proofs.v (the sibling
                            properties' totality lemmas) and Proofs/Total_all.v
     re-encoding, validation gates   Proofs/Total_all.v
     "error or VALID value" Proofs/WKB_converse.v, Proofs/WKB_image.v (what the WKB decoder accepts)
   WKB part (model: Model/WKB.v, the transcription of geom/wkb_parser.go after the F2 fix).
   Every statement quantifies over ALL lists of numbers offered as bytes: no well-formedness
   hypothesis, no length bound, values above 255 included. *)
From Coq Require Import NArith List Bool.
From SF Require Import Base.Outcome Base.Bytes Base.GeomAST Model.WKB Proofs.WKB_total.
Import ListNotations.
Local Open Scope N_scope.

(* never a panic outcome: the only panic-producing primitive on this path is the lifting of the
   member casts, which return errors, never panics *)
Theorem wkb_dec_no_panic : forall bs : list N, is_panic (dec bs) = false.
Proof. exact wkb_dec_no_panic_lemma. Qed.
Print Assumptions wkb_dec_no_panic.

(* bytes requested by count-sized make calls (on every path, failures included) are at most
   twice the input length: an allocation happens only after the length check, and is covered by
   bytes that are then consumed (factor 2: a non-native byte order copies the payload once) *)
Theorem wkb_dec_alloc_linear : forall bs : list N, dec_alloc bs <= 2 * N.of_nat (length bs).
Proof. exact wkb_dec_alloc_linear_lemma. Qed.
Print Assumptions wkb_dec_alloc_linear.

(* sharper, on success: at most two requested bytes per consumed byte *)
Theorem wkb_dec_alloc_consumed : forall (bs : list N) (g : geom) (r : list N) (a : N),
  dec_full bs = POk g (r, a) -> exists used, bs = used ++ r /\ a <= 2 * N.of_nat (length used).
Proof. exact wkb_dec_alloc_consumed_lemma. Qed.
Print Assumptions wkb_dec_alloc_consumed.

(* never reads past the end: the unread rest is a suffix of the input (and a header was read) *)
Theorem wkb_dec_consumes : forall (bs : list N) (g : geom) (r : list N),
  dec bs = Ok (g, r) -> exists used, bs = used ++ r /\ (5 <= length used)%nat.
Proof. exact wkb_dec_consumes_lemma. Qed.
Print Assumptions wkb_dec_consumes.

(* the model's fuel error is unreachable: every loop iteration and every recursive call
   consumes at least one byte, and the fuel exceeds the unread length *)
Theorem wkb_dec_fuel_enough : forall bs : list N, dec bs <> Err EFuel.
Proof. exact wkb_dec_fuel_enough_lemma. Qed.
Print Assumptions wkb_dec_fuel_enough.

(* Scan into a concrete type: same totality *)
Theorem wkb_scan_no_panic : forall (t : gtype) (bs : list N),
  is_panic (scan t bs) = false /\ scan t bs <> Err EFuel.
Proof. exact wkb_scan_no_panic_lemma. Qed.
Print Assumptions wkb_scan_no_panic.

(* validation gate of UnmarshalWKB, for an arbitrary validator (a function, not an assumption
   about it): whatever is returned without NoValidate has passed it ... *)
Theorem decoded_validated : forall (validate : geom -> bool) (bs : list N) (g : geom),
  unmarshal validate bs = Ok g -> validate g = true.
Proof. exact decoded_validated_lemma. Qed.
Print Assumptions decoded_validated.

(* ... and the gate does nothing else: it returns exactly the NoValidate result when that validates *)
Theorem gate_exact : forall (validate : geom -> bool) (bs : list N) (g : geom),
  unmarshal validate bs = Ok g <-> (unmarshal_nv bs = Ok g /\ validate g = true).
Proof. exact gate_exact_lemma. Qed.
Print Assumptions gate_exact.

Theorem unmarshal_no_panic : forall (validate : geom -> bool) (bs : list N),
  is_panic (unmarshal validate bs) = false.
Proof. exact unmarshal_no_panic_lemma. Qed.
Print Assumptions unmarshal_no_panic.

(* Before the fix (commit 9d18c2c, finding F2): with the allocation before the length check
   (rd_seq_unfixed, the pinned code) the 9-byte input 01 02000000 ffffffff requests 64 GiB;
   the bound of wkb_dec_alloc_linear (18 bytes here) fails by nine orders of magnitude. The same
   input requests nothing in the fixed model. *)
Theorem wkb_alloc_unbounded_before_fix_refuted :
  exists bs : list N, length bs = 9%nat /\ Forall byte_ok bs /\
    dec_unfixed_alloc bs = 68719476720 /\ 2 * N.of_nat (length bs) < dec_unfixed_alloc bs /\
    dec_alloc bs = 0.
Proof.
  exists f2_witness. destruct wkb_alloc_unbounded_before_fix_lemma as (L & B & U & F).
  split; [exact L|]. split; [exact B|]. split; [exact U|]. split; [|exact F].
  rewrite U, L. reflexivity.
Qed.
Print Assumptions wkb_alloc_unbounded_before_fix_refuted.

(* ---- non-vacuity and tightness ---- *)
(* the successful branch is inhabited by a non-trivial value, with unread trailing bytes *)
Example consumes_example :
  dec [1; 1;0;0;0; 0;0;0;0;0;0;240;63; 0;0;0;0;0;0;0;64; 7; 7] =
  Ok (GPoint (MkPoint XY (Some (Build_vtx 4607182418800017408 4611686018427387904 0 0))), [7; 7]).
Proof. vm_compute. reflexivity. Qed.
(* the factor 2 is needed: a big-endian LineString of one XY vertex (25 bytes) requests 32 bytes *)
Example alloc_factor_needed :
  let bs := [0; 0;0;0;2; 0;0;0;1; 63;240;0;0;0;0;0;0; 64;0;0;0;0;0;0;0] in
  dec_alloc bs = 32 /\ N.of_nat (length bs) = 25 /\ is_ok (dec bs) = true.
Proof. vm_compute. auto. Qed.
(* errors are reached, with the allocation counter kept: second ring of a polygon cut short *)
Example error_keeps_alloc :
  let bs := [1; 3;0;0;0; 2;0;0;0; 1;0;0;0; 0;0;0;0;0;0;240;63; 0;0;0;0;0;0;0;64; 9;0;0;0] in
  dec bs = Err EEOF /\ dec_alloc bs = 16.
Proof. vm_compute. auto. Qed.
(* input exhausted with a non-zero count is an EOF error, not the model's fuel error *)
Example exhausted_count_is_eof : dec [1; 3;0;0;0; 1;0;0;0] = Err EEOF.
Proof. vm_compute. reflexivity. Qed.
(* the gate with a validator that rejects: an error, the decoded value is not returned *)
Example gate_rejects :
  unmarshal (fun _ => false) [1; 1;0;0;0; 0;0;0;0;0;0;240;63; 0;0;0;0;0;0;0;64] = Err EValidate.
Proof. vm_compute. reflexivity. Qed.

(* ================================================================== WKT part
   Model: the lexer and recursive-descent parser of Model/WKT.v (written for C05 as the
   transcription of geom/wkt_lexer.go and geom/wkt_parser.go); proofs in Proofs/WKT_total.v.
   Quantified over ALL token lists / all texts of the model's alphabet (characters plus opaque
   number symbols; strconv and text/scanner's number scanning are oracles there). *)
From Coq Require Import String.
From SF Require Import Model.WKT Proofs.WKT_total.

(* nextGeometryTaggedText and everything below it never panics, whatever the tokens *)
Theorem wkt_parse_no_panic : forall ts : list tok, is_panic (WKT.parse ts) = false.
Proof. exact wkt_parse_no_panic_lemma. Qed.
Print Assumptions wkt_parse_no_panic.

(* every separator loop and every nested collection consumes a token per iteration: the fuel
   error is unreachable *)
Theorem wkt_parse_fuel_enough : forall ts : list tok, WKT.parse ts <> Err EFuel.
Proof. exact wkt_parse_fuel_enough_lemma. Qed.
Print Assumptions wkt_parse_fuel_enough.

(* the tokens left for the EOF check are a suffix of the input; at least the tag was read *)
Theorem wkt_parse_geom_consumes : forall (ts : list tok) (g : geomT N) (r : list tok),
  parse_geom (S (List.length ts)) ts = Ok (g, r) -> exists used, ts = used ++ r /\ (1 <= List.length used)%nat.
Proof. exact wkt_parse_geom_consumes_lemma. Qed.
Print Assumptions wkt_parse_geom_consumes.

(* lexer + parser + EOF check: UnmarshalWKT(s, NoValidate{}) on the model's alphabet *)
Theorem unmarshal_wkt_no_panic : forall s : list ch,
  is_panic (unmarshal_wkt s) = false /\ unmarshal_wkt s <> Err EFuel.
Proof. exact unmarshal_wkt_no_panic_lemma. Qed.
Print Assumptions unmarshal_wkt_no_panic.

(* non-vacuity: a collection is parsed; unbalanced nesting and a missing number are errors *)
Example wkt_ok_example :
  is_ok (WKT.parse [T (L "GEOMETRYCOLLECTION"%string); T (L "("%string); T (L "POINT"%string); T (L "("%string); TNum 1; TNum 2;
                    T (L ")"%string); T (L ","%string); T (L "MULTIPOINT"%string); T (L "("%string); T (L "EMPTY"%string); T (L ","%string); TNum 3; TNum 4;
                    T (L ")"%string); T (L ")"%string)]) = true.
Proof. vm_compute. reflexivity. Qed.
Example wkt_err_examples :
  WKT.parse (repeat (T (L "GEOMETRYCOLLECTION"%string)) 3 ++ repeat (T (L "("%string)) 40) = Err ESyntax /\
  WKT.parse [T (L "GEOMETRYCOLLECTION"%string); T (L "("%string); T (L "GEOMETRYCOLLECTION"%string); T (L "("%string)] = Err EEOF /\
  WKT.parse [T (L "POINT"%string); T (L "("%string); TNum 1; T (L ")"%string)] = Err ESyntax /\
  WKT.parse [T (L "POINT"%string); T (L "("%string); T (L "nan"%string); TNum 1; T (L ")"%string)] = Err ESyntax.
Proof. vm_compute. auto. Qed.

(* ================================================================== TWKB and GeoJSON parts
   Models: Model/TWKB.v + Model/TWKBQuant.v (C07: geom/twkb_parser.go, twkb_write.go with the
   repairs F7 and F31 of this property and C07's own) and Model/GeoJSON.v (C06:
   geom/geojson_unmarshal.go on parsed JSON trees; encoding/json is an oracle). The totality
   lemmas are the sibling properties' (Proofs/TWKB_proofs.v, TWKBQuant_proofs.v,
   GeoJSON_proofs.v); they are cited here so that this file covers all four decoders. Names are
   qualified because the models reuse identifiers. *)
From SF Require Model.TWKB Model.TWKBQuant Model.GeoJSON.
From SF Require Proofs.TWKB_proofs Proofs.TWKBQuant_proofs Proofs.GeoJSON_proofs Proofs.Total_all.

(* UnmarshalTWKB(bytes, NoValidate{}) on arbitrary bytes: no panic, fuel never runs out, and the
   count-sized make() calls request at most 8 bytes per input byte *)
Theorem twkb_unmarshal_no_panic : forall bs : list N, is_panic (TWKBQuant.unmarshal_f bs) = false.
Proof. exact Total_all.twkb_unmarshal_no_panic_lemma. Qed.
Print Assumptions twkb_unmarshal_no_panic.

Theorem twkb_unmarshal_fuel_enough : forall bs : list N, TWKBQuant.unmarshal_f bs <> Err EFuel.
Proof. exact TWKBQuant_proofs.unmarshal_f_fuel_enough_lemma. Qed.
Print Assumptions twkb_unmarshal_fuel_enough.

Theorem twkb_unmarshal_alloc_linear : forall bs : list N,
  match TWKB.dec_full N 0 N.eqb TWKBQuant.dequant bs with
  | TWKB.TOk _ s => TWKB.s_alloc s | TWKB.TErr _ a => a | TWKB.TPanic _ a => a
  end <= 8 * N.of_nat (List.length bs).
Proof. exact TWKBQuant_proofs.unmarshal_f_alloc_linear_lemma. Qed.
Print Assumptions twkb_unmarshal_alloc_linear.

(* the same for the integer layer (already quantised ordinates) *)
Theorem twkb_tdec_no_panic : forall bs : list N, is_panic (TWKB.tdec bs) = false.
Proof. exact Total_all.tdec_is_panic_lemma. Qed.
Print Assumptions twkb_tdec_no_panic.

Theorem twkb_tdec_alloc_linear : forall bs : list N,
  TWKB.tdec_alloc bs <= 8 * N.of_nat (List.length bs).
Proof. exact TWKB_proofs.tdec_alloc_linear_lemma. Qed.
Print Assumptions twkb_tdec_alloc_linear.

(* UnmarshalGeoJSON(doc, NoValidate{}) on every JSON tree: the index expressions fs[0], fs[1],
   fs[2], c[j] are guarded by detectCoordinatesLengths *)
Theorem geojson_unmarshal_no_panic : forall j : GeoJSON.json, is_panic (GeoJSON.gj_unmarshal j) = false.
Proof. exact GeoJSON_proofs.gj_unmarshal_no_panic_lemma. Qed.
Print Assumptions geojson_unmarshal_no_panic.

(* ================================================================== re-encoding
   Every value re-encodes in all four formats without a panic. WKB.enc, WKT.append_wkt and
   GeoJSON.gj_print are total functions; the content is MarshalTWKB, whose failure branches
   (coordinates-type mismatch, empty Point inside a MultiPoint, scaled ordinate outside int64 or
   not finite, precision out of range, ID list of the wrong length or on a simple type) are all
   error returns. Proved for EVERY option set and EVERY value, hence for everything a decoder
   returns; the four corollaries spell that out per decoder. *)
Theorem reencode_total : forall (o : TWKB.topts) (g : geomT N),
  is_panic (Total_all.reencode_all o g) = false.
Proof. exact Total_all.reencode_total_lemma. Qed.
Print Assumptions reencode_total.

Theorem twkb_marshal_no_panic : forall (o : TWKB.topts) (g : geomT N),
  is_panic (TWKBQuant.marshal_f o g) = false.
Proof. exact Total_all.marshal_f_np. Qed.
Print Assumptions twkb_marshal_no_panic.

Theorem twkb_tmarshal_no_panic : forall (o : TWKB.topts) (g : geomT Z),
  is_panic (TWKB.tmarshal o g) = false.
Proof. exact Total_all.tmarshal_np. Qed.
Print Assumptions twkb_tmarshal_no_panic.

Theorem reencode_after_wkb : forall (o : TWKB.topts) (bs : list N) (g : geomT N) (r : list N),
  WKB.dec bs = Ok (g, r) -> is_panic (Total_all.reencode_all o g) = false.
Proof. exact Total_all.reencode_after_wkb_lemma. Qed.
Print Assumptions reencode_after_wkb.

Theorem reencode_after_wkt : forall (o : TWKB.topts) (ts : list WKT.tok) (g : geomT N),
  WKT.parse ts = Ok g -> is_panic (Total_all.reencode_all o g) = false.
Proof. exact Total_all.reencode_after_wkt_lemma. Qed.
Print Assumptions reencode_after_wkt.

Theorem reencode_after_geojson : forall (o : TWKB.topts) (j : GeoJSON.json) (g : geomT N),
  GeoJSON.gj_unmarshal j = Ok g -> is_panic (Total_all.reencode_all o g) = false.
Proof. exact Total_all.reencode_after_geojson_lemma. Qed.
Print Assumptions reencode_after_geojson.

Theorem reencode_after_twkb : forall (o : TWKB.topts) (bs : list N) (g : geomT N) (i : TWKB.tinfo),
  TWKBQuant.unmarshal_f bs = Ok (g, i) -> is_panic (Total_all.reencode_all o g) = false.
Proof. exact Total_all.reencode_after_twkb_lemma. Qed.
Print Assumptions reencode_after_twkb.

(* ================================================================== validation gates
   UnmarshalWKT / UnmarshalGeoJSON / UnmarshalTWKB without NoValidate, for an arbitrary validator:
   what is returned is exactly the NoValidate result when it validates; never a panic. *)
Theorem wkt_gate_exact : forall (validate : geomT N -> bool) (s : list WKT.ch) (g : geomT N),
  Total_all.unmarshal_wkt_v validate s = Ok g <-> (WKT.unmarshal_wkt s = Ok g /\ validate g = true).
Proof. exact Total_all.wkt_gate_lemma. Qed.
Print Assumptions wkt_gate_exact.

Theorem geojson_gate_exact : forall (validate : geomT N -> bool) (j : GeoJSON.json) (g : geomT N),
  Total_all.unmarshal_geojson_v validate j = Ok g <->
  (GeoJSON.gj_unmarshal j = Ok g /\ validate g = true).
Proof. exact Total_all.geojson_gate_lemma. Qed.
Print Assumptions geojson_gate_exact.

Theorem twkb_gate_exact : forall (validate : geomT N -> bool) (bs : list N) (g : geomT N),
  Total_all.unmarshal_twkb_v validate bs = Ok g <->
  (omap fst (TWKBQuant.unmarshal_f bs) = Ok g /\ validate g = true).
Proof. exact Total_all.twkb_gate_lemma. Qed.
Print Assumptions twkb_gate_exact.

Theorem validating_decoders_no_panic : forall (validate : geomT N -> bool),
  (forall s, is_panic (Total_all.unmarshal_wkt_v validate s) = false) /\
  (forall j, is_panic (Total_all.unmarshal_geojson_v validate j) = false) /\
  (forall bs, is_panic (Total_all.unmarshal_twkb_v validate bs) = false).
Proof.
  intros v. split; [apply Total_all.wkt_v_no_panic_lemma|].
  split; [apply Total_all.geojson_v_no_panic_lemma|apply Total_all.twkb_v_no_panic_lemma].
Qed.
Print Assumptions validating_decoders_no_panic.

(* non-vacuity: the TWKB writer's error branches are reached (an infinity cannot be quantised; an
   empty Point in a MultiPoint cannot be written), and a plain value re-encodes in all formats *)
Example reencode_examples :
  is_err (TWKBQuant.marshal_f Total_all.o_default
            (GPoint (MkPoint XY (Some (Build_vtx 9218868437227405312 0 0 0))))) = true /\
  is_err (TWKBQuant.marshal_f Total_all.o_default
            (GMPoint XY [MkPoint XY None; MkPoint XY (Some (Build_vtx 4607182418800017408 0 0 0))])) = true /\
  is_ok (Total_all.reencode_all Total_all.o_default
            (GColl XY [GPoint (MkPoint XY (Some (Build_vtx 4607182418800017408 4611686018427387904 0 0)));
                       GLine (MkLine XY [])])) = true.
Proof. vm_compute. auto. Qed.

(* ================================================================== "error or VALID value"
   The converse of the round trip (proofs in Proofs/WKB_converse.v): whatever the WKB decoder
   accepts - from any string of bytes, foreign and mixed byte orders, members of other coordinate
   types included - is a well-formed value of the model (one coordinates type at every node,
   unused Z/M zero, 64-bit ordinates, counts below 2^32, no NaN in X/Y of a full point), so it is
   in the domain of the round-trip theorem of C04: its canonical re-encoding, and its encoding
   under any other byte-order choice, decodes to the same value. *)
From SF Require Import Proofs.WKB_converse.

Theorem wkb_decoded_is_wellformed : forall (bs : list N) (g : geomT N) (r : list N),
  bytes_ok bs -> WKB.dec bs = Ok (g, r) -> wf_wkb g = true /\ bytes_ok r.
Proof. exact wkb_dec_wf_lemma. Qed.
Print Assumptions wkb_decoded_is_wellformed.

Theorem wkb_dec_enc_dec : forall (bs : list N) (g : geomT N) (r : list N),
  bytes_ok bs -> WKB.dec bs = Ok (g, r) ->
  forall (bo : list nat -> endian) (r' : list N), WKB.dec (enc_bo bo g ++ r') = Ok (g, r').
Proof. exact wkb_dec_enc_dec_lemma. Qed.
Print Assumptions wkb_dec_enc_dec.

Theorem wkb_reencode_fixpoint : forall (bs : list N) (g : geomT N) (r : list N),
  bytes_ok bs -> WKB.dec bs = Ok (g, r) -> WKB.dec (enc g) = Ok (g, []).
Proof. exact wkb_reencode_fixpoint_lemma. Qed.
Print Assumptions wkb_reencode_fixpoint.

Theorem wkb_canonical : forall (bs bs' : list N) (g g' : geomT N) (r r' : list N),
  bytes_ok bs -> bytes_ok bs' -> WKB.dec bs = Ok (g, r) -> WKB.dec bs' = Ok (g', r') ->
  (enc g = enc g' <-> g = g').
Proof. exact wkb_canonical_lemma. Qed.
Print Assumptions wkb_canonical.

(* the hypothesis bytes_ok is needed (and is all that is needed): a list element of 256 in the top
   byte of X gives the "ordinate" 2^64, which is not a 64-bit pattern *)
Example bytes_ok_needed :
  exists g r, WKB.dec [1; 1;0;0;0; 0;0;0;0;0;0;0;256; 0;0;0;0;0;0;0;64] = Ok (g, r) /\ wf_wkb g = false.
Proof. eexists. eexists. split; [vm_compute; reflexivity|vm_compute; reflexivity]. Qed.
(* a foreign document: big-endian MultiPoint declared XY whose member is a little-endian Point Z.
   It is accepted, the value is normalised by the constructor (the members' type wins: the result
   is a MultiPoint Z), and its canonical encoding (little-endian, header Z) is a different
   document that decodes to the same value *)
Example foreign_document_normalised :
  let bs := [0; 0;0;0;4; 0;0;0;1;  1; 233;3;0;0; 0;0;0;0;0;0;240;63; 0;0;0;0;0;0;0;64; 0;0;0;0;0;0;8;64] in
  exists g, WKB.dec bs = Ok (g, []) /\ wf_wkb g = true /\ geom_ct g = XYZ /\
            enc g <> bs /\ WKB.dec (enc g) = Ok (g, []).
Proof.
  eexists. split; [vm_compute; reflexivity|]. split; [vm_compute; reflexivity|].
  split; [reflexivity|]. split; [vm_compute; discriminate|vm_compute; reflexivity].
Qed.

(* The decoder accepts nothing but encodings (proof in Proofs/WKB_image.v): the consumed prefix of
   every accepted byte string is exactly enc_bo bo g' for some per-element byte-order choice bo and
   some document tree g' (nodes as written: declared coordinate types, members of any coordinate
   type, NaN/NaN points with any payload), and the value returned is the constructors'
   normalisation of g' (WKB_image.normalise: NaN/NaN point -> empty point, NewPolygon,
   NewMultiPoint, ..., NewGeometryCollection applied bottom-up). *)
From SF Require Proofs.WKB_image.

Theorem wkb_dec_is_some_encoding : forall (bs : list N) (g : geomT N) (r : list N),
  bytes_ok bs -> WKB.dec bs = Ok (g, r) ->
  exists (bo : list nat -> endian) (g' : geomT N),
    bs = enc_bo bo g' ++ r /\ g = WKB_image.normalise g'.
Proof. exact WKB_image.wkb_dec_is_some_encoding_lemma. Qed.
Print Assumptions wkb_dec_is_some_encoding.

(* normalisation is not the identity: the raw tree of the foreign document above is a MultiPoint
   declared XY with a Point Z member; its normal form is a MultiPoint Z *)
Example normalise_example :
  WKB_image.normalise
    (GMPoint XY [MkPoint XYZ (Some (Build_vtx 4607182418800017408 4611686018427387904 4613937818241073152 0))])
  = GMPoint XYZ [MkPoint XYZ (Some (Build_vtx 4607182418800017408 4611686018427387904 4613937818241073152 0))]
  /\ WKB_image.normalise (GPoint (MkPoint XY (Some (Build_vtx go_nan 9221120237041090562 0 0))))
     = GPoint (MkPoint XY None).
Proof. vm_compute. auto. Qed.
