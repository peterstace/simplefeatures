(* Property C05 - WKT text is a faithful, re-parseable rendering of every geometry.
   Statements only; proofs are in Proofs/WKT_proofs.v, Proofs/WKT_total.v (the parser is total on
   every token list) and Proofs/WKT_trailing.v (trailing text is rejected); the model is Model/WKT.v
   (writer: w_geom/append_wkt/as_text; lexer: lex; parser: parse; UnmarshalWKT with NoValidate:
   unmarshal_wkt).  Numbers are opaque symbols carrying the double's bits: their spelling and
   reading is Go's strconv, validated by the correspondence run, not proved.  A stretch of text
   on which text/scanner reports a lexical error (malformed literal, invalid UTF-8) is the opaque
   symbol Bad; the lexer answers it (and NUL) with the error mark TBad, which the parser meets
   lazily, exactly where wkt_lexer.go:next returns the scanner's error. *)
From Coq Require Import NArith List Bool Ascii String.
From SF Require Import Base.Outcome Base.Bytes Base.GeomAST Model.WKT Proofs.WKT_proofs.
From SF Require Import Proofs.WKT_total Proofs.WKT_trailing.
From SF Require Model.WKB.
Import ListNotations.

(* wkt_dom g: every ordinate the coordinates type uses is finite, every node carries the same
   coordinates type and unused Z/M fields are zero (true of everything the constructors build). *)

(* 1. Round trip, all 7 types x 4 coordinate types, arbitrary nesting, empty members anywhere
      (empty points in MultiPoints, empty rings, empty members of collections, typed empties):
      UnmarshalWKT(g.AsText()) is g, ordinates bit for bit (-0 included). *)
Theorem wkt_roundtrip : forall g : geomT N,
  wkt_dom g = true -> unmarshal_wkt (as_text g) = Ok g.
Proof. exact wkt_roundtrip_lemma. Qed.
Print Assumptions wkt_roundtrip.

(* 2. The produced text lexes to the OGC token sequence (Z/M/ZM tags, EMPTY at every level,
      parenthesised MultiPoint members), for EVERY geometry (no hypothesis). *)
Theorem wkt_grammar : forall g : geomT N, lex (as_text g) = Ok (toks sp_default g).
Proof. exact lex_as_text. Qed.
Print Assumptions wkt_grammar.

(* 3. AppendWKT(prefix) = prefix + AsText() for every prefix and every geometry: the look-behind
      of appendWKTEmpty never reaches the caller's bytes. *)
Theorem wkt_append_prefix : forall (prefix : list ch) (g : geomT N),
  append_wkt prefix g = prefix ++ as_text g.
Proof. exact wkt_append_prefix_lemma. Qed.
Print Assumptions wkt_append_prefix.

(* ... including the zero Geometry (after repair F4) *)
Theorem wkt_zero_geometry : forall (prefix : list ch) (a : anygeom),
  append_wkt_any prefix a = Ok (prefix ++ as_text_any a).
Proof. exact wkt_append_prefix_any_lemma. Qed.
Print Assumptions wkt_zero_geometry.

(* the code before F4: the law fails on the zero Geometry (nil-pointer panic); replayed on the Go
   code by the harness case z0 *)
Theorem wkt_zero_geometry_unfixed_refuted :
  exists prefix, append_wkt_any_unfixed prefix ZeroGeometry <> Ok (prefix ++ as_text_any ZeroGeometry).
Proof. exact wkt_zero_unfixed_refuted_lemma. Qed.
Print Assumptions wkt_zero_geometry_unfixed_refuted.

(* 4. Whitespace: lexing is a left inverse of EVERY blank-spelling of EVERY token sequence
      (blanks, tabs, newlines, carriage returns before, between and after tokens; a blank is only
      required where two words/numbers would run together), valid document or not. *)
Theorem wkt_ws_lex : forall (pre : list ascii) (items : list (tok * list ascii)),
  forallb is_ws pre = true -> spell_ok items = true ->
  lex (spell pre items) = Ok (map fst items).
Proof. exact lex_spell. Qed.
Print Assumptions wkt_ws_lex.

Theorem wkt_ws_insensitive : forall pre1 items1 pre2 items2,
  forallb is_ws pre1 = true -> spell_ok items1 = true ->
  forallb is_ws pre2 = true -> spell_ok items2 = true ->
  map fst items1 = map fst items2 ->
  unmarshal_wkt (spell pre1 items1) = unmarshal_wkt (spell pre2 items2).
Proof. exact wkt_ws_insensitive_lemma. Qed.
Print Assumptions wkt_ws_insensitive.

(* 5. Keyword case and optional MultiPoint parentheses: for every spelling sp (an arbitrary case
      choice for each type keyword, an arbitrary bare/parenthesised choice for each non-empty
      MultiPoint member) the token sequence parses to g; and so does every blank-spelling of it.
      Z, M, ZM and EMPTY are case-sensitive in the code (see the Examples). *)
Theorem wkt_case_parens_insensitive : forall (sp : spelling) (g : geomT N),
  spelling_ok sp -> wkt_dom g = true -> parse (toks sp g) = Ok g.
Proof. exact wkt_parse_toks_lemma. Qed.
Print Assumptions wkt_case_parens_insensitive.

Theorem wkt_ws_case_insensitive : forall (sp : spelling) (g : geomT N) pre items,
  spelling_ok sp -> wkt_dom g = true ->
  forallb is_ws pre = true -> spell_ok items = true -> map fst items = toks sp g ->
  unmarshal_wkt (spell pre items) = Ok g.
Proof. exact wkt_respell_lemma. Qed.
Print Assumptions wkt_ws_case_insensitive.

(* ... and on EVERY token sequence, valid or not: replacing words by case variants (letters only,
   same upper-casing, none of them Z, M, ZM or EMPTY) never changes the parser's result, errors
   included.  teq/teqs are defined in Proofs/WKT_proofs.v (Part 6). *)
Theorem wkt_case_insensitive_all : forall ts ts' : list tok,
  teqs ts ts' -> parse ts = parse ts'.
Proof. exact parse_case_insensitive. Qed.
Print Assumptions wkt_case_insensitive_all.

(* 6. Trailing tokens are rejected: a parse consumes the whole input.  [t] ranges over tokens AND
      over the lexical-error mark TBad (the end-of-input check accepts nothing but end of input). *)
Theorem wkt_trailing_rejected : forall (sp : spelling) (g : geomT N) (t : tok) (ts : list tok),
  spelling_ok sp -> wkt_dom g = true -> parse (toks sp g ++ t :: ts) = Err ESyntax.
Proof. exact wkt_trailing_rejected_lemma. Qed.
Print Assumptions wkt_trailing_rejected.

(* 6b. The same at the level of TEXT: every blank-spelling of every keyword-case / parenthesis
      variant of a geometry's text, followed by any text R that holds at least one token or one
      lexical error (lex R = Ok (t :: tr): R is not blank) and does not continue the last word
      (needed only when the spelling ends in EMPTY without a blank behind it), is rejected. *)
Theorem wkt_trailing_text_rejected :
  forall (sp : spelling) (g : geomT N) pre items (R : list ch) (t : tok) (tr : list tok),
  spelling_ok sp -> wkt_dom g = true ->
  forallb is_ws pre = true -> spell_ok items = true -> map fst items = toks sp g ->
  implb (ends_open items) (starts_delim R) = true -> lex R = Ok (t :: tr) ->
  unmarshal_wkt (spell pre items ++ R) = Err ESyntax.
Proof. exact wkt_trailing_text_rejected_lemma. Qed.
Print Assumptions wkt_trailing_text_rejected.

Theorem wkt_trailing_after_text : forall (g : geomT N) (R : list ch) (t : tok) (tr : list tok),
  wkt_dom g = true -> starts_delim R = true -> lex R = Ok (t :: tr) ->
  unmarshal_wkt (as_text g ++ R) = Err ESyntax.
Proof. exact wkt_trailing_after_text_lemma. Qed.
Print Assumptions wkt_trailing_after_text.

(* 6c. Lexical errors are never swallowed: a token stream with the error mark anywhere in it, and a
      text with NUL / a malformed literal / invalid UTF-8 anywhere in it, is not accepted - whatever
      stands before or behind (no hypothesis on the rest of the input). *)
Theorem wkt_lexical_error_token_rejected : forall (ts : list tok) (g : geomT N),
  In TBad ts -> parse ts <> Ok g.
Proof. exact wkt_parse_bad_rejected_lemma. Qed.
Print Assumptions wkt_lexical_error_token_rejected.

Theorem wkt_lexical_error_rejected : forall (s : list ch) (g : geomT N),
  existsb lex_error_ch s = true -> unmarshal_wkt s <> Ok g.
Proof. exact wkt_lexical_error_rejected_lemma. Qed.
Print Assumptions wkt_lexical_error_rejected.

(* 7. The geometry obtained from WKT equals the one obtained from the same geometry's WKB
      (cites wkb_roundtrip of property C04). *)
Theorem wkt_equals_wkb : forall g : geomT N,
  wkt_dom g = true -> WKB.wf_wkb g = true ->
  unmarshal_wkt (as_text g) = omap fst (WKB.dec (WKB.enc g)).
Proof. exact wkt_equals_wkb_lemma. Qed.
Print Assumptions wkt_equals_wkb.

(* ---------------------------------------------------------------- Examples *)
Local Open Scope N_scope.
Definition one : N := 4607182418800017408.         (* 1.0 *)
Definition mtwo : N := 13835058055282163712.       (* -2.0 *)
Definition negzero : N := 9223372036854775808.     (* -0.0 *)
Definition sub1 : N := 1.                          (* smallest subnormal *)
Definition maxf : N := 9218868437227405311.        (* math.MaxFloat64 *)
Definition v4 : vtx N := Build_vtx one mtwo negzero maxf.
Definition v2 : vtx N := Build_vtx sub1 negzero 0 0.

(* non-vacuity: a depth-3 XYZM collection with empty members at every position meets the domain *)
Definition ex_geom : geomT N :=
  GColl XYZM [ GPoint (MkPoint XYZM None); GPoint (MkPoint XYZM (Some v4));
               GMPoint XYZM [MkPoint XYZM None; MkPoint XYZM (Some v4); MkPoint XYZM None];
               GLine (MkLine XYZM []);
               GPoly (MkPoly XYZM [MkLine XYZM [v4; v4]; MkLine XYZM []]);
               GMLine XYZM [MkLine XYZM []; MkLine XYZM [v4]];
               GMPoly XYZM [MkPoly XYZM []; MkPoly XYZM [MkLine XYZM [v4]]];
               GColl XYZM [GColl XYZM []; GMPoint XYZM []; GColl XYZM [GPoint (MkPoint XYZM None)]] ].
Example dom_example : wkt_dom ex_geom = true /\ WKB.wf_wkb ex_geom = true.
Proof. split; vm_compute; reflexivity. Qed.
Example roundtrip_example : unmarshal_wkt (as_text ex_geom) = Ok ex_geom.
Proof. vm_compute. reflexivity. Qed.

(* the finiteness hypothesis is tight: an infinite ordinate is printed (as a number symbol) but
   rejected by the parser *)
Example inf_rejected :
  unmarshal_wkt (as_text (GPoint (MkPoint XY (Some (Build_vtx wk_inf one 0 0))))) = Err ESyntax.
Proof. vm_compute. reflexivity. Qed.
(* the consistency hypothesis is tight: an XY point stored inside an XYZ MultiPoint comes back as
   something else (here: an error, the member has too few ordinates) *)
Example inconsistent_not_roundtrip :
  unmarshal_wkt (as_text (GMPoint XYZ [MkPoint XY (Some v2)])) <> Ok (GMPoint XYZ [MkPoint XY (Some v2)]).
Proof. vm_compute. discriminate. Qed.

(* a non-default spelling: lower/mixed-case keywords, bare MultiPoint members *)
Definition sp_lower : spelling :=
  {| sp_kw := fun _ t => map to_lower (kw_name t); sp_bare := fun _ => true |}.
Example sp_lower_ok : spelling_ok sp_lower.
Proof. intros p t. destruct t; reflexivity. Qed.
Example sp_lower_tokens :
  toks sp_lower (GMPoint XY [MkPoint XY (Some v2); MkPoint XY None]) =
  [T (L "multipoint"); T (L "("); TNum sub1; T (L "-"); TNum 0; T (L ","); T (L "EMPTY"); T (L ")")].
Proof. vm_compute. reflexivity. Qed.

(* Z/M/ZM and EMPTY are case-sensitive, NaN/Inf literals and a leading '+' are rejected, a blank
   between sign and digits is accepted, -0 survives *)
Example lower_z_rejected :
  parse [T (L "POINT"); T (L "z"); T (L "("); TNum one; TNum one; TNum one; T (L ")")] = Err ESyntax.
Proof. vm_compute. reflexivity. Qed.
Example lower_empty_rejected : parse [T (L "POINT"); T (L "empty")] = Err ESyntax.
Proof. vm_compute. reflexivity. Qed.
Example nan_rejected : parse [T (L "POINT"); T (L "("); T (L "NaN"); TNum one; T (L ")")] = Err ESyntax.
Proof. vm_compute. reflexivity. Qed.
Example plus_rejected : parse [T (L "POINT"); T (L "("); T (L "+"); TNum one; TNum one; T (L ")")] = Err ESyntax.
Proof. vm_compute. reflexivity. Qed.
Example negzero_survives :
  unmarshal_wkt (str (L "point") ++ [C "("%char; C "-"%char; C " "%char; Num 0; C " "%char; Num one; C ")"%char])
  = Ok (GPoint (MkPoint XY (Some (Build_vtx negzero one 0 0)))).
Proof. vm_compute. reflexivity. Qed.
(* a whitespace spelling with tabs and newlines *)
Example spell_example :
  spell_ok [(T (L "Point"), [" "%char]); (T (L "EMPTY"), ["010"%char; "009"%char])] = true /\
  unmarshal_wkt (spell ["013"%char] [(T (L "Point"), [" "%char]); (T (L "EMPTY"), ["010"%char; "009"%char])])
  = Ok (GPoint (MkPoint XY None)).
Proof. split; vm_compute; reflexivity. Qed.
(* collections: an untagged collection takes its members' type; a tagged one must match *)
Example coll_untagged_takes_member_type :
  parse [T (L "GEOMETRYCOLLECTION"); T (L "("); T (L "POINT"); T (L "Z"); T (L "EMPTY"); T (L ")")]
  = Ok (GColl XYZ [GPoint (MkPoint XYZ None)]).
Proof. vm_compute. reflexivity. Qed.
Example coll_tag_mismatch :
  parse [T (L "GEOMETRYCOLLECTION"); T (L "Z"); T (L "("); T (L "POINT"); T (L "EMPTY"); T (L ")")]
  = Err ECollDims.
Proof. vm_compute. reflexivity. Qed.

(* trailing material: POINT(1 -2) followed by a blank and a malformed literal (say 09) and a whole
   second geometry; by an invalid byte directly behind the parenthesis; EMPTY followed by NUL *)
Definition ex_pt : geomT N := GPoint (MkPoint XY (Some (Build_vtx one mtwo 0 0))).
Example trailing_bad_literal :
  lex (C " "%char :: Bad :: C " "%char :: as_text ex_pt) = Ok [TBad] /\
  starts_delim (C " "%char :: Bad :: C " "%char :: as_text ex_pt) = true /\
  unmarshal_wkt (as_text ex_pt ++ C " "%char :: Bad :: C " "%char :: as_text ex_pt) = Err ESyntax.
Proof. repeat split; vm_compute; reflexivity. Qed.
Example trailing_bad_glued :
  unmarshal_wkt (as_text ex_pt ++ [Bad]) = Err ESyntax /\
  unmarshal_wkt (as_text (GPoint (MkPoint XY None)) ++ [C "000"%char; C "x"%char]) = Err ESyntax.
Proof. split; vm_compute; reflexivity. Qed.
(* hypotheses of 6b met by a spelling that ends in EMPTY with no blank behind it *)
Example trailing_text_example :
  let items := [(T (L "point"), [" "%char]); (T (L "EMPTY"), [])] in
  let R := [C ")"%char; Bad] in
  spell_ok items = true /\ map fst items = toks sp_lower (GPoint (MkPoint XY None)) /\
  implb (ends_open items) (starts_delim R) = true /\ lex R = Ok [T (L ")"); TBad] /\
  unmarshal_wkt (spell [] items ++ R) = Err ESyntax.
Proof. repeat split; vm_compute; reflexivity. Qed.
(* the separation hypothesis of 6b is not idle: EMPTY continued by a letter is another word
   (still an error, but of the header, not of the end-of-input check) *)
Example trailing_glue_is_another_word :
  lex (str (L "POINT EMPTY") ++ [C "x"%char]) = Ok [T (L "POINT"); T (L "EMPTYx")].
Proof. vm_compute. reflexivity. Qed.
(* the end-of-input check must tell the end-of-input error from every other lexer error: the
   variant that takes any error of the lexer for the end of input accepts a text with garbage
   behind the geometry *)
Definition eof_check_any_error {A} (a : A) (r : list tok) : outcome A :=
  match t_next r with Ok _ => Err ESyntax | Err _ => Ok a | Panic p => Panic p end.
Example eof_check_distinguishes :
  eof_check ex_pt [TBad; T (L "LINESTRING")] = Err ESyntax /\
  eof_check_any_error ex_pt [TBad; T (L "LINESTRING")] = Ok ex_pt /\
  eof_check ex_pt [] = Ok ex_pt.
Proof. repeat split. Qed.

(* case variants in the sense of wkt_case_insensitive_all *)
Example teqs_example :
  teqs [T (L "PoLyGoN"); T (L "EMPTY")] [T (L "polygon"); T (L "EMPTY")].
Proof.
  constructor; [apply teq_case; reflexivity|]. constructor; [apply teq_refl|constructor].
Qed.
