(* Property C18 - ExactEquals is structural identity; IgnoreOrder ignores only member/vertex
   order.  Statements only; proofs are in Proofs/ExactEq_proofs.v and Proofs/ExactEq_complete.v
   (completeness of IgnoreOrder).
   Model: Model/ExactEq.v (transcription of geom/alg_exact_equals.go after the repairs F11, F50
   and F52).  [exact_equals simple tol io g h] is ExactEquals(g, h, ToleranceXY(tol), IgnoreOrder?)
   on IEEE-754 bit patterns; [simple] is LineString.IsSimple (an oracle: it belongs to C03). *)
From Coq Require Import NArith List Bool Permutation.
From SF Require Import Base.GeomAST Model.WKB Model.ExactEq Proofs.ExactEq_proofs Proofs.ExactEq_complete.
Import ListNotations.

(* ---- 1. no options: structural identity ------------------------------------------------ *)

(* Generic in the ordinate carrier: whenever == on ordinates is characterised by a normal form nz
   on the ok (= non-NaN) ordinates, ExactEquals without options holds exactly when the normal
   forms of the two values are identical: same type, same coordinate type at every node, same
   nesting, same member and vertex counts, same vertex sequences. *)
Theorem ee_iff_norm : forall (F : Type) (feq : F -> F -> bool) (simple : lineT F -> bool)
    (nz : F -> F) (zero : F) (ok : F -> bool),
  (forall a b, ok a = true -> ok b = true -> (feq a b = true <-> nz a = nz b)) ->
  forall g h : geomT F,
  cts_agree g = true -> cts_agree h = true -> geom_nf ok g = true -> geom_nf ok h = true ->
  (geom_eq feq (xy_exact feq) simple false g h = true <-> norm_geom nz zero g = norm_geom nz zero h).
Proof. exact (fun F feq simple nz zero ok Hs g h => geom_plain_norm F feq simple nz zero ok Hs _ g h _ _). Qed.
Print Assumptions ee_iff_norm.

(* On bit patterns with IEEE equality (-0 == +0, NaN differs from everything): ExactEquals
   without options holds exactly when the WKB encodings are equal once -0 is written as +0. *)
Theorem ee_iff_wkb : forall (simple : lineT N -> bool) (g h : geom),
  wf_wkb g = true -> wf_wkb h = true -> nan_free g = true -> nan_free h = true ->
  (exact_equals simple 0 false g h = true <-> enc (nzg g) = enc (nzg h)).
Proof. exact ee_iff_wkb_lemma. Qed.
Print Assumptions ee_iff_wkb.

(* the executable statement used by the correspondence run is the same thing *)
Theorem ee_is_wkb_equal : forall (simple : lineT N -> bool) (g h : geom),
  wf_wkb g = true -> wf_wkb h = true -> nan_free g = true -> nan_free h = true ->
  exact_equals simple 0 false g h = wkb_equal g h.
Proof. exact ee_iff_wkb_equal_lemma. Qed.
Print Assumptions ee_is_wkb_equal.

Theorem ee_equivalence : forall simple : lineT N -> bool,
  (forall g, cts_agree g = true -> nan_free g = true -> exact_equals simple 0 false g g = true) /\
  (forall g h, cts_agree g = true -> cts_agree h = true -> nan_free g = true -> nan_free h = true ->
               exact_equals simple 0 false g h = true -> exact_equals simple 0 false h g = true) /\
  (forall g h k, cts_agree g = true -> cts_agree h = true -> cts_agree k = true ->
                 nan_free g = true -> nan_free h = true -> nan_free k = true ->
                 exact_equals simple 0 false g h = true -> exact_equals simple 0 false h k = true ->
                 exact_equals simple 0 false g k = true).
Proof. exact ee_equivalence_lemma. Qed.
Print Assumptions ee_equivalence.

(* Stale fields.  geom.NewPoint stores the Coordinates struct as given, so the Z / M field of a
   point whose coordinate type does not use it may hold anything (also NaN); no encoding shows it.
   Under every option subset the comparison gives the answer it gives on the values with those
   fields zeroed - equality is determined by the USED ordinates.  (ee_iff_norm above already says
   so for the case without options: its normal form zeroes the unused fields and its NaN
   hypothesis only concerns used ordinates.)  The accessor dump of the correspondence run shows
   used ordinates only, so the model is evaluated on strip_points of the stored value. *)
Theorem ee_ignores_unused_fields : forall (simple : lineT N -> bool) (tol : N) (io : bool) (g h : geom),
  exact_equals simple tol io (strip_points N 0%N g) (strip_points N 0%N h) = exact_equals simple tol io g h.
Proof. exact ee_ignores_unused_lemma. Qed.
Print Assumptions ee_ignores_unused_fields.

(* ---- 2. the member matching ------------------------------------------------------------- *)

(* validPermutation (backtracking over the shrinking slice of unmatched members) answers true
   exactly when the members of the second list can be rearranged so that corresponding members
   are equal - for any member comparison, equivalence relation or not. *)
Theorem valid_permutation_spec : forall (A B : Type) (eqm : A -> B -> bool) (l1 : list A) (l2 : list B),
  length l1 = length l2 ->
  (valid_permutation eqm l1 l2 = true <->
   exists p, Permutation l2 p /\ Forall2 (fun a b => eqm a b = true) l1 p).
Proof. exact @vp_spec. Qed.
Print Assumptions valid_permutation_spec.

(* ---- 3. IgnoreOrder ---------------------------------------------------------------------- *)

(* "and nothing else": whatever ExactEquals(IgnoreOrder) identifies is related by the listed
   moves (OrderEquiv, Model/ExactEq.v) - for every ordinate comparison and every IsSimple. *)
Theorem ee_ignore_order_sound : forall (F : Type) (feq : F -> F -> bool) (simple : lineT F -> bool)
    (g h : geomT F),
  cts_agree g = true -> cts_agree h = true ->
  geom_eq feq (xy_exact feq) simple true g h = true -> OrderEquiv feq simple g h.
Proof. exact (fun F feq simple g h Cg Ch E => geom_io_sound F feq simple g h E _ _ Cg Ch). Qed.
Print Assumptions ee_ignore_order_sound.

(* ExactEquals without IgnoreOrder implies ExactEquals with it (same other options) *)
Theorem ee_plain_implies_ignore_order : forall (F : Type) feq xy simple (g h : geomT F),
  geom_eq feq xy simple false g h = true -> geom_eq feq xy simple true g h = true.
Proof. exact ee_plain_implies_io_lemma. Qed.
Print Assumptions ee_plain_implies_ignore_order.

(* Every generator of OrderEquiv is accepted, with NO assumption on the IsSimple oracle:
   reversal of any LineString, rotation by any k and/or reversal of a ring, every permutation of
   the members of a MultiPoint / MultiLineString / MultiPolygon / GeometryCollection and of the
   holes of a Polygon, and acceptance is preserved when members are replaced by accepted members
   at any level.  (The closure under symmetry and transitivity is ee_ignore_order_complete below,
   which needs the oracle to be invariant under the moves.) *)
Theorem ee_ignore_order_accepts_generators : forall (F : Type) (feq : F -> F -> bool) (simple : lineT F -> bool)
    (ok : F -> bool),
  (forall a, ok a = true -> feq a a = true) ->
  let ee_io := geom_eq feq (xy_exact feq) simple true in
  (forall ct vs, line_nf ok (MkLine ct vs) = true ->
                 ee_io (GLine (MkLine ct vs)) (GLine (MkLine ct (rev vs))) = true) /\
  (forall ct vs ws k (flip : bool),
     ring feq simple (MkLine ct vs) -> ring feq simple (MkLine ct ws) ->
     Forall2 (veq feq ct) (if flip then rev ws else ws) (rotk k vs) ->
     ee_io (GLine (MkLine ct ws)) (GLine (MkLine ct vs)) = true) /\
  ((forall ct ps qs, forallb (point_nf ok) ps = true -> Permutation ps qs -> ee_io (GMPoint ct ps) (GMPoint ct qs) = true) /\
   (forall ct ls ks, forallb (line_nf ok) ls = true -> Permutation ls ks -> ee_io (GMLine ct ls) (GMLine ct ks) = true) /\
   (forall ct ps qs, forallb (poly_nf ok) ps = true -> Permutation ps qs -> ee_io (GMPoly ct ps) (GMPoly ct qs) = true) /\
   (forall ct gs hs, forallb (geom_nf ok) gs = true -> Permutation gs hs -> ee_io (GColl ct gs) (GColl ct hs) = true) /\
   (forall ct e hs ks, poly_nf ok (MkPoly ct (e :: hs)) = true -> Permutation hs ks ->
                       ee_io (GPoly (MkPoly ct (e :: hs))) (GPoly (MkPoly ct (e :: ks))) = true)) /\
  ((forall ct rs ss, Forall2 (fun l k => ee_io (GLine l) (GLine k) = true) rs ss ->
                     ee_io (GPoly (MkPoly ct rs)) (GPoly (MkPoly ct ss)) = true) /\
   (forall ct ls ks, Forall2 (fun l k => ee_io (GLine l) (GLine k) = true) ls ks ->
                     ee_io (GMLine ct ls) (GMLine ct ks) = true) /\
   (forall ct ps qs, Forall2 (fun p q => ee_io (GPoly p) (GPoly q) = true) ps qs ->
                     ee_io (GMPoly ct ps) (GMPoly ct qs) = true) /\
   (forall ct gs hs, Forall2 (fun g h => ee_io g h = true) gs hs -> ee_io (GColl ct gs) (GColl ct hs) = true)).
Proof.
  exact (fun F feq simple ok Hr =>
    let refl := io_refl F feq simple ok Hr in
    conj (io_accepts_reverse F feq simple ok Hr)
   (conj (io_accepts_ring_move F feq simple)
   (conj (conj (io_accepts_perm _ _ (mpoint_member_eq_refl F feq _ ok Hr (xy_exact_refl F feq ok Hr)))
         (conj (io_accepts_perm _ _ (fun l => refl (GLine l)))
         (conj (io_accepts_perm _ _ (fun p => refl (GPoly p)))
         (conj (io_accepts_perm _ _ refl) (io_accepts_holes F feq simple ok Hr)))))
         (conj (io_accepts_inside_poly F feq simple)
         (conj (io_accepts_inside _) (conj (io_accepts_inside _) (io_accepts_inside _))))))).
Qed.
Print Assumptions ee_ignore_order_accepts_generators.

(* ExactEquals(IgnoreOrder) is symmetric, for every IsSimple oracle, whenever == on ordinates is
   symmetric and transitive (this is what the repair F50 establishes: before it, a ring whose
   closing vertex differs in Z or M from its first vertex was matched in one argument order only) *)
Theorem ee_ignore_order_sym : forall (F : Type) (feq : F -> F -> bool) (simple : lineT F -> bool),
  (forall a b, feq a b = true -> feq b a = true) ->
  (forall a b c, feq a b = true -> feq b c = true -> feq a c = true) ->
  forall g h : geomT F,
  geom_eq feq (xy_exact feq) simple true g h = true -> geom_eq feq (xy_exact feq) simple true h g = true.
Proof. exact geom_io_sym. Qed.
Print Assumptions ee_ignore_order_sym.

Theorem ee_ignore_order_sym_bits : forall (simple : lineT N -> bool) (g h : geom),
  exact_equals simple 0 true g h = exact_equals simple 0 true h g.
Proof. exact ee_io_sym_bits. Qed.
Print Assumptions ee_ignore_order_sym_bits.

(* Completeness.  Hypotheses on the oracle, explicit: IsSimple does not distinguish lines whose
   ordinates are pairwise ==, nor a closed line from its reversal.  Exact simplicity satisfies
   both; the floating-point IsSimple of the implementation violates them on the inputs of finding
   F51 (ordinates below about 1e-162 or above about 1e150), which is exactly where the
   correspondence run sees IgnoreOrder refuse a listed move. *)
Theorem ee_ignore_order_trans : forall (F : Type) (feq : F -> F -> bool) (simple : lineT F -> bool),
  (forall a b, feq a b = true -> feq b a = true) ->
  (forall a b c, feq a b = true -> feq b c = true -> feq a c = true) ->
  (forall ct vs ws, Forall2 (veq feq ct) vs ws -> simple (MkLine ct vs) = simple (MkLine ct ws)) ->
  (forall ct vs, ends_eq feq (xy_exact feq) (MkLine ct vs) = true ->
                 simple (MkLine ct (rev vs)) = simple (MkLine ct vs)) ->
  forall g h k : geomT F,
  geom_eq feq (xy_exact feq) simple true g h = true -> geom_eq feq (xy_exact feq) simple true h k = true ->
  geom_eq feq (xy_exact feq) simple true g k = true.
Proof. exact geom_io_trans. Qed.
Print Assumptions ee_ignore_order_trans.

(* "identifies geometries that differ only by ...": whatever is related by the listed moves is
   accepted, provided one side is self-equal (= has no NaN in a used ordinate) *)
Theorem ee_ignore_order_complete : forall (F : Type) (feq : F -> F -> bool) (simple : lineT F -> bool),
  (forall a b, feq a b = true -> feq b a = true) ->
  (forall a b c, feq a b = true -> feq b c = true -> feq a c = true) ->
  (forall ct vs ws, Forall2 (veq feq ct) vs ws -> simple (MkLine ct vs) = simple (MkLine ct ws)) ->
  (forall ct vs, ends_eq feq (xy_exact feq) (MkLine ct vs) = true ->
                 simple (MkLine ct (rev vs)) = simple (MkLine ct vs)) ->
  forall g h : geomT F,
  OrderEquiv feq simple g h -> geom_eq feq (xy_exact feq) simple true g g = true ->
  geom_eq feq (xy_exact feq) simple true g h = true.
Proof. exact ee_io_complete_lemma. Qed.
Print Assumptions ee_ignore_order_complete.

(* ... "and nothing else": the full equivalence, on bit patterns with IEEE equality *)
Theorem ee_ignore_order_spec : forall (simple : lineT N -> bool) (g h : geom),
  (forall ct vs ws, Forall2 (veq feq_bits ct) vs ws -> simple (MkLine ct vs) = simple (MkLine ct ws)) ->
  (forall ct vs, ends_eq feq_bits (xy_exact feq_bits) (MkLine ct vs) = true ->
                 simple (MkLine ct (rev vs)) = simple (MkLine ct vs)) ->
  cts_agree g = true -> cts_agree h = true -> nan_free g = true ->
  (exact_equals simple 0 true g h = true <-> OrderEquiv feq_bits simple g h).
Proof. exact ee_io_iff_bits. Qed.
Print Assumptions ee_ignore_order_spec.

(* ---- 4. ToleranceXY ---------------------------------------------------------------------- *)
(* [tol] is the bit pattern of the argument of ToleranceXY; squared distances are compared
   exactly (rationals), see Model/ExactEq.v:xy_eq_bits *)

Theorem ee_tol_refl : forall (simple : lineT N -> bool) (tol : N) (io : bool) (g : geom),
  nan_free g = true -> exact_equals simple tol io g g = true.
Proof. exact ee_tol_refl_lemma. Qed.
Print Assumptions ee_tol_refl.

Theorem ee_tol_sym : forall (simple : lineT N -> bool) (tol : N) (g h : geom),
  exact_equals simple tol false g h = exact_equals simple tol false h g.
Proof. exact ee_tol_sym_lemma. Qed.
Print Assumptions ee_tol_sym.

(* a larger tolerance accepts more, with and without IgnoreOrder *)
Theorem ee_tol_mono : forall (simple : lineT N -> bool) (tol1 tol2 : N) (t1 t2 : QArith_base.Q) (io : bool) (g h : geom),
  is_zero_bits tol1 = false -> is_zero_bits tol2 = false ->
  ext_of_bits tol1 = EFin t1 -> ext_of_bits tol2 = EFin t2 ->
  QArith_base.Qle (QArith_base.Qmult t1 t1) (QArith_base.Qmult t2 t2) ->
  exact_equals simple tol1 io g h = true -> exact_equals simple tol2 io g h = true.
Proof. exact ee_tol_mono_lemma. Qed.
Print Assumptions ee_tol_mono.

(* "relates vertex lists that correspond within distance e": ExactEquals(ToleranceXY(e)) holds
   exactly when the two values have the same structure (type, coordinate types, member, ring and
   vertex counts, emptiness at every node: same_structure) and their control points, in storage
   order, are pairwise within e in XY and == in Z and M (tol_spec, Model/ExactEq.v) *)
Theorem ee_tol_spec : forall (simple : lineT N -> bool) (tol : N) (g h : geom),
  exact_equals simple tol false g h = tol_spec tol g h.
Proof. exact ee_tol_spec_lemma. Qed.
Print Assumptions ee_tol_spec.

(* ---- non-vacuity ------------------------------------------------------------------------ *)
Local Open Scope N_scope.
Definition one : N := 4607182418800017408.   (* 1.0 *)
Definition two : N := 4611686018427387904.   (* 2.0 *)
Definition mzero : N := 9223372036854775808. (* -0.0 *)
Definition v (x y z : N) : vtx N := Build_vtx x y z 0.
Definition tri : lineT N := MkLine XYZ [v 0 0 one; v one 0 two; v 0 one 0; v mzero 0 one].
Definition tri_rot : lineT N := MkLine XYZ [v one 0 two; v 0 one 0; v 0 0 one; v one 0 two].
Definition ex_g : geom := GColl XYZ [GPoly (MkPoly XYZ [tri]); GMPoint XYZ [MkPoint XYZ None; MkPoint XYZ (Some (v one two 0))]].
Definition ex_h : geom := GColl XYZ [GMPoint XYZ [MkPoint XYZ (Some (v one two mzero)); MkPoint XYZ None]; GPoly (MkPoly XYZ [tri_rot])].
Example ex_hyps : wf_wkb ex_g = true /\ nan_free ex_g = true /\ wf_wkb ex_h = true /\ nan_free ex_h = true.
Proof. vm_compute. auto. Qed.
Example ex_plain_differs : exact_equals (fun _ => true) 0 false ex_g ex_h = false /\ wkb_equal ex_g ex_h = false.
Proof. vm_compute. auto. Qed.
Example ex_io_equal : exact_equals (fun _ => true) 0 true ex_g ex_h = true.
Proof. vm_compute. auto. Qed.
(* -0 and +0 are identified, one ulp is not *)
Example ex_negzero : exact_equals (fun _ => true) 0 false (GLine tri) (GLine (MkLine XYZ [v 0 0 one; v one 0 two; v 0 one 0; v 0 mzero one])) = true.
Proof. vm_compute. auto. Qed.
Example ex_ulp : exact_equals (fun _ => true) 0 true (GLine tri) (GLine (MkLine XYZ [v 0 0 one; v one 0 two; v 0 one 0; v 0 1 one])) = false.
Proof. vm_compute. auto. Qed.
(* F11: the smallest subnormal and zero differ (the squared distance of the pinned code is 0) *)
Example ex_f11 : exact_equals (fun _ => true) 0 false (GPoint (MkPoint XY (Some (Build_vtx 1 0 0 0)))) (GPoint (MkPoint XY (Some (Build_vtx 0 0 0 0)))) = false.
Proof. vm_compute. auto. Qed.
(* F50: a ring whose closing vertex differs from its first vertex in Z is not matched under rotation, in either argument order *)
Definition tri_open_z : lineT N := MkLine XYZ [v 0 0 one; v one 0 two; v 0 one 0; v 0 0 two].
Example ex_f50 : exact_equals (fun _ => true) 0 true (GLine tri_rot) (GLine tri_open_z) = false
              /\ exact_equals (fun _ => true) 0 true (GLine tri_open_z) (GLine tri_rot) = false.
Proof. vm_compute. auto. Qed.
(* the clause "rings are not empty" inside the hypothesis nan_free of ee_iff_wkb (Model/ExactEq.v:
   ring_nf) is tight: the code cannot tell a polygon
   with one empty ring from the empty polygon (type_polygon.go:IsEmpty documents the invariant) *)
Example ex_empty_ring : exact_equals (fun _ => true) 0 false (GPoly (MkPoly XY [MkLine XY []])) (GPoly (MkPoly XY [])) = true
                     /\ wkb_equal (GPoly (MkPoly XY [MkLine XY []])) (GPoly (MkPoly XY [])) = false.
Proof. vm_compute. auto. Qed.

(* tolerance: (0,0) and (0.75,0) are within 1 but not within 0.5; hypotheses of ee_tol_mono hold *)
Definition half : N := 4602678819172646912.          (* 0.5 *)
Definition three_quarters : N := 4604930618986332160. (* 0.75 *)
Definition p00 : geom := GPoint (MkPoint XY (Some (Build_vtx 0 0 0 0))).
Definition p34 : geom := GPoint (MkPoint XY (Some (Build_vtx three_quarters 0 0 0))).
Example ex_tol : exact_equals (fun _ => true) one false p00 p34 = true
              /\ exact_equals (fun _ => true) half false p00 p34 = false
              /\ is_zero_bits half = false /\ is_zero_bits one = false.
Proof. vm_compute. auto. Qed.
Example ex_tol_decoded : exists t1 t2, ext_of_bits half = EFin t1 /\ ext_of_bits one = EFin t2
                                      /\ QArith_base.Qle (QArith_base.Qmult t1 t1) (QArith_base.Qmult t2 t2).
Proof. eexists; eexists; split; [vm_compute; reflexivity | split; [vm_compute; reflexivity | vm_compute; discriminate]]. Qed.
(* F52: the tolerance test is about the distances themselves, also where their squares are not
   representable in float64 (the model's arithmetic is exact): points 1e200 apart are not within
   1e160 (before the repair both squares overflowed and the code answered true); points 1e-200 apart
   are within 1e-180 (the squared tolerance underflowed to 0 and the code compared exactly), and
   points 1e-180 apart are not within 1e-200 *)
Definition f_1e200 : N := 7598952565167317594.
Definition f_1e160 : N := 7000496887210966211.
Definition f_1em200 : N := 1614679632300144556.
Definition f_1em180 : N := 1914198181197535432.
Definition px (x : N) : geom := GPoint (MkPoint XY (Some (Build_vtx x 0 0 0))).
Example ex_tol_extreme :
     exact_equals (fun _ => true) f_1e160 false p00 (px f_1e200) = false
  /\ exact_equals (fun _ => true) f_1e200 false p00 (px f_1e160) = true
  /\ exact_equals (fun _ => true) f_1em180 false p00 (px f_1em200) = true
  /\ exact_equals (fun _ => true) f_1em200 false p00 (px f_1em180) = false.
Proof. vm_compute. auto. Qed.
(* a member comparison that is not transitive: the matcher has to backtrack (a greedy one fails) *)
Example ex_backtrack :
  valid_permutation (fun a b : nat => Nat.leb (a - b) 1 && Nat.leb (b - a) 1) [1; 3]%nat [2; 0]%nat = true.
Proof. vm_compute. reflexivity. Qed.

(* the oracle hypotheses of ee_ignore_order_spec are satisfiable (any constant oracle), and the
   theorem then yields a derivation of OrderEquiv for the example pair above *)
Example ex_order_equiv : OrderEquiv feq_bits (fun _ => true) ex_g ex_h.
Proof.
  apply (ee_ignore_order_spec (fun _ => true) ex_g ex_h);
    [exact (proj1 (const_oracle_invariant feq_bits true)) | exact (proj2 (const_oracle_invariant feq_bits true))
    | vm_compute; reflexivity | vm_compute; reflexivity | vm_compute; reflexivity | vm_compute; reflexivity].
Qed.

(* a point with stale Z and M (7 and NaN) in an XY value equals the clean point, also inside a MultiPoint under IgnoreOrder *)
Definition stale_pt : pointT N := MkPoint XY (Some (Build_vtx one two 4619567317775286272 go_nan)).
Definition clean_pt : pointT N := MkPoint XY (Some (Build_vtx one two 0 0)).
Example ex_stale : exact_equals (fun _ => true) 0 false (GPoint stale_pt) (GPoint clean_pt) = true
                /\ exact_equals (fun _ => true) 0 true (GMPoint XY [MkPoint XY None; stale_pt]) (GMPoint XY [clean_pt; MkPoint XY None]) = true
                /\ strip_points N 0 (GPoint stale_pt) = GPoint clean_pt.
Proof. vm_compute. auto. Qed.
