(* C17 - the translator tie as statements (nothing else in this file): the bodies of geom/type_polygon.go:IsCW,
   IsCCW and geom/alg_simplify.go:perpendicularDistance, re-read from the Go source on every run into
   Gen/FuncsLoop.v, ARE the model functions the ForceCW/ForceCCW and Simplify theorems of Props/C17.v are about.
   Proofs are in Proofs/Funcs_tie_Loop_Force.v and Proofs/Funcs_tie_Loop_Simplify.v. *)
From Coq Require Import QArith List.
From SF Require Import Base.FOps Base.GeomAST Gen.FuncsLoop Model.TrCommon Model.TrForce Model.TrSimplify
  Proofs.Funcs_tie_Loop_Force Proofs.Funcs_tie_Loop_Simplify.

Theorem go_IsCW_is_model : forall p : polyT Q, geom_Polygon_IsCW qops (gpoly p) = Known (poly_is_cw p).
Proof. exact tie_Polygon_IsCW. Qed.
Print Assumptions go_IsCW_is_model.

Theorem go_IsCCW_is_model : forall p : polyT Q, geom_Polygon_IsCCW qops (gpoly p) = Known (poly_is_ccw p).
Proof. exact tie_Polygon_IsCCW. Qed.
Print Assumptions go_IsCCW_is_model.

(* for every root function: the square of Go's perpendicular distance is the model's squared distance *)
Theorem go_perpendicularDistance_is_model : forall (sq : Q -> Q) (hy : Q -> Q -> Q),
  (forall x y, hy x y = sq (x * x + y * y)) -> (forall x, 0 <= x -> sq x * sq x == x) ->
  forall p a b : qv,
  geom_perpendicularDistance (qops_with sq hy) (gq p) (gq a) (gq b)
  * geom_perpendicularDistance (qops_with sq hy) (gq p) (gq a) (gq b) == pd2 a b p.
Proof. exact tie_perpendicularDistance. Qed.
Print Assumptions go_perpendicularDistance_is_model.
