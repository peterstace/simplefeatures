(* Property C14 - Centroid equals the exact centre of mass of the point set.
   Statements only; proofs are in Proofs/Measure_moments.v (over Proofs/Measure_slab.v, the cells
   of the area statement), definitions in Model/MeasureMoments.v.

   The area of the point set is measured in Props/C14.v by C01's slab functional [SetOpSpec.area_of]
   (sum of the trapezoids of the slab decomposition whose witness is a member of the set).  Here the
   first moments (integral of x, integral of y) of the point set are measured on the SAME cells
   ([moment_cells]: same witnesses in the same order, [moment_cells_area]: same areas), each recorded
   with its shape [tcell] (vertical sides at two consecutive event abscissae x0 < x1, lower edge
   from (x0,l0) to (x1,l1), upper edge from (x0,u0) to (x1,u1)) and measured by the closed forms
   [tz_area], [tz_mx], [tz_my].  The closed forms are pinned down independently of any ring code
   (section "the closed forms": a finitely additive functional on trapezoids - cut by a vertical
   line, cut by a segment joining the vertical sides - with the right behaviour under translation
   and scaling and the right value on rectangles and triangles).
   Proved for EVERY closed ring: the numerators centroidOfRing accumulates over its triangle fan
   (areaSum2, cent6) are -2, -6, -6 times the sums over the cells of (winding number at the
   witness) x (area, integral of x, integral of y) of the cell ([ring_moment_is_winding_moment]);
   hence centroidOfRing = (integral of x, integral of y) / area of the point set for every ring
   whose winding number takes the values 0 / sigma only at the witnesses
   ([centroid_is_slab_centroid]), Polygon.Centroid = centre of mass of the point set for polygons
   with holes under pointwise nesting and rings of non-zero area ([centroid_is_slab_centroid_holes],
   executable hypotheses: [slab_hypotheses_imply_centroid]) and MultiPolygon.Centroid = centre of
   mass of the union for members that are pointwise disjoint at the witnesses
   ([mpoly_centroid_is_slab_centroid], executable: [mpoly_hypotheses_imply_centroid]).
   As for the area, NOT proved: that every simple ring satisfies the winding condition (the
   Jordan-curve content); it is a boolean, evaluated by the kernel in the Examples and by the
   extracted code on every generated lattice polygon of the correspondence run, where the exact
   moment quotient is compared with the implementation's Centroid (SPEC centroid_moments).
   Float rounding is not modelled: the theorems are about exact rational arithmetic. *)
From Coq Require Import QArith Qabs ZArith List Bool.
From SF Require Import Base.GeomAST Model.Measure Model.MeasureMoments.
From SF Require Base.QKernel Base.Planar Model.SetOpSpec.
From SF Require Import Proofs.Measure_slab Proofs.Measure_moments.
Import ListNotations.
Open Scope Q_scope.

(* ------------------------------------------------------------------ the closed forms *)

(* cut by the vertical line at any abscissa x: area and both first moments add up *)
Theorem trapezoid_moments_additive_vertical : forall (c : tcell) (x : Q), ~ tx0 c == tx1 c ->
  tz_area (tz_left c x) + tz_area (tz_right c x) == tz_area c /\
  tz_mx (tz_left c x) + tz_mx (tz_right c x) == tz_mx c /\
  tz_my (tz_left c x) + tz_my (tz_right c x) == tz_my c.
Proof. exact tz_split_vertical. Qed.
Print Assumptions trapezoid_moments_additive_vertical.

(* cut by the segment from (x0,m0) to (x1,m1) *)
Theorem trapezoid_moments_additive_segment : forall (c : tcell) (m0 m1 : Q),
  tz_area (tz_below c m0 m1) + tz_area (tz_above c m0 m1) == tz_area c /\
  tz_mx (tz_below c m0 m1) + tz_mx (tz_above c m0 m1) == tz_mx c /\
  tz_my (tz_below c m0 m1) + tz_my (tz_above c m0 m1) == tz_my c.
Proof. exact tz_split_segment. Qed.
Print Assumptions trapezoid_moments_additive_segment.

(* translation by t: the first moments change by t * area *)
Theorem trapezoid_moments_translate : forall (t : xy) (c : tcell),
  tz_area (tz_translate t c) == tz_area c /\
  tz_mx (tz_translate t c) == tz_mx c + fst t * tz_area c /\
  tz_my (tz_translate t c) == tz_my c + snd t * tz_area c.
Proof. exact tz_translate_moments. Qed.
Print Assumptions trapezoid_moments_translate.

(* scaling: area is homogeneous of degree 2, first moments of degree 3; and per axis *)
Theorem trapezoid_moments_scale : forall (k : Q) (c : tcell),
  tz_area (tz_scale k c) == k * k * tz_area c /\
  tz_mx (tz_scale k c) == k * k * k * tz_mx c /\
  tz_my (tz_scale k c) == k * k * k * tz_my c.
Proof. exact tz_scale_moments. Qed.
Print Assumptions trapezoid_moments_scale.

Theorem trapezoid_moments_scale_axes : forall (kx ky : Q) (c : tcell),
  tz_area (tz_scale_xy kx ky c) == kx * ky * tz_area c /\
  tz_mx (tz_scale_xy kx ky c) == kx * kx * ky * tz_mx c /\
  tz_my (tz_scale_xy kx ky c) == kx * ky * ky * tz_my c.
Proof. exact tz_scale_xy_moments. Qed.
Print Assumptions trapezoid_moments_scale_axes.

(* anchors: the axis-parallel rectangle and the triangle (x0,a) (x1,b) (x1,c) *)
Theorem rectangle_moments : forall x0 x1 y0 y1 : Q,
  tz_area (tz_rect x0 x1 y0 y1) == (x1 - x0) * (y1 - y0) /\
  tz_mx (tz_rect x0 x1 y0 y1) == (x0 + x1) / 2 * tz_area (tz_rect x0 x1 y0 y1) /\
  tz_my (tz_rect x0 x1 y0 y1) == (y0 + y1) / 2 * tz_area (tz_rect x0 x1 y0 y1).
Proof. exact tz_rect_moments. Qed.
Print Assumptions rectangle_moments.

Theorem triangle_moments : forall x0 x1 a b c : Q,
  tz_area (tz_tri x0 x1 a b c) == (x1 - x0) * (c - b) / 2 /\
  tz_mx (tz_tri x0 x1 a b c) == (x0 + x1 + x1) / 3 * tz_area (tz_tri x0 x1 a b c) /\
  tz_my (tz_tri x0 x1 a b c) == (a + b + c) / 3 * tz_area (tz_tri x0 x1 a b c).
Proof. exact tz_tri_moments. Qed.
Print Assumptions triangle_moments.

(* ------------------------------------------------------------------ the cells *)

(* the cells with shape are the cells of C01's slab functional: same witnesses in the same order ... *)
Theorem moment_cells_witnesses : forall (L : list QKernel.seg) (P : list QKernel.pt),
  map fst (moment_cells L P) = map fst (SetOpSpec.slab_cells L (Planar.events (Planar.vertex_set L P))).
Proof. intros L P. apply tcells_witnesses. Qed.
Print Assumptions moment_cells_witnesses.

(* ... and same areas: the area of any point set f measured on them is SetOpSpec.area_of *)
Theorem moment_cells_area : forall (L : list QKernel.seg) (P : list QKernel.pt) (f : QKernel.pt -> bool),
  set_area L P f == SetOpSpec.area_of L P f.
Proof. exact set_area_is_area_of. Qed.
Print Assumptions moment_cells_area.

(* ------------------------------------------------------------------ the ring theorem *)

(* for EVERY closed ring (simple or not), in any arrangement (L, P) that contains its edges: the
   sums centroidOfRing accumulates over the fan from the first vertex - areaSum2 ([ring_fan2]) and
   cent6 ([ring_fan6]: sum of centroid3 * area2) - are -2, -6, -6 times the sums over the cells of
   the slab decomposition of (winding number of the ring at the cell's witness) * (area, integral
   of x, integral of y over the cell) *)
Theorem ring_moment_is_winding_moment : forall (L : list QKernel.seg) (P ps : list QKernel.pt),
  incl (QKernel.ring_edges ps) L -> Planar.pts_closed ps = true ->
  let cells := moment_cells L P in
  let w := fun p => inject_Z (zwind (QKernel.ring_edges ps) p) in
  ring_fan2 ps == -2 * cells_wsum (tproj tz_area cells) w /\
  fst (ring_fan6 ps) == -6 * cells_wsum (tproj tz_mx cells) w /\
  snd (ring_fan6 ps) == -6 * cells_wsum (tproj tz_my cells) w.
Proof. exact ring_moment_is_winding_moment_lemma. Qed.
Print Assumptions ring_moment_is_winding_moment.

(* the general form behind it: any additive functional of pieces of non-vertical lines *)
Theorem ring_functional_is_winding_functional :
  forall G : Q -> Q -> Q -> Q -> Q,
  Morphisms.Proper (Qeq ==> Qeq ==> Qeq ==> Qeq ==> Qeq)%signature G ->
  (forall x0 x1 a b : Q, x0 == x1 -> G x0 x1 a b == 0) ->
  (forall e : QKernel.seg, Planar_slab_base.nonvertical e -> forall x0 x1 x2 : Q,
     G x0 x1 (Planar_slab_base.y_at e x0) (Planar_slab_base.y_at e x1) +
     G x1 x2 (Planar_slab_base.y_at e x1) (Planar_slab_base.y_at e x2) ==
     G x0 x2 (Planar_slab_base.y_at e x0) (Planar_slab_base.y_at e x2)) ->
  forall (L : list QKernel.seg) (P ps : list QKernel.pt),
  incl (QKernel.ring_edges ps) L -> Planar.pts_closed ps = true ->
  qsum (map (edge_term G) (QKernel.ring_edges ps)) ==
  cells_wsum (tproj (cell_term G) (moment_cells L P)) (fun p => inject_Z (zwind (QKernel.ring_edges ps) p)).
Proof. exact ring_functional_is_winding_sum. Qed.
Print Assumptions ring_functional_is_winding_functional.

(* ------------------------------------------------------------------ the point set *)

(* a ring whose winding number is 0 or sigma at every witness (the hypotheses of
   shoelace_is_slab_area; no hypothesis on the area: x/0 = 0 on both sides): centroidOfRing is
   (integral of x, integral of y) / area of the point set of the polygon bounded by the ring *)
Theorem centroid_is_slab_centroid : forall (L : list QKernel.seg) (P : list QKernel.pt) ct (l : lineT Q) (sigma : Z),
  incl (Planar.line_segs l) L -> Planar.pts_closed (Planar.line_pts l) = true -> (sigma = 1 \/ sigma = -1)%Z ->
  winding_simple sigma (QKernel.ring_edges (Planar.line_pts l))
                 (SetOpSpec.slab_cells L (Planar.events (Planar.vertex_set L P))) = true ->
  xy_eq (centroid_of_ring l) (set_centroid L P (Planar.inG (GPoly (MkPoly ct [l])))).
Proof. exact centroid_is_slab_centroid_lemma. Qed.
Print Assumptions centroid_is_slab_centroid.

(* polygon with holes, hypotheses of shoelace_is_slab_area_holes and no ring of zero area:
   Polygon.Centroid (the sum of the ring centroids weighted by +|shell|, -|hole| over the total)
   is the centre of mass of the point set *)
Theorem centroid_is_slab_centroid_holes :
  forall (L : list QKernel.seg) (P : list QKernel.pt) ct (sh : lineT Q) (hs : list (lineT Q)),
  let cells := SetOpSpec.slab_cells L (Planar.events (Planar.vertex_set L P)) in
  (forall r, In r (sh :: hs) ->
     incl (Planar.line_segs r) L /\ Planar.pts_closed (Planar.line_pts r) = true /\
     (exists sigma, (sigma = 1 \/ sigma = -1)%Z /\ winding_simple sigma (QKernel.ring_edges (Planar.line_pts r)) cells = true) /\
     ~ ring_area_xy (Planar.line_pts r) == 0) ->
  nesting_ok sh hs cells = true ->
  exists c, poly_centroid (MkPoly ct (sh :: hs)) = Some c /\
            xy_eq c (set_centroid L P (Planar.inG (GPoly (MkPoly ct (sh :: hs))))).
Proof. exact centroid_is_slab_centroid_holes_lemma. Qed.
Print Assumptions centroid_is_slab_centroid_holes.

(* executable form: two booleans per polygon (in the arrangement of its own rings) *)
Theorem slab_hypotheses_imply_centroid : forall ct (rings : list (lineT Q)),
  slab_hypotheses (MkPoly ct rings) = true -> rings_nonzero (MkPoly ct rings) = true ->
  match rings with
  | [] => poly_centroid (MkPoly ct rings) = None
  | _ => exists c, poly_centroid (MkPoly ct rings) = Some c /\ xy_eq c (slab_centroid (MkPoly ct rings))
  end.
Proof. exact slab_hypotheses_centroid. Qed.
Print Assumptions slab_hypotheses_imply_centroid.

(* the one-pass evaluation the correspondence run uses computes these three sums *)
Theorem poly_moments_are_set_moments : forall y : polyT Q,
  let L := mpoly_segs y in
  fst (fst (poly_moments y)) == set_area L [] (Planar.inG (GPoly y)) /\
  snd (fst (poly_moments y)) == set_mx L [] (Planar.inG (GPoly y)) /\
  snd (poly_moments y) == set_my L [] (Planar.inG (GPoly y)).
Proof. exact poly_moments_spec. Qed.
Print Assumptions poly_moments_are_set_moments.

(* multipolygon, all members in one arrangement: every non-empty member satisfies the hypotheses
   above and has non-zero area ([member_ok]), and no witness lies in two members: MultiPolygon.Centroid
   is the centre of mass of the union *)
Theorem mpoly_centroid_is_slab_centroid : forall (L : list QKernel.seg) (P : list QKernel.pt) ct (ps : list (polyT Q)),
  (forall y, In y ps -> member_ok L P y) ->
  members_disjoint ps (map fst (SetOpSpec.slab_cells L (Planar.events (Planar.vertex_set L P)))) = true ->
  forallb (@poly_empty Q) ps = false ->
  exists c, mpoly_centroid ps = Some c /\ xy_eq c (set_centroid L P (Planar.inG (GMPoly ct ps))).
Proof. exact mpoly_centroid_is_slab_centroid_lemma. Qed.
Print Assumptions mpoly_centroid_is_slab_centroid.

Theorem mpoly_hypotheses_imply_centroid : forall ps : list (polyT Q),
  mpoly_hypotheses ps = true -> forallb (@poly_empty Q) ps = false ->
  exists c, mpoly_centroid ps = Some c /\ xy_eq c (mslab_centroid ps).
Proof. exact mpoly_hypotheses_centroid. Qed.
Print Assumptions mpoly_hypotheses_imply_centroid.

Theorem mpoly_moments_are_set_moments : forall ps : list (polyT Q),
  let '(a, mx, my) := mpoly_moments ps in xy_eq (mx / a, my / a) (mslab_centroid ps).
Proof. exact mpoly_moments_spec. Qed.
Print Assumptions mpoly_moments_are_set_moments.

(* ------------------------------------------------------------------ Examples (non-vacuity) *)

Definition v (x y : Z) : vtx Q := Build_vtx (inject_Z x) (inject_Z y) 7 (-3).
Definition ln (l : list (Z * Z)) : lineT Q := MkLine XYZM (map (fun p => v (fst p) (snd p)) l).
(* L shape: 4x2 foot + 2x3 leg; area 14, centre of mass ((8*2 + 6*1)/14, (8*1 + 6*7/2)/14) = (11/7, 29/14) *)
Definition ex_L : polyT Q := MkPoly XY [ln [(0,0);(4,0);(4,2);(2,2);(2,5);(0,5);(0,0)]%Z].
(* 6x6 square with an off-centre 2x2 square hole: (36*(3,3) - 4*(2,4)) / 32 = (25/8, 23/8) *)
Definition ex_hole : polyT Q :=
  MkPoly XYZM [ln [(0,0);(6,0);(6,6);(0,6);(0,0)]; ln [(1,3);(1,5);(3,5);(3,3);(1,3)]]%Z.
(* a non-convex star: slanted edges, the cells are genuine trapezoids and triangles *)
Definition ex_star : polyT Q := MkPoly XY [ln [(0,0);(5,2);(10,0);(7,4);(10,9);(5,6);(0,9);(3,4);(0,0)]%Z].
(* a triangle with a triangular hole, clockwise shell *)
Definition ex_tri_hole : polyT Q :=
  MkPoly XY [ln [(0,0);(0,9);(12,0);(0,0)]; ln [(1,1);(4,1);(1,4);(1,1)]]%Z.

Definition centroid_check (y : polyT Q) (c : xy) : Prop :=
  slab_hypotheses y = true /\ rings_nonzero y = true /\
  (exists c', poly_centroid y = Some c' /\ xy_eq c' (slab_centroid y)) /\
  xy_eq (slab_centroid y) c /\
  (let '(a, mx, my) := poly_moments y in xy_eq (mx / a, my / a) c).

Ltac centroid_example :=
  match goal with |- centroid_check ?y ?c =>
    let H := fresh "H" in let Z := fresh "Z" in
    assert (H : slab_hypotheses y = true) by (vm_compute; reflexivity);
    assert (Z : rings_nonzero y = true) by (vm_compute; reflexivity);
    split; [exact H|]; split; [exact Z|]; split;
    [ exact (slab_hypotheses_imply_centroid _ _ H Z)
    | split; vm_compute; split; reflexivity ]
  end.

Example ex_centroid_L : centroid_check ex_L (11 # 7, 29 # 14).
Proof. centroid_example. Qed.
Example ex_centroid_hole : centroid_check ex_hole (25 # 8, 23 # 8).
Proof. centroid_example. Qed.
(* star: area 38; the value is the one the fan formula gives (theorem), here computed from the cells *)
Example ex_centroid_star : centroid_check ex_star (5, 242 # 57).
Proof. centroid_example. Qed.
Example ex_centroid_tri_hole : centroid_check ex_tri_hole ((4 * 54 - 2 * (9 # 2)) / (54 - (9 # 2)), (3 * 54 - 2 * (9 # 2)) / (54 - (9 # 2))).
Proof. centroid_example. Qed.

(* the ring theorem on a ring that is NOT simple (bow-tie, winding numbers +1 and -1): no hypothesis
   beyond closedness; both sides evaluated by the kernel *)
Example ex_bowtie_winding_moments :
  let ps := [(0, 0); (4, 4); (4, 0); (0, 4); (0, 0)] : list QKernel.pt in
  let L := QKernel.ring_edges ps in
  let w := fun p => inject_Z (zwind L p) in
  Planar.pts_closed ps = true /\
  ring_fan2 ps == 0 /\ cells_wsum (tproj tz_area (moment_cells L [])) w == 0 /\
  fst (ring_fan6 ps) == -6 * cells_wsum (tproj tz_mx (moment_cells L [])) w /\
  ~ fst (ring_fan6 ps) == 0 /\
  snd (ring_fan6 ps) == -6 * cells_wsum (tproj tz_my (moment_cells L [])) w.
Proof. vm_compute. repeat split; try reflexivity. discriminate. Qed.

(* the winding condition is needed: for the bow-tie the fan quotient is 0/0 while the point set (two
   triangles) has its centre of mass at (2, 2) *)
Example ex_bowtie_needs_winding :
  let bow := MkPoly XY [ln [(0,0);(4,4);(4,0);(0,4);(0,0)]%Z] in
  slab_hypotheses bow = false /\ xy_eq (slab_centroid bow) (2, 2) /\
  oxy_eq (poly_centroid bow) (Some (0, 0)).
Proof. vm_compute. repeat split; reflexivity. Qed.

(* multipolygon: the L shape and a triangle beside it, in one arrangement *)
Definition ex_mp : list (polyT Q) :=
  [ex_L; MkPoly XY []; MkPoly XY [ln [(5,0);(9,0);(5,3);(5,0)]%Z]].
Example ex_centroid_mpoly :
  mpoly_hypotheses ex_mp = true /\
  (exists c, mpoly_centroid ex_mp = Some c /\ xy_eq c (mslab_centroid ex_mp)) /\
  xy_eq (mslab_centroid ex_mp) ((14 * (11 # 7) + 6 * (19 # 3)) / 20, (14 * (29 # 14) + 6 * 1) / 20).
Proof.
  assert (H : mpoly_hypotheses ex_mp = true) by (vm_compute; reflexivity).
  split; [exact H|]. split; [apply (mpoly_hypotheses_imply_centroid ex_mp H); reflexivity|].
  vm_compute. split; reflexivity.
Qed.
(* disjointness is needed: two overlapping squares *)
Example ex_mpoly_needs_disjoint :
  let mp := [MkPoly XY [ln [(0,0);(4,0);(4,4);(0,4);(0,0)]%Z]; MkPoly XY [ln [(2,0);(8,0);(8,4);(2,4);(2,0)]%Z]] in
  mpoly_hypotheses mp = false /\
  oxy_eq (mpoly_centroid mp) (Some ((16 * 2 + 24 * 5) / 40, 2)) /\ xy_eq (mslab_centroid mp) (4, 2).
Proof. vm_compute. repeat split; reflexivity. Qed.
