(* Property C01 - overlay set operations return exactly the set-theoretic result.
   Statements only; proofs are in Proofs/SetOpSpec_proofs.v, SetOpSpec_arr_proofs.v (arrangement
   structures, area), SetOpSpec_suff_proofs.v (from the witnesses to every point, with
   Planar_slab_base.v and Planar_slab_dim.v), OverlayComplex_proofs.v (selection rules) and
   OverlayRings_proofs.v (ring walk and grouping of extractPolygons).

   What is proved, for all inputs:
   (a) the glue of geom/alg_set_op.go (empty-operand dispatch) and of the final switch of
       geom/dcel_extract_geometry.go, for every engine;
   (b) the exact judgement of a result is a VERIFIED DECISION PROCEDURE, on geometries with closed rings
       (checked executably: rings_closed_b; true of every valid polygon): with the slab-witness
       sufficiency theorems of Proofs/Planar_slab*.v, a passing judgement means
         - union, intersection, UnaryUnion, UnionMany: inG r p = Boolean combination of the operands'
           memberships at EVERY point p of Q^2 (judge_everywhere, judge_many_everywhere);
         - difference, symmetric difference: r contains the Boolean combination at every point
           (judge_contains); r equals it at every point that lies on no segment of the arrangement and
           whose abscissa is not an event abscissa - an open dense subset (judge_off_skeleton); at the
           remaining points (on segments / event lines) membership in r is membership of the point or of
           one of the cells named incident to its cell (judge_closure_everywhere).  NOT proved: that
           the incidence annotation computed by witnesses_nb is geometric incidence (i.e. that this last
           clause IS the topological closure); proved about it: every named cell is a witness of the same
           arrangement (wnb_are_witnesses), the annotated list is Planar.witnesses (witnesses_nb_strip);
         - the exact area functional of r equals that of the Boolean combination (judge_area), it is
           non-negative, monotone and satisfies inclusion-exclusion;
   (c) on every abstract labelled half-edge complex satisfying dcel_ok: what the selection rules of
       dcel_extract_geometry.go extract (select_closure_*, select_remainders_uncovered,
       select_monotone_*, select_face_ops, select_comm, face_cycle_complete).
   The overlay engine itself is modelled in exact arithmetic: ghosts, re-noding and interaction points
   in Props/C01_renode.v, radial sort, face cycles and flood fill in Props/C01_fixup.v, ring walking in
   the section "extractPolygons on the complex" below, their composition in Props/C01_pipeline.v.
   Outside the model: the float arithmetic of re-noding with node snapping.  NOT proved: that the
   labels of the composed model are the memberships of the operands (Props/C01_pipeline.v (d)).  The Go
   engine is tied to the property by the correspondence run: its results are judged by (b), its real
   DCEL is judged by dcel_ok and by the selection model (c). *)
From Coq Require Import QArith List Bool ZArith.
From SF Require Import Base.GeomAST Base.Outcome Base.QKernel Base.Planar Model.SetOpSpec Proofs.SetOpSpec_proofs
  Proofs.SetOpSpec_arr_proofs Model.OverlayComplex Proofs.OverlayComplex_proofs
  Proofs.Planar_slab_base Proofs.Planar_slab_dim Proofs.SetOpSpec_suff_proofs
  Model.OverlayRings Proofs.OverlayRings_proofs.
Import ListNotations.
Open Scope Q_scope.

(* ================================================================ glue: geom/alg_set_op.go ==== *)
(* the empty-operand dispatch of Union / Intersection / Difference / SymmetricDifference as one
   table: which call is made for each emptiness pattern, for every engine
   (Union a EMPTY = UnaryUnion a, Intersection a EMPTY = Geometry{}, Difference EMPTY b = Geometry{},
   Difference a EMPTY = UnaryUnion a, ...) *)
Theorem dispatch_empty_spec : forall engine o a b,
  run engine o a b =
  match dispatch o (g_empty a) (g_empty b) with
  | DEmpty => Ok empty_geom
  | DUnaryA => unary_union engine a
  | DUnaryB => unary_union engine b
  | DEngine => engine a o b
  end.
Proof. exact dispatch_spec_lemma. Qed.
Print Assumptions dispatch_empty_spec.

(* an empty geometry (IsEmpty) has no points, whatever its type and nesting *)
Theorem empty_no_points : forall (g : geom) p, is_empty g = true -> inG g p = false.
Proof. exact empty_no_points_lemma. Qed.
Print Assumptions empty_no_points.

(* for every engine whose union overlay is pointwise correct, every operation with an empty
   operand returns the plain Boolean combination of the memberships (the dispatch is right) *)
Theorem dispatch_pointwise : forall engine,
  engine_union_ok engine ->
  forall o a b r, g_empty a || g_empty b = true -> run engine o a b = Ok r ->
  forall p, inG r p = op_bool o (inG a p) (inG b p).
Proof. exact dispatch_pointwise_lemma. Qed.
Print Assumptions dispatch_pointwise.

(* UnionMany = union over the list (NewGeometryCollection keeps every member's X and Y) *)
Theorem union_many_pointwise : forall engine,
  engine_union_ok engine -> forall gs r, union_many engine gs = Ok r ->
  forall p, inG r p = existsb (fun g => inG g p) gs.
Proof. exact union_many_pointwise_lemma. Qed.
Print Assumptions union_many_pointwise.

(* ================================================================ glue: extractGeometry ======= *)
(* GeometryCollection iff the number of dimensions present differs from one *)
Theorem assemble_shape_collection : forall A L P,
  geom_type (assemble A L P) = TColl <-> dims_present A L P <> 1%nat.
Proof. exact assemble_collection_iff_lemma. Qed.
Print Assumptions assemble_shape_collection.

(* one dimension present: the single type for one member, the Multi type iff more than one *)
Theorem assemble_shape_multi : forall A L P,
  dims_present A L P = 1%nat ->
  geom_type (assemble A L P) =
    match A, L, P with
    | [_], _, _ => TPoly | _ :: _ :: _, _, _ => TMPoly
    | [], [_], _ => TLine | [], _ :: _ :: _, _ => TMLine
    | [], [], [_] => TPoint | [], [], _ => TMPoint
    end.
Proof. exact assemble_single_multi_lemma. Qed.
Print Assumptions assemble_shape_multi.

(* mixed result: areals, then lineals, then points *)
Theorem assemble_shape_order : forall A L P,
  dims_present A L P <> 1%nat ->
  map geom_type (members (assemble A L P)) =
  repeat TPoly (length A) ++ repeat TLine (length L) ++ repeat TPoint (length P).
Proof. exact assemble_order_lemma. Qed.
Print Assumptions assemble_shape_order.

(* the assembled value has exactly the points of the extracted members *)
Theorem assemble_pointset : forall A L P p,
  inG (assemble A L P) p =
  existsb (fun y => in_poly y p) A || existsb (fun l => on_line l p) L || existsb (fun q => in_point q p) P.
Proof. exact assemble_pointset_lemma. Qed.
Print Assumptions assemble_pointset.

(* the executable canonical-shape predicate evaluated on the implementation's outputs holds of
   everything the switch can produce from non-empty members *)
Theorem assemble_shape_ok : forall A L P, all_nonempty A L P = true -> shape_ok (assemble A L P) = true.
Proof. exact assemble_shape_ok_lemma. Qed.
Print Assumptions assemble_shape_ok.

(* ================================================================ Boolean algebra of the spec == *)
Theorem expected_comm : forall o a b w, o <> OpDiff -> expected o a b w = expected o b a w.
Proof. exact expected_comm_lemma. Qed.
Print Assumptions expected_comm.

Theorem expected_idem : forall a w,
  expected OpUnion a a w = inG a (wpt w) /\ expected OpInter a a w = inG a (wpt w) /\
  expected OpDiff a a w = false /\ expected OpSym a a w = false.
Proof. exact expected_idem_lemma. Qed.
Print Assumptions expected_idem.

(* a = (a \ b) u (a n b) with disjoint parts, at every point *)
Theorem expected_partition : forall a b p,
  inG a p = raw OpDiff a b p || raw OpInter a b p /\ raw OpDiff a b p && raw OpInter a b p = false.
Proof. exact expected_partition_lemma. Qed.
Print Assumptions expected_partition.

(* ... and on closures, at every witness: cl(a) = cl(a \ b) u cl(a n b) *)
Theorem expected_partition_closure : forall a b w,
  in_closure (inG a) w = expected OpDiff a b w || in_closure (raw OpInter a b) w.
Proof. exact expected_partition_closure_lemma. Qed.
Print Assumptions expected_partition_closure.

Theorem expected_symdiff : forall a b w,
  (forall p, raw OpSym a b p = raw OpDiff a b p || raw OpDiff b a p) /\
  expected OpSym a b w = expected OpDiff a b w || expected OpDiff b a w.
Proof. exact expected_symdiff_lemma. Qed.
Print Assumptions expected_symdiff.

Theorem expected_de_morgan : forall a b p,
  negb (raw OpUnion a b p) = negb (inG a p) && negb (inG b p) /\
  negb (raw OpInter a b p) = negb (inG a p) || negb (inG b p) /\
  raw OpDiff a b p = inG a p && negb (raw OpInter a b p) /\
  raw OpUnion a b p = raw OpSym a b p || raw OpInter a b p /\
  raw OpSym a b p = raw OpUnion a b p && negb (raw OpInter a b p).
Proof. exact expected_de_morgan_lemma. Qed.
Print Assumptions expected_de_morgan.

(* closure operator used for difference / symmetric difference: extensive, monotone, distributes
   over union, empty for the empty set *)
Theorem in_closure_laws : forall X Y w,
  (X (wpt w) = true -> in_closure X w = true) /\
  ((forall p, X p = true -> Y p = true) -> in_closure X w = true -> in_closure Y w = true) /\
  in_closure (fun p => X p || Y p) w = in_closure X w || in_closure Y w /\
  in_closure (fun _ => false) w = false.
Proof.
  intros X Y w. repeat split.
  - apply in_closure_extensive. - apply in_closure_mono. - apply in_closure_union. - apply in_closure_empty.
Qed.
Print Assumptions in_closure_laws.

(* inclusion-exclusion on the membership functions and on the exact area functional, for every
   arrangement (L, P) *)
Theorem inclusion_exclusion_pointwise : forall a b p,
  ind (raw OpUnion a b p) + ind (raw OpInter a b p) == ind (inG a p) + ind (inG b p).
Proof. exact inclusion_exclusion_pointwise_lemma. Qed.
Print Assumptions inclusion_exclusion_pointwise.

Theorem area_inclusion_exclusion : forall L P a b,
  area_of L P (raw OpUnion a b) + area_of L P (raw OpInter a b) == area_of L P (inG a) + area_of L P (inG b).
Proof. exact area_inclusion_exclusion_lemma. Qed.
Print Assumptions area_inclusion_exclusion.

Theorem area_partition : forall L P a b,
  area_of L P (inG a) == area_of L P (raw OpDiff a b) + area_of L P (raw OpInter a b).
Proof. exact area_partition_lemma. Qed.
Print Assumptions area_partition.

Theorem area_symdiff : forall L P a b,
  area_of L P (raw OpSym a b) == area_of L P (raw OpDiff a b) + area_of L P (raw OpDiff b a) /\
  area_of L P (raw OpSym a b) + area_of L P (raw OpInter a b) == area_of L P (raw OpUnion a b).
Proof. exact area_symdiff_lemma. Qed.
Print Assumptions area_symdiff.

(* the exact area functional is non-negative and monotone (events and slab heights are strictly
   increasing, so every trapezoid has a non-negative area) *)
Theorem area_monotone : forall L P f g,
  (forall p, f p = true -> g p = true) -> 0 <= area_of L P f /\ area_of L P f <= area_of L P g.
Proof. exact area_monotone_lemma. Qed.
Print Assumptions area_monotone.

(* ================================================================ the oracle ================== *)
(* the incidence-annotated witnesses are exactly Planar's witnesses (points, tags, order) *)
Theorem witnesses_nb_strip : forall L P, map strip (witnesses_nb L P) = witnesses L P.
Proof. exact witnesses_nb_strip_lemma. Qed.
Print Assumptions witnesses_nb_strip.

(* every cell named as incident to a witness is a witness of the same arrangement: the closure test
   only ever consults cells of the arrangement *)
Theorem wnb_are_witnesses : forall L P w q,
  In w (witnesses_nb L P) -> In q (wnb w) -> exists d, In (q, d) (witnesses L P).
Proof. exact wnb_are_witnesses_lemma. Qed.
Print Assumptions wnb_are_witnesses.

(* kernel (Planar_proofs.vertex_set_spec, QKernel.seg_seg_sound): a dimension-0 witness is a segment
   end, an isolated point, or lies on both segments that define it *)
Theorem witness_vertex : forall L P w,
  In w (witnesses_nb L P) -> wdim w = D0 ->
  exists v, pt_eq v (wpt w) /\
    ((exists s, In s L /\ (v = fst s \/ v = snd s)) \/
     (exists s t, In s L /\ In t L /\ on_seg s v = true /\ on_seg t v = true) \/ In v P).
Proof. exact witness_vertex_lemma. Qed.
Print Assumptions witness_vertex.

(* meaning of a passing membership judgement, at the witnesses (lifted to all points below) *)
Theorem judge_sound : forall o a b r,
  v_agree (judge o a b r) = true ->
  forall w, In w (ctx_witnesses [a; b; r]) -> inG r (wpt w) = expected o a b w.
Proof. exact judge_sound_lemma. Qed.
Print Assumptions judge_sound.

Theorem judge_many_sound : forall gs r,
  v_agree (judge_many gs r) = true ->
  forall w, In w (ctx_witnesses (r :: gs)) -> inG r (wpt w) = existsb (fun g => inG g (wpt w)) gs.
Proof. exact judge_many_sound_lemma. Qed.
Print Assumptions judge_many_sound.

(* ---------------------------------------------------------------- from the witnesses to ALL points *)
(* union / intersection: a passing judgement is equality of the point sets at every point of Q^2 *)
Theorem judge_everywhere : forall o a b r,
  (o = OpUnion \/ o = OpInter) -> forallb rings_closed_b [a; b; r] = true ->
  v_agree (judge o a b r) = true ->
  forall p, inG r p = op_bool o (inG a p) (inG b p).
Proof. intros o a b r Ho Hc. apply judge_everywhere_lemma; [exact Ho|apply closed_all_b; exact Hc]. Qed.
Print Assumptions judge_everywhere.

(* UnaryUnion / UnionMany *)
Theorem judge_many_everywhere : forall gs r,
  forallb rings_closed_b (r :: gs) = true -> v_agree (judge_many gs r) = true ->
  forall p, inG r p = existsb (fun g => inG g p) gs.
Proof. intros gs r Hc. apply judge_many_everywhere_lemma. apply closed_all_b. exact Hc. Qed.
Print Assumptions judge_many_everywhere.

(* all four operations: the result contains the Boolean combination at every point *)
Theorem judge_contains : forall o a b r,
  forallb rings_closed_b [a; b; r] = true -> v_agree (judge o a b r) = true ->
  forall p, raw o a b p = true -> inG r p = true.
Proof. intros o a b r Hc. apply judge_contains_lemma. apply closed_all_b. exact Hc. Qed.
Print Assumptions judge_contains.

(* difference / symmetric difference: exact equality on an open dense set - every point on no
   segment of the arrangement whose abscissa is no event abscissa *)
Theorem judge_off_skeleton : forall o a b r,
  forallb rings_closed_b [a; b; r] = true -> v_agree (judge o a b r) = true ->
  forall p,
    on_some_seg (ctx_segs [a; b; r]) p = false ->
    (forall x, In x (events (vertex_set (ctx_segs [a; b; r]) (ctx_pts [a; b; r]))) -> ~ fst p == x) ->
    inG r p = raw o a b p.
Proof. intros o a b r Hc. apply judge_off_skeleton_lemma. apply closed_all_b. exact Hc. Qed.
Print Assumptions judge_off_skeleton.

(* ... and at every point whatsoever: membership of the point, or of a cell named incident to its cell *)
Theorem judge_closure_everywhere : forall o a b r,
  forallb rings_closed_b [a; b; r] = true -> v_agree (judge o a b r) = true ->
  forall p, exists wn, In wn (ctx_witnesses [a; b; r]) /\
    same_cell (ctx_segs [a; b; r]) (vertex_set (ctx_segs [a; b; r]) (ctx_pts [a; b; r])) p (wpt wn) /\
    inG r p = match o with
              | OpUnion | OpInter => raw o a b p
              | OpDiff | OpSym => raw o a b p || existsb (raw o a b) (wnb wn)
              end.
Proof. intros o a b r Hc. apply judge_closure_everywhere_lemma. apply closed_all_b. exact Hc. Qed.
Print Assumptions judge_closure_everywhere.

(* membership in any geometry of the arrangement is constant on the cell of a witness: in particular on
   the open trapezoid represented by each term of the area functional *)
Theorem cell_constant : forall gs g p w,
  In g gs -> rings_closed_b g = true ->
  same_cell (ctx_segs gs) (vertex_set (ctx_segs gs) (ctx_pts gs)) p w -> inG g p = inG g w.
Proof. intros gs g p w Hg Hc. apply transfer; [exact Hg|apply rings_closed_b_sound; exact Hc]. Qed.
Print Assumptions cell_constant.

(* the exact area functional of the result equals that of the Boolean combination *)
Theorem judge_area : forall o a b r,
  v_agree (judge o a b r) = true ->
  area_of (ctx_segs [a; b; r]) (ctx_pts [a; b; r]) (inG r) ==
  area_of (ctx_segs [a; b; r]) (ctx_pts [a; b; r]) (raw o a b).
Proof. exact judge_area_lemma. Qed.
Print Assumptions judge_area.

(* the comparison of two outputs used for the laws is symmetric (and reflexive) *)
Theorem same_set_sym : forall g h, same_set g h = same_set h g.
Proof. exact same_set_sym_lemma. Qed.
Print Assumptions same_set_sym.

(* ================================================================ the labelled cell complex ==== *)
(* Model/OverlayComplex.v: the overlay's half-edge structure with its labels, abstractly; [dcel_ok] is
   evaluated by the driver on the REAL structure of every overlay (hook VerifOverlay), and the
   selection model below is compared with the geometry the implementation extracted from it. *)

(* on every complex satisfying the invariants, the boundary cycle recorded for a face visits every
   half edge incident to that face exactly once (so the extracted marks of extractPolygons, which walk
   the cycle, are exactly "own face selected") *)
Theorem face_cycle_complete : forall c j f s,
  dcel_ok c = true -> get_f c j = Some f -> f_cycle f = Some s ->
  exists l, orbit c s s (nE c) = Some l /\ NoDup l /\
            forall i, In i l <-> exists e, get_e c i = Some e /\ e_face e = j.
Proof. exact face_cycle_complete_lemma. Qed.
Print Assumptions face_cycle_complete.

(* shouldExtractLine: the [extracted] mark left by extractPolygons is implied by the two face tests *)
Theorem sel_line_simpl : forall o c e, sel_line o c e = inc o (e_in e) && negb (adj_sel o c e).
Proof. exact sel_line_simpl_lemma. Qed.
Print Assumptions sel_line_simpl.

(* select_closure, edges: on every complex satisfying the structural invariants, an edge belongs to
   the result iff the label of one of its half edges is selected or a face on one of its sides is
   selected (closure of the selected cells) *)
Theorem select_closure_edge : forall o c i e,
  dcel_ok c = true -> get_e c i = Some e -> res_edge o c e = edge_inc o c e || adj_sel o c e.
Proof. exact select_edge_closure_lemma. Qed.
Print Assumptions select_closure_edge.

(* select_closure, vertices: on every complex satisfying the structural invariants, a vertex belongs
   to the result iff its own label is selected or an edge of the result starts at it *)
Theorem select_closure_vertex : forall o c i v,
  dcel_ok c = true ->
  res_vertex o c (i, v) =
  inc o (v_in v) || existsb (fun e => Nat.eqb (e_origin e) i && res_edge o c e) (c_edges c).
Proof. exact select_vertex_closure_lemma. Qed.
Print Assumptions select_closure_vertex.

(* lower-dimensional remainders only where not already covered by a higher-dimensional part *)
Theorem select_remainders_uncovered : forall o c,
  dcel_ok c = true ->
  (forall i e, get_e c i = Some e -> line_extracted o c e = true -> adj_sel o c e = false) /\
  (forall iv, sel_point o c iv = true -> v_covered o c (fst iv) = false).
Proof. exact remainders_uncovered_lemma. Qed.
Print Assumptions select_remainders_uncovered.

(* the label bounds that dcel_ok checks contain label closure: face <= boundary edge <= end vertices *)
Theorem dcel_label_closure : forall c, dcel_ok c = true -> label_closed c.
Proof. exact labels_closed_lemma. Qed.
Print Assumptions dcel_label_closure.

(* for union and intersection the result at every edge and vertex is the plain Boolean combination
   of that cell's own two labels (the sets are closed; no closure is involved) *)
Theorem select_monotone_edge : forall o c i e,
  (o = OpUnion \/ o = OpInter) -> dcel_ok c = true -> get_e c i = Some e -> res_edge o c e = edge_inc o c e.
Proof. exact select_monotone_edge_lemma. Qed.
Print Assumptions select_monotone_edge.
Theorem select_monotone_vertex : forall o c i v,
  (o = OpUnion \/ o = OpInter) -> dcel_ok c = true -> get_v c i = Some v ->
  res_vertex o c (i, v) = inc o (v_in v).
Proof. exact select_monotone_vertex_lemma. Qed.
Print Assumptions select_monotone_vertex.

(* face selection of the four operations = Boolean combinations of the two label families *)
Theorem select_face_ops : forall c f,
  let a := fst (face_in c f) in let b := snd (face_in c f) in
  sel_face OpUnion c f = a || b /\ sel_face OpInter c f = a && b /\
  sel_face OpDiff c f = a && negb b /\ sel_face OpSym c f = xorb a b /\
  sel_face OpSym c f = sel_face OpDiff c f || sel_face OpDiff (swap_c c) f /\
  sel_face OpUnion c f = sel_face OpSym c f || sel_face OpInter c f /\
  a = sel_face OpDiff c f || sel_face OpInter c f.
Proof. exact sel_face_ops_lemma. Qed.
Print Assumptions select_face_ops.

(* commutativity on the complex: swapping the operands selects the same faces, boundary edges,
   lines and points for union, intersection and symmetric difference *)
Theorem select_comm : forall o c,
  o <> OpDiff ->
  faces_selected o (swap_c c) = faces_selected o c /\
  boundary_edges o (swap_c c) = boundary_edges o c /\
  lines_selected o (swap_c c) = lines_selected o c /\
  points_selected o (swap_c c) = points_selected o c.
Proof. exact select_comm_lemma. Qed.
Print Assumptions select_comm.

(* ================================================================ extractPolygons on the complex *)
(* Model/OverlayRings.v: grouping of the selected faces (findFacesMakingPolygon), the ring walk
   (extractPolygonRing with the seen bookkeeping), the exterior / hole decision (orderPolygonRings, by
   the signed area carried as an abstract weight per half edge).  Iterations are fuelled; the theorems
   speak about extractions that returned a value - which the driver observes on every real structure,
   where the model's rings are compared ring by ring with the polygons the implementation extracted.
   The remaining ordering steps (rotation of a ring to its least sequence, sorting of holes and of
   polygons) only permute: they are modelled and proved order-independent for C10 (Model/Canon.v,
   Canon_proofs.canon_ring_rotn / canon_poly_invariant_lemma); rings are compared here as cyclic
   sequences and polygons as sets, i.e. modulo exactly those steps. *)

(* rings: each ring is a closed cycle of the successor of extractPolygonRing; all half edges of all
   rings of a group are distinct (rings simple and pairwise edge-disjoint); the half edges on the rings
   are exactly the boundary half edges of the group (each lies on exactly one ring) *)
Theorem extract_rings_spec : forall o c grp rings,
  dcel_ok c = true -> group_ok o c grp = true -> group_rings o c grp = Some rings ->
  (forall ring, In ring rings -> exists s, chain (ring_succ c grp) s s ring) /\
  NoDup (concat rings) /\
  Permutation.Permutation (concat rings) (group_boundary o c grp) /\
  (forall z, In z (concat rings) -> gb c grp z).
Proof. exact group_rings_spec_lemma. Qed.
Print Assumptions extract_rings_spec.

(* one step of the ring walk stays on the boundary of the group *)
Theorem ring_succ_boundary : forall c grp i j,
  dcel_ok c = true -> gb c grp i -> ring_succ c grp i = Some j -> gb c grp j.
Proof. exact ring_succ_gb. Qed.
Print Assumptions ring_succ_boundary.

(* groups: pairwise disjoint, covering the selected faces, each closed under adjacency, made of
   selected faces and connected - the connected components of the selected faces across edges *)
Theorem extract_groups_spec : forall o c gs,
  dcel_ok c = true -> polygon_groups o c = Some gs ->
  (forall g, In g gs -> group_ok o c g = true /\ exists f, In f g /\ forall x, In x g -> conn o c f x) /\
  (forall f, (f < nF c)%nat -> sel_face o c f = true -> exists g, In g gs /\ In f g) /\
  ForallOrdPairs (fun g1 g2 => forall x, In x g1 -> ~ In x g2) gs.
Proof. exact polygon_groups_spec_lemma. Qed.
Print Assumptions extract_groups_spec.

(* number of polygons = number of connected groups; the exterior ring and the holes of a polygon are
   the rings of its group *)
Theorem extract_polygons_groups : forall o c w ps,
  extract_polygons o c w = Some ps ->
  exists gs, polygon_groups o c = Some gs /\ map p_group ps = gs /\ length ps = length gs /\
    forall p, In p ps -> exists rings, group_rings o c (p_group p) = Some rings /\
                                       Permutation.Permutation (p_exterior p :: p_holes p) rings.
Proof. exact extract_polygons_groups_lemma. Qed.
Print Assumptions extract_polygons_groups.

(* ================================================================ examples (non-vacuity) ====== *)
Definition vz (x y : Z) : vtx Q := Build_vtx (inject_Z x) (inject_Z y) 0 0.
Definition ringz (l : list (Z * Z)) : lineT Q := MkLine XY (map (fun p => vz (fst p) (snd p)) l).
Definition sqz (x0 y0 x1 y1 : Z) : polyT Q := MkPoly XY [ringz [(x0, y0); (x1, y0); (x1, y1); (x0, y1); (x0, y0)]].
Definition exA : geom := GPoly (sqz 0 0 4 4).
Definition exB : geom := GPoly (sqz 2 2 6 6).
(* the four results for two overlapping squares (areas 28 / 4 / 12 / 24, DESIGN.md section 0) *)
Definition exU : geom := GPoly (MkPoly XY [ringz [(0,0);(4,0);(4,2);(6,2);(6,6);(2,6);(2,4);(0,4);(0,0)]%Z]).
Definition exI : geom := GPoly (sqz 2 2 4 4).
Definition exD : geom := GPoly (MkPoly XY [ringz [(0,0);(4,0);(4,2);(2,2);(2,4);(0,4);(0,0)]%Z]).
Definition exS : geom :=
  GMPoly XY [MkPoly XY [ringz [(0,0);(4,0);(4,2);(2,2);(2,4);(0,4);(0,0)]%Z];
             MkPoly XY [ringz [(2,4);(4,4);(4,2);(6,2);(6,6);(2,6);(2,4)]%Z]].
Example judge_overlapping_squares :
  verdict_ok (judge OpUnion exA exB exU) && verdict_ok (judge OpInter exA exB exI) &&
  verdict_ok (judge OpDiff exA exB exD) && verdict_ok (judge OpSym exA exB exS) = true.
Proof. vm_compute. reflexivity. Qed.
(* the hypotheses of judge_everywhere / judge_contains hold of the example *)
Example judge_everywhere_example :
  forallb rings_closed_b [exA; exB; exU] = true /\ v_agree (judge OpUnion exA exB exU) = true /\
  forallb rings_closed_b [exA; exB; exD] = true /\ v_agree (judge OpDiff exA exB exD) = true.
Proof. vm_compute. repeat split; reflexivity. Qed.
(* the judgement is not vacuous: a wrong result is rejected (judge_rejects_wrong), and so is an
   open-set answer where the closure is required (judge_closure_form: LINESTRING minus an interior
   point is the whole line) *)
Example judge_rejects_wrong :
  verdict_ok (judge OpDiff exA exB exU) = false /\ verdict_ok (judge OpUnion exA exB exD) = false.
Proof. vm_compute. split; reflexivity. Qed.
Definition exL : geom := GLine (ringz [(0,0);(4,0)]%Z).
Definition exPt : geom := GPoint (MkPoint XY (Some (vz 2 0))).
Example judge_closure_form :
  verdict_ok (judge OpDiff exL exPt (GMLine XY [ringz [(0,0);(2,0)]%Z; ringz [(2,0);(4,0)]%Z])) = true /\
  v_agree (judge OpDiff exL exPt (GMLine XY [ringz [(0,0);(1,0)]%Z; ringz [(3,0);(4,0)]%Z])) = false.
Proof. vm_compute. split; reflexivity. Qed.
(* exact areas of the example: 28 + 4 = 16 + 16 *)
Example area_example :
  ctx_area [exA; exB] (raw OpUnion exA exB) == 28 /\ ctx_area [exA; exB] (raw OpInter exA exB) == 4 /\
  ctx_area [exA; exB] (raw OpDiff exA exB) == 12 /\ ctx_area [exA; exB] (raw OpSym exA exB) == 24.
Proof. vm_compute. repeat split; reflexivity. Qed.
(* the hypotheses of the glue theorems are satisfiable: an engine that is pointwise correct for union
   on its domain (here: the trivial engine returning the collection of both operands) *)
Definition ex_engine (a : geom) (o : setop) (b : geom) : outcome geom :=
  match o with OpUnion => Ok (GColl XY [a; b]) | _ => Err EOther end.
Example ex_engine_ok : engine_union_ok ex_engine.
Proof. intros a b r H p. injection H as <-. simpl. rewrite orb_false_r. reflexivity. Qed.
Example dispatch_example :
  run ex_engine OpDiff exA (GMPoint XY [MkPoint XY None]) = unary_union ex_engine exA /\
  run ex_engine OpInter exA (GColl XY [GColl XY []]) = Ok empty_geom /\
  dims_present [sqz 0 0 1 1] [ringz [(0,0);(1,1)]%Z] [] = 2%nat /\
  all_nonempty [sqz 0 0 1 1] [ringz [(0,0);(1,1)]%Z] [] = true.
Proof. repeat split; reflexivity. Qed.
(* F20: the class predicate and the symptom location on the minimal input; the faithful statement
   "UnaryUnion(GC(P1,P2)) = P1 with its hole" is rejected by the judgement exactly in the covered hole *)
Definition exP1 : polyT Q :=
  MkPoly XY [ringz [(0,0);(6,0);(6,6);(0,6);(0,0)]%Z; ringz [(2,2);(2,4);(4,4);(4,2);(2,2)]%Z].
Definition exGC : geom := GColl XY [GPoly exP1; GPoly (sqz 1 1 5 5)].
Example f20_class_and_symptom :
  same_operand_hole_meets_sibling_interior exGC = true /\
  same_operand_hole_meets_sibling_interior (GPoly exP1) = false /\
  (let v := judge_many [exGC] (GPoly exP1) in
   v_agree v = false /\ forallb (fun w => in_covered_hole exGC (wpt w)) (v_bad v) = true) /\
  verdict_ok (judge_many [exGC] (GPoly (sqz 0 0 6 6))) = true.
Proof. vm_compute. repeat split; reflexivity. Qed.

(* a triangle of operand A: 3 vertices, 6 half edges (0,1,2 around the inner face; 3,4,5 their twins
   around the outer face), 2 faces; it satisfies the invariants, and the selection model extracts the
   inner face with its three boundary edges for union, nothing for intersection *)
Definition exTri : complex :=
  let a : lab := (true, false) in let n : lab := (false, false) in
  MkC [MkV a a; MkV a a; MkV a a]
      [MkE 0 3 1 2 0 a a a; MkE 1 4 2 0 0 a a a; MkE 2 5 0 1 0 a a a;
       MkE 1 0 5 4 1 a n a; MkE 2 1 3 5 1 a n a; MkE 0 2 4 3 1 a n a]
      [MkF (Some 0%nat) a; MkF (Some 3%nat) n].
Example complex_example :
  dcel_ok exTri = true /\
  faces_selected OpUnion exTri = [0%nat] /\ boundary_edges OpUnion exTri = [0; 1; 2]%nat /\
  lines_selected OpUnion exTri = [] /\ points_selected OpUnion exTri = [] /\
  faces_selected OpInter exTri = [] /\ boundary_edges OpDiff exTri = [0; 1; 2]%nat /\
  boundary_edges OpDiff (swap_c exTri) = [].
Proof. vm_compute. repeat split; reflexivity. Qed.
(* the invariants are not vacuous: a wrong twin pointer, an open face cycle, a face label that does
   not reach its edge are all rejected *)
Example complex_rejects :
  dcel_ok (MkC (c_verts exTri) (MkE 0 4 1 2 0 (true,false) (true,false) (true,false) :: tl (c_edges exTri)) (c_faces exTri)) = false /\
  dcel_ok (MkC (c_verts exTri) (MkE 0 3 2 2 0 (true,false) (true,false) (true,false) :: tl (c_edges exTri)) (c_faces exTri)) = false /\
  dcel_ok (MkC (c_verts exTri) (c_edges exTri) [MkF (Some 0%nat) (true, true); MkF (Some 3%nat) (false, false)]) = false.
Proof. vm_compute. repeat split; reflexivity. Qed.

(* the triangle again: one group, one ring (the three inner half edges in walk order), counter-clockwise
   for a positive weight; with the operands swapped the difference selects nothing *)
Example rings_example :
  polygon_groups OpUnion exTri = Some [[0%nat]] /\
  group_rings OpUnion exTri [0%nat] = Some [[0; 1; 2]%nat] /\
  (match extract_polygons OpUnion exTri (fun i => if Nat.ltb i 3 then 1%Q else (-1)%Q) with
   | Some [p] => p_exterior p = [0; 1; 2]%nat /\ p_holes p = [] /\ p_one_ccw p = true
   | _ => False end) /\
  extract_polygons OpDiff (swap_c exTri) (fun _ => 1%Q) = Some [].
Proof. vm_compute. repeat split; reflexivity. Qed.
