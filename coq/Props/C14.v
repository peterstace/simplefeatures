(* Property C14 - Area, Length and Centroid equal the exact measures of the point set.
   Statements only; proofs are in Proofs/Measure_proofs.v, Proofs/Measure_scale.v (scale
   equivariance, over Model/MeasureScale.v) and Proofs/Measure_slab.v (the point set); the model (a transcription of the Go
   code over exact rationals, the square root a function variable [sq]) and the vocabulary of the
   statements ([close], [rot], [geom_rev], [geom_tr], [geom_force], [geom_2d], [rings_related],
   [rings_are_cycles], [geom_closed], [centroid_defined], [shifted], [oxy_eq], [qsum], ...) are in
   Model/Measure.v.

   Shoelace sum = area of the POINT SET (section "the point set" below, Proofs/Measure_slab.v): the
   area of the point set is the exact slab functional [SetOpSpec.area_of] of C01 (sum of the
   trapezoids of the slab decomposition whose witness is a member of the set under the definitional
   membership [Planar.inG]).  Proved for every closed ring: - signed shoelace area = sum of
   (winding number) * (trapezoid area) ([shoelace_is_winding_area]); hence |shoelace| = area_of
   (inG polygon) for every ring whose winding number takes the values 0 / sigma only at the
   trapezoid witnesses ([shoelace_is_slab_area]), and Area() = area_of (inG polygon) for polygons
   with holes under pointwise nesting ([shoelace_is_slab_area_holes]); the hypotheses are
   booleans ([slab_hypotheses], evaluated by the kernel in the Examples and by the extracted code
   on every generated polygon of the correspondence run).  NOT proved: that every simple ring
   satisfies the winding condition (alternation of edge directions in height order - the
   Jordan-curve content); the convex case of the sign is [signed_area_ccw_nonneg].
   The analogous statement for the centroid is proved in Props/C14_moments.v.
   Float rounding is not modelled: the theorems are about exact rational arithmetic. *)
From Coq Require Import QArith Qabs ZArith List Bool Permutation.
From SF Require Import Base.GeomAST Model.Measure Proofs.Measure_proofs.
From SF Require Import Model.MeasureScale Proofs.Measure_scale.
From SF Require Base.QKernel Base.Planar Model.SetOpSpec.
From SF Require Import Proofs.Measure_slab.
Import ListNotations.
Open Scope Q_scope.

(* ------------------------------------------------------------------ Area: rings *)

(* the signed area of a closed ring does not depend on the start vertex *)
Theorem area_rotate : forall (k : nat) (l : list xy),
  ring_area_xy (close (rot k l)) == ring_area_xy (close l).
Proof. exact area_rotate_lemma. Qed.
Print Assumptions area_rotate.

(* reversal negates the signed area (every vertex list, closed or not) *)
Theorem area_reverse_neg_ring : forall L : list xy, ring_area_xy (rev L) == - ring_area_xy L.
Proof. exact area_reverse_lemma. Qed.
Print Assumptions area_reverse_neg_ring.

(* the implementation's form sum (x1+x0)(y1-y0)/2 equals the cross-product form
   sum (x0*y1 - x1*y0)/2 on closed rings *)
Theorem shoelace_forms_agree : forall L : list xy,
  ring_closedb L = true -> ring_area_xy L == cross_area_xy L.
Proof. exact shoelace_eq_cross_lemma. Qed.
Print Assumptions shoelace_forms_agree.

(* translation: in general the area changes by a boundary term, which vanishes on closed rings *)
Theorem area_translate_ring_general : forall (t p : xy) (r : list xy),
  ring_area_xy (map (translate t) (p :: r)) ==
  ring_area_xy (p :: r) + fst t * (snd (last r p) - snd p).
Proof. exact area_translate_general. Qed.
Print Assumptions area_translate_ring_general.

(* the fan of Centroid sums twice the shoelace area: the weights of Centroid are those of Area *)
Theorem fan_eq_shoelace : forall (b : xy) (m : list xy),
  fst (fan b (m ++ [b])) == 2 * ring_area_xy (close (b :: m)).
Proof. exact fan_eq_shoelace_lemma. Qed.
Print Assumptions fan_eq_shoelace.

(* sanity anchors *)
Theorem triangle_area : forall a b : Q,
  ring_area_xy [(0, 0); (a, 0); (0, b); (0, 0)] == a * b / 2.
Proof. exact triangle_area_lemma. Qed.
Print Assumptions triangle_area.

Theorem rectangle_area : forall x y w h : Q,
  ring_area_xy [(x, y); (x + w, y); (x + w, y + h); (x, y + h); (x, y)] == w * h.
Proof. exact rectangle_area_lemma. Qed.
Print Assumptions rectangle_area.

(* geometric anchoring: for a convex counter-clockwise vertex cycle the signed area is the sum
   of the areas of the fan triangles (b, p_i, p_i+1), each of them non-negative *)
Theorem signed_area_ccw_nonneg : forall l : list xy, convex_ccw l ->
  ring_area_xy (close l) == qsum (fan_tris l) /\
  Forall (fun a => 0 <= a) (fan_tris l) /\
  0 <= ring_area_xy (close l).
Proof. exact signed_area_ccw_nonneg_lemma. Qed.
Print Assumptions signed_area_ccw_nonneg.

Theorem signed_area_ccw_pos : forall l : list xy,
  strictly_convex_ccw l -> (3 <= length l)%nat -> 0 < ring_area_xy (close l).
Proof. exact signed_area_ccw_pos_lemma. Qed.
Print Assumptions signed_area_ccw_pos.

(* ------------------------------------------------------------------ Area: geometries *)

(* Reverse: unsigned area unchanged, signed area negated; any transform option *)
Theorem area_reverse_neg : forall (tr : option (xy -> xy)) (g : geomT Q),
  geom_area false tr (geom_rev g) == geom_area false tr g /\
  geom_area true tr (geom_rev g) == - geom_area true tr g.
Proof. intros; split; [apply area_reverse_unsigned_lemma|apply area_reverse_signed_lemma]. Qed.
Print Assumptions area_reverse_neg.

(* translation invariance for geometries whose rings are closed *)
Theorem area_translate : forall (s : bool) (t : xy) (g : geomT Q),
  geom_closed g = true -> geom_area s None (geom_tr (translate t) g) == geom_area s None g.
Proof. exact area_translate_lemma. Qed.
Print Assumptions area_translate.

(* Area with a transform option = Area of the transformed geometry *)
Theorem area_transform_option : forall (s : bool) (f : xy -> xy) (g : geomT Q),
  geom_area s (Some f) g == geom_area s None (geom_tr f g).
Proof. exact area_transform_option_lemma. Qed.
Print Assumptions area_transform_option.

(* additivity over members and independence of member / hole order *)
Theorem area_members_additive : forall (s : bool) (tr : option (xy -> xy)) (ct : ctype),
  (forall ps, geom_area s tr (GMPoly ct ps) == qsum (map (fun p => geom_area s tr (GPoly p)) ps)) /\
  (forall gs, geom_area s tr (GColl ct gs) == qsum (map (geom_area s tr) gs)) /\
  (forall a b, geom_area s tr (GColl ct (a ++ b)) ==
               geom_area s tr (GColl ct a) + geom_area s tr (GColl ct b)) /\
  (forall sh hs, poly_area s tr (MkPoly ct (sh :: hs)) ==
                 (if s then ring_area tr sh else Qabs (ring_area tr sh)) +
                 qsum (map (fun h => if s then ring_area tr h else - Qabs (ring_area tr h)) hs)).
Proof.
  intros s tr ct. split; [intros; apply area_members_mpoly|].
  split; [intros; apply coll_area_spec|]. split; [intros; apply area_coll_app|].
  intros; apply poly_area_spec.
Qed.
Print Assumptions area_members_additive.

Theorem area_member_order : forall (s : bool) (tr : option (xy -> xy)) (ct ct' : ctype),
  (forall gs gs', Permutation gs gs' -> geom_area s tr (GColl ct gs) == geom_area s tr (GColl ct' gs')) /\
  (forall ps ps', Permutation ps ps' -> geom_area s tr (GMPoly ct ps) == geom_area s tr (GMPoly ct' ps')) /\
  (forall sh hs hs', Permutation hs hs' ->
     poly_area s tr (MkPoly ct (sh :: hs)) == poly_area s tr (MkPoly ct' (sh :: hs'))).
Proof.
  intros. split; [intros; apply area_coll_perm; assumption|].
  split; [intros; apply area_mpoly_perm; assumption|intros; apply area_holes_perm; assumption].
Qed.
Print Assumptions area_member_order.

(* ------------------------------------------------------------------ invariances of all three measures *)

(* every polygon ring started at another vertex of its cycle: signed and unsigned Area, Length
   and Centroid are unchanged *)
Theorem measures_ring_rotation_invariant : forall (sq : Q -> Q) (g g' : geomT Q),
  rings_related ring_rotated g g' ->
  (forall s, geom_area s None g == geom_area s None g') /\
  geom_length sq g == geom_length sq g' /\
  oxy_eq (geom_centroid sq g) (geom_centroid sq g').
Proof.
  intros sq g g' H. split; [intros s; apply (area_rings_related ring_rotated s None ring_rotated_area g g' H)|].
  apply (geom_sim_measures sq).
  apply (rings_related_sim sq ring_rotated ring_sim_rotated g g' H).
Qed.
Print Assumptions measures_ring_rotation_invariant.

Theorem centroid_rotate_invariant : forall (k : nat) (l : list xy),
  xy_eq (centroid_of_ring_xy (close (rot k l))) (centroid_of_ring_xy (close l)).
Proof. exact centroid_ring_rotate_lemma. Qed.
Print Assumptions centroid_rotate_invariant.

(* Reverse: Length and Centroid unchanged (Area: area_reverse_neg) *)
Theorem centroid_reverse_invariant : forall (sq : Q -> Q) (g : geomT Q),
  (forall a b, a == b -> sq a == sq b) -> rings_are_cycles g ->
  oxy_eq (geom_centroid sq g) (geom_centroid sq (geom_rev g)).
Proof. intros sq g Hsq H. apply (geom_sim_measures sq), (geom_sim_rev sq Hsq), H. Qed.
Print Assumptions centroid_reverse_invariant.

Theorem length_reverse : forall (sq : Q -> Q) (g : geomT Q),
  (forall a b, a == b -> sq a == sq b) -> geom_length sq (geom_rev g) == geom_length sq g.
Proof. intros sq g Hsq. apply (length_rev_lemma sq Hsq g). Qed.
Print Assumptions length_reverse.

(* ForceCW (cw = true) / ForceCCW (cw = false) *)
Theorem centroid_force_cw_invariant : forall (sq : Q -> Q) (cw : bool) (g : geomT Q),
  rings_are_cycles g ->
  geom_area false None g == geom_area false None (geom_force cw g) /\
  geom_length sq g == geom_length sq (geom_force cw g) /\
  oxy_eq (geom_centroid sq g) (geom_centroid sq (geom_force cw g)).
Proof. intros sq cw g H. apply (geom_sim_measures sq), (geom_sim_force sq), H. Qed.
Print Assumptions centroid_force_cw_invariant.

(* Z and M never influence a measure *)
Theorem zm_irrelevant : forall (sq : Q -> Q) (g : geomT Q),
  (forall s tr, geom_area s tr g == geom_area s tr (geom_2d g)) /\
  geom_length sq g == geom_length sq (geom_2d g) /\
  oxy_eq (geom_centroid sq g) (geom_centroid sq (geom_2d g)).
Proof.
  intros sq g. split; [intros; apply area_2d|].
  destruct (geom_sim_measures sq g (geom_2d g) (geom_sim_2d sq g)) as [_ H]. exact H.
Qed.
Print Assumptions zm_irrelevant.

(* member reordering: Centroid (Area: area_member_order, Length: length_additive) *)
Theorem centroid_member_order : forall (sq : Q -> Q) (ct ct' : ctype),
  (forall gs gs', Permutation gs gs' ->
     oxy_eq (geom_centroid sq (GColl ct gs)) (geom_centroid sq (GColl ct' gs'))) /\
  (forall ps ps', Permutation ps ps' ->
     oxy_eq (geom_centroid sq (GMPoly ct ps)) (geom_centroid sq (GMPoly ct' ps'))) /\
  (forall sh hs hs', Permutation hs hs' ->
     oxy_eq (geom_centroid sq (GPoly (MkPoly ct (sh :: hs)))) (geom_centroid sq (GPoly (MkPoly ct' (sh :: hs'))))).
Proof.
  intros sq ct ct'. split; [intros; apply coll_centroid_perm; assumption|].
  split; [intros; apply mpoly_centroid_perm; assumption|intros; apply poly_centroid_holes_perm; assumption].
Qed.
Print Assumptions centroid_member_order.

(* ------------------------------------------------------------------ Centroid *)

(* translation equivariance, for every geometry whose centroid computation divides by
   non-zero numbers only *)
Theorem centroid_translate_equivariant : forall (sq : Q -> Q) (t : xy) (g : geomT Q),
  (forall a b, a == b -> sq a == sq b) -> centroid_defined sq g ->
  shifted t (geom_centroid sq g) (geom_centroid sq (geom_tr (translate t) g)).
Proof. intros sq t g Hsq H. apply (centroid_translate_lemma sq Hsq t g H). Qed.
Print Assumptions centroid_translate_equivariant.

(* the centroid of a multipolygon is the area-weighted mean of the member centroids
   (empty members have area 0 and centroid "none": they contribute nothing) *)
Theorem centroid_members_weighted : forall ps : list (polyT Q),
  forallb (@poly_empty Q) ps = false ->
  exists c, mpoly_centroid ps = Some c /\
    fst c == qsum (map (fun p => poly_area false None p * ocx (poly_centroid p)) ps)
             / qsum (map (poly_area false None) ps) /\
    snd c == qsum (map (fun p => poly_area false None p * ocy (poly_centroid p)) ps)
             / qsum (map (poly_area false None) ps).
Proof. exact mpoly_centroid_spec. Qed.
Print Assumptions centroid_members_weighted.

(* the centroid of a polygon is the mean of the ring centroids weighted by +|shell|, -|hole| *)
Theorem centroid_rings_weighted : forall (ct : ctype) (sh : lineT Q) (hs : list (lineT Q)),
  let S := ring_w true sh + qsum (map (ring_w false) hs) in
  exists c, poly_centroid (MkPoly ct (sh :: hs)) = Some c /\
    fst c == (ring_w true sh * fst (centroid_of_ring sh)
              + qsum (map (fun h => ring_w false h * fst (centroid_of_ring h)) hs)) / S /\
    snd c == (ring_w true sh * snd (centroid_of_ring sh)
              + qsum (map (fun h => ring_w false h * snd (centroid_of_ring h)) hs)) / S /\
    poly_area false None (MkPoly ct (sh :: hs)) == S.
Proof. exact poly_centroid_spec. Qed.
Print Assumptions centroid_rings_weighted.

(* the dimension rule of collections: empty -> empty Point; otherwise the rule is selected by
   the largest dimension of a non-empty leaf; with an areal leaf only non-empty areal leaves
   count (area-weighted), else only lineal leaves (length-weighted), else only points *)
Theorem centroid_dimension_rule : forall (sq : Q -> Q) (ct : ctype) (gs : list (geomT Q)),
  let g := GColl ct gs in
  let lv := leaves g in
  hdim g = list_max (map leaf_dim lv) /\
  (is_empty g = true -> geom_centroid sq g = None) /\
  (is_empty g = false ->
     geom_centroid sq g = Some (match hdim g with
                                | 0%nat => coll_point_centroid lv
                                | 1%nat => coll_linear_centroid sq lv
                                | _ => coll_areal_centroid sq lv
                                end)) /\
  xy_eq (coll_areal_centroid sq lv)
        (coll_areal_centroid sq (filter (fun x => is_areal x && negb (is_empty x))%bool lv)) /\
  coll_linear_centroid sq lv = coll_linear_centroid sq (filter is_lineal lv) /\
  coll_point_centroid lv = coll_point_centroid (filter is_puntal lv).
Proof.
  intros sq ct gs g lv. split; [apply hdim_leaves|].
  split; [intros H; unfold g in *; cbn [is_empty] in H; cbn [geom_centroid]; unfold coll_centroid; rewrite H; reflexivity|].
  split; [intros H; unfold g in *; cbn [is_empty] in H; cbn [geom_centroid]; unfold coll_centroid; rewrite H;
          destruct (hdim (GColl ct gs)) as [|[|k]]; reflexivity|].
  split; [apply areal_dominates_lemma, leaves_are_leaves|].
  split; [apply lineal_only_lemma|apply puntal_only_lemma].
Qed.
Print Assumptions centroid_dimension_rule.

(* ------------------------------------------------------------------ Length *)

Theorem length_additive : forall (sq : Q -> Q) (ct : ctype),
  (forall gs, geom_length sq (GColl ct gs) == qsum (map (geom_length sq) gs)) /\
  (forall ls, geom_length sq (GMLine ct ls) == qsum (map (fun l => geom_length sq (GLine l)) ls)) /\
  (forall a b, geom_length sq (GColl ct (a ++ b)) == geom_length sq (GColl ct a) + geom_length sq (GColl ct b)) /\
  (forall gs gs', Permutation gs gs' -> geom_length sq (GColl ct gs) == geom_length sq (GColl ct gs')) /\
  (* a line string split at a vertex *)
  (forall a b x, length_xy sq (a ++ x :: b) == length_xy sq (a ++ [x]) + length_xy sq (x :: b)).
Proof.
  intros sq ct. split; [intros; apply geom_length_coll|].
  split; [intros; rewrite geom_length_mline; apply qsum_map_ext_all; intros; symmetry; apply geom_length_line|].
  split; [intros; apply length_coll_app|]. split; [intros; apply length_coll_perm; assumption|].
  intros; apply length_xy_app.
Qed.
Print Assumptions length_additive.

Theorem length_translate : forall (sq : Q -> Q) (t : xy) (g : geomT Q),
  (forall a b, a == b -> sq a == sq b) ->
  geom_length sq (geom_tr (translate t) g) == geom_length sq g.
Proof. intros sq t g Hsq. apply (length_translate_lemma sq Hsq t g). Qed.
Print Assumptions length_translate.

(* multiplying the square root by a non-zero constant multiplies Length and leaves Centroid
   unchanged (this is what lets the correspondence driver evaluate the lineal formulas with
   the integer-valued 2^80 * sqrt bracket) *)
Theorem sqrt_scale_invariant : forall (sq : Q -> Q) (k : Q) (g : geomT Q),
  ~ k == 0 ->
  geom_length (fun q => k * sq q) g == k * geom_length sq g /\
  oxy_eq (geom_centroid (fun q => k * sq q) g) (geom_centroid sq g).
Proof.
  intros sq k g Hk. split; [apply (geom_length_sqk sq k g)|apply (geom_centroid_sqk sq k Hk g)].
Qed.
Print Assumptions sqrt_scale_invariant.

(* ------------------------------------------------------------------ scale equivariance *)

(* multiplying every X and Y by c ([scale c], Z/M kept) multiplies Area by c^2 (any c, signed or
   not, every type) ... *)
Theorem area_scale_equivariant : forall (c : Q) (s : bool) (g : geomT Q),
  geom_area s None (geom_tr (scale c) g) == c * c * geom_area s None g.
Proof. exact geom_area_scale. Qed.
Print Assumptions area_scale_equivariant.

(* ... Length by c, when the root used on the scaled geometry is homogeneous with the one used on
   the original, root' (c^2 x) = c root x (math.Sqrt with root' = root, c >= 0) ... *)
Theorem length_scale_equivariant : forall (c : Q) (sq sq' : Q -> Q),
  respects_eq sq' -> sqrt_homogeneous c sq sq' ->
  forall g : geomT Q, geom_length sq' (geom_tr (scale c) g) == c * geom_length sq g.
Proof. exact geom_length_scale. Qed.
Print Assumptions length_scale_equivariant.

(* ... and Centroid by c, for c <> 0, whatever the size of the geometry: there is no hypothesis on
   areas, lengths or ordinate magnitudes (areal, lineal and puntal geometries, collections; an
   empty centroid stays empty).  A centroid that changes its rule below some absolute area or
   length contradicts this. *)
Theorem centroid_scale_equivariant : forall (c : Q) (sq sq' : Q -> Q),
  respects_eq sq' -> sqrt_homogeneous c sq sq' -> ~ c == 0 ->
  forall g : geomT Q, oxy_eq (geom_centroid sq' (geom_tr (scale c) g)) (oscale c (geom_centroid sq g)).
Proof. exact geom_centroid_scale. Qed.
Print Assumptions centroid_scale_equivariant.

(* the hypotheses on the root are satisfiable for every root function and every factor c <> 0 *)
Theorem sqrt_homogeneous_satisfiable : forall (c : Q) (sq : Q -> Q), respects_eq sq -> ~ c == 0 ->
  let sq' := fun y => c * sq (y / (c * c)) in respects_eq sq' /\ sqrt_homogeneous c sq sq'.
Proof. exact sqrt_homogeneous_witness. Qed.
Print Assumptions sqrt_homogeneous_satisfiable.

(* ------------------------------------------------------------------ the point set *)

(* for EVERY closed ring (simple or not), in any arrangement (L, P) that contains its edges:
   minus the signed shoelace area is the sum over the trapezoids of the slab decomposition of
   (winding number of the ring at the trapezoid's witness) * (area of the trapezoid) *)
Theorem shoelace_is_winding_area : forall (L : list QKernel.seg) (P ps : list QKernel.pt),
  incl (QKernel.ring_edges ps) L -> Planar.pts_closed ps = true ->
  - ring_area_xy ps ==
  cells_wsum (SetOpSpec.slab_cells L (Planar.events (Planar.vertex_set L P)))
             (fun p => inject_Z (zwind (QKernel.ring_edges ps) p)).
Proof. exact shoelace_is_winding_area_lemma. Qed.
Print Assumptions shoelace_is_winding_area.

(* a ring whose winding number is 0 or sigma at every trapezoid witness (sigma = -1:
   counter-clockwise, +1: clockwise; true of simple rings, decidable): the absolute shoelace area
   is the slab area of the point set of the polygon bounded by the ring *)
Theorem shoelace_is_slab_area : forall (L : list QKernel.seg) (P : list QKernel.pt) ct (l : lineT Q) (sigma : Z),
  incl (Planar.line_segs l) L -> Planar.pts_closed (Planar.line_pts l) = true -> (sigma = 1 \/ sigma = -1)%Z ->
  winding_simple sigma (QKernel.ring_edges (Planar.line_pts l))
                 (SetOpSpec.slab_cells L (Planar.events (Planar.vertex_set L P))) = true ->
  Qabs (ring_area_xy (Planar.line_pts l)) == SetOpSpec.area_of L P (Planar.inG (GPoly (MkPoly ct [l]))).
Proof. exact shoelace_is_slab_area_lemma. Qed.
Print Assumptions shoelace_is_slab_area.

(* polygon with holes: Area() of the model (|shell| - sum |holes|) is the slab area of the point
   set, when every ring satisfies the winding condition and the nesting is valid at the witnesses
   (a witness lies in at most one hole, and then in the shell) *)
Theorem shoelace_is_slab_area_holes :
  forall (L : list QKernel.seg) (P : list QKernel.pt) ct (sh : lineT Q) (hs : list (lineT Q)),
  let cells := SetOpSpec.slab_cells L (Planar.events (Planar.vertex_set L P)) in
  (forall r, In r (sh :: hs) ->
     incl (Planar.line_segs r) L /\ Planar.pts_closed (Planar.line_pts r) = true /\
     exists sigma, (sigma = 1 \/ sigma = -1)%Z /\ winding_simple sigma (QKernel.ring_edges (Planar.line_pts r)) cells = true) ->
  nesting_ok sh hs cells = true ->
  poly_area false None (MkPoly ct (sh :: hs)) == SetOpSpec.area_of L P (Planar.inG (GPoly (MkPoly ct (sh :: hs)))).
Proof. exact shoelace_is_slab_area_holes_lemma. Qed.
Print Assumptions shoelace_is_slab_area_holes.

(* executable form: one boolean per polygon (in the arrangement of its own rings) *)
Theorem slab_hypotheses_imply_area : forall ct (rings : list (lineT Q)),
  slab_hypotheses (MkPoly ct rings) = true ->
  poly_area false None (MkPoly ct rings) == slab_area (MkPoly ct rings).
Proof. exact slab_hypotheses_sound. Qed.
Print Assumptions slab_hypotheses_imply_area.

(* ------------------------------------------------------------------ Examples (non-vacuity, tightness) *)

Definition v (x y : Z) : vtx Q := Build_vtx (inject_Z x) (inject_Z y) 7 (-3).
Definition ln (l : list (Z * Z)) : lineT Q := MkLine XYZM (map (fun p => v (fst p) (snd p)) l).
(* 6x4 rectangle with a 2x2 hole; shell counter-clockwise, hole clockwise *)
Definition ex_poly : polyT Q :=
  MkPoly XYZM [ln [(0,0);(6,0);(6,4);(0,4);(0,0)]; ln [(1,1);(1,3);(3,3);(3,1);(1,1)]]%Z.
Definition ex_tri : polyT Q := MkPoly XYZM [ln [(10,0);(13,0);(10,3);(10,0)]]%Z.
Definition ex_coll : geomT Q :=
  GColl XYZM [GPoint (MkPoint XYZM None); GLine (ln [(0,0);(3,4)]%Z);
              GMPoly XYZM [ex_poly; MkPoly XYZM []; ex_tri];
              GColl XYZM [GPoint (MkPoint XYZM (Some (v 100 100))); GPoly (MkPoly XYZM [])]].

Example ex_area : geom_area false None (GPoly ex_poly) == 20 /\ geom_area true None (GPoly ex_poly) == 20
                  /\ geom_area true None (geom_rev (GPoly ex_poly)) == -20.
Proof. vm_compute. repeat split; reflexivity. Qed.
(* centroid of the rectangle with a hole: (6*4*(3,2) - 2*2*(2,2)) / 20 = (16/5, 2) *)
Example ex_centroid_poly : oxy_eq (poly_centroid ex_poly) (Some (16 # 5, 2)).
Proof. vm_compute. split; reflexivity. Qed.
Example ex_centroid_triangle : oxy_eq (poly_centroid ex_tri) (Some (11, 1)).
Proof. vm_compute. split; reflexivity. Qed.
Example ex_centroid_rectangle :
  oxy_eq (poly_centroid (MkPoly XY [ln [(2,1);(8,1);(8,5);(2,5);(2,1)]%Z])) (Some (5, 3)).
Proof. vm_compute. split; reflexivity. Qed.
(* the collection: areal members dominate; the far-away point and the line do not matter *)
Definition ex_sq (q : Q) : Q := if Qeq_bool q 25 then 5 else 0.   (* a square root that is right on the one radicand used *)
Example ex_centroid_coll :
  oxy_eq (geom_centroid ex_sq ex_coll) (Some ((20 * (16 # 5) + (9 # 2) * 11) / (49 # 2), (20 * 2 + (9 # 2) * 1) / (49 # 2))).
Proof. vm_compute. split; reflexivity. Qed.
(* without the areal member the line decides: midpoint of (0,0)-(3,4), length 5 *)
Example ex_centroid_coll_lineal :
  oxy_eq (geom_centroid ex_sq (GColl XY [GPoint (MkPoint XY (Some (v 100 100))); GLine (ln [(0,0);(3,4)]%Z); GPoly (MkPoly XY [])]))
         (Some (3 # 2, 2)) /\
  geom_length ex_sq ex_coll == 5.
Proof. vm_compute. repeat split; reflexivity. Qed.
(* hypotheses are satisfiable by these values *)
Example ex_hyps : geom_closed ex_coll = true /\ hdim ex_coll = 2%nat /\ is_empty ex_coll = false.
Proof. vm_compute. repeat split; reflexivity. Qed.
Example ex_cycles : rings_are_cycles (GPoly ex_poly).
Proof.
  unfold rings_are_cycles. cbn [geom_rings ex_poly poly_rings]. repeat constructor.
  - exists [(0, 0); (6, 0); (6, 4); (0, 4)]. vm_compute. reflexivity.
  - exists [(1, 1); (1, 3); (3, 3); (3, 1)]. vm_compute. reflexivity.
Qed.
Example ex_convex : strictly_convex_ccw [(0, 0); (6, 0); (6, 4); (0, 4)] /\ convex_ccw [(0, 0); (6, 0); (6, 4); (0, 4)].
Proof.
  assert (H : strictly_convex_ccw [(0, 0); (6, 0); (6, 4); (0, 4)]).
  { intros i j k Hij Hjk Hk. cbn [length] in Hk.
    destruct i as [|[|[|[|i]]]], j as [|[|[|[|j]]]], k as [|[|[|[|k]]]];
      try (exfalso; Lia.lia); vm_compute; reflexivity. }
  split; [exact H|]. intros i j k A B C. apply Qlt_le_weak, H; assumption.
Qed.
(* scale equivariance on the right triangle (0 0, 4 0, 0 3) shrunk by 2^-22 (area 6 * 2^-44, below
   1e-12): the centroid is still the areal one, (4/3, 1) * 2^-22, not the boundary's (3/2, 1) * 2^-22;
   and in a collection next to a point and a line (root: the witness of sqrt_homogeneous_satisfiable) *)
Definition ex_rtri : polyT Q := MkPoly XYZM [ln [(0,0);(4,0);(0,3);(0,0)]]%Z.
Definition ex_c : Q := 1 # 4194304.
Definition ex_sq' (y : Q) : Q := ex_c * ex_sq (y / (ex_c * ex_c)).
Example ex_scale_hyps : respects_eq ex_sq' /\ sqrt_homogeneous ex_c ex_sq ex_sq' /\ ~ ex_c == 0.
Proof.
  assert (P : respects_eq ex_sq).
  { intros a b Hab. unfold ex_sq. rewrite (Qeq_bool_eq a b 25 25 Hab (Qeq_refl _)). reflexivity. }
  assert (N : ~ ex_c == 0) by (vm_compute; discriminate).
  destruct (sqrt_homogeneous_satisfiable ex_c ex_sq P N) as [H1 H2]. repeat split; assumption.
Qed.
Example ex_scale_centroid :
  oxy_eq (geom_centroid ex_sq' (geom_tr (scale ex_c) (GPoly ex_rtri))) (Some ((4 # 3) * ex_c, 1 * ex_c)) /\
  geom_area false None (geom_tr (scale ex_c) (GPoly ex_rtri)) == 6 * ex_c * ex_c /\
  oxy_eq (geom_centroid ex_sq' (geom_tr (scale ex_c)
            (GColl XY [GPoint (MkPoint XY (Some (v 17 5))); GLine (ln [(0,0);(3,4)]%Z); GPoly ex_rtri])))
         (Some ((4 # 3) * ex_c, 1 * ex_c)) /\
  geom_length ex_sq' (geom_tr (scale ex_c) (GLine (ln [(0,0);(3,4)]%Z))) == 5 * ex_c /\
  oxy_eq (geom_centroid ex_sq' (geom_tr (scale ex_c) (GLine (ln [(0,0);(3,4)]%Z)))) (Some ((3 # 2) * ex_c, 2 * ex_c)).
Proof. vm_compute. repeat split; reflexivity. Qed.
(* c <> 0 is needed: scaled by 0 a line has no length and its centroid is empty *)
Example ex_scale_needs_nonzero :
  geom_centroid ex_sq (geom_tr (scale 0) (GLine (ln [(0,0);(3,4)]%Z))) = None /\
  geom_centroid ex_sq (GLine (ln [(0,0);(3,4)]%Z)) <> None.
Proof. vm_compute. split; [reflexivity|discriminate]. Qed.
(* the closedness hypothesis of the translation theorems is needed: an open vertex list *)
Example ex_translate_needs_closed :
  ring_closedb [(0, 0); (1, 0); (1, 1)] = false /\
  ~ ring_area_xy (map (translate (5, 0)) [(0, 0); (1, 0); (1, 1)]) == ring_area_xy [(0, 0); (1, 0); (1, 1)].
Proof. split; [reflexivity|]. vm_compute. discriminate. Qed.
(* the non-degeneracy hypothesis of centroid_translate_equivariant is needed: a ring of zero
   area (Go: NaN; here x/0 = 0) *)
Example ex_translate_needs_nondegenerate :
  let p := MkPoly XY [ln [(0,0);(1,1);(2,2);(0,0)]%Z] in
  poly_area false None p == 0 /\
  ~ shifted (1, 0) (poly_centroid p) (poly_centroid (poly_tr (translate (1, 0)) p)).
Proof. split; [vm_compute; reflexivity|]. vm_compute. intros [H _]. discriminate. Qed.
(* rotation and reversal act as expected on a concrete ring *)
Example ex_rot : rot 1 [(0, 0); (6, 0); (6, 4); (0, 4)] = [(6, 0); (6, 4); (0, 4); (0, 0)].
Proof. reflexivity. Qed.
Example ex_centroid_defined : forall sq, centroid_defined sq (GPoly ex_poly).
Proof.
  intros sq. cbn [centroid_defined leaf_nondegenerate]. unfold poly_nondegenerate. split; [reflexivity|]. split.
  - cbn [ex_poly poly_rings]. repeat constructor; vm_compute; discriminate.
  - right. vm_compute. discriminate.
Qed.

(* the point-set theorems on concrete non-convex polygons: the kernel evaluates the hypotheses *)
Definition ex_L : polyT Q := MkPoly XY [ln [(0,0);(4,0);(4,2);(2,2);(2,5);(0,5);(0,0)]%Z].
Definition ex_star : polyT Q := MkPoly XY [ln [(0,0);(5,2);(10,0);(7,4);(10,9);(5,6);(0,9);(3,4);(0,0)]%Z].
Example ex_slab_L : slab_hypotheses ex_L = true /\ poly_area false None ex_L == slab_area ex_L /\ slab_area ex_L == 14.
Proof.
  assert (H : slab_hypotheses ex_L = true) by (vm_compute; reflexivity).
  split; [exact H|]. split; [apply slab_hypotheses_sound, H|vm_compute; reflexivity].
Qed.
Example ex_slab_star : slab_hypotheses ex_star = true /\ poly_area false None ex_star == slab_area ex_star /\ slab_area ex_star == 38.
Proof.
  assert (H : slab_hypotheses ex_star = true) by (vm_compute; reflexivity).
  split; [exact H|]. split; [apply slab_hypotheses_sound, H|vm_compute; reflexivity].
Qed.
Example ex_slab_hole : slab_hypotheses ex_poly = true /\ poly_area false None ex_poly == slab_area ex_poly /\ slab_area ex_poly == 20.
Proof.
  assert (H : slab_hypotheses ex_poly = true) by (vm_compute; reflexivity).
  split; [exact H|]. split; [apply slab_hypotheses_sound, H|vm_compute; reflexivity].
Qed.
(* the winding condition is needed: for the bow-tie (0 0,4 4,4 0,0 4,0 0) the shoelace sum is 0 while
   the point set (two triangles) has area 8 *)
Example ex_slab_bowtie :
  let bow := MkPoly XY [ln [(0,0);(4,4);(4,0);(0,4);(0,0)]%Z] in
  slab_hypotheses bow = false /\ poly_area false None bow == 0 /\ slab_area bow == 8.
Proof. vm_compute. repeat split; reflexivity. Qed.
