(* Property C03 - Validation accepts exactly the geometries that satisfy the OGC validity rules.
   Statements only; proofs are in Proofs/Validate_kernel.v (segment kernel), Validate_graph.v
   (touch graph), Validate_proofs.v (line strings, rings), Validate_translate.v, Validate_repr.v,
   Validate_sound.v (soundness rule by rule), Validate_ogc.v (the reference decides its clauses for
   all points, with Planar_slab_base.v), Validate_jordan.v (rings that touch once lie on one side of
   each other), Validate_sound_all.v (soundness for all points), Validate_total.v (no panic),
   Validate_idx.v (the index-walking IsSimple), Validate_mpoly.v (MultiPolygon: fast case),
   Validate_mperm.v (MultiPolygon: order of the members).
   Model: Model/Validate.v (transcription of the Go validation code over exact arithmetic; the
   fixed nested-ring probe is [validate], the probe of the pinned tree is [validate_v0]);
   reference statement: Model/ValidateSpec.v (ogc_valid). *)
From Coq Require Import QArith List Bool ZArith Permutation.
From SF Require Import Base.QKernel Model.Validate Model.ValidateSpec
  Proofs.Validate_kernel Proofs.Validate_graph Proofs.Validate_proofs Proofs.Validate_translate
  Proofs.Validate_repr Proofs.Validate_sound
  Base.GeomAST Base.Planar Base.Planar_C03 Proofs.Planar_slab_base Proofs.Validate_ogc Proofs.Validate_jordan Proofs.Validate_sound_all Proofs.Validate_total Proofs.Validate_idx Proofs.Validate_mpoly Proofs.Validate_mperm.
Import ListNotations.
Open Scope Q_scope.

(* ---------------------------------------------------------------- kernel *)
(* geom/line.go:intersectLine computes the intersection of two closed non-degenerate segments as
   a point set: empty iff no common point; every reported point is a common point; when the two
   reported points coincide that point is the ONLY common point. *)
Theorem intersect_line_is_intersection : forall a b c d : pt,
  ~ pt_eq a b -> ~ pt_eq c d ->
  match intersect_line (a, b) (c, d) with
  | ILEmpty => forall p, ~ (on_seg (a, b) p = true /\ on_seg (c, d) p = true)
  | ILSome x y =>
      (on_seg (a, b) x = true /\ on_seg (c, d) x = true)
      /\ (on_seg (a, b) y = true /\ on_seg (c, d) y = true)
      /\ (pt_eq x y -> forall p, on_seg (a, b) p = true /\ on_seg (c, d) p = true -> pt_eq p x)
  end.
Proof. exact intersect_line_spec. Qed.
Print Assumptions intersect_line_is_intersection.
Example intersect_line_nonvacuous :
  intersect_line ((0, 0), (4, 4)) ((0, 4), (4, 0)) = ILSome (2, 2) (2, 2)
  /\ intersect_line ((0, 0), (4, 0)) ((2, 0), (6, 0)) = ILSome (4, 0) (2, 0)
  /\ intersect_line ((0, 0), (1, 0)) ((2, 0), (3, 0)) = ILEmpty.
Proof. vm_compute. auto. Qed.

(* ---------------------------------------------------------------- LineString *)
(* LineString.Validate returns nil exactly for the empty line and for lines whose ordinates are all
   finite and which have two distinct points *)
Theorem ls_validate_spec : forall vs : list oxy,
  ls_validate vs = None <->
  (vs = [] \/ (Forall Finite vs /\ exists p q, In p vs /\ In q vs /\ p <> q)).
Proof. exact ls_validate_spec_lemma. Qed.
Print Assumptions ls_validate_spec.
Example ls_validate_spec_nonvacuous :
  ls_validate [P 1 1; P 1 1; P 2 3] = None /\ ls_validate [P 1 1; P 1 1] = Some RTwoPoints
  /\ ls_validate [P 1 1; (OFin 2, ONaN)] = Some RNaN.
Proof. vm_compute. auto. Qed.

(* IsSimple decides simplicity as defined on the point sets of the segments: two valid lines of
   the curve share a point only if they are consecutive (the point is their common end) or they
   are the first and last line of a closed curve (the point is the closing vertex).
   [Simple] is Proofs.Validate_proofs.Simple; it mentions only on_seg, as_lines and is_closed. *)
Theorem ring_simple_spec : forall ps : list pt, is_simple ps = true <-> Simple ps.
Proof. exact ring_simple_spec_lemma. Qed.
Print Assumptions ring_simple_spec.
Example ring_simple_nonvacuous :
  is_simple [(0, 0); (4, 0); (4, 4); (0, 4); (0, 0)] = true
  /\ is_simple [(0, 0); (4, 4); (4, 0); (0, 4); (0, 0)] = false
  /\ is_simple [(0, 0); (4, 0); (2, 0); (2, 3)] = false.
Proof. vm_compute. auto. Qed.

(* ---------------------------------------------------------------- touch graph *)
(* graph.go:hasCycle reports a cycle iff the undirected simple graph has a simple cycle (at least
   three distinct vertices, consecutive ones adjacent, last adjacent to first); in particular the
   answer does not depend on the iteration order of the Go maps *)
Theorem has_cycle_spec : forall g : graph,
  no_self_loops g -> (has_cycle g = true <-> exists c, Cycle g c).
Proof. exact has_cycle_spec_lemma. Qed.
Print Assumptions has_cycle_spec.
Example has_cycle_nonvacuous :
  has_cycle [(5, 0); (5, 1); (6, 1); (6, 2); (7, 2); (7, 0)]%nat = true
  /\ has_cycle [(5, 0); (5, 1); (6, 1); (6, 2); (7, 2); (7, 3)]%nat = false.
Proof. vm_compute. auto. Qed.

(* ---------------------------------------------------------------- representation independence *)
(* the verdict (with its rule class) is invariant under every integer translation of the raw
   ordinates, for all seven types and any nesting; also for the model of the pinned tree *)
Theorem validate_translation_invariant : forall (dx dy : Z) (g : vgeom),
  validate (tr_geom dx dy g) = validate g.
Proof. exact validate_translation_invariant_lemma. Qed.
Print Assumptions validate_translation_invariant.
Theorem validate_v0_translation_invariant : forall (dx dy : Z) (g : vgeom),
  validate_v0 (tr_geom dx dy g) = validate_v0 g.
Proof. exact validate_v0_translation_invariant_lemma. Qed.
Print Assumptions validate_v0_translation_invariant.
(* IsClosed / IsSimple / IsRing are invariant under every rational translation *)
Theorem ring_checks_translation_invariant : forall (v : pt) (ps : list pt),
  let ps' := map (fun p => pt_add p v) ps in
  is_closed ps' = is_closed ps /\ is_simple ps' = is_simple ps /\ is_ring ps' = is_ring ps.
Proof. exact ring_checks_translation_invariant_lemma. Qed.
Print Assumptions ring_checks_translation_invariant.
Example translation_nonvacuous :
  validate (tr_geom 7 (-3) (VPoly f3_rings)) = Some RRingNested
  /\ validate (tr_geom 7 (-3) (VPoly [f3_shell; f3_hole])) = None.
Proof. vm_compute. auto. Qed.

(* IsClosed / IsSimple / IsRing are invariant under the axis reflections x -> -x and y -> -y.
   validate_reflection_invariant for polygons is NOT proved: the crossing-parity probe
   (hasCrossing: ray towards -x, half-open in y) is not invariant predicate by predicate; that its
   parity is the same after a reflection is a Jordan-type fact about closed curves.  The
   correspondence run compares the verdicts of every geometry with its two reflections. *)
Theorem ring_checks_reflection_invariant : forall ps : list pt,
  (is_closed (map reflx ps) = is_closed ps /\ is_simple (map reflx ps) = is_simple ps /\ is_ring (map reflx ps) = is_ring ps)
  /\ (is_closed (map refly ps) = is_closed ps /\ is_simple (map refly ps) = is_simple ps /\ is_ring (map refly ps) = is_ring ps).
Proof. exact ring_checks_reflection_invariant_lemma. Qed.
Print Assumptions ring_checks_reflection_invariant.
(* ... under reversal of the vertex list *)
Theorem ring_checks_reversal_invariant : forall ps : list pt,
  is_closed (rev ps) = is_closed ps /\ is_simple (rev ps) = is_simple ps /\ is_ring (rev ps) = is_ring ps.
Proof. exact ring_checks_reversal_invariant_lemma. Qed.
Print Assumptions ring_checks_reversal_invariant.
(* ... and, for a closed vertex list, under the choice of the start vertex (rotate_ring k: the
   list started at its k-th vertex and closed again) *)
Theorem ring_checks_rotation_invariant : forall (k : nat) (ps : list pt),
  is_closed ps = true ->
  is_closed (rotate_ring k ps) = true /\ is_simple (rotate_ring k ps) = is_simple ps
  /\ is_ring (rotate_ring k ps) = is_ring ps.
Proof. exact ring_checks_rotation_invariant_lemma. Qed.
Print Assumptions ring_checks_rotation_invariant.
Example rotation_nonvacuous :
  let r := [(0, 0); (4, 0); (4, 4); (2, 1); (0, 4); (0, 0)] in
  is_closed r = true /\ rotate_ring 2 r = [(4, 4); (2, 1); (0, 4); (0, 0); (4, 0); (4, 4)] /\ is_ring (rotate_ring 2 r) = true
  /\ is_ring (rev r) = true /\ is_ring (map reflx r) = true.
Proof. vm_compute. auto. Qed.

(* ---------------------------------------------------------------- F3 *)
(* F3: on the model of the pinned tree the verdict of Polygon.Validate depends on the vertex a
   ring starts at (the statement "forall rings i k, is_valid_v0 (VPoly (restart_ring i k rings)) =
   is_valid_v0 (VPoly rings)" is false), and the accepted representation is not OGC-valid *)
Theorem polygon_validate_start_refuted :
  exists (rings : list (list oxy)) (i k : nat),
    is_valid_v0 (VPoly rings) = true
    /\ is_valid_v0 (VPoly (restart_ring i k rings)) = false
    /\ ogc_valid (VPoly rings) = false.
Proof. exists f3_rings, 2%nat, 1%nat. vm_compute. auto. Qed.
Print Assumptions polygon_validate_start_refuted.

(* After fixes/F3.patch the probe is the side of the first vertex that is off the other ring.
   General lemma: if the vertices of a ring that are off the other ring all lie on one side s of
   it, the probe returns s for every vertex list with the same vertices.  The hypothesis
   uniform_side is DISCHARGED below (touching_rings_one_side) for closed rings that meet in at
   most one point; nested_probe_start_invariant is the resulting full statement. *)
Theorem nested_probe_start_invariant_partial : forall (vs vs' : list pt) (other : list seg) (s : side),
  s <> SBoundary -> uniform_side vs other s ->
  (forall p, In p vs' <-> In p vs) ->
  (exists p, In p vs /\ relate_lines p other false = s) ->
  first_off_boundary vs' other = first_off_boundary vs other.
Proof. exact nested_probe_start_invariant_lemma. Qed.
Print Assumptions nested_probe_start_invariant_partial.
(* the witness of F3 is rejected by the fixed model for every start vertex of both hole rings
   (complete enumeration of the 4 x 3 starts) *)
Theorem f3_witness_rejected_for_all_starts :
  forallb (fun j => forallb (fun k =>
     negb (is_valid (VPoly (restart_ring 1 j (restart_ring 2 k f3_rings))))) (seq 0 3)) (seq 0 4) = true.
Proof. vm_compute. reflexivity. Qed.
Print Assumptions f3_witness_rejected_for_all_starts.

(* ---------------------------------------------------------------- soundness, rule by rule *)
(* A nil verdict of the (fixed) polygon validation on finite rings implies the LOCAL rules of
   ogc_valid: rings closed and simple by definition, two rings share at most one point, no hole
   probed inside another hole, every hole probed inside the shell, touch graph acyclic.
   The all-points form of the nesting rules (every point of a hole inside or on the shell, no point
   of a hole interior to another hole) is polygon_validate_sound_everywhere below; the connectivity
   clause of ogc_valid is not proved (see the comment there). *)
Theorem validate_sound_partial : forall rings : list (list pt),
  Forall (fun r => ring_geom_validate r = None) rings ->
  poly_geom_validate nested_v1 rings = None ->
  Forall (fun r => has_2_distinct r = true /\ is_closed r = true /\ Simple r) rings
  /\ (forall i j ri rj, (j < i)%nat -> nth_error rings i = Some ri -> nth_error rings j = Some rj ->
        forall p q, on_curve ri p -> on_curve rj p -> on_curve ri q -> on_curve rj q -> pt_eq p q)
  /\ (forall i j ri rj, (0 < j < i)%nat -> nth_error rings i = Some ri -> nth_error rings j = Some rj ->
        first_off_boundary ri (as_lines rj) <> SInterior /\ first_off_boundary rj (as_lines ri) <> SInterior)
  /\ (forall shell holes, rings = shell :: holes ->
        Forall (fun h => first_off_boundary h (as_lines shell) <> SExterior) holes)
  /\ (exists st, loop_i nested_v1 0 [] rings (MkPS (length rings) [] []) = inr st
                 /\ no_self_loops (ps_edges st) /\ ~ exists c, Cycle (ps_edges st) c).
Proof. exact polygon_validate_sound_partial_lemma. Qed.
Print Assumptions validate_sound_partial.
Example validate_sound_nonvacuous :
  let rings := [[(0, 0); (6, 0); (6, 6); (0, 6); (0, 0)]; [(0, 0); (3, 1); (1, 3); (0, 0)]; [(3, 1); (5, 1); (5, 3); (3, 1)]] in
  forallb (fun r => match ring_geom_validate r with None => true | _ => false end) rings = true
  /\ poly_geom_validate nested_v1 rings = None.
Proof. vm_compute. auto. Qed.

(* A nil verdict of the MultiPolygon constraints implies that the boundaries of two members never
   share a piece of positive length (every pair of boundary segments has at most one common point).
   That the interiors are disjoint is proved for the fast case of two members without holes
   (multipolygon_fast_case_sound_partial below) and not otherwise (Jordan-type; correspondence with
   ogc_valid). *)
Theorem multipolygon_validate_sound_partial : forall polys : list (list (list pt)),
  mpoly_constraints [] polys = None ->
  forall i j pi pj, (j < i)%nat -> nth_error polys i = Some pi -> nth_error polys j = Some pj ->
  forall s t, In s (poly_lines pi) -> In t (poly_lines pj) ->
  forall p q, common s t p -> common s t q -> pt_eq p q.
Proof. exact multipolygon_validate_sound_partial_lemma. Qed.
Print Assumptions multipolygon_validate_sound_partial.
Example multipolygon_sound_nonvacuous :
  mpoly_constraints [] [[[(0, 0); (4, 0); (4, 4); (0, 4); (0, 0)]]; [[(4, 4); (6, 4); (6, 6); (4, 4)]]] = None
  /\ mpoly_constraints [] [[[(0, 0); (4, 0); (4, 4); (0, 4); (0, 0)]]; [[(4, 1); (6, 1); (4, 3); (4, 1)]]] = Some RPolysMultiTouch.
Proof. vm_compute. auto. Qed.

(* ---------------------------------------------------------------- ogc_valid is a verified reference *)
(* A clause evaluated at the witnesses of the exact arrangement decides the statement for ALL
   points of Q^2 (slab sufficiency, Proofs/Planar_slab.v; hypothesis: polygon rings are closed
   vertex lists - nothing else, rings may self-intersect). *)
Theorem ogc_everywhere_is_everywhere : forall (gs : list geom) (F : list bool -> bool),
  (forall g, In g gs -> rings_closed g) ->
  (everywhere gs F = true <-> forall p, F (map (fun g => inG g p) gs) = true).
Proof. exact everywhere_spec. Qed.
Print Assumptions ogc_everywhere_is_everywhere.

(* poly_def, clause by clause, over all points: rings closed/simple by definition; two rings share
   at most one point; EVERY point of a hole is inside or on the shell; NO point of a hole is
   interior to another hole; interior connected.  The last clause (connectivity of the
   face-adjacency graph of the slab decomposition, Base/Planar_C03.interior_connected) is kept as
   defined: its reading as topological connectedness of the open interior is not proved. *)
Theorem ogc_polygon_clauses_verified : forall (shell : list pt) (holes : list (list pt)),
  poly_def (shell :: holes) = true <->
  ( Forall (fun r => ring_def r = true) (shell :: holes)
    /\ ForallOrdPairs (fun a b => forall p q, on_edges (segs a) p = true -> on_edges (segs b) p = true ->
                                   on_edges (segs a) q = true -> on_edges (segs b) q = true -> pt_eq p q) (shell :: holes)
    /\ Forall (fun h => forall p, on_edges (segs h) p = true -> locate (g_poly [shell]) p <> Exterior) holes
    /\ ForallOrdPairs (fun h k => forall p, (on_edges (segs h) p = true -> locate (g_poly [k]) p <> Interior)
                                         /\ (on_edges (segs k) p = true -> locate (g_poly [h]) p <> Interior)) holes
    /\ interior_connected (map segs (shell :: holes)) = true ).
Proof. exact poly_def_meaning. Qed.
Print Assumptions ogc_polygon_clauses_verified.

(* the MultiPolygon pair clause over all points: boundaries share no piece of positive length
   (no two boundary segments have two distinct common points) and NO point of Q^2 is interior to
   both members *)
Theorem ogc_multipolygon_clauses_verified : forall A B : list (list pt),
  A <> [] -> B <> [] ->
  Forall (fun r => pts_closed r = true) A -> Forall (fun r => pts_closed r = true) B ->
  (mpoly_pair_def A B = true <->
   (forall s t, In s (flat_map segs A) -> In t (flat_map segs B) -> forall p q, common s t p -> common s t q -> pt_eq p q)
   /\ (forall p, ~ (locate (g_poly A) p = Interior /\ locate (g_poly B) p = Interior))).
Proof. exact mpoly_pair_def_meaning. Qed.
Print Assumptions ogc_multipolygon_clauses_verified.

(* QKernel.seg_seg reports an overlap exactly when the segments share two distinct points *)
Theorem seg_seg_overlap_is_shared_piece : forall s t : seg,
  (exists p q, seg_seg s t = SSOverlap p q) <-> (exists p q, common s t p /\ common s t q /\ ~ pt_eq p q).
Proof. exact seg_seg_overlap_iff. Qed.
Print Assumptions seg_seg_overlap_is_shared_piece.
Example ogc_clauses_nonvacuous :
  let sq := [(0, 0); (6, 0); (6, 6); (0, 6); (0, 0)] in
  poly_def [sq; [(0, 0); (3, 1); (1, 3); (0, 0)]] = true
  /\ poly_def [sq; [(5, 5); (8, 5); (8, 8); (5, 5)]] = false
  /\ mpoly_pair_def [sq] [[(6, 6); (8, 6); (8, 8); (6, 6)]] = true
  /\ mpoly_pair_def [sq] [[(1, 1); (2, 1); (2, 2); (1, 1)]] = false.
Proof. vm_compute. auto. Qed.

(* ---------------------------------------------------------------- the nested-ring probe, fully *)
(* The end points of a segment that does not meet a closed ring are on the same side of the ring
   (as computed by relatePointToRing): crossing parity is constant along the segment.  No topology:
   shear invariance of cross products + closed_ring_parity + an edge-by-edge argument. *)
Theorem segment_avoiding_closed_ring_same_side : forall (ps : list pt) (u v : pt),
  pts_closed ps = true ->
  (forall z, on_seg (u, v) z = true -> on_edges (segs_of_pts ps) z = false) ->
  relate_lines u (as_lines ps) false = relate_lines v (as_lines ps) false.
Proof. exact relate_lines_avoiding_segment. Qed.
Print Assumptions segment_avoiding_closed_ring_same_side.

(* If a closed simple ring A and a closed ring B have at most one common point (the single-touch
   rule, which Polygon.Validate enforces), all vertices of A that are not on B lie on the same side
   of B.  Hypotheses as_lines _ = ring_edges _ / segs_of_pts _: no repeated consecutive vertices
   (repeated vertices are covered by the dup / dupstart variants of the correspondence run). *)
Theorem touching_rings_one_side : forall A B : list pt,
  as_lines A = ring_edges A -> as_lines B = segs_of_pts B ->
  is_closed A = true -> Simple A -> pts_closed B = true ->
  (forall p q, on_edges (ring_edges A) p = true -> on_edges (segs_of_pts B) p = true ->
               on_edges (ring_edges A) q = true -> on_edges (segs_of_pts B) q = true -> pt_eq p q) ->
  forall p q, In p A -> In q A ->
  relate_lines p (as_lines B) false <> SBoundary -> relate_lines q (as_lines B) false <> SBoundary ->
  relate_lines p (as_lines B) false = relate_lines q (as_lines B) false.
Proof. exact vertices_same_side. Qed.
Print Assumptions touching_rings_one_side.

(* Start invariance of the nested-ring probe: under the same hypotheses the probe
   of fixes/F3.patch returns the same side for EVERY vertex list with the same vertices as A - the
   ring started at any other vertex, or reversed.  (False of the probe of the pinned tree:
   polygon_validate_start_refuted.)  Not covered: invariance of the whole verdict of
   Polygon.Validate (shell probe, touch graph) - checked by the correspondence run. *)
Theorem nested_probe_start_invariant : forall A B : list pt,
  as_lines A = ring_edges A -> as_lines B = segs_of_pts B ->
  is_closed A = true -> Simple A -> pts_closed B = true ->
  (forall p q, on_edges (ring_edges A) p = true -> on_edges (segs_of_pts B) p = true ->
               on_edges (ring_edges A) q = true -> on_edges (segs_of_pts B) q = true -> pt_eq p q) ->
  forall vs', (forall p, In p vs' <-> In p A) ->
  first_off_boundary vs' (as_lines B) = first_off_boundary A (as_lines B).
Proof. exact nested_probe_start_invariant_lemma_full. Qed.
Print Assumptions nested_probe_start_invariant.
Example nested_probe_invariant_nonvacuous :
  let A := [(2, 2); (4, 3); (3, 4); (2, 2)] in
  let B := [(2, 2); (8, 2); (8, 8); (2, 8); (2, 2)] in
  as_lines A = ring_edges A /\ as_lines B = segs_of_pts B /\ is_closed A = true /\ is_simple A = true
  /\ pts_closed B = true /\ inter_summary (as_lines A) (as_lines B) = ISingle (2, 2)
  /\ first_off_boundary A (as_lines B) = SInterior
  /\ first_off_boundary [(4, 3); (3, 4); (2, 2); (4, 3)] (as_lines B) = SInterior.
Proof. vm_compute. repeat split; reflexivity. Qed.

(* ---------------------------------------------------------------- model-valid => ogc clauses, all points *)
(* SOUNDNESS of Polygon.Validate against the verified reference.  For finite rings without
   repeated consecutive vertices, a nil verdict of the (fixed) validation implies EVERY clause of
   ogc_valid's poly_def except connectivity: every ring is a linear ring by the definition; two
   rings share at most one point; every point of every hole is inside or on the shell; no point of
   a hole is interior to another hole (poly_def = poly_def_but_connectivity && interior_connected).
   NOT PROVED: (i) the connectivity clause in either direction (acyclic touch graph <-> connected
   face graph) - by ogc_local_complete below this is the ONLY gap between the model and poly_def
   for polygons; (ii) rings with repeated consecutive vertices; (iii) for MultiPolygon only
   multipolygon_validate_sound_partial (boundaries) and multipolygon_fast_case_sound_partial: "no point interior to two members" from the
   midpoint probes of validatePolyNotInsidePoly (which skip intersection-free segments) needs a
   global argument and is not attempted.  (i)-(iii) are exercised on every case of the
   correspondence run (model verdict = ogc_valid). *)
Theorem polygon_validate_sound_everywhere : forall (shell : list pt) (holes : list (list pt)),
  Forall (fun r => as_lines r = ring_edges r) (shell :: holes) ->
  Forall (fun r => ring_geom_validate r = None) (shell :: holes) ->
  poly_geom_validate nested_v1 (shell :: holes) = None ->
  Forall (fun r => has_2_distinct r = true /\ is_closed r = true /\ Simple r) (shell :: holes)
  /\ ForallOrdPairs (fun a b => forall p q, on_edges (segs a) p = true -> on_edges (segs b) p = true ->
                                 on_edges (segs a) q = true -> on_edges (segs b) q = true -> pt_eq p q) (shell :: holes)
  /\ Forall (fun h => forall p, on_edges (segs h) p = true -> locate (g_poly [shell]) p <> Exterior) holes
  /\ ForallOrdPairs (fun h k => forall p, (on_edges (segs h) p = true -> locate (g_poly [k]) p <> Interior)
                                       /\ (on_edges (segs k) p = true -> locate (g_poly [h]) p <> Interior)) holes.
Proof. exact polygon_validate_sound_everywhere_lemma. Qed.
Print Assumptions polygon_validate_sound_everywhere.

Theorem validate_polygon_sound : forall rs : list (list oxy),
  validate (VPoly rs) = None ->
  exists rings, all_fin fin_pts rs = Some rings /\
    (Forall (fun r => as_lines r = ring_edges r) rings -> poly_def_but_connectivity rings = true).
Proof. exact validate_polygon_sound_lemma. Qed.
Print Assumptions validate_polygon_sound.
Example validate_polygon_sound_nonvacuous :
  let rs := [[P 0 0; P 6 0; P 6 6; P 0 6; P 0 0]; [P 0 0; P 3 1; P 1 3; P 0 0]; [P 3 1; P 5 1; P 5 3; P 3 1]] in
  validate (VPoly rs) = None
  /\ match all_fin fin_pts rs with
     | Some rings => forallb (fun r => Nat.eqb (length (as_lines r)) (length (ring_edges r))) rings
                     && poly_def_but_connectivity rings && poly_def rings
     | None => false
     end = true.
Proof. vm_compute. auto. Qed.

(* the easy half of completeness: what ogc_valid's everywhere-clauses accept, the probes accept *)
Theorem ogc_accepts_probes : forall A B : list pt,
  (2 <= length A)%nat -> as_lines B = segs_of_pts B -> pts_closed B = true ->
  (hole_inside B A = true -> first_off_boundary A (as_lines B) <> SExterior)
  /\ (not_nested A B = true -> pts_closed A = true -> first_off_boundary A (as_lines B) <> SInterior).
Proof. exact ogc_accepts_probes_lemma. Qed.
Print Assumptions ogc_accepts_probes.

(* COMPLETENESS of all local checks: a polygon (finite rings, no repeated consecutive vertices) that
   satisfies every clause of poly_def except connectivity passes every ring check, and the model
   can reject it for one reason only: a cycle in the touch graph.  Together with
   validate_polygon_sound the gap between the model and ogc_valid for polygons is exactly
   "touch graph acyclic <-> interior_connected" (not proved; correspondence run). *)
Theorem ogc_local_complete : forall rings : list (list pt),
  Forall (fun r => as_lines r = ring_edges r) rings ->
  poly_def_but_connectivity rings = true ->
  Forall (fun r => ring_geom_validate r = None) rings
  /\ (poly_geom_validate nested_v1 rings = None \/ poly_geom_validate nested_v1 rings = Some RInteriorConnected).
Proof. exact ogc_local_complete_lemma. Qed.
Print Assumptions ogc_local_complete.
Example ogc_local_complete_nonvacuous :
  let sq := [(0, 0); (4, 0); (4, 4); (0, 4); (0, 0)] in
  let rings := [sq; [(2, 0); (3, 1); (2, 2); (1, 1); (2, 0)]; [(2, 2); (3, 3); (2, 4); (1, 3); (2, 2)]] in
  poly_def_but_connectivity rings = true /\ poly_def rings = false
  /\ poly_geom_validate nested_v1 rings = Some RInteriorConnected.
Proof. vm_compute. auto. Qed.

(* ---------------------------------------------------------------- totality and the Go panic site (F33) *)
(* [validate] is a total Gallina function: every input has a verdict.  The places where the Go
   code would panic are the explicit outcome RPanic of the model.  For the explicit panic of
   validatePolyNotInsidePoly ("already established that boundaries only intersect at points") the
   model proves the branch unreachable: when the first pass over the boundary lines of two members
   finds no overlapping pair, neither direction of the second pass finds one - "the two lines
   overlap" does not depend on the order of the arguments of intersectLine.  This is a fact of
   EXACT arithmetic (intersect_line_spec).  In float64 it is false once the cross products
   overflow (Inf - Inf = NaN counts as collinear): MULTIPOLYGON(((-1e308 -2,1 -2,0 -1,-1e308 -2)),
   ((-2 3,-2 -1,0 -1,-2 3))) made Validate and every validating decoder panic (F33; repaired by
   fixes/F33.patch: the overlap is reported as the multi-touch rule violation).  The
   correspondence class huge_polys observes "error or nil, never a panic" on such inputs. *)
Theorem slow_case_panic_unreachable : forall bi bj : list seg,
  Forall nondeg bi -> Forall nondeg bj -> snd (boundary_inter bi bj) = false ->
  poly_not_inside_poly bi bj <> Some RPanic /\ poly_not_inside_poly bj bi <> Some RPanic.
Proof. exact slow_case_panic_unreachable_lemma. Qed.
Print Assumptions slow_case_panic_unreachable.
Example slow_case_nonvacuous :
  let bi := poly_lines [[(0, 0); (4, 0); (4, 4); (0, 4); (0, 0)]] in
  let bj := poly_lines [[(4, 4); (6, 4); (6, 6); (4, 4)]] in
  boundary_inter bi bj = (true, false) /\ poly_not_inside_poly bi bj = None /\ poly_not_inside_poly bj bi = None.
Proof. vm_compute. auto. Qed.

(* ---------------------------------------------------------------- the literal IsSimple *)
(* is_simple_idx is the line-by-line transcription of LineString.IsSimple with the index walks of
   geom/type_sequence.go (getLine, firstAndLastLines, previousLine, nextLine; the R-tree search
   replaced by the scan of all j).  It computes the same boolean as is_simple, so ring_simple_spec
   and the translation / reflection / reversal / rotation theorems hold of the literal form too. *)
Theorem is_simple_idx_is_is_simple : forall ps : list pt, is_simple_idx ps = is_simple ps.
Proof. exact is_simple_idx_eq_lemma. Qed.
Print Assumptions is_simple_idx_is_is_simple.
Example is_simple_idx_nonvacuous :
  is_simple_idx [(0, 0); (0, 0); (4, 0); (4, 0); (4, 4); (0, 4); (0, 0)] = true
  /\ is_simple_idx [(0, 0); (4, 4); (4, 4); (4, 0); (0, 4); (0, 0)] = false.
Proof. vm_compute. auto. Qed.

(* ---------------------------------------------------------------- MultiPolygon, all points: the fast case *)
(* Soundness of the FAST case of checkMultiPolygonConstraints for two members without holes (no
   repeated consecutive vertices): when the boundaries have no common point and each start vertex
   is outside the other member, no point of Q^2 is interior to both.
   NOT PROVED (stated as the open part of "MultiPolygon soundness"): members with holes (needs
   "a shell is not inside its own hole" with touching rings), and the slow case, where boundaries
   meet at points and validatePolyNotInsidePoly probes only the pieces of segments that carry an
   intersection point.  Both are covered by the correspondence run (verdict = ogc_valid, whose
   interiors_disjoint clause is verified for all points). *)
Theorem multipolygon_fast_case_sound_partial : forall A B : list pt,
  as_lines A = ring_edges A -> as_lines B = ring_edges B ->
  has_2_distinct A = true -> has_2_distinct B = true -> pts_closed A = true -> pts_closed B = true ->
  boundary_inter (poly_lines [A]) (poly_lines [B]) = (false, false) ->
  mpoly_pair [A] [B] = None ->
  forall q, ~ (locate (g_poly [A]) q = Interior /\ locate (g_poly [B]) q = Interior).
Proof. exact multipolygon_fast_case_sound_lemma. Qed.
Print Assumptions multipolygon_fast_case_sound_partial.
Example multipolygon_fast_case_nonvacuous :
  let A := [(0, 0); (4, 0); (4, 4); (0, 4); (0, 0)] in
  let B := [(5, 0); (8, 0); (8, 3); (5, 0)] in
  boundary_inter (poly_lines [A]) (poly_lines [B]) = (false, false) /\ mpoly_pair [A] [B] = None
  /\ mpoly_pair [A] [[(1, 1); (2, 1); (2, 2); (1, 1)]] = Some RPolysMultiTouch.
Proof. vm_compute. auto. Qed.

(* ---------------------------------------------------------------- MultiPolygon: the order of the members *)
(* The verdict of MultiPolygon.Validate (nil / error; the rule reported may differ) is the same for
   every order in which the members are listed - for the fixed and for the pinned nested-ring probe.
   Proof: every member is validated on its own; checkMultiPolygonConstraints then runs ONE callback
   per unordered pair of non-empty members, and that callback is symmetric (mpoly_pair_symmetric):
   the kind of the boundary intersection (some point part / some line part) is a property of the
   point sets (intersect_line_is_intersection), the fast case probes one start vertex in each
   direction, the slow case runs validatePolyNotInsidePoly in BOTH directions.
   A callback that probes in one direction only, the direction chosen by list position or by a
   comparison that can tie ("the member with the smaller envelope area"), breaks
   mpoly_pair_symmetric: with members of identical envelopes, one inscribed in the other,
   MULTIPOLYGON(((2 0,4 2,2 4,0 2,2 0)),((0 0,4 0,4 4,0 4,0 0))) would be accepted and the opposite
   order rejected.  On the implementation the same statement is the SPEC check repr_invariant of the
   correspondence class inscribed (every member order of every configuration). *)
Theorem mpoly_pair_symmetric : forall pi pj : list (list pt),
  mpoly_pair pi pj = None <-> mpoly_pair pj pi = None.
Proof. exact mpoly_pair_sym. Qed.
Print Assumptions mpoly_pair_symmetric.
Theorem multipolygon_validate_perm_invariant : forall ps ps' : list (list (list oxy)),
  Permutation ps ps' ->
  is_valid (VMPoly ps) = is_valid (VMPoly ps') /\ is_valid_v0 (VMPoly ps) = is_valid_v0 (VMPoly ps').
Proof. exact multipolygon_validate_perm_invariant_lemma. Qed.
Print Assumptions multipolygon_validate_perm_invariant.
Example multipolygon_perm_nonvacuous :
  let diamond := [[P 2 0; P 4 2; P 2 4; P 0 2; P 2 0]] in
  let square := [[P 0 0; P 4 0; P 4 4; P 0 4; P 0 0]] in
  let beside := [[P 4 2; P 6 0; P 8 2; P 6 4; P 4 2]] in
  Permutation [diamond; square; []] [[]; square; diamond]
  /\ is_valid (VMPoly [diamond; square]) = false /\ is_valid (VMPoly [square; diamond]) = false
  /\ is_valid (VMPoly [[]; diamond; square]) = false
  /\ is_valid (VMPoly [diamond; beside]) = true /\ is_valid (VMPoly [beside; []; diamond]) = true
  /\ mpoly_pair [[(2, 0); (4, 2); (2, 4); (0, 2); (2, 0)]] [[(0, 0); (4, 0); (4, 4); (0, 4); (0, 0)]] = Some RPolysMultiTouch
  /\ mpoly_pair [[(0, 0); (4, 0); (4, 4); (0, 4); (0, 0)]] [[(2, 0); (4, 2); (2, 4); (0, 2); (2, 0)]] = Some RPolysMultiTouch.
Proof.
  split; [apply Permutation_rev with (l := [_; _; _])|]. vm_compute. repeat split; reflexivity.
Qed.
