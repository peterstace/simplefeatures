(* C12 - the translator tie as statements (nothing else in this file): geom/type_point.go:Envelope and
   geom/type_multi_point.go:Envelope, re-read from the Go source on every run into Gen/FuncsLoop.v, ARE
   Model/Envelope.v:point_env and env_of (GMPoint ..) - for every instance of the comparison primitives (the Z
   lattice and the float keys incl. NaN) and MultiPoints of any size.  Proofs are in
   Proofs/Funcs_tie_Loop_Envelope.v. *)
From Coq Require Import List ZArith.
From SF Require Import Base.FOps Base.GeomAST Gen.FuncsLoop Model.Envelope Proofs.Funcs_tie_Loop_Envelope.

Theorem go_Point_Envelope_is_model : forall (F : Type) (O : Envelope.ops F) (A : fops F) (p : pointT F),
  geom_Point_Envelope (eops F O A) (gpoint F O p) = genv F O (point_env O p).
Proof. exact tie_Point_Envelope. Qed.
Print Assumptions go_Point_Envelope_is_model.

Theorem go_MultiPoint_Envelope_is_model : forall (F : Type) (O : Envelope.ops F) (A : fops F)
    (ct : ctype) (ps : list (pointT F)) (z : Z),
  geom_MultiPoint_Envelope (eops F O A) (Mk_geom_MultiPoint (map (gpoint F O) ps) z)
  = Known (genv F O (env_of O (GMPoint ct ps))).
Proof. exact tie_MultiPoint_Envelope. Qed.
Print Assumptions go_MultiPoint_Envelope_is_model.
