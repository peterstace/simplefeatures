(* Property C01 - THE COMPOSED OVERLAY ENGINE in the model (Model/OverlayPipeline.v):

       overlay_dcel_full a b  =  createGhosts -> reNodeGeometries -> findInteractionPoints
                                 -> forEachNonInteractingSegment / addGhosts / addGeometry (half-edge table, labels)
                                 -> fixVertices -> assignFaces -> populateInSetLabels
       overlay_result op a b  =  extractGeometry(op) on it (selection, ring walk, ordering, assembly)

   all in exact arithmetic over Q (what is abstracted from the float code is listed in the headers of
   Model/OverlayRenode.v, Model/OverlayFixup.v and Model/OverlayPipeline.v).  Statements only; proofs in
   Proofs/OverlayPipeline_proofs.v, on top of Proofs/OverlayRenode_proofs.v, OverlayRenode_ip_proofs.v (the
   phases before the fix-up) and OverlayFixup_proofs.v.

   (a) pipeline_precomplex_wf      for ALL operands the composed model is total up to the labelled complex (no
                                   error / panic outcome of addOrGetEdge, addPoint, forEachNonInteractingSegment or
                                   the cycle search), and the pre-complex it hands to the fix-up satisfies the
                                   hypotheses of the theorems of Props/C01_fixup.v (pre_wf, pre_dirs_ok, pre_src_sym,
                                   pre_srcface_le); hence every conjunct of dcel_ok except Euler's formula holds of
                                   the complex.  pipeline_fixup_applies: the fix-up theorems, without hypotheses.
       pipeline_chains_wf          the reason: the half-edge table (keyed by the first two points of a chain) never
                                   confuses two different chains - chains_wf, for all inputs.
       composed_precomplex_partial the same from the EXECUTABLE hypothesis chains_wf alone (for chain lists that do
                                   not come from re-noding; the driver evaluates chains_wf on every run).
   (b) chains_meet_only_at_ends    T4 of Props/C01_renode.v IN FULL: a point that lies on a piece of one chain and on a
                                   piece of another chain is a common END of the two chains - or the two chains are the
                                   same point sequence up to reversal (then addOrGetEdge maps them to one edge).
       chains_same_key_same_sequence   two chains with the same first two points are the same sequence.
   (c) pipeline_empty_operand      UnaryUnion(g) = setOp(g, or, Geometry{}): when the second operand has no component,
                                   no cell of the complex carries its label, Intersection extracts the empty
                                   collection, and or / andNot / xor extract the same geometry - for all first operands.
       extract_label_symmetric_partial   what exchanging the operands does to the LABELS (the two bits of every cell
                                   swapped) does not change what union / intersection / symmetric difference extract.
       COMMUTATIVITY of Union / Intersection / SymmetricDifference in the operands is NOT proved in full for the
       composed model: overlay (b, a) is the label-swapped overlay (a, b) only up to a renumbering of half edges and
       faces (insertion order) and ordinates are compared up to Qeq - that isomorphism is not proved; it is EVALUATED
       by the driver on every compared overlay (SPEC pipeline_commutes: the model's results on
       (a,b) and (b,a), value equality, else equality of point sets by the verified judge) and shown in the examples.
   (d) labels and geometry.  FULL STATEMENT WANTED (not proved - it is the correctness theorem of the overlay engine):
       for every face f of the composed complex with witness point w = face_witness ov f,
             f_in f = (inG a w, inG b w)
       whenever neither operand has areal members with intersecting interiors (class of the known findings F20 /
       F20b).  The driver EVALUATES it on every face of every composed complex (SPEC pipeline_face_label).  PROVED:
       pipeline_face_label_seed_partial   a half edge with the srcFace flag of an operand lies on a face labelled
                                          with that operand (composed model, all inputs);
       face_witness_partial               the witness lies strictly to the LEFT of the first piece of the face's cycle
                                          edge and the segment from the middle of that piece to it meets the pieces of
                                          the overlay only at that middle (with fix_next_radially_adjacent - the face
                                          is kept on the left of its half edges - this places it in the face, a step
                                          that is not formalised). *)
From Coq Require Import QArith List Bool ZArith Arith.
From SF Require Import Base.GeomAST Base.QKernel Base.Planar Model.SetOpSpec Model.OverlayComplex Model.OverlayRings
  Model.OverlayRenode Model.OverlayFixup Model.OverlayPipeline
  Proofs.OverlayRenode_proofs Proofs.OverlayRenode_ip_proofs Proofs.OverlayFixup_proofs Proofs.OverlayPipeline_proofs.
Import ListNotations.
Open Scope Q_scope.

(* ================================================================ (a) *)
Theorem pipeline_precomplex_wf : forall a b : geom,
  exists ov, overlay_dcel_full a b = Some ov /\
             pre_wf (ov_pre ov) = true /\ pre_dirs_ok (ov_pre ov) = true /\ pre_src_sym (ov_pre ov) = true /\
             pre_srcface_le (ov_pre ov) = true /\
             fixup (ov_pre ov) = Some (ov_cx ov) /\
             ranges_ok (ov_cx ov) = true /\ twin_ok (ov_cx ov) = true /\ next_prev_ok (ov_cx ov) = true /\
             faces_ok (ov_cx ov) = true /\ labels_ok (ov_cx ov) = true /\ dcel_ok (ov_cx ov) = euler_ok (ov_cx ov).
Proof. exact pipeline_precomplex_wf_lemma. Qed.
Print Assumptions pipeline_precomplex_wf.

Theorem pipeline_chains_wf : forall a b : geom,
  exists cs, pipeline_chains a b = Some cs /\
             chains_wf (ov_vertices (sk_vertices (overlay_skeleton_of a b))) cs = true.
Proof. exact pipeline_chains_wf_lemma. Qed.
Print Assumptions pipeline_chains_wf.

(* from the executable hypothesis alone *)
Theorem composed_precomplex_partial : forall (a b : geom) cs,
  pipeline_chains a b = Some cs ->
  chains_wf (ov_vertices (sk_vertices (overlay_skeleton_of a b))) cs = true ->
  exists ov, overlay_dcel_full a b = Some ov /\
             pre_wf (ov_pre ov) = true /\ pre_dirs_ok (ov_pre ov) = true /\ pre_src_sym (ov_pre ov) = true /\
             pre_srcface_le (ov_pre ov) = true /\
             fixup (ov_pre ov) = Some (ov_cx ov) /\
             ranges_ok (ov_cx ov) = true /\ twin_ok (ov_cx ov) = true /\ next_prev_ok (ov_cx ov) = true /\
             faces_ok (ov_cx ov) = true /\ labels_ok (ov_cx ov) = true /\ dcel_ok (ov_cx ov) = euler_ok (ov_cx ov).
Proof. exact composed_precomplex_lemma. Qed.
Print Assumptions composed_precomplex_partial.

(* the theorems of Props/C01_fixup.v on the composed model, with no hypothesis left *)
Theorem pipeline_fixup_applies : forall a b : geom,
  exists ov, overlay_dcel_full a b = Some ov /\
    let pc := ov_pre ov in
    let s := fixVertices pc in
    (forall e, (e < pnE pc)%nat ->
       (l_next s e < pnE pc)%nat /\ (l_prev s e < pnE pc)%nat /\ l_next s (l_prev s e) = e /\ l_prev s (l_next s e) = e /\
       p_origin pc (l_next s e) = p_origin pc (p_twin pc e)) /\
    (forall e z, (e < pnE pc)%nat -> (z < pnE pc)%nat -> p_origin pc z = p_origin pc (p_twin pc e) ->
       z <> l_next s e -> z <> p_twin pc e -> ccw_between (edge_less pc) (l_next s e) z (p_twin pc e) = false) /\
    exists fo, assignFaces pc (l_next s) = Some fo /\
      forall op,
        (forall e, (e < pnE pc)%nat -> lab_get (p_srcFace pc e) op = true -> lab_get (fo_in fo (fo_incident fo e)) op = true) /\
        (forall e, (e < pnE pc)%nat -> lab_get (p_srcFace pc e) op = false -> lab_get (fo_in fo (fo_incident fo e)) op = true ->
                   lab_get (fo_in fo (fo_incident fo (p_twin pc e))) op = true) /\
        (forall f, lab_get (fo_in fo f) op = true <->
                   reach (op_succs pc (fo_cycles fo) (fo_incident fo) op) (op_seed pc (fo_cycles fo) op) f).
Proof. exact pipeline_fixup_applies_lemma. Qed.
Print Assumptions pipeline_fixup_applies.

(* ================================================================ (b) T4 in full *)
(* r: the re-noded input (any nodes, any elements); I: its interaction points; c1, c2: chains of
   forEachNonInteractingSegment on two of its elements (possibly the same).  seqs_eq: the same points in the same
   order (ordinates compared by Qeq); chain_end c x: x is the first or the last point of c. *)
Theorem chains_meet_only_at_ends : forall (nodes : list pt) (ea eb gh : list (list pt)) (pa pb : list pt),
  let r := renode_elems nodes ea eb gh in
  let I := find_interaction_points (rn_a r) pa (rn_b r) pb (rn_ghosts r) in
  forall e1 e2 cs1 cs2 c1 c2 P1 P2 x,
    In e1 (rn_all r) -> In e2 (rn_all r) -> chains_of I e1 = Some cs1 -> chains_of I e2 = Some cs2 ->
    In c1 cs1 -> In c2 cs2 -> In P1 (ring_edges c1) -> In P2 (ring_edges c2) ->
    on_seg P1 x = true -> on_seg P2 x = true ->
    (chain_end c1 x /\ chain_end c2 x) \/ seqs_eq c1 c2 \/ seqs_eq c1 (rev c2).
Proof. exact T4_full_lemma. Qed.
Print Assumptions chains_meet_only_at_ends.

(* the combinatorial core, for any set of elements closed under reversal whose interaction points contain the
   reversal points and the points with two different neighbour pairs: chains with a common piece, walked in the
   same direction, are the same sequence *)
Theorem chains_same_key_same_sequence : forall (I : list pt) (E : list (list pt)),
  (forall e a c b, In e E -> consecutive3 e a c b -> pt_eq a b -> is_interaction I c = true) ->
  (forall e1 a1 c1 b1 e2 a2 c2 b2, In e1 E -> consecutive3 e1 a1 c1 b1 -> In e2 E -> consecutive3 e2 a2 c2 b2 ->
     pt_eq c1 c2 -> pair_eqb (adj_pair a1 b1) (adj_pair a2 b2) = false -> is_interaction I c1 = true) ->
  (forall e, In e E -> In (rev e) E) ->
  forall c1 c2, Chain I E c1 -> Chain I E c2 -> he_key_eqb c1 c2 = true -> seqs_eq c1 c2.
Proof. exact chains_same_key. Qed.
Print Assumptions chains_same_key_same_sequence.

(* ================================================================ (c) an operand without components *)
Theorem pipeline_empty_operand : forall a b : geom,
  g_elems b = [] -> g_shapes b = [] -> g_points b = [] ->
  overlay_result OpInter a b = Some (GColl XY []) /\
  overlay_result OpDiff a b = overlay_result OpUnion a b /\
  overlay_result OpSym a b = overlay_result OpUnion a b.
Proof. exact pipeline_empty_operand_lemma. Qed.
Print Assumptions pipeline_empty_operand.

(* exchanging the operands, as far as the labels go: swap_ov swaps the two bits of every label of the complex *)
Theorem extract_label_symmetric_partial : forall (o : setop) (ov : overlay),
  o <> OpDiff -> extract_geometry o (swap_ov ov) = extract_geometry o ov.
Proof. exact extract_label_symmetric_lemma. Qed.
Print Assumptions extract_label_symmetric_partial.

(* ================================================================ (d) labels and geometry, partial *)
Theorem pipeline_face_label_seed_partial : forall a b : geom,
  exists ov, overlay_dcel_full a b = Some ov /\
             forall e, In e (c_edges (ov_cx ov)) -> lab_le (e_srcFace e) (face_in (ov_cx ov) (e_face e)) = true.
Proof. exact pipeline_face_label_seed_lemma. Qed.
Print Assumptions pipeline_face_label_seed_partial.

Theorem face_witness_partial : forall (ov : overlay) (e : nat) (w : pt),
  (forall u, In u (all_pieces ov) -> ~ pt_eq (fst u) (snd u)) ->
  face_witness_at ov e = Some w ->
  exists p q rest, seq_of ov e = p :: q :: rest /\ ~ pt_eq p q /\ 0 < cross p q w /\
    forall u y, In u (all_pieces ov) -> on_seg (seg_mid (p, q), w) y = true -> on_seg u y = true -> pt_eq y (seg_mid (p, q)).
Proof. exact face_witness_lemma. Qed.
Print Assumptions face_witness_partial.

(* ================================================================ examples: the theorems are not vacuous *)
Definition pv (x y : Z) : vtx Q := Build_vtx (inject_Z x) (inject_Z y) 0 0.
Definition psq (x0 y0 x1 y1 : Z) : lineT Q := MkLine XY [pv x0 y0; pv x1 y0; pv x1 y1; pv x0 y1; pv x0 y0].
(* two crossing squares *)
Definition exA : geom := GPoly (MkPoly XY [psq 0 0 4 4]).
Definition exB : geom := GPoly (MkPoly XY [psq 2 2 6 6]).
(* a polygon and a line through it *)
Definition exL : geom := GLine (MkLine XY [pv (-2) 2; pv 8 2]).
(* an operand with a hole that contains the other operand; the exterior ring is given CLOCKWISE (ForceCCW reverses it) *)
Definition exH : geom := GPoly (MkPoly XY [MkLine XY [pv 0 0; pv 0 10; pv 10 10; pv 10 0; pv 0 0]; psq 2 2 8 8]).
Definition exI : geom := GPoly (MkPoly XY [psq 4 4 6 6]).

Definition summary (a b : geom) :=
  option_map (fun ov => (length (ov_verts ov), length (ov_seqs ov), map f_in (c_faces (ov_cx ov)),
                         dcel_ok (ov_cx ov), face_labels_bad a b ov)) (overlay_dcel_full a b).

Example ex_squares_dcel :
  summary exA exB = Some (4%nat, 14%nat, [(true, false); (true, false); (false, false); (true, true); (false, true)], true, []).
Proof. vm_compute. reflexivity. Qed.
Example ex_squares_chains_wf :
  option_map (chains_wf (ov_vertices (sk_vertices (overlay_skeleton_of exA exB)))) (pipeline_chains exA exB) = Some true
  /\ option_map (@length _) (pipeline_chains exA exB) = Some 7%nat.
Proof. vm_compute. split; reflexivity. Qed.
Example ex_squares_intersection :
  overlay_result OpInter exA exB = Some (GPoly (MkPoly XY [psq 2 2 4 4])).
Proof. vm_compute. reflexivity. Qed.
Example ex_squares_union :
  overlay_result OpUnion exA exB =
  Some (GPoly (MkPoly XY [MkLine XY [pv 0 0; pv 4 0; pv 4 2; pv 6 2; pv 6 6; pv 2 6; pv 2 4; pv 0 4; pv 0 0]])).
Proof. vm_compute. reflexivity. Qed.
Example ex_squares_symdiff_is_two_polygons :
  option_map (fun g => length (g_polys g)) (overlay_result OpSym exA exB) = Some 2%nat.
Proof. vm_compute. reflexivity. Qed.
(* the model's results pass the verified judgement of Props/C01.v *)
Example ex_squares_judged :
  forallb (fun o => match overlay_result o exA exB with Some r => verdict_ok (judge o exA exB r) | None => false end)
          [OpUnion; OpInter; OpDiff; OpSym] = true.
Proof. vm_compute. reflexivity. Qed.

Example ex_line_dcel :
  option_map (fun s => snd s) (summary exA exL) = Some [] /\
  overlay_result OpInter exA exL = Some (GLine (MkLine XY [pv 0 2; pv 4 2])).
Proof. vm_compute. split; reflexivity. Qed.
Example ex_line_difference_is_the_polygon_with_two_new_vertices :
  overlay_result OpDiff exA exL =
  Some (GPoly (MkPoly XY [MkLine XY [pv 0 0; pv 4 0; pv 4 2; pv 4 4; pv 0 4; pv 0 2; pv 0 0]])).
Proof. vm_compute. reflexivity. Qed.
Example ex_line_judged :
  forallb (fun o => match overlay_result o exA exL with Some r => verdict_ok (judge o exA exL r) | None => false end)
          [OpUnion; OpInter; OpDiff; OpSym] = true.
Proof. vm_compute. reflexivity. Qed.

Example ex_hole_dcel :
  summary exH exI = Some (3%nat, 10%nat, [(true, false); (false, false); (false, false); (false, true)], true, []).
Proof. vm_compute. reflexivity. Qed.
Example ex_hole_results :
  overlay_result OpInter exH exI = Some (GColl XY []) /\
  option_map (fun g => map (fun y => length (poly_rings y)) (g_polys g)) (overlay_result OpUnion exH exI) = Some [2%nat; 1%nat] /\
  forallb (fun o => match overlay_result o exH exI with Some r => verdict_ok (judge o exH exI r) | None => false end)
          [OpUnion; OpInter; OpDiff; OpSym] = true.
Proof. vm_compute. repeat split; reflexivity. Qed.
(* the clockwise exterior ring was reversed before its edges were labelled: srcFace is on the inner side *)
Example ex_hole_force_ccw :
  force_ccw (map line_pts (poly_rings (MkPoly XY [MkLine XY [pv 0 0; pv 0 10; pv 10 10; pv 10 0; pv 0 0]; psq 2 2 8 8])))
  = [map vpt [pv 0 0; pv 10 0; pv 10 10; pv 0 10; pv 0 0]; map vpt [pv 2 2; pv 2 8; pv 8 8; pv 8 2; pv 2 2]].
Proof. vm_compute. reflexivity. Qed.

(* T4: the chains of the crossing squares meet only at vertices; two of them share the vertex (4,2) *)
Example ex_T4_chains :
  pipeline_chains exA exB =
  Some [[(0, 0); (2, 2)];
        [(0, 0); (4, 0); (4, 2)]; [(4, 2); (4, 4); (2, 4)]; [(2, 4); (0, 4); (0, 0)];
        [(2, 2); (4, 2)]; [(4, 2); (6, 2); (6, 6); (2, 6); (2, 4)]; [(2, 4); (2, 2)]]%Q.
Proof. vm_compute. reflexivity. Qed.
(* an input for which chains_wf is NOT true of an arbitrary chain list (the hypothesis is not trivially true):
   two different chains with the same first two points *)
Example ex_chains_wf_can_fail :
  chains_wf [(0, 0); (1, 0); (2, 0)]%Q [[(0, 0); (1, 0)]; [(0, 0); (1, 0); (2, 0)]]%Q = false.
Proof. vm_compute. reflexivity. Qed.

(* (c): UnaryUnion of the crossing-squares collection: the engine is called with Geometry{} as second operand *)
Definition exAB : geom := GColl XY [exA; exB].
Example ex_unary_union :
  g_elems empty_geom = [] /\ g_shapes empty_geom = [] /\ g_points empty_geom = [] /\
  overlay_result OpUnion exAB empty_geom = overlay_result OpUnion exA exB /\
  overlay_result OpInter exAB empty_geom = Some (GColl XY []) /\
  overlay_result OpSym exAB empty_geom = overlay_result OpUnion exAB empty_geom.
Proof. vm_compute. repeat split; reflexivity. Qed.
(* commutativity on the examples (evaluated, not a theorem): the results are equal values *)
Example ex_commutes :
  forallb (fun ab => forallb (fun o =>
     match overlay_result o (fst ab) (snd ab), overlay_result o (snd ab) (fst ab) with
     | Some r1, Some r2 => same_set r1 r2 | _, _ => false end) [OpUnion; OpInter; OpSym])
     [(exA, exB); (exA, exL); (exH, exI)] = true.
Proof. vm_compute. reflexivity. Qed.
(* (d): the witnesses of the five faces of the crossing squares, and the label of each face is the membership of
   its witness in the two operands *)
Example ex_face_witnesses :
  option_map (fun ov => map (face_witness ov) (seq 0 (nF (ov_cx ov)))) (overlay_dcel_full exA exB)
  = Some [Some (1 # 2, 3 # 2); Some (3 # 2, 1 # 2); Some (5, 1); Some (3, 3); Some (3, 5)]%Q
  /\ option_map (fun ov => forallb (face_label_ok exA exB ov) (seq 0 (nF (ov_cx ov)))) (overlay_dcel_full exA exB) = Some true.
Proof. vm_compute. split; reflexivity. Qed.
(* the non-degeneracy hypothesis of face_witness_partial holds on the example *)
Example ex_pieces_nondegenerate :
  option_map (fun ov => forallb (fun u => negb (pt_eqb (fst u) (snd u))) (all_pieces ov)) (overlay_dcel_full exA exB) = Some true.
Proof. vm_compute. reflexivity. Qed.
(* extract_label_symmetric_partial is not vacuous: the swapped complex is a different complex, and Difference
   (excluded by the hypothesis) does change *)
Example ex_label_swap :
  option_map (fun ov => (map f_in (c_faces (ov_cx (swap_ov ov))),
                         match extract_geometry OpDiff (swap_ov ov), extract_geometry OpDiff ov with
                         | Some g, Some h => same_set g h | _, _ => true end)) (overlay_dcel_full exA exB)
  = Some ([(false, true); (false, true); (false, false); (true, true); (true, false)], false).
Proof. vm_compute. reflexivity. Qed.
