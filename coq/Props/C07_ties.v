(* C07 / C08 - the translator tie as statements (nothing else in this file): geom/twkb_parser.go:checkCount (the
   guard every element count of untrusted TWKB goes through) and geom/wkb_parser.go:readByte, re-read from the Go
   source on every run into Gen/FuncsInt.v, ARE the model functions (Model/TWKB.v:check_count, Model/WKB.v:rd_byte)
   the rejection, no-panic and linear-allocation theorems are about.  Proofs are in
   Proofs/Funcs_tie_Int_TWKBGuard.v (both ties) over Proofs/Funcs_tie_Int_Varint.v. *)
From Coq Require Import ZArith NArith List.
From SF Require Import Base.FOps Base.FInt Gen.FuncsInt Base.Varint Model.TWKB
  Proofs.Funcs_tie_Int_Varint Proofs.Funcs_tie_Int_TWKBGuard.
From SF Require Model.WKB.
Open Scope Z_scope.

Theorem go_checkCount_is_model : forall (F : Type) (p : geom_twkbParser F) (bs : list N) (s : pst) (cnt : N) (mb : nat),
  geom_twkbParser_twkb p = zbytes bs ->
  0 <= geom_twkbParser_pos p <= Z.of_nat (length bs) -> Z.of_nat (length bs) < two63 ->
  s_in s = skipn (Z.to_nat (geom_twkbParser_pos p)) bs ->
  (0 < mb)%nat -> Z.of_nat mb < two63 -> in_u64 (Z.of_N cnt) ->
  geom_twkbParser_checkCount p (Z.of_N cnt) (Z.of_nat mb) = accepted (check_count cnt mb s).
Proof. exact (@tie_checkCount). Qed.
Print Assumptions go_checkCount_is_model.

Theorem go_wkb_readByte_is_model : forall (F : Type) (bs : list N) (bo : Z) (no : bool) (alloc : N),
  geom_wkbParser_readByte (Mk_geom_wkbParser (F:=F) (zbytes bs) bo no)
  = match WKB.rd_byte (bs, alloc) with
    | WKB.POk b (r, _) => Known (Z.of_N b, true, Mk_geom_wkbParser (zbytes r) bo no)
    | _ => Known (0, false, Mk_geom_wkbParser (zbytes bs) bo no)
    end.
Proof. exact (@tie_wkb_readByte). Qed.
Print Assumptions go_wkb_readByte_is_model.
