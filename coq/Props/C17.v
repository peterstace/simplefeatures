(* Property C17 - Densify, Simplify, Interpolate, SnapToGrid, Reverse, ForceCW/CCW keep contracts.
   Statements only; proofs are in Proofs/TrReverse_proofs.v, TrSnap_proofs.v, TrForce_proofs.v,
   TrSimplify_proofs.v, TrDensify_proofs.v, TrInterp_proofs.v (one per model), TrDensifyGeom_proofs.v
   (Densify on whole geometries), TrSnapFloat_proofs.v (the binary64 transcription of
   snapToGridFloat64, Model/TrSnapFloat.v, evaluated with the kernel's primitive floats) and
   Transforms_proofs.v (Simplify around the sequence algorithm, degenerate inputs); the models
   (transcriptions of the Go code over exact rationals) are in Model/Tr*.v.
   Carriers: Reverse - any ordinate type F; all other operations - Q (exact); the float
   implementation is tied to these models by the correspondence run (tolerances stated there). *)
From Coq Require Import ZArith NArith QArith Qabs List Bool Permutation.
From SF Require Import Base.Outcome Base.GeomAST Model.TrCommon Model.TrReverse Model.TrSnap Model.TrForce
  Model.TrSimplify Model.TrDensify Model.TrInterp
  Proofs.TrReverse_proofs Proofs.TrSnap_proofs Proofs.TrForce_proofs Proofs.TrSimplify_proofs
  Proofs.TrDensify_proofs Proofs.TrInterp_proofs Proofs.Transforms_proofs
  Model.TrSnapFloat Proofs.TrSnapFloat_proofs Model.TrJudge Proofs.TrDensifyGeom_proofs.
Import ListNotations.

(* ===================== Reverse (every geometry type, every ordinate carrier F) ===================== *)
Theorem reverse_involutive : forall (F : Type) (g : geomT F), rev_geom (rev_geom g) = g.
Proof. exact rev_geom_invol. Qed.
Print Assumptions reverse_involutive.

(* the reversed geometry has exactly the segments of the original, each one flipped: the same
   multiset of undirected segments, hence the same point set *)
Theorem reverse_same_segments : forall (F : Type) (g : geomT F),
  Permutation (geom_segs (rev_geom g)) (map swap_seg (geom_segs g)).
Proof. exact geom_segs_rev_perm. Qed.
Print Assumptions reverse_same_segments.

(* for one vertex list even: the flipped segments in reverse order *)
Theorem reverse_line_segments : forall (F : Type) (vs : list (vtx F)),
  line_segs (rev vs) = rev (map swap_seg (line_segs vs)).
Proof. exact line_segs_rev. Qed.
Print Assumptions reverse_line_segments.

(* every vertex keeps its whole payload (X, Y, Z, M travel together); type, coordinates type and
   emptiness are untouched *)
Theorem reverse_keeps_vertices : forall (F : Type) (g : geomT F),
  Permutation (geom_vs (rev_geom g)) (geom_vs g)
  /\ geom_ct (rev_geom g) = geom_ct g /\ geom_type (rev_geom g) = geom_type g
  /\ is_empty (rev_geom g) = is_empty g.
Proof. exact (fun F g => conj (geom_vs_rev_perm F g) (conj (geom_ct_rev F g) (conj (geom_type_rev F g) (is_empty_rev F g)))). Qed.
Print Assumptions reverse_keeps_vertices.

(* ===================== ForceCW / ForceCCW ===================== *)
(* IsCW(ForceCW(g)) holds exactly when no exterior ring has zero signed area (true of every valid
   polygon); interior rings always end up acceptable (a zero-area hole counts as "not CW"). *)
Theorem force_cw_is_cw : forall g : geomT Q, geom_is_cw (geom_force_cw g) = geom_ext_nonzero g.
Proof. exact (geom_force_is true). Qed.
Print Assumptions force_cw_is_cw.
Theorem force_ccw_is_ccw : forall g : geomT Q, geom_is_ccw (geom_force_ccw g) = geom_ext_nonzero g.
Proof. exact (geom_force_is false). Qed.
Print Assumptions force_ccw_is_ccw.

Theorem force_idempotent : forall g : geomT Q, geom_ext_nonzero g = true ->
  geom_force_cw (geom_force_cw g) = geom_force_cw g /\ geom_force_ccw (geom_force_ccw g) = geom_force_ccw g.
Proof. exact (fun g H => conj (geom_force_idem true g H) (geom_force_idem false g H)). Qed.
Print Assumptions force_idempotent.

(* the point-set description never changes: same vertices, same segments up to direction, same
   type and coordinates type - for every input, zero-area rings included *)
Theorem force_same_pointset : forall g : geomT Q,
  undirected_perm (geom_segs (geom_force_cw g)) (geom_segs g)
  /\ undirected_perm (geom_segs (geom_force_ccw g)) (geom_segs g)
  /\ Permutation (geom_vs (geom_force_cw g)) (geom_vs g)
  /\ Permutation (geom_vs (geom_force_ccw g)) (geom_vs g)
  /\ geom_ct (geom_force_cw g) = geom_ct g /\ geom_type (geom_force_cw g) = geom_type g
  /\ geom_ct (geom_force_ccw g) = geom_ct g /\ geom_type (geom_force_ccw g) = geom_type g.
Proof.
  exact (fun g => conj (geom_force_segs true g) (conj (geom_force_segs false g) (conj (geom_force_vs true g)
           (conj (geom_force_vs false g) (conj (proj1 (geom_force_shape true g))
              (conj (proj2 (geom_force_shape true g)) (geom_force_shape false g))))))).
Qed.
Print Assumptions force_same_pointset.

(* what the code does with a zero-area exterior ring (outside the contract): the ring is reversed
   on every call and IsCW stays false *)
Theorem force_zero_area_exterior : forall (ct : ctype) (r : lineT Q) (holes : list (lineT Q)),
  signed_area r == 0 ->
  exists holes', poly_force_cw (MkPoly ct (r :: holes)) = MkPoly ct (rev_line r :: holes')
                 /\ poly_is_cw (poly_force_cw (MkPoly ct (r :: holes))) = false.
Proof. exact poly_force_cw_zero_area. Qed.
Print Assumptions force_zero_area_exterior.

Theorem area_reverse_neg : forall l : lineT Q, signed_area (rev_line l) == - signed_area l.
Proof. exact signed_area_rev. Qed.
Print Assumptions area_reverse_neg.

(* ===================== Densify ===================== *)
(* for every subdivision-count function kf (the float code's ceil(|ab|/d) included) *)
Theorem densify_keeps_originals : forall (kf : qv -> qv -> Z) (vs : list qv),
  Subseq vs (densify_seq kf vs).
Proof. exact densify_keeps_originals_lemma. Qed.
Print Assumptions densify_keeps_originals.

(* DensRel: between consecutive originals a, b there are exactly kf a b - 1 new points, the j-th
   (0 < j < kf a b) being a + (j / kf a b)(b - a) in X, Y, Z and M; nothing else is added *)
Theorem densify_on_segment : forall (kf : qv -> qv -> Z) (vs : list qv),
  DensRel kf vs (densify_seq kf vs).
Proof. exact densify_rel. Qed.
Print Assumptions densify_on_segment.

(* no gap longer than d, provided the count satisfies kf a b * d >= |ab| (on squares) ... *)
Theorem densify_gap : forall (kf : qv -> qv -> Z) (d : Q),
  (forall a b, (0 <= kf a b)%Z /\ d2 a b <= inject_Z (kf a b) * inject_Z (kf a b) * (d * d)) ->
  forall vs, Forall (fun s => d2 (fst s) (snd s) <= d * d) (line_segs (densify_seq kf vs)).
Proof. exact densify_gap_lemma. Qed.
Print Assumptions densify_gap.

(* ... which the exact value of ceil(|ab| / d) does, and it is the least such count *)
Theorem densify_count_exact : forall (d : Q) (a b : qv), 0 < d ->
  (0 <= k_exact d a b)%Z /\ d2 a b <= inject_Z (k_exact d a b) * inject_Z (k_exact d a b) * (d * d).
Proof. exact k_exact_ok. Qed.
Print Assumptions densify_count_exact.
Theorem densify_count_minimal : forall (d : Q) (a b : qv), 0 < d -> (1 <= k_exact d a b)%Z ->
  inject_Z (k_exact d a b - 1) * inject_Z (k_exact d a b - 1) * (d * d) < d2 a b.
Proof. exact k_exact_minimal. Qed.
Print Assumptions densify_count_minimal.

(* empty and single-point sequences are returned as they are; a zero-length segment is not subdivided *)
Theorem densify_degenerate : forall (kf : qv -> qv -> Z) (d : Q) (a b : qv),
  densify_seq kf [] = [] /\ densify_seq kf [a] = [a]
  /\ (d2 a b == 0 -> k_exact d a b = 0%Z /\ densify_seq (k_exact d) [a; b] = [a; b]).
Proof. exact densify_degenerate_lemma. Qed.
Print Assumptions densify_degenerate.

(* a LineString: d > 0 gives the densified sequence with the coordinates type kept; d <= 0 panics *)
Theorem densify_line : forall (kf : qv -> qv -> Z) (d : Q) (l : lineT Q),
  (0 < d -> exists l', dens_line kf d l = Ok l' /\ line_ct l' = line_ct l
                       /\ line_vs l' = densify_seq kf (line_vs l))
  /\ (d <= 0 -> dens_line kf d l = Panic POther).
Proof. exact (fun kf d l => conj (dens_line_spec kf d l) (dens_line_panic kf d l)). Qed.
Print Assumptions densify_line.

(* whole geometries (every type, nested collections): for d > 0 Densify does not panic, keeps type
   and coordinates type, and every line / ring of the result is the densified line / ring of the
   input, in storage order (geom_lines lists them) *)
Theorem densify_geometry : forall (kf : qv -> qv -> Z) (d : Q), 0 < d -> forall g : geomT Q,
  exists g', dens_geom kf d g = Ok g' /\ geom_type g' = geom_type g /\ geom_ct g' = geom_ct g
             /\ Forall2 (line_dens kf) (geom_lines g) (geom_lines g').
Proof. exact dens_geom_rel. Qed.
Print Assumptions densify_geometry.

(* the float code's lerp, branch by branch, is a + t(b-a) in exact arithmetic *)
Theorem lerp_exact : forall a b t : Q, lerpQ a b t == a + t * (b - a).
Proof. exact lerpQ_exact. Qed.
Print Assumptions lerp_exact.

(* ===================== Simplify: Ramer-Douglas-Peucker as written ===================== *)
(* RdpRel t input output: first and last vertex kept, output a subsequence, and every dropped vertex
   within t of the line through the two retained vertices that bracket it (of the point, when they
   coincide) - for every threshold t >= 0 and every non-empty vertex list *)
Theorem rdp_contract : forall t : Q, 0 <= t -> forall vs : list qv, vs <> [] -> RdpRel t vs (rdp t vs).
Proof. exact rdp_rel. Qed.
Print Assumptions rdp_contract.

Theorem rdp_subsequence : forall (t : Q) (vs : list qv), 0 <= t -> Subseq (rdp t vs) vs.
Proof. exact (fun t vs H => rdp_subseq t H vs). Qed.
Print Assumptions rdp_subsequence.

Theorem rdp_endpoints : forall (t : Q) (vs : list qv) (d : qv), 0 <= t -> vs <> [] ->
  hd_error (rdp t vs) = hd_error vs /\ last (rdp t vs) d = last vs d.
Proof. exact (fun t vs d H => rdp_endpoints t H vs d). Qed.
Print Assumptions rdp_endpoints.

Theorem rdp_dropped_within_t : forall (t : Q) (vs : list qv) (p : qv), 0 <= t -> In p vs ->
  In p (rdp t vs) \/ exists a b, In (a, b) (line_segs (rdp t vs)) /\ pd2 a b p <= t * t.
Proof. exact (fun t vs p H => rdp_dropped t H vs p). Qed.
Print Assumptions rdp_dropped_within_t.

Theorem rdp_short_input : forall (t : Q) (vs : list qv), (length vs <= 2)%nat -> rdp t vs = vs.
Proof. exact rdp_short. Qed.
Print Assumptions rdp_short_input.

(* the total function rdp is the pinned code (rdp_unfixed) for every non-negative threshold ... *)
Theorem rdp_is_todays_code : forall t : Q, 0 <= t -> forall vs : list qv, rdp_unfixed t vs = Some (rdp t vs).
Proof. exact rdp_unfixed_agrees. Qed.
Print Assumptions rdp_is_todays_code.
(* ... and the pinned code does not terminate for a negative threshold (finding F130; outside the
   property's quantifier, which takes t from 0): None stands for "the loop never ends" *)
Theorem rdp_negative_threshold_refuted : exists (t : Q) (vs : list qv), rdp_unfixed t vs = None.
Proof. exact rdp_negative_threshold_refuted_lemma. Qed.
Print Assumptions rdp_negative_threshold_refuted.

(* the executable relation evaluated on the implementation's outputs accepts everything the contract allows *)
Theorem rdp_checker_complete : forall (t : Q) (i o : list qv), RdpRel t i o -> rdp_rel_b t i o = true.
Proof. exact rdp_rel_b_complete. Qed.
Print Assumptions rdp_checker_complete.
(* ... and nothing else: what it accepts is related by RdpRelV (RdpRel with "the same vertex" read as
   "equal ordinates", distances taken to the retained vertices) *)
Theorem rdp_checker_sound : forall (t : Q) (i o : list qv), rdp_rel_b t i o = true -> RdpRelV t i o.
Proof. exact rdp_rel_b_sound. Qed.
Print Assumptions rdp_checker_sound.

(* LineString.Simplify: the RDP result or, when that has fewer than two distinct points, the empty
   LineString; coordinates type kept; the result always passes LineString validation *)
Theorem simplify_line_contract : forall (t : Q) (l : lineT Q),
  line_ct (simplify_line t l) = line_ct l
  /\ (line_vs (simplify_line t l) = rdp t (line_vs l) \/ line_vs (simplify_line t l) = [])
  /\ line_valid_vs (line_vs (simplify_line t l)) = true.
Proof. exact simplify_line_lemma. Qed.
Print Assumptions simplify_line_contract.

(* Polygon.Simplify, for every validity predicate standing for the code's Validate call:
   exterior ring with fewer than 4 points left => the empty polygon of the same coordinates type *)
Theorem simplify_polygon_collapse : forall (t : Q) (poly_valid : polyT Q -> bool) (validate : bool)
  (ct : ctype) (rs : list (lineT Q)),
  collapsed (match rs with [] => MkLine ct [] | r :: _ => simplify_line t r end) = true ->
  simplify_poly t poly_valid validate (MkPoly ct rs) = Ok (MkPoly ct []).
Proof. exact simplify_poly_collapse. Qed.
Print Assumptions simplify_polygon_collapse.

(* collapsed interior rings are omitted: every ring of a result has at least 4 points; the
   coordinates type is kept *)
Theorem simplify_polygon_rings : forall (t : Q) (poly_valid : polyT Q -> bool) (validate : bool)
  (p p' : polyT Q),
  simplify_poly t poly_valid validate p = Ok p' ->
  Forall (fun r => (4 <= length (line_vs r))%nat) (poly_rings p').
Proof. exact simplify_poly_rings. Qed.
Print Assumptions simplify_polygon_rings.
Theorem simplify_polygon_ctype : forall (t : Q) (poly_valid : polyT Q -> bool) (validate : bool)
  (ct : ctype) (rs : list (lineT Q)) (p' : polyT Q),
  Forall (fun r => line_ct r = ct) rs ->
  simplify_poly t poly_valid validate (MkPoly ct rs) = Ok p' -> poly_ct p' = ct.
Proof. exact simplify_poly_ct. Qed.
Print Assumptions simplify_polygon_ctype.

(* the gate: with validation on, a returned polygon is empty or passed Validate - otherwise an
   error was returned; same for MultiPolygon; and Simplify never panics *)
Theorem simplify_valid_or_error : forall (t : Q) (poly_valid : polyT Q -> bool) (validate : bool)
  (p p' : polyT Q),
  simplify_poly t poly_valid validate p = Ok p' -> validate = true ->
  poly_rings p' = [] \/ poly_valid p' = true.
Proof. exact simplify_poly_gate. Qed.
Print Assumptions simplify_valid_or_error.
Theorem simplify_multipolygon_valid_or_error : forall (t : Q) (poly_valid : polyT Q -> bool)
  (mpoly_valid : list (polyT Q) -> bool) (validate : bool) (ct : ctype) (ps : list (polyT Q)) (g : geomT Q),
  simplify_mpoly t poly_valid mpoly_valid validate ct ps = Ok g -> validate = true ->
  exists c qs, g = force_geom 0 ct (GMPoly c qs) /\ mpoly_valid qs = true.
Proof. exact simplify_mpoly_gate. Qed.
Print Assumptions simplify_multipolygon_valid_or_error.
Theorem simplify_never_panics : forall (t : Q) (poly_valid : polyT Q -> bool)
  (mpoly_valid : list (polyT Q) -> bool) (validate : bool) (g : geomT Q),
  is_panic (simplify_geom t poly_valid mpoly_valid validate g) = false.
Proof. exact simplify_geom_no_panic. Qed.
Print Assumptions simplify_never_panics.

(* ===================== InterpolatePoint / InterpolateEvenlySpacedPoints ===================== *)
(* for every non-negative square-root function sq (lengths are sq of the squared lengths) and every
   line with at least two points - repeated points anywhere, zero total length included - the
   repaired code (fixes/F9.patch) returns a point p that lies on a segment a->b of the line at a
   parameter s in [0,1] (X, Y, Z, M all at s) such that the length of the line up to p is
   clamp(f) * total *)
Theorem interp_on_line_at_fraction : forall (sq : Q -> Q), (forall x, 0 <= sq x) ->
  forall (vs : list qv) (f : Q), (2 <= length vs)%nat ->
  exists p pre a b post s,
    interpolate sq true vs f = IPoint p
    /\ vs = pre ++ a :: b :: post
    /\ 0 <= s <= 1 /\ param_pt a b s p
    /\ path_len sq (pre ++ [a]) + s * dist sq a b == clamp01 f * path_len sq vs.
Proof. exact interpolate_spec. Qed.
Print Assumptions interp_on_line_at_fraction.

Theorem interp_clamp : forall f : Q,
  0 <= clamp01 f <= 1 /\ (f <= 0 -> clamp01 f == 0) /\ (1 <= f -> clamp01 f == 1)
  /\ (0 <= f <= 1 -> clamp01 f == f).
Proof. exact clamp_lemma. Qed.
Print Assumptions interp_clamp.

(* n <= 0: no point; empty line: n empty points; n = 1: the midpoint; n >= 2: the points at i/(n-1) *)
Theorem evenly_spaced_contract : forall (sq : Q -> Q) (vs : list qv) (n : Z),
  (n <= 0)%Z /\ evenly_spaced sq true vs n = []
  \/ (0 < n)%Z /\ vs = [] /\ evenly_spaced sq true vs n = repeat None (Z.to_nat n)
  \/ n = 1%Z /\ vs <> [] /\ evenly_spaced sq true vs n = [Some (interpolate sq true vs (1 # 2))]
  \/ (2 <= n)%Z /\ vs <> [] /\ length (evenly_spaced sq true vs n) = Z.to_nat n
     /\ forall i r, nth_error (evenly_spaced sq true vs n) i = Some r ->
          r = Some (interpolate sq true vs (inject_Z (Z.of_nat i) / inject_Z (n - 1))).
Proof. exact evenly_spaced_spec. Qed.
Print Assumptions evenly_spaced_contract.

(* the executable square root is non-negative and exact on squares of rationals: on lines whose
   segment lengths are rational, [dist qsqrt] is the Euclidean length *)
Theorem qsqrt_exact_on_squares : forall r : Q, 0 <= qsqrt r /\ (0 <= r -> qsqrt (r * r) == r).
Proof. exact (fun r => conj (qsqrt_nonneg r) (qsqrt_square r)). Qed.
Print Assumptions qsqrt_exact_on_squares.

(* F9: the pinned code (fixed = false) yields an undefined point - NaN ordinates - on a valid line *)
Theorem interp_finite_refuted :
  exists (vs : list qv) (f : Q), line_valid_vs vs = true /\ (2 <= length vs)%nat
                                 /\ interpolate qsqrt false vs f = IUndef.
Proof. exact interp_finite_refuted_lemma. Qed.
Print Assumptions interp_finite_refuted.

(* ===================== SnapToGrid, exact model: the contracts for all x and all places ===================== *)
Theorem snap_on_grid : forall (x : Q) (dp : Z), exists k : Z, snapQ x dp == inject_Z k * grid_step dp.
Proof. exact snapQ_on_grid. Qed.
Print Assumptions snap_on_grid.
Theorem snap_half_step : forall (x : Q) (dp : Z), Qabs (snapQ x dp - x) <= (1 # 2) * grid_step dp.
Proof. exact snapQ_half_step. Qed.
Print Assumptions snap_half_step.
Theorem snap_odd : forall (x : Q) (dp : Z), snapQ (- x) dp == - snapQ x dp.
Proof. exact snapQ_odd. Qed.
Print Assumptions snap_odd.
Theorem snap_idempotent : forall (x : Q) (dp : Z), snapQ (snapQ x dp) dp == snapQ x dp.
Proof. exact snapQ_idempotent. Qed.
Print Assumptions snap_idempotent.
Theorem snap_nearest : forall (x : Q) (dp : Z) (j : Z),
  Qabs (snapQ x dp - x) <= Qabs (inject_Z j * grid_step dp - x).
Proof. exact snapQ_nearest. Qed.
Print Assumptions snap_nearest.
Theorem snap_grid_points_fixed : forall (k : Z) (dp : Z),
  snapQ (inject_Z k * grid_step dp) dp == inject_Z k * grid_step dp.
Proof. exact snapQ_grid_fixed. Qed.
Print Assumptions snap_grid_points_fixed.


(* ===================== SnapToGrid on binary64 itself (primitive floats, by evaluation) ===================== *)
(* The transcription snap_f of snapToGridFloat64 over IEEE-754 binary64 (Model/TrSnapFloat.v) is
   compared bit for bit with the implementation on every run (float path of the correspondence).
   F10: before fixes/F10.patch a finite ordinate becomes infinite or NaN. These statements depend on
   the kernel's primitive float operations (listed by Print Assumptions; not axioms of this
   development). *)
Theorem snap_float_finite_refuted :
  exists (x : PrimFloat.float) (dp : Z), f_is_finite x = true /\ f_is_finite (snap_f false x dp) = false.
Proof. exact snap_float_finite_refuted_lemma. Qed.
Print Assumptions snap_float_finite_refuted.

(* the repaired code on the boundary values of the quantifier (+-1e300, +-0, smallest subnormal and
   normal, +-2.5) x places {-320,-309,-308,-1,0,1,10,22,23,307,308,309,320}: finite, and odd as numbers *)
Theorem snap_float_fixed_boundary :
  forallb (fun x => forallb (fun dp => f_is_finite (snap_f true x dp)) f10_places) f10_inputs = true
  /\ forallb (fun x => forallb (fun dp => PrimFloat.eqb (snap_f true (PrimFloat.opp x) dp)
                                                        (PrimFloat.opp (snap_f true x dp))) f10_places)
             f10_inputs = true.
Proof. exact (conj snap_float_fixed_finite_on_boundary snap_float_fixed_odd_on_boundary). Qed.
Print Assumptions snap_float_fixed_boundary.

(* ===================== non-vacuity: the hypotheses are met by non-trivial values ===================== *)
Definition v (x y : Z) : qv := Build_vtx (inject_Z x) (inject_Z y) 0 0.
Definition vz4 (x y z m : Z) : qv := Build_vtx (inject_Z x) (inject_Z y) (inject_Z z) (inject_Z m).
(* a clockwise square with a clockwise hole inside a collection next to a line: ForceCCW changes it *)
Definition ex_poly : geomT Q :=
  GColl XY [GPoly (MkPoly XY [MkLine XY [v 0 0; v 0 9; v 9 9; v 9 0; v 0 0];
                             MkLine XY [v 2 2; v 2 4; v 4 4; v 4 2; v 2 2]]);
            GLine (MkLine XY [v 0 0; v 1 1])].
Example ex_force_hyp : geom_ext_nonzero ex_poly = true /\ geom_is_ccw ex_poly = false
                       /\ geom_is_ccw (geom_force_ccw ex_poly) = true.
Proof. vm_compute. auto. Qed.
(* RDP with repeated vertices, threshold 1 (one vertex at distance exactly 1 is dropped) *)
Example ex_rdp :
  rdp 1 [v 0 0; v 0 0; v 1 1; v 2 0; v 3 3; v 4 0; v 4 0] = [v 0 0; v 2 0; v 3 3; v 4 0].
Proof. vm_compute. reflexivity. Qed.
(* Densify: a 3-4-5 segment at d = 2 gets ceil(5/2) = 3 subdivisions, Z and M interpolated;
   the repeated point after it none *)
Example ex_densify :
  map (fun p => (Qred (vx p), Qred (vy p), Qred (vz p), Qred (vm p)))
      (densify_seq (k_exact 2) [vz4 0 0 0 9; vz4 3 4 6 0; vz4 3 4 7 0])
  = [(0, 0, 0, 9); (1, 4 # 3, 2, 6); (2, 8 # 3, 4, 3); (3, 4, 6, 0); (3, 4, 7, 0)].
Proof. vm_compute. reflexivity. Qed.
(* Interpolate on a line with rational lengths (5 + 0 + 5), leading repeated point, f = 3/4 *)
Example ex_interp :
  match interpolate qsqrt true [v 0 0; v 0 0; v 3 4; v 3 4; v 6 8] (3 # 4) with
  | IPoint p => Qeq_bool (vx p) (9 # 2) && Qeq_bool (vy p) 6
  | _ => false
  end = true
  /\ interpolate qsqrt true [v 0 0; v 0 0; v 3 4] 0 = IPoint (v 0 0).
Proof. vm_compute. auto. Qed.
Example ex_snap : snapQ (-(5 # 2)) 0 == -(3) /\ snapQ (1 # 8) 2 == 13 # 100 /\ snapQ 25 (-1) == 30.
Proof. vm_compute. auto. Qed.
