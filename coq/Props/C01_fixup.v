(* Property C01, statements about geom/dcel_fixup.go in the model (Model/OverlayFixup.v); proofs are in
   Proofs/OverlayFixup_proofs.v.  The model is a line-by-line transcription over exact rationals of
   radialLess / fixVertex / fixVertices / assignFaces (cycle search, face records, flood fill) /
   populateInSetLabels, run on a PRE-COMPLEX: vertices with coordinates, half edges with origin, twin,
   second point (outgoing direction), srcEdge / srcFace labels - no next / prev / face yet.

   (a) radialLess is a strict total order on non-zero vectors (irreflexive for all vectors; transitive and
       asymmetric on non-zero vectors; any two different non-zero vectors are comparable - vectors of the
       same direction are ordered by length), and it is the order "sector, then counter-clockwise, then
       length" (radialLess_char).  Hence the sorted list of the half edges around a vertex is unique:
       whatever algorithm sort.Slice uses (sort_deterministic).
   (b) after fixVertices on a well-formed pre-complex: next and prev map half edges to half edges and are
       inverse to each other; origin (next e) = origin (twin e); next e is the outgoing half edge that is
       radially adjacent to twin e on its CLOCKWISE side - no outgoing half edge of that vertex lies strictly
       inside the counter-clockwise sweep from next e to twin e (fix_next_radially_adjacent).  A face
       cycle e, next e, ... therefore turns at every vertex to the first edge clockwise from the edge it came
       along: the face is kept on the LEFT of its half edges.
   (c) assignFaces: the cycle search terminates (fuel sufficient); every half edge gets exactly one face,
       which is a face of the list and on whose cycle it lies; two half edges have the same face iff one is
       reached from the other by iterating next; every face has a half edge (its cycle field) - faces are in
       bijection with the next-cycles.
   (d) the flood fill of one operand: a half edge with srcFace puts its face into the operand; a labelled
       face passes its label across every half edge of its cycle that has no srcFace flag of the operand;
       across an edge neither of whose half edges has the flag the two faces agree; and the labelled faces
       are the LEAST such set (reach).  What this does NOT determine is the label of the face on the other
       side of a half edge that has the flag: it is labelled only when reached some other way (this is the
       place of the known finding F20).
   populate_labels_spec: edge and vertex labels, independent of the iteration order.
   fixup_establishes_dcel_ok_partial: every conjunct of dcel_ok (Model/OverlayComplex.v) except Euler's formula
   for the complex assembled by the model; NOT proved: euler_ok (it needs connectedness / planarity of the
   input, which is a property of re-noding and the ghost edges). *)
From Coq Require Import QArith List Bool Arith Permutation Sorted.
From SF Require Import Base.QKernel Model.SetOpSpec Model.OverlayComplex Model.OverlayRings
  Model.OverlayFixup Proofs.OverlayFixup_proofs.
Import ListNotations.

(* ================================================================ (a) radialLess ================ *)
Theorem radialLess_irrefl : forall a, radialLess a a = false.
Proof. exact radialLess_irrefl_lemma. Qed.
Print Assumptions radialLess_irrefl.

Theorem radialLess_trans : forall a b c,
  pt_nonzero a = true -> pt_nonzero b = true -> pt_nonzero c = true ->
  radialLess a b = true -> radialLess b c = true -> radialLess a c = true.
Proof. exact radialLess_trans_lemma. Qed.
Print Assumptions radialLess_trans.

Theorem radialLess_asym : forall a b,
  pt_nonzero a = true -> pt_nonzero b = true -> radialLess a b = true -> radialLess b a = false.
Proof. exact radialLess_asym_lemma. Qed.
Print Assumptions radialLess_asym.

(* total: two non-zero vectors that are not the same vector are comparable *)
Theorem radialLess_total : forall a b,
  pt_nonzero a = true -> pt_nonzero b = true -> pt_eqb a b = false ->
  radialLess a b = true \/ radialLess b a = true.
Proof. exact radialLess_total_lemma. Qed.
Print Assumptions radialLess_total.

(* the order: sector 0 = downward ray, 1 = open right half plane, 2 = upward ray, 3 = open left half
   plane; inside a sector by positive cross product (counter-clockwise), then by length *)
Theorem radialLess_char : forall a b,
  pt_nonzero a = true -> pt_nonzero b = true -> radialLess a b = radial_spec a b.
Proof. exact radialLess_char_lemma. Qed.
Print Assumptions radialLess_char.

(* determinism of the sort: any list that is a permutation of v.incidents and increasing for radialLess
   is the list the model computes *)
Theorem sort_deterministic : forall pc, pre_dirs_ok pc = true -> forall v l,
  Permutation l (incidents pc v) -> StronglySorted (fun i j => edge_less pc i j = true) l ->
  l = isort (edge_less pc) (incidents pc v).
Proof. exact sort_deterministic_lemma. Qed.
Print Assumptions sort_deterministic.

(* the loop of fixVertex visits the pairs (incidents[i], incidents[(i+1) mod n]) *)
Theorem cyc_pairs_index : forall l i, (i < length l)%nat ->
  nth i (cyc_pairs l) (0, 0)%nat = (nth i l 0%nat, nth ((i + 1) mod length l) l 0%nat).
Proof. exact cyc_pairs_nth. Qed.
Print Assumptions cyc_pairs_index.

(* ================================================================ (b) fixVertices =============== *)
Theorem fix_next_prev_inverse : forall pc, pre_wf pc = true ->
  let s := fixVertices pc in
  forall e, (e < pnE pc)%nat ->
    (l_next s e < pnE pc)%nat /\ (l_prev s e < pnE pc)%nat /\
    l_next s (l_prev s e) = e /\ l_prev s (l_next s e) = e.
Proof. exact fix_next_prev_inverse_lemma. Qed.
Print Assumptions fix_next_prev_inverse.

Theorem fix_next_starts_at_end : forall pc, pre_wf pc = true ->
  forall e, (e < pnE pc)%nat -> p_origin pc (l_next (fixVertices pc) e) = p_origin pc (p_twin pc e).
Proof. exact fix_next_origin. Qed.
Print Assumptions fix_next_starts_at_end.

(* next e is the clockwise neighbour of twin e around the end vertex of e *)
Theorem fix_next_radially_adjacent : forall pc, pre_wf pc = true -> pre_dirs_ok pc = true ->
  forall e z, (e < pnE pc)%nat -> (z < pnE pc)%nat -> p_origin pc z = p_origin pc (p_twin pc e) ->
    z <> l_next (fixVertices pc) e -> z <> p_twin pc e ->
    ccw_between (edge_less pc) (l_next (fixVertices pc) e) z (p_twin pc e) = false.
Proof. exact fix_next_radial_lemma. Qed.
Print Assumptions fix_next_radially_adjacent.

(* ... and it is twin e itself exactly at a vertex of degree one *)
Theorem fix_next_is_twin_iff_degree_one : forall pc, pre_wf pc = true ->
  forall e, (e < pnE pc)%nat ->
    (l_next (fixVertices pc) e = p_twin pc e <->
     forall z, (z < pnE pc)%nat -> p_origin pc z = p_origin pc (p_twin pc e) -> z = p_twin pc e).
Proof. exact fix_next_twin_degree1. Qed.
Print Assumptions fix_next_is_twin_iff_degree_one.

(* ================================================================ (c) assignFaces =============== *)
Theorem assignFaces_terminates : forall pc, pre_wf pc = true ->
  exists fo, assignFaces pc (l_next (fixVertices pc)) = Some fo.
Proof. exact assignFaces_total. Qed.
Print Assumptions assignFaces_terminates.

Theorem faces_are_the_next_cycles : forall pc fo, pre_wf pc = true ->
  assignFaces pc (l_next (fixVertices pc)) = Some fo ->
  let nx := l_next (fixVertices pc) in
  (* every half edge has a face of the list, and lies on that face's cycle *)
  (forall e, (e < pnE pc)%nat ->
     (fo_incident fo e < length (fo_cycles fo))%nat /\
     exists ring, nth_error (fo_cycles fo) (fo_incident fo e) = Some ring /\ In e ring) /\
  (* same face iff same next-cycle *)
  (forall e e', (e < pnE pc)%nat -> (e' < pnE pc)%nat ->
     (fo_incident fo e = fo_incident fo e' <-> exists k, Nat.iter k nx e = e')) /\
  (* every face has a half edge: the first one of its cycle (the cycle field of the face record) *)
  (forall j, (j < length (fo_cycles fo))%nat ->
     exists ring, nth_error (fo_cycles fo) j = Some ring /\ (hd 0%nat ring < pnE pc)%nat /\
                  fo_incident fo (hd 0%nat ring) = j) /\
  (* the recorded cycles are duplicate-free and closed under next; next stays on the face *)
  (forall j ring, nth_error (fo_cycles fo) j = Some ring ->
     NoDup ring /\ forall z, In z ring -> (z < pnE pc)%nat /\ In (nx z) ring) /\
  (forall e, (e < pnE pc)%nat -> fo_incident fo (nx e) = fo_incident fo e).
Proof.
  exact (fun pc fo Hwf Hfo =>
    conj (fun e He => conj (incident_range pc fo Hfo e He) (incident_on_cycle pc fo Hfo e He))
   (conj (same_face_iff pc fo Hfo) (conj (face_has_edge pc fo Hfo)
   (conj (cycle_members pc Hwf fo Hfo) (next_same_face pc Hwf fo Hfo))))).
Qed.
Print Assumptions faces_are_the_next_cycles.

(* ================================================================ (d) the flood fill ============ *)
Theorem flood_fill_faces : forall pc fo op, pre_wf pc = true ->
  assignFaces pc (l_next (fixVertices pc)) = Some fo ->
  let inc := fo_incident fo in
  let lbl f := lab_get (fo_in fo f) op in
  (* a half edge that borders a face of the operand puts its face into the operand *)
  (forall e, (e < pnE pc)%nat -> lab_get (p_srcFace pc e) op = true -> lbl (inc e) = true) /\
  (* the label crosses every half edge without the flag *)
  (forall e, (e < pnE pc)%nat -> lab_get (p_srcFace pc e) op = false -> lbl (inc e) = true ->
             lbl (inc (p_twin pc e)) = true) /\
  (* and nothing else is labelled: least fixed point *)
  (forall f, lbl f = true <->
             reach (op_succs pc (fo_cycles fo) inc op) (op_seed pc (fo_cycles fo) op) f).
Proof. exact (fun pc fo op Hwf Hfo => flood_faces_lemma pc Hwf fo Hfo op). Qed.
Print Assumptions flood_fill_faces.

Theorem flood_fill_agrees_across_free_edges : forall pc fo op, pre_wf pc = true ->
  assignFaces pc (l_next (fixVertices pc)) = Some fo ->
  forall e, (e < pnE pc)%nat ->
    lab_get (p_srcFace pc e) op = false -> lab_get (p_srcFace pc (p_twin pc e)) op = false ->
    lab_get (fo_in fo (fo_incident fo e)) op = lab_get (fo_in fo (fo_incident fo (p_twin pc e))) op.
Proof. exact (fun pc fo op Hwf Hfo => flood_agree_lemma pc Hwf fo Hfo op). Qed.
Print Assumptions flood_fill_agrees_across_free_edges.

(* ================================================================ populateInSetLabels =========== *)
(* edge labels are srcEdge || own face || twin's face; a vertex is labelled iff it is a source vertex or a
   half edge leaving it is labelled.  The model iterates the half edges in id order and reads e.prev.inSet
   "as assigned so far", like the Go loop (whose order is a map's); the characterisation does not mention
   the order: with twin-symmetric srcEdge flags the label of e.prev is the label of its twin, which leaves
   the same vertex *)
Theorem populate_labels_spec : forall pc inc fin, pre_wf pc = true -> pre_src_sym pc = true ->
  let st := populateInSetLabels pc (l_prev (fixVertices pc)) inc fin in
  (forall e, (e < pnE pc)%nat -> fst st e = elab pc inc fin e) /\
  (forall v op, lab_get (snd st v) op = true <->
     lab_get (p_vsrc pc v) op = true \/
     exists e, (e < pnE pc)%nat /\ p_origin pc e = v /\ lab_get (elab pc inc fin e) op = true).
Proof. exact populate_spec_lemma. Qed.
Print Assumptions populate_labels_spec.

(* ================================================================ dcel_ok, partially ============ *)
(* FULL statement wanted: fixup pc = Some c /\ dcel_ok c = true.  Proved: every conjunct of dcel_ok
   (Model/OverlayComplex.v) except euler_ok - ids in range, twin, next/prev inverse and face-preserving, one
   closed cycle per face containing exactly the half edges of the face, all label bounds - so that dcel_ok c
   reduces to Euler's formula V - E + F = 2, which is a statement about the INPUT of the fix-up (the edge set
   is a connected plane graph: re-noding and ghost edges), not about dcel_fixup.go.  Hypotheses (executable,
   evaluated by the driver on every dumped structure): pre_wf, pre_src_sym, pre_srcface_le. *)
Theorem fixup_establishes_dcel_ok_partial : forall pc,
  pre_wf pc = true -> pre_src_sym pc = true -> pre_srcface_le pc = true ->
  exists c, fixup pc = Some c /\
            ranges_ok c = true /\ twin_ok c = true /\ next_prev_ok c = true /\ faces_ok c = true /\ labels_ok c = true /\
            dcel_ok c = euler_ok c.
Proof. exact fixup_establishes_lemma. Qed.
Print Assumptions fixup_establishes_dcel_ok_partial.

(* ================================================================ examples ====================== *)
(* Two overlapping squares: A = [0,2]^2 (counter-clockwise), B = [1,3]^2; they cross at (2,1) and (1,2).
   10 vertices (sorted by x, y), 12 edges = 24 half edges (half edge 2k runs along its ring and carries
   srcFace, 2k+1 is its twin), two vertices of degree 4.  The hypotheses of the theorems hold; the model
   builds a complex with 4 faces (A only, outside, A and B, B only) that satisfies dcel_ok. *)
Definition exXY : list pt :=
  map (fun p : Z * Z => (inject_Z (fst p), inject_Z (snd p)))
      [(0,0); (0,2); (1,1); (1,2); (1,3); (2,0); (2,1); (2,2); (3,1); (3,3)]%Z.
Definition ex_xy (v : nat) : pt := nth v exXY (0%Q, 0%Q).
Definition exLabA : lab := (true, false).
Definition exLabB : lab := (false, true).
Definition ex_edge (ke : nat * (nat * nat * lab)) : list phedge :=
  let k := fst ke in let '(u, v, l) := snd ke in
  [MkPE u (2 * k + 1) (ex_xy v) (ex_xy v) l l; MkPE v (2 * k) (ex_xy u) (ex_xy u) l (false, false)].
Definition exSquares : precomplex :=
  MkPC (map (fun iv => MkPV (snd iv) (negb (existsb (Nat.eqb (fst iv)) [2; 4; 8; 9]), negb (existsb (Nat.eqb (fst iv)) [0; 1; 5; 7])))
            (indexed_from 0 exXY))
       (flat_map ex_edge (indexed_from 0
          [(0, 5, exLabA); (5, 6, exLabA); (6, 7, exLabA); (7, 3, exLabA); (3, 1, exLabA); (1, 0, exLabA);
           (2, 6, exLabB); (6, 8, exLabB); (8, 9, exLabB); (9, 4, exLabB); (4, 3, exLabB); (3, 2, exLabB)]%nat)).

Example squares_hypotheses :
  pre_wf exSquares = true /\ pre_dirs_ok exSquares = true /\ pre_src_sym exSquares = true /\
  pre_srcface_le exSquares = true /\
  pnV exSquares = 10%nat /\ pnE exSquares = 24%nat /\
  (* the vertex (2,1) has four outgoing half edges; sorted: down (to (2,0)), right, up, left *)
  incidents exSquares 6 = [3; 4; 13; 14]%nat /\ sorted_incidents exSquares 6 = [3; 14; 4; 13]%nat.
Proof. vm_compute. repeat split; reflexivity. Qed.

Example squares_fixup :
  match fixup exSquares with
  | Some c =>
      dcel_ok c = true /\ length (c_faces c) = 4%nat /\
      map f_in (c_faces c) = [(true, false); (false, false); (true, true); (false, true)] /\
      (* the cycle of the face "A and B": (1,1) -> (2,1) -> (2,2) -> (1,2) *)
      nth_error (match assignFaces exSquares (l_next (fixVertices exSquares)) with Some fo => fo_cycles fo | None => [] end) 2
        = Some [4; 6; 22; 12]%nat
  | None => False
  end.
Proof. vm_compute. repeat split; reflexivity. Qed.

(* radialLess on the eight lattice directions, counter-clockwise from "down": each is less than all later ones *)
Example radial_example :
  let ds : list pt := map (fun p : Z * Z => (inject_Z (fst p), inject_Z (snd p)))
                          [(0,-1); (1,-1); (1,0); (1,1); (0,1); (-1,1); (-1,0); (-1,-1)]%Z in
  forallb (fun ia => forallb (fun jb => Bool.eqb (radialLess (snd ia) (snd jb)) (Nat.ltb (fst ia) (fst jb)))
                             (indexed_from 0 ds)) (indexed_from 0 ds) = true /\
  radialLess (1%Q, 1%Q) (2%Q, 2%Q) = true /\ radialLess (2%Q, 2%Q) (1%Q, 1%Q) = false /\ forallb pt_nonzero ds = true.
Proof. vm_compute. repeat split; reflexivity. Qed.
