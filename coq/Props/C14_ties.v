(* C14 - the translator tie as statements (nothing else in this file): geom/type_multi_line_string.go:Length,
   geom/type_line_string.go:Centroid and geom/type_multi_point.go:Centroid, re-read from the Go source on every
   run into Gen/FuncsLoop.v, ARE the model functions of Model/Measure.v (mline_length, line_centroid,
   mpoint_centroid) the C14 theorems are about - for every root function and collections of any size.
   Proofs are in Proofs/Funcs_tie_Loop_Measure2.v, over Proofs/Funcs_tie_Loop_Measure.v (the ring and line
   loops) and Proofs/Funcs_tie_Loop_lib.v (the loop rules). *)
From Coq Require Import QArith List ZArith.
From SF Require Import Base.FOps Base.GeomAST Gen.FuncsLoop Model.Measure Proofs.Funcs_tie_Loop_lib
  Proofs.Funcs_tie_Loop_Measure Proofs.Funcs_tie_Loop_Measure2.

Theorem go_MultiLineString_Length_is_model : forall (sq : Q -> Q) (hy : Q -> Q -> Q),
  (forall x y, hy x y = sq (x * x + y * y)) -> forall (ls : list (lineT Q)) (ct : Z),
  geom_MultiLineString_Length (qops_with sq hy) (Mk_geom_MultiLineString (map gls (map gline ls)) ct)
  = Known (mline_length sq ls).
Proof. exact go_mls_length. Qed.
Print Assumptions go_MultiLineString_Length_is_model.

Theorem go_LineString_Centroid_is_model : forall (sq : Q -> Q) (hy : Q -> Q -> Q),
  (forall x y, hy x y = sq (x * x + y * y)) -> forall l : lineT Q,
  known_map point_xy_opt (geom_LineString_Centroid (qops_with sq hy) (gls (gline l))) = Known (line_centroid sq l).
Proof. exact go_ls_centroid. Qed.
Print Assumptions go_LineString_Centroid_is_model.

Theorem go_MultiPoint_Centroid_is_model : forall (sq : Q -> Q) (hy : Q -> Q -> Q) (ps : list (pointT Q)) (ct : Z),
  known_map point_xy_opt (geom_MultiPoint_Centroid (qops_with sq hy) (Mk_geom_MultiPoint (map (gpoint sq hy) ps) ct))
  = Known (mpoint_centroid ps).
Proof. exact go_mp_centroid. Qed.
Print Assumptions go_MultiPoint_Centroid_is_model.
