(* Property C01 (and C02: Relate uses the same overlay) - the FIRST PHASES OF THE OVERLAY ENGINE in exact
   arithmetic: geom/dcel.go:newDCELFromGeometries up to (excluding) fixVertices, i.e.
   createGhosts/spanningTree, reNodeGeometries (point x line pass, line x line pass, reNodeLineString),
   findInteractionPoints, forEachNonInteractingSegment.  Model: Model/OverlayRenode.v (over Q; the float
   node snapping of dcel_node_set.go is abstracted to EQUALITY of points, the tolerance of the point x
   line pass to distance 0, R-tree searches to scans, the disjoint set to its partition, the
   PrioritySearch order to a parameter).  Statements only; proofs in Proofs/OverlayRenode_proofs.v (T1, T2),
   Proofs/OverlayRenode_tree_proofs.v (T3) and Proofs/OverlayRenode_ip_proofs.v (T4).

   T1  re-noding preserves the point set of every line and of every linear element, and the vertices
       of a cut line are strictly ordered along it;
   T2  the output of reNodeGeometries is FULLY NODED, for ALL inputs over Q (no general-position or
       validity hypothesis): two pieces are disjoint, or share only end points, or are the same
       segment (collinear overlaps are cut at both ends); every control point of the input
       (in particular every Point) is an end of every piece it lies on;
   T3  the ghost spanning tree has n-1 edges on the n distinct component points and connects them, for
       every enumeration order of PrioritySearch that offers every record;
   T4  here PARTIAL: which control points are certainly interaction points (order-independent), and what the
       chains of forEachNonInteractingSegment are; the global statement is proved in Props/C01_pipeline.v. *)
From Coq Require Import QArith List Bool ZArith Sorted Relations.
From SF Require Import Base.GeomAST Base.QKernel Base.Planar Model.OverlayRenode
  Proofs.OverlayRenode_proofs Proofs.OverlayRenode_tree_proofs Proofs.OverlayRenode_ip_proofs.
Import ListNotations.
Open Scope Q_scope.

(* ================================================================ T1 *)
(* one line, ANY admissible cut function (cuts on the line, not its ends): the pieces between the
   consecutive vertices  a :: sort+uniquify(cuts) ++ [b]  cover exactly the line *)
Theorem renode_line_point_set : forall (cutf : seg -> list pt) (a b : pt),
  ~ pt_eq a b -> cuts_ok cutf (a, b) ->
  forall x, (exists s, In s (line_pieces cutf (a, b)) /\ on_seg s x = true) <-> on_seg (a, b) x = true.
Proof. exact (fun cutf a b H1 H2 => line_pieces_cover a b H1 cutf H2). Qed.
Print Assumptions renode_line_point_set.

(* the vertex order produced by reNodeLineString's comparator (squared distance from ln.a, ties by
   XY.Less) followed by uniquifyGroupedXYs is STRICTLY monotone in the parameter along the line
   (tpar a b p = ((p-a).(b-a))/|b-a|^2), from a (parameter 0) to b (parameter 1): no repeated vertex,
   no back-tracking *)
Theorem renode_line_monotone : forall (cutf : seg -> list pt) (a b : pt),
  ~ pt_eq a b -> cuts_ok cutf (a, b) ->
  StronglySorted (fun p q => tpar a b p < tpar a b q) (line_verts cutf (a, b)) /\
  Forall (fun p => on_seg (a, b) p = true) (line_verts cutf (a, b)).
Proof.
  exact (fun cutf a b H1 H2 => conj (line_verts_strict a b H1 cutf H2) (line_verts_on a b cutf H2)).
Qed.
Print Assumptions renode_line_monotone.

(* both passes use admissible cut functions *)
Theorem renode_cuts_admissible :
  (forall nodes ln, cuts_ok (cuts_point_x_line nodes) ln) /\
  (forall lines ln, (forall s, In s lines -> ~ pt_eq (fst s) (snd s)) -> ~ pt_eq (fst ln) (snd ln) ->
                    cuts_ok (cuts_line_x_line lines) ln).
Proof. exact (conj cuts_ok_point_x_line cuts_ok_line_x_line). Qed.
Print Assumptions renode_cuts_admissible.

(* a whole linear element (line string or ring) under reNodeLineString *)
Theorem renode_line_string_point_set : forall cutf ps,
  (forall ln, In ln (lines_of ps) -> cuts_ok cutf ln) ->
  forall x, on_edges (ring_edges (renode_ls cutf ps)) x = true <-> on_edges (lines_of ps) x = true.
Proof. exact renode_ls_point_set. Qed.
Print Assumptions renode_line_string_point_set.

(* reNodeGeometries, both passes: element by element (operand A, operand B, ghosts) the point set is
   unchanged.  No hypothesis. *)
Theorem renode_preserves_point_sets : forall nodes ea eb gh,
  Forall2 (fun e e' => forall x, on_edges (ring_edges e') x = true <-> on_edges (lines_of e) x = true)
          (ea ++ eb ++ gh) (rn_all (renode_elems nodes ea eb gh)).
Proof. exact renode_point_sets_all. Qed.
Print Assumptions renode_preserves_point_sets.

(* ================================================================ T2 *)
(* Noded L: for any two pieces P Q of L and any common point x: x is an end of both, or P and Q are
   the same segment.  For ALL inputs. *)
Theorem renode_fully_noded : forall nodes ea eb gh, Noded (rn_pieces (renode_elems nodes ea eb gh)).
Proof. exact renode_noded_lemma. Qed.
Print Assumptions renode_fully_noded.

Theorem renode_geometries_fully_noded : forall (a b : geom) ghosts,
  Noded (rn_pieces (renode_geometries a b ghosts)).
Proof. exact (fun a b g => renode_noded_lemma (all_nodes a b g) (g_elems a) (g_elems b) g). Qed.
Print Assumptions renode_geometries_fully_noded.

(* the core of it, for any set of non-degenerate lines: after cutting every line at the points
   symmetricLineIntersection reports against every line, the pieces are fully noded *)
Theorem line_x_line_pass_noded : forall S : list seg,
  (forall s, In s S -> ~ pt_eq (fst s) (snd s)) ->
  Noded (flat_map (line_pieces (cuts_line_x_line S)) S).
Proof. exact pass2_noded. Qed.
Print Assumptions line_x_line_pass_noded.

(* points: every node (control point of an operand or ghost; every Point / MultiPoint member) that lies
   on a piece is an end of that piece - this is what the point x line pass is for *)
Theorem renode_nodes_are_piece_ends : forall nodes ea eb gh p P,
  In p nodes -> In P (rn_pieces (renode_elems nodes ea eb gh)) -> on_seg P p = true -> is_end_p P p.
Proof. exact renode_nodes_noded_lemma. Qed.
Print Assumptions renode_nodes_are_piece_ends.

(* the executable form evaluated by the driver on the REAL chains of the implementation's DCEL *)
Theorem noded_b_is_noded : forall L,
  (forall s, In s L -> ~ pt_eq (fst s) (snd s)) -> noded_b L = true -> Noded L.
Proof. exact noded_b_sound. Qed.
Print Assumptions noded_b_is_noded.

(* what symmetricLineIntersection is in exact arithmetic (for non-degenerate lines, in any argument
   order): sound; the unique common point of non-collinear lines; for collinear lines every end of one
   lying on the other is reported, and only ends are reported *)
Theorem symmetric_line_intersection_spec : forall s t,
  ~ pt_eq (fst s) (snd s) -> ~ pt_eq (fst t) (snd t) -> isect_ok s t (sym_isect s t).
Proof. exact sym_isect_ok. Qed.
Print Assumptions symmetric_line_intersection_spec.

(* ================================================================ T3 *)
(* for every enumeration order [prio] that offers every record (and only records): n-1 edges *)
Theorem spanning_tree_edge_count : forall (prio : nat -> list nat) (n : nat),
  (forall i j, (i < n)%nat -> (j < n)%nat -> In j (prio i)) -> (forall i j, In j (prio i) -> (j < n)%nat) ->
  length (st_edges prio n) = (n - 1)%nat.
Proof. exact st_edges_count. Qed.
Print Assumptions spanning_tree_edge_count.

(* ... that connect all n items, each edge joining two different items in range *)
Theorem spanning_tree_connected : forall (prio : nat -> list nat) (n : nat),
  (forall i j, (i < n)%nat -> (j < n)%nat -> In j (prio i)) -> (forall i j, In j (prio i) -> (j < n)%nat) ->
  (forall i j, (i < n)%nat -> (j < n)%nat -> st_conn (st_edges prio n) i j) /\
  (forall i j, In (i, j) (st_edges prio n) -> (i < n)%nat /\ (j < n)%nat /\ i <> j).
Proof. exact (fun prio n H1 H2 => conj (st_edges_connected prio n H1 H2) (st_edges_ok prio n H1 H2)). Qed.
Print Assumptions spanning_tree_connected.

(* createGhosts: any two component points of the two operands are joined by a path of ghost lines, so
   the overlay graph is connected - which is what assignFaces' single flood fill relies on *)
Theorem create_ghosts_connects : forall (a b : geom) p q,
  (2 <= length (component_pts a ++ component_pts b))%nat ->
  In p (component_pts a ++ component_pts b) -> In q (component_pts a ++ component_pts b) ->
  exists p' q', pt_eq p' p /\ pt_eq q' q /\ ghost_conn (create_ghosts a b) p' q'.
Proof. exact create_ghosts_connects_lemma. Qed.
Print Assumptions create_ghosts_connects.

Theorem create_ghosts_count : forall (a b : geom),
  length (create_ghosts a b) =
  if Nat.leb (length (component_pts a ++ component_pts b)) 1 then 0%nat
  else (length (sort_uniq_xys (component_pts a ++ component_pts b)) - 1)%nat.
Proof. exact create_ghosts_count_lemma. Qed.
Print Assumptions create_ghosts_count.

(* ================================================================ T4 (partial) *)
(* The full statement is proved in Props/C01_pipeline.v (chains_meet_only_at_ends,
   chains_same_key_same_sequence).  It reads: let r be the re-noded input, I its interaction points and cs the chains
   of all elements; for any two chains c1 c2 of cs and any point x lying on a piece of c1 and on a piece
   of c2: x is (equal to) the first or last point of c1 and of c2 - or c1 and c2 are the same point
   sequence up to reversal (then addOrGetEdge maps them to the same pair of half edges).
   Proved here: the four ways a control point certainly becomes an interaction point, whatever the order in
   which operands, elements and points are visited (T4a-d); the chains start and end at interaction
   points and contain none in between, and cut the element exactly at those points (T4e).  With T2
   (two pieces meet only at common ends or coincide) this gives the local form: a control point at
   which two elements meet WITHOUT being the common interior continuation of both (same two
   neighbours) is an interaction point, hence an end of every chain through it.
   The full statement adds the induction along two chains that share an interior control point with
   equal neighbour pairs: they then share the next control point as well, and so on up to their ends
   (Proofs/OverlayPipeline_proofs.v: walk_fwd, share_piece). *)
Theorem interaction_points_ends_partial : forall ea pa eb pb gh p0 r,
  In (p0 :: r) (ea ++ eb ++ gh) ->
  In p0 (find_interaction_points ea pa eb pb gh) /\ In (last r p0) (find_interaction_points ea pa eb pb gh).
Proof. exact ip_endpoints_lemma. Qed.
Print Assumptions interaction_points_ends_partial.

Theorem interaction_points_points_partial : forall ea pa eb pb gh p,
  In p (pa ++ pb) -> In p (find_interaction_points ea pa eb pb gh).
Proof. exact ip_points_lemma. Qed.
Print Assumptions interaction_points_points_partial.

(* a line string that turns back on itself: the reversal point *)
Theorem interaction_points_reversal_partial : forall ea pa eb pb gh e a c b,
  In e (ea ++ eb ++ gh) -> consecutive3 e a c b -> pt_eq a b -> In c (find_interaction_points ea pa eb pb gh).
Proof. exact ip_spike_lemma. Qed.
Print Assumptions interaction_points_reversal_partial.

(* two occurrences (in the same or in different elements, of either operand or the ghosts) of a control
   point as a middle point whose canonicalised neighbour pairs differ *)
Theorem interaction_points_conflict_partial : forall ea pa eb pb gh e1 a1 c1 b1 e2 a2 c2 b2,
  In e1 (ea ++ eb ++ gh) -> consecutive3 e1 a1 c1 b1 -> In e2 (ea ++ eb ++ gh) -> consecutive3 e2 a2 c2 b2 ->
  pt_eq c1 c2 -> pair_eqb (adj_pair a1 b1) (adj_pair a2 b2) = false ->
  is_interaction (find_interaction_points ea pa eb pb gh) c1 = true.
Proof. exact ip_conflict_lemma. Qed.
Print Assumptions interaction_points_conflict_partial.

(* forEachNonInteractingSegment: the pieces of the chains are the pieces of the element, in order; every
   chain has at least two points, begins and ends at an interaction point and has none in between *)
Theorem chains_spec_partial : forall I ps cs,
  chains_of I ps = Some cs ->
  match ps with [] => True | p :: _ => is_interaction I p = true end ->
  flat_map (@ring_edges) cs = ring_edges ps /\ forallb (chain_ok_b (is_interaction I)) cs = true.
Proof. exact chains_of_spec_lemma. Qed.
Print Assumptions chains_spec_partial.

(* ================================================================ examples *)
(* two crossing squares, a line through vertices of both (collinear with nothing, through (2,2) and
   (4,0), (0,4)), and a point on an edge *)
Definition rv (x y : Z) : vtx Q := Build_vtx (inject_Z x) (inject_Z y) 0 0.
Definition rsq (x0 y0 x1 y1 : Z) : polyT Q :=
  MkPoly XY [MkLine XY [rv x0 y0; rv x1 y0; rv x1 y1; rv x0 y1; rv x0 y0]].
Definition exRA : geom := GPoly (rsq 0 0 4 4).
Definition exRB : geom :=
  GColl XY [GPoly (rsq 2 2 6 6); GLine (MkLine XY [rv (-2) 6; rv 6 (-2)]); GPoint (MkPoint XY (Some (rv 1 0)))].
Definition exSk := overlay_skeleton_of exRA exRB.

Example ex_ghosts : sk_ghost_lines exSk = [[(-2, 6); (2, 2)]; [(0, 0); (1, 0)]; [(1, 0); (2, 2)]]%Q.
Proof. vm_compute. reflexivity. Qed.
(* the square A is cut at the point (1,0), at the crossings (4,2), (2,4) with B's square and at the
   vertices (4,0), (0,4) the line passes through; the first ghost is cut at (0,4) *)
Example ex_renoded_a : rn_a (sk_renoded exSk) = [[(0, 0); (1, 0); (4, 0); (4, 2); (4, 4); (2, 4); (0, 4); (0, 0)]]%Q.
Proof. vm_compute. reflexivity. Qed.
Example ex_renoded_ghosts : rn_ghosts (sk_renoded exSk) = [[(-2, 6); (0, 4); (2, 2)]; [(0, 0); (1, 0)]; [(1, 0); (2, 2)]]%Q.
Proof. vm_compute. reflexivity. Qed.
Example ex_noded : noded_b (rn_pieces (sk_renoded exSk)) = true.
Proof. vm_compute. reflexivity. Qed.
Example ex_points_noded : points_noded_b [(1, 0)]%Q (rn_pieces (sk_renoded exSk)) = true.
Proof. vm_compute. reflexivity. Qed.
(* the un-noded input is NOT noded: the hypothesis-free theorem is not vacuous *)
Example ex_input_not_noded :
  noded_b (flat_map lines_of (g_elems exRA ++ g_elems exRB)) = false.
Proof. vm_compute. reflexivity. Qed.
Example ex_chain_ends :
  option_map (forallb (chain_ok_b (is_interaction (sk_vertices exSk)))) (sk_chains exSk) = Some true.
Proof. vm_compute. reflexivity. Qed.
Example ex_chains : option_map (@length _) (sk_chains exSk) = Some 17%nat.
Proof. vm_compute. reflexivity. Qed.
(* collinear overlap: both ends are cut *)
Example ex_overlap :
  rn_pieces (renode_elems [] [[(0, 0); (4, 0)]] [[(1, 0); (6, 0)]] [])%Q =
  [((0, 0), (1, 0)); ((1, 0), (4, 0)); ((1, 0), (4, 0)); ((4, 0), (6, 0))]%Q.
Proof. vm_compute. reflexivity. Qed.
(* the exact kernel agrees with the transcription of intersectLine's float case analysis here *)
Example ex_intersect_line_agrees :
  forallb (fun l => forallb (isect_agree_b l) (flat_map lines_of (g_elems exRA ++ g_elems exRB)))
          (flat_map lines_of (g_elems exRA ++ g_elems exRB)) = true.
Proof. vm_compute. reflexivity. Qed.
