(* Property C16 - Coordinate type and Z/M payload are carried consistently through every operation.
   Statements only; proofs are in Proofs/CType_proofs.v (the WKB round trip at the end: Proofs/WKB_proofs.v).
   The model is Model/CType.v.

   Every theorem is generic in the ordinate carrier F with a zero and a zero test
   (hypotheses Z1, Z2 below; the extraction instantiates F := N, raw IEEE-754 bit patterns, see
   carrier_N).  `consistent g` = every node of g reports the coordinates type of the root and
   every ordinate outside that type is zero.  Operations that involve floating-point XY arithmetic
   carry that arithmetic as an argument (TransformXY's callback, the orientation sign used by
   ForceCW/CCW, the interpolated vertices of Densify, the value of an XY-only result): the
   theorems quantify over all such arguments. *)
From Coq Require Import NArith List Bool.
From SF Require Import Base.Outcome Base.Bytes Base.GeomAST Model.WKB Model.CType Proofs.CType_proofs.
Import ListNotations.

(* ------------------------------------------------------------------ constructors *)
(* Each New* yields a value all of whose nodes report one type: XY for an empty member list,
   otherwise the AND (common subset) of the members' types - for ANY members, also members of
   different types, empty members, members that are themselves inconsistent. *)
Theorem ctor_consistent : forall (F : Type) (zero : F) (is_zero : F -> bool),
  is_zero zero = true ->
  (forall rings, consistent is_zero (GPoly (new_polygon zero rings)) = true /\
                 poly_ct (new_polygon zero rings) = match rings with [] => XY | _ => and_all line_ct rings end) /\
  (forall ps, consistent is_zero (new_multipoint zero ps) = true /\
              geom_ct (new_multipoint zero ps) = match ps with [] => XY | _ => and_all point_ct ps end) /\
  (forall ls, consistent is_zero (new_multiline zero ls) = true /\
              geom_ct (new_multiline zero ls) = match ls with [] => XY | _ => and_all line_ct ls end) /\
  (forall ps, consistent is_zero (new_multipoly zero ps) = true /\
              geom_ct (new_multipoly zero ps) = match ps with [] => XY | _ => and_all poly_ct ps end) /\
  (forall gs, consistent is_zero (new_collection zero gs) = true /\
              geom_ct (new_collection zero gs) = match gs with [] => XY | _ => and_all geom_ct gs end).
Proof.
  intros F zero is_zero Z1. repeat split.
  - apply (new_polygon_ok F zero is_zero Z1).
  - apply (new_multipoint_consistent F zero is_zero Z1).
  - apply new_multipoint_ct.
  - apply (new_multiline_consistent F zero is_zero Z1).
  - apply new_multiline_ct.
  - apply (new_multipoly_consistent F zero is_zero Z1).
  - apply new_multipoly_ct.
  - apply (new_collection_consistent F zero is_zero Z1).
  - apply new_collection_ct.
Qed.
Print Assumptions ctor_consistent.

(* NewPoint(Coordinates{...}) (with fix F61): whatever the caller left in the Z/M fields, the point
   meets the representation invariant (fields the type does not have are zero, so nothing can leak
   through Point.Coordinates() or come back on a later ForceCoordinatesType); X, Y and the fields
   the type has are stored as given; a struct that already meets the invariant is stored unchanged *)
Theorem new_point_consistent : forall (F : Type) (zero : F) (is_zero : F -> bool),
  is_zero zero = true -> (forall x, is_zero x = true -> x = zero) ->
  forall (ct : ctype) (v : vtx F),
  consistent is_zero (GPoint (new_point zero ct v)) = true /\
  (match point_c (new_point zero ct v) with
   | Some w => vx w = vx v /\ vy w = vy v /\ vz w = (if has_z ct then vz v else zero) /\
               vm w = (if has_m ct then vm v else zero)
   | None => False
   end) /\
  (vtx_ok is_zero ct v = true -> new_point zero ct v = MkPoint ct (Some v)).
Proof.
  intros F zero is_zero Z1 Z2 ct v. split; [|split].
  - apply new_point_ok_lemma; assumption.
  - eapply new_point_fields_lemma; eassumption.
  - apply new_point_id_lemma; assumption.
Qed.
Print Assumptions new_point_consistent.

(* the AND has exactly the dimensions every member has; members that agree are kept unchanged *)
Theorem ctor_common_subset : forall (A : Type) (f : A -> ctype) (l : list A),
  has_z (and_all f l) = forallb (fun a => has_z (f a)) l /\
  has_m (and_all f l) = forallb (fun a => has_m (f a)) l.
Proof. intros. split. apply has_z_and_all. apply has_m_and_all. Qed.
Print Assumptions ctor_common_subset.

(* ------------------------------------------------------------------ the invariant, all histories *)
Theorem apply_consistent : forall (F : Type) (zero : F) (is_zero : F -> bool),
  is_zero zero = true -> (forall x, is_zero x = true -> x = zero) ->
  forall (g : geomT F) (o : op F) (r : geomT F),
  consistent is_zero g = true -> apply zero g o = Some r -> consistent is_zero r = true.
Proof. exact apply_consistent_lemma. Qed.
Print Assumptions apply_consistent.

Theorem history_consistent : forall (F : Type) (zero : F) (is_zero : F -> bool),
  is_zero zero = true -> (forall x, is_zero x = true -> x = zero) ->
  forall (ops : list (op F)) (g : geomT F),
  consistent is_zero g = true -> consistent is_zero (fold_left (apply_t zero) ops g) = true.
Proof. exact run_consistent_lemma. Qed.
Print Assumptions history_consistent.

(* ------------------------------------------------------------------ the statement, all histories *)
(* CType.spec is the executable statement of the property, operation by operation (same tree,
   node types as the table says, every vertex keeps its own Z and M with its XY, forced
   dimensions zero/dropped, members hold their part of the parent's vertices ...).  The model
   meets it on every consistent value; feqb is any reflexive comparison of ordinates. *)
Theorem apply_meets_spec : forall (F : Type) (zero : F) (is_zero : F -> bool) (feqb : F -> F -> bool),
  is_zero zero = true -> (forall x, is_zero x = true -> x = zero) -> (forall a, feqb a a = true) ->
  forall (g : geomT F) (o : op F) (r : geomT F),
  consistent is_zero g = true -> apply zero g o = Some r -> spec zero feqb is_zero g o r = true.
Proof. intros F zero is_zero feqb Z1 Z2 R. exact (spec_sound_lemma F zero is_zero Z1 Z2 feqb R). Qed.
Print Assumptions apply_meets_spec.

Theorem history_meets_spec : forall (F : Type) (zero : F) (is_zero : F -> bool) (feqb : F -> F -> bool),
  is_zero zero = true -> (forall x, is_zero x = true -> x = zero) -> (forall a, feqb a a = true) ->
  forall (ops : list (op F)) (g : geomT F),
  consistent is_zero g = true -> history_ok zero feqb is_zero g ops = true.
Proof. intros F zero is_zero feqb Z1 Z2 R. exact (history_ok_lemma F zero is_zero Z1 Z2 feqb R). Qed.
Print Assumptions history_meets_spec.

(* the coordinates type of the result is the function of (type of g, operation) given by
   CType.ctype_rule: c for Force c, XY for Force2D and the XY-only operations, unchanged for
   Reverse/TransformXY/ForceCW/CCW/AsMulti/members/DumpCoordinates/Densify, XY-or-unchanged for
   the constructors on an empty/non-empty member list, a subset for re-assembled Coordinates() *)
Theorem ctype_table : forall (F : Type) (zero : F) (is_zero : F -> bool),
  is_zero zero = true -> (forall x, is_zero x = true -> x = zero) ->
  forall (g : geomT F) (o : op F) (r : geomT F),
  consistent is_zero g = true -> apply zero g o = Some r -> ctype_rule g o r.
Proof. exact ctype_rule_lemma. Qed.
Print Assumptions ctype_table.

(* ------------------------------------------------------------------ ForceCoordinatesType *)
(* for EVERY input (empty ones, inconsistent ones): the result is typed c at every node *)
Theorem force_types_every_node : forall (F : Type) (zero : F) (is_zero : F -> bool),
  is_zero zero = true -> forall (c : ctype) (g : geomT F),
  geom_ct (force_geom zero c g) = c /\ consistent is_zero (force_geom zero c g) = true.
Proof. intros F zero is_zero Z1 c g. split; [apply force_geom_ct | now apply force_consistent]. Qed.
Print Assumptions force_types_every_node.

(* on a consistent value of type old: the same tree (map_vertices keeps every member, ring and
   sequence length, also empty ones), every vertex forced, so its vertex list is the image *)
Theorem force_spec : forall (F : Type) (zero : F) (is_zero : F -> bool)
  (c : ctype) (g : geomT F), consistent is_zero g = true ->
  force_geom zero c g = map_vertices c (force_vtx zero (geom_ct g) c) g /\
  geom_vs (force_geom zero c g) = map (force_vtx zero (geom_ct g) c) (geom_vs g).
Proof.
  intros F zero is_zero c g H. split.
  - exact (force_geom_char F zero is_zero (geom_ct g) c g H).
  - exact (force_geom_vs F zero is_zero (geom_ct g) c g H).
Qed.
Print Assumptions force_spec.

(* per vertex: X and Y never change; a dimension is kept iff both types have it; a dimension
   that is dropped disappears (zero in the unused field), one that is added is zero *)
Theorem force_vtx_spec : forall (F : Type) (zero : F) (old new : ctype) (v : vtx F),
  vx (force_vtx zero old new v) = vx v /\ vy (force_vtx zero old new v) = vy v /\
  vz (force_vtx zero old new v) = (if has_z new && has_z old then vz v else zero) /\
  vm (force_vtx zero old new v) = (if has_m new && has_m old then vm v else zero).
Proof. intros. unfold force_vtx; simpl. destruct (has_z new), (has_z old), (has_m new), (has_m old); auto. Qed.
Print Assumptions force_vtx_spec.

Theorem force_idempotent : forall (F : Type) (zero : F) (is_zero : F -> bool),
  is_zero zero = true -> (forall x, is_zero x = true -> x = zero) ->
  forall (c : ctype) (g : geomT F), force_geom zero c (force_geom zero c g) = force_geom zero c g.
Proof. exact force_idempotent_lemma. Qed.
Print Assumptions force_idempotent.

(* two forcings: what survives is what both target types have - for every value *)
Theorem force_force : forall (F : Type) (zero : F) (c1 c2 : ctype) (g : geomT F),
  force_geom zero c2 (force_geom zero c1 g) = force_geom zero c2 (force_geom zero (ct_and c1 c2) g).
Proof. exact force_force_lemma. Qed.
Print Assumptions force_force.

(* the intermediate type is invisible when it keeps every dimension that the value has and the
   final type asks for (in particular when c2's dimensions are a subset of c1's) *)
Theorem force_force_absorb : forall (F : Type) (zero : F) (is_zero : F -> bool) (c1 c2 : ctype) (g : geomT F),
  consistent is_zero g = true -> ct_sub (ct_and c2 (geom_ct g)) c1 = true ->
  force_geom zero c2 (force_geom zero c1 g) = force_geom zero c2 g.
Proof. exact force_force_absorb_lemma. Qed.
Print Assumptions force_force_absorb.

(* the Go-literal shortcuts (Point: "zero Z iff Is3D changes"; Sequence: "same type: return s",
   "no floats: return empty") agree with the plain per-vertex rule on every value satisfying the
   representation invariant *)
Theorem go_force_refines : forall (F : Type) (zero : F) (is_zero : F -> bool),
  is_zero zero = true -> (forall x, is_zero x = true -> x = zero) ->
  (forall new p, point_ok is_zero (point_ct p) p = true -> go_force_point zero new p = force_point zero new p) /\
  (forall new l, line_ok is_zero (line_ct l) l = true -> go_force_line zero new l = force_line zero new l).
Proof.
  intros F zero is_zero Z1 Z2. split.
  - exact (go_force_point_refines F zero is_zero Z1 Z2).
  - exact (go_force_line_refines F zero is_zero Z2).
Qed.
Print Assumptions go_force_refines.

(* ------------------------------------------------------------------ payload follows XY *)
(* Reverse: every sequence (point, line, ring) is reversed as a list of whole vertices *)
Theorem reverse_payload : forall (F : Type) (is_zero : F -> bool) (g : geomT F),
  consistent is_zero g = true -> geom_seqs (reverse_geom g) = map (@rev (vtx F)) (geom_seqs g).
Proof. intros F is_zero g H. exact (geom_seqs_reverse F is_zero (geom_ct g) g H). Qed.
Print Assumptions reverse_payload.

Theorem reverse_involutive : forall (F : Type) (g : geomT F), reverse_geom (reverse_geom g) = g.
Proof. intros. apply reverse_involutive_lemma. Qed.
Print Assumptions reverse_involutive.

(* TransformXY with any callback f: the vertices are the images, each keeps its own Z and M *)
Theorem transform_payload : forall (F : Type) (zero : F) (is_zero : F -> bool),
  is_zero zero = true -> (forall x, is_zero x = true -> x = zero) ->
  forall (f : xyfun F) (g : geomT F), consistent is_zero g = true ->
  geom_vs (tx_geom zero f g) = map (tx_vtx f) (geom_vs g) /\
  forall v, vz (tx_vtx f v) = vz v /\ vm (tx_vtx f v) = vm v /\ (vx (tx_vtx f v), vy (tx_vtx f v)) = f (vx v) (vy v).
Proof.
  intros F zero is_zero Z1 Z2 f g H. split.
  - exact (geom_vs_tx F zero is_zero Z2 f (geom_ct g) g H).
  - intros v. unfold tx_vtx. destruct (f (vx v) (vy v)); auto.
Qed.
Print Assumptions transform_payload.

(* ------------------------------------------------------------------ XY-only operations *)
Theorem xy_only_ops_are_xy : forall (F : Type) (zero : F) (is_zero : F -> bool),
  is_zero zero = true -> forall (k : xyop) (res g : geomT F),
  geom_ct (apply_xy zero k res g) = XY /\ consistent is_zero (apply_xy zero k res g) = true.
Proof.
  intros F zero is_zero Z1 k res g. pose proof (apply_xy_xy F zero is_zero Z1 k res g) as H. split.
  - exact (geom_ok_ct F is_zero XY _ H).
  - exact (ok_consistent F is_zero XY _ H).
Qed.
Print Assumptions xy_only_ops_are_xy.

(* ------------------------------------------------------------------ WKB round trip (from C04) *)
From SF Require Proofs.WKB_proofs.
Theorem wkb_roundtrip_identity : forall g : geomT N, wf_wkb g = true -> dec (enc g) = Ok (g, []).
Proof. exact WKB_proofs.wkb_roundtrip_identity_lemma. Qed.
Print Assumptions wkb_roundtrip_identity.

(* ------------------------------------------------------------------ non-vacuity *)
(* the carrier of the extraction meets the hypotheses *)
Example carrier_N : N.eqb 0 0 = true /\ (forall x : N, N.eqb 0 x = true -> x = 0%N) /\ (forall a : N, N.eqb a a = true).
Proof. split; [reflexivity|]. split; [intros x H; symmetry; now apply N.eqb_eq | apply N.eqb_refl]. Qed.

(* a consistent XYZM collection with an empty point, an empty line, a polygon with two rings and a
   nested collection; and a history over it that forces, reverses, transforms, re-orients,
   rebuilds with mixed member types (M is lost to the AND, Z survives with its own vertex),
   extracts a member and dumps *)
Definition ex_v (x y z m : N) : vtx N := Build_vtx x y z m.
Definition ex_g : geomT N :=
  GColl XYZM [ GPoint (MkPoint XYZM None);
               GMPoint XYZM [MkPoint XYZM (Some (ex_v 1 2 3 4)); MkPoint XYZM None];
               GLine (MkLine XYZM []);
               GPoly (MkPoly XYZM [MkLine XYZM [ex_v 0 0 7 8; ex_v 4 0 9 10; ex_v 4 4 11 12; ex_v 0 0 7 8];
                                   MkLine XYZM [ex_v 1 1 13 14; ex_v 2 1 15 16; ex_v 1 1 13 14]]);
               GColl XYZM [GLine (MkLine XYZM [ex_v 5 5 17 18; ex_v 6 6 19 20])] ].
Definition ex_ops : list (op N) :=
  [ OReverse; OTransform (xyfam_fun FSwap); OForceCW (fun _ => Gt); ORebuild [XYZM; XYZ; XYZM; XYZ; XYZM];
    OForce XYZM; OMember 3; ODumpColl ].
Example ex_consistent : consistent_n ex_g = true.
Proof. vm_compute. reflexivity. Qed.
Example ex_history_applies :
  geom_vs (fold_left (apply_t 0%N) ex_ops ex_g) =
  [ex_v 0 0 7 0; ex_v 0 4 9 0; ex_v 4 4 11 0; ex_v 0 0 7 0; ex_v 1 1 13 0; ex_v 1 2 15 0; ex_v 1 1 13 0].
Proof. vm_compute. reflexivity. Qed.
Example ex_history_ok : history_ok 0%N N.eqb (N.eqb 0) ex_g ex_ops = true.
Proof. vm_compute. reflexivity. Qed.
(* the statement discriminates: a "reverse" that swaps the Z values of two vertices, one that
   leaves a node with the old type, and a force that keeps a dropped Z are all rejected *)
Example spec_rejects_swapped_z :
  spec_n (GLine (MkLine XYZ [ex_v 1 2 3 0; ex_v 4 5 6 0])) OReverse
         (GLine (MkLine XYZ [ex_v 4 5 3 0; ex_v 1 2 6 0])) = false.
Proof. vm_compute. reflexivity. Qed.
Example spec_rejects_stale_node_type :
  spec_n (GMPoint XYZ [MkPoint XYZ None]) (OForce XY) (GMPoint XY [MkPoint XYZ None]) = false.
Proof. vm_compute. reflexivity. Qed.
Example spec_rejects_kept_z :
  spec_n (GPoint (MkPoint XYZ (Some (ex_v 1 2 3 0)))) (OForce XYM) (GPoint (MkPoint XYM (Some (ex_v 1 2 0 3)))) = false.
Proof. vm_compute. reflexivity. Qed.
(* constructors on mixed members: XYZ and XYM reduce to XY (both payloads go), XYZM and XYZ to XYZ *)
Example ctor_mixed_and :
  new_collection 0%N [GPoint (MkPoint XYZ (Some (ex_v 1 2 3 0))); GPoint (MkPoint XYM (Some (ex_v 4 5 0 6)))]
  = GColl XY [GPoint (MkPoint XY (Some (ex_v 1 2 0 0))); GPoint (MkPoint XY (Some (ex_v 4 5 0 0)))] /\
  new_multipoint 0%N [MkPoint XYZM (Some (ex_v 1 2 3 4)); MkPoint XYZ None]
  = GMPoint XYZ [MkPoint XYZ (Some (ex_v 1 2 3 0)); MkPoint XYZ None].
Proof. split; vm_compute; reflexivity. Qed.
(* force_force_absorb: the hypothesis is satisfiable and cannot be dropped *)
Example absorb_applies : ct_sub (ct_and XYZ (geom_ct ex_g)) XYZM = true.
Proof. reflexivity. Qed.
Example absorb_hypothesis_needed :
  force_geom 0%N XYZ (force_geom 0%N XY ex_g) <> force_geom 0%N XYZ ex_g.
Proof. vm_compute. discriminate. Qed.
(* an empty geometry keeps / gets the requested type at every node *)
Example force_on_empties :
  force_geom 0%N XYM (GColl XYZ [GPoint (MkPoint XYZ None); GMLine XYZ [MkLine XYZ []]; GPoly (MkPoly XYZ [])])
  = GColl XYM [GPoint (MkPoint XYM None); GMLine XYM [MkLine XYM []]; GPoly (MkPoly XYM [])].
Proof. reflexivity. Qed.
(* the struct stored as given (NewPoint before fix F61) is not consistent: Type XY with Z = 7, M = 9 *)
Example raw_struct_leaks : consistent_n (GPoint (new_point_raw XY (ex_v 1 2 7 9))) = false /\
                           consistent_n (GPoint (new_point 0%N XY (ex_v 1 2 7 9))) = true.
Proof. split; reflexivity. Qed.
